(* DWARF addresses follow their instructions and functions: facts about the address classifier
   (find_address) and the converter (convert / convert_address) of Model/Dwarf.v on well-formed tables. *)
From Coq Require Import List NArith Bool Lia Sorted.
Import ListNotations.
From WV Require Import Model.Common Model.Dwarf Model.CodeMap.
Local Open Scope N_scope.

Lemma leb5_spec : forall n,
  (n < 128 /\ leb5 n = 1) \/ (128 <= n < 16384 /\ leb5 n = 2) \/ (16384 <= n < 2097152 /\ leb5 n = 3) \/
  (2097152 <= n < 268435456 /\ leb5 n = 4) \/ (268435456 <= n /\ leb5 n = 5).
Proof.
  intro n. unfold leb5.
  destruct (N.ltb_spec n 128); [left; auto|right].
  destruct (N.ltb_spec n 16384); [left; auto|right].
  destruct (N.ltb_spec n 2097152); [left; auto|right].
  destruct (N.ltb_spec n 268435456); [left|right]; auto.
Qed.

Lemma leb5_range : forall n, 1 <= leb5 n <= 5.
Proof. intro n. pose proof (leb5_spec n). lia. Qed.

Lemma leb5_mono : forall x y, x <= y -> leb5 x <= leb5 y.
Proof. intros x y Hxy. pose proof (leb5_spec x). pose proof (leb5_spec y). lia. Qed.

(* On an entry of total length leb5 sz + sz the test that body_start makes for a candidate length l of the size field
   succeeds for l = leb5 sz only: a shorter l leaves at least sz, a longer one at most sz, and leb5 is monotone. *)
Lemma size_field_test : forall sz l,
  (l <=? leb5 sz + sz) && (leb5 (leb5 sz + sz - l) =? l) = (l =? leb5 sz).
Proof.
  intros sz l. destruct (N.eqb_spec l (leb5 sz)) as [->|Hne].
  - replace (leb5 sz + sz - leb5 sz) with sz by lia.
    rewrite N.eqb_refl, andb_true_r. apply N.leb_le. lia.
  - apply andb_false_iff. right. apply N.eqb_neq.
    pose proof (leb5_mono sz (leb5 sz + sz - l)). pose proof (leb5_mono (leb5 sz + sz - l) sz). lia.
Qed.

(* the LEB length of the size field is recovered uniquely from the total length of a code entry
   (no upper bound on the size is needed: above 2^28 the model's [leb5] is constantly 5) *)
Lemma body_start_spec_gen : forall s sz, body_start (s, s + leb5 sz + sz) = s + leb5 sz.
Proof.
  intros s sz. unfold body_start. cbn [fst snd].
  replace (s + leb5 sz + sz - s) with (leb5 sz + sz) by lia.
  rewrite !size_field_test.
  destruct (leb5_spec sz) as [[_ ->]|[[_ ->]|[[_ ->]|[[_ ->]|[_ ->]]]]]; reflexivity.
Qed.

Lemma body_start_spec : forall s sz, 2 <= sz -> sz < 4294967296 -> body_start (s, s + leb5 sz + sz) = s + leb5 sz.
Proof. intros s sz _ _. apply body_start_spec_gen. Qed.

Lemma div_ltb : forall n a b, a <> 0 -> (n / a <? b) = (n <? a * b).
Proof.
  intros n a b Ha. destruct (N.ltb_spec n (a * b)) as [H|H].
  - apply N.ltb_lt, N.div_lt_upper_bound; assumption.
  - apply N.ltb_ge, N.div_le_lower_bound; assumption.
Qed.

(* [leb5] is the LEB128 length of Model.CodeMap below 2^35 *)
Lemma leb5_leb_len : forall n, n < 34359738368 -> leb5 n = leb_len n.
Proof.
  intros n Hn. unfold leb_len, leb5. cbn [leb_len_fuel].
  (* both sides test n against the powers of 128 *)
  rewrite !N.shiftr_div_pow2. change (2 ^ 7) with 128. rewrite !N.div_div, !div_ltb by lia.
  change (128 * 128) with 16384. change (16384 * 128) with 2097152.
  change (2097152 * 128) with 268435456. change (268435456 * 128) with 34359738368.
  destruct (n <? 128); [reflexivity|]. destruct (n <? 16384); [reflexivity|].
  destruct (n <? 2097152); [reflexivity|]. destruct (n <? 268435456); [reflexivity|].
  apply N.ltb_lt in Hn. rewrite Hn. reflexivity.
Qed.

(* [start, end) is a code entry: a size field (LEB128 of sz) followed by a body of sz >= 2 bytes
   (at least a locals count and an `end`) *)
Definition code_entry (r : N * N) : Prop := exists sz, 2 <= sz /\ snd r = fst r + leb5 sz + sz.

Record tables_wf (t : dtables) : Prop := {
  (* instruction addresses strictly increasing *)
  wf_instrs_sorted : StronglySorted (fun p q => fst p < fst q) (dt_instrs t);
  (* ranges increasing and pairwise disjoint *)
  wf_ranges_sorted : StronglySorted (fun r s => rng_end r <= rng_start s) (dt_ranges t);
  (* every range is a code entry (in particular start < end) *)
  wf_ranges_entry : Forall (fun r => code_entry (fst r)) (dt_ranges t);
  (* every instruction lies in a range, strictly after its body start (after the locals declaration) *)
  wf_instrs_in : Forall (fun p => exists r, In r (dt_ranges t) /\ body_start (fst r) < fst p < rng_end r) (dt_instrs t)
}.

(* two functions: entry [10,17) = size 6 (1 byte) + body [11,17), instructions at 13 and 15;
                  entry [17,27) = size 9 (1 byte) + body [18,27), instruction at 24 *)
Definition ex_tables : dtables :=
  {| dt_instrs := [(13, 0); (15, 1); (24, 2)]; dt_ranges := [((10, 17), 7); ((17, 27), 8)] |}.

Example ex_tables_wf : tables_wf ex_tables.
Proof.
  constructor; cbn [ex_tables dt_instrs dt_ranges].
  - repeat constructor; cbn; lia.
  - repeat constructor; cbn; lia.
  - repeat constructor.
    + exists 6. cbn. split; [lia|reflexivity].
    + exists 9. cbn. split; [lia|reflexivity].
  - repeat constructor.
    + exists ((10, 17), 7). split; [cbn; tauto|]. vm_compute. split; reflexivity.
    + exists ((10, 17), 7). split; [cbn; tauto|]. vm_compute. split; reflexivity.
    + exists ((17, 27), 8). split; [cbn; tauto|]. vm_compute. split; reflexivity.
Qed.

Lemma ss_trichotomy {A} (R : A -> A -> Prop) (l : list A) :
  StronglySorted R l -> forall x y, In x l -> In y l -> x = y \/ R x y \/ R y x.
Proof.
  induction 1 as [|z l Hss IH Hall]; intros x y Hx Hy; [destruct Hx|].
  rewrite Forall_forall in Hall.
  destruct Hx as [->|Hx]; destruct Hy as [->|Hy]; auto.
Qed.

Lemma find_unique {A} (f : A -> bool) (l : list A) (x : A) :
  In x l -> f x = true -> (forall y, In y l -> f y = true -> y = x) -> find f l = Some x.
Proof.
  intros Hin Hfx Hu. destruct (find f l) as [y|] eqn:E.
  - apply find_some in E. f_equal. apply Hu; tauto.
  - pose proof (find_none _ _ E _ Hin) as Hn. congruence.
Qed.

Lemma find_all_false {A} (f : A -> bool) (l : list A) :
  (forall y, In y l -> f y = false) -> find f l = None.
Proof.
  intros Hf. destruct (find f l) as [y|] eqn:E; [|reflexivity].
  apply find_some in E. destruct E as [Hin Hy]. rewrite (Hf _ Hin) in Hy. discriminate.
Qed.

Lemma edge_none (l : list (N * N)) (id : nat) (a : N) :
  (forall p, In p l -> fst p - 1 <> a) ->
  match nth_error l id with
  | Some p => if fst p - 1 =? a then Some (snd p) else None
  | None => None
  end = None.
Proof.
  intros Hne. destruct (nth_error l id) as [p|] eqn:E; [|reflexivity].
  apply nth_error_In in E. apply Hne in E. apply N.eqb_neq in E. rewrite E. reflexivity.
Qed.

Lemma in_range_true_iff a r : in_range true a r = true <-> rng_start r < a <= rng_end r.
Proof. unfold in_range. rewrite andb_true_iff, N.ltb_lt, N.leb_le. tauto. Qed.

Lemma in_range_false_iff a r : in_range false a r = true <-> rng_start r <= a < rng_end r.
Proof. unfold in_range. rewrite andb_true_iff, N.ltb_lt, N.leb_le. tauto. Qed.

Lemma in_range_outside incl a r : a < rng_start r \/ rng_end r < a -> in_range incl a r = false.
Proof.
  intros H. unfold in_range. destruct incl; apply andb_false_iff; rewrite ?N.ltb_ge, ?N.leb_gt; lia.
Qed.

(* An address that is neither an instruction start, nor the byte before one, nor the body start of a range around it
   is classified by the ranges alone. *)
Lemma find_address_by_range t a incl :
  (forall p, In p (dt_instrs t) -> fst p <> a /\ fst p - 1 <> a) ->
  (forall r, In r (dt_ranges t) -> rng_start r <= a < rng_end r -> a <> body_start (fst r)) ->
  find_address t a incl =
    match find (in_range incl a) (dt_ranges t) with
    | Some r => if a =? rng_end r then CFnEdge (snd r) else COffset (snd r) (a - rng_start r)
    | None => CUnknown
    end.
Proof.
  intros Hni Hnb. unfold find_address.
  rewrite find_all_false.
  2:{ intros p Hp. apply N.eqb_neq, (Hni p Hp). }
  rewrite edge_none.
  2:{ intros p Hp. apply (Hni p Hp). }
  destruct (find (in_range false a) (dt_ranges t)) as [r|] eqn:Er; [|reflexivity].
  apply find_some in Er. destruct Er as [Hr Hi]. apply in_range_false_iff in Hi.
  apply (Hnb r Hr), N.eqb_neq in Hi. rewrite Hi, andb_false_r. reflexivity.
Qed.


Section Wf.
Variable t : dtables.
Hypothesis Hwf : tables_wf t.

(* shape of a range, with the LEB length abstracted *)
Lemma range_shape r : In r (dt_ranges t) ->
  exists k sz, 1 <= k <= 5 /\ 2 <= sz /\ body_start (fst r) = rng_start r + k /\ rng_end r = rng_start r + k + sz.
Proof.
  intros Hin. pose proof (wf_ranges_entry t Hwf) as He. rewrite Forall_forall in He.
  destruct (He _ Hin) as (sz & Hsz & Hend). destruct r as [[s e] fid].
  unfold rng_start, rng_end. cbn [fst snd] in *. subst e.
  exists (leb5 sz), sz. rewrite body_start_spec_gen. pose proof (leb5_range sz). repeat split; lia.
Qed.

Lemma range_nonempty r : In r (dt_ranges t) -> rng_start r < rng_end r.
Proof. intros Hin. destruct (range_shape r Hin) as (k & sz & ? & ? & ? & ?). lia. Qed.

Lemma ranges_tri r r' : In r (dt_ranges t) -> In r' (dt_ranges t) ->
  r = r' \/ rng_end r <= rng_start r' \/ rng_end r' <= rng_start r.
Proof. apply (ss_trichotomy _ _ (wf_ranges_sorted t Hwf)). Qed.

Lemma instr_in_range p : In p (dt_instrs t) ->
  exists r, In r (dt_ranges t) /\ body_start (fst r) < fst p < rng_end r.
Proof. intros Hin. pose proof (wf_instrs_in t Hwf) as H. rewrite Forall_forall in H. auto. Qed.

Lemma instr_range_unique p r r' : In p (dt_instrs t) -> In r (dt_ranges t) -> In r' (dt_ranges t) ->
  rng_start r <= fst p < rng_end r -> rng_start r' <= fst p < rng_end r' -> r = r'.
Proof. intros _ Hr Hr' H1 H2. destruct (ranges_tri r r' Hr Hr') as [?|[?|?]]; [assumption|lia|lia]. Qed.

Lemma find_key_sorted a loc : In (a, loc) (dt_instrs t) ->
  find (fun p => fst p =? a) (dt_instrs t) = Some (a, loc).
Proof.
  intros Hin. apply find_unique; [assumption|apply N.eqb_refl|].
  intros y Hy Hk. apply N.eqb_eq in Hk.
  destruct (ss_trichotomy _ _ (wf_instrs_sorted t Hwf) y (a, loc) Hy Hin) as [?|[?|?]]; [assumption| |];
    cbn [fst] in *; lia.
Qed.

(* an address that was the start of an instruction is classified as that instruction *)
Theorem find_instr a loc : In (a, loc) (dt_instrs t) -> forall incl, find_address t a incl = CInstr loc.
Proof. intros Hin incl. unfold find_address. rewrite (find_key_sorted a loc Hin). reflexivity. Qed.

(* kept instructions are translated through the instruction map, removed ones are dropped *)
Lemma convert_instr c a loc incl : In (a, loc) (dt_instrs t) ->
  convert_address t c a incl = option_map (fun x => x - ct_start c) (lookup loc (ct_imap c)).
Proof. intros Hin. unfold convert_address. rewrite (find_instr a loc Hin). reflexivity. Qed.

Theorem convert_instr_kept c a loc x incl : In (a, loc) (dt_instrs t) ->
  lookup loc (ct_imap c) = Some x -> convert_address t c a incl = Some (x - ct_start c).
Proof. intros Hin Hl. rewrite (convert_instr c a loc incl Hin), Hl. reflexivity. Qed.

Theorem convert_instr_removed c a loc incl : In (a, loc) (dt_instrs t) ->
  lookup loc (ct_imap c) = None -> convert_address t c a incl = None.
Proof. intros Hin Hl. rewrite (convert_instr c a loc incl Hin), Hl. reflexivity. Qed.

Ltac shape H := let k := fresh "k" in let sz := fresh "sz" in
  destruct (range_shape _ H) as (k & sz & ? & ? & ? & ?).

Lemma body_start_not_instr r p : In r (dt_ranges t) -> In p (dt_instrs t) -> fst p <> body_start (fst r).
Proof.
  intros Hr Hp. destruct (instr_in_range p Hp) as (r' & Hr' & Hin').
  shape Hr. shape Hr'. destruct (ranges_tri r r' Hr Hr') as [<-|[?|?]]; lia.
Qed.

(* the body start of a function is classified as such, whatever the preference *)
Theorem find_body_start r : In r (dt_ranges t) ->
  forall incl, find_address t (body_start (fst r)) incl = CBodyStart (snd r).
Proof.
  intros Hr incl. shape Hr. set (a := body_start (fst r)) in *.
  cbv beta zeta delta [find_address].
  rewrite find_all_false.
  2:{ intros p Hp. apply N.eqb_neq. apply body_start_not_instr; assumption. }
  rewrite (find_unique (in_range false a) (dt_ranges t) r Hr).
  - fold a. rewrite N.eqb_refl.
    replace (a =? rng_start r) with false by (symmetry; apply N.eqb_neq; lia). reflexivity.
  - apply in_range_false_iff. lia.
  - intros y Hy Hiy. apply in_range_false_iff in Hiy.
    destruct (ranges_tri y r Hy Hr) as [?|[?|?]]; [assumption|lia|lia].
Qed.

Lemma fn_end_not_instr r p : In r (dt_ranges t) -> In p (dt_instrs t) -> fst p <> rng_end r /\ fst p - 1 <> rng_end r.
Proof.
  intros Hr Hp. destruct (instr_in_range p Hp) as (r' & Hr' & Hin').
  shape Hr. shape Hr'. destruct (ranges_tri r r' Hr Hr') as [<-|[?|?]]; lia.
Qed.

(* inclusive preference: the end of a function belongs to that function, not to the next one *)
Theorem find_fn_end r : In r (dt_ranges t) -> find_address t (rng_end r) true = CFnEdge (snd r).
Proof.
  intros Hr. shape Hr. rewrite find_address_by_range.
  - rewrite (find_unique (in_range true (rng_end r)) (dt_ranges t) r Hr).
    + rewrite N.eqb_refl. reflexivity.
    + apply in_range_true_iff. lia.
    + intros y Hy Hiy. apply in_range_true_iff in Hiy.
      destruct (ranges_tri y r Hy Hr) as [?|[?|?]]; [assumption|lia|lia].
  - intros p Hp. apply (fn_end_not_instr r p Hr Hp).
  - intros r0 Hr0 Hi0. shape Hr0.
    destruct (ranges_tri r r0 Hr Hr0) as [<-|[?|?]]; lia.
Qed.

(* the converted subprogram [low_pc, high_pc) covers exactly the emitted body of the same function *)
Theorem subprogram_range c r s' e' sz' incl :
  In r (dt_ranges t) ->
  lookup (snd r) (ct_franges c) = Some (s', e') ->
  2 <= sz' -> e' = s' + leb5 sz' + sz' ->
  ct_start c <= s' ->
  convert_address t c (body_start (fst r)) incl = Some (s' + leb5 sz' - ct_start c) /\
  convert_address t c (rng_end r) true = Some (e' - ct_start c) /\
  (e' - ct_start c) - (s' + leb5 sz' - ct_start c) = sz'.
Proof.
  intros Hr Hl Hsz He Hcs. unfold convert_address.
  rewrite (find_body_start r Hr), (find_fn_end r Hr). cbn [convert]. rewrite Hl. cbn [option_map snd].
  subst e'. rewrite body_start_spec_gen. repeat split. lia.
Qed.

Theorem subprogram_removed c r incl :
  In r (dt_ranges t) ->
  lookup (snd r) (ct_franges c) = None ->
  convert_address t c (body_start (fst r)) incl = None /\ convert_address t c (rng_end r) true = None.
Proof.
  intros Hr Hl. unfold convert_address.
  rewrite (find_body_start r Hr), (find_fn_end r Hr). cbn [convert]. rewrite Hl. split; reflexivity.
Qed.

(* an address outside every range is unknown and is dropped.  On well-formed tables "not adjacent to an
   instruction" follows: the byte before an instruction is inside that instruction's range. *)
Theorem find_unknown_gen a incl :
  (forall r, In r (dt_ranges t) -> in_range false a r = false) ->
  (forall r, In r (dt_ranges t) -> in_range incl a r = false) ->
  find_address t a incl = CUnknown.
Proof.
  intros Hex Hin.
  assert (Hout : forall r, In r (dt_ranges t) -> ~ (rng_start r <= a < rng_end r)).
  { intros r Hr Hc. apply in_range_false_iff in Hc. rewrite (Hex r Hr) in Hc. discriminate. }
  rewrite find_address_by_range.
  - rewrite find_all_false by assumption. reflexivity.
  - intros p Hp. destruct (instr_in_range p Hp) as (r' & Hr' & Hin'). shape Hr'.
    pose proof (Hout r' Hr'). lia.
  - intros r Hr Hc. destruct (Hout r Hr Hc).
Qed.

Theorem find_unknown a incl :
  (forall r, In r (dt_ranges t) -> a < rng_start r \/ rng_end r < a) ->
  find_address t a incl = CUnknown /\ forall c, convert_address t c a incl = None.
Proof.
  intros Hout.
  assert (H : find_address t a incl = CUnknown).
  { apply find_unknown_gen; intros r Hr; apply in_range_outside, Hout, Hr. }
  split; [assumption|]. intros c. unfold convert_address. rewrite H. reflexivity.
Qed.

End Wf.

Print Assumptions body_start_spec_gen.
Print Assumptions body_start_spec.
Print Assumptions leb5_leb_len.
Print Assumptions ex_tables_wf.
Print Assumptions find_instr.
Print Assumptions convert_instr_kept.
Print Assumptions convert_instr_removed.
Print Assumptions find_body_start.
Print Assumptions find_fn_end.
Print Assumptions subprogram_range.
Print Assumptions subprogram_removed.
Print Assumptions find_unknown_gen.
Print Assumptions find_unknown.
