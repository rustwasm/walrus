(* The code-offset map (CodeTransform) handed to custom sections is exact: its instruction map is a sorted, functional
   list holding exactly the recorded (location, position) pairs of every emitted function, the positions are those of
   the emitted normal form, the function ranges are contiguous, and inserted markers never enter the map. *)
From Coq Require Import List NArith ZArith Arith Lia Bool Sorting.Sorted Sorting.Permutation. Import ListNotations.
From WV Require Import Gen.Ops Model.Common Model.IR Model.Arena Model.Builder Model.ParseFn Model.ParseSpec
  Model.Traversal Model.EmitFn Model.EmitSpec Model.BodySpec Model.ModuleM Model.ParseM Model.EmitM Model.CodeMap.
From WV Require Import Proofs.ParseFn Proofs.Body.
From WV Require Proofs.Builder Proofs.Order Proofs.Arena Proofs.ArenaN Proofs.Leb.
Local Open Scope nat_scope.

Theorem leb_len_one_iff : forall n, leb_len n = 1%N <-> (n < 128)%N.
Proof.
  intros n. pose proof (Proofs.Leb.leb_len_pos n). pose proof (Proofs.Leb.leb_len_le_small n 1 ltac:(lia)) as H1.
  change (128 ^ 1)%N with 128%N in H1. lia.
Qed.
Theorem leb_len_two_iff : forall n, leb_len n = 2%N <-> (128 <= n < 16384)%N.
Proof.
  intros n. pose proof (Proofs.Leb.leb_len_le_small n 1 ltac:(lia)) as H1. pose proof (Proofs.Leb.leb_len_le_small n 2 ltac:(lia)) as H2.
  change (128 ^ 1)%N with 128%N in H1. change (128 ^ 2)%N with 16384%N in H2. lia.
Qed.
Theorem leb_len_three : forall n, (16384 <= n < 2097152)%N -> leb_len n = 3%N.
Proof.
  intros n. pose proof (Proofs.Leb.leb_len_le_small n 2 ltac:(lia)) as H2. pose proof (Proofs.Leb.leb_len_le_small n 3 ltac:(lia)) as H3.
  change (128 ^ 2)%N with 16384%N in H2. change (128 ^ 3)%N with 2097152%N in H3. lia.
Qed.

Definition keys_sorted {V} (l : list (N * V)) : Prop := StronglySorted N.lt (map fst l).

Lemma bt_insert_keys {V} (k : N) (v : V) l k' :
  In k' (map fst (bt_insert k v l)) <-> k' = k \/ In k' (map fst l).
Proof.
  induction l as [|[k0 v0] r IH]; cbn [bt_insert map fst In].
  - intuition.
  - destruct (k <? k0)%N eqn:E1; [cbn [map fst In]; intuition|].
    destruct (k =? k0)%N eqn:E2.
    + apply N.eqb_eq in E2. subst k0. cbn [map fst In]. intuition.
    + cbn [map fst In]. rewrite IH. intuition.
Qed.

Lemma bt_insert_In_fwd {V} (k : N) (v : V) l k' v' :
  In (k', v') (bt_insert k v l) -> (k' = k /\ v' = v) \/ In (k', v') l.
Proof.
  induction l as [|[k0 v0] r IH]; cbn [bt_insert In].
  - intros [H|[]]. injection H as <- <-. now left.
  - destruct (k <? k0)%N; [cbn [In]; intros [H|H]; [injection H as <- <-; now left|now right]|].
    destruct (k =? k0)%N; cbn [In].
    + intros [H|H]; [injection H as <- <-; now left|right; now right].
    + intros [H|H]; [right; now left|]. destruct (IH H) as [H'|H']; [now left|right; now right].
Qed.

Theorem bt_insert_sorted {V} (k : N) (v : V) l : keys_sorted l -> keys_sorted (bt_insert k v l).
Proof.
  unfold keys_sorted. induction l as [|[k0 v0] r IH]; cbn [bt_insert map fst]; intros HS.
  - repeat constructor.
  - apply StronglySorted_inv in HS. destruct HS as [HS HF].
    destruct (k <? k0)%N eqn:E1.
    + apply N.ltb_lt in E1. cbn [map fst]. constructor; [constructor; assumption|].
      constructor; [exact E1|]. eapply Forall_impl; [|exact HF]. cbn beta. intros a Ha. lia.
    + apply N.ltb_ge in E1. destruct (k =? k0)%N eqn:E2.
      * apply N.eqb_eq in E2. subst k0. cbn [map fst]. constructor; assumption.
      * apply N.eqb_neq in E2. cbn [map fst]. constructor; [apply IH, HS|].
        apply Forall_forall. intros a Ha. apply bt_insert_keys in Ha. destruct Ha as [->|Ha]; [lia|].
        rewrite Forall_forall in HF. apply HF, Ha.
Qed.

Lemma NoDup_map_fst_functional {A B} (l : list (A * B)) a b b' :
  NoDup (map fst l) -> In (a, b) l -> In (a, b') l -> b = b'.
Proof.
  induction l as [|[a0 b0] r IH]; cbn [map fst]; intros HN H1 H2; [destruct H1|].
  inversion HN as [|? ? Hni HN']; subst.
  assert (Hr : forall c, In (a, c) r -> In a (map fst r)).
  { intros c Hc. change a with (fst (a, c)). now apply in_map. }
  destruct H1 as [H1|H1], H2 as [H2|H2].
  - congruence.
  - injection H1 as -> _. elim Hni. eapply Hr, H2.
  - injection H2 as -> _. elim Hni. eapply Hr, H1.
  - now apply IH.
Qed.

Lemma keys_sorted_functional {V} (l : list (N * V)) k v v' :
  keys_sorted l -> In (k, v) l -> In (k, v') l -> v = v'.
Proof. intros HS. apply NoDup_map_fst_functional, Proofs.Order.StronglySorted_lt_NoDup, HS. Qed.

Lemma bt_insert_new {V} (k : N) (v : V) l : In (k, v) (bt_insert k v l).
Proof.
  induction l as [|[k0 v0] r IH]; cbn [bt_insert]; [now left|].
  destruct (k <? k0)%N; [now left|]. destruct (k =? k0)%N; [now left|now right].
Qed.
Lemma bt_insert_old {V} (k : N) (v : V) l k' v' : k' <> k -> In (k', v') l -> In (k', v') (bt_insert k v l).
Proof.
  intros Hne. induction l as [|[k0 v0] r IH]; cbn [bt_insert]; [intros []|].
  destruct (k <? k0)%N; [intros H; now right|].
  destruct (N.eqb_spec k k0) as [<-|_]; intros [H|H]; [congruence|now right|now left|right; now apply IH].
Qed.

(* the entry under [k] is the inserted one because the keys stay sorted, hence distinct *)
Theorem bt_insert_In {V} (k : N) (v : V) l k' v' : keys_sorted l ->
  (In (k', v') (bt_insert k v l) <-> (k' = k /\ v' = v) \/ (k' <> k /\ In (k', v') l)).
Proof.
  intros HS. split.
  - intros H. destruct (N.eq_dec k' k) as [->|Hne].
    + left. split; [reflexivity|].
      exact (keys_sorted_functional _ _ _ _ (bt_insert_sorted k v l HS) H (bt_insert_new k v l)).
    + destruct (bt_insert_In_fwd _ _ _ _ _ H) as [[E _]|Hl]; [contradiction|now right].
  - intros [[-> ->]|[Hne H]]; [apply bt_insert_new|now apply bt_insert_old].
Qed.

Definition add_step (k : N) (acc : list (N * (N * N))) (q : N * N) : list (N * (N * N)) :=
  if (fst q =? default_loc)%N then acc else bt_insert (fst q) (k, snd q) acc.
Lemma add_fn_pairs_eq acc k im : add_fn_pairs acc k im = fold_left (add_step k) im acc.
Proof. reflexivity. Qed.
Lemma add_fn_pairs_nil acc k : add_fn_pairs acc k [] = acc.
Proof. reflexivity. Qed.
Lemma add_fn_pairs_cons acc k q im : add_fn_pairs acc k (q :: im) = add_fn_pairs (add_step k acc q) k im.
Proof. reflexivity. Qed.

Lemma add_step_sorted k acc q : keys_sorted acc -> keys_sorted (add_step k acc q).
Proof. intros H. unfold add_step. destruct (fst q =? default_loc)%N; [exact H|now apply bt_insert_sorted]. Qed.

Lemma add_fn_pairs_sorted k im : forall acc, keys_sorted acc -> keys_sorted (add_fn_pairs acc k im).
Proof.
  induction im as [|q im IH]; intros acc H; [exact H|]. rewrite add_fn_pairs_cons. apply IH, add_step_sorted, H.
Qed.

Lemma ct_pairs_from_sorted efs : forall k acc, keys_sorted acc -> keys_sorted (ct_pairs_from k efs acc).
Proof.
  induction efs as [|e r IH]; intros k acc H; cbn [ct_pairs_from]; [exact H|]. apply IH, add_fn_pairs_sorted, H.
Qed.

Theorem ct_pairs_sorted : forall efs, keys_sorted (ct_pairs efs).
Proof. intros efs. apply ct_pairs_from_sorted. constructor. Qed.

Corollary ct_pairs_functional : forall efs loc v v',
  In (loc, v) (ct_pairs efs) -> In (loc, v') (ct_pairs efs) -> v = v'.
Proof. intros efs loc v v'. apply keys_sorted_functional, ct_pairs_sorted. Qed.

Lemma add_fn_pairs_sound k im : forall acc loc v,
  In (loc, v) (add_fn_pairs acc k im) ->
  In (loc, v) acc \/ (loc <> default_loc /\ exists pos, v = (k, pos) /\ In (loc, pos) im).
Proof.
  induction im as [|q im IH]; intros acc loc v H; [now left|].
  rewrite add_fn_pairs_cons in H. apply IH in H. destruct H as [H|(Hne & pos & E & Hi)].
  - unfold add_step in H. destruct (fst q =? default_loc)%N eqn:Eq; [now left|].
    apply N.eqb_neq in Eq. apply bt_insert_In_fwd in H. destruct H as [[-> ->]|H]; [|now left].
    right. split; [exact Eq|]. exists (snd q). split; [reflexivity|]. left. now destruct q.
  - right. split; [exact Hne|]. exists pos. split; [exact E|now right].
Qed.

Lemma ct_pairs_from_sound efs : forall k0 acc loc k pos,
  In (loc, (k, pos)) (ct_pairs_from k0 efs acc) ->
  In (loc, (k, pos)) acc \/
  (loc <> default_loc /\ (k0 <= k)%N /\ exists e, nth_error efs (N.to_nat (k - k0)) = Some e /\ In (loc, pos) (ef_imap e)).
Proof.
  induction efs as [|e r IH]; intros k0 acc loc k pos H; cbn [ct_pairs_from] in H; [now left|].
  apply IH in H. destruct H as [H|(Hne & Hle & e' & Hn & Hi)].
  - apply add_fn_pairs_sound in H. destruct H as [H|(Hne & pos' & E & Hi)]; [now left|].
    injection E as -> ->. right. split; [exact Hne|]. split; [lia|]. exists e.
    rewrite N.sub_diag. split; [reflexivity|exact Hi].
  - right. split; [exact Hne|]. split; [lia|]. exists e'. split; [|exact Hi].
    replace (N.to_nat (k - k0)) with (S (N.to_nat (k - (k0 + 1)))) by lia. exact Hn.
Qed.

Theorem ct_pairs_sound : forall efs loc k pos,
  In (loc, (k, pos)) (ct_pairs efs) -> exists e, nth_error efs (N.to_nat k) = Some e /\ In (loc, pos) (ef_imap e).
Proof.
  intros efs loc k pos H. apply ct_pairs_from_sound in H. destruct H as [[]|(_ & _ & e & Hn & Hi)].
  rewrite N.sub_0_r in Hn. now exists e.
Qed.

Theorem ct_pairs_no_default : forall efs loc v, In (loc, v) (ct_pairs efs) -> loc <> default_loc.
Proof.
  intros efs loc [k pos] H. apply ct_pairs_from_sound in H. destruct H as [[]|(Hne & _)]. exact Hne.
Qed.

Lemma add_step_keeps k acc q loc : In loc (map fst acc) -> In loc (map fst (add_step k acc q)).
Proof.
  intros H. unfold add_step. destruct (fst q =? default_loc)%N; [exact H|]. apply bt_insert_keys. now right.
Qed.
Lemma add_fn_pairs_keeps k im : forall acc loc, In loc (map fst acc) -> In loc (map fst (add_fn_pairs acc k im)).
Proof.
  induction im as [|q im IH]; intros acc loc H; [exact H|]. rewrite add_fn_pairs_cons. apply IH, add_step_keeps, H.
Qed.
Lemma add_fn_pairs_adds k im : forall acc loc pos, In (loc, pos) im -> loc <> default_loc ->
  In loc (map fst (add_fn_pairs acc k im)).
Proof.
  induction im as [|q im IH]; intros acc loc pos H Hne; [destruct H|]. rewrite add_fn_pairs_cons.
  destruct H as [->|H]; [|eapply IH; eassumption].
  apply add_fn_pairs_keeps. unfold add_step. cbn [fst snd]. apply N.eqb_neq in Hne. rewrite Hne.
  apply bt_insert_keys. now left.
Qed.
Lemma ct_pairs_from_keeps efs : forall k acc loc, In loc (map fst acc) -> In loc (map fst (ct_pairs_from k efs acc)).
Proof.
  induction efs as [|e r IH]; intros k acc loc H; cbn [ct_pairs_from]; [exact H|]. apply IH, add_fn_pairs_keeps, H.
Qed.
Lemma ct_pairs_from_complete efs : forall k0 acc n e loc pos,
  nth_error efs n = Some e -> In (loc, pos) (ef_imap e) -> loc <> default_loc ->
  In loc (map fst (ct_pairs_from k0 efs acc)).
Proof.
  induction efs as [|e0 r IH]; intros k0 acc [|n] e loc pos Hn Hi Hne; cbn [nth_error] in Hn; try discriminate;
    cbn [ct_pairs_from].
  - injection Hn as ->. apply ct_pairs_from_keeps. eapply add_fn_pairs_adds; eassumption.
  - eapply IH; eassumption.
Qed.

Theorem ct_pairs_complete : forall efs k e loc pos,
  nth_error efs k = Some e -> In (loc, pos) (ef_imap e) -> loc <> default_loc -> exists v, In (loc, v) (ct_pairs efs).
Proof.
  intros efs k e loc pos Hn Hi Hne.
  pose proof (ct_pairs_from_complete efs 0%N [] k e loc pos Hn Hi Hne) as H. fold (ct_pairs efs) in H.
  apply in_map_iff in H. destruct H as ([loc' v] & E & H). cbn [fst] in E. subst loc'. now exists v.
Qed.

Definition nd_keys (im : list (N * N)) : list N :=
  map fst (filter (fun q => negb (fst q =? default_loc)%N) im).
Definition all_nd_keys (efs : list emitted_fn) : list N := concat (map (fun e => nd_keys (ef_imap e)) efs).

Lemma nd_keys_In im loc pos : In (loc, pos) im -> loc <> default_loc -> In loc (nd_keys im).
Proof.
  intros H Hne. unfold nd_keys. apply in_map_iff. exists (loc, pos). split; [reflexivity|].
  apply filter_In. split; [exact H|]. cbn [fst]. apply N.eqb_neq in Hne. now rewrite Hne.
Qed.

Lemma nd_keys_functional im loc pos pos' :
  NoDup (nd_keys im) -> loc <> default_loc -> In (loc, pos) im -> In (loc, pos') im -> pos = pos'.
Proof.
  intros HN Hne H1 H2. unfold nd_keys in HN. apply N.eqb_neq in Hne.
  eapply NoDup_map_fst_functional; [exact HN| |]; apply filter_In; cbn [fst]; rewrite Hne; auto.
Qed.

Lemma NoDup_app_split {A} (a b : list A) : NoDup (a ++ b) ->
  NoDup a /\ NoDup b /\ forall y, In y a -> ~ In y b.
Proof.
  induction a as [|z a IH]; cbn [app]; intros HN.
  - split; [constructor|]. split; [exact HN|]. intros y [].
  - inversion HN as [|? ? Hni HN']; subst. destruct (IH HN') as (Ha & Hb & Hd). split; [|split].
    + constructor; [|exact Ha]. intros Hc. apply Hni, in_or_app. now left.
    + exact Hb.
    + intros y [->|Hy]; [|now apply Hd]. intros Hc. apply Hni, in_or_app. now right.
Qed.

Lemma NoDup_concat_inv {A} (ls : list (list A)) : NoDup (concat ls) ->
  forall i j a b x, nth_error ls i = Some a -> nth_error ls j = Some b -> In x a -> In x b -> i = j /\ NoDup a.
Proof.
  induction ls as [|l0 ls IH]; intros HN i j a b x Hi Hj Ha Hb; [destruct i; discriminate|].
  cbn [concat] in HN.
  assert (Hin : forall n c, nth_error ls n = Some c -> In x c -> In x (concat ls)).
  { intros n c Hn Hc. apply in_concat. exists c. split; [eapply nth_error_In, Hn|exact Hc]. }
  destruct (NoDup_app_split _ _ HN) as (HNl & HNr & Hdis).
  destruct i as [|i], j as [|j]; cbn [nth_error] in Hi, Hj.
  - injection Hi as ->. split; [reflexivity|exact HNl].
  - injection Hi as ->. elim (Hdis x Ha). eapply Hin; eassumption.
  - injection Hj as ->. elim (Hdis x Hb). eapply Hin; eassumption.
  - destruct (IH HNr i j a b x Hi Hj Ha Hb) as [-> Hnd]. now split.
Qed.

Theorem ct_pairs_unique_source : forall efs, NoDup (all_nd_keys efs) ->
  forall loc k pos,
  In (loc, (k, pos)) (ct_pairs efs) <->
  (loc <> default_loc /\ exists e, nth_error efs (N.to_nat k) = Some e /\ In (loc, pos) (ef_imap e)).
Proof.
  intros efs HN loc k pos. split.
  - intros H. split; [eapply ct_pairs_no_default, H|apply ct_pairs_sound, H].
  - intros (Hne & e & Hn & Hi).
    destruct (ct_pairs_complete efs _ e loc pos Hn Hi Hne) as ([k' pos'] & Hv).
    destruct (ct_pairs_sound efs loc k' pos' Hv) as (e' & Hn' & Hi').
    unfold all_nd_keys in HN.
    assert (M : forall n x, nth_error efs n = Some x ->
                 nth_error (map (fun e => nd_keys (ef_imap e)) efs) n = Some (nd_keys (ef_imap x))).
    { intros n x Hx. exact (map_nth_error (fun e => nd_keys (ef_imap e)) n efs Hx). }
    destruct (NoDup_concat_inv _ HN _ _ _ _ loc (M _ _ Hn) (M _ _ Hn')
                (nd_keys_In _ _ _ Hi Hne) (nd_keys_In _ _ _ Hi' Hne)) as [Ek Hnd].
    apply N2Nat.inj in Ek. subst k'. rewrite Hn in Hn'. injection Hn' as <-.
    rewrite (nd_keys_functional _ _ _ _ Hnd Hne Hi Hi'). exact Hv.
Qed.

Lemma total_len_cons cx x tg : total_len cx (x :: tg) = (ex_ilen cx (snd x) + total_len cx tg)%N.
Proof. reflexivity. Qed.

Theorem tag_positions_In : forall cx tg p0 loc pos,
  In (loc, pos) (tag_positions cx p0 tg) ->
  exists pre w post, tg = pre ++ (loc, w) :: post /\ pos = (p0 + total_len cx pre)%N.
Proof.
  intros cx. induction tg as [|[l0 w0] tg IH]; intros p0 loc pos H; cbn [tag_positions] in H; [destruct H|].
  destruct H as [H|H].
  - injection H as -> ->. exists [], w0, tg. split; [reflexivity|]. cbn. lia.
  - apply IH in H. destruct H as (pre & w & post & -> & ->). exists ((l0, w0) :: pre), w, post.
    split; [reflexivity|]. rewrite total_len_cons. cbn [snd]. lia.
Qed.

Theorem tag_positions_In_conv : forall cx pre p0 loc w post,
  In (loc, (p0 + total_len cx pre)%N) (tag_positions cx p0 (pre ++ (loc, w) :: post)).
Proof.
  intros cx. induction pre as [|[l0 w0] pre IH]; intros p0 loc w post; cbn [app tag_positions].
  - left. cbn. f_equal. lia.
  - right. rewrite total_len_cons. cbn [snd]. rewrite N.add_assoc. apply IH.
Qed.

Corollary tag_positions_In_iff : forall cx tg p0 loc pos,
  In (loc, pos) (tag_positions cx p0 tg) <->
  exists pre w post, tg = pre ++ (loc, w) :: post /\ pos = (p0 + total_len cx pre)%N.
Proof.
  intros. split; [apply tag_positions_In|]. intros (pre & w & post & -> & ->). apply tag_positions_In_conv.
Qed.

Lemma tag_positions_keys cx tg : forall p0, map fst (tag_positions cx p0 tg) = map fst tg.
Proof. induction tg as [|[l w] tg IH]; intros p0; cbn [tag_positions map fst]; [reflexivity|]. now rewrite IH. Qed.

Section TagOrigin.
  Variable cx : pctx.
  Variable ecx : ectx.

  (* [img wi w] : the output operator [w] is the image of the input operator [wi] *)
  Definition img (wi w : wins) : Prop :=
    match wi with
    | WOp o => w = nf_op cx ecx o
    | WBlock bt => w = WBlock (nf_bt cx ecx bt)
    | WLoop bt => w = WLoop (nf_bt cx ecx bt)
    | WIf bt => w = WIf (nf_bt cx ecx bt)
    | WElse => w = WElse
    | WEnd => w = WEnd
    | WBr d => w = WBr d
    | WBrIf d => w = WBrIf d
    | WBrTable ds d => w = WBrTable ds d
    | WNop => False
    end.

  Theorem nf_tag_origin : forall u l loc w, In (loc, w) (fst (nf_list cx ecx u l)) ->
    (loc = default_loc /\ w = WElse) \/ exists wi, In (wi, loc) (flat_list l) /\ img wi w.
  Proof.
    intros u l loc w Hx. pose proof (nf_list_from cx ecx u l) as H. rewrite Forall_forall in H.
    destruct (H _ Hx) as [E|(wi & Hi & Hn & E)]; [left; now inversion E|right].
    exists wi. split; [exact Hi|]. cbn [snd] in E. subst w. destruct wi; try reflexivity. now elim Hn.
  Qed.

  (* the same for a whole body, including the function's final `end` *)
  Corollary nf_body_tag_origin : forall l eloc loc w, In (loc, w) (nf_body cx ecx l eloc) ->
    (loc = default_loc /\ w = WElse) \/ exists wi, In (wi, loc) (flat_list l ++ [(WEnd, eloc)]) /\ img wi w.
  Proof.
    intros l eloc loc w H. unfold nf_body in H. apply in_app_or in H. destruct H as [H|[H|[]]].
    - apply nf_tag_origin in H. destruct H as [H|(wi & Hi & Hm)]; [now left|right]. exists wi.
      split; [apply in_or_app; now left|exact Hm].
    - injection H as <- <-. right. exists WEnd. split; [apply in_or_app; right; now left|reflexivity].
  Qed.
End TagOrigin.

(* positions and tags put together with the round trip of a body (Proofs/Body.v): the recorded pairs of a parsed and
   re-emitted body are exactly (location of an input operator, first byte of its image) *)
Theorem roundtrip_imap_exact : forall cx ecx ety rs l eloc p0,
  wfl cx 1 l ->
  (forall o, decode_plain (px_i2id cx) o <> None -> encode_plain (ex_id2i ecx) (dec cx o) <> None) ->
  exists ar st fuel,
    parse_body cx ety rs (flat_list l ++ [(WEnd, eloc)]) = Ok ar /\
    emit_body ecx fuel ar 0 p0 = Ok st /\
    forall loc pos, In (loc, pos) (imap st) <->
      exists pre w post, nf_body cx ecx l eloc = pre ++ (loc, w) :: post /\ pos = (p0 + total_len ecx pre)%N /\
        ((loc = default_loc /\ w = WElse) \/
         exists wi, In (wi, loc) (flat_list l ++ [(WEnd, eloc)]) /\ img cx ecx wi w).
Proof.
  intros cx ecx ety rs l eloc p0 Hw Henc.
  destruct (roundtrip_body cx ecx ety rs l eloc p0 Hw Henc) as (ar & st & fuel & Hp & He & _ & Hi).
  exists ar, st, fuel. split; [exact Hp|]. split; [exact He|]. intros loc pos. rewrite Hi, tag_positions_In_iff. split.
  - intros (pre & w & post & E & ->). exists pre, w, post. split; [exact E|]. split; [reflexivity|].
    apply nf_body_tag_origin. rewrite E. apply in_or_app. right. now left.
  - intros (pre & w & post & E & -> & _). now exists pre, w, post.
Qed.

Definition entry_len (sz : N) : N := (leb_len sz + sz)%N.
Fixpoint entries_len (l : list (N * N)) : N :=
  match l with [] => 0%N | x :: r => (entry_len (snd x) + entries_len r)%N end.

Lemma ranges_from_length l : forall first, length (ranges_from first l) = length l.
Proof. induction l as [|[id sz] r IH]; intros first; cbn [ranges_from length]; [reflexivity|]. now rewrite IH. Qed.

Theorem ranges_from_spec : forall l first k id s e,
  nth_error (ranges_from first l) k = Some (id, (s, e)) ->
  exists sz, nth_error l k = Some (id, sz) /\
             s = (first + entries_len (firstn k l))%N /\ e = (s + leb_len sz + sz)%N.
Proof.
  induction l as [|[id0 sz0] r IH]; intros first k id s e H; cbn [ranges_from] in H; [destruct k; discriminate|].
  destruct k as [|k]; cbn [nth_error] in H.
  - injection H as <- <- <-. exists sz0. cbn [nth_error firstn entries_len]. split; [reflexivity|]. split; lia.
  - apply IH in H. destruct H as (sz & Hn & -> & ->). exists sz. cbn [nth_error firstn entries_len snd].
    split; [exact Hn|]. unfold entry_len. split; lia.
Qed.

Theorem ranges_from_spec_conv : forall l first k id sz,
  nth_error l k = Some (id, sz) ->
  nth_error (ranges_from first l) k =
    Some (id, ((first + entries_len (firstn k l))%N, (first + entries_len (firstn k l) + leb_len sz + sz)%N)).
Proof.
  induction l as [|[id0 sz0] r IH]; intros first k id sz H; [destruct k; discriminate|].
  destruct k as [|k]; cbn [nth_error] in H; cbn [ranges_from nth_error firstn entries_len snd].
  - injection H as -> ->. rewrite N.add_0_r. reflexivity.
  - rewrite (IH _ _ _ _ H). unfold entry_len. do 3 f_equal; lia.
Qed.

Corollary ranges_from_contiguous : forall l first k id s e id' s' e',
  nth_error (ranges_from first l) k = Some (id, (s, e)) ->
  nth_error (ranges_from first l) (S k) = Some (id', (s', e')) -> s' = e.
Proof.
  induction l as [|[id0 sz0] r IH]; intros first k id s e id' s' e' H1 H2; cbn [ranges_from] in H1, H2; [destruct k; discriminate|].
  destruct k as [|k]; cbn [nth_error] in H1, H2; [|exact (IH _ _ _ _ _ _ _ _ H1 H2)].
  injection H1 as <- <- <-. destruct r as [|[id1 sz1] r]; [discriminate|]. cbn [ranges_from nth_error] in H2.
  now injection H2 as <- <- <-.
Qed.

(* sorting: [sort_ranges] is the sort of the name maps (Model/EmitM.v [sort_nm]) at another type *)
Lemma sort_ranges_nm l : sort_ranges l = sort_nm l.
Proof.
  assert (I : forall x a, ins_range x a = ins_nm x a).
  { intros x a. induction a as [|y r IH]; [reflexivity|]. cbn [ins_nm]. rewrite <- IH. reflexivity. }
  unfold sort_ranges, sort_nm. generalize (@nil (N * (N * N))).
  induction l as [|x l IH]; intros acc; cbn [fold_left]; [reflexivity|]. rewrite I. apply IH.
Qed.

Definition id_le (a b : N * (N * N)) : Prop := (fst a <= fst b)%N.

Theorem sort_ranges_perm : forall l, Permutation (sort_ranges l) l.
Proof. intros l. rewrite sort_ranges_nm. apply Proofs.Order.sort_nm_perm. Qed.
Theorem sort_ranges_sorted : forall l, StronglySorted id_le (sort_ranges l).
Proof. intros l. rewrite sort_ranges_nm. apply Proofs.Order.sort_nm_sorted. Qed.

Theorem ct_function_ranges_In : forall first ids sizes x,
  In x (ct_function_ranges first ids sizes) <-> In x (ranges_from first (combine ids sizes)).
Proof.
  intros first ids sizes x. unfold ct_function_ranges. split; apply Permutation_in;
    [apply sort_ranges_perm|symmetry; apply sort_ranges_perm].
Qed.
Theorem ct_function_ranges_sorted : forall first ids sizes,
  StronglySorted id_le (ct_function_ranges first ids sizes).
Proof. intros. apply sort_ranges_sorted. Qed.

Theorem ct_code_section_start_spec : forall c n, ct_code_section_start (c + leb_len n) n = c.
Proof. intros c n. unfold ct_code_section_start. lia. Qed.

Theorem old_formula_refuted : exists c n, (n < 128)%N /\ (c + leb_len n - 2)%N <> c.
Proof. exists 5%N, 0%N. split; [reflexivity|]. vm_compute. discriminate. Qed.

Theorem old_formula_right_iff : forall c n, (1 <= c)%N -> ((c + leb_len n - 2)%N = c <-> leb_len n = 2%N).
Proof. intros c n Hc. pose proof (Proofs.Leb.leb_len_pos n). lia. Qed.

Corollary old_formula_right_range : forall c n, (1 <= c)%N ->
  ((c + leb_len n - 2)%N = c <-> (128 <= n < 16384)%N).
Proof. intros c n Hc. rewrite old_formula_right_iff by exact Hc. apply leb_len_two_iff. Qed.

Lemma cupd_upd {A} (l : list A) : forall n f, Common.upd l n f = Arena.upd l n f.
Proof. induction l as [|x r IH]; intros [|n] f; cbn [Common.upd Arena.upd]; [reflexivity..|]. now rewrite IH. Qed.

(* InstrSeqBuilder::instr_at: the new instruction sits at [pos] of sequence [cur] and carries default_loc;
   nothing else changes *)
Lemma insert_i_spec a cur pos i a' : insert_i a cur pos i = Ok a' ->
  exists q l1 l2, nth_error a (N.to_nat cur) = Some q /\ sq_instrs q = l1 ++ l2 /\ length l1 = N.to_nat pos /\
    nth_error a' (N.to_nat cur) = Some {| sq_ty := sq_ty q; sq_instrs := l1 ++ (i, default_loc) :: l2; sq_end := sq_end q |} /\
    (forall c, c <> N.to_nat cur -> nth_error a' c = nth_error a c).
Proof.
  unfold insert_i. intros H. destruct (nth_error a (N.to_nat cur)) as [q|] eqn:Eq; [|discriminate].
  destruct (insert_at (sq_instrs q) (N.to_nat pos) (i, default_loc)) as [l|] eqn:El; [|discriminate].
  injection H as <-. rewrite cupd_upd. destruct (Proofs.Builder.insert_at_split _ _ _ _ El) as (l1 & l2 & E1 & -> & Hl).
  exists q, l1, l2. split; [reflexivity|]. split; [exact E1|]. split; [exact Hl|]. split.
  - now rewrite (Proofs.Arena.upd_nth_eq _ _ _ _ _ Eq).
  - intros c Hc. apply Proofs.Arena.upd_nth_ne. congruence.
Qed.

Lemma app_eq_len {A} (a a' b b' : list A) : length a = length a' -> a ++ b = a' ++ b' -> a = a' /\ b = b'.
Proof.
  revert a'. induction a as [|x a IH]; intros [|y a'] HL HE; cbn [length app] in *; try discriminate.
  - now split.
  - injection HE as -> HE. destruct (IH a' (eq_add_S _ _ HL) HE) as [-> ->]. now split.
Qed.

Definition marker_lf (lf : mlocalfunc) (a2 : IR.arena) : mlocalfunc :=
  {| lf_ty := lf_ty lf; lf_args := lf_args lf; lf_arena := a2; lf_entry := lf_entry lf;
     lf_orig_range := lf_orig_range lf; lf_instr_mapping := lf_instr_mapping lf |}.

Lemma insert_marker_inv m fid seq pos m' : insert_marker m (fid, seq, pos) = Ok m' ->
  exists f lf a1 a2, aget (m_funcs m) fid = Some f /\ fn_kind f = FK_Local lf /\
    insert_i (lf_arena lf) seq pos (IPlain (P_Const (V_I32 marker_z))) = Ok a1 /\
    insert_i a1 seq (pos + 1)%N (IPlain P_Drop) = Ok a2 /\
    m' = set_funcs m (aset_at (m_funcs m) fid (fun _ => {| fn_kind := FK_Local (marker_lf lf a2); fn_name := fn_name f |})).
Proof.
  unfold insert_marker. intros H. destruct (aget (m_funcs m) fid) as [f|] eqn:Ef; [|discriminate].
  destruct (fn_kind f) as [? ?|lf|?] eqn:Ek; try discriminate.
  destruct (insert_i (lf_arena lf) seq pos (IPlain (P_Const (V_I32 marker_z)))) as [a1| |] eqn:E1; try discriminate.
  cbn [rbind] in H.
  destruct (insert_i a1 seq (pos + 1)%N (IPlain P_Drop)) as [a2| |] eqn:E2; try discriminate.
  cbn [rbind] in H. injection H as <-. exists f, lf, a1, a2. repeat split; auto.
Qed.

Theorem insert_marker_other_funcs : forall m fid seq pos m' g,
  insert_marker m (fid, seq, pos) = Ok m' -> g <> fid -> aget (m_funcs m') g = aget (m_funcs m) g.
Proof.
  intros m fid seq pos m' g H Hg. destruct (insert_marker_inv _ _ _ _ _ H) as (f & lf & a1 & a2 & _ & _ & _ & _ & ->).
  cbn [set_funcs m_funcs]. now apply Proofs.ArenaN.aget_aset_at_ne.
Qed.

Theorem insert_marker_other_fields : forall m fid seq pos m',
  insert_marker m (fid, seq, pos) = Ok m' ->
  m_imports m' = m_imports m /\ m_tables m' = m_tables m /\ m_types m' = m_types m /\ m_globals m' = m_globals m /\
  m_locals m' = m_locals m /\ m_exports m' = m_exports m /\ m_memories m' = m_memories m /\ m_data m' = m_data m /\
  m_elements m' = m_elements m /\ m_start m' = m_start m /\ m_producers m' = m_producers m /\
  m_customs m' = m_customs m /\ m_debug m' = m_debug m /\ m_name m' = m_name m /\ m_config m' = m_config m /\
  m_code_section_offset m' = m_code_section_offset m.
Proof.
  intros m fid seq pos m' H. destruct (insert_marker_inv _ _ _ _ _ H) as (f & lf & a1 & a2 & _ & _ & _ & _ & ->).
  repeat split.
Qed.

(* function [fid]: same type, arguments, entry, name; in its arena only sequence [seq] changes, by the two
   instructions inserted at [pos], both carrying default_loc *)
Theorem insert_marker_fid : forall m fid seq pos m',
  insert_marker m (fid, seq, pos) = Ok m' ->
  exists f lf a2 q l1 l2,
    aget (m_funcs m) fid = Some f /\ fn_kind f = FK_Local lf /\
    aget (m_funcs m') fid = Some {| fn_kind := FK_Local (marker_lf lf a2); fn_name := fn_name f |} /\
    nth_error (lf_arena lf) (N.to_nat seq) = Some q /\ sq_instrs q = l1 ++ l2 /\ length l1 = N.to_nat pos /\
    nth_error a2 (N.to_nat seq) =
      Some {| sq_ty := sq_ty q;
              sq_instrs := l1 ++ (IPlain (P_Const (V_I32 marker_z)), default_loc) :: (IPlain P_Drop, default_loc) :: l2;
              sq_end := sq_end q |} /\
    (forall c, c <> N.to_nat seq -> nth_error a2 c = nth_error (lf_arena lf) c).
Proof.
  intros m fid seq pos m' H. destruct (insert_marker_inv _ _ _ _ _ H) as (f & lf & a1 & a2 & Hf & Hk & H1 & H2 & ->).
  destruct (insert_i_spec _ _ _ _ _ H1) as (q & l1 & l2 & Hq & Es & Hl & Hq1 & Ho1).
  destruct (insert_i_spec _ _ _ _ _ H2) as (q' & l1' & l2' & Hq' & Es' & Hl' & Hq2 & Ho2).
  rewrite Hq1 in Hq'. injection Hq' as <-. cbn [sq_instrs sq_ty sq_end] in Es', Hq2.
  assert (E : l1' = l1 ++ [(IPlain (P_Const (V_I32 marker_z)), default_loc)] /\ l2' = l2).
  { assert (Es2 : (l1 ++ [(IPlain (P_Const (V_I32 marker_z)), default_loc)]) ++ l2 = l1' ++ l2')
      by (rewrite <- app_assoc; exact Es').
    apply app_eq_len in Es2; [destruct Es2; split; congruence|].
    rewrite app_length. cbn [length]. lia. }
  destruct E as [-> ->]. rewrite <- app_assoc in Hq2. cbn [app] in Hq2.
  exists f, lf, a2, q, l1, l2. split; [exact Hf|]. split; [exact Hk|]. split.
  { cbn [set_funcs m_funcs]. now rewrite (Proofs.ArenaN.aget_aset_at_eq _ _ _ _ Hf). }
  split; [exact Hq|]. split; [exact Es|]. split; [exact Hl|]. split; [exact Hq2|].
  intros c Hc. rewrite Ho2 by exact Hc. now apply Ho1.
Qed.

(* hence: whatever positions the emitter records for the two inserted instructions, they are recorded
   under default_loc, and default_loc occurs in no pair of the instruction map (ct_pairs_no_default) *)
Corollary inserted_not_in_map : forall efs v, ~ In (default_loc, v) (ct_pairs efs).
Proof. intros efs v H. now apply ct_pairs_no_default in H. Qed.

Print Assumptions leb_len_three.
Print Assumptions bt_insert_In.
Print Assumptions ct_pairs_unique_source.
Print Assumptions tag_positions_In_iff.
Print Assumptions nf_body_tag_origin.
Print Assumptions ranges_from_contiguous.
Print Assumptions ct_function_ranges_In.
Print Assumptions old_formula_right_range.
Print Assumptions insert_marker_fid.
Print Assumptions insert_marker_other_funcs.
Print Assumptions roundtrip_imap_exact.
