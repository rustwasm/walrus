(* The function-body round trip, end to end: flattening the parsed IR tree gives exactly the declarative
   normal form [nf_body] (flt_parsed_tree), so parse_body followed by emit_body outputs [nf_body], operators
   and location map (roundtrip_body).  The facts about the normal form [nf_list] are read off one statement
   of where each output pair comes from (nf_from). *)
From Coq Require Import List NArith ZArith Arith Lia Bool. Import ListNotations.
From WV Require Import Gen.Ops Model.Common Model.IR Model.ParseFn Model.ParseSpec
  Model.Traversal Model.EmitFn Model.EmitSpec Model.BodySpec.
From WV Require Proofs.Traversal.
From WV Require Import Proofs.Codec Proofs.ParseFn Proofs.EmitFn.
Open Scope N_scope.

(* a branch to the [d]-th enclosing label is flattened back to depth [d] *)
Lemma position_nth env : forall d k, (d < length env)%nat -> NoDup env ->
  position (nth d env 0) env k = Some (k + N.of_nat d).
Proof.
  induction env as [|x env IH]; intros d k Hd Hnd; cbn [length] in Hd; [lia|].
  inversion Hnd as [|? ? Hx Hnd']; subst.
  destruct d as [|d]; cbn [nth position].
  - rewrite N.eqb_refl. f_equal. lia.
  - destruct (N.eqb x (nth d env 0)) eqn:E.
    + apply N.eqb_eq in E. exfalso. apply Hx. rewrite E. apply nth_In. lia.
    + rewrite IH by (auto; lia). f_equal. lia.
Qed.

Lemma depth_of_nth env d : (N.to_nat d < length env)%nat -> NoDup env ->
  depth_of env (nth (N.to_nat d) env 0) = Ok d.
Proof. intros Hd Hnd. unfold depth_of. rewrite position_nth by assumption. now rewrite N.add_0_l, N2Nat.id. Qed.

Lemma depths_of_nth env ds : Forall (fun x => (N.to_nat x < length env)%nat) ds -> NoDup env ->
  depths_of env (map (fun x => nth (N.to_nat x) env 0) ds) = Ok ds.
Proof.
  intros Hds Hnd. induction Hds as [|d ds Hd _ IH]; cbn [map depths_of]; [reflexivity|].
  rewrite depth_of_nth by assumption. cbn [rbind]. rewrite IH. reflexivity.
Qed.

Definition nfl_inner (cx : pctx) (ecx : ectx) :=
  fix nfl (u : bool) (l : list rt) {struct l} : list (N * wins) * bool :=
    match l with
    | [] => ([], u)
    | t :: l' => let '(a, u1) := nf cx ecx u t in let '(b, u2) := nfl u1 l' in (a ++ b, u2)
    end.
Lemma nfl_inner_eq cx ecx l : forall u, nfl_inner cx ecx u l = nf_list cx ecx u l.
Proof.
  induction l as [|t l IH]; intros u; [reflexivity|].
  cbn [nfl_inner nf_list]. destruct (nf cx ecx u t) as [a u1].
  fold (nfl_inner cx ecx). now rewrite IH.
Qed.

Lemma nf_block cx ecx u bt b l e : nf cx ecx u (RBlock bt b l e) =
  ((if u then [] else (l, WBlock (nf_bt cx ecx bt)) :: fst (nf_list cx ecx false b) ++ [(e, WEnd)]), u).
Proof. rewrite <- nfl_inner_eq. reflexivity. Qed.
Lemma nf_loop cx ecx u bt b l e : nf cx ecx u (RLoop bt b l e) =
  ((if u then [] else (l, WLoop (nf_bt cx ecx bt)) :: fst (nf_list cx ecx false b) ++ [(e, WEnd)]), u).
Proof. rewrite <- nfl_inner_eq. reflexivity. Qed.
Lemma nf_if_none cx ecx u bt th l e : nf cx ecx u (RIf bt th None l e) =
  ((if u then [] else (l, WIf (nf_bt cx ecx bt)) :: fst (nf_list cx ecx false th) ++ [(default_loc, WElse); (e, WEnd)]), u).
Proof. rewrite <- nfl_inner_eq. reflexivity. Qed.
Lemma nf_if_some cx ecx u bt th le el l e : nf cx ecx u (RIf bt th (Some (le, el)) l e) =
  ((if u then [] else (l, WIf (nf_bt cx ecx bt)) :: fst (nf_list cx ecx false th) ++ (le, WElse) :: fst (nf_list cx ecx false el) ++ [(e, WEnd)]), u).
Proof. rewrite <- !nfl_inner_eq. reflexivity. Qed.

Lemma flt_items_app ecx env a b x y :
  flt_items ecx env a = Ok x -> flt_items ecx env b = Ok y -> flt_items ecx env (a ++ b) = Ok (x ++ y).
Proof.
  revert x. induction a as [|i a IH]; intros x Ha Hb; cbn [flt_items app] in *.
  - inversion Ha; subst. exact Hb.
  - apply rbind_ok in Ha as (x1 & Hx1 & Ha). apply rmap_ok in Ha as (x2 & Hx2 & ->).
    rewrite Hx1. cbn [rbind]. rewrite (IH x2 Hx2 Hb). cbn [rmap]. now rewrite app_assoc.
Qed.

(* the labels in scope are distinct and below the next fresh id *)
Definition envok (env : list N) (n : N) : Prop := NoDup env /\ Forall (fun i => i < n) env.
Lemma envok_push env n a : envok env n -> n <= a -> envok (a :: env) (a + 1).
Proof.
  intros [Hnd Hlt] Hle. split.
  - constructor; [|exact Hnd]. intros Hin. rewrite Forall_forall in Hlt. apply Hlt in Hin. lia.
  - constructor; [lia|]. revert Hlt. apply Forall_impl. intros i Hi. lia.
Qed.
Lemma envok_mono env n n' : envok env n -> n <= n' -> envok env n'.
Proof. intros [Hnd Hlt] Hle. split; [exact Hnd|]. revert Hlt. apply Forall_impl. intros i Hi. lia. Qed.

Section FltParsed.
  Variable cx : pctx.
  Variable ecx : ectx.
  Hypothesis Henc : forall o, decode_plain (px_i2id cx) o <> None -> encode_plain (ex_id2i ecx) (dec cx o) <> None.

  Definition FR (env : list N) (r : list (item * N) * N * bool) (s : list (N * wins) * bool) : Prop :=
    flt_items ecx env (fst (fst r)) = Ok (fst s) /\ snd r = snd s.
  Definition Ft (t : rt) := forall env n u, envok env n -> wf cx (length env) t ->
    FR env (tbuild cx env n u t) (nf cx ecx u t).
  Definition Fl (l : list rt) := forall env n u, envok env n -> wfl cx (length env) l ->
    FR env (tbuild_list cx env n u l) (nf_list cx ecx u l).

  (* every construct contributes one item, kept unless the position is unreachable *)
  Lemma FR_keep env u u' it l n x :
    flt_item ecx env it l = Ok x -> FR env (keep u it l, n, u') ((if u then [] else x), u').
  Proof.
    intros H. split; [|reflexivity]. destruct u; cbn [keep flt_items fst snd]; [reflexivity|].
    rewrite H. cbn [rbind rmap]. now rewrite app_nil_r.
  Qed.

  (* the body of a construct, flattened under the construct's own label [a] *)
  Lemma Fl_body l env n a : Fl l -> envok env n -> n <= a -> wfl cx (S (length env)) l ->
    flt_items ecx (a :: env) (fst (fst (tbuild_list cx (a :: env) (a + 1) false l))) = Ok (fst (nf_list cx ecx false l)).
  Proof. intros H He Hle Hw. exact (proj1 (H (a :: env) (a + 1) false (envok_push _ _ _ He Hle) Hw)). Qed.

  Lemma flt_of : (forall t, Ft t) /\ (forall l, Fl l).
  Proof.
    apply rt_list_ind;
      [|intros t l Ht IH|intros o l|intros l|intros d l|intros d l|intros ds d l|intros bt b l e HF|intros bt b l e HF
       |intros bt th l e HF|intros bt th le eb l e HFt HFe]; intros env n u He Hw.
    - split; reflexivity.
    - destruct Hw as [Hw1 Hw2]. cbn [tbuild_list nf_list].
      specialize (Ht env n u He Hw1). pose proof (proj1 (normal_form_item_list cx) t env n u) as M.
      destruct (tbuild cx env n u t) as [[i1 n1] u1]. destruct M as (M & _ & _).
      destruct (nf cx ecx u t) as [a v1]. destruct Ht as [F1 E1]. cbn [fst snd] in F1, E1. subst v1.
      specialize (IH env n1 u1 (envok_mono _ _ _ He M) Hw2).
      destruct (tbuild_list cx env n1 u1 l) as [[i2 n2] u2].
      destruct (nf_list cx ecx u1 l) as [b v2]. destruct IH as [F2 E2]. cbn [fst snd] in F2, E2. subst v2.
      split; cbn [fst snd]; [|reflexivity]. apply flt_items_app; assumption.
    - cbn [wf] in Hw. apply FR_keep. cbn [flt_item]. unfold nf_op. pose proof (Henc o Hw) as Hne.
      destruct (encode_plain (ex_id2i ecx) (dec cx o)); [reflexivity|now elim Hne].
    - split; reflexivity.
    - cbn [wf] in Hw. destruct He as [Hnd _]. apply FR_keep. cbn [flt_item]. now rewrite depth_of_nth.
    - cbn [wf] in Hw. destruct He as [Hnd _]. apply FR_keep. cbn [flt_item]. now rewrite depth_of_nth.
    - destruct Hw as [Hd Hds]. destruct He as [Hnd _]. apply FR_keep. cbn [flt_item].
      rewrite depth_of_nth by assumption. cbn [rbind]. now rewrite depths_of_nth.
    - rewrite wf_block in Hw. rewrite tbuild_block, nf_block.
      pose proof (Fl_body b env n n HF He (N.le_refl n) (proj2 Hw)) as Hb.
      destruct (tbuild_list cx (n :: env) (n + 1) false b) as [[its n1] u1]. cbn [fst] in Hb.
      apply FR_keep. rewrite flt_item_B, flt_tree_T. cbn [tsid titems tend tty]. rewrite Hb. reflexivity.
    - rewrite wf_loop in Hw. rewrite tbuild_loop, nf_loop.
      pose proof (Fl_body b env n n HF He (N.le_refl n) (proj2 Hw)) as Hb.
      destruct (tbuild_list cx (n :: env) (n + 1) false b) as [[its n1] u1]. cbn [fst] in Hb.
      apply FR_keep. rewrite flt_item_L, flt_tree_T. cbn [tsid titems tend tty]. rewrite Hb. reflexivity.
    - rewrite wf_if in Hw. rewrite tbuild_if, nf_if_none. cbv zeta.
      pose proof (Fl_body th env n n HF He (N.le_refl n) (proj1 (proj2 Hw))) as Hc.
      destruct (tbuild_list cx (n :: env) (n + 1) false th) as [[ic a] uc]. cbn [fst] in Hc.
      apply FR_keep. rewrite flt_item_I, !flt_tree_T. cbn [tsid titems tend tty]. rewrite Hc.
      cbn [rmap rbind terminator flt_items app]. rewrite <- app_assoc. reflexivity.
    - rewrite wf_if in Hw. destruct Hw as (_ & Hwt & Hwe).
      rewrite tbuild_if, nf_if_some. cbv zeta.
      pose proof (Fl_body th env n n HFt He (N.le_refl n) Hwt) as Hc.
      pose proof (tbuild_next_id_mono cx (n :: env) (n + 1) false th) as Ma.
      destruct (tbuild_list cx (n :: env) (n + 1) false th) as [[ic a] uc]. cbn [fst] in Hc.
      assert (Hna : n <= a) by (specialize (Ma _ _ _ eq_refl); lia).
      pose proof (Fl_body eb env n a HFe He Hna Hwe) as Ha.
      destruct (tbuild_list cx (a :: env) (a + 1) false eb) as [[ia n2] ua]. cbn [fst] in Ha.
      apply FR_keep. rewrite flt_item_I, !flt_tree_T. cbn [tsid titems tend tty]. rewrite Hc, Ha.
      cbn [rmap rbind terminator]. rewrite <- app_assoc. reflexivity.
  Qed.
End FltParsed.

Theorem flt_tbuild_list : forall cx ecx env n u l items n' u',
  (forall o, decode_plain (px_i2id cx) o <> None -> encode_plain (ex_id2i ecx) (dec cx o) <> None) ->
  NoDup env -> Forall (fun i => i < n) env -> wfl cx (length env) l ->
  tbuild_list cx env n u l = (items, n', u') ->
  flt_items ecx env items = Ok (fst (nf_list cx ecx u l)) /\ u' = snd (nf_list cx ecx u l).
Proof.
  intros cx ecx env n u l items n' u' Henc Hnd Hlt Hw E.
  pose proof (proj2 (flt_of cx ecx Henc) l env n u (conj Hnd Hlt) Hw) as R. rewrite E in R. exact R.
Qed.

Theorem flt_parsed_tree : forall cx ecx ety l eloc,
  wfl cx 1 l ->
  (forall o, decode_plain (px_i2id cx) o <> None -> encode_plain (ex_id2i ecx) (dec cx o) <> None) ->
  flt_tree ecx [] (parsed_tree cx ety l eloc) KEntry = Ok (nf_body cx ecx l eloc).
Proof.
  intros cx ecx ety l eloc Hw Henc. unfold parsed_tree, nf_body.
  assert (He : envok [0] 1).
  { split; [constructor; [intros []|constructor]|]. constructor; [lia|constructor]. }
  pose proof (proj2 (flt_of cx ecx Henc) l [0] 1 false He Hw) as R.
  destruct (tbuild_list cx [0] 1 false l) as [[items n1] u1]. destruct R as [R _]. cbn [fst] in R.
  rewrite flt_tree_T. cbn [tsid titems tend]. rewrite R. reflexivity.
Qed.

Lemma parsed_tree_tsid cx ety l eloc : tsid (parsed_tree cx ety l eloc) = 0.
Proof. unfold parsed_tree. destruct (tbuild_list cx [0] 1 false l) as [[items n1] u1]. reflexivity. Qed.

Theorem roundtrip_body : forall cx ecx ety rs l eloc p0,
  wfl cx 1 l ->
  (forall o, decode_plain (px_i2id cx) o <> None -> encode_plain (ex_id2i ecx) (dec cx o) <> None) ->
  exists ar st fuel,
    parse_body cx ety rs (flat_list l ++ [(WEnd, eloc)]) = Ok ar /\
    emit_body ecx fuel ar 0 p0 = Ok st /\
    out st = map snd (nf_body cx ecx l eloc) /\
    imap st = tag_positions ecx p0 (nf_body cx ecx l eloc).
Proof.
  intros cx ecx ety rs l eloc p0 Hw Henc.
  set (t := parsed_tree cx ety l eloc). set (a := parsed_arena cx ety l eloc).
  assert (HD : Den a t) by (apply parsed_arena_den; exact Hw).
  pose proof (Proofs.Traversal.dfs_in_order_spec false a t HD) as Hdfs.
  pose proof (flt_parsed_tree cx ecx ety l eloc Hw Henc) as Hf. fold t in Hf.
  destruct (emit_body_spec ecx a t _ p0 _ HD Hdfs Hf) as (st & He & Ho & Hi).
  unfold t in He at 2. rewrite parsed_tree_tsid in He.
  exists a, st, (S (size t)). split; [|split; [|split]].
  - apply parse_body_arena, Hw.
  - exact He.
  - exact Ho.
  - exact Hi.
Qed.

Lemma nf_list_cons cx ecx u t l :
  nf_list cx ecx u (t :: l) =
  (fst (nf cx ecx u t) ++ fst (nf_list cx ecx (snd (nf cx ecx u t)) l), snd (nf_list cx ecx (snd (nf cx ecx u t)) l)).
Proof.
  cbn [nf_list]. destruct (nf cx ecx u t) as [a u1]. cbn [fst snd].
  destruct (nf_list cx ecx u1 l) as [b u2]. reflexivity.
Qed.

(* dead code is dropped *)
Lemma nf_dead cx ecx :
  (forall t, nf cx ecx true t = ([], true)) /\ (forall l, nf_list cx ecx true l = ([], true)).
Proof.
  apply rt_list_ind; try reflexivity.
  intros t l Ht Hl. rewrite nf_list_cons, Ht. cbn [fst snd]. now rewrite Hl.
Qed.

Theorem nf_dead_dropped : forall cx ecx u l, u = true -> fst (nf_list cx ecx u l) = [].
Proof. intros cx ecx u l ->. now rewrite (proj2 (nf_dead cx ecx) l). Qed.
Theorem nf_dead_stays_dead : forall cx ecx u l, u = true -> snd (nf_list cx ecx u l) = true.
Proof. intros cx ecx u l ->. now rewrite (proj2 (nf_dead cx ecx) l). Qed.

(* the image of an input operator in the normal form *)
Definition renw (cx : pctx) (ecx : ectx) (w : wins) : wins :=
  match w with
  | WOp o => nf_op cx ecx o
  | WBlock bt => WBlock (nf_bt cx ecx bt) | WLoop bt => WLoop (nf_bt cx ecx bt) | WIf bt => WIf (nf_bt cx ecx bt)
  | w => w
  end.

Section From.
  Variable cx : pctx.
  Variable ecx : ectx.

  (* an output pair is the image of an input pair other than nop, at the same location, or it is the
     `else` given to a one-armed `if` *)
  Definition from_src (s : list (wins * N)) (x : N * wins) : Prop :=
    x = (default_loc, WElse) \/ exists w, In (w, fst x) s /\ w <> WNop /\ snd x = renw cx ecx w.

  Lemma from_one s w l : incl [(w, l)] s -> w <> WNop -> Forall (from_src s) [(l, renw cx ecx w)].
  Proof. intros Hs Hw. constructor; [|constructor]. right. exists w. split; [apply Hs; now left|auto]. Qed.

  Lemma from_end s e : incl [(WEnd, e)] s -> Forall (from_src s) [(e, WEnd)].
  Proof. intros Hs. apply (from_one s WEnd); [exact Hs|discriminate]. Qed.

  (* opening operator, body, rest *)
  Lemma from_wrap s w l body rest o1 o2 : incl ((w, l) :: body ++ rest) s -> w <> WNop ->
    (incl body s -> Forall (from_src s) o1) -> (incl rest s -> Forall (from_src s) o2) ->
    Forall (from_src s) ((l, renw cx ecx w) :: o1 ++ o2).
  Proof.
    intros Hs Hw H1 H2. apply incl_cons_inv in Hs as [Hl Hs]. apply incl_app_inv in Hs as [Hb Hr].
    apply (Forall_app _ [_]). split; [apply from_one; [intros x [<-|[]]; exact Hl|exact Hw]|].
    apply Forall_app. auto.
  Qed.

  Lemma nf_from :
    (forall t s, incl (flat t) s -> Forall (from_src s) (fst (nf cx ecx false t))) /\
    (forall l u s, incl (flat_list l) s -> Forall (from_src s) (fst (nf_list cx ecx u l))).
  Proof.
    apply rt_list_ind.
    - constructor.
    - intros t l Ht Hl u s Hs. apply incl_app_inv in Hs as [H1 H2]. rewrite nf_list_cons. apply Forall_app.
      split; [|apply Hl, H2]. destruct u; [rewrite (proj1 (nf_dead cx ecx)); constructor|apply Ht, H1].
    - intros o l s Hs. apply (from_one s (WOp o)); [exact Hs|discriminate].
    - constructor.
    - intros d l s Hs. apply (from_one s (WBr d)); [exact Hs|discriminate].
    - intros d l s Hs. apply (from_one s (WBrIf d)); [exact Hs|discriminate].
    - intros ds d l s Hs. apply (from_one s (WBrTable ds d)); [exact Hs|discriminate].
    - intros bt b l e Hb s Hs. rewrite nf_block.
      apply (from_wrap s (WBlock bt) l (flat_list b) [(WEnd, e)]); [exact Hs|discriminate|apply Hb|apply from_end].
    - intros bt b l e Hb s Hs. rewrite nf_loop.
      apply (from_wrap s (WLoop bt) l (flat_list b) [(WEnd, e)]); [exact Hs|discriminate|apply Hb|apply from_end].
    - intros bt th l e Hc s Hs. rewrite nf_if_none.
      apply (from_wrap s (WIf bt) l (flat_list th) [(WEnd, e)]); [exact Hs|discriminate|apply Hc|].
      intros He. constructor; [now left|apply from_end, He].
    - intros bt th le eb l e Hc Ha s Hs. rewrite nf_if_some.
      apply (from_wrap s (WIf bt) l (flat_list th) ((WElse, le) :: flat_list eb ++ [(WEnd, e)]));
        [exact Hs|discriminate|apply Hc|].
      intros Hs'. apply (from_wrap s WElse le (flat_list eb) [(WEnd, e)]); [exact Hs'|discriminate|apply Ha|apply from_end].
  Qed.

  Lemma nf_list_from u l : Forall (from_src (flat_list l)) (fst (nf_list cx ecx u l)).
  Proof. apply nf_from, incl_refl. Qed.
End From.

Theorem nf_no_nop : forall cx ecx u l,
  (forall o, encode_plain (ex_id2i ecx) (dec cx o) <> None) ->
  Forall (fun x => snd x <> WNop) (fst (nf_list cx ecx u l)).
Proof.
  intros cx ecx u l Henc. eapply Forall_impl; [|apply nf_list_from].
  intros x [->|(w & _ & Hw & ->)]; [discriminate|].
  destruct w; try discriminate; [|exact Hw]. cbn [renw]. unfold nf_op. specialize (Henc o).
  destruct (encode_plain (ex_id2i ecx) (dec cx o)); [discriminate|now elim Henc].
Qed.

Theorem nf_locs_from_input : forall cx ecx u l,
  Forall (fun x => fst x = default_loc \/ In (fst x) (map snd (flat_list l))) (fst (nf_list cx ecx u l)).
Proof.
  intros cx ecx u l. eapply Forall_impl; [|apply nf_list_from].
  intros x [->|(w & Hi & _)]; [now left|right]. exact (in_map snd _ _ Hi).
Qed.

Theorem nf_op_codec :
  forall (i2id id2i rho : space -> N -> N), (forall s i, id2i s (i2id s i) = rho s i) ->
  forall cx ecx o, px_i2id cx = i2id -> ex_id2i ecx = id2i -> imm_ok o -> ~ known_big_offset o ->
  nf_op cx ecx o = WOp (map_idx rho o).
Proof.
  intros i2id id2i rho Hrho cx ecx o E1 E2 Hi Hb.
  pose proof (codec_roundtrip i2id id2i rho Hrho o Hi Hb) as R. unfold rt_ok in R.
  unfold nf_op, dec. rewrite E1, E2.
  destruct (decode_plain i2id o) as [p|]; [|contradiction]. rewrite R. reflexivity.
Qed.

Print Assumptions flt_parsed_tree.
Print Assumptions roundtrip_body.
Print Assumptions nf_op_codec.
Print Assumptions nf_no_nop.
Print Assumptions nf_dead_dropped.
Print Assumptions nf_locs_from_input.
