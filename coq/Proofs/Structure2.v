(* Module-level structure preservation, continued (C04): data segments, the data count section,
   "no start section is invented", function signatures.  Companion of Proofs/Structure.v.
   Also the emitted stream read by section kind ([emit_kinds]): twelve pieces, the k-th of tag k, then untagged sections. *)
From Coq Require Import List NArith ZArith Bool Arith Lia.
Import ListNotations.
From WV Require Import Gen.Ops Model.Common Model.IR Model.Arena Model.Traversal Model.EmitFn Model.Locals
                       Model.ParseFn Model.ModuleM Model.ParseM Model.EmitM Gen.Attrs.
From WV Require Import Proofs.Arena Proofs.Order Proofs.IndexMaps Proofs.CustomsCfg Proofs.Escalation Proofs.Structure
                       Proofs.ParsedWf.
From Coq Require Import Permutation.
Local Open Scope nat_scope.

Definition data_of (d : wdata) : mdatakind * list N :=
  (match wd_kind d with WDK_Passive => DK_Passive | WDK_Active mi off => DK_Active mi (cst0 off) end, wd_bytes d).

(* what a payload does to the data arena: a DataCount section reserves empty passive segments,
   a Data section OVERWRITES the first |l| reserved entries (or appends when nothing is reserved) *)
Definition sec_kdata (sec : wsec) (k : list (mdatakind * list N)) : list (mdatakind * list N) :=
  match sec with
  | S_DataCount n => k ++ repeat (DK_Passive, @nil N) (N.to_nat n)
  | S_Data l => map data_of l ++ skipn (length l) k
  | _ => k
  end.

Definition idsD (m : wir) (ids : i2ids) : Prop :=
  (exists n, ii_globals ids = iota n) /\ (exists n, ii_funcs ids = iota n) /\ (exists n, ii_memories ids = iota n) /\
  ii_data ids = iota (length (items (m_data m))) /\ dead (m_data m) = [].
Lemma idc_idsD m ids : ids_consistent m ids -> idsD m ids.
Proof. intros H. unfold ids_consistent in H. decompose [and] H. unfold idsD. repeat split; eauto. Qed.

Lemma upd_app_at {A} (f : A -> A) : forall (a : list A) b r, Arena.upd (a ++ b :: r) (length a) f = a ++ f b :: r.
Proof. induction a as [|x a IH]; intros b r; cbn [app length Arena.upd]; [reflexivity|rewrite IH; reflexivity]. Qed.
Lemma skipn_app_len {A} : forall (b c : list A) n, length b = n -> skipn n (b ++ c) = c.
Proof. induction b as [|x b IH]; intros c n H; subst n; cbn [length skipn app]; [reflexivity|apply IH; reflexivity]. Qed.

Lemma reserve_data_spec : forall n m ids m' ids', reserve_data m ids n = (m', ids') ->
  K_data m' = K_data m ++ repeat (DK_Passive, @nil N) n.
Proof.
  induction n as [|n IH]; intros m ids m' ids' E; cbn [reserve_data] in E.
  - inversion E; subst. cbn [repeat]. rewrite app_nil_r. reflexivity.
  - wcbn. apply IH in E. rewrite E. unfold K_data. wcbn. rewrite map_app, <- app_assoc. reflexivity.
Qed.

(* the core: filling.  [A] = the entries before position i, [R] = the rest of the arena *)
Lemma parse_data_from_fill : forall l m ids pre i m' ids' A R,
  idsD m ids -> items (m_data m) = A ++ R ->
  (pre = true -> length A = N.to_nat i) -> (pre = false -> R = []) ->
  parse_data_from m ids pre i l = POk (m', ids') ->
  exists B C, R = B ++ C /\ (pre = true -> length B = length l) /\
              K_data m' = map dcore A ++ map data_of l ++ map dcore C.
Proof.
  induction l as [|d r IH]; intros m ids pre i m' ids' A R HD HI Ht Hf E; cbn [parse_data_from] in E.
  - inversion E; subst. exists [], R. split; [reflexivity|]. split; [reflexivity|].
    unfold K_data. rewrite HI, map_app. reflexivity.
  - pinv E as x Ex. destruct x as [[m1 ids1] id]. pinv E as y Ey. destruct y as [m2 kind]. pinv E as u Eu. clear Eu.
    destruct HD as (Hg & Hfn & Hm & Hd & Hdead).
    assert (X : exists b R', items (m_data m1) = A ++ b :: R' /\ dead (m_data m1) = [] /\ N.to_nat id = length A /\
                  (exists n, ii_globals ids1 = iota n) /\ (exists n, ii_funcs ids1 = iota n) /\ (exists n, ii_memories ids1 = iota n) /\
                  ii_data ids1 = iota (length (items (m_data m1))) /\
                  (pre = true -> R = b :: R') /\ (pre = false -> R' = [])).
    { destruct pre.
      - pinv Ex as z Ez. inversion Ex; subst m1 ids1 z; clear Ex. apply of_opt_err_ok in Ez. rewrite Hd in Ez.
        unfold nth_N in Ez. apply iota_nth_inv in Ez. destruct Ez as [Ez Lt]. rewrite HI, app_length in Lt.
        specialize (Ht eq_refl). destruct R as [|b R']; [cbn [length] in Lt; lia|].
        exists b, R'. subst id. rewrite Nat2N.id. repeat split; auto. discriminate.
      - specialize (Hf eq_refl). subst R. rewrite app_nil_r in HI. wcbn. inversion Ex; subst m1 ids1 id; clear Ex. wcbn.
        unfold next_id in *. exists empty_data, []. rewrite !HI, Nat2N.id. repeat split; auto; try discriminate.
        rewrite Hd, HI, app_length. cbn [length]. rewrite Nat.add_1_r, iota_S. reflexivity. }
    clear Ex. destruct X as (b & R' & HI1 & Hdead1 & Hid & Hg1 & Hfn1 & Hm1 & Hd1 & Ht1 & Hf1).
    assert (H2 : m_data m2 = m_data m1 /\ kind = fst (data_of d)).
    { unfold data_of. destruct (wd_kind d) as [|mi off].
      - inversion Ey; subst; split; reflexivity.
      - pinv Ey as mid Emid. pinv Ey as mm Emm. pinv Ey as o Eo. pinv Ey as ok Eok. destruct ok; [|discriminate].
        inversion Ey; subst m2 kind; clear Ey. split; [reflexivity|]. cbn [fst].
        apply of_opt_err_ok in Emid. destruct Hm1 as [nm Hm1]. rewrite Hm1 in Emid. apply nth_N_iota in Emid.
        apply eval_const_cst0 in Eo; [|exact Hg1|exact Hfn1]. subst. reflexivity. }
    clear Ey. destruct H2 as [HD2 Hk].
    match type of E with parse_data_from ?mm _ _ _ _ = _ => set (m3 := mm) in * end.
    set (b' := {| da_kind := kind; da_value := wd_bytes d; da_name := da_name b |}).
    assert (HI3 : items (m_data m3) = (A ++ [b']) ++ R').
    { subst m3. wcbn. rewrite HD2, HI1, Hid, upd_app_at, <- app_assoc. reflexivity. }
    assert (HD3 : idsD m3 ids1).
    { unfold idsD. repeat split; auto.
      - rewrite Hd1, HI3, HI1, <- app_assoc. rewrite !app_length. reflexivity.
      - subst m3. wcbn. rewrite HD2. exact Hdead1. }
    destruct (IH m3 ids1 pre (i + 1)%N m' ids' (A ++ [b']) R' HD3 HI3) as (B & C & HR & HB & HK); [| |exact E|].
    + intros Hp. rewrite app_length, (Ht Hp), N2Nat.inj_add. reflexivity.
    + exact Hf1.
    + destruct pre.
      * exists (b :: B), C. rewrite (Ht1 eq_refl), HR. split; [reflexivity|]. split; [intros _; cbn [length]; rewrite HB; reflexivity|].
        rewrite HK, map_app, <- app_assoc. cbn [map app]. do 2 f_equal. subst b'. unfold dcore, data_of. cbn [da_kind da_value fst snd].
        rewrite Hk. reflexivity.
      * exists [], []. rewrite (Hf eq_refl). split; [reflexivity|]. split; [discriminate|].
        rewrite (Hf1 eq_refl) in HR. symmetry in HR. apply app_eq_nil in HR. destruct HR as [_ ->].
        rewrite HK, map_app, <- app_assoc. cbn [map app]. do 2 f_equal. subst b'. unfold dcore, data_of. cbn [da_kind da_value fst snd].
        rewrite Hk. reflexivity.
Qed.

Lemma iter_length_nodead {A} (a : tarena A) : dead a = [] -> length (iter a) = length (items a).
Proof.
  intros D. rewrite <- (aiter_nodead_snd a D), map_length. unfold aiter. rewrite map_length. reflexivity.
Qed.

Lemma parse_data_spec m ids l m' ids' : idsD m ids -> parse_data m ids l = POk (m', ids') ->
  K_data m' = sec_kdata (S_Data l) (K_data m).
Proof.
  intros HD E. unfold parse_data in E. pose proof HD as (Hg & Hfn & Hm & Hd & Hdead).
  rewrite (iter_length_nodead _ Hdead) in E. cbn [sec_kdata]. unfold K_data at 2.
  destruct (items (m_data m)) as [|b0 R0] eqn:Ei.
  - cbn [length Nat.eqb negb] in E.
    destruct (parse_data_from_fill l m ids false 0%N m' ids' [] [] HD) as (B & C & HR & _ & HK);
      [rewrite Ei; reflexivity|discriminate|reflexivity|exact E|].
    symmetry in HR. apply app_eq_nil in HR. destruct HR as [_ ->]. rewrite HK. cbn [map app].
    rewrite skipn_nil. reflexivity.
  - cbn [length Nat.eqb negb] in E.
    destruct (parse_data_from_fill l m ids true 0%N m' ids' [] (b0 :: R0) HD) as (B & C & HR & HB & HK);
      [rewrite Ei; reflexivity|reflexivity|discriminate|exact E|].
    rewrite HK, HR, map_app. cbn [map app]. f_equal. symmetry. apply skipn_app_len. rewrite map_length. auto.
Qed.

Lemma parse_sec_D s sec s' : ids_consistent (ps_m s) (ps_ids s) -> parse_sec s sec = POk s' ->
  K_data (ps_m s') = sec_kdata sec (K_data (ps_m s)).
Proof.
  intros Hid E. pose proof (parse_sec_writes _ _ _ E) as W.
  destruct sec; cbn [sec_kdata]; try (rewrite W; reflexivity); cbn [parse_sec] in E.
  - destruct (reserve_data _ _ _) as [m1 i1] eqn:Ep. injection E as <-. wcbn. exact (reserve_data_spec _ _ _ _ _ Ep).
  - pinv E as x Ex. destruct x as [m1 i1]. injection E as <-. wcbn. exact (parse_data_spec _ _ _ _ _ (idc_idsD _ _ Hid) Ex).
Qed.
Theorem parse_secs_D : forall w s s', ids_consistent (ps_m s) (ps_ids s) -> parse_secs s w = POk s' ->
  K_data (ps_m s') = fold_left (fun k sec => sec_kdata sec k) w (K_data (ps_m s)).
Proof.
  intros w s s' Hid E.
  refine (parse_secs_ind (fun s1 l => K_data (ps_m s1) = fold_left (fun k sec => sec_kdata sec k) l (K_data (ps_m s))) _ w s s' [] Hid eq_refl E).
  intros s1 sec s2 l I1 K1 E1. rewrite fold_left_app, <- K1. exact (parse_sec_D _ _ _ I1 E1).
Qed.
Corollary parseM_data : forall cf ver w s, parseM cf ver w = POk s ->
  K_data (ps_m s) = fold_left (fun k sec => sec_kdata sec k) w [].
Proof.
  intros cf ver w s E. destruct (parseM_KK _ _ _ _ E) as [s1 [E1 EK]]. apply parse_secs_D in E1; [|apply idc_empty].
  unfold KK in EK. injection EK; intros. change (K_data (ps_m (pst0 cf))) with (@nil (mdatakind * list N)) in E1. congruence.
Qed.

Definition kd_step (k : list (mdatakind * list N)) (sec : wsec) := sec_kdata sec k.

Lemma tag_count_app t a b : tag_count t (a ++ b) = tag_count t a + tag_count t b.
Proof. unfold tag_count. rewrite filter_app, app_length. reflexivity. Qed.
Lemma tag_count_cons t x w : tag_count t (x :: w) = (if has_tag t x then 1 else 0) + tag_count t w.
Proof. unfold tag_count. cbn [filter]. destruct (has_tag t x); reflexivity. Qed.
Lemma tag_count_0 t w : tag_count t w = 0 -> filter (has_tag t) w = [].
Proof. unfold tag_count. apply length_zero_iff_nil. Qed.
Lemma in_tag_count t s w : In s w -> has_tag t s = true -> 1 <= tag_count t w.
Proof.
  intros Hin Ht. assert (Hi : In s (filter (has_tag t) w)) by (apply filter_In; auto).
  unfold tag_count. destruct (filter (has_tag t) w); [destruct Hi|cbn [length]; lia].
Qed.

Lemma fold_kdata_none : forall w k, filter (has_tag 9) w = [] -> filter (has_tag 11) w = [] -> fold_left kd_step w k = k.
Proof.
  induction w as [|x r IH]; intros k H9 H11; [reflexivity|]. cbn [filter fold_left] in *.
  destruct (has_tag 9 x) eqn:E9; [discriminate|]. destruct (has_tag 11 x) eqn:E11; [discriminate|].
  rewrite IH by assumption. destruct x; try reflexivity; discriminate.
Qed.
Lemma fold_kdata_data : forall w l k, once 11 w -> filter (has_tag 9) w = [] -> In (S_Data l) w ->
  fold_left kd_step w k = map data_of l ++ skipn (length l) k.
Proof.
  unfold once, tag_count. induction w as [|x r IH]; intros l k Ho H9 Hin; [destruct Hin|].
  cbn [filter fold_left] in *. destruct (has_tag 9 x) eqn:E9; [discriminate|].
  destruct (has_tag 11 x) eqn:E11.
  - cbn [length] in Ho. assert (Hr : filter (has_tag 11) r = []) by (destruct (filter (has_tag 11) r); [reflexivity|cbn in Ho; lia]).
    rewrite fold_kdata_none by assumption. destruct Hin as [->|Hin]; [reflexivity|].
    exfalso. assert (Hi : In (S_Data l) (filter (has_tag 11) r)) by (apply filter_In; auto). rewrite Hr in Hi. destruct Hi.
  - destruct Hin as [->|Hin]; [discriminate|]. replace (kd_step k x) with k by (destruct x; try reflexivity; discriminate).
    apply IH; assumption.
Qed.

(* the validator's guarantee about a DataCount section: it precedes the data section and states its length *)
Definition dc_before (w : list wsec) (l : list wdata) : Prop :=
  forall n, In (S_DataCount n) w ->
    N.to_nat n = length l /\ exists w1 w2, w = w1 ++ S_DataCount n :: w2 /\ In (S_Data l) w2.

Lemma data_final w l : stream_wf w = true -> In (S_Data l) w -> dc_before w l ->
  fold_left kd_step w [] = map data_of l.
Proof.
  intros Hwf Hin Hdc.
  assert (O9 : once 9 w) by (apply stream_wf_once; [exact Hwf|lia]).
  assert (O11 : once 11 w) by (apply stream_wf_once; [exact Hwf|lia]).
  destruct (filter (has_tag 9) w) as [|s0 f0] eqn:E9.
  - rewrite (fold_kdata_data w l [] O11 E9 Hin), skipn_nil, app_nil_r. reflexivity.
  - assert (Hs0 : In s0 (filter (has_tag 9) w)) by (rewrite E9; left; reflexivity).
    apply filter_In in Hs0. destruct Hs0 as [Hs0 Ht0]. destruct s0; try discriminate.
    destruct (Hdc n Hs0) as [Hn (w1 & w2 & -> & Hin2)]. clear E9 Hs0 Ht0 Hdc Hin.
    unfold once in O9, O11. rewrite tag_count_app, tag_count_cons in O9, O11.
    change (has_tag 9 (S_DataCount n)) with true in O9. change (has_tag 11 (S_DataCount n)) with false in O11. cbv beta iota in O9, O11.
    pose proof (in_tag_count 11 _ _ Hin2 eq_refl) as L2.
    rewrite fold_left_app. cbn [fold_left].
    rewrite (fold_kdata_none w1) by (apply tag_count_0; lia). unfold kd_step at 2. cbn [sec_kdata app].
    rewrite (fold_kdata_data w2 l); [|unfold once; lia|apply tag_count_0; lia|exact Hin2].
    rewrite skipn_all2 by (rewrite repeat_length; lia). apply app_nil_r.
Qed.

Definition data_rt (x : x2i) (wi wo : wdata) : Prop :=
  wd_bytes wo = wd_bytes wi /\
  match wd_kind wi, wd_kind wo with
  | WDK_Passive, WDK_Passive => True
  | WDK_Active mi off, WDK_Active mi' off' => get_idx x S_memory mi = Ok mi' /\ ren_const x off off'
  | _, _ => False
  end.
Definition demit (x : x2i) (c : mdatakind * list N) : res wdata :=
  match fst c with
  | DK_Passive => Ok {| wd_kind := WDK_Passive; wd_bytes := snd c |}
  | DK_Active mem off => mi <- get_idx x S_memory mem ;; o <- emit_const x off ;;
                         Ok {| wd_kind := WDK_Active mi o; wd_bytes := snd c |}
  end.
Lemma demit_rt x wi wo : demit x (data_of wi) = Ok wo -> data_rt x wi wo.
Proof.
  unfold demit, data_of, data_rt. cbn [fst snd]. destruct (wd_kind wi) as [|mi off].
  - intros H. inversion H; subst. cbn. auto.
  - intros H. rinv H as mi' Emi. rinv H as o Eo. inversion H; subst. cbn [wd_bytes wd_kind].
    split; [reflexivity|]. split; [exact Emi|]. apply emit_const_ren. exact Eo.
Qed.

Lemma emit_data_entries m x s_da l : emit_data m x = Ok s_da -> dead (m_data m) = [] -> K_data m = map data_of l -> l <> [] ->
  exists ds, s_da = [S_Data ds] /\ Forall2 (data_rt x) l ds.
Proof.
  intros H D HK Hne. unfold emit_data in H.
  assert (HA : map (fun p => dcore (snd p)) (aiter (m_data m)) = map data_of l).
  { rewrite <- HK. unfold K_data. rewrite <- (aiter_nodead_snd _ D), map_map. reflexivity. }
  destruct (aiter (m_data m)) as [|p0 ps] eqn:Ea.
  { cbn [map] in HA. destruct l; [congruence|discriminate]. }
  rewrite <- Ea in *. clear Ea p0 ps. rinv H as ds Eds. inversion H; subst s_da; clear H.
  exists ds. split; [reflexivity|]. apply rmapM_ok_inv in Eds.
  assert (F : Forall2 (fun c wo => demit x c = Ok wo) (map (fun p => dcore (snd p)) (aiter (m_data m))) ds).
  { apply Forall2_map_l. eapply Forall2_impl; [|exact Eds]. cbn beta. intros a b Hab. exact Hab. }
  rewrite HA in F. apply Forall2_map_l in F. eapply Forall2_impl; [|exact F]. intros a b. apply demit_rt.
Qed.

(* the tags of [Structure.sec_tag]: 0 types, 1 imports, 2 functions, 3 tables, 4 memories, 5 globals, 6 exports, 7 start,
   8 elements, 9 data count, 10 code, 11 data; a custom section has none *)
Definition tagged (t : nat) (l : list wsec) : Prop := Forall (fun s => sec_tag s = Some t) l.
Lemma one_sec_tagged {A} (mk : A -> wsec) t l : one_sec mk l -> (forall a, sec_tag (mk a) = Some t) -> tagged t l.
Proof. intros [->|[a ->]] H; repeat constructor. apply H. Qed.
Lemma one_sec_len {A} (mk : A -> wsec) l : one_sec mk l -> length l <= 1.
Proof. intros [->|[a ->]]; cbn [length]; lia. Qed.

(* each of the twelve pieces is tagged: [one_sec_tagged] with the emitter's [emit_*_one] *)
#[export] Hint Resolve one_sec_tagged : emit_one.

Lemma tagged_filter t k l : tagged k l -> filter (has_tag t) l = if Nat.eqb k t then l else [].
Proof.
  unfold tagged. induction 1 as [|s l Hs _ IH]; [destruct (Nat.eqb k t); reflexivity|].
  cbn [filter]. unfold has_tag at 1. rewrite Hs, IH. destruct (Nat.eqb k t); reflexivity.
Qed.
Lemma untagged_filter t l : (forall s, In s l -> sec_tag s = None) -> filter (has_tag t) l = [].
Proof.
  induction l as [|s l IH]; intros H; [reflexivity|]. cbn [filter]. unfold has_tag at 1.
  rewrite (H s (or_introl eq_refl)). apply IH. intros s' Hs'. apply H. right. exact Hs'.
Qed.
(* pieces tagged a, a+1, ... in a row, then other sections: the sections of tag t are the piece of tag t and those of the rest *)
Lemma kinds_filter t rest : forall ps a, Forall2 tagged (seq a (length ps)) ps ->
  filter (has_tag t) (fold_right (@app wsec) rest ps) = (if a <=? t then nth (t - a) ps [] else []) ++ filter (has_tag t) rest.
Proof.
  induction ps as [|p ps IH]; intros a F; cbn [fold_right length seq] in *.
  - destruct (a <=? t), (t - a); reflexivity.
  - inversion F as [|? ? ? ? Tp F']; subst. rewrite filter_app, (tagged_filter t _ _ Tp), (IH _ F').
    destruct (Nat.eqb_spec a t) as [->|Hne].
    + rewrite Nat.leb_refl, Nat.sub_diag. replace (S t <=? t) with false by (symmetry; apply Nat.leb_gt; lia). reflexivity.
    + cbn [app]. destruct (Nat.leb_spec (S a) t), (Nat.leb_spec a t); try lia; [|reflexivity].
      replace (t - a) with (S (t - S a)) by lia. reflexivity.
Qed.
Lemma tagged_other t u l : tagged u l -> u <> t -> Forall (fun s => has_tag t s = false) l.
Proof.
  unfold tagged. intros T Hu. eapply Forall_impl; [|exact T]. cbn beta. intros s Hs. unfold has_tag. rewrite Hs.
  apply Nat.eqb_neq, Hu.
Qed.
Lemma untagged_other t l : (forall s, In s l -> sec_tag s = None) -> Forall (fun s => has_tag t s = false) l.
Proof. intros H. apply Forall_forall. intros s Hs. unfold has_tag. rewrite (H s Hs). reflexivity. Qed.
(* a payload function that is empty off the sections of tag t only sees those *)
Lemma flat_map_tag {B} (f : wsec -> list B) t : (forall s, has_tag t s = false -> f s = []) ->
  forall w, flat_map f w = flat_map f (filter (has_tag t) w).
Proof.
  intros Hf. induction w as [|s w IH]; [reflexivity|]. cbn [flat_map filter]. destruct (has_tag t s) eqn:Es.
  - cbn [flat_map]. rewrite IH. reflexivity.
  - rewrite (Hf s Es). exact IH.
Qed.

Lemma flat_map_nil {A B} (f : A -> list B) : forall l, (forall s, In s l -> f s = []) -> flat_map f l = [].
Proof.
  induction l as [|x l IH]; intros H; [reflexivity|]. cbn [flat_map]. rewrite (H x) by (left; reflexivity).
  apply IH. intros s Hs. apply H. right. exact Hs.
Qed.
(* ... so the payload before a part of the stream that has no section of tag t is the payload of the stream *)
Lemma flat_map_off {B} (f : wsec -> list B) t : (forall s, has_tag t s = false -> f s = []) ->
  forall l, Forall (fun s => has_tag t s = false) l -> flat_map f l = [].
Proof. intros Hf l H. apply flat_map_nil. rewrite Forall_forall in H. intros s Hs. exact (Hf s (H s Hs)). Qed.
Lemma flat_map_before {B} (f : wsec -> list B) t : (forall s, has_tag t s = false -> f s = []) ->
  forall w a b, w = a ++ b -> Forall (fun s => has_tag t s = false) b -> flat_map f a = flat_map f w.
Proof. intros Hf w a b -> H. rewrite flat_map_app, (flat_map_off f t Hf b H), app_nil_r. reflexivity. Qed.

(* a payload function that is empty off the sections of some tags (those [keep] holds of), on pieces tagged a, a+1, ...
   followed by untagged sections: only the pieces of those tags contribute *)
Lemma pieces_payload {B} (f : wsec -> list B) (keep : nat -> bool) rest :
  (forall s, match sec_tag s with Some k => keep k = false -> f s = [] | None => f s = [] end) ->
  (forall s, In s rest -> sec_tag s = None) -> forall ps a, Forall2 tagged (seq a (length ps)) ps ->
  flat_map f (fold_right (@app wsec) rest ps) =
  flat_map (fun kp => if keep (fst kp) then flat_map f (snd kp) else []) (combine (seq a (length ps)) ps).
Proof.
  intros Hf R. induction ps as [|p ps IH]; intros a F; cbn [fold_right length seq combine flat_map].
  - apply flat_map_nil. intros s Hs. specialize (Hf s). rewrite (R s Hs) in Hf. exact Hf.
  - inversion F as [|? ? ? ? Tp F']; subst. rewrite flat_map_app, (IH _ F'). cbn [fst snd]. f_equal.
    destruct (keep a) eqn:K; [reflexivity|]. apply flat_map_nil. intros s Hs. specialize (Hf s).
    unfold tagged in Tp. rewrite Forall_forall in Tp. rewrite (Tp s Hs) in Hf. exact (Hf K).
Qed.

(* the sections gimli writes are custom sections *)
Definition dw_custom (dw : list wsec) : Prop := forall s, In s dw -> sec_tag s = None.

(* what follows the twelve pieces (name section, producers section, the caller's sections, raw custom sections)
   has no tag, but for what the caller supplied *)
Lemma emitM_rest_tag m dw x efs s_nm : (if cf_skip_name (m_config m) then Ok [] else emit_names m x efs) = Ok s_nm ->
  forall s, In s (s_nm ++ emitM_tail m dw) -> sec_tag s = None \/ In s dw.
Proof.
  intros Enm s Hin. unfold emitM_tail in Hin. rewrite !in_app_iff in Hin. destruct Hin as [Hn|[Hn|[Hn|Hn]]].
  - destruct (cf_skip_name (m_config m)); [inversion Enm; subst; destruct Hn|].
    apply emit_names_shape in Enm. destruct Enm as [->|[n ->]]; [destruct Hn|]. destruct Hn as [<-|[]]. left; reflexivity.
  - destruct (cf_skip_producers (m_config m)); [destruct Hn|]. destruct (m_producers m); [destruct Hn|].
    destruct Hn as [<-|[]]. left; reflexivity.
  - destruct (cf_generate_dwarf (m_config m)); [right; exact Hn|destruct Hn].
  - apply in_flat_map in Hn. destruct Hn as [c [_ Hn]]. destruct c as [c|]; [|destruct Hn].
    destruct (starts_with_debug (cu_name c)); [destruct Hn|]. destruct Hn as [<-|[]]. left; reflexivity.
Qed.

(* emitM, when the caller supplies custom sections only, taken apart: twelve pieces, the k-th of tag k and at most one
   section, then untagged sections; so the sections of tag t of the stream are exactly the t-th piece *)
Inductive emit_kinds (m : wir) (ilen : wins -> N) (e : emitted) : Prop :=
| EmitKinds s_ty x1 s_im x2 s_fn x3 x4 x5 s_gl x6 s_ex s_st s_el x9 s_dc x10 s_co efs s_da rest
    (Ety : emit_types m empty_x2i = (s_ty, x1)) (Eim : emit_imports m x1 = Ok (s_im, x2))
    (Efn : emit_func_section m x2 = Ok (s_fn, x3))
    (Ex4 : x4 = snd (emit_tables m x3)) (Ex5 : x5 = snd (emit_memories m x4)) (Egl : emit_globals m x5 = Ok (s_gl, x6))
    (Eex : emit_exports m x6 = Ok s_ex)
    (Est : match m_start m with Some f => i <- get_idx x6 S_func f ;; Ok [S_Start i] | None => Ok [] end = Ok s_st)
    (Eel : emit_elements m x6 = Ok (s_el, x9)) (Edc : emit_data_count m x9 = Ok (s_dc, x10))
    (Eco : emit_code m x10 ilen = Ok (s_co, em_x2i e, efs)) (Eda : emit_data m (em_x2i e) = Ok s_da)
    (Esecs : em_secs e = s_ty ++ s_im ++ s_fn ++ fst (emit_tables m x3) ++ fst (emit_memories m x4) ++ s_gl ++ s_ex ++ s_st ++
                         s_el ++ s_dc ++ s_co ++ s_da ++ rest)
    (Erest : forall s, In s rest -> sec_tag s = None)
    (T0 : tagged 0 s_ty) (T1 : tagged 1 s_im) (T2 : tagged 2 s_fn) (T3 : tagged 3 (fst (emit_tables m x3)))
    (T4 : tagged 4 (fst (emit_memories m x4))) (T5 : tagged 5 s_gl) (T6 : tagged 6 s_ex) (T7 : tagged 7 s_st)
    (T8 : tagged 8 s_el) (T9 : tagged 9 s_dc) (T10 : tagged 10 s_co) (T11 : tagged 11 s_da)
    (Ekind : forall t, filter (has_tag t) (em_secs e) =
               nth t [s_ty; s_im; s_fn; fst (emit_tables m x3); fst (emit_memories m x4); s_gl; s_ex; s_st; s_el; s_dc; s_co; s_da] [])
    (Efns : em_fns e = efs).

Lemma emitM_tail_eq m dw :
  emitM_tail m dw = sec_producers (m_config m) (m_producers m) ++ sec_dwarf (m_config m) dw ++ sec_customs (m_customs m).
Proof. unfold emitM_tail, sec_producers. destruct (m_producers m); reflexivity. Qed.

Lemma emitM_kinds m ilen dw e : emitM m ilen dw = Ok e -> dw_custom dw -> emit_kinds m ilen e.
Proof.
  intros He Hdw. destruct (emitM_split _ _ _ _ He) as (front & x & efs & s_nm & Ef & Enm & ->). unfold set_customs_take in *.
  destruct (emit_front_inv _ _ _ _ _ Ef) as
    [s_ty x1 s_im x2 s_fn x3 x4 x5 s_gl x6 s_ex s_st s_el x9 s_dc x10 s_co s_da
     Ety Eim Efn Ex4 Ex5 Egl Eex Est Eel Edc Eco Eda ->].
  assert (R : forall s, In s (s_nm ++ emitM_tail m dw) -> sec_tag s = None).
  { intros s Hs. destruct (emitM_rest_tag _ _ _ _ _ Enm s Hs) as [H|H]; [exact H|exact (Hdw s H)]. }
  apply (EmitKinds m ilen _ s_ty x1 s_im x2 s_fn x3 x4 x5 s_gl x6 s_ex s_st s_el x9 s_dc x10 s_co efs s_da (s_nm ++ emitM_tail m dw));
    cbn [em_secs em_x2i em_fns]; rewrite <- ?app_assoc, <- ?emitM_tail_eq; try reflexivity; eauto with emit_one.
  intros t.
  pose proof (kinds_filter t (s_nm ++ emitM_tail m dw)
                [s_ty; s_im; s_fn; fst (emit_tables m x3); fst (emit_memories m x4); s_gl; s_ex; s_st; s_el; s_dc; s_co; s_da] 0) as K.
  rewrite Nat.sub_0_r, (untagged_filter t _ R), app_nil_r in K. apply K. repeat (constructor; [eauto with emit_one|]). constructor.
Qed.
(* [He : emitM m ilen dw = Ok e], with [dw] empty or [dw_custom dw] among the hypotheses *)
Ltac emitM_kinds He :=
  destruct (emitM_kinds _ _ _ _ He ltac:(first [assumption | intros ? []]))
    as [s_ty x1 s_im x2 s_fn x3 x4 x5 s_gl x6 s_ex s_st s_el x9 s_dc x10 s_co efs s_da rest
        Ety Eim Efn Ex4 Ex5 Egl Eex Est Eel Edc Eco Eda Esecs Erest T0 T1 T2 T3 T4 T5 T6 T7 T8 T9 T10 T11 Ekind Efns].

(* the sections the caller supplies are inserted into the stream that is emitted without them *)
Lemma emitM_without_dw m ilen dw e : emitM m ilen dw = Ok e ->
  exists e0, emitM m ilen [] = Ok e0 /\ em_x2i e0 = em_x2i e /\
    (forall s, In s (em_secs e0) -> In s (em_secs e)) /\ (forall s, In s (em_secs e) -> In s dw \/ In s (em_secs e0)).
Proof.
  intros H. destruct (emitM_split _ _ _ _ H) as (front & x & efs & nm & Ef & En & ->).
  rewrite emitM_factor, Ef. cbn [rbind emit_tail]. rewrite En. eexists. split; [reflexivity|]. cbn [em_x2i em_secs]. split; [reflexivity|].
  unfold sec_dwarf. split; intros s; rewrite !in_app_iff; destruct (cf_generate_dwarf _); cbn [In]; tauto.
Qed.

Lemma parseM_data_wf cf ver w s l : parseM cf ver w = POk s -> stream_wf w = true -> In (S_Data l) w -> dc_before w l ->
  K_data (ps_m s) = map data_of l.
Proof.
  intros Hp Hwf Hin Hdc. pose proof (parseM_data _ _ _ _ Hp) as HK.
  pose proof (data_final w l Hwf Hin Hdc) as HF. unfold kd_step in HF. rewrite HF in HK. exact HK.
Qed.

(* the data section: same count and order, same mode, bytes equal, memory index and offset renamed *)
Theorem structure_data : forall cf ver w s ilen dw e l, parseM cf ver w = POk s -> emitM (ps_m s) ilen dw = Ok e ->
  stream_wf w = true -> In (S_Data l) w -> dc_before w l -> l <> [] ->
  exists ds, In (S_Data ds) (em_secs e) /\ Forall2 (data_rt (em_x2i e)) l ds.
Proof.
  intros cf ver w s ilen dw e l Hp He Hwf Hin Hdc Hne.
  pose proof (parseM_data_wf _ _ _ _ _ Hp Hwf Hin Hdc) as HK.
  pose proof (parseM_ids _ _ _ _ Hp) as Hid.
  assert (D : dead (m_data (ps_m s)) = []) by (unfold ids_consistent in Hid; tauto).
  emitM_parts He. destruct (emit_data_entries _ _ _ _ Eda D HK Hne) as [ds [-> F]].
  exists ds. split; [|exact F]. rewrite Esecs. do 11 (apply in_or_app; right). apply in_or_app. left. left. reflexivity.
Qed.
Corollary structure_data_length : forall cf ver w s ilen dw e l, parseM cf ver w = POk s -> emitM (ps_m s) ilen dw = Ok e ->
  stream_wf w = true -> In (S_Data l) w -> dc_before w l -> l <> [] ->
  exists ds, In (S_Data ds) (em_secs e) /\ length ds = length l.
Proof.
  intros cf ver w s ilen dw e l Hp He Hwf Hin Hdc Hne.
  destruct (structure_data _ _ _ _ _ _ _ _ Hp He Hwf Hin Hdc Hne) as [ds [H1 H2]]. exists ds. split; [exact H1|].
  symmetry. eapply Forall2_length; eauto.
Qed.

Definition is_passive (d : wdata) : bool := match wd_kind d with WDK_Passive => true | _ => false end.
Lemma existsb_map {A B} (g : B -> bool) (h : A -> B) : forall l, existsb g (map h l) = existsb (fun x => g (h x)) l.
Proof. induction l as [|a l IH]; [reflexivity|]. cbn [map existsb]. rewrite IH. reflexivity. Qed.
Lemma emit_data_count_shape m x s x' : emit_data_count m x = Ok (s, x') ->
  s = [] \/ s = [S_DataCount (len_N (aiter (m_data m)))].
Proof.
  unfold emit_data_count. destruct (aiter (m_data m)) as [|p r]; [intros H; inversion H; auto|].
  intros H. rinv H as us Eus. destruct (_ || _); inversion H; auto.
Qed.

Theorem structure_data_count : forall cf ver w s ilen dw e l, parseM cf ver w = POk s -> emitM (ps_m s) ilen dw = Ok e ->
  stream_wf w = true -> In (S_Data l) w -> dc_before w l -> l <> [] -> (forall n, ~ In (S_DataCount n) dw) ->
  (forall n', In (S_DataCount n') (em_secs e) -> n' = N.of_nat (length l)) /\
  ((exists n', In (S_DataCount n') (em_secs e)) <->
   (existsb is_passive l = true \/
    exists p lf, In p (aiter (m_funcs (ps_m s))) /\ fn_kind (snd p) = FK_Local lf /\ uses_data lf = Ok true)).
Proof.
  intros cf ver w s ilen dw e l Hp He Hwf Hin Hdc Hne Hdw.
  pose proof (parseM_data_wf _ _ _ _ _ Hp Hwf Hin Hdc) as HK.
  pose proof (parseM_ids _ _ _ _ Hp) as Hid.
  assert (D : dead (m_data (ps_m s)) = []) by (unfold ids_consistent in Hid; tauto).
  assert (HA : map (fun p => dcore (snd p)) (aiter (m_data (ps_m s))) = map data_of l).
  { rewrite <- HK. unfold K_data. rewrite <- (aiter_nodead_snd _ D), map_map. reflexivity. }
  assert (HL : length (aiter (m_data (ps_m s))) = length l).
  { rewrite <- (map_length (fun p => dcore (snd p))), HA, map_length. reflexivity. }
  destruct (emitM_without_dw _ _ _ _ He) as (e0 & He0 & _ & Hsub & Hsup). emitM_kinds He0.
  assert (HIN : forall n', In (S_DataCount n') (em_secs e) <-> In (S_DataCount n') s_dc).
  { intros n'. change s_dc with (nth 9 [s_ty; s_im; s_fn; fst (emit_tables (ps_m s) x3); fst (emit_memories (ps_m s) x4); s_gl; s_ex; s_st; s_el; s_dc; s_co; s_da] []).
    rewrite <- Ekind, filter_In. split.
    - intros Hi. destruct (Hsup _ Hi) as [Hd|Hs]; [destruct (Hdw _ Hd)|split; [exact Hs|reflexivity]].
    - intros [Hi _]. exact (Hsub _ Hi). }
  pose proof (emit_data_count_shape _ _ _ _ Edc) as Hsh. unfold len_N in Hsh. rewrite HL in Hsh.
  split.
  - intros n' Hi. apply HIN in Hi. destruct Hsh as [->| ->]; [destruct Hi|]. destruct Hi as [Hi|[]]. congruence.
  - pose proof (emit_data_count_iff _ _ _ _ Edc) as Hiff.
    assert (HP : existsb (fun p => match da_kind (snd p) with DK_Passive => true | _ => false end) (aiter (m_data (ps_m s))) =
                 existsb is_passive l).
    { transitivity (existsb (fun c : mdatakind * list N => match fst c with DK_Passive => true | _ => false end)
                            (map (fun p => dcore (snd p)) (aiter (m_data (ps_m s))))).
      - rewrite existsb_map. reflexivity.
      - rewrite HA, existsb_map. clear. induction l as [|d l IH]; [reflexivity|]. cbn [existsb]. rewrite IH. f_equal.
        unfold data_of, is_passive. destruct (wd_kind d); reflexivity. }
    rewrite HP in Hiff.
    assert (HNE : aiter (m_data (ps_m s)) <> []).
    { intros C. rewrite C in HL. destruct l; [congruence|discriminate]. }
    split.
    + intros [n' Hi]. apply HIN in Hi. apply Hiff. intros C. rewrite C in Hi. destruct Hi.
    + intros Hc. assert (Hs : s_dc <> []) by (apply Hiff; split; [exact HNE|exact Hc]).
      destruct Hsh as [->| ->]; [congruence|]. eexists. apply HIN. left. reflexivity.
Qed.

Theorem structure_no_start : forall cf ver w s ilen dw e, parseM cf ver w = POk s -> emitM (ps_m s) ilen dw = Ok e ->
  (forall f, ~ In (S_Start f) w) -> (forall f, ~ In (S_Start f) dw) -> forall f, ~ In (S_Start f) (em_secs e).
Proof.
  intros cf ver w s ilen dw e Hp He Hw Hdw f Hin.
  pose proof (structure_start_none _ _ _ _ Hp Hw) as Hn.
  destruct (emitM_without_dw _ _ _ _ He) as (e0 & He0 & _ & _ & Hsup). destruct (Hsup _ Hin) as [Hd|Hs]; [exact (Hdw f Hd)|].
  emitM_kinds He0. assert (Hf : In (S_Start f) (filter (has_tag 7) (em_secs e0))) by (apply filter_In; split; [exact Hs|reflexivity]).
  rewrite Ekind, Hn in *. injection Est as <-. destruct Hf.
Qed.

Definition types_of (sec : wsec) : list (list valty * list valty) := match sec with S_Types l => l | _ => [] end.
Definition imp_ftys (l : list wimport) : list N := flat_map (fun i => match wi_kind i with WI_Func t => [t] | _ => [] end) l.
(* the type indices a payload declares for the functions it adds to the function index space *)
Definition sec_ftys (sec : wsec) : list N := match sec with S_Imports l => imp_ftys l | S_Funcs l => l | _ => [] end.
Definition ty_sig (ty : mtype) (t : list valty * list valty) : Prop :=
  ty_params ty = fst t /\ ty_results ty = snd t /\ ty_entry ty = false.
Definition TyInv (m : wir) (ids : i2ids) (T : list (list valty * list valty)) : Prop :=
  length (ii_types ids) = length T /\
  forall k t, nth_error T k = Some t -> exists id ty, nth_error (ii_types ids) k = Some id /\
     nth_error (items (Arena.arena (m_types m))) (N.to_nat id) = Some ty /\ ty_sig ty t.
Definition FInv (m : wir) (ids : i2ids) (F : list N) : Prop :=
  Forall2 (fun ti c => nth_N (ii_types ids) ti = Some (fst c)) F (K_fty m).

Lemma parse_imports_fsig : forall l m ids m' ids', parse_imports m ids l = POk (m', ids') ->
  m_types m' = m_types m /\ ii_types ids' = ii_types ids /\
  exists a, K_fty m' = K_fty m ++ a /\ Forall2 (fun ti c => nth_N (ii_types ids) ti = Some (fst c)) (imp_ftys l) a.
Proof.
  induction l as [|i r IH]; intros m ids m' ids' E; cbn [parse_imports] in E.
  - inversion E; subst. split; [reflexivity|]. split; [reflexivity|]. exists []. rewrite app_nil_r. split; [reflexivity|constructor].
  - pinv E as x Ex. destruct x as [m1 ids1]. cbn [fst snd] in E. apply IH in E. destruct E as (E1 & E2 & a & Ea & Fa).
    assert (X : m_types m1 = m_types m /\ ii_types ids1 = ii_types ids /\
                exists a0, K_fty m1 = K_fty m ++ a0 /\
                  Forall2 (fun ti c => nth_N (ii_types ids) ti = Some (fst c)) (match wi_kind i with WI_Func t => [t] | _ => [] end) a0).
    { unfold parse_import in Ex. destruct (wi_kind i) eqn:Ek.
      - pinv Ex as t Et. apply of_opt_err_ok in Et. wcbn. inversion Ex; subst; clear Ex. wcbn.
        split; [reflexivity|]. split; [reflexivity|]. exists [(t, true)]. split; [unfold K_fty; wcbn; rewrite map_app; reflexivity|].
        constructor; [exact Et|constructor].
      - wcbn. inversion Ex; subst; clear Ex. wcbn. split; [reflexivity|]. split; [reflexivity|]. exists []. rewrite app_nil_r. split; [reflexivity|constructor].
      - wcbn. inversion Ex; subst; clear Ex. wcbn. split; [reflexivity|]. split; [reflexivity|]. exists []. rewrite app_nil_r. split; [reflexivity|constructor].
      - wcbn. inversion Ex; subst; clear Ex. wcbn. split; [reflexivity|]. split; [reflexivity|]. exists []. rewrite app_nil_r. split; [reflexivity|constructor]. }
    destruct X as (X1 & X2 & a0 & Ea0 & Fa0). split; [congruence|]. split; [congruence|].
    exists (a0 ++ a). split; [rewrite Ea, Ea0, <- app_assoc; reflexivity|].
    cbn [imp_ftys flat_map]. fold (imp_ftys r). apply Forall2_app; [exact Fa0|]. rewrite <- X2. exact Fa.
Qed.

Lemma parse_sec_frameB s sec s' : parse_sec s sec = POk s' ->
  match sec with S_Types _ => True
               | _ => m_types (ps_m s') = m_types (ps_m s) /\ ii_types (ps_ids s') = ii_types (ps_ids s) end /\
  match sec with S_Imports _ | S_Funcs _ => True | _ => m_funcs (ps_m s') = m_funcs (ps_m s) end.
Proof.
  intros E. pose proof (parse_sec_writes _ _ _ E) as W. pose proof (parse_sec_ty _ _ _ E) as T.
  split; destruct sec; try exact I; try split; try exact T; rewrite W; reflexivity.
Qed.

Lemma parse_sec_Ty s sec s' T : types_wf (m_types (ps_m s)) -> TyInv (ps_m s) (ps_ids s) T -> parse_sec s sec = POk s' ->
  TyInv (ps_m s') (ps_ids s') (T ++ types_of sec).
Proof.
  intros W [HL HT] E.
  destruct sec;
    try (pose proof (parse_sec_frameB _ _ _ E) as [[E1 E2] _]; cbn [types_of]; rewrite app_nil_r; unfold TyInv;
         rewrite E1, E2; split; assumption).
  unfold parse_sec in E. destruct (parse_types _ _ _) as [m1 i1] eqn:Ep. inversion E; subst; clear E. wcbn. cbn [types_of].
  destruct (parse_types_frame _ _ _ _ _ W Ep) as (W' & Keep & l & El & Ll).
  split; [rewrite El, !app_length; lia|].
  intros k t Hk. destruct (lt_dec k (length T)) as [Lt|Ge].
  - rewrite nth_error_app1 in Hk by lia. destruct (HT _ _ Hk) as (id & ty & H1 & H2 & H3). exists id, ty.
    split; [rewrite El; apply nth_error_app_some; exact H1|]. split; [apply Keep; exact H2|exact H3].
  - rewrite nth_error_app2 in Hk by lia.
    destruct (parse_types_spec _ _ _ _ _ W Ep _ _ Hk) as (id & ty & H1 & H2 & H3 & H4 & H5). exists id, ty.
    split; [rewrite HL in H1; replace (length T + (k - length T)) with k in H1 by lia; exact H1|].
    split; [rewrite aset_index_nodead in H2 by apply W'; exact H2|]. unfold ty_sig. auto.
Qed.
Lemma parse_secs_Ty : forall w s s' T, types_wf (m_types (ps_m s)) -> TyInv (ps_m s) (ps_ids s) T -> parse_secs s w = POk s' ->
  TyInv (ps_m s') (ps_ids s') (T ++ flat_map types_of w).
Proof.
  induction w as [|x r IH]; intros s s' T W HT E; cbn [parse_secs flat_map] in *.
  - inversion E; subst. rewrite app_nil_r. exact HT.
  - pinv E as s1 E1. rewrite app_assoc. eapply IH; [|eapply parse_sec_Ty; eauto|exact E].
    eapply parse_sec_types_wf; eauto.
Qed.

Lemma FInv_mono (idsT idsT' : list N) a F (K : list (N * bool)) : idsT' = idsT ++ a ->
  Forall2 (fun ti c => nth_N idsT ti = Some (fst c)) F K -> Forall2 (fun ti c => nth_N idsT' ti = Some (fst c)) F K.
Proof. intros -> H. eapply Forall2_impl; [|exact H]. intros ti c Hc. unfold nth_N in *. apply nth_error_app_some. exact Hc. Qed.

Lemma parse_sec_F s sec s' F : FInv (ps_m s) (ps_ids s) F -> parse_sec s sec = POk s' ->
  FInv (ps_m s') (ps_ids s') (F ++ sec_ftys sec).
Proof.
  intros HF E. destruct (parse_sec_FT _ _ _ E) as (_ & [a2 Ht] & _). unfold FInv in *.
  pose proof (FInv_mono _ _ _ _ _ Ht HF) as HF'.
  destruct sec;
    try (pose proof (parse_sec_frameB _ _ _ E) as [_ E3]; cbn [sec_ftys]; rewrite app_nil_r; unfold K_fty in *; rewrite E3; exact HF').
  - unfold parse_sec in E. pinv E as x Ex. destruct x as [m1 i1]. inversion E; subst; clear E. wcbn. cbn [sec_ftys].
    apply parse_imports_fsig in Ex. destruct Ex as (_ & E2 & a & Ea & Fa). rewrite Ea.
    apply Forall2_app; [exact HF'|]. rewrite E2. exact Fa.
  - pose proof (parse_sec_ty _ _ _ E) as E2. unfold parse_sec in E. pinv E as x Ex. destruct x as [m1 i1]. inversion E; subst; clear E.
    wcbn. cbn [sec_ftys]. apply parse_funcs_spec in Ex. destruct Ex as (a & Ea & Fa). rewrite Ea.
    apply Forall2_app; [exact HF'|]. rewrite E2. eapply Forall2_impl; [|exact Fa]. intros x c [Hc _]. exact Hc.
Qed.
Lemma parse_secs_F : forall w s s' F, FInv (ps_m s) (ps_ids s) F -> parse_secs s w = POk s' ->
  FInv (ps_m s') (ps_ids s') (F ++ flat_map sec_ftys w).
Proof.
  induction w as [|x r IH]; intros s s' F HF E; cbn [parse_secs flat_map] in *.
  - inversion E; subst. rewrite app_nil_r. exact HF.
  - pinv E as s1 E1. rewrite app_assoc. eapply IH; [eapply parse_sec_F; eauto|exact E].
Qed.

(* along any run of steps the type arena only grows (entry types) and gets names *)
Lemma reach_types_eqv a b : reach a b -> types_wf (m_types (fst a)) ->
  items_eqv (items (Arena.arena (m_types (fst a)))) (items (Arena.arena (m_types (fst b)))).
Proof.
  intros R W. set (P := fun (s : aset mtype) (_ : list N) => types_wf s /\ items_eqv (items (Arena.arena (m_types (fst a)))) (items (Arena.arena s))).
  refine (proj2 (reach_inv (fun m ids => P (m_types m) (ii_types ids)) _ a b R (conj W (items_eqv_refl _)))).
  apply (step_types_inv P); unfold P.
  - intros m t m1 id _ [W0 Q0] Et. destruct (types_insert_spec _ _ _ _ W0 Et) as (W1 & Keep & _).
    assert (Q1 : items_eqv (items (Arena.arena (m_types (fst a)))) (items (Arena.arena (m_types m1)))).
    { eapply items_eqv_trans; [exact Q0|]. intros i k Hk. exists k. split; [apply Keep; exact Hk|apply mtype_eqb_refl']. }
    split; [|intros _]; split; assumption.
  - intros s a' _ _ D Q [W0 Q0]. split; [exact (types_wf_rename s a' W0 D Q)|]. eapply items_eqv_trans; [exact Q0|exact Q].
Qed.

Theorem parseM_sigs : forall cf ver w s, parseM cf ver w = POk s ->
  TyInv (ps_m s) (ps_ids s) (flat_map types_of w) /\ FInv (ps_m s) (ps_ids s) (flat_map sec_ftys w).
Proof.
  intros cf ver w s E. destruct (parseM_fty _ _ _ _ E) as (s1 & E1 & EF & ET).
  assert (T0 : TyInv (ps_m (pst0 cf)) (ps_ids (pst0 cf)) []).
  { split; [reflexivity|]. intros k t Hk. destruct k; discriminate. }
  pose proof (parse_secs_Ty w (pst0 cf) s1 [] types_wf_empty T0 E1) as HT. cbn [app] in HT.
  pose proof (parse_secs_F w (pst0 cf) s1 [] (Forall2_nil _) E1) as HF. cbn [app] in HF.
  split.
  - assert (Q : items_eqv (items (Arena.arena (m_types (ps_m s1)))) (items (Arena.arena (m_types (ps_m s))))).
    { pose proof (parse_secs_types_wf w (pst0 cf) s1 types_wf_empty E1) as W1. clear HT HF EF ET T0.
      unfold parseM in E. fold (pst0 cf) in E. rewrite E1 in E. cbn [pbind] in E.
      destruct (_ <? _)%N; [discriminate|].
      pinv E as x Ex. destruct x as [[m1 ids1] prepared]. pinv E as m2 E2. inversion E; subst; clear E. wcbn.
      apply (reach_types_eqv (ps_m s1, ps_ids s1) (_, ids1)); [|exact W1]. unfold reach.
      eapply reach_by_trans; [exact (prepare_bodies_reach _ _ _ _ _ _ _ _ Ex)|].
      eapply reach_by_trans; [exact (install_bodies_reach _ _ _ _ E2)|].
      exact (run_steps_reach _ _ _ _ (parse_all_names_steps _ _ _)). }
    destruct HT as [HL HT]. split; [rewrite ET; exact HL|]. intros k t Hk.
    destruct (HT _ _ Hk) as (id & ty & H1 & H2 & (H3 & H4 & H5)). destruct (Q _ _ H2) as (ty' & H2' & He).
    apply mtype_eqb_spec in He. destruct He as (He1 & He2 & He3).
    exists id, ty'. rewrite ET. split; [exact H1|]. split; [exact H2'|]. unfold ty_sig. repeat split; congruence.
  - unfold FInv in *. rewrite EF, ET. exact HF.
Qed.

Lemma lookup_number_gen : forall (L : list N) b id j,
  lookup_i (combine L (map N.of_nat (seq b (length L)))) id = Ok j ->
  exists k, j = N.of_nat (b + k) /\ nth_error L k = Some id.
Proof.
  induction L as [|a L IH]; intros b id j H; [discriminate|].
  cbn [length seq map combine] in H. unfold lookup_i in H. cbn [find fst] in H.
  destruct (N.eqb a id) eqn:Ea.
  - cbn [snd] in H. inversion H; subst. apply N.eqb_eq in Ea. subst. exists 0. rewrite Nat.add_0_r. split; reflexivity.
  - fold (lookup_i (combine L (map N.of_nat (seq (S b) (length L)))) id) in H. apply IH in H.
    destruct H as [k [Hj Hk]]. exists (S k). split; [rewrite Hj; f_equal; lia|exact Hk].
Qed.
Lemma lookup_number L id j : lookup_i (number L) id = Ok j -> nth_error L (N.to_nat j) = Some id.
Proof.
  unfold number, iota. intros H. apply lookup_number_gen in H. destruct H as [k [-> Hk]]. rewrite Nat2N.id. exact Hk.
Qed.
Lemma Forall2_nth_l {A B} (R : A -> B -> Prop) : forall l l' n a, Forall2 R l l' -> nth_error l n = Some a ->
  exists b, nth_error l' n = Some b /\ R a b.
Proof.
  intros l l' n a F. exact (Forall2_nth_error R l l' F n a).
Qed.
Lemma Forall2_impl_in {A B} (R R' : A -> B -> Prop) : forall l l', (forall a b, In a l -> R a b -> R' a b) ->
  Forall2 R l l' -> Forall2 R' l l'.
Proof.
  intros l l' H F. induction F as [|x y l l' Hxy F IH]; constructor.
  - apply H; [left; reflexivity|exact Hxy].
  - apply IH. intros a b Ha. apply H. right. exact Ha.
Qed.
Lemma aiter_In_nth {A} (a : tarena A) id v : In (id, v) (aiter a) -> nth_error (items a) (N.to_nat id) = Some v.
Proof.
  unfold aiter. intros H. apply in_map_iff in H. destruct H as ([i w] & E & H). cbn [fst snd] in E. inversion E; subst.
  rewrite Nat2N.id. apply (Proofs.Arena.iter_live A (fun x => x) (fun _ _ => true)) in H.
  unfold index, get in H. destruct (is_dead a i); [discriminate|exact H].
Qed.

Lemma ulf_in m fs id lf : used_local_functions m = Ok fs -> In (id, lf) fs ->
  exists f, In (id, f) (aiter (m_funcs m)) /\ fn_kind f = FK_Local lf.
Proof.
  rewrite used_local_functions_sort_funcs. intros H Hin. rinv H as l El. inversion H; subst fs; clear H.
  apply in_map_iff in Hin. destruct Hin as (t & Et & Hin).
  eapply Permutation_in in Hin; [|apply sort_funcs_perm]. apply in_concat in Hin. destruct Hin as (piece & Hp & Ht).
  apply (rmapM_In _ _ _ El) in Hp. destruct Hp as ([pid pf] & Hpa & Hpe). cbn [fst snd] in Hpe.
  destruct (fn_kind pf) as [? ?|lf0|?] eqn:Ek.
  - inversion Hpe; subst. destruct Ht.
  - rinv Hpe as sz Esz. inversion Hpe; subst piece; clear Hpe. destruct Ht as [<-|[]]. cbn [fst snd] in Et. inversion Et; subst.
    exists pf. auto.
  - discriminate.
Qed.

Definition out_ftys (e : emitted) : list N := flat_map sec_ftys (em_secs e).
Definition out_types (e : emitted) : list (list valty * list valty) := flat_map types_of (em_secs e).
Lemma out_decls m ilen dw e : emitM m ilen dw = Ok e -> dw_custom dw ->
  exists s_ty x1 s_im x2 s_fn x3,
    emit_types m empty_x2i = (s_ty, x1) /\ emit_imports m x1 = Ok (s_im, x2) /\ emit_func_section m x2 = Ok (s_fn, x3) /\
    out_ftys e = flat_map sec_ftys s_im ++ flat_map sec_ftys s_fn /\ out_types e = flat_map types_of s_ty.
Proof.
  intros He Hdw. emitM_kinds He. exists s_ty, x1, s_im, x2, s_fn, x3.
  split; [exact Ety|]. split; [exact Eim|]. split; [exact Efn|]. unfold out_ftys, out_types. split.
  - pose (ps := [s_ty; s_im; s_fn; fst (emit_tables m x3); fst (emit_memories m x4); s_gl; s_ex; s_st; s_el; s_dc; s_co; s_da]).
    assert (F : Forall2 tagged (seq 0 12) ps) by (repeat (constructor; [assumption|]); constructor).
    rewrite Esecs. change (flat_map sec_ftys (fold_right (@app wsec) rest ps) = flat_map sec_ftys s_im ++ flat_map sec_ftys s_fn).
    rewrite (pieces_payload sec_ftys (fun k => Nat.eqb k 1 || Nat.eqb k 2) rest) with (a := 0);
      [|intros []; cbn [sec_tag]; try reflexivity; intros K; try reflexivity; discriminate K|exact Erest|exact F].
    subst ps. cbn [length seq combine flat_map fst snd Nat.eqb orb app]. rewrite app_nil_r. reflexivity.
  - rewrite (flat_map_tag types_of 0), Ekind by (intros [] Hs; try reflexivity; discriminate Hs). reflexivity.
Qed.

Lemma emit_imports_ftys m x s x' : emit_imports m x = Ok (s, x') ->
  exists ws, flat_map sec_ftys s = imp_ftys ws /\ Forall2 (import_emitted' m (space_map x S_type)) (live_imports m) ws.
Proof.
  unfold emit_imports, live_imports. destruct (map snd (aiter (m_imports m))) as [|i r] eqn:E.
  - intros H; inversion H; subst. exists []. split; [reflexivity|constructor].
  - intros H. rinv H as a Ea. inversion H; subst; clear H. destruct a as [ws x1]. exists ws. cbn [fst flat_map sec_ftys].
    split; [apply app_nil_r|]. eapply emit_imports_l_entries'; eauto.
Qed.
Lemma emit_func_section_ftys m x s x' : emit_func_section m x = Ok (s, x') ->
  exists fs tis, used_local_functions m = Ok fs /\ flat_map sec_ftys s = tis /\
                 Forall2 (fun p ti => get_idx x S_type (lf_ty (snd p)) = Ok ti) fs tis.
Proof.
  rewrite emit_func_section_unfold. intros H. rinv H as fs Efs. exists fs.
  destruct fs as [|p r].
  - inversion H; subst. exists []. split; [exact Efs|]. split; [reflexivity|constructor].
  - rinv H as b Eb. inversion H; subst; clear H. exists (fst b). split; [exact Efs|]. split; [cbn [flat_map sec_ftys]; apply app_nil_r|].
    apply func_go_entries. exact Eb.
Qed.
Lemma imports_align m xt : forall l ws, Forall2 (import_emitted' m xt) l ws ->
  Forall2 (fun f ti => exists fn, aget (m_funcs m) f = Some fn /\ lookup_i xt (func_ty fn) = Ok ti) (imp_ids S_func l) (imp_ftys ws).
Proof.
  intros l ws F. induction F as [|i w l ws Hiw F IH]; [constructor|].
  cbn [imp_ids imp_ftys flat_map]. fold (imp_ids S_func l). fold (imp_ftys ws).
  destruct Hiw as (_ & _ & Hk). unfold imp_id. destruct (im_kind i).
  - destruct Hk as (fn & ti & G1 & G2 & G3). rewrite G3. cbn [app]. constructor; [eauto|exact IH].
  - destruct Hk as (tb & G1 & G3). rewrite G3. exact IH.
  - destruct Hk as (tb & G1 & G3). rewrite G3. exact IH.
  - destruct Hk as (tb & G1 & G3). rewrite G3. exact IH.
Qed.

(* the type index the output declares for an emitted function is the emitted index of the function's type *)
Lemma emit_func_decl m ilen dw e : emitM m ilen dw = Ok e -> dw_custom dw ->
  forall fid j f, get_idx (em_x2i e) S_func fid = Ok j -> nth_error (items (m_funcs m)) (N.to_nat fid) = Some f ->
  exists tj, nth_error (out_ftys e) (N.to_nat j) = Some tj /\ get_idx (em_x2i e) S_type (func_ty f) = Ok tj.
Proof.
  intros He Hdw fid j f Hj Hf.
  destruct (emitM_x2i _ _ _ _ He) as (fs & Hfs & HXT & HXF & _).
  destruct (out_decls _ _ _ _ He Hdw) as (s_ty & x1 & s_im & x2 & s_fn & x3 & Ety & Eim & Efn & HO & _).
  assert (XT1 : space_map x1 S_type = xi_types (em_x2i e)).
  { pose proof (emit_types_x m empty_x2i) as F1. rewrite Ety in F1. cbn [snd] in F1. rewrite F1, HXT.
    rewrite push_all_same by discriminate. apply fold_push_number. }
  assert (XT2 : space_map x2 S_type = xi_types (em_x2i e)).
  { rewrite (emit_imports_x _ _ _ _ Eim), fold_push_import_space, imp_ids_nil by exact I. exact XT1. }
  destruct (emit_imports_ftys _ _ _ _ Eim) as (ws & Ews & Fws). rewrite XT1 in Fws. apply imports_align in Fws.
  destruct (emit_func_section_ftys _ _ _ _ Efn) as (fs' & tis & Hfs' & Etis & Ftis).
  rewrite Hfs in Hfs'. inversion Hfs'; subst fs'; clear Hfs'.
  set (R := fun (id : N) (ti : N) => forall g, nth_error (items (m_funcs m)) (N.to_nat id) = Some g ->
                                               lookup_i (xi_types (em_x2i e)) (func_ty g) = Ok ti).
  assert (FA : Forall2 R (imp_ids S_func (live_imports m) ++ map fst fs) (out_ftys e)).
  { rewrite HO, Ews, Etis. apply Forall2_app.
    - eapply Forall2_impl; [|exact Fws]. intros a b (fn & G1 & G2) g Hg. apply aget_nth in G1. rewrite G1 in Hg.
      inversion Hg; subst. exact G2.
    - apply Forall2_map_l. eapply Forall2_impl_in; [|exact Ftis]. intros [id lf] ti Hin Hti g Hg. cbn [fst snd] in *.
      destruct (ulf_in _ _ _ _ Hfs Hin) as (f0 & Hin0 & Hk0). apply aiter_In_nth in Hin0. rewrite Hin0 in Hg.
      inversion Hg; subst g. unfold get_idx in Hti. rewrite XT2 in Hti. unfold func_ty. rewrite Hk0. exact Hti. }
  unfold get_idx in Hj. cbn [space_map] in Hj. rewrite HXF in Hj. apply lookup_number in Hj.
  destruct (Forall2_nth_l _ _ _ _ _ FA Hj) as (tj & Htj & HR). exists tj. split; [exact Htj|].
  unfold get_idx. cbn [space_map]. apply HR. exact Hf.
Qed.

Lemma emit_types_decl m x s x' : emit_types m x = (s, x') ->
  flat_map types_of s = map (fun p => (ty_params (snd p), ty_results (snd p))) (emitted_types m).
Proof.
  unfold emit_types. fold (emitted_types m). destruct (emitted_types m) as [|p r] eqn:E.
  - intros H; inversion H; reflexivity.
  - intros H; inversion H; subst. cbn [flat_map types_of]. apply app_nil_r.
Qed.
(* entry tj of the output type section is the (params, results) of the type whose emitted index is tj *)
Lemma emit_type_decl m ilen dw e : emitM m ilen dw = Ok e -> dw_custom dw ->
  forall tyid tj, get_idx (em_x2i e) S_type tyid = Ok tj ->
  exists ty, nth_error (items (Arena.arena (m_types m))) (N.to_nat tyid) = Some ty /\
             nth_error (out_types e) (N.to_nat tj) = Some (ty_params ty, ty_results ty).
Proof.
  intros He Hdw tyid tj Hj.
  destruct (emitM_x2i _ _ _ _ He) as (fs & Hfs & HXT & _).
  destruct (out_decls _ _ _ _ He Hdw) as (s_ty & x1 & s_im & x2 & s_fn & x3 & Ety & _ & _ & _ & HO).
  rewrite HO, (emit_types_decl _ _ _ _ Ety).
  unfold get_idx in Hj. cbn [space_map] in Hj. rewrite HXT in Hj. apply lookup_number in Hj.
  rewrite nth_error_map in Hj. destruct (nth_error (emitted_types m) (N.to_nat tj)) as [[id ty]|] eqn:En; [|discriminate].
  cbn [option_map fst] in Hj. inversion Hj; subst id; clear Hj.
  exists ty. split; [|rewrite nth_error_map, En; reflexivity].
  apply nth_error_In in En. unfold emitted_types in En. eapply Permutation_in in En; [|apply sort_types_perm].
  apply filter_In in En. destruct En as [En _]. unfold live_types, aset_iter in En.
  apply (aiter_In_nth (Arena.arena (m_types m))). exact En.
Qed.

(* every input function keeps its signature: the type section entry the output declares for the emitted
   function has the params and results of the input's type *)
Theorem structure_func_sigs : forall cf ver w s ilen dw e, parseM cf ver w = POk s -> emitM (ps_m s) ilen dw = Ok e ->
  dw_custom dw ->
  forall i ti t j, nth_error (flat_map sec_ftys w) i = Some ti -> nth_error (flat_map types_of w) (N.to_nat ti) = Some t ->
    get_idx (em_x2i e) S_func (N.of_nat i) = Ok j ->
    exists tj, nth_error (out_ftys e) (N.to_nat j) = Some tj /\ nth_error (out_types e) (N.to_nat tj) = Some t.
Proof.
  intros cf ver w s ilen dw e Hp He Hdw i ti t j Hi Ht Hj.
  destruct (parseM_sigs _ _ _ _ Hp) as [[_ HT] HF].
  destruct (Forall2_nth_l _ _ _ _ _ HF Hi) as (c & Hc & Hty).
  destruct (HT _ _ Ht) as (tyid & ty & H1 & H2 & (S1 & S2 & S3)).
  unfold nth_N in Hty. rewrite H1 in Hty. inversion Hty as [Hid]; clear Hty.
  unfold K_fty in Hc. rewrite nth_error_map in Hc.
  destruct (nth_error (items (m_funcs (ps_m s))) i) as [f|] eqn:Ef; [|discriminate]. cbn [option_map] in Hc.
  inversion Hc; subst c; clear Hc. rewrite fcore_ty in Hid.
  assert (Ef' : nth_error (items (m_funcs (ps_m s))) (N.to_nat (N.of_nat i)) = Some f) by (rewrite Nat2N.id; exact Ef).
  destruct (emit_func_decl _ _ _ _ He Hdw _ _ _ Hj Ef') as (tj & Htj & Hty).
  rewrite <- Hid in Hty. destruct (emit_type_decl _ _ _ _ He Hdw _ _ Hty) as (ty' & H2' & HO).
  rewrite H2 in H2'. inversion H2'; subst ty'. exists tj. split; [exact Htj|].
  rewrite HO, S1, S2. destruct t; reflexivity.
Qed.

(* examples: the premises are satisfiable; the
   order premise of [dc_before] is needed (a DataCount payload AFTER the data payload appends empty segments) *)
Definition ex_d1 : wdata := {| wd_kind := WDK_Active 0%N (WC_I32 8%Z); wd_bytes := [1%N; 2%N] |}.
Definition ex_d2 : wdata := {| wd_kind := WDK_Passive; wd_bytes := [3%N] |}.
Definition ex_ok : list wsec :=
  [S_Types [([VT_I32], []); ([], [VT_I32])];
   S_Imports [ {| wi_module := [109%N]; wi_name := [102%N]; wi_kind := WI_Func 1%N |} ];
   S_Mems [ex_mem]; S_DataCount 2%N; S_Data [ex_d1; ex_d2]].
Definition ex_late : list wsec := [S_Mems [ex_mem]; S_Data [ex_d1; ex_d2]; S_DataCount 2%N].
Example ex_ok_premises : stream_wf ex_ok = true /\ In (S_Data [ex_d1; ex_d2]) ex_ok /\ dc_before ex_ok [ex_d1; ex_d2].
Proof.
  split; [reflexivity|]. split; [cbn; tauto|]. intros n Hn. cbn in Hn.
  repeat (destruct Hn as [Hn|Hn]; try discriminate); try contradiction. inversion Hn; subst n. split; [reflexivity|].
  exists [S_Types [([VT_I32], []); ([], [VT_I32])];
          S_Imports [ {| wi_module := [109%N]; wi_name := [102%N]; wi_kind := WI_Func 1%N |} ]; S_Mems [ex_mem]],
         [S_Data [ex_d1; ex_d2]]. split; [reflexivity|left; reflexivity].
Qed.
Theorem structure_data_order_needed :
  exists cf ver w s ilen dw e l, parseM cf ver w = POk s /\ emitM (ps_m s) ilen dw = Ok e /\
    stream_wf w = true /\ In (S_Data l) w /\ l <> [] /\ forall ds, In (S_Data ds) (em_secs e) -> length ds <> length l.
Proof.
  exists default_config, [], ex_late. eexists. exists (fun _ => 1%N), []. eexists. exists [ex_d1; ex_d2].
  split; [vm_compute; reflexivity|]. split; [vm_compute; reflexivity|]. split; [reflexivity|].
  split; [cbn; tauto|]. split; [discriminate|]. intros ds Hin. vm_compute in Hin.
  repeat (destruct Hin as [Hin|Hin]; try discriminate); try contradiction. inversion Hin; subst ds. cbn. discriminate.
Qed.

Print Assumptions structure_data.
Print Assumptions structure_data_length.
Print Assumptions structure_data_count.
Print Assumptions structure_no_start.
Print Assumptions parseM_sigs.
Print Assumptions structure_func_sigs.
Print Assumptions structure_data_order_needed.
