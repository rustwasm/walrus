(* C08, module level fixpoint: the second parse sees exactly as many entities per index space
   as the first module had (n_in s2 S = n_in s1 S), hence ModFix7.counts_kept.  The second emit plays no part:
   the lemmas take the first trip and the second parse; the [two_trips] forms are their corollaries. *)
From Coq Require Import List NArith ZArith Bool Arith Lia Sorting.Sorted Sorting.Permutation.
Import ListNotations.
From WV Require Import Gen.Ops Model.Common Model.IR Model.Arena Model.Traversal Model.EmitFn Model.Locals
                       Model.ParseFn Model.ModuleM Model.ParseM Model.EmitM Gen.Attrs.
From WV Require Import Proofs.Arena Proofs.Order Proofs.SortKeys Proofs.IndexMaps Proofs.CustomsCfg Proofs.Structure Proofs.Structure2
                       Proofs.Renumbering Proofs.Names Proofs.Totality Proofs.Escalation Proofs.ModFix
                       Proofs.ModFix4 Proofs.ModFix5 Proofs.ModFix6 Proofs.ModFix7.
Local Open Scope nat_scope.

Lemma k13_n_func cf ver w s : parseM cf ver w = POk s -> n_in s S_func = length (flat_map sec_ftys w).
Proof.
  intros HP. rewrite (n_in_arena _ _ _ _ HP) by discriminate. cbn [arena_len].
  destruct (parseM_sigs _ _ _ _ HP) as [_ HF]. unfold FInv in HF. apply Forall2_length in HF.
  unfold K_fty in HF. rewrite map_length in HF. lia.
Qed.

Lemma k13_n_elem cf ver w s : parseM cf ver w = POk s -> n_in s S_elem = length (flat_map elems_of w).
Proof.
  intros HP. rewrite (n_in_arena _ _ _ _ HP) by discriminate. cbn [arena_len].
  pose proof (parseM_elems _ _ _ _ HP) as HK. unfold K_elems in HK.
  apply (f_equal (@length _)) in HK. rewrite !map_length in HK. exact HK.
Qed.

Lemma k13_elems_len cf ver w s ilen e : parseM cf ver w = POk s -> emitM (ps_m s) ilen [] = Ok e ->
  length (flat_map elems_of (em_secs e)) = length (flat_map elems_of w).
Proof.
  intros HP HE. destruct (flat_map elems_of w) as [|x0 r0] eqn:Ew.
  - rewrite (sg_elems_empty _ _ _ _ _ _ HP HE Ew). reflexivity.
  - destruct (structure_elems_gen _ _ _ _ _ _ _ HP HE) as (es & Hin & F); [rewrite Ew; discriminate|].
    rewrite Ew in F. apply Forall2_length in F.
    rewrite (sg_once_payload elems_of 8 _ (S_Elems es)); [cbn [elems_of]; lia|exact (sg_stream_wf _ _ _ HE)|lia| |exact Hin|reflexivity].
    intros [] Hs; try reflexivity. discriminate.
Qed.

Lemma k13_n_data cf ver w s : parseM cf ver w = POk s -> n_in s S_data = length (aiter (m_data (ps_m s))).
Proof.
  intros HP. rewrite (n_in_arena _ _ _ _ HP) by discriminate. cbn [arena_len].
  pose proof (parseM_ids _ _ _ _ HP) as Hid.
  assert (D : dead (m_data (ps_m s)) = []) by (unfold ids_consistent in Hid; tauto).
  rewrite <- (aiter_nodead_snd _ D), map_length. reflexivity.
Qed.

Lemma k13_imports_rt cf ver w s ilen e : parseM cf ver w = POk s -> emitM (ps_m s) ilen [] = Ok e ->
  Forall2 (import_rt s e) (flat_map imports_of w) (flat_map imports_of (em_secs e)).
Proof. exact (imports_roundtrip_payload cf ver w s ilen e). Qed.

Lemma k13_imp_lens s e : forall l l', Forall2 (import_rt s e) l l' ->
  length (imp_tables_w l') = length (imp_tables_w l) /\ length (imp_mems_w l') = length (imp_mems_w l) /\
  length (imp_globals_w l') = length (imp_globals_w l).
Proof.
  induction 1 as [|a b l l' R F IH]; [repeat split; reflexivity|].
  destruct IH as (I1 & I2 & I3). destruct R as (_ & _ & R).
  unfold imp_tables_w, imp_mems_w, imp_globals_w in *. cbn [flat_map]. rewrite !app_length, I1, I2, I3.
  destruct (wi_kind a) as [t|t|t|t].
  - destruct R as (ti & _ & ->). repeat split; reflexivity.
  - rewrite R. repeat split; reflexivity.
  - rewrite R. repeat split; reflexivity.
  - rewrite R. repeat split; reflexivity.
Qed.

Lemma k13_sec_len {A B C} (f : wsec -> list A) (g : wimport -> list B) (h : wsec -> list C) :
  (forall sec, length (f sec) = length (flat_map g (imports_of sec)) + length (h sec)) ->
  forall w, length (flat_map f w) = length (flat_map g (flat_map imports_of w)) + length (flat_map h w).
Proof.
  intros H. induction w as [|sec w IH]; [reflexivity|]. cbn [flat_map]. rewrite flat_map_app, !app_length, IH, H. lia.
Qed.
Lemma k13_sec_tables_len : forall w,
  length (flat_map sec_tables w) = length (imp_tables_w (flat_map imports_of w)) + length (flat_map tables_of w).
Proof. apply k13_sec_len. intros []; cbn [sec_tables imports_of tables_of flat_map length]; unfold imp_tables_w; rewrite ?map_length; lia. Qed.
Lemma k13_sec_mems_len : forall w,
  length (flat_map sec_mems w) = length (imp_mems_w (flat_map imports_of w)) + length (flat_map mems_of w).
Proof. apply k13_sec_len. intros []; cbn [sec_mems imports_of mems_of flat_map length]; unfold imp_mems_w; rewrite ?map_length; lia. Qed.
Lemma k13_sec_globals_len : forall w,
  length (flat_map sec_globals w) = length (imp_globals_w (flat_map imports_of w)) + length (flat_map globals_of w).
Proof. apply k13_sec_len. intros []; cbn [sec_globals imports_of globals_of flat_map length]; unfold imp_globals_w; rewrite ?map_length; lia. Qed.

Section Kept.
  Variables (cf : config) (ver : str) (w : wmod) (ilen : wins -> N) (s1 : pst) (e1 : emitted) (s2 : pst).
  Hypotheses (P1 : parseM cf ver w = POk s1) (E1 : emitM (ps_m s1) ilen [] = Ok e1) (P2 : parseM cf ver (em_secs e1) = POk s2).

  Theorem n_in_kept_func : n_in s2 S_func = n_in s1 S_func.
  Proof.
    rewrite (k13_n_func _ _ _ _ P2). fold (out_ftys e1). rewrite (fn_out_ftys_length _ _ _ E1).
    apply (emitted_count _ _ _ _ _ _ _ P1 E1); discriminate.
  Qed.

  Theorem n_in_kept_elem : n_in s2 S_elem = n_in s1 S_elem.
  Proof.
    rewrite (k13_n_elem _ _ _ _ P2), (k13_n_elem _ _ _ _ P1). apply (k13_elems_len _ _ _ _ _ _ P1 E1).
  Qed.

  Theorem n_in_kept_data : n_in s2 S_data = n_in s1 S_data.
  Proof.
    rewrite (k13_n_data _ _ _ _ P1).
    pose proof (sg_stream_wf _ _ _ E1) as W1.
    destruct (aiter (m_data (ps_m s1))) as [|p0 ps] eqn:Ha.
    - pose proof (sg_nodata_out _ _ _ E1 Ha) as N1. pose proof (sg_nodata_in _ _ _ _ P2 N1) as Ha2.
      rewrite (k13_n_data _ _ _ _ P2), Ha2. reflexivity.
    - destruct (sg_data_out _ _ _ E1) as (ds1 & Hin1 & Hne1 & F1 & Hdc1 & _); [rewrite Ha; discriminate|].
      rewrite Ha in F1. apply Forall2_length in F1.
      pose proof (parseM_data_wf _ _ _ _ _ P2 W1 Hin1 Hdc1) as HK. unfold K_data in HK.
      apply (f_equal (@length _)) in HK. rewrite !map_length in HK.
      rewrite (n_in_arena _ _ _ _ P2) by discriminate. cbn [arena_len]. lia.
  Qed.

  Theorem n_in_kept_table : n_in s2 S_table = n_in s1 S_table.
  Proof.
    destruct (n_in_stream _ _ _ _ P1) as (-> & _). destruct (n_in_stream _ _ _ _ P2) as (-> & _).
    rewrite !k13_sec_tables_len, (tables_roundtrip_payload _ _ _ _ _ _ P1 E1).
    destruct (k13_imp_lens _ _ _ _ (k13_imports_rt _ _ _ _ _ _ P1 E1)) as (-> & _). reflexivity.
  Qed.
  Theorem n_in_kept_memory : n_in s2 S_memory = n_in s1 S_memory.
  Proof.
    destruct (n_in_stream _ _ _ _ P1) as (_ & -> & _). destruct (n_in_stream _ _ _ _ P2) as (_ & -> & _).
    rewrite !k13_sec_mems_len, (mems_roundtrip_payload _ _ _ _ _ _ P1 E1).
    destruct (k13_imp_lens _ _ _ _ (k13_imports_rt _ _ _ _ _ _ P1 E1)) as (_ & -> & _). reflexivity.
  Qed.
  Theorem n_in_kept_global : n_in s2 S_global = n_in s1 S_global.
  Proof.
    destruct (n_in_stream _ _ _ _ P1) as (_ & _ & -> & _). destruct (n_in_stream _ _ _ _ P2) as (_ & _ & -> & _).
    rewrite !k13_sec_globals_len.
    pose proof (globals_roundtrip_payload _ _ _ _ _ _ P1 E1) as G. apply Forall2_length in G. rewrite <- G.
    destruct (k13_imp_lens _ _ _ _ (k13_imports_rt _ _ _ _ _ _ P1 E1)) as (_ & _ & ->). reflexivity.
  Qed.

  Theorem n_in_kept_3 : forall S, S <> S_type -> S <> S_local -> n_in s2 S = n_in s1 S.
  Proof.
    intros S HT HL. destruct S; try congruence;
      first [ exact n_in_kept_func | exact n_in_kept_table | exact n_in_kept_memory | exact n_in_kept_global | exact n_in_kept_elem | exact n_in_kept_data ].
  Qed.
  Theorem counts_kept_3 : counts_kept e1 s2.
  Proof.
    intros S.
    assert (G : S <> S_type -> S <> S_local -> length (space_map (em_x2i e1) S) <= length (ids_space (ps_ids s2) S)).
    { intros HT HL. pose proof (emitted_count _ _ _ _ _ _ _ P1 E1 S HT HL) as C. unfold emitted_ids in C. rewrite map_length in C.
      rewrite C. fold (n_in s2 S). rewrite (n_in_kept_3 S HT HL). lia. }
    destruct S; try (apply G; discriminate).
    - destruct (n_in_stream _ _ _ _ P2) as (_ & _ & _ & Ht). unfold n_in in Ht. rewrite Ht.
      rewrite (emitted_types_count _ _ _ E1). lia.
    - cbn [space_map length]. lia.
  Qed.
End Kept.

Theorem n_in_kept : forall cf ver w ilen s1 e1 s2 e2, two_trips cf ver w ilen s1 e1 s2 e2 ->
  forall S, S <> S_type -> S <> S_local -> n_in s2 S = n_in s1 S.
Proof. intros cf ver w ilen s1 e1 s2 e2 (P1 & E1 & P2 & _). exact (n_in_kept_3 _ _ _ _ _ _ _ P1 E1 P2). Qed.

Theorem counts_kept_holds : forall cf ver w ilen s1 e1 s2 e2, two_trips cf ver w ilen s1 e1 s2 e2 ->
  counts_kept e1 s2.
Proof. intros cf ver w ilen s1 e1 s2 e2 (P1 & E1 & P2 & _). exact (counts_kept_3 _ _ _ _ _ _ _ P1 E1 P2). Qed.

Print Assumptions n_in_kept_func.
Print Assumptions n_in_kept_table.
Print Assumptions n_in_kept_memory.
Print Assumptions n_in_kept_global.
Print Assumptions n_in_kept_elem.
Print Assumptions n_in_kept_data.
Print Assumptions n_in_kept_3.
Print Assumptions n_in_kept.
Print Assumptions counts_kept_3.
Print Assumptions counts_kept_holds.
