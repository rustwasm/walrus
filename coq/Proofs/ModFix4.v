(* C08, module level fixpoint.  One round trip carries the payload of a section kind over item by item, up to a
   relation on the items ([payload_related]; the fixpoints of ModFix5/6 are instances).  The second round trip
   renumbers tables, memories, globals and segments by the identity, which gives the payload fixpoints of the
   table, memory and global sections. *)
From Coq Require Import List NArith ZArith Bool Arith Lia.
Import ListNotations.
From WV Require Import Gen.Ops Model.Common Model.IR Model.Arena Model.Traversal Model.EmitFn Model.Locals
                       Model.ParseFn Model.ModuleM Model.ParseM Model.EmitM Gen.Attrs.
From WV Require Import Proofs.Arena Proofs.Order Proofs.IndexMaps Proofs.CustomsCfg Proofs.Structure Proofs.Structure2
                       Proofs.Renumbering Proofs.ModFix.
Local Open Scope nat_scope.

(* One round trip of the payload of one section kind (tag t, sections [mk l], payload function f), up to a relation R
   on items: an empty payload stays empty, a non-empty one is found again item by item in a section of the kind. *)
Lemma payload_related {B} (f : wsec -> list B) t (mk : list B -> wsec) (R : B -> B -> Prop) w w' :
  (forall s, has_tag t s = false -> f s = []) -> (forall l, has_tag t (mk l) = true) -> (forall l, f (mk l) = l) ->
  once t w' -> (flat_map f w = [] -> flat_map f w' = []) ->
  (flat_map f w <> [] -> exists es, In (mk es) w' /\ Forall2 R (flat_map f w) es) ->
  Forall2 R (flat_map f w) (flat_map f w').
Proof.
  intros Hf Hm Hfm O E NE. destruct (flat_map f w) as [|x0 r0].
  - rewrite E by reflexivity. constructor.
  - destruct NE as (es & Hin & F); [discriminate|]. rewrite (once_flat_map f t Hf w' (mk es) O Hin (Hm es)), Hfm. exact F.
Qed.
(* ... and an R that relates an item only to itself gives the payload back *)
Lemma Forall2_eq {A} (R : A -> A -> Prop) : forall l l', (forall a b, In a l -> R a b -> b = a) -> Forall2 R l l' -> l' = l.
Proof.
  intros l l' H F. induction F as [|a b l l' Hab F IH]; [reflexivity|]. f_equal.
  - apply H; [left; reflexivity|exact Hab].
  - apply IH. intros a' b' Hi Hr. apply H; [right; exact Hi|exact Hr].
Qed.

Theorem emit_stream_wf : forall m ilen e, emitM m ilen [] = Ok e -> stream_wf (em_secs e) = true.
Proof.
  intros m ilen e He. emitM_kinds He.
  unfold stream_wf, tag_count. apply forallb_forall. intros t _. apply Nat.leb_le. rewrite Ekind.
  destruct t as [|[|[|[|[|[|[|[|[|[|[|[|t]]]]]]]]]]]]; cbn [nth]; try solve [eapply one_sec_len; eauto with emit_one].
  destruct t; cbn [nth length]; lia.
Qed.

(* tables, memories and globals, the only sections [defines] holds of, have the tags 3, 4, 5 *)
Lemma tagged_no_def S k l : tagged k l -> k < 3 -> Forall (fun sec => defines S sec = false) l.
Proof.
  unfold tagged. intros T Hk. eapply Forall_impl; [|exact T]. cbn beta. intros s Hs.
  destruct s; cbn [sec_tag] in Hs; destruct S; cbn [defines]; try reflexivity; injection Hs; intros; lia.
Qed.
Lemma tagged_no_imp k l : tagged k l -> k <> 1 -> Forall (fun sec => imports_of sec = []) l.
Proof.
  unfold tagged. intros T Hk. eapply Forall_impl; [|exact T]. cbn beta. intros s Hs.
  destruct s; cbn [sec_tag] in Hs; cbn [imports_of]; try reflexivity. injection Hs; intros; lia.
Qed.

Theorem emit_imports_then_defs : forall m ilen e, emitM m ilen [] = Ok e -> forall S, tmg S -> imports_then_defs S (em_secs e).
Proof.
  intros m ilen e He S HS. emitM_kinds He.
  exists (s_ty ++ s_im). eexists. split; [rewrite Esecs, <- app_assoc; reflexivity|]. split.
  - apply Forall_app. split; eapply tagged_no_def; eauto.
  - repeat (apply Forall_app; split); try (eapply tagged_no_imp; [eassumption|lia]).
    apply Forall_forall. intros s Hs. specialize (Erest s Hs). destruct s; try discriminate. reflexivity.
Qed.

Theorem tmg_identity : forall cf ver w ilen s1 e1 s2 e2, two_trips cf ver w ilen s1 e1 s2 e2 ->
  forall S, tmg S -> rho_id s2 e2 S.
Proof.
  intros cf ver w ilen s1 e1 s2 e2 (P1 & E1 & P2 & E2) S HS i Hi.
  apply (rho_tmg_identity_stream _ _ _ _ _ _ _ S P2 E2 HS); [|exact Hi].
  apply (emit_imports_then_defs _ _ _ E1 S HS).
Qed.

Theorem seg_identity : forall cf ver w ilen s1 e1 s2 e2, two_trips cf ver w ilen s1 e1 s2 e2 ->
  rho_id s2 e2 S_elem /\ rho_id s2 e2 S_data.
Proof.
  intros cf ver w ilen s1 e1 s2 e2 (_ & _ & HP & HE). split; intros i Hi.
  - apply (rho_elem_id _ _ _ _ _ _ _ HP HE). exact Hi.
  - apply (rho_data_id _ _ _ _ _ _ _ HP HE). exact Hi.
Qed.

Lemma emitted_tables m ilen e : emitM m ilen [] = Ok e ->
  flat_map tables_of (em_secs e) = map (fun p => gen_emit_table_local (snd p)) (local_tables m).
Proof.
  intros He. emitM_kinds He. rewrite (flat_map_tag tables_of 3), Ekind by (intros [] Hs; try reflexivity; discriminate Hs).
  cbn [nth]. rewrite emit_tables_entries. destruct (local_tables m); [reflexivity|]. cbn [flat_map tables_of]. apply app_nil_r.
Qed.
Lemma emitted_mems m ilen e : emitM m ilen [] = Ok e ->
  flat_map mems_of (em_secs e) = map (fun p => gen_emit_memory_local (snd p)) (local_memories m).
Proof.
  intros He. emitM_kinds He. rewrite (flat_map_tag mems_of 4), Ekind by (intros [] Hs; try reflexivity; discriminate Hs).
  cbn [nth]. rewrite emit_memories_entries. destruct (local_memories m); [reflexivity|]. cbn [flat_map mems_of]. apply app_nil_r.
Qed.

Theorem tables_roundtrip_payload : forall cf ver w s ilen e, parseM cf ver w = POk s -> emitM (ps_m s) ilen [] = Ok e ->
  flat_map tables_of (em_secs e) = flat_map tables_of w.
Proof.
  intros cf ver w s ilen e Hp He. rewrite (emitted_tables _ _ _ He).
  pose proof (parseM_ids _ _ _ _ Hp) as Hid. destruct (parseM_tables _ _ _ _ Hp) as [HT _].
  assert (D : dead (m_tables (ps_m s)) = []) by (unfold ids_consistent in Hid; tauto).
  rewrite (local_tables_core _ D), HT. apply local_sec_tables.
Qed.
Theorem mems_roundtrip_payload : forall cf ver w s ilen e, parseM cf ver w = POk s -> emitM (ps_m s) ilen [] = Ok e ->
  flat_map mems_of (em_secs e) = flat_map mems_of w.
Proof.
  intros cf ver w s ilen e Hp He. rewrite (emitted_mems _ _ _ He).
  pose proof (parseM_ids _ _ _ _ Hp) as Hid. destruct (parseM_tables _ _ _ _ Hp) as [_ HT].
  assert (D : dead (m_memories (ps_m s)) = []) by (unfold ids_consistent in Hid; tauto).
  rewrite (local_memories_core _ D), HT. apply local_sec_mems.
Qed.

Theorem fix_tables : forall cf ver w ilen s1 e1 s2 e2, two_trips cf ver w ilen s1 e1 s2 e2 ->
  flat_map tables_of (em_secs e2) = flat_map tables_of (em_secs e1).
Proof. intros cf ver w ilen s1 e1 s2 e2 (P1 & E1 & P2 & E2). eapply tables_roundtrip_payload; eauto. Qed.
Theorem fix_mems : forall cf ver w ilen s1 e1 s2 e2, two_trips cf ver w ilen s1 e1 s2 e2 ->
  flat_map mems_of (em_secs e2) = flat_map mems_of (em_secs e1).
Proof. intros cf ver w ilen s1 e1 s2 e2 (P1 & E1 & P2 & E2). eapply mems_roundtrip_payload; eauto. Qed.

Lemma emitted_globals_piece m ilen e : emitM m ilen [] = Ok e ->
  exists x5 s_gl x6, emit_globals m x5 = Ok (s_gl, x6) /\ flat_map globals_of (em_secs e) = flat_map globals_of s_gl.
Proof.
  intros He. emitM_kinds He. exists x5, s_gl, x6. split; [exact Egl|].
  rewrite (flat_map_tag globals_of 5), Ekind by (intros [] Hs; try reflexivity; discriminate Hs). reflexivity.
Qed.

(* single round trip, modulo the renumbering: also when there is no global section at all *)
Theorem globals_roundtrip_payload : forall cf ver w s ilen e, parseM cf ver w = POk s -> emitM (ps_m s) ilen [] = Ok e ->
  Forall2 (global_rt e) (flat_map globals_of w) (flat_map globals_of (em_secs e)).
Proof.
  intros cf ver w s ilen e Hp He. apply (payload_related globals_of 5 S_Globals); try reflexivity.
  - intros [] Hs; try reflexivity. discriminate.
  - apply stream_wf_once; [exact (emit_stream_wf _ _ _ He)|lia].
  - intros Ew. destruct (emitted_globals_piece _ _ _ He) as (x5 & s_gl & x6 & Egl & ->).
    destruct (parseM_GES _ _ _ _ Hp) as (HG & _ & _). pose proof (parseM_ids _ _ _ _ Hp) as Hid.
    assert (D : dead (m_globals (ps_m s)) = []) by (unfold ids_consistent in Hid; tauto).
    pose proof (local_globals_core _ D) as L. rewrite HG, sec_globals_of, Ew in L. cbn [map] in L.
    rewrite emit_globals_unfold in Egl. destruct (local_globals (ps_m s)); [|discriminate L].
    inversion Egl; reflexivity.
  - exact (structure_globals_gen _ _ _ _ _ _ _ Hp He).
Qed.

Lemma emit_const_not_other x c wc : emit_const x c = Ok wc -> wc <> WC_Other.
Proof.
  destruct c as [v|g|t|f]; cbn [emit_const].
  - destruct v; intros H; inversion H; discriminate.
  - destruct (get_idx x S_global g); cbn [rmap]; intros H; inversion H; discriminate.
  - intros H; inversion H; discriminate.
  - destruct (get_idx x S_func f); cbn [rmap]; intros H; inversion H; discriminate.
Qed.
Lemma emitted_globals_not_other m ilen e : emitM m ilen [] = Ok e ->
  Forall (fun g => snd g <> WC_Other) (flat_map globals_of (em_secs e)).
Proof.
  intros He. destruct (emitted_globals_piece _ _ _ He) as (x5 & s_gl & x6 & Egl & ->).
  rewrite emit_globals_unfold in Egl. destruct (local_globals m) as [|p0 ps] eqn:El.
  - inversion Egl; subst. constructor.
  - rewrite <- El in Egl. rinv Egl as r Er. inversion Egl; subst; clear Egl. cbn [flat_map globals_of]. rewrite app_nil_r.
    apply globals_go_entries' in Er. destruct Er as [_ F]. clear El.
    induction F as [|t g l gs [_ Hg] _ IH]; constructor; [|exact IH]. eapply emit_const_not_other; eauto.
Qed.

Lemma get_idx_rho_id cf ver w s ilen dw e S i j : parseM cf ver w = POk s -> emitM (ps_m s) ilen dw = Ok e ->
  S <> S_type -> S <> S_local -> rho_id s e S -> get_idx (em_x2i e) S i = Ok j -> j = i.
Proof.
  intros HP HE HS HL Hid Hg.
  assert (Hin : In i (emitted_ids e S)) by (unfold emitted_ids; apply lookup_total_iff; exists j; exact Hg).
  apply (emitted_full _ _ _ _ _ _ _ HP HE S i HS HL) in Hin. unfold n_in in Hin.
  pose proof (Hid i Hin) as Hr. rewrite (rho_entity_conv s e S i (parseM_ids _ _ _ _ HP) HS HL Hin) in Hr. congruence.
Qed.
Lemma ren_const_id cf ver w s ilen dw e c wc : parseM cf ver w = POk s -> emitM (ps_m s) ilen dw = Ok e ->
  rho_id s e S_global -> rho_id s e S_func -> c <> WC_Other -> ren_const (em_x2i e) c wc -> wc = c.
Proof.
  intros HP HE Ig If Hc H. destruct c; cbn [ren_const] in H; try exact H; try congruence.
  - destruct H as (j & Hj & ->). f_equal. eapply get_idx_rho_id with (S := S_global); eauto; discriminate.
  - destruct H as (j & Hj & ->). f_equal. eapply get_idx_rho_id with (S := S_func); eauto; discriminate.
Qed.

Theorem globals_roundtrip_literal : forall cf ver w s ilen e, parseM cf ver w = POk s -> emitM (ps_m s) ilen [] = Ok e ->
  rho_id s e S_global -> rho_id s e S_func -> Forall (fun g => snd g <> WC_Other) (flat_map globals_of w) ->
  flat_map globals_of (em_secs e) = flat_map globals_of w.
Proof.
  intros cf ver w s ilen e HP HE Ig If Hno. refine (Forall2_eq _ _ _ _ (globals_roundtrip_payload _ _ _ _ _ _ HP HE)).
  intros [a c] [a' c'] Hin [H1 H2]. cbn [fst snd] in *. subst a'. f_equal.
  rewrite Forall_forall in Hno. exact (ren_const_id _ _ _ _ _ _ _ _ _ HP HE Ig If (Hno _ Hin) H2).
Qed.

Theorem fix_globals : forall cf ver w ilen s1 e1 s2 e2, two_trips cf ver w ilen s1 e1 s2 e2 ->
  rho_id s2 e2 S_func -> flat_map globals_of (em_secs e2) = flat_map globals_of (em_secs e1).
Proof.
  intros cf ver w ilen s1 e1 s2 e2 T If. pose proof (tmg_identity _ _ _ _ _ _ _ _ T S_global) as Ig.
  destruct T as (P1 & E1 & P2 & E2).
  apply (globals_roundtrip_literal _ _ _ _ _ _ P2 E2); [apply Ig; right; right; reflexivity|exact If|].
  apply (emitted_globals_not_other _ _ _ E1).
Qed.

Print Assumptions emit_stream_wf.
Print Assumptions emit_imports_then_defs.
Print Assumptions tmg_identity.
Print Assumptions seg_identity.
Print Assumptions tables_roundtrip_payload.
Print Assumptions mems_roundtrip_payload.
Print Assumptions fix_tables.
Print Assumptions fix_mems.
Print Assumptions globals_roundtrip_payload.
Print Assumptions globals_roundtrip_literal.
Print Assumptions fix_globals.
