(* C01, END TO END, part 2: premises of [sem_roundtrip_end_to_end] (Proofs/SemModEnd.v) discharged from the stream: the bodies
   are well formed ([flat_list] is injective up to the final `end`), their operators decode, and a local slot map exists, because the
   traversal log reports the id of every index that the LIVE body mentions - the last under the executable premise
   [ModFix40.locals_in_range w], which is needed ([ExBad]: without it the behaviours differ for every local slot map). *)
From Coq Require Import List NArith ZArith Bool Arith Lia Permutation.
Import ListNotations.
From WV Require Import Gen.Ops Model.Common Model.IR Model.Arena Model.Traversal Model.EmitFn Model.Locals
                       Model.ParseFn Model.ParseSpec Model.BodySpec Model.ModuleM Model.ParseM Model.EmitM Gen.Attrs
                       Model.Sem Model.SemCore Model.SemMod Model.SemModOf.
From WV Require Import Proofs.Arena Proofs.IndexMaps Proofs.Structure Proofs.Structure2 Proofs.Renumbering
                       Proofs.ParseTotal Proofs.TotalityBodies Proofs.ModFix Proofs.ModFix12 Proofs.ModFix15.
From WV Require Import Proofs.ParseFn Proofs.Sem Proofs.SemCore Proofs.SemMod Proofs.SemModEnd.
From WV Require Proofs.Names Proofs.Order Proofs.Locals3 Proofs.Sigs2 Proofs.Totality Proofs.ModFix10 Proofs.ModFix11 Proofs.ModFix14 Proofs.ModFix17 Proofs.ModFix40
                Proofs.ModFix41 Proofs.ModFixEx Proofs.Body Proofs.Traversal.
Local Open Scope nat_scope.

(* [flat_list] is injective up to the terminator *)
Definition is_term (w : wins) : bool := match w with WEnd | WElse => true | _ => false end.

Lemma flat_head t : exists w loc r, flat t = (w, loc) :: r /\ is_term w = false.
Proof.
  destruct t as [o l|l|d l|d l|ds d l|bt body l e|bt body l e|bt th [[le eb]|] l e]; cbn [flat];
    eexists; eexists; eexists; (split; [reflexivity|reflexivity]).
Qed.

(* the per-tree statement: a flattening followed by anything determines the tree and the rest *)
Definition InjT (t : rt) : Prop := forall t2 r1 r2, flat t ++ r1 = flat t2 ++ r2 -> t = t2 /\ r1 = r2.
Definition InjL (l : list rt) : Prop := forall l2 x1 r1 x2 r2, is_term (fst x1) = true -> is_term (fst x2) = true ->
  flat_list l ++ x1 :: r1 = flat_list l2 ++ x2 :: r2 -> l = l2 /\ x1 = x2 /\ r1 = r2.

Lemma InjL_of_Forall l : Forall InjT l -> InjL l.
Proof.
  induction 1 as [|t l Ht _ IH]; intros l2 x1 r1 x2 r2 H1 H2 E.
  - destruct l2 as [|t2 l2].
    + cbn [flat_list flat_map app] in E. injection E as -> ->. repeat split.
    + exfalso. unfold flat_list in E. cbn [flat_map app] in E. destruct (flat_head t2) as (w & loc & r & Ef & Hw).
      rewrite Ef in E. cbn [app] in E. injection E as E _. subst x1. cbn [fst] in H1. congruence.
  - destruct l2 as [|t2 l2].
    + exfalso. unfold flat_list in E. cbn [flat_map app] in E. destruct (flat_head t) as (w & loc & r & Ef & Hw).
      rewrite Ef in E. cbn [app] in E. injection E as E _. subst x2. cbn [fst] in H2. congruence.
    + unfold flat_list in E. cbn [flat_map] in E. rewrite <- !app_assoc in E.
      destruct (Ht _ _ _ E) as [-> E']. destruct (IH _ _ _ _ _ H1 H2 E') as (-> & -> & ->). repeat split.
Qed.

Lemma InjT_all : forall t, InjT t.
Proof.
  (* the first instruction of a flattening names the constructor of the tree *)
  induction t as [o l|l|d l|d l|ds d l|bt body l e HF|bt body l e HF|bt th el l e HFt HFe] using rt_ind';
    intros t2 r1 r2 E;
    destruct t2 as [o2 l2|l2|d2 l2|d2 l2|ds2 d2 l2|bt2 b2 l2 e2|bt2 b2 l2 e2|bt2 th2 el2 l2 e2];
    try (destruct el as [[le eb]|]); try (destruct el2 as [[le2 eb2]|]);
    cbn [flat app] in E; try discriminate E;
    try (injection E; intros; subst; split; reflexivity);
    injection E as -> -> E; rewrite <- ?app_assoc in E; cbn [app] in E.
  - destruct (InjL_of_Forall _ HF b2 (WEnd, e) r1 (WEnd, e2) r2 eq_refl eq_refl E) as (-> & Ee & ->).
    injection Ee as ->. split; reflexivity.
  - destruct (InjL_of_Forall _ HF b2 (WEnd, e) r1 (WEnd, e2) r2 eq_refl eq_refl E) as (-> & Ee & ->).
    injection Ee as ->. split; reflexivity.
  - destruct (InjL_of_Forall _ HFt th2 (WElse, le) _ (WElse, le2) _ eq_refl eq_refl E) as (-> & Ee & E').
    injection Ee as ->. rewrite <- ?app_assoc in E'. cbn [app] in E'. cbn [optP snd] in HFe.
    destruct (InjL_of_Forall _ HFe eb2 (WEnd, e) _ (WEnd, e2) _ eq_refl eq_refl E') as (-> & Ee & ->).
    injection Ee as ->. split; reflexivity.
  - destruct (InjL_of_Forall _ HFt th2 (WElse, le) _ (WEnd, e2) _ eq_refl eq_refl E) as (_ & Ee & _). discriminate Ee.
  - destruct (InjL_of_Forall _ HFt th2 (WEnd, e) _ (WElse, le2) _ eq_refl eq_refl E) as (_ & Ee & _). discriminate Ee.
  - destruct (InjL_of_Forall _ HFt th2 (WEnd, e) _ (WEnd, e2) _ eq_refl eq_refl E) as (-> & Ee & ->).
    injection Ee as ->. split; reflexivity.
Qed.

Theorem flat_list_inj l1 l2 e1 e2 : flat_list l1 ++ [(WEnd, e1)] = flat_list l2 ++ [(WEnd, e2)] -> l1 = l2 /\ e1 = e2.
Proof.
  intros E. assert (I : InjL l1) by (apply InjL_of_Forall, Forall_forall; intros t _; apply InjT_all).
  destruct (I l2 (WEnd, e1) [] (WEnd, e2) [] eq_refl eq_refl E) as (-> & Ee & _). injection Ee as ->. split; reflexivity.
Qed.

(* the bodies of m are well formed in every parse context: [valid_stream] says it of some reading of each code entry, and readings are unique *)
Theorem end_wf_from_stream cf ver w s m : valid_stream w -> parseM cf ver w = POk s -> stream_has_cmod w m ->
  forall i d fid, nth_error (cm_funcs m) i = Some d ->
    wfl (cx_of s fid) 1 (fd_body d) /\ swfl (length (ii_types (ps_ids s))) 1 (fd_body d).
Proof.
  intros V HP HM i d fid Hd. destruct HM as (_ & _ & _ & F2 & _).
  destruct (Forall2_nth_l _ _ _ _ _ F2 Hd) as (b & Hb & (_ & eloc & Eops)).
  destruct (valid_bodies_structured _ _ _ _ b fid V HP (nth_error_In _ _ Hb)) as (l & eloc' & Eops' & Hsw & Hw).
  rewrite Eops in Eops'. apply flat_list_inj in Eops'. destruct Eops' as [<- _]. split; [exact Hw|exact Hsw].
Qed.
Theorem end_WF cf ver w s m : valid_stream w -> parseM cf ver w = POk s -> stream_has_cmod w m ->
  forall i d, nth_error (cm_funcs m) i = Some d -> wfl (cx_of s (N.of_nat i)) 1 (fd_body d).
Proof. intros V HP HM i d Hd. apply (end_wf_from_stream cf ver w s m V HP HM i d (N.of_nat i) Hd). Qed.

(* decodability of the operators, from the stream *)
Lemma ops_live_incl_of_Forall l : Forall (fun t => forall o, In o (ops_of (fst (nf_rt false t))) -> In o (ops_of_t t)) l ->
  forall u o, In o (ops_of (fst (nf_rt_list u l))) -> In o (ops_of l).
Proof.
  induction 1 as [|t l Ht _ IH]; intros u o Ho; [destruct u; exact Ho|].
  rewrite nf_rt_list_cons in Ho. cbn [fst] in Ho. rewrite ops_of_app in Ho. cbn [ops_of]. apply in_or_app.
  apply in_app_or in Ho. destruct Ho as [Ho|Ho].
  - left. destruct u; [rewrite nf_rt_dead in Ho; destruct Ho|apply Ht, Ho].
  - right. eapply IH, Ho.
Qed.
Lemma ops_live_incl_t : forall t o, In o (ops_of (fst (nf_rt false t))) -> In o (ops_of_t t).
Proof.
  induction t as [o l|l|d l|d l|ds d l|bt body l e HF|bt body l e HF|bt th el l e HFt HFe] using rt_ind'; intros o' Ho;
    try (destruct Ho; fail).
  - cbn [nf_rt fst ops_of ops_of_t app] in Ho. exact Ho.
  - rewrite nf_rt_block in Ho. cbn [fst keepr ops_of] in Ho. rewrite app_nil_r, ops_of_block in Ho. rewrite ops_of_block.
    exact (ops_live_incl_of_Forall _ HF _ _ Ho).
  - rewrite nf_rt_loop in Ho. cbn [fst keepr ops_of] in Ho. rewrite app_nil_r, ops_of_loop in Ho. rewrite ops_of_loop.
    exact (ops_live_incl_of_Forall _ HF _ _ Ho).
  - destruct el as [[le eb]|].
    + rewrite nf_rt_if_some in Ho. cbn [fst keepr ops_of] in Ho. rewrite app_nil_r, ops_of_if_some in Ho. rewrite ops_of_if_some.
      apply in_or_app. apply in_app_or in Ho. cbn [optP snd] in HFe.
      destruct Ho as [Ho|Ho]; [left; exact (ops_live_incl_of_Forall _ HFt _ _ Ho)|right; exact (ops_live_incl_of_Forall _ HFe _ _ Ho)].
    + rewrite nf_rt_if_none in Ho. cbn [fst keepr ops_of] in Ho. rewrite app_nil_r, ops_of_if_some in Ho. rewrite ops_of_if_none.
      apply in_app_or in Ho. destruct Ho as [Ho|[]]. exact (ops_live_incl_of_Forall _ HFt _ _ Ho).
Qed.
Lemma ops_live_incl l o : In o (ops_of (live l)) -> In o (ops_of l).
Proof. apply ops_live_incl_of_Forall, Forall_forall. intros t _. apply ops_live_incl_t. Qed.

(* every occurrence of an operator in a forest is at a plain node of one of its trees, or inside a block / loop / if of one *)
Lemma ops_of_in l o : In o (ops_of l) -> exists t, In t l /\ In o (ops_of_t t).
Proof.
  induction l as [|t l IH]; intros H; [destruct H|]. cbn [ops_of] in H. apply in_app_or in H. destruct H as [H|H].
  - exists t. split; [left; reflexivity|exact H].
  - destruct (IH H) as (t' & Hin & Ho). exists t'. split; [right; exact Hin|exact Ho].
Qed.
Section OpsInd.
  Variable R : rt -> wop -> Prop.
  Hypothesis R_plain : forall o l, R (RPlain o l) o.
  Hypothesis R_block : forall bt b l e t o, In t b -> R t o -> R (RBlock bt b l e) o.
  Hypothesis R_loop : forall bt b l e t o, In t b -> R t o -> R (RLoop bt b l e) o.
  Hypothesis R_then : forall bt th el l e t o, In t th -> R t o -> R (RIf bt th el l e) o.
  Hypothesis R_else : forall bt th le eb l e t o, In t eb -> R t o -> R (RIf bt th (Some (le, eb)) l e) o.
  Lemma ops_of_t_ind : forall t o, In o (ops_of_t t) -> R t o.
  Proof.
    assert (HL : forall l, Forall (fun t => forall o, In o (ops_of_t t) -> R t o) l ->
               forall o, In o (ops_of l) -> exists t, In t l /\ R t o).
    { intros l HF o Ho. destruct (ops_of_in l o Ho) as (t & Hin & Hot). rewrite Forall_forall in HF. eauto. }
    induction t as [o l|l|d l|d l|ds d l|bt body l e HF|bt body l e HF|bt th el l e HFt HFe] using rt_ind'; intros o' Ho;
      try (destruct Ho; fail).
    - destruct Ho as [<-|[]]. apply R_plain.
    - rewrite ops_of_block in Ho. destruct (HL _ HF _ Ho) as (t & Hin & Hr). exact (R_block _ _ _ _ _ _ Hin Hr).
    - rewrite ops_of_loop in Ho. destruct (HL _ HF _ Ho) as (t & Hin & Hr). exact (R_loop _ _ _ _ _ _ Hin Hr).
    - destruct el as [[le eb]|].
      + rewrite ops_of_if_some in Ho. cbn [optP snd] in HFe. apply in_app_or in Ho. destruct Ho as [Ho|Ho].
        * destruct (HL _ HFt _ Ho) as (t & Hin & Hr). exact (R_then _ _ _ _ _ _ _ Hin Hr).
        * destruct (HL _ HFe _ Ho) as (t & Hin & Hr). exact (R_else _ _ _ _ _ _ _ _ Hin Hr).
      + rewrite ops_of_if_none in Ho. destruct (HL _ HFt _ Ho) as (t & Hin & Hr). exact (R_then _ _ _ _ _ _ _ Hin Hr).
  Qed.
End OpsInd.

(* every operator of a stream-valid body decodes in every context *)
Lemma swfl_In nt k l t : swfl nt k l -> In t l -> swf nt k t.
Proof. induction l as [|x l IH]; intros H []; [subst x; apply H|apply IH; [apply H|assumption]]. Qed.
Lemma swf_ops_dec nt : forall t o, In o (ops_of_t t) -> forall k, swf nt k t -> forall f, decode_plain f o <> None.
Proof.
  apply (ops_of_t_ind (fun t o => forall k, swf nt k t -> forall f, decode_plain f o <> None)).
  - intros o l k H. exact H.
  - intros bt b l e t o Hin IH k H. rewrite swf_block in H. exact (IH _ (swfl_In _ _ _ _ (proj2 H) Hin)).
  - intros bt b l e t o Hin IH k H. rewrite swf_loop in H. exact (IH _ (swfl_In _ _ _ _ (proj2 H) Hin)).
  - intros bt th el l e t o Hin IH k H. rewrite swf_if in H. exact (IH _ (swfl_In _ _ _ _ (proj1 (proj2 H)) Hin)).
  - intros bt th le eb l e t o Hin IH k H. rewrite swf_if in H. exact (IH _ (swfl_In _ _ _ _ (proj2 (proj2 H)) Hin)).
Qed.
Lemma swfl_ops_dec nt l k : swfl nt k l -> forall o, In o (ops_of l) -> forall f, decode_plain f o <> None.
Proof. intros Hs o Ho. destruct (ops_of_in l o Ho) as (t & Hin & Hot). exact (swf_ops_dec nt t o Hot k (swfl_In _ _ _ _ Hs Hin)). Qed.
(* the projection of [wfl]: decodable in the parse context *)
Lemma wfl_In cx k l t : wfl cx k l -> In t l -> wf cx k t.
Proof. induction l as [|x l IH]; intros H []; [subst x; apply H|apply IH; [apply H|assumption]]. Qed.
Lemma wf_ops_dec cx : forall t o, In o (ops_of_t t) -> forall k, wf cx k t -> decode_plain (px_i2id cx) o <> None.
Proof.
  apply (ops_of_t_ind (fun t o => forall k, wf cx k t -> decode_plain (px_i2id cx) o <> None)).
  - intros o l k H. exact H.
  - intros bt b l e t o Hin IH k H. rewrite wf_block in H. exact (IH _ (wfl_In _ _ _ _ (proj2 H) Hin)).
  - intros bt b l e t o Hin IH k H. rewrite wf_loop in H. exact (IH _ (wfl_In _ _ _ _ (proj2 H) Hin)).
  - intros bt th el l e t o Hin IH k H. rewrite wf_if in H. exact (IH _ (wfl_In _ _ _ _ (proj1 (proj2 H)) Hin)).
  - intros bt th le eb l e t o Hin IH k H. rewrite wf_if in H. exact (IH _ (wfl_In _ _ _ _ (proj2 (proj2 H)) Hin)).
Qed.
Theorem wfl_ops_dec cx l k : wfl cx k l -> forall o, In o (ops_of l) -> decode_plain (px_i2id cx) o <> None.
Proof. intros Hs o Ho. destruct (ops_of_in l o Ho) as (t & Hin & Hot). exact (wf_ops_dec cx t o Hot k (wfl_In _ _ _ _ Hs Hin)). Qed.

(* an operator of a forest is in its flattening; re-encoded, in its output flattening *)
Lemma ops_in_flat : forall t o, In o (ops_of_t t) -> exists loc, In (WOp o, loc) (flat t).
Proof.
  apply (ops_of_t_ind (fun t o => exists loc, In (WOp o, loc) (flat t))).
  - intros o l. exists l. left. reflexivity.
  - intros bt b l e t o Hin [loc H]. exists loc. cbn [flat]. right. apply in_or_app. left. apply in_flat_map. eauto.
  - intros bt b l e t o Hin [loc H]. exists loc. cbn [flat]. right. apply in_or_app. left. apply in_flat_map. eauto.
  - intros bt th el l e t o Hin [loc H]. exists loc. destruct el as [[le eb]|]; cbn [flat]; right; apply in_or_app; left; apply in_flat_map; eauto.
  - intros bt th le eb l e t o Hin [loc H]. exists loc. cbn [flat]. right. apply in_or_app. right. right. apply in_or_app. left. apply in_flat_map. eauto.
Qed.
Lemma ops_in_flat_list l o : In o (ops_of l) -> exists loc, In (WOp o, loc) (flat_list l).
Proof.
  intros Ho. destruct (ops_of_in l o Ho) as (t & Hin & Hot). destruct (ops_in_flat t o Hot) as [loc H].
  exists loc. apply in_flat_map. eauto.
Qed.
Lemma ops_in_flat' cx ecx : forall t o, In o (ops_of_t t) -> exists loc, In (nf_op cx ecx o, loc) (flat' cx ecx t).
Proof.
  apply (ops_of_t_ind (fun t o => exists loc, In (nf_op cx ecx o, loc) (flat' cx ecx t))).
  - intros o l. exists l. left. reflexivity.
  - intros bt b l e t o Hin [loc H]. exists loc. cbn [flat']. right. apply in_or_app. left. apply in_flat_map. eauto.
  - intros bt b l e t o Hin [loc H]. exists loc. cbn [flat']. right. apply in_or_app. left. apply in_flat_map. eauto.
  - intros bt th el l e t o Hin [loc H]. exists loc. destruct el as [[le eb]|]; cbn [flat']; right; apply in_or_app; left; apply in_flat_map; eauto.
  - intros bt th le eb l e t o Hin [loc H]. exists loc. cbn [flat']. right. apply in_or_app. right. right. apply in_or_app. left. apply in_flat_map. eauto.
Qed.
Lemma ops_in_flat_list' cx ecx l o : In o (ops_of l) -> exists loc, In (nf_op cx ecx o, loc) (flat_list' cx ecx l).
Proof.
  intros Ho. destruct (ops_of_in l o Ho) as (t & Hin & Hot). destruct (ops_in_flat' cx ecx t o Hot) as [loc H].
  exists loc. apply in_flat_map. eauto.
Qed.

(* OPS, the decodability part, from the stream: every operator of every body (dead code included) decodes in EVERY context *)
Theorem end_OPS_dec cf ver w s m : valid_stream w -> parseM cf ver w = POk s -> stream_has_cmod w m ->
  forall i d o, nth_error (cm_funcs m) i = Some d -> In o (ops_of (live (fd_body d))) -> forall f, decode_plain f o <> None.
Proof.
  intros V HP HM i d o Hd Ho. destruct (end_wf_from_stream cf ver w s m V HP HM i d 0%N Hd) as [_ Hs].
  apply (swfl_ops_dec _ _ _ Hs o). apply ops_live_incl, Ho.
Qed.

(* what the index selectors of Proofs/SemMod.v select is among the references of the operator *)
Definition idx_in (S : space) (oi : option N) (o : wop) : Prop :=
  match oi with Some i => In (S, i) (wop_refs o) | None => True end.
Lemma index_in_refs o :
  idx_in S_local (local_index_of o) o /\ idx_in S_global (global_index_of o) o /\ idx_in S_memory (memory_index_of o) o.
Proof. destruct o. all: try exact (conj I (conj I I)). all: cbn; auto 7. Qed.
Lemma mem_refs o i : memory_index_of o = Some i -> In (S_memory, i) (wop_refs o).
Proof. intros H. destruct (index_in_refs o) as (_ & _ & R). rewrite H in R. exact R. Qed.

(* the log of the in-order traversal of the parsed body reports the parse-time id of every index, of any space, that an operator of
   the LIVE part of the body mentions: the operator is emitted (at the identity emit context [ecx_id]) with that id as its index, and
   every index of an emitted operator is a logged id ([emitted_refs] of Proofs/ModFix14.v) *)
Theorem log_has_live_refs S cx lf ety rs l eloc evs :
  wfl cx 1 l -> parse_body cx ety rs (flat_list l ++ [(WEnd, eloc)]) = Ok (lf_arena lf) -> lf_entry lf = 0%N -> lf_log lf = Ok evs ->
  forall o i, In o (ops_of (live l)) -> In (S, i) (wop_refs o) -> In (ERef S (px_i2id cx S i)) evs.
Proof.
  intros Hw Hpb Hen Hlog o i Ho Hi.
  pose proof Hpb as Ea. rewrite (WV.Proofs.ParseFn.parse_body_arena cx ety rs l eloc Hw) in Ea. injection Ea as Ea. symmetry in Ea.
  destruct (parsed_emit_body cx lf ety l eloc ecx_id Hw Ea Hen) as [st He]. rewrite Hen in He.
  unfold lf_log in Hlog. rewrite Hen in Hlog.
  destruct (WV.Proofs.ModFix10.emitted_ops_structured cx ecx_id ety rs l eloc 0%N (lf_arena lf) st (lf_fuel lf)
              Hw (WV.Proofs.ModFix10.enc_ok_all _ _) Hpb He) as (eloc1 & _ & _ & Hm & _ & _ & _ & Hout).
  destruct (ops_in_flat_list' cx ecx_id _ _ Ho) as [loc Hin]. fold (live l) in Hm.
  pose proof (wfl_ops_dec cx l 1 Hw o (ops_live_incl _ _ Ho)) as Hdec.
  destruct (decode_plain (px_i2id cx) o) as [p|] eqn:Ed; [|now elim Hdec].
  destruct (encode_plain (ex_id2i ecx_id) p) as [w|] eqn:Ee; [|now elim (WV.Proofs.SemCore.encode_total _ _ Ee)].
  assert (Enf : nf_op cx ecx_id o = WOp w) by (unfold nf_op, dec; rewrite Ed, Ee; reflexivity).
  assert (Hemitted : In (WOp w) (out st)).
  { rewrite Hout, Hm. apply in_or_app. left. apply in_map_iff. exists (WOp w, loc). split; [reflexivity|]. rewrite <- Enf. exact Hin. }
  destruct (WV.Proofs.ModFix14.emitted_refs cx ecx_id ety rs l eloc 0%N _ st _ _ evs w Hw Hpb He Hlog Hemitted S (px_i2id cx S i))
    as (id & Hev & E).
  { apply (WV.Proofs.Codec.encode_refs_iff _ _ _ Ee), (WV.Proofs.Codec.in_mapr (ex_id2i ecx_id) S (px_i2id cx S i)),
      (WV.Proofs.Codec.decode_refs_iff _ _ _ Ed), WV.Proofs.Codec.in_mapr, Hi. }
  cbn [ecx_id ex_id2i] in E. rewrite E. exact Hev.
Qed.

(* the traversal log reports the id of every local index the live body mentions *)
Theorem log_has_live_locals cx lf ety rs l eloc evs :
  wfl cx 1 l -> parse_body cx ety rs (flat_list l ++ [(WEnd, eloc)]) = Ok (lf_arena lf) -> lf_entry lf = 0%N -> lf_log lf = Ok evs ->
  forall j, In j (locals_used (live l)) -> In (px_i2id cx S_local j) (used_of_log evs).
Proof.
  intros Hw Hpb Hen Hlog j Hj. apply used_op in Hj. destruct Hj as (o & Ho & Hi).
  apply WV.Proofs.ModFix17.used_of_log_in, (log_has_live_refs S_local cx lf ety rs l eloc evs Hw Hpb Hen Hlog o j Ho).
  destruct (index_in_refs o) as (R & _). rewrite Hi in R. exact R.
Qed.

(* the slot map: the inverse of the local renumbering of one function.  [vec] = the parse-time local vector of the function
   (local index -> id), [lmap] = its emit-time local map (id -> output index): output index q is the slot of the input local index j
   whose id has output index q; an output index no input index reaches is its own slot *)
Definition inv_pred (lmap : list (N * N)) (vec : list N) (q : N) (j : N) : bool :=
  match local_index lmap (nth (N.to_nat j) vec 4294967295%N) with Some q' => (q' =? q)%N | None => false end.
Definition lslot_inv (lmap : list (N * N)) (vec : list N) (q : N) : N :=
  match find (inv_pred lmap vec q) (iota (length vec)) with Some j => j | None => q end.

Lemma alookup_numbered_inj (lslot : N -> N) : forall vs base q v, nth_error vs q = Some v ->
  (forall q2, q2 < length vs -> lslot (base + N.of_nat q2)%N = lslot (base + N.of_nat q)%N -> q2 = q) ->
  alookup (lslot (base + N.of_nat q)%N) (map (fun p => (lslot (fst p), snd p)) (WV.Model.SemMod.numbered base vs)) = Some v.
Proof.
  induction vs as [|x vs IH]; intros base q v Hq Hinj; [destruct q; discriminate Hq|].
  cbn [WV.Model.SemMod.numbered map alookup fst snd]. destruct q as [|q].
  - cbn [nth_error] in Hq. injection Hq as ->. cbn [N.of_nat]. rewrite N.add_0_r, N.eqb_refl. reflexivity.
  - cbn [nth_error] in Hq. destruct (N.eqb_spec (lslot (base + N.of_nat (S q))%N) (lslot base)) as [E|_].
    + exfalso. assert (H0 : 0 = S q); [|discriminate H0]. apply Hinj; [cbn [length]; lia|].
      cbn [N.of_nat]. rewrite N.add_0_r. symmetry. exact E.
    + replace (base + N.of_nat (S q))%N with (base + 1 + N.of_nat q)%N by lia. apply IH; [exact Hq|].
      intros q2 Hq2 E. assert (H0 : S q2 = S q); [|injection H0 as H0; exact H0]. apply Hinj; [cbn [length]; lia|].
      replace (base + N.of_nat (S q2))%N with (base + 1 + N.of_nat q2)%N by lia.
      replace (base + N.of_nat (S q))%N with (base + 1 + N.of_nat q)%N by lia. exact E.
Qed.

(* the value at index q of a frame is found under its slot, if no other index has that slot *)
Lemma alookup_frame_at lslot argv ls q v : nth_error (argv ++ map zero_val ls) q = Some v ->
  (forall q2, q2 < length (argv ++ map zero_val ls) -> lslot (N.of_nat q2) = lslot (N.of_nat q) -> q2 = q) ->
  alookup (lslot (N.of_nat q)) (mk_frame lslot argv ls) = Some v.
Proof. intros H I. apply (alookup_numbered_inj lslot _ 0%N q v H). intros q2 L E. rewrite !N.add_0_l in E. exact (I q2 L E). Qed.

Section LocalsAbs.
  Variables (base np nl : nat) (ty : N -> valty) (used : list N) (decls : list (N * valty)) (lmap : list (N * N))
            (ps ls : list valty).
  Let args := map N.of_nat (seq base np).
  Let vec := map N.of_nat (seq base (np + nl)).
  Hypothesis EL : emit_locals ty args used = (decls, lmap).
  Hypothesis UV : forall id, In id used -> In id vec.
  Hypothesis TY : map ty vec = ps ++ ls.
  Hypothesis NP : length ps = np.
  Let ls' := expand_locals decls.
  Let inv := lslot_inv lmap vec.
  Let n' := np + length ls'.

  Lemma abs_nl : length ls = nl.
  Proof.
    assert (H : length (map ty vec) = length (ps ++ ls)) by (rewrite TY; reflexivity).
    unfold vec in H. rewrite !map_length, seq_length, app_length in H. lia.
  Qed.
  Lemma abs_vec_len : length vec = np + nl. Proof. unfold vec. rewrite map_length, seq_length. reflexivity. Qed.
  Lemma abs_vec_nth j : j < np + nl -> nth_error vec j = Some (N.of_nat (base + j)).
  Proof. intros Hj. unfold vec. rewrite nth_error_map, nth_error_nth' with (d := 0) by (rewrite seq_length; exact Hj). rewrite seq_nth by exact Hj. reflexivity. Qed.
  Lemma abs_vec_nth_d j d : j < np + nl -> nth j vec d = N.of_nat (base + j).
  Proof. intros Hj. apply nth_error_nth. apply abs_vec_nth, Hj. Qed.
  Lemma abs_args_nth j : j < np -> nth_error args j = Some (N.of_nat (base + j)).
  Proof. intros Hj. unfold args. rewrite nth_error_map, nth_error_nth' with (d := 0) by (rewrite seq_length; exact Hj). rewrite seq_nth by exact Hj. reflexivity. Qed.
  Lemma abs_args_ND : NoDup args.
  Proof. apply WV.Proofs.Order.StronglySorted_lt_NoDup, WV.Proofs.ModFix11.seq_ids_sorted. Qed.
  Lemma abs_in_vec id : In id vec -> exists j, j < np + nl /\ id = N.of_nat (base + j).
  Proof.
    intros H. apply WV.Proofs.ModFix11.in_seq_ids in H. destruct H as (k & -> & Hk). exists (k - base). split; [lia|]. f_equal. lia.
  Qed.
  Lemma abs_args_vec id : In id args -> In id vec.
  Proof.
    intros H. apply WV.Proofs.ModFix11.in_seq_ids in H. destruct H as (k & -> & Hk). apply WV.Proofs.ModFix11.in_seq_ids.
    exists k. split; [reflexivity|lia].
  Qed.

  Let RC := WV.Proofs.Locals3.locals_renaming_consistent ty args used decls lmap abs_args_ND EL.

  Lemma abs_n' : length (map ty args ++ WV.Proofs.Locals3.expand decls) = n'.
  Proof. unfold n', ls', args. rewrite app_length. rewrite map_length. rewrite map_length. rewrite seq_length. reflexivity. Qed.

  (* the inverse, on the index of an id the map knows *)
  Lemma abs_inv_hit j q : j < np + nl -> local_index lmap (N.of_nat (base + j)) = Some q -> inv q = N.of_nat j.
  Proof.
    intros Hj Hq. destruct RC as (_ & _ & R3 & _). unfold inv, lslot_inv.
    destruct (find (inv_pred lmap vec q) (iota (length vec))) as [j0|] eqn:Ef.
    - apply find_some in Ef. destruct Ef as [Hin Hp]. unfold iota in Hin. apply in_map_iff in Hin. destruct Hin as (k & <- & Hk).
      apply in_seq in Hk. rewrite abs_vec_len in Hk. unfold inv_pred in Hp. rewrite Nat2N.id, abs_vec_nth_d in Hp by lia.
      destruct (local_index lmap (N.of_nat (base + k))) as [q'|] eqn:E; [|discriminate Hp]. apply N.eqb_eq in Hp. subst q'.
      pose proof (R3 _ _ _ E Hq) as H. f_equal. lia.
    - exfalso. assert (Hin : In (N.of_nat j) (iota (length vec))).
      { unfold iota. apply in_map, in_seq. rewrite abs_vec_len. lia. }
      pose proof (find_none _ _ Ef _ Hin) as Hp. unfold inv_pred in Hp. rewrite Nat2N.id, abs_vec_nth_d, Hq, N.eqb_refl in Hp by exact Hj.
      discriminate Hp.
  Qed.

  (* every output index below n' is hit *)
  Lemma abs_onto q : (q < N.of_nat n')%N -> exists j, j < np + nl /\ local_index lmap (N.of_nat (base + j)) = Some q.
  Proof.
    intros Hq. destruct RC as (_ & _ & _ & R4 & _). rewrite abs_n' in R4. destruct (R4 q Hq) as (l & Hl & Hlq).
    assert (Hv : In l vec) by (destruct Hl as [Hl|Hl]; [apply abs_args_vec, Hl|apply UV, Hl]).
    destruct (abs_in_vec _ Hv) as (j & Hj & ->). exists j. split; [exact Hj|exact Hlq].
  Qed.
  Lemma abs_inv_inj q1 q2 : (q1 < N.of_nat n')%N -> (q2 < N.of_nat n')%N -> inv q1 = inv q2 -> q1 = q2.
  Proof.
    intros H1 H2 E. destruct (abs_onto q1 H1) as (j1 & Hj1 & L1). destruct (abs_onto q2 H2) as (j2 & Hj2 & L2).
    rewrite (abs_inv_hit _ _ Hj1 L1), (abs_inv_hit _ _ Hj2 L2) in E. apply Nat2N.inj in E. subst j2. congruence.
  Qed.

  (* a local index in range whose id is used (or a parameter) *)
  Lemma abs_known j : j < np + nl -> (j < np \/ In (N.of_nat (base + j)) used) ->
    exists q, local_index lmap (N.of_nat (base + j)) = Some q /\ (q < N.of_nat n')%N /\ inv q = N.of_nat j.
  Proof.
    intros Hj Hu. destruct RC as (R1 & _). rewrite abs_n' in R1. destruct (R1 (N.of_nat (base + j))) as (q & Hq & Hlt).
    { destruct Hu as [Hu|Hu]; [left; eapply nth_error_In, abs_args_nth, Hu|right; exact Hu]. }
    exists q. split; [exact Hq|]. split; [exact Hlt|]. apply (abs_inv_hit _ _ Hj Hq).
  Qed.

  (* the output frame under [inv] agrees with the input frame on the slots of the locals that are parameters or used *)
  Lemma abs_frames argv U : all_ty ps argv = true ->
    (forall k, In k U -> N.to_nat k < np + nl /\ (N.to_nat k < np \/ In (N.of_nat (base + N.to_nat k)) used)) ->
    agree U (mk_frame inv argv ls') (mk_frame idN argv ls).
  Proof.
    intros Ha HU k Hk. destruct (HU k Hk) as [Hr Hu]. set (j := N.to_nat k) in *.
    destruct (abs_known j Hr Hu) as (q & Hq & Hlt & Hinv). unfold j in Hinv at 1. rewrite N2Nat.id in Hinv.
    pose proof (all_ty_length _ _ Ha) as La. rewrite NP in La.
    pose proof abs_nl as Lnl.
    (* the input frame *)
    assert (Hin : exists v, nth_error (argv ++ map zero_val ls) j = Some v).
    { destruct (nth_error (argv ++ map zero_val ls) j) eqn:E; [eauto|]. apply nth_error_None in E. rewrite app_length, map_length in E. lia. }
    destruct Hin as [v Hv].
    assert (R : alookup k (mk_frame idN argv ls) = Some v).
    { rewrite <- (N2Nat.id k). apply (alookup_frame_at idN _ _ _ _ Hv). intros q2 _ E. unfold idN in E. lia. }
    rewrite R.
    (* the output frame *)
    assert (Hv' : nth_error (argv ++ map zero_val ls') (N.to_nat q) = Some v).
    { destruct RC as (_ & _ & R3 & _ & R5 & R6).
      destruct (Nat.lt_ge_cases j np) as [Hjn|Hjn].
      - pose proof (R5 _ _ (abs_args_nth j Hjn)) as H5. unfold WV.Proofs.Locals3.lookup in H5. rewrite Hq in H5. injection H5 as ->.
        rewrite Nat2N.id. rewrite nth_error_app1 in Hv |- * by lia. exact Hv.
      - assert (Hqn : np <= N.to_nat q).
        { destruct (Nat.lt_ge_cases (N.to_nat q) np) as [C|C]; [|exact C]. exfalso.
          pose proof (R5 _ _ (abs_args_nth _ C)) as H5. rewrite N2Nat.id in H5.
          pose proof (R3 _ _ _ H5 Hq) as E. apply Nat2N.inj in E. lia. }
        rewrite nth_error_app2 in Hv |- * by lia. rewrite La in *. rewrite nth_error_map in Hv |- *.
        pose proof (R6 _ _ Hq) as H6. rewrite nth_error_app2 in H6 by (unfold args; rewrite !map_length, seq_length; exact Hqn).
        unfold args in H6. rewrite !map_length, seq_length, <- WV.Proofs.ModFix11.expand_locals_eq in H6. fold ls' in H6. rewrite H6.
        assert (Ht : nth_error (ps ++ ls) j = Some (ty (N.of_nat (base + j)))).
        { rewrite <- TY, nth_error_map, (abs_vec_nth j Hr). reflexivity. }
        rewrite nth_error_app2 in Ht by lia. rewrite NP in Ht. rewrite Ht in Hv. exact Hv. }
    rewrite <- Hinv, <- (N2Nat.id q). apply (alookup_frame_at inv _ _ _ _ Hv').
    intros q2 Hq2 E. rewrite N2Nat.id in E. rewrite app_length, map_length, La in Hq2. fold n' in Hq2.
    assert (E2 : N.of_nat q2 = q) by (apply abs_inv_inj; [lia|exact Hlt|exact E]). subst q. rewrite Nat2N.id. reflexivity.
  Qed.
End LocalsAbs.

(* the slot map of the output module: function by function, the inverse of the local renumbering *)
Definition lslot_end (s : pst) (e : emitted) (i q : N) : N :=
  lslot_inv (lmap_at e i) (WV.Proofs.Names.locals_vec (ps_ids s) i) q.

Section LocalsEnd.
  Variables (cf : config) (ver : str) (w : wmod) (s : pst) (ilen : wins -> N) (e : emitted) (m : cmod).
  Hypothesis V : valid_stream w.
  Hypothesis HP : parseM cf ver w = POk s.
  Hypothesis HE : emitM (ps_m s) ilen [] = Ok e.
  Hypothesis HM : stream_has_cmod w m.
  (* the validator's guarantee the model's [valid_stream] does not carry for LOCAL indices: every local index an operator mentions is
     below (parameters + declared locals); executable (Proofs/ModFix40.v) *)
  Hypothesis LR : WV.Proofs.ModFix40.locals_in_range w.

  Let WFm := end_WF cf ver w s m V HP HM.

  Lemma code_index i b k' : nth_error (flat_map code_of w) i = Some b ->
    N.to_nat (N.of_nat i) = length (ii_funcs (ps_ids s)) - length (flat_map code_of w) + k' -> k' = i.
  Proof.
    intros Hb H. pose proof (NI _ _ HM) as HNI. pose proof (LEN _ _ HM) as HLEN.
    rewrite (n_funcs _ _ _ _ HP HNI), HLEN, Nat2N.id in H. lia.
  Qed.

  (* the type the parser gave function i has the parameters of the signature its type index names; the types of its local ids are these
     parameters, then the declared locals *)
  Lemma fn_types i ti ls body b f lf t :
    nth_error (cm_funcs m) i = Some (ti, ls, body) -> nth_error (flat_map code_of w) i = Some b -> ls = expand_locals (wb_locals b) ->
    aget (m_funcs (ps_m s)) (N.of_nat i) = Some f -> fn_kind f = FK_Local lf -> types_get (ps_m s) (lf_ty lf) = Some t ->
    (exists rs, nth_optN ti (cm_tys m) = Some (ty_params t, rs)) /\
    map (local_ty_fn (ps_m s)) (WV.Proofs.Names.locals_vec (ps_ids s) (N.of_nat i)) = ty_params t ++ ls.
  Proof.
    intros Hd Hb Hls Hg Hk Ht. pose proof (NI _ _ HM) as HNI.
    destruct (hm_parts _ _ HM) as (_ & TY & _).
    pose proof (fn_ty_at _ _ HM i _ Hd) as Hti. cbn [fd_ty fst] in Hti.
    destruct (end_function_signature _ _ _ _ _ _ HP HE HNI i ti Hti) as (_ & _ & _ & Hne). rewrite <- TY in Hne.
    destruct (nth_optN ti (cm_tys m)) as [[ps rs]|] eqn:Hty; [clear Hne|now elim Hne].
    assert (Hps : ty_params t = ps).
    { destruct (parseM_sigs _ _ _ _ HP) as [[_ HT] HF]. unfold FInv in HF. rewrite (no_imports_sec_ftys _ HNI) in HF.
      destruct (Forall2_nth_l _ _ _ _ _ HF Hti) as (c & Hc & Hn).
      pose proof (WV.Proofs.Names.aget_nth _ _ _ Hg) as Hnf. rewrite Nat2N.id in Hnf.
      unfold K_fty in Hc. rewrite nth_error_map, Hnf in Hc. cbn [option_map] in Hc. injection Hc as <-.
      rewrite fcore_ty in Hn. unfold func_ty in Hn. rewrite Hk in Hn.
      rewrite TY, nth_optN_nth_error in Hty. destruct (HT _ _ Hty) as (id & ty0 & Hi1 & Hi2 & (Sp & _)).
      unfold nth_N in Hn. rewrite Hi1 in Hn. injection Hn as ->.
      rewrite (WV.Proofs.ModFix17.pk_types_get _ _ _ _ _ HP), Hi2 in Ht. injection Ht as <-. exact Sp. }
    split; [exists rs; rewrite Hps; reflexivity|].
    destruct (local_function_locals _ _ _ _ _ _ _ HP Hg Hk) as (k' & b' & t' & Hb' & Hfid' & Ht' & _ & Htys & _ & _).
    pose proof (code_index i b k' Hb Hfid') as ->. rewrite Hb in Hb'. injection Hb' as <-.
    rewrite Ht in Ht'. injection Ht' as <-. rewrite Htys, Hls. reflexivity.
  Qed.

  Lemma fn_range i ti ls body ps rs : nth_error (cm_funcs m) i = Some (ti, ls, body) -> nth_optN ti (cm_tys m) = Some (ps, rs) ->
    forall j, In j (locals_used (live body)) -> N.to_nat j < length ps + length ls.
  Proof.
    intros Hd Hty j Hj. destruct (hm_parts _ _ HM) as (_ & TY & _ & F2 & _).
    destruct (Forall2_nth_l _ _ _ _ _ F2 Hd) as (b & Hb & (Hls & eloc & Eops)). cbn [fd_locals fd_body fst snd] in Hls, Eops.
    pose proof (fn_ty_at _ _ HM i _ Hd) as Hti. cbn [fd_ty fst] in Hti.
    apply used_op in Hj. destruct Hj as (o & Ho & Hi).
    apply ops_live_incl in Ho. destruct (ops_in_flat_list _ _ Ho) as [loc Hin].
    assert (Hob : In (WOp o, loc) (wb_ops b)) by (rewrite Eops; apply in_or_app; left; exact Hin).
    pose proof LR as L. unfold WV.Proofs.ModFix40.locals_in_range, WV.Proofs.ModFix40.locals_in_range_b in L. rewrite forallb_forall in L.
    specialize (L (ti, b) (nth_error_In _ _ (WV.Proofs.ModFix41.nth_error_combine _ _ _ _ _ Hti Hb))). cbn [fst snd] in L.
    rewrite TY, nth_optN_nth_error in Hty. rewrite Hty in L. cbn [fst] in L.
    unfold WV.Proofs.ModFix40.body_locals_in_range in L. rewrite forallb_forall in L. specialize (L _ Hob). cbn [fst] in L.
    unfold WV.Proofs.ModFix40.op_locals_below in L. rewrite forallb_forall in L.
    assert (Hr : In (S_local, j) (wop_refs o)) by (destruct (index_in_refs o) as (R & _); rewrite Hi in R; exact R).
    specialize (L _ Hr). cbn [fst snd] in L. apply Nat.ltb_lt in L. rewrite <- Hls in L. exact L.
  Qed.

  (* the slot map [lslot_end] undoes the local renumbering of every function on the locals its live part mentions, and the
     frames agree *)
  Theorem end_LOCALS : forall i ti ls body ti' ls' b', nth_error (cm_funcs m) i = Some (ti, ls, body) ->
    nth_optN (rf_of (em_x2i e) (N.of_nat i)) (cm_funcs (out_cmod s e ilen m)) = Some (ti', ls', b') ->
    (forall j, In j (locals_used (live body)) ->
       lslot_end s e (N.of_nat i) (rl (cx_of s (N.of_nat i)) (ecxo_of e ilen (N.of_nat i)) j) = j) /\
    frames_agree (env_of m (fun _ => idN) idN idN idN idN)
                 (env_of (out_cmod s e ilen m) (lslot_end s e) (fslot_of (em_x2i e)) idN idN idN) (N.of_nat i) ti ls ls' body.
  Proof.
    intros i ti ls body ti' ls' b' Hd Hd'.
    destruct (fn_trip_at cf ver w s ilen e m HP HE HM i ti ls body Hd) as (b & eloc & Hb & Hls & T). fn_trip T.
    destruct (out_fn_at cf ver w s ilen e m HP HE HM i _ Hd) as (tj & ef2 & Hef2 & _ & _ & HLm & Hfn).
    rewrite Hef in Hef2. injection Hef2 as <-. rewrite Hd' in Hfn. injection Hfn as -> -> _.
    destruct (fn_types i ti ls body b f lf t Hd Hb Hls Hg Hk Ht) as [[rs Ety] TYV].
    rewrite <- Hls in Hlv. rewrite Hlv in TYV. rewrite Hargs in Hel.
    set (ps := ty_params t) in *. set (np := length ps) in *. set (nl := length ls) in *.
    set (decls := wb_locals (ef_body ef)) in *. set (lmap := ef_lmap ef) in *.
    set (vec := map N.of_nat (seq base (np + nl))) in *.
    (* used ids are ids of the function *)
    assert (UV : forall id, In id (used_of_log evs) -> In id vec).
    { intros id Hu. rewrite <- Hlv.
      apply (WV.Proofs.ModFix41.locals_in_range_bridge _ _ _ _ HP V LR (N.of_nat i) f lf evs id Hg Hk Hlog).
      apply WV.Proofs.ModFix17.used_of_log_in, Hu. }
    (* the ids of the locals the live body mentions are in the log *)
    pose proof (log_has_live_locals (cx_of s (N.of_nat i)) lf ety (ty_results t) body eloc evs (WFm i _ Hd) Hpb Hen Hlog) as HB.
    pose proof (fn_range i ti ls body ps rs Hd Ety) as HR. fold np nl in HR.
    assert (Eid : forall j, In j (locals_used (live body)) -> px_i2id (cx_of s (N.of_nat i)) S_local j = N.of_nat (base + N.to_nat j)).
    { intros j Hin. cbn [cx_of px_i2id]. rewrite WV.Proofs.ModFix17.i2id_local, Hlv. apply WV.Proofs.ModFix17.nth_seq_ids, HR, Hin. }
    assert (HB' : forall j, In j (locals_used (live body)) -> In (N.of_nat (base + N.to_nat j)) (used_of_log evs)).
    { intros j Hin. rewrite <- (Eid j Hin). exact (HB j Hin). }
    split.
    - intros j Hin.
      destruct (abs_known base np nl (local_ty_fn (ps_m s)) (used_of_log evs) decls lmap ps Hel eq_refl (N.to_nat j) (HR j Hin)
                  (or_intror (HB' j Hin))) as (q & Hq & _ & Hinv).
      unfold rl, ecxo_of, lslot_end. rewrite (Eid j Hin), HLm, Hlv. cbn [ecx_of ex_id2i].
      rewrite (WV.Proofs.ModFix17.id2i_local _ _ _ _ Hq). exact (eq_trans Hinv (N2Nat.id j)).
    - intros ps0 rs0 args Hty0 Hargs0. cbn [env_of me_tys me_lslot] in *. rewrite Ety in Hty0. injection Hty0 as <- <-.
      assert (EU : map idN (locals_used (live body)) = locals_used (live body)) by (unfold idN; apply map_id).
      rewrite EU. unfold lslot_end. rewrite HLm, Hlv.
      apply (abs_frames base np nl (local_ty_fn (ps_m s)) (used_of_log evs) decls lmap ps ls Hel UV TYV eq_refl args _ Hargs0).
      intros k Hk0. split; [exact (HR k Hk0)|right; exact (HB' k Hk0)].
  Qed.
End LocalsEnd.

(* what is STILL asked of the operators of the live part of a body:
   - [offset_ok]: memory offsets below 2^32 (the recorded finding: walrus keeps the offset mod 2^32);
   - the index immediates of global.get/set, memory instructions, call, call_indirect are in range: the validator's guarantee; the
     model's [valid_stream] has NO clause about the index immediates of body operators ([body_valid] = well-bracketed + [swf]: branch
     depths, decodability, block-type indices only) *)
Definition op_ok_end2 (s : pst) (o : wop) : Prop :=
  offset_ok o = true /\
  (forall i, global_index_of o = Some i -> N.to_nat i < n_in s S_global) /\
  (forall i, memory_index_of o = Some i -> N.to_nat i < n_in s S_memory) /\
  (forall f, o = W_Call f -> N.to_nat f < n_in s S_func) /\
  (forall ti tb, o = W_CallIndirect ti tb -> N.to_nat ti < n_in s S_type /\ N.to_nat tb < n_in s S_table).

Theorem sem_roundtrip_end_to_end_2 :
  forall (cf : config) (ver : str) (w : wmod) (s : pst) (ilen : wins -> N) (e : emitted) (m : cmod),
    valid_stream w -> parseM cf ver w = POk s -> emitM (ps_m s) ilen [] = Ok e -> stream_has_cmod w m ->
    WV.Proofs.ModFix40.locals_in_range w ->
    (N.of_nat (length (types_list (ps_m s))) <= 4294967295)%N ->
    (forall i d o, nth_error (cm_funcs m) i = Some d -> In o (ops_of (live (fd_body d))) -> op_ok_end2 s o) ->
    exists (m' : cmod) (rf : N -> N),
      m' = out_cmod s e ilen m /\ rf = rf_of (em_x2i e) /\
      stream_has_cmod_ops (em_secs e) m' /\
      (forall i, N.to_nat i < length (cm_funcs m) -> N.to_nat (rf i) < length (cm_funcs m)) /\
      (forall i i', N.to_nat i < length (cm_funcs m) -> N.to_nat i' < length (cm_funcs m) -> rf i = rf i' -> i = i') /\
      (forall j, N.to_nat j < length (cm_funcs m) -> exists i, N.to_nat i < length (cm_funcs m) /\ rf i = j) /\
      (forall i, fslot_of (em_x2i e) (rf i) = i) /\
      cm_table m' = map (option_map rf) (cm_table m) /\
      (forall i ti ls body, nth_error (cm_funcs m) i = Some (ti, ls, body) ->
         exists ti' ls', nth_optN (rf (N.of_nat i)) (cm_funcs m') =
                           Some (ti', ls', out_body (cx_of s (N.of_nat i)) (ecxo_of e ilen (N.of_nat i)) body) /\
                         nth_optN ti' (cm_tys m') = nth_optN ti (cm_tys m)) /\
      (* the local slot map: function by function the inverse of the local renumbering; it undoes it on the locals the live part of
         the body mentions *)
      (forall i ti ls body j, nth_error (cm_funcs m) i = Some (ti, ls, body) -> In j (locals_used (live body)) ->
         lslot_end s e (N.of_nat i) (rl (cx_of s (N.of_nat i)) (ecxo_of e ilen (N.of_nat i)) j) = j) /\
      (* and the behaviour: input module on identity slot maps, output module on the slot maps read off the emit-time maps *)
      let E := env_of m (fun _ => idN) idN idN idN idN in
      let E' := env_of m' (lslot_end s e) (fslot_of (em_x2i e)) idN idN idN in
      forall k fuel f args s0, run_mod E' k fuel f args s0 = run_mod E k fuel f args s0.
Proof.
  intros cf ver w s ilen e m V HP HE HM LR SMALL OPS.
  assert (OPS' : forall i d o, nth_error (cm_funcs m) i = Some d -> In o (ops_of (live (fd_body d))) -> op_ok_end s o).
  { intros i d o Hd Ho. destruct (OPS i d o Hd Ho) as (O1 & O2 & O3 & O4 & O5).
    split; [exact O1|]. split; [exact (end_OPS_dec cf ver w s m V HP HM i d o Hd Ho)|]. repeat (split; [assumption|]). exact O5. }
  destruct (sem_roundtrip_end_to_end cf ver w s ilen e m V HP HE HM SMALL (end_WF cf ver w s m V HP HM) OPS')
    as (m' & rf & -> & -> & H1 & H2 & H3 & H4 & H5 & H6 & H7 & H8).
  exists (out_cmod s e ilen m), (rf_of (em_x2i e)).
  split; [reflexivity|]. split; [reflexivity|]. repeat (split; [assumption|]).
  split.
  - intros i ti ls body j Hd Hj. destruct (H7 i ti ls body Hd) as (ti' & ls' & Hout & _).
    exact (proj1 (end_LOCALS cf ver w s ilen e m V HP HE HM LR i ti ls body _ _ _ Hd Hout) j Hj).
  - intros E E'. apply (H8 (lslot_end s e)).
    intros i ti ls body ti' ls' b' Hd Hd'. exact (end_LOCALS cf ver w s ilen e m V HP HE HM LR i ti ls body ti' ls' b' Hd Hd').
Qed.

(* non-vacuity: the theorem on the worked example of Proofs/SemModEnd.v *)
Module ExEnd2.
  Import ExEnd.
  Definition s0 : pst := match trip with Some (s, _) => s | None => pst_init default_config end.
  Definition e0 : emitted :=
    match trip with Some (_, e) => e | None => {| em_secs := []; em_module := empty_wir default_config; em_x2i := empty_x2i; em_fns := [] |} end.

  Lemma ex_parse : parseM default_config [49%N] w0 = POk s0.
  Proof. vm_compute. reflexivity. Qed.
  Lemma ex_emit : emitM (ps_m s0) il [] = Ok e0.
  Proof. vm_compute. reflexivity. Qed.

  Example ex_valid : valid_stream w0.
  Proof.
    unfold valid_stream, w0. cbn [valid_from]. unfold valid_sec.
    repeat match goal with |- _ /\ _ => split end;
      try (vm_compute; reflexivity); try exact I.
    cbn [cstep cstep0 set_last c_nt fold_left cimp wi_kind rank ctx0 length Nat.add].
    repeat constructor; (eexists; eexists; split; [reflexivity|]);
      cbn [swfl swf inc_b apply_b twice_b P sbt_ok]; repeat split; try (cbn; lia); try (intros f H; vm_compute in H; discriminate H).
  Qed.
  Example ex_locals_in_range : WV.Proofs.ModFix40.locals_in_range w0.
  Proof. vm_compute. reflexivity. Qed.
  Example ex_small : (N.of_nat (length (types_list (ps_m s0))) <= 4294967295)%N.
  Proof. vm_compute. discriminate. Qed.

  Ltac op_ok_tac :=
    split; [reflexivity|];
    split; [intros i0 H; discriminate H|];
    split; [intros i0 H; discriminate H|];
    split; [intros f0 H; first [discriminate H | injection H as <-; apply Nat.ltb_lt; vm_compute; reflexivity]|];
    intros ti0 tb0 H; first [discriminate H | injection H as <- <-; split; apply Nat.ltb_lt; vm_compute; reflexivity].

  Example ex_ops : forall i d o, nth_error (cm_funcs m0) i = Some d -> In o (ops_of (live (fd_body d))) -> op_ok_end2 s0 o.
  Proof.
    intros i d o Hd Ho. destruct i as [|[|[|i]]]; cbn [m0 cm_funcs nth_error] in Hd; try (destruct i; discriminate Hd);
      injection Hd as <-; vm_compute in Ho;
      repeat (destruct Ho as [<-|Ho]; [op_ok_tac|]); destruct Ho.
  Qed.

  (* the slot map of the theorem is the one written by hand in Proofs/SemModEnd.v (output local 2 of `apply` is input local 3) *)
  Example ex_lslot : map (fun p => lslot_end s0 e0 (fst p) (snd p)) [(1, 0); (1, 1); (1, 2); (1, 7); (0, 0); (2, 0)]%N = [0; 1; 3; 7; 0; 0]%N.
  Proof. vm_compute. reflexivity. Qed.

  (* EVERY premise of the theorem holds for the example; its conclusion about behaviour *)
  Theorem ex_end_to_end :
    let E := env_of m0 (fun _ => idN) idN idN idN idN in
    let E' := env_of (out_cmod s0 e0 il m0) (lslot_end s0 e0) (fslot_of (em_x2i e0)) idN idN idN in
    forall k fuel f args st, run_mod E' k fuel f args st = run_mod E k fuel f args st.
  Proof.
    destruct (sem_roundtrip_end_to_end_2 default_config [49%N] w0 s0 il e0 m0 ex_valid ex_parse ex_emit in_relation
                ex_locals_in_range ex_small ex_ops) as (m' & rf & -> & -> & _ & _ & _ & _ & _ & _ & _ & _ & H).
    exact H.
  Qed.
End ExEnd2.

(* the premise on local indices is needed *)
(* [valid_stream] says nothing about the LOCAL indices of body operators.  On the stream of Proofs/ModFixEx.v [wP] (one function without
   parameters or locals whose body is `local.get 0`) the parser resolves the index to the sentinel id 2^32 - 1, the emitter declares
   a phantom i32 local for it: the input function goes wrong, the output function returns.  So neither LOCALS nor the behavioural
   conclusion follow from [valid_stream] alone, whatever the local slot map of the output is. *)
Module ExBad.
  Definition wB : wmod := WV.Proofs.ModFixEx.wP.
  Definition ilB : wins -> N := fun _ => 1%N.
  Definition mB : cmod := {| cm_tys := [([], [])]; cm_funcs := [(0%N, [], [RPlain (W_LocalGet 0%N) 1%N])]; cm_table := [] |}.
  Definition tripB : option (pst * emitted) :=
    match parseM default_config [49%N] wB with
    | POk s => match emitM (ps_m s) ilB [] with Ok e => Some (s, e) | _ => None end
    | _ => None end.
  Definition sB : pst := match tripB with Some (s, _) => s | None => pst_init default_config end.
  Definition eB : emitted :=
    match tripB with Some (_, e) => e | None => {| em_secs := []; em_module := empty_wir default_config; em_x2i := empty_x2i; em_fns := [] |} end.
  Lemma bad_parse : parseM default_config [49%N] wB = POk sB.
  Proof. lazy. reflexivity. Qed.
  Lemma bad_emit : emitM (ps_m sB) ilB [] = Ok eB.
  Proof. lazy. reflexivity. Qed.
  Lemma bad_relation : stream_has_cmod wB mB.
  Proof.
    split; [reflexivity|]. split; [reflexivity|]. split; [reflexivity|]. split; [|reflexivity].
    cbn. constructor; [|constructor]. split; [reflexivity|eexists; reflexivity].
  Qed.
  Definition stB : st := {| stk := []; locs := []; globs := []; labs := []; mem := []; pages := 0; max_pages := 0 |}.
  Lemma bad_in : run_mod (env_of mB (fun _ => idN) idN idN idN idN) 1 0 0%N [] stB = Some (Stop Wrong stB).
  Proof. lazy. reflexivity. Qed.
  Lemma bad_out_cmod : out_cmod sB eB ilB mB = {| cm_tys := [([], [])]; cm_funcs := [(0%N, [VT_I32], [RPlain (W_LocalGet 0%N) 1%N])]; cm_table := [] |}.
  Proof. lazy. reflexivity. Qed.
  Lemma bad_not_in_range : ~ WV.Proofs.ModFix40.locals_in_range wB.
  Proof. exact WV.Proofs.ModFix40.wP_violates. Qed.
  Lemma bad_rf : nth_optN (rf_of (em_x2i eB) (N.of_nat 0)) (cm_funcs (out_cmod sB eB ilB mB)) = Some (0%N, [VT_I32], [RPlain (W_LocalGet 0%N) 1%N]).
  Proof. lazy. reflexivity. Qed.
  Lemma bad_rl : rl (cx_of sB (N.of_nat 0)) (ecxo_of eB ilB (N.of_nat 0)) 0%N = 0%N.
  Proof. lazy. reflexivity. Qed.
  Lemma bad_used : In 0%N (locals_used (live [RPlain (W_LocalGet 0%N) 1%N])).
  Proof. lazy. left. reflexivity. Qed.

  Theorem end_LOCALS_refuted_without_range :
    exists cf ver w s ilen e m,
      valid_stream w /\ parseM cf ver w = POk s /\ emitM (ps_m s) ilen [] = Ok e /\ stream_has_cmod w m /\
      (~ WV.Proofs.ModFix40.locals_in_range w) /\
      forall lslot' : N -> N -> N,
        ~ (forall i ti ls body ti' ls' b', nth_error (cm_funcs m) i = Some (ti, ls, body) ->
             nth_optN (rf_of (em_x2i e) (N.of_nat i)) (cm_funcs (out_cmod s e ilen m)) = Some (ti', ls', b') ->
             (forall j, In j (locals_used (live body)) ->
                lslot' (N.of_nat i) (rl (cx_of s (N.of_nat i)) (ecxo_of e ilen (N.of_nat i)) j) = j) /\
             frames_agree (env_of m (fun _ => idN) idN idN idN idN)
                          (env_of (out_cmod s e ilen m) lslot' (fslot_of (em_x2i e)) idN idN idN) (N.of_nat i) ti ls ls' body).
  Proof.
    exists default_config, [49%N], wB, sB, ilB, eB, mB.
    split; [exact WV.Proofs.ModFixEx.wP_valid|]. split; [exact bad_parse|]. split; [exact bad_emit|]. split; [exact bad_relation|].
    split; [exact bad_not_in_range|].
    intros lslot' H. destruct (H 0 0%N [] [RPlain (W_LocalGet 0%N) 1%N] 0%N [VT_I32] [RPlain (W_LocalGet 0%N) 1%N] eq_refl bad_rf) as [H1 H2].
    specialize (H1 0%N bad_used). rewrite bad_rl in H1.
    specialize (H2 [] [] [] eq_refl eq_refl 0%N). cbn [env_of me_lslot] in H2.
    assert (Hin : In 0%N (map idN (locals_used (live [RPlain (W_LocalGet 0%N) 1%N])))) by (lazy; left; reflexivity).
    specialize (H2 Hin). unfold mk_frame in H2. cbn [app map zero_val WV.Model.SemMod.numbered fst snd alookup] in H2.
    rewrite H1 in H2. cbn in H2. discriminate H2.
  Qed.
  Lemma bad_out lslot' : run_mod (env_of (out_cmod sB eB ilB mB) lslot' (fslot_of (em_x2i eB)) idN idN idN) 1 0 0%N [] stB = Some (Fall stB).
  Proof.
    rewrite bad_out_cmod. lazy. destruct (lslot' 0%N 0%N) as [|p].
    - reflexivity.
    - pose proof (Pos.eqb_refl p) as Hp. lazy in Hp. rewrite Hp. reflexivity.
  Qed.
  (* for EVERY local slot map of the output the two modules behave differently: the input goes wrong (no local 0), the output returns *)
  Theorem sem_roundtrip_refuted_without_range :
    exists cf ver w s ilen e m,
      valid_stream w /\ parseM cf ver w = POk s /\ emitM (ps_m s) ilen [] = Ok e /\ stream_has_cmod w m /\
      (~ WV.Proofs.ModFix40.locals_in_range w) /\
      (N.of_nat (length (types_list (ps_m s))) <= 4294967295)%N /\
      (forall i d o, nth_error (cm_funcs m) i = Some d -> In o (ops_of (live (fd_body d))) -> op_ok_end2 s o) /\
      forall lslot' : N -> N -> N, exists k fuel f args s0,
        run_mod (env_of (out_cmod s e ilen m) lslot' (fslot_of (em_x2i e)) idN idN idN) k fuel f args s0 <>
        run_mod (env_of m (fun _ => idN) idN idN idN idN) k fuel f args s0.
  Proof.
    exists default_config, [49%N], wB, sB, ilB, eB, mB.
    split; [exact WV.Proofs.ModFixEx.wP_valid|]. split; [exact bad_parse|]. split; [exact bad_emit|]. split; [exact bad_relation|].
    split; [exact bad_not_in_range|].
    split; [lazy; discriminate|].
    split.
    { intros i d o Hd Ho. destruct i as [|i]; cbn [mB cm_funcs nth_error] in Hd; [|destruct i; discriminate Hd].
      injection Hd as <-. lazy in Ho. destruct Ho as [<-|[]]. ExEnd2.op_ok_tac. }
    intros lslot'. exists 1, 0, 0%N, [], stB. rewrite bad_out, bad_in. discriminate.
  Qed.
End ExBad.

(* the index ranges follow from the success of emitM *)
Lemma refs_ok_in x lmap evs S id : S <> S_local -> refs_ok x lmap evs = true -> In (ERef S id) evs -> In id (map fst (space_map x S)).
Proof.
  intros HS H Hin. unfold refs_ok in H. rewrite forallb_forall in H. specialize (H _ Hin).
  assert (He : existsb (fun p => N.eqb (fst p) id) (space_map x S) = true) by (destruct S; try exact H; congruence).
  apply existsb_exists in He. destruct He as (p & Hp & E). apply N.eqb_eq in E. subst id. apply in_map, Hp.
Qed.
Lemma emitted_type_ids_small m id : In id (map fst (WV.Proofs.IndexMaps.emitted_types m)) -> N.to_nat id < length (types_list m).
Proof.
  intros H. apply in_map_iff in H. destruct H as ([id' ty] & <- & H). cbn [fst].
  unfold WV.Proofs.IndexMaps.emitted_types in H. eapply Permutation_in in H; [|apply WV.Proofs.Order.sort_types_perm].
  apply filter_In in H. destruct H as [H _]. apply (aiter_In_nth (Arena.arena (m_types m))) in H.
  unfold types_list. rewrite map_length. apply nth_error_Some. congruence.
Qed.

Section Ranges.
  Variables (cf : config) (ver : str) (w : wmod) (s : pst) (ilen : wins -> N) (e : emitted) (m : cmod).
  Hypothesis V : valid_stream w.
  Hypothesis HP : parseM cf ver w = POk s.
  Hypothesis HE : emitM (ps_m s) ilen [] = Ok e.
  Hypothesis HM : stream_has_cmod w m.
  (* the "no such index" marker 2^32 - 1 of the parse-time maps is not an id: fewer than 2^32 - 1 types / functions / globals *)
  Hypothesis SMALL : (N.of_nat (length (types_list (ps_m s))) <= 4294967295)%N.
  Hypothesis SMALLF : (N.of_nat (n_in s S_func) <= 4294967295)%N.
  Hypothesis SMALLG : (N.of_nat (n_in s S_global) <= 4294967295)%N.

  (* an index, of any space but the locals, that an operator of the live part of a body mentions is resolved by the parser to an
     id that is emitted *)
  Lemma live_ref_emitted S i ti ls body o idx : S <> S_local -> nth_error (cm_funcs m) i = Some (ti, ls, body) ->
    In o (ops_of (live body)) -> In (S, idx) (wop_refs o) ->
    In (nth (N.to_nat idx) (ids_space (ps_ids s) S) 4294967295%N) (emitted_ids e S).
  Proof.
    intros HS Hd Ho Hr.
    destruct (fn_trip_at cf ver w s ilen e m HP HE HM i ti ls body Hd) as (b & eloc & _ & _ & T). fn_trip T.
    pose proof (log_has_live_refs S (cx_of s (N.of_nat i)) lf ety (ty_results t) body eloc evs
                  (end_WF cf ver w s m V HP HM i _ Hd) Hpb Hen Hlog o idx Ho Hr) as HL.
    cbn [cx_of px_i2id] in HL. rewrite (i2id_space s _ S idx HS) in HL.
    exact (refs_ok_in _ _ _ _ _ HS Hrefs HL).
  Qed.

  (* ... hence in range: past the end the parser resolves it to the marker, which is not an id *)
  Lemma live_ref_range S i ti ls body o idx : S <> S_type -> S <> S_local -> (N.of_nat (n_in s S) <= 4294967295)%N ->
    nth_error (cm_funcs m) i = Some (ti, ls, body) -> In o (ops_of (live body)) -> In (S, idx) (wop_refs o) -> N.to_nat idx < n_in s S.
  Proof.
    intros HT HL SM Hd Ho Hr. pose proof (live_ref_emitted S i ti ls body o idx HL Hd Ho Hr) as Hin.
    apply (emitted_full _ _ _ _ _ _ _ HP HE S _ HT HL) in Hin.
    destruct (Nat.lt_ge_cases (N.to_nat idx) (n_in s S)) as [C|C]; [exact C|exfalso].
    rewrite nth_overflow in Hin by (unfold n_in in C; exact C). clear - Hin SM. lia.
  Qed.

  (* the index ranges of global.get/set, call, and the TYPE index of call_indirect, for the operators of the live part of every body *)
  Theorem end_OPS_ranges : forall i d o, nth_error (cm_funcs m) i = Some d -> In o (ops_of (live (fd_body d))) ->
    (forall g, global_index_of o = Some g -> N.to_nat g < n_in s S_global) /\
    (forall f, o = W_Call f -> N.to_nat f < n_in s S_func) /\
    (forall ti tb, o = W_CallIndirect ti tb -> N.to_nat ti < n_in s S_type).
  Proof.
    intros i [[ti0 ls] body] o Hd Ho. cbn [fd_body snd] in Ho. split; [|split].
    - intros g Hg. apply (live_ref_range S_global i ti0 ls body o g ltac:(discriminate) ltac:(discriminate) SMALLG Hd Ho).
      destruct (index_in_refs o) as (_ & R & _). rewrite Hg in R. exact R.
    - intros f ->. apply (live_ref_range S_func i ti0 ls body _ f ltac:(discriminate) ltac:(discriminate) SMALLF Hd Ho). left. reflexivity.
    - intros ti tb ->.
      pose proof (live_ref_emitted S_type i ti0 ls body _ ti ltac:(discriminate) Hd Ho (or_introl eq_refl)) as Hin.
      unfold n_in. cbn [ids_space] in Hin |- *.
      destruct (Nat.lt_ge_cases (N.to_nat ti) (length (ii_types (ps_ids s)))) as [C|C]; [exact C|exfalso].
      rewrite nth_overflow in Hin by exact C. unfold emitted_ids in Hin. cbn [space_map] in Hin.
      destruct (emit_order_types _ _ _ _ HE) as [Eo _]. rewrite Eo in Hin. apply emitted_type_ids_small in Hin. lia.
  Qed.
End Ranges.

(* what is STILL asked of the operators of the live part of a body: 32-bit memory offsets (the finding), the memory index of the memory
   instructions and the TABLE index of call_indirect in range ([live_ref_range] gives these two as well, from a bound on the number of
   memories / tables like [SMALLF] and [SMALLG]; the theorem below does not use it) *)
Definition op_ok_end3 (s : pst) (o : wop) : Prop :=
  offset_ok o = true /\
  (forall i, memory_index_of o = Some i -> N.to_nat i < n_in s S_memory) /\
  (forall ti tb, o = W_CallIndirect ti tb -> N.to_nat tb < n_in s S_table).

Theorem sem_roundtrip_end_to_end_3 :
  forall (cf : config) (ver : str) (w : wmod) (s : pst) (ilen : wins -> N) (e : emitted) (m : cmod),
    valid_stream w -> parseM cf ver w = POk s -> emitM (ps_m s) ilen [] = Ok e -> stream_has_cmod w m ->
    WV.Proofs.ModFix40.locals_in_range w ->
    (N.of_nat (length (types_list (ps_m s))) <= 4294967295)%N ->
    (N.of_nat (n_in s S_func) <= 4294967295)%N -> (N.of_nat (n_in s S_global) <= 4294967295)%N ->
    (forall i d o, nth_error (cm_funcs m) i = Some d -> In o (ops_of (live (fd_body d))) -> op_ok_end3 s o) ->
    let m' := out_cmod s e ilen m in
    let E := env_of m (fun _ => idN) idN idN idN idN in
    let E' := env_of m' (lslot_end s e) (fslot_of (em_x2i e)) idN idN idN in
    stream_has_cmod_ops (em_secs e) m' /\
    forall k fuel f args s0, run_mod E' k fuel f args s0 = run_mod E k fuel f args s0.
Proof.
  intros cf ver w s ilen e m V HP HE HM LR SMALL SMF SMG OPS m' E E'.
  assert (OPS2 : forall i d o, nth_error (cm_funcs m) i = Some d -> In o (ops_of (live (fd_body d))) -> op_ok_end2 s o).
  { intros i d o Hd Ho. destruct (OPS i d o Hd Ho) as (O1 & O2 & O3).
    destruct (end_OPS_ranges cf ver w s ilen e m V HP HE HM SMALL SMF SMG i d o Hd Ho) as (R1 & R2 & R3).
    split; [exact O1|]. split; [exact R1|]. split; [exact O2|]. split; [exact R2|].
    intros ti tb Eo. split; [exact (R3 ti tb Eo)|exact (O3 ti tb Eo)]. }
  destruct (sem_roundtrip_end_to_end_2 cf ver w s ilen e m V HP HE HM LR SMALL OPS2)
    as (m2 & rf & -> & -> & H1 & _ & _ & _ & _ & _ & _ & _ & H).
  split; [exact H1|exact H].
Qed.

Module ExEnd3.
  Import ExEnd ExEnd2.
  Theorem ex_end_to_end_3 :
    let E := env_of m0 (fun _ => idN) idN idN idN idN in
    let E' := env_of (out_cmod s0 e0 il m0) (lslot_end s0 e0) (fslot_of (em_x2i e0)) idN idN idN in
    stream_has_cmod_ops (em_secs e0) (out_cmod s0 e0 il m0) /\
    forall k fuel f args st, run_mod E' k fuel f args st = run_mod E k fuel f args st.
  Proof.
    apply (sem_roundtrip_end_to_end_3 default_config [49%N] w0 s0 il e0 m0 ex_valid ex_parse ex_emit in_relation ex_locals_in_range ex_small).
    - vm_compute. discriminate.
    - vm_compute. discriminate.
    - intros i d o Hd Ho. destruct (ex_ops i d o Hd Ho) as (O1 & _ & O3 & _ & O5).
      split; [exact O1|]. split; [exact O3|]. intros ti tb Eo. exact (proj2 (O5 ti tb Eo)).
  Qed.
End ExEnd3.

Print Assumptions flat_list_inj.
Print Assumptions end_WF.
Print Assumptions end_OPS_dec.
Print Assumptions wfl_ops_dec.
Print Assumptions log_has_live_locals.
Print Assumptions end_LOCALS.
Print Assumptions sem_roundtrip_end_to_end_2.
Print Assumptions ExEnd2.ex_end_to_end.
Print Assumptions ExBad.end_LOCALS_refuted_without_range.
Print Assumptions ExBad.sem_roundtrip_refuted_without_range.
Print Assumptions log_has_live_refs.
Print Assumptions end_OPS_ranges.
Print Assumptions sem_roundtrip_end_to_end_3.
Print Assumptions ExEnd3.ex_end_to_end_3.
