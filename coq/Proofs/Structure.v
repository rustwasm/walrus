(* Module-level structure is preserved by parse ; emit (no pass in between): the attribute round trips of the
   generated plumbing (Gen/Attrs.v), then, per section kind, what the payloads contribute to the module
   ([parse_sec_X], summed over the stream by [parse_secs_app]) and what the emitter writes for it. *)
From Coq Require Import List NArith ZArith Bool Arith Lia.
Import ListNotations.
From WV Require Import Gen.Ops Model.Common Model.IR Model.Arena Model.Traversal Model.EmitFn Model.Locals
                       Model.ParseFn Model.ModuleM Model.ParseM Model.EmitM Gen.Attrs.
From WV Require Import Proofs.Arena Proofs.Order Proofs.IndexMaps.
Local Open Scope nat_scope.

Theorem attr_table_local_rt : forall t, gen_emit_table_local (gen_parse_table_local t) = t.
Proof. intros []; reflexivity. Qed.
Theorem attr_table_import_rt : forall t imp, gen_emit_table_import (gen_parse_table_import t imp) = t.
Proof. intros [] imp; reflexivity. Qed.
Theorem attr_memory_local_rt : forall t, gen_emit_memory_local (gen_parse_memory_local t) = t.
Proof. intros []; reflexivity. Qed.
Theorem attr_memory_import_rt : forall t imp, gen_emit_memory_import (gen_parse_memory_import t imp) = t.
Proof. intros [] imp; reflexivity. Qed.
Theorem attr_global_local_rt : forall g init, gen_emit_global_local (gen_parse_global_local g init) = g.
Proof. intros [] init; reflexivity. Qed.
Theorem attr_global_import_rt : forall g imp, gen_emit_global_import (gen_parse_global_import g imp) = g.
Proof. intros [] imp; reflexivity. Qed.
(* the bookkeeping fields the parsers add *)
Lemma attr_table_import_flag t imp : tb_import (gen_parse_table_import t imp) = Some imp. Proof. reflexivity. Qed.
Lemma attr_table_local_flag t : tb_import (gen_parse_table_local t) = None. Proof. reflexivity. Qed.
Lemma attr_memory_import_flag t imp : me_import (gen_parse_memory_import t imp) = Some imp. Proof. reflexivity. Qed.
Lemma attr_memory_local_flag t : me_import (gen_parse_memory_local t) = None. Proof. reflexivity. Qed.
Lemma attr_global_import_kind g imp : gl_kind (gen_parse_global_import g imp) = GK_Import imp. Proof. reflexivity. Qed.
Lemma attr_global_local_kind g c : gl_kind (gen_parse_global_local g c) = GK_Local c. Proof. reflexivity. Qed.
(* the import and local emitters read the same attributes *)
Lemma attr_table_emit_same t : gen_emit_table_import t = gen_emit_table_local t. Proof. reflexivity. Qed.
Lemma attr_memory_emit_same t : gen_emit_memory_import t = gen_emit_memory_local t. Proof. reflexivity. Qed.
Lemma attr_global_emit_same t : gen_emit_global_import t = gen_emit_global_local t. Proof. reflexivity. Qed.

Lemma upd_map {A B} (g : A -> B) (f : A -> A) : (forall x, g (f x) = g x) ->
  forall (l : list A) n, map g (Arena.upd l n f) = map g l.
Proof.
  intros H. induction l as [|x r IH]; intros n; [destruct n; reflexivity|].
  destruct n; cbn [Arena.upd map]; [rewrite H; reflexivity|rewrite IH; reflexivity].
Qed.

Lemma aiter_nodead_snd {A} (a : tarena A) : dead a = [] -> map snd (aiter a) = items a.
Proof.
  intros D. unfold aiter, iter. rewrite D. generalize 0 as n. induction (items a) as [|x r IH]; intros n; [reflexivity|].
  cbn [iter_from existsb map snd]. rewrite IH. reflexivity.
Qed.
Lemma aiter_nodead_fst {A} (a : tarena A) : dead a = [] -> map fst (aiter a) = iota (length (items a)).
Proof.
  intros D. unfold aiter, iter, iota. rewrite D. generalize 0 as n. induction (items a) as [|x r IH]; intros n; [reflexivity|].
  cbn [iter_from existsb map fst length seq]. rewrite IH. reflexivity.
Qed.
Lemma aget_nodead {A} (a : tarena A) id : dead a = [] -> aget a id = nth_error (items a) (N.to_nat id).
Proof. intros D. unfold aget, index, get, is_dead. rewrite D. reflexivity. Qed.

Definition sec_tag (s : wsec) : option nat :=
  match s with
  | S_Types _ => Some 0 | S_Imports _ => Some 1 | S_Funcs _ => Some 2 | S_Tables _ => Some 3 | S_Mems _ => Some 4
  | S_Globals _ => Some 5 | S_Exports _ => Some 6 | S_Start _ => Some 7 | S_Elems _ => Some 8 | S_DataCount _ => Some 9
  | S_Code _ => Some 10 | S_Data _ => Some 11 | S_Custom _ => None
  end.
Definition has_tag (t : nat) (s : wsec) : bool := match sec_tag s with Some u => Nat.eqb u t | None => false end.
Definition tag_count (t : nat) (w : list wsec) : nat := length (filter (has_tag t) w).
(* each standard section at most once (custom sections are unconstrained, no order is required) *)
Definition once (t : nat) (w : list wsec) : Prop := tag_count t w <= 1.
Definition stream_wf (w : list wsec) : bool := forallb (fun t => tag_count t w <=? 1) (seq 0 12).
Lemma stream_wf_once w t : stream_wf w = true -> t < 12 -> once t w.
Proof.
  unfold stream_wf, once. rewrite forallb_forall. intros H Ht. apply Nat.leb_le, H, in_seq. lia.
Qed.

(* a per-section contribution that only sections with tag t make, summed over a stream in which
   that section occurs once, is the contribution of that section *)
Lemma once_flat_map {B} (f : wsec -> list B) t : (forall s, has_tag t s = false -> f s = []) ->
  forall w sec, once t w -> In sec w -> has_tag t sec = true -> flat_map f w = f sec.
Proof.
  intros Hf. unfold once, tag_count. induction w as [|x r IH]; intros sec Ho Hin Ht; [destruct Hin|].
  cbn [flat_map filter] in *. destruct (has_tag t x) eqn:Ex.
  - cbn [length] in Ho. assert (Hr : filter (has_tag t) r = []) by (destruct (filter (has_tag t) r); [reflexivity|cbn in Ho; lia]).
    assert (Hz : flat_map f r = []).
    { clear - Hf Hr. induction r as [|y r IH]; [reflexivity|]. cbn [filter flat_map] in *.
      destruct (has_tag t y) eqn:Ey; [discriminate|]. rewrite (Hf _ Ey), IH by exact Hr. reflexivity. }
    destruct Hin as [->|Hin]; [rewrite Hz, app_nil_r; reflexivity|].
    exfalso. assert (Hi : In sec (filter (has_tag t) r)) by (apply filter_In; auto). rewrite Hr in Hi. destruct Hi.
  - rewrite (Hf _ Ex). cbn [app]. destruct Hin as [->|Hin]; [congruence|]. apply IH; assumption.
Qed.

Lemma wf_flat_map {B} (f : wsec -> list B) t w sec : stream_wf w = true -> t < 12 ->
  (forall s, has_tag t s = false -> f s = []) -> In sec w -> has_tag t sec = true -> flat_map f w = f sec.
Proof. intros Hwf Ht Hf. exact (once_flat_map f t Hf w sec (stream_wf_once _ _ Hwf Ht)). Qed.
Lemma map_flat_map {A B C} (f : B -> C) (g : A -> list B) l : map f (flat_map g l) = flat_map (fun x => map f (g x)) l.
Proof. induction l as [|x r IH]; cbn [flat_map map]; [reflexivity|]. rewrite map_app, IH. reflexivity. Qed.

(* the state after a list of payloads, by induction on the payloads taken so far; the index maps stay consistent *)
Lemma parse_secs_ind (J : pst -> list wsec -> Prop) :
  (forall s sec s' l, ids_consistent (ps_m s) (ps_ids s) -> J s l -> parse_sec s sec = POk s' -> J s' (l ++ [sec])) ->
  forall w s s' l, ids_consistent (ps_m s) (ps_ids s) -> J s l -> parse_secs s w = POk s' -> J s' (l ++ w).
Proof.
  intros H. induction w as [|sec r IH]; intros s s' l Hi Hs E; cbn [parse_secs] in E.
  - injection E as <-. rewrite app_nil_r. exact Hs.
  - pinv E as s1 E1. replace (l ++ sec :: r) with ((l ++ [sec]) ++ r) by (rewrite <- app_assoc; reflexivity).
    exact (IH _ _ _ (parse_sec_idc _ _ _ Hi E1) (H _ _ _ _ Hi Hs E1) E).
Qed.
(* a list that every payload extends by its contribution *)
Lemma parse_secs_app {B} (K : wir -> list B) (c : wsec -> list B) :
  (forall s sec s', ids_consistent (ps_m s) (ps_ids s) -> parse_sec s sec = POk s' -> K (ps_m s') = K (ps_m s) ++ c sec) ->
  forall w s s', ids_consistent (ps_m s) (ps_ids s) -> parse_secs s w = POk s' -> K (ps_m s') = K (ps_m s) ++ flat_map c w.
Proof.
  intros H w s s' Hs E.
  refine (parse_secs_ind (fun s1 l => K (ps_m s1) = K (ps_m s) ++ flat_map c l) _ w s s' [] Hs (eq_sym (app_nil_r _)) E).
  intros s1 sec s2 l I1 K1 E1. rewrite (H _ _ _ I1 E1), K1, flat_map_app, <- app_assoc. cbn [flat_map]. rewrite app_nil_r. reflexivity.
Qed.

Definition F9 (m : wir) :=
  (m_imports m, m_tables m, m_funcs m, m_globals m, m_exports m, m_memories m, m_data m, m_elements m, m_start m).
Ltac f9 H := unfold F9 in H; wcbn; injection H; intros.

Definition isS {A} (o : option A) : bool := match o with Some _ => true | None => false end.
Definition tcore (t : mtable) : wtable * bool := (gen_emit_table_local t, isS (tb_import t)).
Definition mcore (t : mmem) : wmem * bool := (gen_emit_memory_local t, isS (me_import t)).
Definition K_tables (m : wir) := map tcore (items (m_tables m)).
Definition K_mems (m : wir) := map mcore (items (m_memories m)).

Definition imp_tables_w (l : list wimport) : list wtable :=
  flat_map (fun i => match wi_kind i with WI_Table t => [t] | _ => [] end) l.
Definition imp_mems_w (l : list wimport) : list wmem :=
  flat_map (fun i => match wi_kind i with WI_Mem t => [t] | _ => [] end) l.
(* what a payload contributes to the table / memory index space: (attributes, is-import) *)
Definition sec_tables (sec : wsec) : list (wtable * bool) :=
  match sec with
  | S_Tables l => map (fun t => (t, false)) l
  | S_Imports l => map (fun t => (t, true)) (imp_tables_w l)
  | _ => [] end.
Definition sec_mems (sec : wsec) : list (wmem * bool) :=
  match sec with
  | S_Mems l => map (fun t => (t, false)) l
  | S_Imports l => map (fun t => (t, true)) (imp_mems_w l)
  | _ => [] end.

Lemma tcore_imp_tables : forall l base, map tcore (imp_tables base l) = map (fun t => (t, true)) (imp_tables_w l).
Proof.
  induction l as [|i r IH]; intros base; [reflexivity|]. cbn [imp_tables imp_tables_w flat_map].
  fold (imp_tables_w r). rewrite !map_app, IH. f_equal. destruct (wi_kind i); try reflexivity.
  cbn [map]. unfold tcore. rewrite attr_table_local_flag || idtac. destruct t; reflexivity.
Qed.
Lemma mcore_imp_mems : forall l base, map mcore (imp_mems base l) = map (fun t => (t, true)) (imp_mems_w l).
Proof.
  induction l as [|i r IH]; intros base; [reflexivity|]. cbn [imp_mems imp_mems_w flat_map].
  fold (imp_mems_w r). rewrite !map_app, IH. f_equal. destruct (wi_kind i); try reflexivity.
  cbn [map]. unfold mcore. destruct m; reflexivity.
Qed.
Lemma tcore_local : forall l, map tcore (map gen_parse_table_local l) = map (fun t => (t, false)) l.
Proof. intros l. rewrite map_map. apply map_ext. intros []; reflexivity. Qed.
Lemma mcore_local : forall l, map mcore (map gen_parse_memory_local l) = map (fun t => (t, false)) l.
Proof. intros l. rewrite map_map. apply map_ext. intros []; reflexivity. Qed.

(* element segments register themselves in the table (tb_segs), data segments in the memory (me_segs) *)
Lemma parse_elem_step m ids e m1 ids1 : parse_elem m ids e = POk (m1, ids1) ->
  F9 m1 = F9 (set_elements (set_tables m (m_tables m1)) (m_elements m1)) /\ K_tables m1 = K_tables m.
Proof.
  intros Ex. unfold parse_elem in Ex. pinv Ex as its Eits. pinv Ex as mk Emk. destruct mk as [m2 kind].
  wcbn. inversion Ex; subst; clear Ex. unfold K_tables. wcbn.
  destruct (wel_kind e).
  - inversion Emk; subst; split; reflexivity.
  - inversion Emk; subst; split; reflexivity.
  - pinv Emk as tid Etid. pinv Emk as tb Etb. pinv Emk as o Eo. pinv Emk as ok Eok. destruct ok; [|discriminate].
    inversion Emk; subst; clear Emk. wcbn. split; [reflexivity|]. apply upd_map. intros x. reflexivity.
Qed.
Lemma parse_elems_step : forall l m ids m' ids', parse_elems m ids l = POk (m', ids') -> K_tables m' = K_tables m.
Proof.
  induction l as [|e r IH]; intros m ids m' ids' E; cbn [parse_elems] in E; [injection E as <- _; reflexivity|].
  pinv E as x Ex. destruct x as [m1 ids1]. rewrite (IH _ _ _ _ E). exact (proj2 (parse_elem_step _ _ _ _ _ Ex)).
Qed.
Lemma parse_data_from_step : forall l m ids pre i m' ids', parse_data_from m ids pre i l = POk (m', ids') -> K_mems m' = K_mems m.
Proof.
  induction l as [|d r IH]; intros m ids pre i m' ids' E; cbn [parse_data_from] in E; [injection E as <- _; reflexivity|].
  pinv E as x Ex. destruct x as [[m1 ids1] id]. pinv E as y Ey. destruct y as [m2 kind]. pinv E as u Eu.
  rewrite (IH _ _ _ _ _ _ E). clear IH E Eu. unfold K_mems. wcbn.
  assert (H1 : m_memories m1 = m_memories m).
  { destruct pre; [pinv Ex as z Ez|wcbn]; injection Ex as <- _ _; reflexivity. }
  rewrite <- H1. destruct (wd_kind d); [injection Ey as <- _; reflexivity|].
  pinv Ey as mid Emid. pinv Ey as mm Emm. pinv Ey as o Eo. pinv Ey as ok Eok. destruct ok; [|discriminate].
  injection Ey as <- _. wcbn. apply upd_map. intros x. reflexivity.
Qed.

(* in each of the proofs by payload below, the payloads that do not write the field in question are disposed of
   by [parse_sec_writes]; what is left are the payloads that do *)
Lemma parse_sec_TM s sec s' : parse_sec s sec = POk s' ->
  K_tables (ps_m s') = K_tables (ps_m s) ++ sec_tables sec /\ K_mems (ps_m s') = K_mems (ps_m s) ++ sec_mems sec.
Proof.
  intros E. pose proof (parse_sec_writes _ _ _ E) as W.
  destruct sec; cbn [sec_tables sec_mems]; rewrite ?app_nil_r; try (rewrite W; split; reflexivity);
    cbn [parse_sec] in E.
  - pinv E as x Ex. destruct x as [m1 i1]. injection E as <-. wcbn.
    apply parse_imports_spec in Ex. cbv zeta in Ex. destruct Ex as (X1 & X2 & _).
    unfold K_tables, K_mems. rewrite X1, X2, !map_app, tcore_imp_tables, mcore_imp_mems. auto.
  - split; [|rewrite W; reflexivity]. destruct (parse_tables _ _ _) as [m1 i1] eqn:Ep. injection E as <-. wcbn.
    unfold K_tables. rewrite (parse_tables_spec _ _ _ _ _ Ep), map_app, tcore_local. reflexivity.
  - split; [rewrite W; reflexivity|]. destruct (parse_mems _ _ _) as [m1 i1] eqn:Ep. injection E as <-. wcbn.
    unfold K_mems. rewrite (parse_mems_spec _ _ _ _ _ Ep), map_app, mcore_local. reflexivity.
  - split; [|rewrite W; reflexivity]. pinv E as x Ex. destruct x as [m1 i1]. injection E as <-. wcbn.
    exact (parse_elems_step _ _ _ _ _ Ex).
  - split; [rewrite W; reflexivity|]. pinv E as x Ex. destruct x as [m1 i1]. injection E as <-. wcbn.
    exact (parse_data_from_step _ _ _ _ _ _ _ Ex).
Qed.

Definition gcore (g : mglobal) : wglobalty * option mconst :=
  (gen_emit_global_local g, match gl_kind g with GK_Import _ => None | GK_Local c => Some c end).
Definition ecore (e : melem) : melemkind * melemitems := (el_kind e, el_items e).
Definition dcore (d : mdata) : mdatakind * list N := (da_kind d, da_value d).
Definition K_globals (m : wir) := map gcore (items (m_globals m)).
Definition K_elems (m : wir) := map ecore (items (m_elements m)).
Definition K_data (m : wir) := map dcore (items (m_data m)).
Definition K_funcs (m : wir) := map fn_kind (items (m_funcs m)).
(* everything structural except the function kinds (bodies are installed after the loop) *)
Definition KK (m : wir) :=
  (m_imports m, m_exports m, m_start m, K_tables m, K_mems m, K_globals m, K_elems m, K_data m).

Lemma F9_KK0 m m' : F9 m' = F9 m -> KK m' = KK m /\ K_funcs m' = K_funcs m.
Proof.
  intros H. f9 H. unfold KK, K_tables, K_mems, K_globals, K_elems, K_data, K_funcs. split; congruence.
Qed.

(* preparing the bodies writes locals and types only, and leaves the type index vector alone *)
Lemma prepare_frame a b : reach_by (fun st => phase_of st = Prepare) a b ->
  F9 (fst b) = F9 (fst a) /\ ii_types (snd b) = ii_types (snd a).
Proof.
  intros R. split; [revert a b R; apply (reach_by_keeps F9); intros st Hq x y|revert a b R; apply (reach_by_ids ii_types); intros st x y Hq];
    destruct st; try discriminate Hq; reflexivity.
Qed.
Lemma prepare_bodies_F9 bs m ids ni i m' ids' ps : prepare_bodies m ids ni i bs = POk (m', ids', ps) -> F9 m' = F9 m.
Proof. intros E. exact (proj1 (prepare_frame _ _ (prepare_bodies_by _ _ _ _ _ _ _ _ E))). Qed.
Lemma apply_names_map {A B} (g : A -> B) (setn : A -> ModuleM.str -> A) (idx : list N) :
  (forall x n, g (setn x n) = g x) -> forall (l : namemap) (a : tarena A), map g (items (apply_names a idx setn l)) = map g (items a).
Proof.
  intros H. induction l as [|[i n] r IH]; intros a; cbn [apply_names]; [reflexivity|].
  destruct (nth_N idx i); [|apply IH]. rewrite IH. wcbn. apply upd_map. intros x. apply H.
Qed.
Lemma parse_names_KK m ids n : KK (parse_names m ids n) = KK m /\ K_funcs (parse_names m ids n) = K_funcs m.
Proof.
  unfold parse_names. cbv zeta. wcbn.
  set (m0 := match wn_module n with Some s => set_name m (Some s) | None => m end).
  assert (E0 : F9 m0 = F9 m) by (subst m0; destruct (wn_module n); reflexivity).
  destruct (F9_KK0 _ _ E0) as [<- <-]. clearbody m0.
  destruct (apply_local_names _ ids (wn_locals n)) as [m3|] eqn:E3; [apply apply_local_names_writes in E3; rewrite E3|];
    unfold KK, K_funcs, K_tables, K_mems, K_globals, K_elems, K_data; wcbn;
    rewrite ?apply_names_map by (intros; reflexivity); split; reflexivity.
Qed.

Definition pst0 (cf : config) : pst :=
  {| ps_m := empty_wir cf; ps_ids := empty_i2ids; ps_bodies := []; ps_names := []; ps_calls_on_parse := 0 |}.

(* parseM = the payload loop, then passes that leave the structural part alone *)
Theorem parseM_KK : forall cf ver w s, parseM cf ver w = POk s ->
  exists s1, parse_secs (pst0 cf) w = POk s1 /\ KK (ps_m s) = KK (ps_m s1).
Proof.
  intros cf ver w s E. unfold parseM in E. fold (pst0 cf) in E. pinv E as s1 E1. exists s1. split; [exact E1|].
  destruct (_ <? _)%N; [discriminate|].
  pinv E as x Ex. destruct x as [[m1 ids1] prepared]. pinv E as m2 E2. inversion E; subst; clear E. wcbn.
  apply prepare_bodies_F9, F9_KK0 in Ex. destruct Ex as [Ex _].
  assert (K2 : KK m2 = KK m1).
  { apply (run_steps_keeps KK (map St_body prepared)) with ids1 ids1; [apply Forall_map_all; intros p a b; reflexivity|].
    rewrite install_bodies_steps, E2. reflexivity. }
  rewrite <- Ex, <- K2. clear.
  assert (H : forall l m, KK (fold_left (fun m n => parse_names m ids1 n) l m) = KK m).
  { induction l as [|n r IH]; intros m; cbn [fold_left]; [reflexivity|]. rewrite IH. apply parse_names_KK. }
  rewrite <- (H (ps_names s1) m2). reflexivity.
Qed.

Corollary parseM_tables : forall cf ver w s, parseM cf ver w = POk s ->
  K_tables (ps_m s) = flat_map sec_tables w /\ K_mems (ps_m s) = flat_map sec_mems w.
Proof.
  intros cf ver w s E. destruct (parseM_KK _ _ _ _ E) as [s1 [E1 EK]].
  pose proof (parse_secs_app K_tables sec_tables (fun s0 sec s' _ E0 => proj1 (parse_sec_TM s0 sec s' E0)) w (pst0 cf) s1 (idc_empty cf) E1) as A1.
  pose proof (parse_secs_app K_mems sec_mems (fun s0 sec s' _ E0 => proj2 (parse_sec_TM s0 sec s' E0)) w (pst0 cf) s1 (idc_empty cf) E1) as A2.
  unfold KK in EK. injection EK; intros.
  change (K_tables (ps_m (pst0 cf))) with (@nil (wtable * bool)) in A1.
  change (K_mems (ps_m (pst0 cf))) with (@nil (wmem * bool)) in A2. cbn [app] in A1, A2. split; congruence.
Qed.

(* the emitters after the global section do not touch the func/table/memory/global/type maps *)
Lemma emitM_late_maps m x6 s_el x9 s_dc x10 ilen s_co x11 efs :
  emit_elements m x6 = Ok (s_el, x9) -> emit_data_count m x9 = Ok (s_dc, x10) -> emit_code m x10 ilen = Ok (s_co, x11, efs) ->
  forall S, S <> S_elem -> S <> S_data -> space_map x11 S = space_map x6 S.
Proof.
  intros E9 E10 E11 S H1 H2. rewrite (emit_code_x _ _ _ _ _ _ E11).
  apply emit_data_count_x in E10. apply emit_elements_x in E9. subst x9.
  rewrite E10. destruct (aiter (m_data m)).
  - apply push_all_other. congruence.
  - rewrite space_map_set_other by congruence. apply push_all_other. congruence.
Qed.

Definition tables_of (sec : wsec) : list wtable := match sec with S_Tables l => l | _ => [] end.
Definition mems_of (sec : wsec) : list wmem := match sec with S_Mems l => l | _ => [] end.

Lemma locals_of_tagged {W} (l : list W) : map fst (filter (fun c => negb (snd c)) (map (fun t => (t, false)) l)) = l.
Proof. induction l as [|x r IH]; [reflexivity|]. cbn. rewrite IH. reflexivity. Qed.
Lemma imports_of_tagged {W} (l : list W) : map fst (filter (fun c => negb (snd c)) (map (fun t => (t, true)) l)) = [].
Proof. induction l as [|x r IH]; [reflexivity|]. cbn. exact IH. Qed.

Lemma local_sec_tables : forall w, map fst (filter (fun c => negb (snd c)) (flat_map sec_tables w)) = flat_map tables_of w.
Proof.
  induction w as [|x r IH]; [reflexivity|]. cbn [flat_map]. rewrite filter_app, map_app, IH. f_equal.
  destruct x; try reflexivity; cbn [sec_tables tables_of]; [apply imports_of_tagged|apply locals_of_tagged].
Qed.
Lemma local_sec_mems : forall w, map fst (filter (fun c => negb (snd c)) (flat_map sec_mems w)) = flat_map mems_of w.
Proof.
  induction w as [|x r IH]; [reflexivity|]. cbn [flat_map]. rewrite filter_app, map_app, IH. f_equal.
  destruct x; try reflexivity; cbn [sec_mems mems_of]; [apply imports_of_tagged|apply locals_of_tagged].
Qed.

Lemma local_tables_core m : dead (m_tables m) = [] ->
  map (fun p => gen_emit_table_local (snd p)) (local_tables m) = map fst (filter (fun c => negb (snd c)) (K_tables m)).
Proof.
  intros D. unfold local_tables, K_tables. rewrite <- (aiter_nodead_snd _ D).
  induction (aiter (m_tables m)) as [|p r IH]; [reflexivity|]. cbn [filter map]. unfold tcore at 1. cbn [snd fst].
  destruct (tb_import (snd p)); cbn [isS negb map fst]; rewrite IH; reflexivity.
Qed.
Lemma local_memories_core m : dead (m_memories m) = [] ->
  map (fun p => gen_emit_memory_local (snd p)) (local_memories m) = map fst (filter (fun c => negb (snd c)) (K_mems m)).
Proof.
  intros D. unfold local_memories, K_mems. rewrite <- (aiter_nodead_snd _ D).
  induction (aiter (m_memories m)) as [|p r IH]; [reflexivity|]. cbn [filter map]. unfold mcore at 1. cbn [snd fst].
  destruct (me_import (snd p)); cbn [isS negb map fst]; rewrite IH; reflexivity.
Qed.

(* general form: the emitted table section is the concatenation of all input table sections
   (same attributes, same order); nothing from the import section leaks into it *)
Theorem structure_tables_gen : forall cf ver w s ilen dw e, parseM cf ver w = POk s -> emitM (ps_m s) ilen dw = Ok e ->
  flat_map tables_of w <> [] -> In (S_Tables (flat_map tables_of w)) (em_secs e).
Proof.
  intros cf ver w s ilen dw e Hp He Hne.
  pose proof (parseM_ids _ _ _ _ Hp) as Hid. destruct (parseM_tables _ _ _ _ Hp) as [HT _].
  emitM_parts He.
  rewrite Esecs. rewrite emit_tables_entries.
  assert (D : dead (m_tables (ps_m s)) = []) by (unfold ids_consistent in Hid; tauto).
  pose proof (local_tables_core _ D) as L. rewrite HT, local_sec_tables in L.
  destruct (local_tables (ps_m s)) as [|p r] eqn:El; [cbn in L; congruence|].
  rewrite L. do 3 (apply in_or_app; right). apply in_or_app. left. left. reflexivity.
Qed.
Theorem structure_mems_gen : forall cf ver w s ilen dw e, parseM cf ver w = POk s -> emitM (ps_m s) ilen dw = Ok e ->
  flat_map mems_of w <> [] -> In (S_Mems (flat_map mems_of w)) (em_secs e).
Proof.
  intros cf ver w s ilen dw e Hp He Hne.
  pose proof (parseM_ids _ _ _ _ Hp) as Hid. destruct (parseM_tables _ _ _ _ Hp) as [_ HT].
  emitM_parts He.
  rewrite Esecs. rewrite emit_memories_entries.
  assert (D : dead (m_memories (ps_m s)) = []) by (unfold ids_consistent in Hid; tauto).
  pose proof (local_memories_core _ D) as L. rewrite HT, local_sec_mems in L.
  destruct (local_memories (ps_m s)) as [|p r] eqn:El; [cbn in L; congruence|].
  rewrite L. do 4 (apply in_or_app; right). apply in_or_app. left. left. reflexivity.
Qed.

Theorem structure_tables : forall cf ver w s ilen dw e l, parseM cf ver w = POk s -> emitM (ps_m s) ilen dw = Ok e ->
  stream_wf w = true -> In (S_Tables l) w -> l <> [] -> In (S_Tables l) (em_secs e).
Proof.
  intros cf ver w s ilen dw e l Hp He Hwf Hin Hne.
  assert (E : flat_map tables_of w = l).
  { apply (wf_flat_map tables_of 3 w (S_Tables l) Hwf); [lia| |exact Hin|reflexivity]. intros [] Hs; (reflexivity || discriminate). }
  rewrite <- E in *. eapply structure_tables_gen; eauto.
Qed.
Theorem structure_mems : forall cf ver w s ilen dw e l, parseM cf ver w = POk s -> emitM (ps_m s) ilen dw = Ok e ->
  stream_wf w = true -> In (S_Mems l) w -> l <> [] -> In (S_Mems l) (em_secs e).
Proof.
  intros cf ver w s ilen dw e l Hp He Hwf Hin Hne.
  assert (E : flat_map mems_of w = l).
  { apply (wf_flat_map mems_of 4 w (S_Mems l) Hwf); [lia| |exact Hin|reflexivity]. intros [] Hs; (reflexivity || discriminate). }
  rewrite <- E in *. eapply structure_mems_gen; eauto.
Qed.

Definition ids_space (ids : i2ids) (S : space) : list N :=
  match S with S_func => ii_funcs ids | S_type => ii_types ids | S_table => ii_tables ids | S_memory => ii_memories ids
             | S_global => ii_globals ids | S_data => ii_data ids | S_elem => ii_elements ids | S_local => [] end.
(* rho S i = the emitted index of the entity that input index i of space S denotes *)
Definition rho (s : pst) (e : emitted) (S : space) (i : N) : res N :=
  match nth_error (ids_space (ps_ids s) S) (N.to_nat i) with Some id => get_idx (em_x2i e) S id | None => Panic end.

Lemma iota_nth_inv n k v : nth_error (iota n) k = Some v -> v = N.of_nat k /\ k < n.
Proof.
  intros H. assert (L : k < n) by (rewrite <- (iota_length n); apply nth_error_Some; congruence).
  rewrite iota_nth in H by exact L. split; [congruence|exact L].
Qed.
Lemma nth_N_iota n i v : nth_N (iota n) i = Some v -> v = i.
Proof. unfold nth_N. intros H. apply iota_nth_inv in H. destruct H as [H _]. rewrite N2Nat.id in H. exact H. Qed.

Lemma idc_space m ids S : ids_consistent m ids -> S <> S_type -> S <> S_local -> exists n, ids_space ids S = iota n.
Proof. intros H H1 H2. unfold ids_consistent in H. decompose [and] H. destruct S; cbn [ids_space]; try congruence; eauto. Qed.

(* outside the type space the parse-time id of input index i IS i (parseM_ids), so rho is just the
   emit-time map applied to the input index; the theorems below are stated with [get_idx (em_x2i e) S i] *)
Lemma rho_entity s e S i : ids_consistent (ps_m s) (ps_ids s) -> S <> S_type -> S <> S_local ->
  forall j, rho s e S i = Ok j -> get_idx (em_x2i e) S i = Ok j.
Proof.
  intros H H1 H2 j. unfold rho. destruct (idc_space _ _ S H H1 H2) as [n En]. rewrite En.
  destruct (nth_error (iota n) (N.to_nat i)) as [id|] eqn:E; [|discriminate].
  apply iota_nth_inv in E. destruct E as [E _]. rewrite N2Nat.id in E. subst id. auto.
Qed.
Lemma rho_entity_conv s e S i : ids_consistent (ps_m s) (ps_ids s) -> S <> S_type -> S <> S_local ->
  N.to_nat i < length (ids_space (ps_ids s) S) ->
  rho s e S i = get_idx (em_x2i e) S i.
Proof.
  intros H H1 H2 L. unfold rho. destruct (idc_space _ _ S H H1 H2) as [n En]. rewrite En in *.
  rewrite iota_length in L. rewrite iota_nth by exact L. rewrite N2Nat.id. reflexivity.
Qed.

Definition cst0 (c : wconst) : mconst :=
  match c with
  | WC_I32 z => MC_Value (V_I32 z) | WC_I64 z => MC_Value (V_I64 z) | WC_F32 b => MC_Value (V_F32 b)
  | WC_F64 b => MC_Value (V_F64 b) | WC_V128 b => MC_Value (V_V128 b) | WC_GlobalGet i => MC_Global i
  | WC_RefNull t => MC_RefNull t | WC_RefFunc i => MC_RefFunc i | WC_Other => MC_Value (V_I32 0%Z)
  end.
Lemma eval_const_cst0 ids c o : (exists n, ii_globals ids = iota n) -> (exists n, ii_funcs ids = iota n) ->
  eval_const ids c = POk o -> o = cst0 c.
Proof.
  intros [ng Hg] [nf Hf] E. destruct c; cbn [eval_const cst0] in *; try (inversion E; reflexivity).
  - pinv E as rg Erg. apply of_opt_err_ok in Erg. rewrite Hg in Erg. apply nth_N_iota in Erg. subst. inversion E; reflexivity.
  - pinv E as rg Erg. apply of_opt_err_ok in Erg. rewrite Hf in Erg. apply nth_N_iota in Erg. subst. inversion E; reflexivity.
Qed.
(* the emitted constant is the input constant with global.get / ref.func renamed by the emit-time maps *)
Definition ren_const (x : x2i) (c wc : wconst) : Prop :=
  match c with
  | WC_GlobalGet i => exists j, get_idx x S_global i = Ok j /\ wc = WC_GlobalGet j
  | WC_RefFunc i => exists j, get_idx x S_func i = Ok j /\ wc = WC_RefFunc j
  | WC_Other => True
  | _ => wc = c
  end.
Lemma emit_const_ren x c wc : emit_const x (cst0 c) = Ok wc -> ren_const x c wc.
Proof.
  destruct c; cbn [cst0 emit_const ren_const]; intros H; try (inversion H; reflexivity); try exact I.
  - destruct (get_idx x S_global i) as [j| |]; cbn in H; inversion H. eauto.
  - destruct (get_idx x S_func i) as [j| |]; cbn in H; inversion H. eauto.
Qed.
Lemma ren_const_maps x x' c wc : space_map x' S_global = space_map x S_global -> space_map x' S_func = space_map x S_func ->
  ren_const x c wc -> ren_const x' c wc.
Proof. intros H1 H2. unfold ren_const, get_idx. rewrite H1, H2. auto. Qed.

Definition imp_globals_w (l : list wimport) : list wglobalty :=
  flat_map (fun i => match wi_kind i with WI_Global t => [t] | _ => [] end) l.
Definition sec_globals (sec : wsec) : list (wglobalty * option mconst) :=
  match sec with
  | S_Globals l => map (fun gc_sweep => (fst gc_sweep, Some (cst0 (snd gc_sweep)))) l
  | S_Imports l => map (fun g => (g, None)) (imp_globals_w l)
  | _ => [] end.
Definition exp_of (e : wexport) : mexport := {| ex_name := we_name e; ex_kind := we_kind e; ex_item := we_index e |}.
Definition sec_exports (sec : wsec) : list mexport := match sec with S_Exports l => map exp_of l | _ => [] end.
Definition sec_start (sec : wsec) (o : option N) : option N := match sec with S_Start f => Some f | _ => o end.

Lemma gcore_imp_globals : forall l base, map gcore (imp_globals base l) = map (fun t => (t, None)) (imp_globals_w l).
Proof.
  induction l as [|i r IH]; intros base; [reflexivity|]. cbn [imp_globals imp_globals_w flat_map].
  fold (imp_globals_w r). rewrite !map_app, IH. f_equal. destruct (wi_kind i); try reflexivity.
  cbn [map]. unfold gcore. destruct g; reflexivity.
Qed.

Lemma parse_globals_spec : forall l m ids m' ids',
  ii_globals ids = iota (length (items (m_globals m))) -> (exists n, ii_funcs ids = iota n) ->
  parse_globals m ids l = POk (m', ids') ->
  K_globals m' = K_globals m ++ map (fun gc_sweep => (fst gc_sweep, Some (cst0 (snd gc_sweep)))) l.
Proof.
  induction l as [|[g c] r IH]; intros m ids m' ids' Hg Hf E; cbn [parse_globals] in E.
  - inversion E; subst. rewrite app_nil_r. reflexivity.
  - pinv E as init Ei. apply eval_const_cst0 in Ei; [|eauto|exact Hf]. subst init. wcbn. apply IH in E.
    + rewrite E. unfold K_globals. wcbn. rewrite map_app, <- app_assoc. cbn [map app fst snd]. do 2 f_equal.
      destruct g; reflexivity.
    + wcbn. rewrite Hg. unfold anext, next_id. rewrite app_length. cbn [length]. rewrite Nat.add_1_r, iota_S. reflexivity.
    + wcbn. exact Hf.
Qed.
Lemma parse_exports_spec : forall l m ids m', (forall k, exists n, ids_of_kind ids k = iota n) ->
  parse_exports m ids l = POk m' -> items (m_exports m') = items (m_exports m) ++ map exp_of l.
Proof.
  induction l as [|e r IH]; intros m ids m' Hk E; cbn [parse_exports] in E.
  - inversion E; subst. rewrite app_nil_r. reflexivity.
  - pinv E as item Ei. apply of_opt_err_ok in Ei. destruct (Hk (we_kind e)) as [n Hn]. rewrite Hn in Ei.
    apply nth_N_iota in Ei. subst item. wcbn. apply IH in E; [|exact Hk]. rewrite E. wcbn.
    rewrite <- app_assoc. reflexivity.
Qed.
Lemma idc_kinds m ids : ids_consistent m ids -> forall k, exists n, ids_of_kind ids k = iota n.
Proof. intros H k. unfold ids_consistent in H. decompose [and] H. destruct k; cbn [ids_of_kind]; eauto. Qed.

Lemma parse_sec_GES s sec s' : ids_consistent (ps_m s) (ps_ids s) -> parse_sec s sec = POk s' ->
  K_globals (ps_m s') = K_globals (ps_m s) ++ sec_globals sec /\
  items (m_exports (ps_m s')) = items (m_exports (ps_m s)) ++ sec_exports sec /\
  m_start (ps_m s') = sec_start sec (m_start (ps_m s)).
Proof.
  intros Hid E. pose proof (parse_sec_writes _ _ _ E) as W.
  destruct sec; cbn [sec_globals sec_exports sec_start]; rewrite ?app_nil_r; try (rewrite W; repeat split; reflexivity);
    cbn [parse_sec] in E.
  - split; [|rewrite W; split; reflexivity]. pinv E as x Ex. destruct x as [m1 i1]. injection E as <-. wcbn.
    apply parse_imports_spec in Ex. cbv zeta in Ex. destruct Ex as (_ & _ & X3 & _).
    unfold K_globals. rewrite X3, map_app, gcore_imp_globals. reflexivity.
  - split; [|rewrite W; split; reflexivity]. pinv E as x Ex. destruct x as [m1 i1]. injection E as <-. wcbn.
    unfold ids_consistent in Hid. decompose [and] Hid. eapply parse_globals_spec; eauto.
  - split; [rewrite W; reflexivity|]. split; [|rewrite W; reflexivity]. pinv E as x Ex. injection E as <-. wcbn.
    exact (parse_exports_spec _ _ _ _ (idc_kinds _ _ Hid) Ex).
  - split; [rewrite W; reflexivity|]. split; [rewrite W; reflexivity|]. pinv E as x Ex. injection E as <-. wcbn.
    apply of_opt_err_ok in Ex. unfold ids_consistent in Hid. decompose [and] Hid. rewrite H in Ex. apply nth_N_iota in Ex.
    subst. reflexivity.
Qed.

Corollary parseM_GES : forall cf ver w s, parseM cf ver w = POk s ->
  K_globals (ps_m s) = flat_map sec_globals w /\
  items (m_exports (ps_m s)) = flat_map sec_exports w /\
  m_start (ps_m s) = fold_left (fun o sec => sec_start sec o) w None.
Proof.
  intros cf ver w s E. destruct (parseM_KK _ _ _ _ E) as [s1 [E1 EK]].
  pose proof (parse_secs_app K_globals sec_globals (fun s0 sec s' I0 E0 => proj1 (parse_sec_GES s0 sec s' I0 E0)) w (pst0 cf) s1 (idc_empty cf) E1) as A1.
  pose proof (parse_secs_app (fun m => items (m_exports m)) sec_exports (fun s0 sec s' I0 E0 => proj1 (proj2 (parse_sec_GES s0 sec s' I0 E0)))
                w (pst0 cf) s1 (idc_empty cf) E1) as A2.
  assert (A3 : m_start (ps_m s1) = fold_left (fun o sec => sec_start sec o) w None).
  { refine (parse_secs_ind (fun s0 l => m_start (ps_m s0) = fold_left (fun o sec => sec_start sec o) l None)
              _ w (pst0 cf) s1 [] (idc_empty cf) eq_refl E1).
    intros s0 sec s' l I0 K0 E0. rewrite fold_left_app, <- K0. exact (proj2 (proj2 (parse_sec_GES _ _ _ I0 E0))). }
  unfold KK in EK. injection EK; intros. cbv beta in A2.
  change (K_globals (ps_m (pst0 cf))) with (@nil (wglobalty * option mconst)) in A1.
  change (items (m_exports (ps_m (pst0 cf)))) with (@nil mexport) in A2.
  cbn [app] in A1, A2. repeat split; congruence.
Qed.

Lemma Forall2_map_l {A B C} (f : A -> B) (R : B -> C -> Prop) : forall l l',
  Forall2 R (map f l) l' <-> Forall2 (fun a c => R (f a) c) l l'.
Proof.
  induction l as [|a r IH]; intros l'; split; intros H; cbn [map] in *; inversion H; subst; constructor; auto;
    apply IH; assumption.
Qed.
Lemma Forall2_impl {A B} (R R' : A -> B -> Prop) : (forall a b, R a b -> R' a b) -> forall l l', Forall2 R l l' -> Forall2 R' l l'.
Proof. intros H l l' F. induction F; constructor; auto. Qed.
Lemma Forall2_length {A B} (R : A -> B -> Prop) l l' : Forall2 R l l' -> length l = length l'.
Proof. induction 1; cbn; congruence. Qed.

Lemma no_tag_start : forall w o, filter (has_tag 7) w = [] -> fold_left (fun o sec => sec_start sec o) w o = o.
Proof.
  induction w as [|x r IH]; intros o H; [reflexivity|]. cbn [filter fold_left] in *.
  destruct (has_tag 7 x) eqn:Ex; [discriminate|]. rewrite IH by exact H. destruct x; try reflexivity. discriminate.
Qed.
Lemma once_start : forall w f o, once 7 w -> In (S_Start f) w -> fold_left (fun o sec => sec_start sec o) w o = Some f.
Proof.
  unfold once, tag_count. induction w as [|x r IH]; intros f o Ho Hin; [destruct Hin|].
  cbn [filter fold_left] in *. destruct (has_tag 7 x) eqn:Ex.
  - cbn [length] in Ho. assert (Hr : filter (has_tag 7) r = []) by (destruct (filter (has_tag 7) r); [reflexivity|cbn in Ho; lia]).
    rewrite no_tag_start by exact Hr. destruct Hin as [->|Hin]; [reflexivity|].
    exfalso. assert (Hi : In (S_Start f) (filter (has_tag 7) r)) by (apply filter_In; auto). rewrite Hr in Hi. destruct Hi.
  - destruct Hin as [->|Hin]; [discriminate|]. replace (sec_start x o) with o by (destruct x; try reflexivity; discriminate).
    apply IH; assumption.
Qed.

(* general: the start function is the one named by the LAST start payload *)
Theorem structure_start_gen : forall cf ver w s ilen dw e f, parseM cf ver w = POk s -> emitM (ps_m s) ilen dw = Ok e ->
  fold_left (fun o sec => sec_start sec o) w None = Some f ->
  exists f', get_idx (em_x2i e) S_func f = Ok f' /\ In (S_Start f') (em_secs e).
Proof.
  intros cf ver w s ilen dw e f Hp He Hf. destruct (parseM_GES _ _ _ _ Hp) as (_ & _ & HS). rewrite Hf in HS.
  emitM_parts He. rewrite HS in Est. rinv Est as i Ei. inversion Est; subst s_st; clear Est. exists i. split.
  - unfold get_idx in *. rewrite (emitM_late_maps _ _ _ _ _ _ _ _ _ _ Eel Edc Eco) by discriminate. exact Ei.
  - rewrite Esecs. do 7 (apply in_or_app; right). apply in_or_app. left. left. reflexivity.
Qed.
Theorem structure_start : forall cf ver w s ilen dw e f, parseM cf ver w = POk s -> emitM (ps_m s) ilen dw = Ok e ->
  stream_wf w = true -> In (S_Start f) w ->
  exists f', get_idx (em_x2i e) S_func f = Ok f' /\ In (S_Start f') (em_secs e).
Proof.
  intros cf ver w s ilen dw e f Hp He Hwf Hin. eapply structure_start_gen; eauto.
  apply once_start; [apply stream_wf_once; [exact Hwf|lia]|exact Hin].
Qed.
(* no start payload: the start emitter contributes nothing *)
Theorem structure_start_none : forall cf ver w s, parseM cf ver w = POk s ->
  (forall f, ~ In (S_Start f) w) -> m_start (ps_m s) = None.
Proof.
  intros cf ver w s Hp Hn. destruct (parseM_GES _ _ _ _ Hp) as (_ & _ & HS). rewrite HS. apply no_tag_start.
  clear - Hn. induction w as [|x r IH]; [reflexivity|]. cbn [filter].
  destruct (has_tag 7 x) eqn:Ex.
  - destruct x; try discriminate. exfalso. apply (Hn f). left. reflexivity.
  - apply IH. intros f Hf. apply (Hn f). right. exact Hf.
Qed.

Definition exports_of (sec : wsec) : list wexport := match sec with S_Exports l => l | _ => [] end.
Lemma sec_exports_of : forall w, flat_map sec_exports w = map exp_of (flat_map exports_of w).
Proof.
  induction w as [|x r IH]; [reflexivity|]. cbn [flat_map]. rewrite map_app, IH. f_equal. destruct x; reflexivity.
Qed.
Definition export_rt (e : emitted) (wi wo : wexport) : Prop :=
  we_name wo = we_name wi /\ we_kind wo = we_kind wi /\
  get_idx (em_x2i e) (kind_space (we_kind wi)) (we_index wi) = Ok (we_index wo).

Theorem structure_exports_gen : forall cf ver w s ilen dw e, parseM cf ver w = POk s -> emitM (ps_m s) ilen dw = Ok e ->
  flat_map exports_of w <> [] ->
  exists es, In (S_Exports es) (em_secs e) /\ Forall2 (export_rt e) (flat_map exports_of w) es.
Proof.
  intros cf ver w s ilen dw e Hp He Hne. destruct (parseM_GES _ _ _ _ Hp) as (_ & HE & _).
  pose proof (parseM_ids _ _ _ _ Hp) as Hid.
  assert (D : dead (m_exports (ps_m s)) = []) by (unfold ids_consistent in Hid; tauto).
  emitM_parts He. unfold emit_exports in Eex. rewrite (aiter_nodead_snd _ D), HE, sec_exports_of in Eex.
  destruct (flat_map exports_of w) as [|we0 wes] eqn:Ew; [congruence|]. cbn [map] in Eex.
  rinv Eex as es Ees. inversion Eex; subst s_ex; clear Eex. exists es. split.
  - rewrite Esecs. do 6 (apply in_or_app; right). apply in_or_app. left. left. reflexivity.
  - apply rmapM_ok_inv in Ees. change (exp_of we0 :: map exp_of wes) with (map exp_of (we0 :: wes)) in Ees.
    apply Forall2_map_l in Ees. eapply Forall2_impl; [|exact Ees]. clear Ees. cbn beta. intros a b H.
    rinv H as i Ei. inversion H; subst b; clear H. cbn [exp_of ex_kind ex_item ex_name] in *. unfold export_rt. cbn [we_name we_kind we_index].
    split; [reflexivity|]. split; [reflexivity|]. unfold get_idx in *.
    rewrite (emitM_late_maps _ _ _ _ _ _ _ _ _ _ Eel Edc Eco) by (destruct (we_kind a); discriminate). exact Ei.
Qed.
Theorem structure_exports : forall cf ver w s ilen dw e l, parseM cf ver w = POk s -> emitM (ps_m s) ilen dw = Ok e ->
  stream_wf w = true -> In (S_Exports l) w -> l <> [] ->
  exists es, In (S_Exports es) (em_secs e) /\ Forall2 (export_rt e) l es.
Proof.
  intros cf ver w s ilen dw e l Hp He Hwf Hin Hne.
  assert (E : flat_map exports_of w = l).
  { apply (wf_flat_map exports_of 6 w (S_Exports l) Hwf); [lia| |exact Hin|reflexivity]. intros [] Hs; (reflexivity || discriminate). }
  rewrite <- E in *. eapply structure_exports_gen; eauto.
Qed.

Definition globals_of (sec : wsec) : list (wglobalty * wconst) := match sec with S_Globals l => l | _ => [] end.
Definition defined (k : wglobalty * option mconst) : list (wglobalty * mconst) :=
  match snd k with Some c => [(fst k, c)] | None => [] end.
Lemma sec_globals_of : forall w,
  flat_map defined (flat_map sec_globals w) = map (fun gc_sweep => (fst gc_sweep, cst0 (snd gc_sweep))) (flat_map globals_of w).
Proof.
  induction w as [|x r IH]; [reflexivity|]. cbn [flat_map]. rewrite flat_map_app, map_app, IH. f_equal.
  destruct x; try reflexivity; cbn [sec_globals globals_of].
  - induction (imp_globals_w is_) as [|a l IHl]; [reflexivity|]. exact IHl.
  - induction gs as [|a l IHl]; [reflexivity|]. cbn [map flat_map defined snd fst app]. rewrite <- IHl. reflexivity.
Qed.
Lemma local_globals_core m : dead (m_globals m) = [] ->
  map (fun t => (gen_emit_global_local (snd (fst t)), snd t)) (local_globals m) = flat_map defined (K_globals m).
Proof.
  intros D. unfold local_globals, K_globals. rewrite <- (aiter_nodead_snd _ D).
  induction (aiter (m_globals m)) as [|p r IH]; [reflexivity|]. cbn [flat_map map]. unfold gcore at 1, defined at 1. cbn [snd fst].
  rewrite map_app, IH. destruct (gl_kind (snd p)); reflexivity.
Qed.

Definition x_le (x x' : x2i) : Prop := forall S id i, get_idx x S id = Ok i -> get_idx x' S id = Ok i.
Lemma x_le_refl x : x_le x x. Proof. intros S id i H; exact H. Qed.
Lemma x_le_push x S id : x_le x (push_idx x S id).
Proof.
  intros S' id' i H. destruct S, S'; try exact H; unfold get_idx in *; cbn [push_idx set_space space_map] in *;
    apply pushed_lookup_old; exact H.
Qed.
Lemma x_le_trans x y z : x_le x y -> x_le y z -> x_le x z.
Proof. intros H1 H2 S id i H. apply H2, H1, H. Qed.
Lemma emit_const_mono x x' c wc : x_le x x' -> emit_const x c = Ok wc -> emit_const x' c = Ok wc.
Proof.
  intros L. destruct c as [v|g|t|f]; cbn [emit_const]; try (intros H; exact H).
  - destruct (get_idx x S_global g) as [j| |] eqn:E; cbn [rmap]; try discriminate. rewrite (L _ _ _ E). auto.
  - destruct (get_idx x S_func f) as [j| |] eqn:E; cbn [rmap]; try discriminate. rewrite (L _ _ _ E). auto.
Qed.
Lemma globals_go_entries' : forall l x r, globals_go l x = Ok r ->
  x_le x (snd r) /\
  Forall2 (fun t g => fst g = gen_emit_global_local (snd (fst t)) /\ emit_const (snd r) (snd t) = Ok (snd g)) l (fst r).
Proof.
  induction l as [|[[id g] c] l IH]; intros x r H; cbn [globals_go] in H.
  - inversion H; subst. split; [apply x_le_refl|constructor].
  - fold globals_go in H. rinv H as wc Ewc. rinv H as b Eb. inversion H; subst; clear H. cbn [fst snd].
    apply IH in Eb. destruct Eb as [L F]. split; [eapply x_le_trans; [apply x_le_push|exact L]|].
    constructor; [|exact F]. cbn [fst snd]. split; [reflexivity|]. eapply emit_const_mono; eauto.
Qed.

Definition global_rt (e : emitted) (wi wo : wglobalty * wconst) : Prop :=
  fst wo = fst wi /\ ren_const (em_x2i e) (snd wi) (snd wo).

Theorem structure_globals_gen : forall cf ver w s ilen dw e, parseM cf ver w = POk s -> emitM (ps_m s) ilen dw = Ok e ->
  flat_map globals_of w <> [] ->
  exists gs, In (S_Globals gs) (em_secs e) /\ Forall2 (global_rt e) (flat_map globals_of w) gs.
Proof.
  intros cf ver w s ilen dw e Hp He Hne. destruct (parseM_GES _ _ _ _ Hp) as (HG & _ & _).
  pose proof (parseM_ids _ _ _ _ Hp) as Hid.
  assert (D : dead (m_globals (ps_m s)) = []) by (unfold ids_consistent in Hid; tauto).
  pose proof (local_globals_core _ D) as L. rewrite HG, sec_globals_of in L.
  emitM_parts He. rewrite emit_globals_unfold in Egl.
  destruct (local_globals (ps_m s)) as [|p0 ps] eqn:El.
  { cbn [map] in L. destruct (flat_map globals_of w); [congruence|discriminate]. }
  rewrite <- El in *. clear El p0 ps. rinv Egl as r Er. inversion Egl; subst s_gl x6; clear Egl.
  exists (fst r). split; [rewrite Esecs; do 5 (apply in_or_app; right); apply in_or_app; left; left; reflexivity|].
  apply globals_go_entries' in Er. destruct Er as [_ F].
  assert (F' : Forall2 (fun p g => fst g = fst p /\ emit_const (snd r) (snd p) = Ok (snd g))
                 (map (fun t => (gen_emit_global_local (snd (fst t)), snd t)) (local_globals (ps_m s))) (fst r)).
  { apply Forall2_map_l. eapply Forall2_impl; [|exact F]. cbn beta. intros a b H. exact H. }
  rewrite L in F'. apply Forall2_map_l in F'. eapply Forall2_impl; [|exact F']. cbn beta. intros a b [H1 H2]. cbn [fst snd] in *.
  split; [exact H1|]. apply emit_const_ren in H2.
  eapply ren_const_maps; [| |exact H2]; apply (emitM_late_maps _ _ _ _ _ _ _ _ _ _ Eel Edc Eco); discriminate.
Qed.
Theorem structure_globals : forall cf ver w s ilen dw e l, parseM cf ver w = POk s -> emitM (ps_m s) ilen dw = Ok e ->
  stream_wf w = true -> In (S_Globals l) w -> l <> [] ->
  exists gs, In (S_Globals gs) (em_secs e) /\ Forall2 (global_rt e) l gs.
Proof.
  intros cf ver w s ilen dw e l Hp He Hwf Hin Hne.
  assert (E : flat_map globals_of w = l).
  { apply (wf_flat_map globals_of 5 w (S_Globals l) Hwf); [lia| |exact Hin|reflexivity]. intros [] Hs; (reflexivity || discriminate). }
  rewrite <- E in *. eapply structure_globals_gen; eauto.
Qed.

(* imports (and the function kinds / type ids they rely on) *)
Definition fkcore (k : mfunckind) : N * bool :=
  match k with FK_Import _ ty => (ty, true) | FK_Local lf => (lf_ty lf, false) | FK_Uninit ty => (ty, false) end.
Definition fcore (f : mfunc) : N * bool := fkcore (fn_kind f).
Definition K_fty (m : wir) : list (N * bool) := map fcore (items (m_funcs m)).
Lemma K_fty_funcs m : K_fty m = map fkcore (K_funcs m).
Proof. unfold K_fty, K_funcs. rewrite map_map. reflexivity. Qed.
Lemma fcore_ty f : fst (fcore f) = func_ty f.
Proof. unfold fcore, func_ty. destruct (fn_kind f); reflexivity. Qed.

Lemma nth_app_last {A} (l : list A) x : nth_error (l ++ [x]) (length l) = Some x.
Proof. induction l as [|a l IH]; [reflexivity|exact IH]. Qed.
Lemma nth_error_app_some {A} (l a : list A) n x : nth_error l n = Some x -> nth_error (l ++ a) n = Some x.
Proof. intros H. rewrite nth_error_app1; [exact H|]. apply nth_error_Some. congruence. Qed.
Lemma aget_nth {A} (a : tarena A) id v : aget a id = Some v -> nth_error (items a) (N.to_nat id) = Some v.
Proof. intros H. exact (proj1 (Proofs.ArenaN.aget_nth a id v H)). Qed.
Lemma upd_map_at {A B} (g : A -> B) (f : A -> A) : forall (l : list A) n,
  (forall x, nth_error l n = Some x -> g (f x) = g x) -> map g (Arena.upd l n f) = map g l.
Proof.
  induction l as [|x r IH]; intros n H; [destruct n; reflexivity|].
  destruct n; cbn [Arena.upd map].
  - rewrite H by reflexivity. reflexivity.
  - rewrite IH; [reflexivity|]. intros y Hy. apply H. exact Hy.
Qed.

Definition not_type (st : step) : Prop := match st with St_type _ _ => False | _ => True end.
Lemma parse_sec_ty s sec s' : parse_sec s sec = POk s' ->
  match sec with S_Types _ => True | _ => ii_types (ps_ids s') = ii_types (ps_ids s) end.
Proof.
  intros E.
  assert (K : forall st ids id, not_type st -> ii_types (pushes st ids id) = ii_types ids).
  { intros st ids id H. rewrite pushes_ii_types. destruct st; [destruct H|reflexivity..]. }
  destruct sec; try exact I; apply parse_sec_steps in E;
    refine (reach_by_ids ii_types not_type K _ _ (run_steps_by _ _ (sec_steps_all _ _ _ _) _ _ _ E)); intros; exact I.
Qed.
Lemma step_ty_ext ids0 st m ids m' ids' : (exists a, ii_types ids = ii_types ids0 ++ a) -> do_step st m ids = POk (m', ids') ->
  exists a, ii_types ids' = ii_types ids0 ++ a.
Proof.
  intros [a Ha] E. apply step_ii_types in E. destruct st; try (exists a; congruence).
  destruct E as [id E]. exists (a ++ [id]). rewrite E, Ha, app_assoc. reflexivity.
Qed.
Lemma prepare_bodies_ty bs m ids ni i m' ids' ps : prepare_bodies m ids ni i bs = POk (m', ids', ps) -> ii_types ids' = ii_types ids.
Proof. intros E. exact (proj2 (prepare_frame _ _ (prepare_bodies_by _ _ _ _ _ _ _ _ E))). Qed.

(* function kinds: parse_funcs appends uninitialised functions of the declared types *)
Lemma parse_funcs_spec : forall l m ids m' ids', parse_funcs m ids l = POk (m', ids') ->
  exists a, K_fty m' = K_fty m ++ a /\ Forall2 (fun tyi c => nth_N (ii_types ids) tyi = Some (fst c) /\ snd c = false) l a.
Proof.
  induction l as [|i r IH]; intros m ids m' ids' E; cbn [parse_funcs] in E.
  - inversion E; subst. exists []. rewrite app_nil_r. split; [reflexivity|constructor].
  - pinv E as t Et. apply of_opt_err_ok in Et. wcbn. apply IH in E. destruct E as [a [Ea Fa]]. wcbn.
    exists ((t, false) :: a). split.
    + rewrite Ea. unfold K_fty. wcbn. clear. destruct (synth _ _ _); wcbn.
      * rewrite upd_map by (intros x; reflexivity). rewrite map_app, <- app_assoc. reflexivity.
      * rewrite map_app, <- app_assoc. reflexivity.
    + constructor; [split; [exact Et|reflexivity]|exact Fa].
Qed.

(* after the loop: the prepared entries point at uninitialised functions of type pr_ty *)
Lemma prepare_bodies_pr : forall bs m ids ni i m' ids' ps, prepare_bodies m ids ni i bs = POk (m', ids', ps) ->
  Forall (fun p => nth_error (K_fty m) (N.to_nat (pr_fid p)) = Some (pr_ty p, false)) ps.
Proof.
  induction bs as [|b r IH]; intros m ids ni i m' ids' ps E; pose proof (prepare_bodies_F9 _ _ _ _ _ _ _ _ E) as F0;
    cbn [prepare_bodies] in E; [inversion E; constructor|].
  pinv E as fid Efid. pinv E as f Ef. destruct (fn_kind f) eqn:Ek; try discriminate.
  pinv E as t Et.
  destruct (add_locals m ids fid (ty_params t) _) as [[m1 ids1] args] eqn:E1.
  destruct (types_insert m1 _) as [m2 tid] eqn:E2.
  destruct (add_locals m2 ids1 fid _ _) as [[m3 ids3] ls] eqn:E3.
  pinv E as x Ex. destruct x as [[m4 ids4] rest]. inversion E; subst; clear E.
  constructor.
  - cbn [pr_fid pr_ty]. apply of_opt_panic_ok, aget_nth in Ef. unfold K_fty. rewrite (map_nth_error fcore _ _ Ef).
    unfold fcore. rewrite Ek. reflexivity.
  - pose proof (prepare_bodies_F9 _ _ _ _ _ _ _ _ Ex) as F3. apply IH in Ex.
    assert (EK : K_fty m3 = K_fty m) by (rewrite F0 in F3; f9 F3; unfold K_fty; congruence).
    rewrite EK in Ex. exact Ex.
Qed.
Lemma parse_one_body_ty m ids p lf : parse_one_body m ids p = POk lf -> lf_ty lf = pr_ty p.
Proof.
  unfold parse_one_body. intros E. pinv E as t Et. pinv E as ety Eety.
  destruct (parse_body _ _ _ _); try discriminate. inversion E; reflexivity.
Qed.
Lemma install_bodies_fty : forall ps m ids m',
  Forall (fun p => nth_error (K_fty m) (N.to_nat (pr_fid p)) = Some (pr_ty p, false)) ps ->
  install_bodies m ids ps = POk m' -> K_fty m' = K_fty m.
Proof.
  induction ps as [|p r IH]; intros m ids m' HF E; cbn [install_bodies] in E; [inversion E; reflexivity|].
  pinv E as lf Elf. apply parse_one_body_ty in Elf. inversion HF as [|p' r' Hp Hr]; subst.
  match type of E with install_bodies ?mm _ _ = _ => assert (EK : K_fty mm = K_fty m) end.
  { unfold K_fty at 1. wcbn. apply upd_map_at. intros x Hx. unfold K_fty in Hp. rewrite (map_nth_error fcore _ _ Hx) in Hp.
    unfold fcore at 1. cbn [fn_kind fkcore]. rewrite Elf. congruence. }
  apply IH in E; [congruence|]. rewrite EK. exact Hr.
Qed.

Theorem parseM_fty : forall cf ver w s, parseM cf ver w = POk s ->
  exists s1, parse_secs (pst0 cf) w = POk s1 /\ K_fty (ps_m s) = K_fty (ps_m s1) /\ ii_types (ps_ids s) = ii_types (ps_ids s1).
Proof.
  intros cf ver w s E. unfold parseM in E. fold (pst0 cf) in E. pinv E as s1 E1. exists s1. split; [exact E1|].
  destruct (_ <? _)%N; [discriminate|].
  pinv E as x Ex. destruct x as [[m1 ids1] prepared]. pinv E as m2 E2. inversion E; subst; clear E. wcbn.
  pose proof (prepare_bodies_pr _ _ _ _ _ _ _ _ Ex) as HF. pose proof (prepare_bodies_ty _ _ _ _ _ _ _ _ Ex) as HT.
  apply prepare_bodies_F9 in Ex. assert (EK : K_fty m1 = K_fty (ps_m s1)) by (f9 Ex; unfold K_fty; congruence).
  rewrite <- EK in HF. apply install_bodies_fty in E2; [|exact HF]. split; [|exact HT].
  rewrite <- EK, <- E2. clear.
  assert (H : forall l m, K_fty (fold_left (fun m n => parse_names m ids1 n) l m) = K_fty m).
  { induction l as [|n r IH]; intros m; cbn [fold_left]; [reflexivity|]. rewrite IH, !K_fty_funcs.
    f_equal. apply parse_names_KK. }
  rewrite <- (H (ps_names s1) m2). unfold K_fty. reflexivity.
Qed.

(* every payload only extends the index spaces *)
Definition ext (m : wir) (ids : i2ids) (m' : wir) (ids' : i2ids) : Prop :=
  (exists a, K_fty m' = K_fty m ++ a) /\ (exists a, K_tables m' = K_tables m ++ a) /\ (exists a, K_mems m' = K_mems m ++ a) /\
  (exists a, K_globals m' = K_globals m ++ a) /\ (exists a, ii_types ids' = ii_types ids ++ a).

Definition imports_of (sec : wsec) : list wimport := match sec with S_Imports l => l | _ => [] end.
(* the import record [mi] of the module stands for the input import [wi] *)
Definition imp_ok (m : wir) (ids : i2ids) (mi : mimport) (wi : wimport) : Prop :=
  im_module mi = wi_module wi /\ im_name mi = wi_name wi /\
  match im_kind mi, wi_kind wi with
  | MI_Func f, WI_Func tyi => exists ty, nth_N (ii_types ids) tyi = Some ty /\ nth_error (K_fty m) (N.to_nat f) = Some (ty, true)
  | MI_Table t, WI_Table wt => nth_error (K_tables m) (N.to_nat t) = Some (wt, true)
  | MI_Mem t, WI_Mem wm => nth_error (K_mems m) (N.to_nat t) = Some (wm, true)
  | MI_Global g, WI_Global wg => nth_error (K_globals m) (N.to_nat g) = Some (wg, None)
  | _, _ => False
  end.
Lemma imp_ok_ext m ids m' ids' mi wi : ext m ids m' ids' -> imp_ok m ids mi wi -> imp_ok m' ids' mi wi.
Proof.
  intros ([a1 H1] & [a2 H2] & [a3 H3] & [a4 H4] & [a5 H5]) (A & B & C). split; [exact A|]. split; [exact B|].
  rewrite H1, H2, H3, H4, H5. unfold nth_N.
  destruct (im_kind mi), (wi_kind wi); try exact C; try (apply nth_error_app_some; exact C).
  destruct C as [tyid [C1 C2]]. exists tyid. split; apply nth_error_app_some; assumption.
Qed.
Lemma ext_refl m ids : ext m ids m ids.
Proof. unfold ext. repeat split; exists []; rewrite app_nil_r; reflexivity. Qed.
Lemma ext_trans m0 i0 m1 i1 m2 i2 : ext m0 i0 m1 i1 -> ext m1 i1 m2 i2 -> ext m0 i0 m2 i2.
Proof.
  intros ([a1 H1] & [a2 H2] & [a3 H3] & [a4 H4] & [a5 H5]) ([b1 G1] & [b2 G2] & [b3 G3] & [b4 G4] & [b5 G5]).
  unfold ext. rewrite G1, G2, G3, G4, G5, H1, H2, H3, H4, H5, <- !app_assoc. repeat split; eexists; reflexivity.
Qed.

Lemma parse_import_step m ids i m1 ids1 : parse_import m ids i = POk (m1, ids1) ->
  ext m ids m1 ids1 /\ exists mi, items (m_imports m1) = items (m_imports m) ++ [mi] /\ imp_ok m1 ids1 mi i.
Proof.
  intros E. unfold parse_import in E. destruct (wi_kind i) eqn:Ek.
  - pinv E as t Et. apply of_opt_err_ok in Et. wcbn. inversion E; subst; clear E. split.
    + unfold ext, K_fty, K_tables, K_mems, K_globals. wcbn. rewrite map_app.
      repeat split; try (exists []; rewrite app_nil_r; reflexivity). eexists; reflexivity.
    + eexists. split; [wcbn; reflexivity|]. unfold imp_ok. cbn [im_module im_name im_kind]. rewrite Ek.
      split; [reflexivity|]. split; [reflexivity|]. exists t. wcbn. split; [exact Et|].
      unfold K_fty, anext, next_id. wcbn. rewrite Nat2N.id, map_app, <- (map_length fcore). apply nth_app_last.
  - wcbn. inversion E; subst; clear E. split.
    + unfold ext, K_fty, K_tables, K_mems, K_globals. wcbn. rewrite map_app.
      repeat split; try (exists []; rewrite app_nil_r; reflexivity). eexists; reflexivity.
    + eexists. split; [wcbn; reflexivity|]. unfold imp_ok. cbn [im_module im_name im_kind]. rewrite Ek.
      split; [reflexivity|]. split; [reflexivity|].
      unfold K_tables, anext, next_id. wcbn. rewrite Nat2N.id, map_app, <- (map_length tcore). cbn [map].
      replace (tcore (gen_parse_table_import t _)) with (t, true) by (destruct t; reflexivity). apply nth_app_last.
  - wcbn. inversion E; subst; clear E. split.
    + unfold ext, K_fty, K_tables, K_mems, K_globals. wcbn. rewrite map_app.
      repeat split; try (exists []; rewrite app_nil_r; reflexivity). eexists; reflexivity.
    + eexists. split; [wcbn; reflexivity|]. unfold imp_ok. cbn [im_module im_name im_kind]. rewrite Ek.
      split; [reflexivity|]. split; [reflexivity|].
      unfold K_mems, anext, next_id. wcbn. rewrite Nat2N.id, map_app, <- (map_length mcore). cbn [map].
      replace (mcore (gen_parse_memory_import m0 _)) with (m0, true) by (destruct m0; reflexivity). apply nth_app_last.
  - wcbn. inversion E; subst; clear E. split.
    + unfold ext, K_fty, K_tables, K_mems, K_globals. wcbn. rewrite map_app.
      repeat split; try (exists []; rewrite app_nil_r; reflexivity). eexists; reflexivity.
    + eexists. split; [wcbn; reflexivity|]. unfold imp_ok. cbn [im_module im_name im_kind]. rewrite Ek.
      split; [reflexivity|]. split; [reflexivity|].
      unfold K_globals, anext, next_id. wcbn. rewrite Nat2N.id, map_app, <- (map_length gcore). cbn [map].
      replace (gcore (gen_parse_global_import g _)) with (g, @None mconst) by (destruct g; reflexivity). apply nth_app_last.
Qed.
Lemma parse_imports_inv : forall l m ids m' ids' wis, parse_imports m ids l = POk (m', ids') ->
  Forall2 (imp_ok m ids) (items (m_imports m)) wis ->
  ext m ids m' ids' /\ Forall2 (imp_ok m' ids') (items (m_imports m')) (wis ++ l).
Proof.
  induction l as [|i r IH]; intros m ids m' ids' wis E F; cbn [parse_imports] in E.
  - inversion E; subst. rewrite app_nil_r. split; [apply ext_refl|exact F].
  - pinv E as x Ex. destruct x as [m1 ids1]. cbn [fst snd] in E. apply parse_import_step in Ex.
    destruct Ex as [X [mi [Hi Ho]]].
    apply (IH _ _ _ _ (wis ++ [i])) in E.
    + destruct E as [X' F']. rewrite <- app_assoc in F'. split; [eapply ext_trans; eauto|exact F'].
    + rewrite Hi. apply Forall2_app; [|constructor; [exact Ho|constructor]].
      eapply Forall2_impl; [|exact F]. intros a b. apply imp_ok_ext. exact X.
Qed.

Lemma parse_imports_ext : forall l m ids m' ids', parse_imports m ids l = POk (m', ids') -> ext m ids m' ids'.
Proof.
  induction l as [|i r IH]; intros m ids m' ids' E; cbn [parse_imports] in E.
  - inversion E; subst. apply ext_refl.
  - pinv E as x Ex. destruct x as [m1 ids1]. cbn [fst snd] in E. apply parse_import_step in Ex. destruct Ex as [X _].
    eapply ext_trans; [exact X|]. eapply IH; eauto.
Qed.

Ltac ex_nil := exists []; rewrite app_nil_r; first [reflexivity | congruence].
(* function kinds, type ids and the import arena, per payload *)
Lemma parse_sec_FT s sec s' : parse_sec s sec = POk s' ->
  (exists a, K_fty (ps_m s') = K_fty (ps_m s) ++ a) /\ (exists a, ii_types (ps_ids s') = ii_types (ps_ids s) ++ a) /\
  match sec with S_Imports _ => True | _ => m_imports (ps_m s') = m_imports (ps_m s) end.
Proof.
  intros E. pose proof (parse_sec_writes _ _ _ E) as W. split; [|split].
  - destruct sec; try (rewrite W; ex_nil); cbn [parse_sec] in E; pinv E as x Ex; destruct x as [m1 i1]; injection E as <-; wcbn.
    + apply parse_imports_ext in Ex. apply Ex.
    + apply parse_funcs_spec in Ex. destruct Ex as [a [Ea _]]. eauto.
  - exact (run_steps_inv _ (step_ty_ext (ps_ids s)) _ _ _ _ _ (ex_intro _ [] (eq_sym (app_nil_r _))) (parse_sec_steps _ _ _ E)).
  - destruct sec; try exact I; rewrite W; reflexivity.
Qed.

Lemma parse_sec_ext s sec s' : ids_consistent (ps_m s) (ps_ids s) -> parse_sec s sec = POk s' ->
  ext (ps_m s) (ps_ids s) (ps_m s') (ps_ids s').
Proof.
  intros Hid E. destruct (parse_sec_TM _ _ _ E) as [T1 T2]. destruct (parse_sec_GES _ _ _ Hid E) as (G1 & _ & _).
  destruct (parse_sec_FT _ _ _ E) as (F1 & F2 & _). unfold ext. rewrite T1, T2, G1. repeat split; eauto.
Qed.
Lemma parse_sec_imp s sec s' wis : ids_consistent (ps_m s) (ps_ids s) -> parse_sec s sec = POk s' ->
  Forall2 (imp_ok (ps_m s) (ps_ids s)) (items (m_imports (ps_m s))) wis ->
  Forall2 (imp_ok (ps_m s') (ps_ids s')) (items (m_imports (ps_m s'))) (wis ++ imports_of sec).
Proof.
  intros Hid E F. pose proof (parse_sec_ext _ _ _ Hid E) as X. pose proof (parse_sec_FT _ _ _ E) as (_ & _ & M).
  destruct sec;
    try (cbn [imports_of]; rewrite app_nil_r, M; eapply Forall2_impl; [|exact F]; intros a b; apply imp_ok_ext; exact X).
  unfold parse_sec in E. pinv E as x Ex. destruct x as [m1 i1]. inversion E; subst; clear E. wcbn. cbn [imports_of].
  apply (parse_imports_inv _ _ _ _ _ _ Ex F).
Qed.
Theorem parseM_imports : forall cf ver w s, parseM cf ver w = POk s ->
  Forall2 (imp_ok (ps_m s) (ps_ids s)) (items (m_imports (ps_m s))) (flat_map imports_of w).
Proof.
  intros cf ver w s E. destruct (parseM_KK _ _ _ _ E) as [s1 [E1 EK]]. destruct (parseM_fty _ _ _ _ E) as [s1' [E1' [EF ET]]].
  rewrite E1 in E1'. inversion E1'; subst s1'; clear E1'.
  assert (F : Forall2 (imp_ok (ps_m s1) (ps_ids s1)) (items (m_imports (ps_m s1))) (flat_map imports_of w)).
  { refine (parse_secs_ind (fun s0 l => Forall2 (imp_ok (ps_m s0) (ps_ids s0)) (items (m_imports (ps_m s0))) (flat_map imports_of l))
              _ w (pst0 cf) s1 [] (idc_empty cf) (Forall2_nil _) E1).
    intros s0 sec s' l I0 F0 E0. rewrite flat_map_app. cbn [flat_map]. rewrite app_nil_r. exact (parse_sec_imp _ _ _ _ I0 E0 F0). }
  unfold KK in EK. injection EK; intros. replace (m_imports (ps_m s)) with (m_imports (ps_m s1)) by congruence.
  eapply Forall2_impl; [|exact F]. intros a b. apply imp_ok_ext. unfold ext. repeat split; ex_nil.
Qed.

(* emit side: what the import emitter writes for each import record *)
Definition import_emitted' (m : wir) (xt : list (N * N)) (i : mimport) (w : wimport) : Prop :=
  wi_module w = im_module i /\ wi_name w = im_name i /\
  match im_kind i with
  | MI_Func f => exists fn ti, aget (m_funcs m) f = Some fn /\ lookup_i xt (func_ty fn) = Ok ti /\ wi_kind w = WI_Func ti
  | MI_Table t => exists tb, aget (m_tables m) t = Some tb /\ wi_kind w = WI_Table (gen_emit_table_import tb)
  | MI_Mem mm => exists me, aget (m_memories m) mm = Some me /\ wi_kind w = WI_Mem (gen_emit_memory_import me)
  | MI_Global g => exists gl, aget (m_globals m) g = Some gl /\ wi_kind w = WI_Global (gen_emit_global_import gl)
  end.
Lemma emit_imports_l_entries' m : forall l x ws x', emit_imports_l m x l = Ok (ws, x') ->
  Forall2 (import_emitted' m (space_map x S_type)) l ws.
Proof.
  induction l as [|i r IH]; intros x ws x' H; cbn [emit_imports_l] in H.
  - inversion H; constructor.
  - rinv H as a Ea. rinv H as b Eb. inversion H; subst; clear H. destruct a as [w x1], b as [ws' x2]. cbn [fst snd] in *.
    constructor.
    + clear IH Eb. unfold emit_import in Ea. unfold import_emitted'. destruct (im_kind i).
      * rinv Ea as fn Efn. rinv Ea as ti Eti. apply of_opt_ok in Efn. rewrite get_idx_push_other in Eti by discriminate.
        inversion Ea; subst; cbn [wi_module wi_name wi_kind]. split; [reflexivity|]. split; [reflexivity|].
        exists fn, ti. split; [exact Efn|]. split; [exact Eti|reflexivity].
      * rinv Ea as tb Etb. apply of_opt_ok in Etb. inversion Ea; subst; cbn; eauto.
      * rinv Ea as tb Etb. apply of_opt_ok in Etb. inversion Ea; subst; cbn; eauto.
      * rinv Ea as tb Etb. apply of_opt_ok in Etb. inversion Ea; subst; cbn; eauto.
    + apply IH in Eb. apply emit_import_x in Ea. subst x1. rewrite push_import_space in Eb.
      replace (imp_id S_type i) with (@nil N) in Eb by (unfold imp_id; destruct (im_kind i); reflexivity). exact Eb.
Qed.

Lemma Forall2_compose {A B C} (R1 : A -> B -> Prop) (R2 : A -> C -> Prop) : forall l lb lc,
  Forall2 R1 l lb -> Forall2 R2 l lc -> Forall2 (fun b c => exists a, R1 a b /\ R2 a c) lb lc.
Proof.
  induction l as [|a l IH]; intros lb lc H1 H2; inversion H1; inversion H2; subst; constructor; eauto.
Qed.

Definition import_rt (s : pst) (e : emitted) (wi wo : wimport) : Prop :=
  wi_module wo = wi_module wi /\ wi_name wo = wi_name wi /\
  match wi_kind wi with
  | WI_Func tyi => exists ti, rho s e S_type tyi = Ok ti /\ wi_kind wo = WI_Func ti
  | k => wi_kind wo = k
  end.

(* the emitted import section: same (module, field) pairs, same order, same kind, same table / memory / global
   type; the type index of a function import is rho S_type of the input's *)
Theorem structure_imports_gen : forall cf ver w s ilen dw e, parseM cf ver w = POk s -> emitM (ps_m s) ilen dw = Ok e ->
  flat_map imports_of w <> [] ->
  exists ws, In (S_Imports ws) (em_secs e) /\ Forall2 (import_rt s e) (flat_map imports_of w) ws.
Proof.
  intros cf ver w s ilen dw e Hp He Hne. pose proof (parseM_imports _ _ _ _ Hp) as FI.
  pose proof (parseM_ids _ _ _ _ Hp) as Hid.
  assert (D : dead (m_imports (ps_m s)) = []) by (unfold ids_consistent in Hid; tauto).
  destruct (emitM_x2i _ _ _ _ He) as [fs [_ [HXT _]]].
  emitM_parts He.
  assert (XT : space_map x1 S_type = xi_types (em_x2i e)).
  { pose proof (emit_types_x (ps_m s) empty_x2i) as F1. rewrite Ety in F1. cbn [snd] in F1. rewrite F1, HXT.
    rewrite push_all_same by discriminate. apply fold_push_number. }
  unfold emit_imports in Eim. rewrite (aiter_nodead_snd _ D) in Eim.
  destruct (items (m_imports (ps_m s))) as [|mi0 mis] eqn:Ei.
  { inversion FI as [E0|]. congruence. }
  rewrite <- Ei in *. clear Ei mi0 mis.
  rinv Eim as a Ea. destruct a as [ws xx]. inversion Eim; subst s_im x2; clear Eim. cbn [fst snd] in *.
  exists ws. split; [rewrite Esecs; apply in_or_app; right; apply in_or_app; left; left; reflexivity|].
  apply emit_imports_l_entries' in Ea. rewrite XT in Ea.
  pose proof (Forall2_compose _ _ _ _ _ FI Ea) as F. eapply Forall2_impl; [|exact F]. clear F FI Ea.
  intros wi wo [mi [(A1 & A2 & A3) (B1 & B2 & B3)]]. unfold import_rt.
  split; [congruence|]. split; [congruence|].
  unfold ids_consistent in Hid. decompose [and] Hid. clear Hid.
  destruct (im_kind mi), (wi_kind wi); try contradiction.
  - destruct A3 as [tyid [C1 C2]]. destruct B3 as [fn [ti [G1 [G2 G3]]]]. exists ti. split; [|exact G3].
    apply aget_nth in G1. unfold K_fty in C2. rewrite (map_nth_error fcore _ _ G1) in C2.
    assert (Ety' : func_ty fn = tyid) by (rewrite <- fcore_ty; inversion C2 as [C3]; rewrite C3; reflexivity).
    unfold rho. cbn [ids_space]. unfold nth_N in C1. rewrite C1. unfold get_idx. cbn [space_map]. congruence.
  - destruct B3 as [tb [G1 G3]]. apply aget_nth in G1. unfold K_tables in A3. rewrite (map_nth_error tcore _ _ G1) in A3.
    rewrite G3, attr_table_emit_same. unfold tcore in A3. congruence.
  - destruct B3 as [tb [G1 G3]]. apply aget_nth in G1. unfold K_mems in A3. rewrite (map_nth_error mcore _ _ G1) in A3.
    rewrite G3, attr_memory_emit_same. unfold mcore in A3. congruence.
  - destruct B3 as [tb [G1 G3]]. apply aget_nth in G1. unfold K_globals in A3. rewrite (map_nth_error gcore _ _ G1) in A3.
    rewrite G3, attr_global_emit_same. unfold gcore in A3. congruence.
Qed.
Theorem structure_imports : forall cf ver w s ilen dw e l, parseM cf ver w = POk s -> emitM (ps_m s) ilen dw = Ok e ->
  stream_wf w = true -> In (S_Imports l) w -> l <> [] ->
  exists ws, In (S_Imports ws) (em_secs e) /\ Forall2 (import_rt s e) l ws.
Proof.
  intros cf ver w s ilen dw e l Hp He Hwf Hin Hne.
  assert (E : flat_map imports_of w = l).
  { apply (wf_flat_map imports_of 1 w (S_Imports l) Hwf); [lia| |exact Hin|reflexivity]. intros [] Hs; (reflexivity || discriminate). }
  rewrite <- E in *. eapply structure_imports_gen; eauto.
Qed.

(* nothing is added, dropped or duplicated (tables, memories, imports, exports, globals) *)
Theorem structure_counts : forall cf ver w s ilen dw e, parseM cf ver w = POk s -> emitM (ps_m s) ilen dw = Ok e ->
  (flat_map tables_of w <> [] -> exists l, In (S_Tables l) (em_secs e) /\ length l = length (flat_map tables_of w)) /\
  (flat_map mems_of w <> [] -> exists l, In (S_Mems l) (em_secs e) /\ length l = length (flat_map mems_of w)) /\
  (flat_map imports_of w <> [] -> exists l, In (S_Imports l) (em_secs e) /\ length l = length (flat_map imports_of w)) /\
  (flat_map exports_of w <> [] -> exists l, In (S_Exports l) (em_secs e) /\ length l = length (flat_map exports_of w)) /\
  (flat_map globals_of w <> [] -> exists l, In (S_Globals l) (em_secs e) /\ length l = length (flat_map globals_of w)) /\
  (* and the index spaces of the module have exactly the input's sizes *)
  length (items (m_tables (ps_m s))) = length (flat_map sec_tables w) /\
  length (items (m_memories (ps_m s))) = length (flat_map sec_mems w) /\
  length (items (m_globals (ps_m s))) = length (flat_map sec_globals w) /\
  length (items (m_imports (ps_m s))) = length (flat_map imports_of w) /\
  length (items (m_exports (ps_m s))) = length (flat_map exports_of w).
Proof.
  intros cf ver w s ilen dw e Hp He.
  destruct (parseM_tables _ _ _ _ Hp) as [T1 T2]. destruct (parseM_GES _ _ _ _ Hp) as (G1 & G2 & _).
  pose proof (parseM_imports _ _ _ _ Hp) as FI.
  repeat split.
  - intros H. eexists. split; [eapply structure_tables_gen; eauto|reflexivity].
  - intros H. eexists. split; [eapply structure_mems_gen; eauto|reflexivity].
  - intros H. destruct (structure_imports_gen _ _ _ _ _ _ _ Hp He H) as [l [H1 H2]]. exists l. split; [exact H1|].
    symmetry. eapply Forall2_length; eauto.
  - intros H. destruct (structure_exports_gen _ _ _ _ _ _ _ Hp He H) as [l [H1 H2]]. exists l. split; [exact H1|].
    symmetry. eapply Forall2_length; eauto.
  - intros H. destruct (structure_globals_gen _ _ _ _ _ _ _ Hp He H) as [l [H1 H2]]. exists l. split; [exact H1|].
    symmetry. eapply Forall2_length; eauto.
  - rewrite <- T1. unfold K_tables. rewrite map_length. reflexivity.
  - rewrite <- T2. unfold K_mems. rewrite map_length. reflexivity.
  - rewrite <- G1. unfold K_globals. rewrite map_length. reflexivity.
  - eapply Forall2_length; eauto.
  - rewrite G2, sec_exports_of, map_length. reflexivity.
Qed.

(* 6 (element segments): same count, order, mode, form; indices renamed by the emit-time maps *)
Definition elem_of (e : welem) : melemkind * melemitems :=
  (match wel_kind e with
   | WEK_Passive => ELK_Passive | WEK_Declared => ELK_Declared
   | WEK_Active tbl off => ELK_Active (match tbl with Some t => t | None => 0%N end) (cst0 off) end,
   match wel_items e with WEI_Funcs fs => ELI_Funcs fs | WEI_Exprs t es => ELI_Exprs t (map cst0 es) end).
Definition elems_of (sec : wsec) : list welem := match sec with S_Elems l => l | _ => [] end.

Lemma map_pres_iota n : forall fs fl, map_pres (fun f => of_opt_err (nth_N (iota n) f)) fs = POk fl -> fl = fs.
Proof.
  induction fs as [|f r IH]; intros fl E; cbn [map_pres] in E; [inversion E; reflexivity|].
  pinv E as y Ey. pinv E as ys Eys. inversion E; subst. apply of_opt_err_ok, nth_N_iota in Ey. subst.
  f_equal. apply IH. exact Eys.
Qed.
Lemma map_pres_cst0 ids : (exists n, ii_globals ids = iota n) -> (exists n, ii_funcs ids = iota n) ->
  forall es el, map_pres (eval_const ids) es = POk el -> el = map cst0 es.
Proof.
  intros Hg Hf. induction es as [|c r IH]; intros el E; cbn [map_pres] in E; [inversion E; reflexivity|].
  pinv E as y Ey. pinv E as ys Eys. inversion E; subst. apply eval_const_cst0 in Ey; [|exact Hg|exact Hf]. subst.
  cbn [map]. f_equal. apply IH. exact Eys.
Qed.
Definition ids3 (ids : i2ids) : Prop :=
  (exists n, ii_globals ids = iota n) /\ (exists n, ii_funcs ids = iota n) /\ (exists n, ii_tables ids = iota n).
Lemma parse_elem_spec m ids e m1 ids1 : ids3 ids -> parse_elem m ids e = POk (m1, ids1) ->
  K_elems m1 = K_elems m ++ [elem_of e] /\ ids3 ids1.
Proof.
  intros (Hg & [nf Hf] & [nt Ht]) Ex. unfold parse_elem in Ex. pinv Ex as its Eits. pinv Ex as mk Emk. destruct mk as [m2 kind].
  wcbn. inversion Ex; subst; clear Ex. split; [|unfold ids3; wcbn; eauto].
  unfold K_elems, elem_of. wcbn. rewrite map_app. cbn [map ecore el_kind el_items].
  assert (EI : its = match wel_items e with WEI_Funcs fs => ELI_Funcs fs | WEI_Exprs t es => ELI_Exprs t (map cst0 es) end).
  { destruct (wel_items e).
    - pinv Eits as fl Efl. rewrite Hf in Efl. apply map_pres_iota in Efl. inversion Eits; subst; reflexivity.
    - pinv Eits as el Eel. apply map_pres_cst0 in Eel; [|exact Hg|eauto]. inversion Eits; subst; reflexivity. }
  rewrite <- EI. clear EI Eits.
  destruct (wel_kind e).
  - inversion Emk; subst; reflexivity.
  - inversion Emk; subst; reflexivity.
  - pinv Emk as tid Etid. pinv Emk as tb Etb. pinv Emk as o Eo. pinv Emk as ok Eok. destruct ok; [|discriminate].
    inversion Emk; subst; clear Emk. wcbn. apply of_opt_err_ok in Etid. rewrite Ht in Etid. apply nth_N_iota in Etid.
    apply eval_const_cst0 in Eo; [|exact Hg|eauto]. subst. reflexivity.
Qed.
Lemma parse_elems_spec : forall l m ids m' ids', ids3 ids -> parse_elems m ids l = POk (m', ids') ->
  K_elems m' = K_elems m ++ map elem_of l.
Proof.
  induction l as [|e r IH]; intros m ids m' ids' H E; cbn [parse_elems] in E.
  - inversion E; subst. rewrite app_nil_r. reflexivity.
  - pinv E as x Ex. destruct x as [m1 ids1]. cbn [fst snd] in E. apply parse_elem_spec in Ex; [|exact H].
    destruct Ex as [X1 X2]. apply IH in E; [|exact X2]. rewrite E, X1, <- app_assoc. reflexivity.
Qed.
Lemma idc_ids3 m ids : ids_consistent m ids -> ids3 ids.
Proof. intros H. unfold ids_consistent in H. decompose [and] H. unfold ids3. repeat split; eauto. Qed.

Lemma parse_sec_E s sec s' : ids_consistent (ps_m s) (ps_ids s) -> parse_sec s sec = POk s' ->
  K_elems (ps_m s') = K_elems (ps_m s) ++ map elem_of (elems_of sec).
Proof.
  intros Hid E. pose proof (parse_sec_writes _ _ _ E) as W.
  destruct sec; cbn [elems_of map]; rewrite ?app_nil_r; try (rewrite W; reflexivity).
  cbn [parse_sec] in E. pinv E as x Ex. destruct x as [m1 i1]. injection E as <-. wcbn.
  exact (parse_elems_spec _ _ _ _ _ (idc_ids3 _ _ Hid) Ex).
Qed.
Corollary parseM_elems : forall cf ver w s, parseM cf ver w = POk s -> K_elems (ps_m s) = map elem_of (flat_map elems_of w).
Proof.
  intros cf ver w s E. destruct (parseM_KK _ _ _ _ E) as [s1 [E1 EK]].
  apply (parse_secs_app K_elems (fun sec => map elem_of (elems_of sec)) parse_sec_E w (pst0 cf) s1 (idc_empty cf)) in E1.
  rewrite <- map_flat_map in E1.
  unfold KK in EK. injection EK; intros. change (K_elems (ps_m (pst0 cf))) with (@nil (melemkind * melemitems)) in E1.
  cbn [app] in E1. congruence.
Qed.

(* emit side *)
Lemma rmapM_mono {A B} (f g : A -> res B) : (forall a b, f a = Ok b -> g a = Ok b) -> forall l bs, rmapM f l = Ok bs -> rmapM g l = Ok bs.
Proof.
  intros H. induction l as [|a r IH]; intros bs E; cbn [rmapM] in *; [exact E|].
  rinv E as y Ey. rinv E as ys Eys. rewrite (H _ _ Ey), (IH _ Eys). exact E.
Qed.
Lemma emit_elem_mono x x' e we : x_le x x' -> emit_elem x e = Ok we -> emit_elem x' e = Ok we.
Proof.
  intros L E. unfold emit_elem in *. rinv E as its Eits. rinv E as k Ek.
  assert (E1 : match el_items e with
               | ELI_Funcs fs => rmap WEI_Funcs (rmapM (get_idx x' S_func) fs)
               | ELI_Exprs t es => rmap (WEI_Exprs t) (rmapM (emit_const x') es) end = Ok its).
  { destruct (el_items e).
    - destruct (rmapM (get_idx x S_func) fs) as [l| |] eqn:El; try discriminate.
      rewrite (rmapM_mono _ _ (fun a b => L S_func a b) _ _ El). exact Eits.
    - destruct (rmapM (emit_const x) es) as [l| |] eqn:El; try discriminate.
      rewrite (rmapM_mono _ _ (fun a b => emit_const_mono x x' a b L) _ _ El). exact Eits. }
  assert (E2 : match el_kind e with
               | ELK_Passive => Ok WEK_Passive | ELK_Declared => Ok WEK_Declared
               | ELK_Active t off => ti <- get_idx x' S_table t ;; o <- emit_const x' off ;;
                                     Ok (WEK_Active (if N.eqb ti 0 then None else Some ti) o) end = Ok k).
  { destruct (el_kind e); try exact Ek. rinv Ek as ti Eti. rinv Ek as o Eo.
    rewrite (L _ _ _ Eti). cbn [rbind]. rewrite (emit_const_mono _ _ _ _ L Eo). exact Ek. }
  rewrite E1. cbn [rbind]. rewrite E2. exact E.
Qed.
Lemma elems_go_entries' : forall l x r, elems_go l x = Ok r ->
  x_le x (snd r) /\ Forall2 (fun p we => emit_elem (snd r) (snd p) = Ok we) l (fst r).
Proof.
  induction l as [|[id e] l IH]; intros x r H; cbn [elems_go] in H.
  - inversion H; subst. split; [apply x_le_refl|constructor].
  - fold elems_go in H. rinv H as we Ewe. rinv H as b Eb. inversion H; subst; clear H. cbn [fst snd].
    apply IH in Eb. destruct Eb as [L F]. split; [eapply x_le_trans; [apply x_le_push|exact L]|].
    constructor; [|exact F]. cbn [snd]. eapply emit_elem_mono; eauto.
Qed.

(* what the output element segment is, relative to the input one, for maps x *)
Definition elem_rt (x : x2i) (wi wo : welem) : Prop :=
  match wel_kind wi, wel_kind wo with
  | WEK_Passive, WEK_Passive => True
  | WEK_Declared, WEK_Declared => True
  | WEK_Active tbl off, WEK_Active tbl' off' =>
      (exists ti, get_idx x S_table (match tbl with Some t => t | None => 0%N end) = Ok ti /\
                  tbl' = (if N.eqb ti 0 then None else Some ti)) /\ ren_const x off off'
  | _, _ => False
  end /\
  match wel_items wi, wel_items wo with
  | WEI_Funcs fs, WEI_Funcs fs' => Forall2 (fun f f' => get_idx x S_func f = Ok f') fs fs'
  | WEI_Exprs t es, WEI_Exprs t' es' => t' = t /\ Forall2 (ren_const x) es es'
  | _, _ => False
  end.
Lemma emit_elem_rt x wi wo : emit_elem x {| el_kind := fst (elem_of wi); el_items := snd (elem_of wi); el_name := None |} = Ok wo \/
                             (exists nm, emit_elem x {| el_kind := fst (elem_of wi); el_items := snd (elem_of wi); el_name := nm |} = Ok wo) ->
  elem_rt x wi wo.
Proof.
  intros H. assert (E : exists nm, emit_elem x {| el_kind := fst (elem_of wi); el_items := snd (elem_of wi); el_name := nm |} = Ok wo)
    by (destruct H; eauto). clear H. destruct E as [nm E].
  unfold emit_elem in E. cbn [el_kind el_items elem_of fst snd] in E. rinv E as its Eits. rinv E as k Ek.
  inversion E; subst wo; clear E. unfold elem_rt. cbn [wel_kind wel_items]. split.
  - destruct (wel_kind wi); try (inversion Ek; exact I).
    rinv Ek as ti Eti. rinv Ek as o Eo. inversion Ek; subst. split; [eauto|]. apply emit_const_ren. exact Eo.
  - destruct (wel_items wi).
    + destruct (rmapM (get_idx x S_func) fs) as [l| |] eqn:El; try discriminate. inversion Eits; subst.
      apply rmapM_ok_inv. exact El.
    + destruct (rmapM (emit_const x) (map cst0 es)) as [l| |] eqn:El; try discriminate. inversion Eits; subst.
      split; [reflexivity|]. apply rmapM_ok_inv, Forall2_map_l in El. eapply Forall2_impl; [|exact El].
      intros a b. apply emit_const_ren.
Qed.

Theorem structure_elems_gen : forall cf ver w s ilen dw e, parseM cf ver w = POk s -> emitM (ps_m s) ilen dw = Ok e ->
  flat_map elems_of w <> [] ->
  exists es, In (S_Elems es) (em_secs e) /\ Forall2 (elem_rt (em_x2i e)) (flat_map elems_of w) es.
Proof.
  intros cf ver w s ilen dw e Hp He Hne. pose proof (parseM_elems _ _ _ _ Hp) as HK.
  pose proof (parseM_ids _ _ _ _ Hp) as Hid.
  assert (D : dead (m_elements (ps_m s)) = []) by (unfold ids_consistent in Hid; tauto).
  emitM_parts He. rewrite emit_elements_unfold in Eel.
  assert (HA : map (fun p => ecore (snd p)) (aiter (m_elements (ps_m s))) = map elem_of (flat_map elems_of w)).
  { rewrite <- HK. unfold K_elems. rewrite <- (aiter_nodead_snd _ D), map_map. reflexivity. }
  destruct (aiter (m_elements (ps_m s))) as [|p0 ps] eqn:Ea.
  { cbn [map] in HA. destruct (flat_map elems_of w); [congruence|discriminate]. }
  rewrite <- Ea in *. clear Ea p0 ps. rinv Eel as r Er. inversion Eel; subst s_el x9; clear Eel.
  exists (fst r). split; [rewrite Esecs; do 8 (apply in_or_app; right); apply in_or_app; left; left; reflexivity|].
  apply elems_go_entries' in Er. destruct Er as [_ F].
  assert (XL : forall S, S <> S_data -> space_map (em_x2i e) S = space_map (snd r) S).
  { intros S HS. rewrite (emit_code_x _ _ _ _ _ _ Eco). apply emit_data_count_x in Edc. rewrite Edc.
    destruct (aiter (m_data (ps_m s))); [reflexivity|]. apply space_map_set_other. congruence. }
  assert (F' : Forall2 (fun c we => exists nm, emit_elem (snd r) {| el_kind := fst c; el_items := snd c; el_name := nm |} = Ok we)
                 (map (fun p => ecore (snd p)) (aiter (m_elements (ps_m s)))) (fst r)).
  { apply Forall2_map_l. eapply Forall2_impl; [|exact F]. cbn beta. intros a b H. exists (el_name (snd a)).
    unfold ecore. cbn [fst snd]. destruct (snd a); exact H. }
  rewrite HA in F'. apply Forall2_map_l in F'. eapply Forall2_impl; [|exact F']. cbn beta. intros a b H.
  assert (R : elem_rt (snd r) a b) by (apply emit_elem_rt; right; exact H).
  clear - R XL. unfold elem_rt, ren_const, get_idx in *. rewrite !XL by discriminate. exact R.
Qed.
Theorem structure_elems : forall cf ver w s ilen dw e l, parseM cf ver w = POk s -> emitM (ps_m s) ilen dw = Ok e ->
  stream_wf w = true -> In (S_Elems l) w -> l <> [] ->
  exists es, In (S_Elems es) (em_secs e) /\ Forall2 (elem_rt (em_x2i e)) l es.
Proof.
  intros cf ver w s ilen dw e l Hp He Hwf Hin Hne.
  assert (E : flat_map elems_of w = l).
  { apply (wf_flat_map elems_of 8 w (S_Elems l) Hwf); [lia| |exact Hin|reflexivity]. intros [] Hs; (reflexivity || discriminate). }
  rewrite <- E in *. eapply structure_elems_gen; eauto.
Qed.

(* stream_wf is satisfiable by a non-trivial stream *)
Definition ex_table : wtable := {| wt_elem := RT_Funcref; wt_64 := false; wt_init := 1%N; wt_max := Some 2%N |}.
Definition ex_mem : wmem := {| wm_64 := false; wm_shared := false; wm_init := 1%N; wm_max := None; wm_page := None |}.
Definition ex_stream : list wsec :=
  [ S_Custom (CS_Raw [1%N] []);
    S_Types [([], [])];
    S_Imports [ {| wi_module := [109%N]; wi_name := [116%N]; wi_kind := WI_Table ex_table |};
                {| wi_module := [109%N]; wi_name := [102%N]; wi_kind := WI_Func 0%N |} ];
    S_Tables [ex_table; ex_table];
    S_Mems [ex_mem];
    S_Globals [({| wg_ty := VT_I32; wg_mut := true; wg_shared := false |}, WC_I32 7%Z)];
    S_Exports [ {| we_name := [101%N]; we_kind := EK_Table; we_index := 1%N |} ];
    S_Start 0%N;
    S_Custom (CS_Raw [2%N] [3%N]) ].
Example ex_stream_wf : stream_wf ex_stream = true.
Proof. reflexivity. Qed.
Example ex_stream_not_wf : stream_wf (S_Tables [ex_table] :: ex_stream) = false.
Proof. reflexivity. Qed.

Print Assumptions attr_table_local_rt.
Print Assumptions attr_table_import_rt.
Print Assumptions attr_memory_local_rt.
Print Assumptions attr_memory_import_rt.
Print Assumptions attr_global_local_rt.
Print Assumptions attr_global_import_rt.
Print Assumptions structure_tables.
Print Assumptions structure_mems.
Print Assumptions structure_tables_gen.
Print Assumptions structure_mems_gen.
Print Assumptions structure_imports.
Print Assumptions structure_imports_gen.
Print Assumptions structure_start.
Print Assumptions structure_start_gen.
Print Assumptions structure_start_none.
Print Assumptions structure_exports.
Print Assumptions structure_exports_gen.
Print Assumptions structure_globals.
Print Assumptions structure_globals_gen.
Print Assumptions structure_counts.
Print Assumptions structure_elems.
Print Assumptions structure_elems_gen.
Print Assumptions rho_entity.
Print Assumptions rho_entity_conv.
