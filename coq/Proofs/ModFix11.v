(* Local variable declarations are a fixpoint of parse;emit (list level, no module).
   emit_locals groups the used non-parameter locals by type (all_valtys order, ids increasing within
   a type).  If the emitted declaration is re-parsed (fresh consecutive ids: parameters first, then one
   id per declared local in declaration order) and every declared local is used again, emit_locals
   returns the SAME declaration and the identity renumbering. *)
From Coq Require Import List NArith Arith Lia Bool Permutation Sorted.
Import ListNotations.
From WV Require Import Gen.Ops Model.Common Model.IR Model.Locals Model.ParseM.
From WV Require Import Proofs.Order Proofs.Locals3.
Local Open Scope nat_scope.

Lemma expand_locals_eq l : expand_locals l = expand l.
Proof. reflexivity. Qed.

(* the non-parameter used locals in emission order *)
Definition grouped (ty : N -> valty) (args used : list N) : list N := flat_map snd (locals_groups ty args used).

Lemma grouped_eq ty args used :
  grouped ty args used = flat_map (fun t => of_type ty t (non_args args used)) all_valtys.
Proof. unfold grouped, locals_groups. apply flat_map_nonempty. Qed.

Lemma SS_app {A} (R : A -> A -> Prop) l1 l2 :
  StronglySorted R l1 -> StronglySorted R l2 -> (forall x y, In x l1 -> In y l2 -> R x y) ->
  StronglySorted R (l1 ++ l2).
Proof.
  induction 1 as [|a l1 Hs IH Hall]; intros S2 Hc; cbn [app]; auto.
  constructor.
  - apply IH; auto. intros x y Hx Hy. apply Hc; auto. now right.
  - apply Forall_app. split; auto. rewrite Forall_forall. intros y Hy. apply Hc; auto. now left.
Qed.

Lemma seq_ids_sorted : forall n s, StronglySorted N.lt (map N.of_nat (seq s n)).
Proof.
  induction n as [|n IH]; intros s; cbn [seq map]; constructor; auto.
  rewrite Forall_forall. intros x Hx. apply in_map_iff in Hx. destruct Hx as (k & <- & Hk).
  apply in_seq in Hk. lia.
Qed.

Lemma in_seq_ids x s n : In x (map N.of_nat (seq s n)) <-> exists k, x = N.of_nat k /\ s <= k < s + n.
Proof.
  rewrite in_map_iff. split.
  - intros (k & <- & Hk). apply in_seq in Hk. eauto.
  - intros (k & -> & Hk). exists k. split; auto. apply in_seq. lia.
Qed.

Lemma nth_error_seq_ids base n p : p < n -> nth_error (map N.of_nat (seq base n)) p = Some (N.of_nat (base + p)).
Proof. intros Hp. rewrite nth_error_map, (nth_error_nth' _ 0) by (now rewrite seq_length). now rewrite seq_nth. Qed.
Lemma nth_error_seq_ids_inv base n p x : nth_error (map N.of_nat (seq base n)) p = Some x -> p < n /\ x = N.of_nat (base + p).
Proof.
  intros H. assert (Hp : p < n) by (rewrite <- (seq_length n base), <- (map_length N.of_nat); apply nth_error_Some; congruence).
  rewrite (nth_error_seq_ids _ _ _ Hp) in H. injection H as <-. auto.
Qed.
Lemma seq_combine_index base n p : p < n ->
  local_index (combine (map N.of_nat (seq base n)) (map N.of_nat (seq 0 n))) (N.of_nat (base + p)) = Some (N.of_nat p).
Proof.
  intros Hp. pose proof (lookup_combine_nodup (map N.of_nat (seq base n)) 0 p (N.of_nat (base + p))) as L.
  rewrite map_length, seq_length in L.
  exact (L (StronglySorted_lt_NoDup _ (seq_ids_sorted n base)) (nth_error_seq_ids _ _ _ Hp)).
Qed.

Lemma Forall2_typed_map (ty : N -> valty) l l' :
  Forall2 (fun id t => valty_code t = valty_code (ty id)) l l' -> l' = map ty l.
Proof.
  induction 1 as [|a b l l' Hab HF IH]; cbn [map]; auto. apply valty_code_inj in Hab. congruence.
Qed.

Lemma nth_error_in_combine {A B} (f : nat -> B) (a : list A) : forall s k x,
  nth_error a k = Some x -> In (x, f (s + k)) (combine a (map f (seq s (length a)))).
Proof.
  induction a as [|z a IH]; intros s k x H; [destruct k; discriminate|].
  cbn [length seq map combine]. destruct k as [|k]; cbn in H.
  - inversion H; subst. left. f_equal. f_equal. lia.
  - right. replace (s + S k) with (S s + k) by lia. now apply IH.
Qed.

(* the order in which emit_locals lays the non-parameters out: (type code, id) lexicographic *)
Section TLt.
  Variable ty : N -> valty.

  Definition tlt (a b : N) : Prop :=
    (valty_code (ty a) < valty_code (ty b))%N \/ (valty_code (ty a) = valty_code (ty b) /\ (a < b)%N).

  Lemma of_type_in t l x : In x (of_type ty t l) <-> In x l /\ valty_code (ty x) = valty_code t.
  Proof. unfold of_type. rewrite filter_In, N.eqb_eq. tauto. Qed.

  Lemma of_type_tsorted t l : StronglySorted N.lt l -> StronglySorted tlt (of_type ty t l).
  Proof.
    induction 1 as [|a l Hs IH Hall]; [constructor|].
    unfold of_type. cbn [filter]. destruct (N.eqb_spec (valty_code (ty a)) (valty_code t)) as [E|_]; auto.
    constructor; auto. rewrite Forall_forall in *. intros x Hx. apply of_type_in in Hx.
    destruct Hx as (Hx & Ex). apply Hall in Hx. unfold tlt. right. split; [congruence|exact Hx].
  Qed.

  Lemma flat_of_type_tsorted l : StronglySorted N.lt l -> forall ts, StronglySorted vt_lt ts ->
    StronglySorted tlt (flat_map (fun t => of_type ty t l) ts).
  Proof.
    intros Sl. induction 1 as [|t ts Hs IH Hall]; cbn [flat_map]; [constructor|].
    apply SS_app; auto using of_type_tsorted.
    intros x y Hx Hy. apply of_type_in in Hx. apply in_flat_map in Hy. destruct Hy as (t' & Ht' & Hy).
    apply of_type_in in Hy. rewrite Forall_forall in Hall. apply Hall in Ht'. unfold vt_lt in Ht'.
    unfold tlt. left. destruct Hx as (_ & ->). destruct Hy as (_ & ->). exact Ht'.
  Qed.

  Lemma tsorted_of_lt_le l : StronglySorted N.lt l -> StronglySorted ty_le_code (map ty l) -> StronglySorted tlt l.
  Proof.
    induction 1 as [|a l Hs IH Hall]; intros Ht; [constructor|].
    cbn [map] in Ht. inversion Ht as [|? ? Ht' Hta]; subst. constructor; auto.
    rewrite Forall_forall in *. intros x Hx. pose proof (Hall x Hx) as Hlt.
    pose proof (Hta (ty x) (in_map ty _ _ Hx)) as Hle. unfold ty_le_code in Hle. unfold tlt. lia.
  Qed.

  Lemma non_args_sorted args used : StronglySorted N.lt (non_args args used).
  Proof. unfold non_args. apply StronglySorted_filter, sort_ids_sorted. Qed.

  Lemma grouped_tsorted args used : StronglySorted tlt (grouped ty args used).
  Proof. rewrite grouped_eq. apply flat_of_type_tsorted; [apply non_args_sorted|apply all_valtys_vt_sorted]. Qed.

  Lemma grouped_perm args used : Permutation (grouped ty args used) (non_args args used).
  Proof. apply groups_perm. Qed.

  Lemma grouped_in args used x : In x (grouped ty args used) <-> In x used /\ ~ In x args.
  Proof.
    rewrite <- (non_args_in ty). split; apply Permutation_in; [|apply Permutation_sym]; apply grouped_perm.
  Qed.

  Lemma expand_grouped args used :
    expand (map (fun g : valty * list N => (len_N (snd g), fst g)) (locals_groups ty args used))
    = map ty (grouped ty args used).
  Proof. apply Forall2_typed_map, order_typed. Qed.

  Theorem emit_locals_decls_grouped : forall args used decls lmap,
    emit_locals ty args used = (decls, lmap) ->
    StronglySorted decl_lt decls /\                                   (* strictly increasing valty_code *)
    Forall (fun d : N * valty => (0 < fst d)%N) decls /\               (* no empty run *)
    expand_locals decls = map ty (grouped ty args used) /\            (* slot j declares the type of the j-th grouped local *)
    StronglySorted ty_le_code (expand_locals decls) /\                (* grouped by type, all_valtys order *)
    StronglySorted tlt (grouped ty args used) /\                      (* (type, id) lexicographic *)
    (forall x, In x (grouped ty args used) <-> In x used /\ ~ In x args) /\
    NoDup (grouped ty args used) /\
    lmap = combine (args ++ grouped ty args used)
                   (map N.of_nat (seq 0 (length args + length (grouped ty args used)))).
  Proof.
    intros args used decls lmap E.
    pose proof (locals_decls_canonical ty _ _ _ _ E (non_args args used) (non_args_NoDup args used)
                  (non_args_in ty args used)) as (_ & Hs & _ & Hpos & _).
    pose proof (locals_decls_contiguous ty _ _ _ _ E) as Hc.
    rewrite emit_locals_eq in E. inversion E; subst; clear E.
    split; [exact Hs|]. split.
    { rewrite Forall_forall in *. intros d Hd. apply Hpos in Hd. lia. }
    split; [apply expand_grouped|]. split; [exact Hc|]. split; [apply grouped_tsorted|].
    split; [apply grouped_in|]. split.
    { eapply Permutation_NoDup; [apply Permutation_sym, grouped_perm|apply non_args_NoDup]. }
    unfold locals_order. fold (grouped ty args used). now rewrite app_length.
  Qed.
End TLt.

Lemma map_ty_seq_ids (ty2 : N -> valty) d : forall tys s,
  (forall j, j < length tys -> valty_code (ty2 (N.of_nat (s + j))) = valty_code (nth j tys d)) ->
  map ty2 (map N.of_nat (seq s (length tys))) = tys.
Proof.
  induction tys as [|t tys IH]; intros s H; [reflexivity|].
  cbn [length seq map]. f_equal.
  - specialize (H 0). cbn [length nth] in H. rewrite Nat.add_0_r in H. apply valty_code_inj, H. lia.
  - apply IH. intros j Hj. specialize (H (S j)). cbn [length nth] in H.
    replace (S s + j) with (s + S j) by lia. apply H. lia.
Qed.

Section Fix.
  Variables (ty1 ty2 : N -> valty) (args1 used1 used2 : list N) (decls : list (N * valty)) (lmap : list (N * N)).
  Variable base : nat.
  Hypothesis E1 : emit_locals ty1 args1 used1 = (decls, lmap).

  Let na := length args1.
  Let tys := expand_locals decls.
  Let args2 := map N.of_nat (seq base na).
  Let locals2 := map N.of_nat (seq (base + na) (length tys)).

  Hypothesis Hty2 : forall j, j < length tys ->
    valty_code (ty2 (N.of_nat (base + na + j))) = valty_code (nth j tys VT_I32).
  Hypothesis Hsub : forall x, In x used2 -> In x (args2 ++ locals2).
  Hypothesis Hall : forall x, In x locals2 -> In x used2.

  Lemma fx_disjoint x : In x args2 -> In x locals2 -> False.
  Proof.
    unfold args2, locals2. rewrite !in_seq_ids. intros (k & -> & Hk) (k' & E & Hk').
    apply Nat2N.inj in E. lia.
  Qed.

  Lemma fx_non_args : non_args args2 used2 = locals2.
  Proof.
    apply sorted_lt_ext; [apply non_args_sorted|apply seq_ids_sorted|].
    intros x. rewrite (non_args_in ty2). split.
    - intros (Hu & Hna). apply Hsub in Hu. apply in_app_iff in Hu. tauto.
    - intros Hl. split; [now apply Hall|]. intros Ha. exact (fx_disjoint x Ha Hl).
  Qed.

  Lemma fx_types : map ty2 locals2 = tys.
  Proof. unfold locals2. apply (map_ty_seq_ids ty2 VT_I32). exact Hty2. Qed.

  Lemma fx_tys1 : tys = map ty1 (grouped ty1 args1 used1).
  Proof. unfold tys. now destruct (emit_locals_decls_grouped ty1 _ _ _ _ E1) as (_ & _ & H & _). Qed.

  Lemma fx_decls : map (fun g : valty * list N => (len_N (snd g), fst g)) (locals_groups ty2 args2 used2) = decls.
  Proof.
    rewrite decls_eq, fx_non_args, fx_types, fx_tys1.
    pose proof E1 as E. rewrite emit_locals_eq in E. inversion E as [[Hd Hm]]. rewrite decls_eq.
    apply canonical_decls_perm, Permutation_map, grouped_perm.
  Qed.

  Lemma fx_grouped : grouped ty2 args2 used2 = locals2.
  Proof.
    apply (StronglySorted_ext (tlt ty2)); [unfold tlt; lia|apply grouped_tsorted| |].
    - apply tsorted_of_lt_le; [apply seq_ids_sorted|]. rewrite fx_types. unfold tys.
      rewrite expand_locals_eq. exact (locals_decls_contiguous ty1 _ _ _ _ E1).
    - intros x. rewrite grouped_in, <- (non_args_in ty2), fx_non_args. tauto.
  Qed.

  Theorem emit_locals_fixpoint_sec :
    emit_locals ty2 args2 used2 =
      (decls, combine (args2 ++ locals2) (map N.of_nat (seq 0 (na + length tys)))).
  Proof.
    rewrite emit_locals_eq, fx_decls. f_equal. unfold locals_order. fold (grouped ty2 args2 used2).
    rewrite fx_grouped. do 3 f_equal. unfold args2, locals2.
    now rewrite app_length, !map_length, !seq_length.
  Qed.

  Lemma fx_order : args2 ++ locals2 = map N.of_nat (seq base (na + length tys)).
  Proof. unfold args2, locals2. now rewrite seq_app, map_app. Qed.
End Fix.

Theorem emit_locals_fixpoint : forall ty1 args1 used1 decls lmap ty2 base used2,
  emit_locals ty1 args1 used1 = (decls, lmap) ->
  let na := length args1 in
  let tys := expand_locals decls in
  let args2 := map N.of_nat (seq base na) in
  let locals2 := map N.of_nat (seq (base + na) (length tys)) in
  (forall j, j < length tys -> valty_code (ty2 (N.of_nat (base + na + j))) = valty_code (nth j tys VT_I32)) ->
  (forall x, In x used2 -> In x (args2 ++ locals2)) ->
  (forall x, In x locals2 -> In x used2) ->
  emit_locals ty2 args2 used2 =
    (decls, combine (args2 ++ locals2) (map N.of_nat (seq 0 (na + length tys)))).
Proof. intros. eapply emit_locals_fixpoint_sec; eauto. Qed.

Theorem emit_locals_fixpoint_index : forall ty1 args1 used1 decls lmap ty2 base used2 decls2 lmap2,
  emit_locals ty1 args1 used1 = (decls, lmap) ->
  let na := length args1 in
  let tys := expand_locals decls in
  let args2 := map N.of_nat (seq base na) in
  let locals2 := map N.of_nat (seq (base + na) (length tys)) in
  (forall j, j < length tys -> valty_code (ty2 (N.of_nat (base + na + j))) = valty_code (nth j tys VT_I32)) ->
  (forall x, In x used2 -> In x (args2 ++ locals2)) ->
  (forall x, In x locals2 -> In x used2) ->
  emit_locals ty2 args2 used2 = (decls2, lmap2) ->
  decls2 = decls /\
  args2 ++ locals2 = map N.of_nat (seq base (na + length tys)) /\
  (forall p, p < na + length tys -> local_index lmap2 (N.of_nat (base + p)) = Some (N.of_nat p)) /\
  (forall p d, p < na + length tys -> local_index lmap2 (nth p (args2 ++ locals2) d) = Some (N.of_nat p)) /\
  (forall id i, local_index lmap2 id = Some i -> id = N.of_nat (base + N.to_nat i) /\ N.to_nat i < na + length tys).
Proof.
  intros ty1 args1 used1 decls lmap ty2 base used2 decls2 lmap2 E1 na tys args2 locals2 Hty Hsub Hall E2.
  assert (F : emit_locals ty2 args2 used2 =
              (decls, combine (args2 ++ locals2) (map N.of_nat (seq 0 (na + length tys)))))
    by exact (emit_locals_fixpoint ty1 args1 used1 decls lmap ty2 base used2 E1 Hty Hsub Hall).
  rewrite F in E2. inversion E2; subst decls2 lmap2; clear E2 F.
  assert (Ho : args2 ++ locals2 = map N.of_nat (seq base (na + length tys))) by exact (fx_order args1 decls base).
  split; [reflexivity|]. split; [exact Ho|]. rewrite Ho. split; [apply seq_combine_index|]. split.
  - intros p d Hp. rewrite (nth_error_nth _ _ d (nth_error_seq_ids _ _ _ Hp)). now apply seq_combine_index.
  - intros id i H. pose proof (lookup_combine_inv (map N.of_nat (seq base (na + length tys))) 0 id i) as L.
    rewrite map_length, seq_length in L. apply L in H. destruct H as (k & Hk & ->).
    apply nth_error_seq_ids_inv in Hk. rewrite Nat2N.id. exact (conj (proj2 Hk) (proj1 Hk)).
Qed.

(* the fixpoint with the type premise in nth_error form (the form parseM_local_map delivers) *)
Corollary emit_locals_fixpoint_nth_error : forall ty1 args1 used1 decls lmap ty2 base used2,
  emit_locals ty1 args1 used1 = (decls, lmap) ->
  let na := length args1 in
  let tys := expand_locals decls in
  let args2 := map N.of_nat (seq base na) in
  let locals2 := map N.of_nat (seq (base + na) (length tys)) in
  (forall j t, nth_error tys j = Some t -> ty2 (N.of_nat (base + na + j)) = t) ->
  (forall x, In x used2 -> In x (args2 ++ locals2)) ->
  (forall x, In x locals2 -> In x used2) ->
  emit_locals ty2 args2 used2 =
    (decls, combine (args2 ++ locals2) (map N.of_nat (seq 0 (na + length tys)))).
Proof.
  intros ty1 args1 used1 decls lmap ty2 base used2 E1 na tys args2 locals2 Hty Hsub Hall.
  apply (emit_locals_fixpoint ty1 args1 used1 decls lmap ty2 base used2 E1); auto.
  intros j Hj. f_equal. apply Hty. now apply nth_error_nth'.
Qed.

Theorem emit_locals_index_type : forall ty1 args1 used1 decls lmap,
  emit_locals ty1 args1 used1 = (decls, lmap) ->
  forall id i, In (id, i) lmap -> ~ In id args1 ->
    length args1 <= N.to_nat i /\
    nth_error (grouped ty1 args1 used1) (N.to_nat i - length args1) = Some id /\
    nth_error (expand_locals decls) (N.to_nat i - length args1) = Some (ty1 id) /\
    In id used1.
Proof.
  intros ty1 args1 used1 decls lmap E id i Hin Hna.
  destruct (emit_locals_decls_grouped ty1 _ _ _ _ E) as (_ & _ & Hex & _ & _ & Hmem & _ & Hm).
  subst lmap. rewrite <- app_length in Hin. apply in_combine_seq in Hin. destruct Hin as (k & Hk & ->).
  cbn [Nat.add]. rewrite Nat2N.id.
  assert (Hle : length args1 <= k).
  { destruct (le_lt_dec (length args1) k) as [H|H]; auto. exfalso. apply Hna.
    rewrite nth_error_app1 in Hk by exact H. eapply nth_error_In; eauto. }
  rewrite nth_error_app2 in Hk by exact Hle.
  split; [exact Hle|]. split; [exact Hk|]. split.
  - rewrite Hex. now apply map_nth_error.
  - apply nth_error_In in Hk. exact (proj1 (proj1 (Hmem id) Hk)).
Qed.

Corollary emit_locals_index_type_code : forall ty1 args1 used1 decls lmap,
  emit_locals ty1 args1 used1 = (decls, lmap) ->
  forall id i, In (id, i) lmap -> ~ In id args1 ->
    exists t, nth_error (expand_locals decls) (N.to_nat i - length args1) = Some t /\
              valty_code t = valty_code (ty1 id).
Proof.
  intros ty1 args1 used1 decls lmap E id i Hin Hna.
  destruct (emit_locals_index_type _ _ _ _ _ E id i Hin Hna) as (_ & _ & H & _). eauto.
Qed.

Corollary emit_locals_lookup_type : forall ty1 args1 used1 decls lmap,
  emit_locals ty1 args1 used1 = (decls, lmap) ->
  forall id i, local_index lmap id = Some i -> ~ In id args1 ->
    length args1 <= N.to_nat i /\
    nth_error (expand_locals decls) (N.to_nat i - length args1) = Some (ty1 id) /\ In id used1.
Proof.
  intros ty1 args1 used1 decls lmap E id i H Hna. apply (lookup_some_in lmap id i) in H.
  destruct (emit_locals_index_type _ _ _ _ _ E id i H Hna) as (H1 & _ & H2 & H3). auto.
Qed.

(* every declared slot is hit by exactly one local, and that one is a used non-parameter *)
Theorem emit_locals_slots_bij : forall ty1 args1 used1 decls lmap,
  emit_locals ty1 args1 used1 = (decls, lmap) ->
  length (expand_locals decls) = length (grouped ty1 args1 used1) /\
  forall j, j < length (expand_locals decls) ->
    exists id, In id used1 /\ ~ In id args1 /\
      nth_error (grouped ty1 args1 used1) j = Some id /\
      In (id, N.of_nat (length args1 + j)) lmap /\
      (forall id', In (id', N.of_nat (length args1 + j)) lmap -> id' = id).
Proof.
  intros ty1 args1 used1 decls lmap E.
  destruct (emit_locals_decls_grouped ty1 _ _ _ _ E) as (_ & _ & Hex & _ & _ & Hmem & _ & Hm).
  assert (Hlen : length (expand_locals decls) = length (grouped ty1 args1 used1)) by (now rewrite Hex, map_length).
  split; [exact Hlen|]. intros j Hj. rewrite Hlen in Hj.
  destruct (nth_error (grouped ty1 args1 used1) j) as [id|] eqn:Hn; [|apply nth_error_None in Hn; lia].
  exists id. pose proof (nth_error_In _ _ Hn) as Hi. apply Hmem in Hi. destruct Hi as (Hu & Hna).
  assert (Ho : nth_error (args1 ++ grouped ty1 args1 used1) (length args1 + j) = Some id).
  { rewrite nth_error_app2 by lia. now replace (length args1 + j - length args1) with j by lia. }
  split; [exact Hu|]. split; [exact Hna|]. split; [reflexivity|]. subst lmap. rewrite <- app_length. split.
  - exact (nth_error_in_combine N.of_nat _ 0 _ _ Ho).
  - intros id' Hin. apply in_combine_seq in Hin. destruct Hin as (k & Hk & Ek). cbn [Nat.add] in Ek.
    apply Nat2N.inj in Ek. subst k. congruence.
Qed.

(* with distinct parameters the association list is a function: local_index = membership *)
Theorem emit_locals_index_iff : forall ty1 args1 used1 decls lmap, NoDup args1 ->
  emit_locals ty1 args1 used1 = (decls, lmap) ->
  forall id i, local_index lmap id = Some i <-> In (id, i) lmap.
Proof.
  intros ty1 args1 used1 decls lmap ND E id i. split; [apply lookup_some_in|].
  intros Hin. pose proof E as E'. rewrite emit_locals_eq in E'. inversion E'; subst; clear E'.
  pose proof Hin as Hin'. apply in_combine_seq in Hin'. destruct Hin' as (k & Hk & ->).
  exact (order_lookup ty1 _ _ _ _ _ _ ND E Hk).
Qed.

(* the form closest to the module level: the re-parsed body uses exactly the images
   base + lmap(id) of the locals used by the first body *)
Theorem emit_locals_fixpoint_renamed : forall ty1 args1 used1 decls lmap ty2 base used2, NoDup args1 ->
  emit_locals ty1 args1 used1 = (decls, lmap) ->
  let na := length args1 in
  let tys := expand_locals decls in
  let args2 := map N.of_nat (seq base na) in
  let locals2 := map N.of_nat (seq (base + na) (length tys)) in
  (forall j t, nth_error tys j = Some t -> ty2 (N.of_nat (base + na + j)) = t) ->
  (forall x, In x used2 <-> exists id i, In id used1 /\ local_index lmap id = Some i /\ x = N.of_nat (base + N.to_nat i)) ->
  emit_locals ty2 args2 used2 =
    (decls, combine (args2 ++ locals2) (map N.of_nat (seq 0 (na + length tys)))).
Proof.
  intros ty1 args1 used1 decls lmap ty2 base used2 ND E1 na tys args2 locals2 Hty Hu.
  apply (emit_locals_fixpoint_nth_error ty1 args1 used1 decls lmap ty2 base used2 E1); auto.
  - intros x Hx. apply Hu in Hx. destruct Hx as (id & i & _ & Hi & ->).
    assert (Ho : args2 ++ locals2 = map N.of_nat (seq base (na + length tys))) by exact (fx_order args1 decls base).
    assert (G : In (N.of_nat (base + N.to_nat i)) (map N.of_nat (seq base (na + length tys))));
      [|rewrite <- Ho in G; exact G].
    apply in_seq_ids. exists (base + N.to_nat i). split; auto.
    apply (lookup_some_in lmap id i) in Hi.
    destruct (emit_locals_decls_grouped ty1 _ _ _ _ E1) as (_ & _ & Hex & _ & _ & _ & _ & Hm).
    assert (Hl : length tys = length (grouped ty1 args1 used1)) by (unfold tys; now rewrite Hex, map_length).
    rewrite Hm, <- app_length in Hi. apply in_combine_seq in Hi. destruct Hi as (k & Hk & ->).
    assert (k < length (args1 ++ grouped ty1 args1 used1)) by (apply nth_error_Some; congruence).
    rewrite app_length in *. cbn [Nat.add]. rewrite Nat2N.id. rewrite Hl. unfold na. lia.
  - intros x Hx. unfold locals2 in Hx. apply in_seq_ids in Hx. destruct Hx as (k & -> & Hk).
    destruct (emit_locals_slots_bij ty1 _ _ _ _ E1) as (_ & Hb).
    destruct (Hb (k - (base + na))) as (id & Hid & _ & _ & Hin & _); [unfold tys, na in *; lia|].
    apply Hu. exists id, (N.of_nat (length args1 + (k - (base + na)))). split; auto. split.
    + now apply (emit_locals_index_iff ty1 args1 used1 decls lmap ND E1).
    + rewrite Nat2N.id. f_equal. unfold tys, na in *. lia.
Qed.

Print Assumptions emit_locals_decls_grouped.
Print Assumptions emit_locals_fixpoint.
Print Assumptions emit_locals_fixpoint_nth_error.
Print Assumptions emit_locals_fixpoint_index.
Print Assumptions emit_locals_index_type.
Print Assumptions emit_locals_index_type_code.
Print Assumptions emit_locals_lookup_type.
Print Assumptions emit_locals_slots_bij.
Print Assumptions emit_locals_index_iff.
Print Assumptions emit_locals_fixpoint_renamed.
