(* append_instruction (decode) and Emit::visit_instr (encode), as regenerated in Gen/Ops.v, are mutually inverse on
   every supported operator, up to the renaming of indices.  Each generated table is gone through once, by one case
   analysis over the operators; what other files need of the codec are corollaries of these few lemmas. *)
From Coq Require Import NArith ZArith List Lia Bool Permutation. Import ListNotations. Open Scope N_scope.
From WV Require Import Gen.Ops.

Lemma log2_loop_pow2 : forall a, a < 64 -> log2_loop 64 (N.shiftl 1 a) 0 = a.
Proof.
  intros a H. assert (Hn : (N.to_nat a < 64)%nat) by lia.
  rewrite <- (N2Nat.id a). generalize dependent (N.to_nat a). clear.
  intros n Hn. do 64 (destruct n as [|n]; [vm_compute; reflexivity|]). lia.
Qed.

Lemma shiftl_small a : a < 32 -> N.shiftl 1 a mod 2^32 = N.shiftl 1 a.
Proof. intros H. apply N.mod_small. rewrite N.shiftl_1_l. apply N.pow_lt_mono_r; lia. Qed.

Lemma log2_loop_bound : forall f k x acc, x < 2 ^ N.of_nat (S k) -> log2_loop f x acc <= acc + N.of_nat k.
Proof.
  induction f as [|f IH]; intros k x acc H; cbn [log2_loop]; [lia|].
  destruct (N.ltb_spec 1 x) as [Hx|Hx]; [|lia].
  destruct k as [|k].
  - change (2 ^ N.of_nat 1) with 2 in H. lia.
  - specialize (IH k (N.shiftr x 1) (acc + 1)).
    assert (Hs : N.shiftr x 1 < 2 ^ N.of_nat (S k)).
    { rewrite N.shiftr_div_pow2. change (2 ^ 1) with 2.
      apply N.div_lt_upper_bound; [lia|].
      replace (N.of_nat (S (S k))) with (N.succ (N.of_nat (S k))) in H by lia.
      rewrite N.pow_succ_r' in H. exact H. }
    specialize (IH Hs). lia.
Qed.
(* the memarg the encoder writes from a u32 alignment and a u32 offset: its exponent is below 32, its offset below 2^32 *)
Lemma enc_align_ok id2i mem a off :
  wa_align (enc_memarg id2i mem {| ia_align := a mod 2 ^ 32; ia_offset := off |}) < 32.
Proof.
  unfold enc_memarg. cbn [wa_align ia_align].
  pose proof (log2_loop_bound 64 31 (a mod 2 ^ 32) 0) as B.
  assert (H : a mod 2 ^ 32 < 2 ^ N.of_nat 32) by (apply N.mod_lt; discriminate).
  specialize (B H). lia.
Qed.
Lemma enc_offset_ok id2i mem a off :
  ~ 2 ^ 32 <= wa_offset (enc_memarg id2i mem {| ia_align := a; ia_offset := off mod 2 ^ 32 |}).
Proof.
  unfold enc_memarg. cbn [wa_offset ia_offset].
  assert (H : off mod 2 ^ 32 < 2 ^ 32) by (apply N.mod_lt; discriminate). lia.
Qed.

(* THE CONSTRUCTOR NUMBER of an operator ([wop_code] starts with it) *)
Definition op_tag (o : wop) : N := hd 0 (wop_code o).

Section Codec.
  Variables i2id id2i rho : space -> N -> N.
  Hypothesis Hrho : forall s i, id2i s (i2id s i) = rho s i.

  Lemma memarg_rt m : wa_align m < 32 -> wa_offset m < 2^32 ->
    enc_memarg id2i (i2id S_memory (wa_memory m))
      {| ia_align := N.shiftl 1 (wa_align m) mod 2^32; ia_offset := wa_offset m mod 2^32 |} = map_memarg rho m.
  Proof.
    intros Ha Ho. unfold enc_memarg, map_memarg. cbn [ia_align ia_offset].
    rewrite shiftl_small by exact Ha. rewrite log2_loop_pow2 by lia. rewrite N.mod_small by exact Ho.
    rewrite Hrho. reflexivity.
  Qed.

  (* what the validator guarantees about immediates (alignment exponent at most
     the natural alignment, hence < 32; ref.null only on func/extern under
     walrus's feature set) *)
  Definition imm_ok (o : wop) : Prop :=
    match op_memarg o with Some m => wa_align m < 32 | None => True end /\
    match o with W_RefNull (HT_Other _) => False | _ => True end.

  (* KNOWN FINDING (known_findings.json, class memarg-offset-ge-2^32): ir::MemArg.offset is
     a u32, so a memory64 offset >= 2^32 is truncated by `arg.offset as u32`. *)
  Definition known_big_offset (o : wop) : Prop :=
    match op_memarg o with Some m => 2^32 <= wa_offset m | None => False end.

  Definition rt_ok (o : wop) : Prop :=
    match decode_plain i2id o with
    | Some p => encode_plain id2i p = Some (map_idx rho o)
    | None => False
    end.

  Lemma memarg_bounds o m : imm_ok o -> ~ known_big_offset o -> op_memarg o = Some m -> wa_align m < 32 /\ wa_offset m < 2^32.
  Proof. unfold imm_ok, known_big_offset. intros [Ha _] K E. rewrite E in *. split; [exact Ha|lia]. Qed.

  (* What decode-then-encode makes of an operator [o] it accepts, whatever the immediates of [o]: the same constructor
     (hence the same "ends the sequence" class), with a memarg re-encoded from a u32 alignment and a u32 offset, so that
     the result is again in the class on which the codec is the identity up to renaming. *)
  Definition codec_img (o w : wop) : Prop :=
    op_tag w = op_tag o /\ marks_unreachable w = marks_unreachable o /\ imm_ok w /\ ~ known_big_offset w.

  (* One case per operator of Gen/Ops.v: both translations are evaluated on it.  An operator without memarg is re-encoded
     as itself, renamed; one with a memarg needs the two bounds above and [memarg_rt]; ref.null its heap type. *)
  Lemma codec_spec o :
    match decode_plain i2id o with
    | Some p => match encode_plain id2i p with
                | Some w => codec_img o w /\ (imm_ok o -> ~ known_big_offset o -> w = map_idx rho o)
                | None => False
                end
    | None => ~ imm_ok o
    end.
  Proof.
    destruct o; cbn [decode_plain encode_plain map_idx]; try (destruct a_hty; cbn [encode_plain]); rewrite ?Hrho;
    first [ exact (conj (conj eq_refl (conj eq_refl (conj (conj I I) (fun H : False => H)))) (fun _ _ => eq_refl))
          | intros [_ []]
          | split; [exact (conj eq_refl (conj eq_refl (conj (conj (enc_align_ok _ _ _ _) I) (enc_offset_ok _ _ _ _))))|] ].
    all: intros H K; destruct (memarg_bounds _ _ H K eq_refl) as [Ha Ho]; rewrite (memarg_rt _ Ha Ho); reflexivity.
  Qed.

  Theorem codec_roundtrip : forall o, imm_ok o -> ~ known_big_offset o -> rt_ok o.
  Proof.
    intros o H K. unfold rt_ok. pose proof (codec_spec o) as S.
    destruct (decode_plain i2id o) as [p|]; [|exact (S H)].
    destruct (encode_plain id2i p) as [w|]; [|elim S]. f_equal. apply S; assumption.
  Qed.
End Codec.

(* [codec_img] does not mention [rho]: [fun _ _ => eq_refl] takes [rho := fun s i => id2i s (i2id s i)] *)
Lemma codec_image i2id id2i o p w : decode_plain i2id o = Some p -> encode_plain id2i p = Some w -> codec_img o w.
Proof.
  intros Hd He. pose proof (codec_spec i2id id2i _ (fun _ _ => eq_refl) o) as S. rewrite Hd, He in S. apply S.
Qed.
Lemma codec_tag i2id id2i o p w : decode_plain i2id o = Some p -> encode_plain id2i p = Some w -> op_tag w = op_tag o.
Proof. intros Hd He. apply (codec_image _ _ _ _ _ Hd He). Qed.
(* the codec decodes whatever is in the class of the round trip *)
Lemma decode_total f o : imm_ok o -> decode_plain f o <> None.
Proof.
  intros Hi E. pose proof (codec_spec f f _ (fun _ _ => eq_refl) o) as S. rewrite E in S. exact (S Hi).
Qed.

(* REFERENCES.  [wop_refs]: the indices of an operator, in wire order; [visited_refs]: the ids the visitor reports for
   an instruction, in the order of the IR's fields.  The two orders differ (by a swap) for memory.init, memory.copy,
   table.init and table.copy. *)
Definition mapr (g : space -> N -> N) (l : list (space * N)) : list (space * N) :=
  map (fun r => (fst r, g (fst r) (snd r))) l.
Lemma in_mapr g s i l : In (s, i) l -> In (s, g s i) (mapr g l).
Proof. intros H. apply in_map_iff. exists (s, i). auto. Qed.
Lemma in_mapr_inv g s j l : In (s, j) (mapr g l) -> exists i, In (s, i) l /\ j = g s i.
Proof. intros H. apply in_map_iff in H. destruct H as ([s' i] & [= <- <-] & H). eauto. Qed.

Definition sel (f : space -> bool) (l : list (space * N)) : list N := map snd (filter (fun r => f (fst r)) l).
Definition is_local (s : space) : bool := match s with S_local => true | _ => false end.
Definition is_data (s : space) : bool := match s with S_data => true | _ => false end.

Lemma decode_visited i2id o :
  match decode_plain i2id o with
  | Some p => Permutation (visited_refs p) (mapr i2id (wop_refs o))
  | None => True
  end.
Proof.
  destruct o; try exact I; try apply Permutation_refl; try apply perm_swap.
  cbn [decode_plain]. destruct a_hty; first [exact I | apply Permutation_refl].
Qed.
Lemma decode_refs_iff i2id o p : decode_plain i2id o = Some p ->
  forall r, In r (visited_refs p) <-> In r (mapr i2id (wop_refs o)).
Proof.
  intros E r. pose proof (decode_visited i2id o) as V. rewrite E in V.
  split; apply Permutation_in; [exact V|exact (Permutation_sym V)].
Qed.

(* the generated encoder is total; locals and data segments it writes in the order of the visitor *)
Lemma encode_plain_refs id2i p :
  match encode_plain id2i p with
  | Some w => Permutation (wop_refs w) (mapr id2i (visited_refs p)) /\
              sel is_local (wop_refs w) = map (id2i S_local) (sel is_local (visited_refs p)) /\
              sel is_data (wop_refs w) = map (id2i S_data) (sel is_data (visited_refs p))
  | None => False
  end.
Proof.
  destruct p; cbn [encode_plain];
    repeat match goal with |- context [match ?x with _ => _ end] => is_var x; destruct x end;
    (split; [first [apply Permutation_refl | apply perm_swap]|split; reflexivity]).
Qed.
Lemma encode_total id2i p : encode_plain id2i p <> None.
Proof. intros E. pose proof (encode_plain_refs id2i p) as H. now rewrite E in H. Qed.
Lemma encode_refs_iff id2i p w : encode_plain id2i p = Some w ->
  forall r, In r (wop_refs w) <-> In r (mapr id2i (visited_refs p)).
Proof.
  intros E r. pose proof (encode_plain_refs id2i p) as H. rewrite E in H. destruct H as [V _].
  split; apply Permutation_in; [exact V|exact (Permutation_sym V)].
Qed.

(* the excluded class is inhabited and really fails (so the exclusion is a finding, not a convenience) *)
Lemma big_offset_refuted :
  exists o, imm_ok o /\ known_big_offset o /\ ~ rt_ok (fun _ i => i) (fun _ i => i) (fun _ i => i) o.
Proof.
  exists (W_I32Load {| wa_align := 2; wa_offset := 2^32 + 1; wa_memory := 0 |}).
  split; [split; [vm_compute; reflexivity|exact I]|]. split; [vm_compute; discriminate|].
  unfold rt_ok. vm_compute. discriminate.
Qed.

(* non-vacuity: an operator with a memarg (offset 2^32 - 1, the largest allowed) and a lane satisfies the premises *)
Example codec_nonvacuous :
  let o := W_V128Load8Lane {| wa_align := 0; wa_offset := 4294967295; wa_memory := 3 |} 15 in
  imm_ok o /\ ~ known_big_offset o.
Proof. split; [split; [vm_compute; reflexivity|exact I]|vm_compute]. intros H. apply H. reflexivity. Qed.

(* two memargs that satisfy [imm_ok] and are not [known_big_offset] *)
Definition memarg_samples : list w_memarg :=
  [ {| wa_align := 0; wa_offset := 0; wa_memory := 0 |}; {| wa_align := 1; wa_offset := 1; wa_memory := 1 |} ].
