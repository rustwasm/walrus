(* Local compaction (LocalFunction::emit_locals, Model/Locals.v) is a type-preserving bijection
   args ∪ used  <->  [0, n)  that fixes the parameters; the locals declaration is canonical.
   `lookup l lmap` below is the model's own `local_index lmap l` (first match in the association list). *)
From Coq Require Import List NArith Arith Lia Bool Permutation Sorted.
Import ListNotations.
From WV Require Import Gen.Ops Model.Common Model.IR Model.Locals.
From WV Require Import Proofs.Order.
Local Open Scope nat_scope.

Definition lookup (l : N) (lmap : list (N * N)) : option N := local_index lmap l.

(* the declared local types, one entry per declared local, in declaration order *)
Definition expand (decls : list (N * valty)) : list valty :=
  flat_map (fun d : N * valty => repeat (snd d) (N.to_nat (fst d))) decls.

Lemma valty_code_inj a b : valty_code a = valty_code b -> a = b.
Proof. destruct a, b; cbn; intros H; try reflexivity; discriminate. Qed.

Lemma lookup_some_in m l j : lookup l m = Some j -> In (l, j) m.
Proof.
  unfold lookup, local_index. destruct (find _ m) as [[a b]|] eqn:F; [|discriminate].
  intros H; inversion H; subst. apply find_some in F. destruct F as [Hin E]. cbn [fst] in E.
  apply N.eqb_eq in E. subst. exact Hin.
Qed.

Lemma lookup_combine_inv order s l j :
  lookup l (combine order (map N.of_nat (seq s (length order)))) = Some j ->
  exists k, nth_error order k = Some l /\ j = N.of_nat (s + k).
Proof. intros H. apply lookup_some_in in H. now apply in_combine_seq in H. Qed.

Lemma lookup_combine_nodup order : forall s k l, NoDup order -> nth_error order k = Some l ->
  lookup l (combine order (map N.of_nat (seq s (length order)))) = Some (N.of_nat (s + k)).
Proof.
  induction order as [|x order IH]; intros s k l ND Hk.
  - destruct k; discriminate.
  - inversion ND as [|? ? Hx ND']; subst. cbn [length seq map combine].
    unfold lookup, local_index. cbn [find fst]. destruct (N.eqb_spec x l) as [->|Hne].
    + destruct k as [|k].
      * cbn [snd]. do 2 f_equal. lia.
      * exfalso. cbn in Hk. apply nth_error_In in Hk. tauto.
    + destruct k as [|k]; cbn in Hk.
      * inversion Hk; congruence.
      * specialize (IH (S s) k l ND' Hk). unfold lookup, local_index in IH. rewrite IH.
        do 2 f_equal. lia.
Qed.

Lemma Forall2_len {A B} (R : A -> B -> Prop) l1 l2 : Forall2 R l1 l2 -> length l1 = length l2.
Proof. induction 1; cbn [length]; congruence. Qed.

Lemma StronglySorted_filter {A} (R : A -> A -> Prop) p l :
  StronglySorted R l -> StronglySorted R (filter p l).
Proof.
  induction 1 as [|a l Hs IH Hall]; cbn [filter]; [constructor|].
  destruct (p a); auto. constructor; auto.
  rewrite Forall_forall in *. intros x Hx. apply filter_In in Hx. apply Hall. tauto.
Qed.

Definition count_ty (t : valty) (tys : list valty) : nat :=
  length (filter (fun t' => N.eqb (valty_code t') (valty_code t)) tys).

(* one (count, type) run per type that occurs, in the order of all_valtys =
   I32, I64, F32, F64, V128, Funcref, Externref (= increasing valty_code = ValType's derived Ord) *)
Definition canonical_decls (tys : list valty) : list (N * valty) :=
  filter (fun d : N * valty => negb (N.eqb (fst d) 0))
         (map (fun t => (N.of_nat (count_ty t tys), t)) all_valtys).

Definition decl_lt (a b : N * valty) : Prop := (valty_code (snd a) < valty_code (snd b))%N.

Lemma count_ty_pos t tys : count_ty t tys <> 0 <-> In t tys.
Proof.
  unfold count_ty. induction tys as [|a tys IH]; cbn [filter In length]; [tauto|].
  destruct (N.eqb_spec (valty_code a) (valty_code t)) as [E|Hne].
  - apply valty_code_inj in E. subst a. cbn [length]. split; intros; [now left|lia].
  - rewrite IH. split; intros H; [now right|]. destruct H as [->|H]; [congruence|exact H].
Qed.

Lemma count_ty_perm t tys1 tys2 : Permutation tys1 tys2 -> count_ty t tys1 = count_ty t tys2.
Proof.
  unfold count_ty. induction 1 as [|x l l' P IH|x y l|l l' l'' P1 IH1 P2 IH2]; cbn [filter]; auto.
  - destruct (N.eqb _ _); cbn [length]; congruence.
  - destruct (N.eqb (valty_code x) _), (N.eqb (valty_code y) _); cbn [length]; reflexivity.
  - congruence.
Qed.

Theorem canonical_decls_counts : forall tys1 tys2, (forall t, count_ty t tys1 = count_ty t tys2) ->
  canonical_decls tys1 = canonical_decls tys2.
Proof.
  intros tys1 tys2 H. unfold canonical_decls. f_equal. apply map_ext. intros t. now rewrite H.
Qed.

Theorem canonical_decls_perm : forall tys1 tys2, Permutation tys1 tys2 ->
  canonical_decls tys1 = canonical_decls tys2.
Proof. intros tys1 tys2 P. apply canonical_decls_counts. intros t. now apply count_ty_perm. Qed.

Lemma canonical_in tys c t :
  In (c, t) (canonical_decls tys) <-> c = N.of_nat (count_ty t tys) /\ c <> 0%N.
Proof.
  unfold canonical_decls. rewrite filter_In, in_map_iff. cbn [fst]. rewrite negb_true_iff, N.eqb_neq. split.
  - intros ((t' & E & _) & Hc). inversion E; subst. auto.
  - intros (-> & Hc). split; auto. exists t. split; auto. apply all_valtys_complete.
Qed.

Definition vt_lt (a b : valty) : Prop := (valty_code a < valty_code b)%N.
Lemma all_valtys_vt_sorted : StronglySorted vt_lt all_valtys.
Proof.
  unfold all_valtys.
  repeat first [apply SSorted_nil | apply SSorted_cons | apply Forall_nil | apply Forall_cons];
    unfold vt_lt; cbn [valty_code]; lia.
Qed.
Lemma all_valtys_sorted f : StronglySorted decl_lt (map (fun t => (f t : N, t)) all_valtys).
Proof. induction all_valtys_vt_sorted as [|t l _ IH F]; cbn [map]; constructor; [exact IH|]. apply Forall_map. exact F. Qed.

Lemma canonical_sorted tys : StronglySorted decl_lt (canonical_decls tys).
Proof. unfold canonical_decls. apply StronglySorted_filter. apply (all_valtys_sorted (fun t => N.of_nat (count_ty t tys))). Qed.

Lemma decl_sorted_NoDup l : StronglySorted decl_lt l -> NoDup (map snd l).
Proof.
  induction 1 as [|a l Hs IH Hall]; cbn [map]; constructor; auto.
  rewrite in_map_iff. intros (b & Hb & Hin). rewrite Forall_forall in Hall. apply Hall in Hin.
  unfold decl_lt in Hin. rewrite Hb in Hin. lia.
Qed.

Section Locals3.
  Variable ty : N -> valty.

  Lemma of_type_count t ls : length (of_type ty t ls) = count_ty t (map ty ls).
  Proof.
    unfold of_type, count_ty. induction ls as [|a ls IH]; cbn [map filter]; auto.
    destruct (N.eqb _ _); cbn [length]; congruence.
  Qed.

  Lemma groups_canonical ls : forall ts,
    map (fun g : valty * list N => (len_N (snd g), fst g))
        (filter (fun g : valty * list N => negb (match snd g with [] => true | _ => false end))
                (map (fun t => (t, of_type ty t ls)) ts))
    = filter (fun d : N * valty => negb (N.eqb (fst d) 0))
             (map (fun t => (N.of_nat (count_ty t (map ty ls)), t)) ts).
  Proof.
    induction ts as [|t ts IH]; [reflexivity|].
    cbn [map filter snd fst]. rewrite <- of_type_count.
    destruct (of_type ty t ls) as [|x r] eqn:Eo.
    - cbn [length N.of_nat N.eqb negb]. exact IH.
    - cbn [length N.of_nat N.eqb negb map fst snd]. rewrite IH. unfold len_N. cbn [length N.of_nat]. reflexivity.
  Qed.

  Lemma decls_eq args used :
    map (fun g : valty * list N => (len_N (snd g), fst g)) (locals_groups ty args used)
    = canonical_decls (map ty (non_args args used)).
  Proof. unfold locals_groups, canonical_decls. apply groups_canonical. Qed.

  Lemma order_length args used :
    length (locals_order ty args used) = length args + length (non_args args used).
  Proof.
    unfold locals_order. rewrite app_length. f_equal. apply Permutation_length, groups_perm.
  Qed.

  Lemma order_typed args used :
    Forall2 (fun id t => valty_code t = valty_code (ty id)) (flat_map snd (locals_groups ty args used))
            (expand (map (fun g : valty * list N => (len_N (snd g), fst g)) (locals_groups ty args used))).
  Proof. apply groups_typed, locals_groups_typed. Qed.

  Lemma expand_length args used :
    length (expand (map (fun g : valty * list N => (len_N (snd g), fst g)) (locals_groups ty args used)))
    = length (non_args args used).
  Proof.
    rewrite <- (Forall2_len _ _ _ (order_typed args used)). apply Permutation_length, groups_perm.
  Qed.

  Lemma non_args_enum args used d : NoDup d -> (forall x, In x d <-> In x used /\ ~ In x args) ->
    Permutation d (non_args args used).
  Proof.
    intros ND H. apply NoDup_Permutation; [exact ND|apply non_args_NoDup|].
    intros x. rewrite H, (non_args_in ty). tauto.
  Qed.

  Lemma lookup_order args used decls lmap l j : emit_locals ty args used = (decls, lmap) ->
    lookup l lmap = Some j -> nth_error (locals_order ty args used) (N.to_nat j) = Some l.
  Proof.
    intros E H. rewrite emit_locals_eq in E. inversion E; subst; clear E.
    apply lookup_combine_inv in H. destruct H as (k & Hk & ->). now rewrite Nat2N.id.
  Qed.

  Lemma order_lookup args used decls lmap l k : NoDup args -> emit_locals ty args used = (decls, lmap) ->
    nth_error (locals_order ty args used) k = Some l -> lookup l lmap = Some (N.of_nat k).
  Proof.
    intros ND E H. rewrite emit_locals_eq in E. inversion E; subst; clear E.
    apply (lookup_combine_nodup _ 0 k l); auto. now apply locals_order_NoDup.
  Qed.

  Lemma lookup_non_arg args used decls lmap l j : emit_locals ty args used = (decls, lmap) ->
    lookup l lmap = Some j -> ~ In l args -> length args <= N.to_nat j.
  Proof.
    intros E H Hna. pose proof (lookup_order _ _ _ _ _ _ E H) as Ho.
    destruct (le_lt_dec (length args) (N.to_nat j)) as [Hle|Hlt]; [exact Hle|].
    exfalso. apply Hna. unfold locals_order in Ho. rewrite nth_error_app1 in Ho by exact Hlt.
    eapply nth_error_In; eauto.
  Qed.

  Theorem locals_params_fixed : forall args used decls lmap, NoDup args ->
    emit_locals ty args used = (decls, lmap) ->
    forall k a, nth_error args k = Some a -> lookup a lmap = Some (N.of_nat k).
  Proof.
    intros args used decls lmap ND E k a Hk. eapply order_lookup; eauto.
    unfold locals_order. rewrite nth_error_app1; auto. apply nth_error_Some. congruence.
  Qed.

  Theorem locals_all_used_mapped : forall args used decls lmap, NoDup args ->
    emit_locals ty args used = (decls, lmap) ->
    (forall l, In l used -> exists j, lookup l lmap = Some j) /\
    (forall l j, lookup l lmap = Some j -> ~ In l args -> (N.of_nat (length args) <= j)%N).
  Proof.
    intros args used decls lmap ND E. split.
    - intros l Hl. assert (Hin : In l (locals_order ty args used)) by (apply locals_order_in; now right).
      destruct (In_nth_error _ _ Hin) as (k & Hk). exists (N.of_nat k). eapply order_lookup; eauto.
    - intros l j H Hna. pose proof (lookup_non_arg _ _ _ _ _ _ E H Hna). lia.
  Qed.

  Theorem locals_injective : forall args used decls lmap, NoDup args ->
    emit_locals ty args used = (decls, lmap) ->
    (forall l1 l2 j, lookup l1 lmap = Some j -> lookup l2 lmap = Some j -> l1 = l2) /\
    (forall l, (exists j, lookup l lmap = Some j) <-> In l args \/ In l used).
  Proof.
    intros args used decls lmap ND E. split.
    - intros l1 l2 j H1 H2. pose proof (lookup_order _ _ _ _ _ _ E H1) as O1.
      pose proof (lookup_order _ _ _ _ _ _ E H2) as O2. congruence.
    - intros l. rewrite <- locals_order_in. split.
      + intros (j & H). eapply nth_error_In, lookup_order; eauto.
      + intros Hin. destruct (In_nth_error _ _ Hin) as (k & Hk). exists (N.of_nat k). eapply order_lookup; eauto.
  Qed.

  (* the slots are exactly [0, |args| + |used \ args|): no gap, nothing beyond the declaration.
     [d] is ANY duplicate-free enumeration of the used non-parameters. *)
  Theorem locals_slots_exact : forall args used decls lmap, NoDup args ->
    emit_locals ty args used = (decls, lmap) ->
    forall d, NoDup d -> (forall x, In x d <-> In x used /\ ~ In x args) ->
    (forall j, (exists l, lookup l lmap = Some j) <-> (j < N.of_nat (length args + length d))%N) /\
    length (expand decls) = length d /\
    length lmap = length args + length d.
  Proof.
    intros args used decls lmap ND E d NDd Hd.
    pose proof (Permutation_length (non_args_enum args used d NDd Hd)) as Ld.
    pose proof (order_length args used) as Lo. rewrite <- Ld in Lo.
    split; [|split].
    - intros j. split.
      + intros (l & H). pose proof (lookup_order _ _ _ _ _ _ E H) as Ho.
        assert (N.to_nat j < length (locals_order ty args used)) by (apply nth_error_Some; congruence). lia.
      + intros Hj. assert (Hlt : N.to_nat j < length (locals_order ty args used)) by lia.
        apply nth_error_Some in Hlt. destruct (nth_error (locals_order ty args used) (N.to_nat j)) as [l|] eqn:Hn; [|congruence].
        exists l. rewrite <- (N2Nat.id j). exact (order_lookup _ _ _ _ _ _ ND E Hn).
    - rewrite emit_locals_eq in E. inversion E; subst; clear E. rewrite expand_length. lia.
    - rewrite emit_locals_eq in E. inversion E; subst; clear E.
      rewrite combine_length, map_length, seq_length, Nat.min_id. exact Lo.
  Qed.

  (* all slots, parameters included: the emitted function's local-type vector
     (parameter types, then the expanded declaration) has ty l at slot lmap(l) *)
  Theorem locals_types_preserved_all : forall args used decls lmap,
    emit_locals ty args used = (decls, lmap) ->
    forall l j, lookup l lmap = Some j ->
      nth_error (map ty args ++ expand decls) (N.to_nat j) = Some (ty l).
  Proof.
    intros args used decls lmap E l j H. pose proof (lookup_order _ _ _ _ _ _ E H) as Ho.
    destruct (le_lt_dec (length args) (N.to_nat j)) as [Hle|Hlt].
    - rewrite nth_error_app2 by (now rewrite map_length). rewrite map_length.
      unfold locals_order in Ho. rewrite nth_error_app2 in Ho by exact Hle.
      rewrite emit_locals_eq in E. inversion E; subst; clear E.
      destruct (Forall2_nth_error _ _ _ (order_typed args used) _ _ Ho) as (t & Ht & Hc).
      apply valty_code_inj in Hc. now subst t.
    - rewrite nth_error_app1 by (now rewrite map_length).
      unfold locals_order in Ho. rewrite nth_error_app1 in Ho by exact Hlt.
      now apply map_nth_error.
  Qed.

  Theorem locals_types_preserved : forall args used decls lmap,
    emit_locals ty args used = (decls, lmap) ->
    forall l j, lookup l lmap = Some j -> ~ In l args ->
      nth_error (expand decls) (N.to_nat j - length args) = Some (ty l).
  Proof.
    intros args used decls lmap E l j H Hna. pose proof (lookup_non_arg _ _ _ _ _ _ E H Hna) as Hle.
    rewrite <- (locals_types_preserved_all _ _ _ _ E l j H).
    rewrite nth_error_app2 by (now rewrite map_length). now rewrite map_length.
  Qed.

  Theorem locals_decls_canonical : forall args used decls lmap,
    emit_locals ty args used = (decls, lmap) ->
    forall d, NoDup d -> (forall x, In x d <-> In x used /\ ~ In x args) ->
    decls = canonical_decls (map ty d) /\
    StronglySorted decl_lt decls /\                      (* increasing valty_code: I32<I64<F32<F64<V128<Funcref<Externref *)
    NoDup (map snd decls) /\                             (* each type at most once: runs are maximal *)
    Forall (fun dc => fst dc <> 0%N) decls /\            (* no empty run *)
    (forall c t, In (c, t) decls <-> c = N.of_nat (count_ty t (map ty d)) /\ c <> 0%N) /\
    (forall t, In t (map snd decls) <-> exists l, In l used /\ ~ In l args /\ ty l = t).
  Proof.
    intros args used decls lmap E d NDd Hd.
    assert (Ed : decls = canonical_decls (map ty d)).
    { rewrite emit_locals_eq in E. inversion E; subst; clear E. rewrite decls_eq.
      apply canonical_decls_perm, Permutation_map, Permutation_sym, non_args_enum; auto. }
    split; [exact Ed|]. subst decls.
    split; [apply canonical_sorted|]. split; [apply decl_sorted_NoDup, canonical_sorted|].
    split; [|split].
    - rewrite Forall_forall. intros [c t] Hin. apply canonical_in in Hin. cbn [fst]. tauto.
    - intros c t. apply canonical_in.
    - intros t. rewrite in_map_iff. split.
      + intros ([c t'] & Et & Hin). cbn [snd] in Et. subst t'. apply canonical_in in Hin.
        destruct Hin as (-> & Hc). assert (Hp : count_ty t (map ty d) <> 0) by lia.
        apply count_ty_pos, in_map_iff in Hp. destruct Hp as (l & El & Hl). apply Hd in Hl.
        exists l. tauto.
      + intros (l & Hu & Hna & El). exists (N.of_nat (count_ty t (map ty d)), t). split; auto.
        apply canonical_in. split; auto.
        assert (Hp : count_ty t (map ty d) <> 0).
        { apply count_ty_pos, in_map_iff. exists l. split; auto. apply Hd. tauto. }
        lia.
  Qed.
End Locals3.

(* two functions whose used non-parameter locals have the same multiset of types get the same declaration *)
Theorem locals_decls_same_multiset : forall ty1 args1 used1 ty2 args2 used2 d1 d2,
  NoDup d1 -> (forall x, In x d1 <-> In x used1 /\ ~ In x args1) ->
  NoDup d2 -> (forall x, In x d2 <-> In x used2 /\ ~ In x args2) ->
  Permutation (map ty1 d1) (map ty2 d2) ->
  fst (emit_locals ty1 args1 used1) = fst (emit_locals ty2 args2 used2).
Proof.
  intros ty1 args1 used1 ty2 args2 used2 d1 d2 N1 H1 N2 H2 P.
  destruct (emit_locals ty1 args1 used1) as [dc1 m1] eqn:E1.
  destruct (emit_locals ty2 args2 used2) as [dc2 m2] eqn:E2. cbn [fst].
  destruct (locals_decls_canonical _ _ _ _ _ E1 d1 N1 H1) as (-> & _).
  destruct (locals_decls_canonical _ _ _ _ _ E2 d2 N2 H2) as (-> & _).
  now apply canonical_decls_perm.
Qed.

(* runs are maximal: in the expanded declaration the types are non-decreasing, i.e. all locals of one
   type are contiguous *)
Definition ty_le_code (a b : valty) : Prop := (valty_code a <= valty_code b)%N.

Lemma expand_in l t : In t (expand l) -> In t (map snd l).
Proof.
  unfold expand. rewrite in_flat_map. intros (d & Hd & Hr). apply repeat_spec in Hr. subst t. now apply in_map.
Qed.

Lemma repeat_app_sorted t rest : StronglySorted ty_le_code rest ->
  Forall (fun x => ty_le_code t x) rest -> forall n, StronglySorted ty_le_code (repeat t n ++ rest).
Proof.
  intros Hs Hall. induction n as [|n IH]; cbn [repeat app]; auto. constructor; auto.
  apply Forall_app. split; auto. rewrite Forall_forall. intros x Hx. apply repeat_spec in Hx. subst x.
  unfold ty_le_code. lia.
Qed.

Lemma expand_sorted l : StronglySorted decl_lt l -> StronglySorted ty_le_code (expand l).
Proof.
  induction 1 as [|a l Hs IH Hall]; [constructor|].
  change (expand (a :: l)) with (repeat (snd a) (N.to_nat (fst a)) ++ expand l).
  apply repeat_app_sorted; auto. rewrite Forall_forall in *. intros x Hx.
  apply expand_in, in_map_iff in Hx. destruct Hx as (b & Hb & Hin). apply Hall in Hin.
  unfold decl_lt in Hin. unfold ty_le_code. rewrite <- Hb. lia.
Qed.

Theorem locals_decls_contiguous : forall ty args used decls lmap,
  emit_locals ty args used = (decls, lmap) -> StronglySorted ty_le_code (expand decls).
Proof.
  intros ty args used decls lmap E. apply expand_sorted.
  eapply (locals_decls_canonical ty _ _ _ _ E (non_args args used)); [apply non_args_NoDup|apply (non_args_in ty)].
Qed.

(* for C01: lmap is a type-preserving bijection args ∪ used <-> [0,n) that fixes the parameters *)
Theorem locals_renaming_consistent : forall ty args used decls lmap, NoDup args ->
  emit_locals ty args used = (decls, lmap) ->
  let n := length (map ty args ++ expand decls) in       (* number of locals of the emitted function *)
  (* total on args ∪ used, into [0,n) *)
  (forall l, In l args \/ In l used -> exists j, lookup l lmap = Some j /\ (j < N.of_nat n)%N) /\
  (* defined nowhere else *)
  (forall l j, lookup l lmap = Some j -> In l args \/ In l used) /\
  (* injective *)
  (forall l1 l2 j, lookup l1 lmap = Some j -> lookup l2 lmap = Some j -> l1 = l2) /\
  (* onto [0,n) *)
  (forall j, (j < N.of_nat n)%N -> exists l, (In l args \/ In l used) /\ lookup l lmap = Some j) /\
  (* fixes the parameters *)
  (forall k a, nth_error args k = Some a -> lookup a lmap = Some (N.of_nat k)) /\
  (* preserves types *)
  (forall l j, lookup l lmap = Some j -> nth_error (map ty args ++ expand decls) (N.to_nat j) = Some (ty l)).
Proof.
  intros ty args used decls lmap ND E n.
  pose proof (locals_slots_exact ty _ _ _ _ ND E (non_args args used) (non_args_NoDup args used)
                (non_args_in ty args used)) as (Hs & Hlen & _).
  assert (Hn : n = length args + length (non_args args used)).
  { unfold n. rewrite app_length, map_length. lia. }
  destruct (locals_injective ty _ _ _ _ ND E) as (Hinj & Hdom).
  repeat split.
  - intros l Hl. apply Hdom in Hl. destruct Hl as (j & Hj). exists j. split; auto.
    rewrite Hn. apply Hs. eauto.
  - intros l j H. apply Hdom. eauto.
  - exact Hinj.
  - intros j Hj. rewrite Hn in Hj. apply Hs in Hj. destruct Hj as (l & Hl). exists l. split; auto.
    apply Hdom. eauto.
  - exact (locals_params_fixed ty _ _ _ _ ND E).
  - exact (locals_types_preserved_all ty _ _ _ _ E).
Qed.

(* the premise NoDup args is needed: with a repeated parameter id the second position is not the slot of that id,
   and slot 1 is the image of no local *)
Theorem locals_params_fixed_refuted : exists ty args used decls lmap k a,
  emit_locals ty args used = (decls, lmap) /\ nth_error args k = Some a /\
  lookup a lmap <> Some (N.of_nat k).
Proof.
  exists (fun _ => VT_I32), [5%N; 5%N], [], [], [(5%N, 0%N); (5%N, 1%N)], 1, 5%N.
  split; [reflexivity|]. split; [reflexivity|]. vm_compute. discriminate.
Qed.

Theorem locals_slots_exact_refuted : exists ty args used decls lmap,
  emit_locals ty args used = (decls, lmap) /\ (1 < N.of_nat (length lmap))%N /\
  forall l, In l args \/ In l used -> lookup l lmap <> Some 1%N.
Proof.
  exists (fun _ => VT_I32), [5%N; 5%N], [], [], [(5%N, 0%N); (5%N, 1%N)].
  split; [reflexivity|]. split; [vm_compute; reflexivity|].
  intros l [[<-|[<-|[]]]|[]]; vm_compute; discriminate.
Qed.

Print Assumptions locals_params_fixed.
Print Assumptions locals_all_used_mapped.
Print Assumptions locals_injective.
Print Assumptions locals_slots_exact.
Print Assumptions locals_types_preserved.
Print Assumptions locals_types_preserved_all.
Print Assumptions locals_decls_canonical.
Print Assumptions locals_decls_same_multiset.
Print Assumptions locals_decls_contiguous.
Print Assumptions locals_renaming_consistent.
Print Assumptions locals_params_fixed_refuted.
Print Assumptions locals_slots_exact_refuted.
