(* C08, module level: the final assembly.  emit (parse (emit (parse w))) = emit (parse w)  for streams the validator accepts.
   Pieces: ModFix2 (canonical shape, assembly from payloads), ModFix3 (types), ModFix4 (order, tables/memories/globals),
   ModFix5 (exports, start, elements, data, data count), ModFix6 (function order, imports, function section), ModFix7 (names),
   ModFix8 (producers, customs), ModFix9 (assembly with the body-level facts as premises), ModFix10/14 (function bodies),
   ModFix11/17 (locals, signatures, the local vectors of the second parse), ModFix12/15 (module-level glue for the code section),
   ModFix13 (entity counts).
   After this file: ModFix21/40/41 (the name section under synthetic names), ModFix16/22/23/27/30 (the emitted stream passes
   the validator's checks), ModFix25 (its index immediates are in range), ModFix26/32 (offset constants; the second trip is total).
   ModFixEx: non-vacuity and the REFUTATION of the unrestricted statement. *)
From Coq Require Import List NArith ZArith Bool Arith Lia.
Import ListNotations.
From WV Require Import Gen.Ops Model.Common Model.IR Model.Arena Model.ModuleM Model.ParseM Model.EmitM.
From WV Require Import Proofs.IndexMaps Proofs.Structure Proofs.Structure2 Proofs.Renumbering Proofs.ParseTotal.
From WV Require Import Proofs.ModFix Proofs.ModFix2 Proofs.ModFix9.
From WV Require Proofs.ModFix5 Proofs.ModFix6 Proofs.ModFix7 Proofs.ModFix8 Proofs.ModFix15 Proofs.ModFix17.
From WV Require Proofs.TotalityBodies Proofs.ModFixEx Proofs.ModFix3.
From Coq Require Import Sorted.
Local Open Scope nat_scope.

(* the structural properties every stream emitted from a parsed module has (stream level; the body-level
   parts - each body the flattening of a normal form [is_nf], canonical block types, locals grouped by type - are
   ModFix10.emitted_ops_structured, ModFix14.emitted_bts, ModFix11.emit_locals_decls_grouped; producers: CustomsCfg.producers_once) *)
Definition canonical (w : list wsec) : Prop :=
  canonical_order w /\                                                       (* emitter's section order, each kind at most once, imports first *)
  (StronglySorted ModFix3.sig_le (flat_map types_of w) /\ NoDup (flat_map types_of w)) /\   (* types strictly sorted by the type key *)
  (forall we tbl off, In we (flat_map elems_of w) -> wel_kind we = WEK_Active tbl off ->
     tbl = None \/ exists ti, tbl = Some ti /\ ti <> 0%N) /\              (* canonical table index of active elements *)
  (ModFix7.name_payload w = [] \/ ModFix7.name_payload w = [Some (ModFix7.stream_names w)]).   (* at most one name section *)

Theorem emit_canonical : forall cf ver w s ilen e,
  parseM cf ver w = POk s -> emitM (ps_m s) ilen [] = Ok e -> canonical (em_secs e).
Proof.
  intros cf ver w s ilen e HP HE. split; [exact (emit_canonical_order _ _ _ HE)|].
  split; [exact (ModFix3.emitted_types_sorted_distinct _ _ _ _ _ _ HP HE)|].
  split; [exact (ModFix5.emitted_elems_canonical_table _ _ _ HE)|].
  destruct (cf_skip_name cf) eqn:Sk.
  - left. destruct (ModFix7.emitM_name_payload _ _ _ HE) as (s_nm & Hn & Hpay & _).
    rewrite (WV.Proofs.Names.parseM_config _ _ _ _ HP) in Hn. rewrite Sk in Hn. subst s_nm. exact Hpay.
  - exact (proj1 (ModFix7.emitted_names_canonical _ _ _ _ _ _ HP HE Sk)).
Qed.

(* everything about the code section, from validity of the input alone *)
Theorem code_facts : forall cf ver w ilen s1 e1 s2 e2,
  two_trips cf ver w ilen s1 e1 s2 e2 -> valid_stream w ->
  ModFix6.sizes_stable s1 e1 s2 /\
  flat_map code_of (em_secs e2) = flat_map code_of (em_secs e1) /\
  (ModFix5.sg_uses (ps_m s2) <-> ModFix5.sg_uses (ps_m s1)) /\
  (forall S, rho_id s2 e2 S).
Proof.
  intros cf ver w ilen s1 e1 s2 e2 TT V.
  pose proof (ModFix17.params_kept_holds _ _ _ _ _ _ _ _ TT) as PK.
  pose proof (ModFix15.W_holds_V _ _ _ _ _ _ _ _ TT V) as HW.
  pose proof (ModFix17.Lidx_holds_proved _ _ _ _ _ _ _ _ TT V HW PK) as HL.
  pose proof (ModFix17.D_holds_proved _ _ _ _ _ _ _ _ TT V HW PK) as HD.
  destruct (ModFix15.code_fix_15 _ _ _ _ _ _ _ _ TT V HL HD) as (A & B & C & _ & D).
  split; [exact A|]. split; [exact B|]. split; [exact C|exact D].
Qed.

Theorem canonical_identity_maps_valid : forall cf ver w ilen s1 e1 s2 e2,
  two_trips cf ver w ilen s1 e1 s2 e2 -> valid_stream w -> forall S, rho_id s2 e2 S.
Proof. intros cf ver w ilen s1 e1 s2 e2 TT V. apply (code_facts _ _ _ _ _ _ _ _ TT V). Qed.

Theorem fix_code : forall cf ver w ilen s1 e1 s2 e2,
  two_trips cf ver w ilen s1 e1 s2 e2 -> valid_stream w ->
  flat_map code_of (em_secs e2) = flat_map code_of (em_secs e1).
Proof. intros cf ver w ilen s1 e1 s2 e2 TT V. apply (code_facts _ _ _ _ _ _ _ _ TT V). Qed.

(* Visible premises: the validator's guarantees on the input, and for the NAME section: it is skipped, or names are
   not synthesized.  (With synthetic names the statement is FALSE even on valid streams:
   ModFixEx.module_fixpoint_refuted_valid_stream; without validity it is false too: ModFixEx.module_fixpoint_refuted.) *)
Theorem module_fixpoint_partial : forall cf ver w ilen s1 e1 s2 e2,
  parseM cf ver w = POk s1 -> emitM (ps_m s1) ilen [] = Ok e1 ->
  parseM cf ver (em_secs e1) = POk s2 -> emitM (ps_m s2) ilen [] = Ok e2 ->
  valid_stream w ->
  (cf_skip_name cf = true \/ cf_synthetic_names cf = false) ->
  em_secs e2 = em_secs e1.
Proof.
  intros cf ver w ilen s1 e1 s2 e2 P1 E1 P2 E2 V HN.
  assert (TT : two_trips cf ver w ilen s1 e1 s2 e2) by (repeat split; assumption).
  destruct (code_facts _ _ _ _ _ _ _ _ TT V) as (SS & HC & HU & _).
  eapply module_fixpoint_from_body_facts2; try eassumption.
  destruct HN as [Hs|Hsyn]; [left; exact Hs|right].
  pose proof (ModFix17.params_kept_holds _ _ _ _ _ _ _ _ TT) as PK.
  pose proof (ModFix17.locals_struct_holds _ _ _ _ _ _ _ _ TT) as LS.
  split; [exact Hsyn|]. split.
  - eapply ModFix17.locals_identity_proved; eassumption.
  - eapply ModFix17.locals_canon_proved; eassumption.
Qed.

(* without a name section nothing else is needed *)
Corollary module_fixpoint_skip_name : forall cf ver w ilen s1 e1 s2 e2,
  two_trips cf ver w ilen s1 e1 s2 e2 -> valid_stream w -> cf_skip_name cf = true -> em_secs e2 = em_secs e1.
Proof.
  intros cf ver w ilen s1 e1 s2 e2 (P1 & E1 & P2 & E2) V H.
  eapply module_fixpoint_partial; [exact P1|exact E1|exact P2|exact E2|exact V|left; exact H].
Qed.

(* every section other than the name section is reproduced for every valid input and every configuration *)
Theorem module_fixpoint_but_names : forall cf ver w ilen s1 e1 s2 e2,
  two_trips cf ver w ilen s1 e1 s2 e2 -> valid_stream w ->
  ModFix8.name_payload (em_secs e2) = ModFix8.name_payload (em_secs e1) -> em_secs e2 = em_secs e1.
Proof.
  intros cf ver w ilen s1 e1 s2 e2 TT V HN.
  destruct (code_facts _ _ _ _ _ _ _ _ TT V) as (SS & HC & HU & _).
  eapply ModFix9.module_fixpoint_from_body_facts; eassumption.
Qed.

(* totality of the second trip from two visible premises: the emitted stream satisfies the validator's guarantees and
   its index immediates are in range.  ModFix32.module_fixpoint_total proves both of every valid input. *)
Theorem module_fixpoint_total_partial : forall cf ver ilen (e1 : emitted),
  valid_stream (em_secs e1) ->
  (forall s, parseM cf ver (em_secs e1) = POk s -> TotalityBodies.refs_in_range (em_secs e1) (ps_ids s)) ->
  exists s2 e2, parseM cf ver (em_secs e1) = POk s2 /\ emitM (ps_m s2) ilen [] = Ok e2.
Proof. intros cf ver ilen e1 V R. exact (TotalityBodies.emit_total_after_parse_final_partial' cf ver (em_secs e1) ilen [] V R). Qed.

(* the theorem applies to the example module of ModFixEx (two types, an import, two functions that the emitter reorders,
   a global, an export, a name section): its premises hold there *)
Example module_fixpoint_applies : forall s1 e1 s2 e2,
  two_trips default_config [49%N] ModFixEx.wA ModFixEx.il1 s1 e1 s2 e2 -> em_secs e2 = em_secs e1.
Proof.
  intros s1 e1 s2 e2 (P1 & E1 & P2 & E2).
  eapply module_fixpoint_partial; [exact P1|exact E1|exact P2|exact E2|exact ModFixEx.module_fixpoint_premises_nonvacuous|right; reflexivity].
Qed.

Print Assumptions emit_canonical.
Print Assumptions code_facts.
Print Assumptions canonical_identity_maps_valid.
Print Assumptions fix_code.
Print Assumptions module_fixpoint_partial.
Print Assumptions module_fixpoint_skip_name.
Print Assumptions module_fixpoint_but_names.
Print Assumptions module_fixpoint_total_partial.
Print Assumptions module_fixpoint_applies.
