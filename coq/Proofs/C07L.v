(* Glue for C06/C07: the GC theorems of Proofs/GC.v composed at the level of [used] and [gc_sweep]. *)
From Coq Require Import List NArith Bool Arith Lia. Import ListNotations.
From WV Require Import Gen.Ops Model.Common Model.IR Model.Arena Model.ModuleM Model.ParseM Model.EmitM Model.GC.
From WV Require Proofs.GC.
Local Open Scope nat_scope.

Module G := WV.Proofs.GC.

(* well-formedness of the module's reference graph: what parsing a validated module establishes *)
Definition refs_wf (m : wir) (rs : list ent) : Prop :=
  (forall x, G.greach m rs x -> In x (G.all_entities m)) /\
  (forall x, G.greach m rs x -> negb (G.is_type x) = true -> succ m x <> Panic /\ succ m x <> OutOfFuel).

(* the used set is exactly the set reachable from the roots, plus at most the one tolerated memory *)
Lemma used_is_reach : forall m u, used m = Ok u ->
  exists rs, roots m = Ok rs /\ (refs_wf m rs ->
    forall x, In x u -> G.greach m rs x \/
      (exists mid v rest, aiter (m_memories m) = (mid, v) :: rest /\ x = (S_memory, mid) /\
                          (forall y, In y u -> fst y = S_memory -> y = x) /\ (exists d, In (S_data, d) u))).
Proof.
  intros m u Hu. destruct (G.used_inv m u Hu) as (rs & U & Hr & Hw & Hcase).
  exists rs. split; [exact Hr|]. intros [Ha Hl] x Hx.
  destruct (G.used_reach m rs U Hr Ha Hl Hw) as [_ HU].
  destruct Hcase as [->|(mid & v & rest & Hm & Hnomem & Hdata & ->)].
  - left. apply HU. exact Hx.
  - destruct Hx as [<-|Hx]; [|left; apply HU; exact Hx].
    right. exists mid, v, rest. split; [exact Hm|]. split; [reflexivity|]. split.
    + intros [sp id] [<-|Hy] Hs; [reflexivity|]. exfalso. cbn in Hs. subst sp.
      apply G.used_of_In in Hy. rewrite Hnomem in Hy. exact Hy.
    + destruct (used_of U S_data) as [|d r] eqn:E; [congruence|]. exists d. right.
      apply G.used_of_In. rewrite E. left. reflexivity.
Qed.

Lemma used_complete : forall m u, used m = Ok u ->
  exists rs, roots m = Ok rs /\ (refs_wf m rs -> forall x, G.greach m rs x -> In x u).
Proof.
  intros m u Hu. destruct (G.used_inv m u Hu) as (rs & U & Hr & Hw & Hcase).
  exists rs. split; [exact Hr|]. intros [Ha Hl] x Hx.
  destruct (G.used_reach m rs U Hr Ha Hl Hw) as [_ HU].
  destruct Hcase as [->|(mid & v & rest & _ & _ & _ & ->)]; [apply HU; exact Hx|right; apply HU; exact Hx].
Qed.
