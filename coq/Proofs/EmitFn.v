(* The function-body emitter (Model/EmitFn.v) against the declarative flattening (Model/EmitSpec.v): run on the
   in-order event log of a tree, the machine outputs the flattening of the tree (emit_tree_spec, emit_body_spec);
   the flattening succeeds on scoped trees (flt_ok); its output is balanced and well nested.  What holds of every
   successful flattening is proved by induction on its clauses (flt_ind). *)
From Coq Require Import List NArith ZArith Arith Lia Bool. Import ListNotations.
From WV Require Import Gen.Ops Model.Common Model.IR Model.Traversal Model.EmitFn Model.EmitSpec.
From WV Require Proofs.SeqArena Proofs.Traversal.
Open Scope N_scope.

Section ind.
  Variable P : tree -> Prop. Variable Q : item -> Prop.
  Hypothesis HT : forall s ty items e, Forall (fun x => Q (fst x)) items -> P (T s ty items e).
  Hypothesis HP : forall p, Q (ItP p).
  Hypothesis HBr : forall s, Q (ItBr s).
  Hypothesis HBrIf : forall s, Q (ItBrIf s).
  Hypothesis HBrT : forall ss d, Q (ItBrTable ss d).
  Hypothesis HB : forall t, P t -> Q (ItB t).
  Hypothesis HL : forall t, P t -> Q (ItL t).
  Hypothesis HI : forall c a, P c -> P a -> Q (ItI c a).
  Fixpoint tree_ind' (t : tree) : P t :=
    match t with T s ty items e => HT s ty items e
      ((fix go (l : list (item * N)) : Forall (fun x => Q (fst x)) l :=
          match l with
          | [] => Forall_nil _
          | x :: l' => Forall_cons x (item_ind' (fst x)) (go l')
          end) items) end
  with item_ind' (it : item) : Q it :=
    match it with
    | ItP p => HP p | ItBr s => HBr s | ItBrIf s => HBrIf s | ItBrTable ss d => HBrT ss d
    | ItB t => HB t (tree_ind' t) | ItL t => HL t (tree_ind' t)
    | ItI c a => HI c a (tree_ind' c) (tree_ind' a)
    end.
  Lemma tree_item_ind : (forall t, P t) /\ (forall it, Q it).
  Proof. split; [exact tree_ind' | exact item_ind']. Qed.
End ind.

Definition tty (t : tree) : seqty := match t with T _ ty _ _ => ty end.
Definition tend (t : tree) : N := match t with T _ _ _ e => e end.
Definition titems (t : tree) : list (item * N) := match t with T _ _ items _ => items end.

Definition ievs (x : item * N) : list ev := item_events false (fst x) (snd x).
Definition items_events (l : list (item * N)) : list ev := flat_map ievs l.
Definition tail_events (t : tree) : list ev :=
  seq_visit (shallow_seq t) ++ items_events (titems t) ++ [EEnd (tsid t)].

Lemma events_T t : events false t = EStart (tsid t) :: tail_events t.
Proof. destruct t; reflexivity. Qed.

Definition here (i : instr) (loc : N) : list ev := EInstr i loc :: instr_visit default_hook_recurses false i.
Lemma item_events_eq it loc : item_events false it loc =
  here (shallow it) loc ++
  match it with ItB t | ItL t => events false t | ItI c a => events false c ++ events false a | _ => [] end.
Proof. destruct it; cbn [item_events]; unfold here; rewrite ?app_nil_r; reflexivity. Qed.

Fixpoint flt_items (cx : ectx) (env : list N) (l : list (item * N)) : res (list (N * wins)) :=
  match l with
  | [] => Ok []
  | x :: l' => rbind (flt_item cx env (fst x) (snd x)) (fun a => rmap (app a) (flt_items cx env l'))
  end.
Lemma flt_tree_T cx env t k :
  flt_tree cx env t k = rmap (fun body => body ++ [(tend t, terminator k)]) (flt_items cx (tsid t :: env) (titems t)).
Proof. destruct t as [s ty items e]. cbn [flt_tree tend tsid titems]. f_equal.
  induction items as [|x l IH]; cbn [flt_items]; [reflexivity|]. rewrite IH. reflexivity. Qed.
Lemma flt_item_B cx env t loc :
  flt_item cx env (ItB t) loc = rmap (cons (loc, WBlock (block_type cx (tty t)))) (flt_tree cx env t KBlock).
Proof. destruct t; reflexivity. Qed.
Lemma flt_item_L cx env t loc :
  flt_item cx env (ItL t) loc = rmap (cons (loc, WLoop (block_type cx (tty t)))) (flt_tree cx env t KLoop).
Proof. destruct t; reflexivity. Qed.
Lemma flt_item_I cx env c a loc :
  flt_item cx env (ItI c a) loc =
  rbind (flt_tree cx env c KIf) (fun x => rmap (fun y => (loc, WIf (block_type cx (tty c))) :: x ++ y) (flt_tree cx env a KElse)).
Proof. destruct c; reflexivity. Qed.

Lemma Den_T ar t : Den ar t <->
  nth_error ar (N.to_nat (tsid t)) = Some (shallow_seq t) /\ Forall (fun x => IDen ar (fst x)) (titems t).
Proof. destruct t. apply SeqArena.Den_T. Qed.

Lemma rmap_ok {A B} (f : A -> B) r y : rmap f r = Ok y -> exists x, r = Ok x /\ y = f x.
Proof. destruct r; cbn; intros H; inversion H; eauto. Qed.
Lemma rbind_ok {A B} (r : res A) (f : A -> res B) y : rbind r f = Ok y -> exists x, r = Ok x /\ f x = Ok y.
Proof. destruct r; cbn; intros H; try discriminate; eauto. Qed.

(* Induction on the flattening: what holds of every output built by the clauses of [flt_tree] / [flt_item]
   holds of every successful flattening. *)
Section flt_ind.
  Variable cx : ectx.
  Variable PT : list N -> tree -> bkind -> list (N * wins) -> Prop.
  Variable PI : list N -> item -> N -> list (N * wins) -> Prop.
  Variable PL : list N -> list (item * N) -> list (N * wins) -> Prop.
  Hypothesis Hnil : forall env, PL env [] [].
  Hypothesis Hcons : forall env x l a b, PI env (fst x) (snd x) a -> PL env l b -> PL env (x :: l) (a ++ b).
  Hypothesis HT : forall env t k body,
    PL (tsid t :: env) (titems t) body -> PT env t k (body ++ [(tend t, terminator k)]).
  Hypothesis HP : forall env p loc w, encode_plain (ex_id2i cx) p = Some w -> PI env (ItP p) loc [(loc, WOp w)].
  Hypothesis HBr : forall env s loc d, depth_of env s = Ok d -> PI env (ItBr s) loc [(loc, WBr d)].
  Hypothesis HBrIf : forall env s loc d, depth_of env s = Ok d -> PI env (ItBrIf s) loc [(loc, WBrIf d)].
  Hypothesis HBrT : forall env ss s loc ds d, depth_of env s = Ok d -> depths_of env ss = Ok ds ->
    PI env (ItBrTable ss s) loc [(loc, WBrTable ds d)].
  Hypothesis HB : forall env t loc tg,
    PT env t KBlock tg -> PI env (ItB t) loc ((loc, WBlock (block_type cx (tty t))) :: tg).
  Hypothesis HL : forall env t loc tg,
    PT env t KLoop tg -> PI env (ItL t) loc ((loc, WLoop (block_type cx (tty t))) :: tg).
  Hypothesis HI : forall env c a loc x y, PT env c KIf x -> PT env a KElse y ->
    PI env (ItI c a) loc ((loc, WIf (block_type cx (tty c))) :: x ++ y).

  Lemma flt_ind :
    (forall t env k tg, flt_tree cx env t k = Ok tg -> PT env t k tg) /\
    (forall it env loc tg, flt_item cx env it loc = Ok tg -> PI env it loc tg).
  Proof.
    apply tree_item_ind.
    - intros s ty items e HQ env k tg Hf. rewrite flt_tree_T in Hf. apply rmap_ok in Hf as (body & Hb & ->).
      apply (HT env (T s ty items e)). cbn [tsid titems] in *. revert body Hb. generalize (s :: env) as env'.
      induction HQ as [|x l Hx _ IH]; intros env' body Hb; cbn [flt_items] in Hb.
      + inversion Hb. apply Hnil.
      + apply rbind_ok in Hb as (a & Ha & Hb). apply rmap_ok in Hb as (b & Hb & ->). apply Hcons; auto.
    - intros p env loc tg Hf. cbn [flt_item] in Hf.
      destruct (encode_plain (ex_id2i cx) p) as [w|] eqn:E; inversion Hf. apply HP, E.
    - intros s env loc tg Hf. cbn [flt_item] in Hf. apply rmap_ok in Hf as (d & Hd & ->). apply HBr, Hd.
    - intros s env loc tg Hf. cbn [flt_item] in Hf. apply rmap_ok in Hf as (d & Hd & ->). apply HBrIf, Hd.
    - intros ss s env loc tg Hf. cbn [flt_item] in Hf. apply rbind_ok in Hf as (d & Hd & Hf).
      apply rmap_ok in Hf as (ds & Hds & ->). apply HBrT; assumption.
    - intros t Pt env loc tg Hf. rewrite flt_item_B in Hf. apply rmap_ok in Hf as (tg' & Hf & ->). apply HB; auto.
    - intros t Pt env loc tg Hf. rewrite flt_item_L in Hf. apply rmap_ok in Hf as (tg' & Hf & ->). apply HL; auto.
    - intros c a Pc Pa env loc tg Hf. rewrite flt_item_I in Hf. apply rbind_ok in Hf as (x & Hx & Hf).
      apply rmap_ok in Hf as (y & Hy & ->). apply HI; auto.
  Qed.
End flt_ind.

Definition mk b k o p m : estate := {| blocks := b; kinds := k; out := o; epos := p; imap := m |}.
Definition kcont (k : bkind) (ks : list bkind) : list bkind := match k with KIf => KElse :: ks | _ => ks end.

Lemma emit_events_app cx ar a : forall st b,
  emit_events cx ar st (a ++ b) = rbind (emit_events cx ar st a) (fun s1 => emit_events cx ar s1 b).
Proof. induction a as [|e a IH]; intros st b; cbn [app emit_events rbind]; [reflexivity|].
  destruct (emit_step cx ar st e); cbn [rbind]; auto. Qed.

Lemma emit_events_ignored cx ar l : Forall Proofs.Traversal.ignored l -> forall st, emit_events cx ar st l = Ok st.
Proof. induction 1 as [|e l He _ IH]; intros st; cbn [emit_events]; [reflexivity|].
  destruct e; try contradiction; cbn [emit_step rbind]; apply IH. Qed.

Lemma run_here cx ar st i loc rest :
  emit_events cx ar st (here i loc ++ rest) =
  rbind (emit_step cx ar st (EInstr i loc)) (fun st1 => emit_events cx ar st1 rest).
Proof. unfold here. cbn [app emit_events]. destruct (emit_step cx ar st (EInstr i loc)); cbn [rbind]; auto.
  rewrite emit_events_app, emit_events_ignored by apply Proofs.Traversal.instr_visit_ignored. reflexivity. Qed.

Lemma total_len_app cx a b : total_len cx (a ++ b) = total_len cx a + total_len cx b.
Proof. induction a as [|x a IH]; [reflexivity|]. cbn [app]. unfold total_len in *. cbn [fold_right]. rewrite IH. lia. Qed.
Lemma tag_positions_app cx a : forall p b,
  tag_positions cx p (a ++ b) = tag_positions cx p a ++ tag_positions cx (p + total_len cx a) b.
Proof. induction a as [|[loc w] a IH]; intros p b.
  - cbn [app tag_positions total_len fold_right]. rewrite N.add_0_r. reflexivity.
  - cbn [app tag_positions]. rewrite IH. unfold total_len. cbn [fold_right snd]. rewrite N.add_assoc. reflexivity. Qed.

Lemma branch_targets_eq st ss : branch_targets st ss = depths_of (blocks st) ss.
Proof. induction ss as [|s ss IH]; cbn [branch_targets depths_of]; [reflexivity|]. rewrite IH. reflexivity. Qed.

Lemma total_len_cons cx x tg : total_len cx (x :: tg) = ex_ilen cx (snd x) + total_len cx tg.
Proof. reflexivity. Qed.
Lemma total_len_nil cx : total_len cx [] = 0.
Proof. reflexivity. Qed.

Ltac norm :=
  repeat (rewrite ?map_app, ?tag_positions_app, ?total_len_app, ?total_len_cons, ?total_len_nil,
                  <- ?app_assoc, ?N.add_assoc, ?N.add_0_r, ?app_nil_r;
          cbn [app map snd fst tag_positions]).

Section Main.
  Variables (cx : ectx) (ar : arena).

  Definition emitted (env : list N) ks o p m (tg : list (N * wins)) : res estate :=
    Ok (mk env ks (o ++ map snd tg) (p + total_len cx tg) (m ++ tag_positions cx p tg)).

  Lemma step_start t env k ks o p m : Den ar t ->
    emit_step cx ar (mk env (k :: ks) o p m) (EStart (tsid t)) =
    Ok (let b := block_type cx (tty t) in
        match k with
        | KBlock => mk (tsid t :: env) (k :: ks) (o ++ [WBlock b]) (p + ex_ilen cx (WBlock b)) m
        | KLoop => mk (tsid t :: env) (k :: ks) (o ++ [WLoop b]) (p + ex_ilen cx (WLoop b)) m
        | KIf => mk (tsid t :: env) (k :: ks) (o ++ [WIf b]) (p + ex_ilen cx (WIf b)) m
        | _ => mk (tsid t :: env) (k :: ks) o p m
        end).
  Proof. intros HD. apply Den_T in HD as [Hn _]. cbn [emit_step mk kinds]. rewrite Hn.
    destruct t; destruct k; reflexivity. Qed.

  Lemma step_end t env k ks o p m : Den ar t ->
    emit_step cx ar (mk (tsid t :: env) (k :: ks) o p m) (EEnd (tsid t)) =
    Ok (mk env (kcont k ks) (o ++ [terminator k]) (p + ex_ilen cx (terminator k)) (m ++ [(tend t, p)])).
  Proof. intros HD. apply Den_T in HD as [Hn _]. cbn [emit_step mk kinds blocks]. rewrite Hn.
    destruct t; destruct k; reflexivity. Qed.

  (* the machine, run on the events of a tree (after its start event) or of an item, appends the flattening *)
  Theorem emit_tree_item :
    (forall t env k tg, flt_tree cx env t k = Ok tg -> forall ks o p m, Den ar t ->
       emit_events cx ar (mk (tsid t :: env) (k :: ks) o p m) (tail_events t) = emitted env (kcont k ks) o p m tg) /\
    (forall it env loc tg, flt_item cx env it loc = Ok tg -> forall ks o p m, IDen ar it ->
       emit_events cx ar (mk env ks o p m) (item_events false it loc) = emitted env ks o p m tg).
  Proof.
    apply flt_ind with (PL := fun env items tg => forall ks o p m, Forall (fun x => IDen ar (fst x)) items ->
      emit_events cx ar (mk env ks o p m) (items_events items) = emitted env ks o p m tg); unfold emitted.
    - intros env ks o p m _. cbn [items_events flat_map emit_events]. norm. reflexivity.
    - intros env x l a b Hx IH ks o p m HD. inversion HD as [|? ? HDx HDl]; subst.
      cbn [items_events flat_map]. rewrite emit_events_app. unfold ievs at 1. rewrite (Hx ks o p m HDx). cbn [rbind].
      fold (items_events l). rewrite (IH ks _ _ _ HDl). norm. reflexivity.
    - intros env t k body Hb ks o p m HD.
      unfold tail_events. rewrite emit_events_app.
      rewrite emit_events_ignored by apply (Proofs.Traversal.tyv_ignored (sq_ty (shallow_seq t))). cbn [rbind].
      rewrite emit_events_app, (Hb (k :: ks) o p m (proj2 (proj1 (Den_T ar t) HD))). cbn [rbind emit_events].
      rewrite (step_end t env k ks _ _ _ HD). cbn [rbind]. norm. reflexivity.
    - intros env pl loc w E ks o p m _.
      rewrite item_events_eq, run_here. cbn [shallow emit_step]. rewrite E. cbn [rbind emit_events]. norm. reflexivity.
    - intros env s loc d Hd ks o p m _.
      rewrite item_events_eq, run_here. cbn [shallow emit_step]. unfold branch_target. cbn [record mk blocks].
      unfold depth_of in Hd. rewrite Hd. cbn [rmap rbind emit_events]. norm. reflexivity.
    - intros env s loc d Hd ks o p m _.
      rewrite item_events_eq, run_here. cbn [shallow emit_step]. unfold branch_target. cbn [record mk blocks].
      unfold depth_of in Hd. rewrite Hd. cbn [rmap rbind emit_events]. norm. reflexivity.
    - intros env ss s loc ds d Hd Hds ks o p m _.
      rewrite item_events_eq, run_here. cbn [shallow emit_step]. rewrite branch_targets_eq. unfold branch_target.
      cbn [record mk blocks]. unfold depth_of in Hd. rewrite Hd, Hds. cbn [rmap rbind emit_events]. norm. reflexivity.
    - intros env t loc tg Pt ks o p m HD. cbn [IDen] in HD.
      rewrite item_events_eq, run_here. cbn [shallow emit_step rbind]. rewrite events_T. cbn [emit_events].
      change (with_stacks (record (mk env ks o p m) loc) _ _) with (mk env (KBlock :: ks) o p (m ++ [(loc, p)])).
      rewrite (step_start t env KBlock ks _ _ _ HD). cbn [rbind]. rewrite (Pt ks _ _ _ HD). cbn [kcont]. norm. reflexivity.
    - intros env t loc tg Pt ks o p m HD. cbn [IDen] in HD.
      rewrite item_events_eq, run_here. cbn [shallow emit_step rbind]. rewrite events_T. cbn [emit_events].
      change (with_stacks (record (mk env ks o p m) loc) _ _) with (mk env (KLoop :: ks) o p (m ++ [(loc, p)])).
      rewrite (step_start t env KLoop ks _ _ _ HD). cbn [rbind]. rewrite (Pt ks _ _ _ HD). cbn [kcont]. norm. reflexivity.
    - intros env c a loc x y Pc Pa ks o p m [HDc HDa].
      rewrite item_events_eq, run_here. cbn [shallow emit_step rbind]. rewrite !events_T. cbn [app emit_events].
      change (with_stacks (record (mk env ks o p m) loc) _ _) with (mk env (KIf :: ks) o p (m ++ [(loc, p)])).
      rewrite (step_start c env KIf ks _ _ _ HDc). cbn [rbind].
      rewrite emit_events_app, (Pc ks _ _ _ HDc). cbn [kcont rbind emit_events].
      rewrite (step_start a env KElse ks _ _ _ HDa). cbn [rbind]. rewrite (Pa ks _ _ _ HDa). cbn [kcont]. norm. reflexivity.
  Qed.
End Main.

Theorem emit_tree_spec : forall cx ar t tg p0,
  Den ar t -> flt_tree cx [] t KEntry = Ok tg ->
  exists st', emit_events cx ar (init_estate p0) (events false t) = Ok st' /\
    out st' = map snd tg /\ imap st' = tag_positions cx p0 tg /\
    blocks st' = [] /\ kinds st' = [] /\ epos st' = p0 + total_len cx tg.
Proof.
  intros cx ar t tg p0 HD Hf. rewrite events_T. cbn [emit_events].
  change (init_estate p0) with (mk [] [KEntry] [] p0 []).
  rewrite (step_start cx ar t [] KEntry [] _ _ _ HD). cbn [rbind].
  rewrite (proj1 (emit_tree_item cx ar) t [] KEntry tg Hf [] _ _ _ HD).
  eexists; split; [reflexivity|]. cbn [mk out imap blocks kinds epos kcont app]. auto.
Qed.

Lemma position_In s env : forall n, In s env -> exists d, position s env n = Some d.
Proof. induction env as [|x env IH]; intros n Hin; [destruct Hin|]. cbn [position].
  destruct (N.eqb x s) eqn:E; [eauto|]. destruct Hin as [->|Hin]; [rewrite N.eqb_refl in E; discriminate|]. apply IH; exact Hin. Qed.
Lemma depth_of_ok env s : In s env -> exists d, depth_of env s = Ok d.
Proof. intros Hin. destruct (position_In s env 0 Hin) as [d Hd]. exists d. unfold depth_of. rewrite Hd. reflexivity. Qed.
Lemma depths_of_ok env ss : Forall (fun s => In s env) ss -> exists ds, depths_of env ss = Ok ds.
Proof. induction 1 as [|s ss Hs _ [ds IH]]; cbn [depths_of]; [eauto|].
  destruct (depth_of_ok env s Hs) as [d Hd]. rewrite Hd, IH. cbn [rbind rmap]. eauto. Qed.

Lemma scoped_T id2i env t : scoped id2i env t <-> Forall (fun x => scoped_item id2i (tsid t :: env) (fst x)) (titems t).
Proof. destruct t as [s ty items e]. exact (SeqArena.all_Forall (fun x => scoped_item id2i (s :: env) (fst x)) items). Qed.

Section FltOk.
  Variable cx : ectx.
  Definition Pok (t : tree) : Prop := forall env k, scoped (ex_id2i cx) env t -> exists tg, flt_tree cx env t k = Ok tg.
  Definition Qok (it : item) : Prop := forall env loc, scoped_item (ex_id2i cx) env it -> exists tg, flt_item cx env it loc = Ok tg.

  Lemma flt_items_ok items : Forall (fun x => Qok (fst x)) items ->
    forall env, Forall (fun x => scoped_item (ex_id2i cx) env (fst x)) items -> exists tg, flt_items cx env items = Ok tg.
  Proof. induction 1 as [|x l Hx _ IH]; intros env Hs; cbn [flt_items]; [eauto|].
    inversion Hs as [|? ? Hsx Hsl]; subst. destruct (Hx env (snd x) Hsx) as [a Ha]. destruct (IH env Hsl) as [b Hb].
    rewrite Ha, Hb. cbn [rbind rmap]. eauto. Qed.

  Theorem flt_ok_both : (forall t, Pok t) /\ (forall it, Qok it).
  Proof.
    apply tree_item_ind.
    - intros s ty items e HQ env k Hs. apply scoped_T in Hs. rewrite flt_tree_T.
      destruct (flt_items_ok _ HQ _ Hs) as [b Hb]. cbn [titems tsid] in *. rewrite Hb. cbn [rmap]. eauto.
    - intros pl env loc Hs. cbn [scoped_item] in Hs. cbn [flt_item].
      destruct (encode_plain (ex_id2i cx) pl); [eauto|contradiction].
    - intros s env loc Hs. cbn [scoped_item] in Hs. cbn [flt_item]. destruct (depth_of_ok env s Hs) as [d Hd]. rewrite Hd. cbn [rmap]. eauto.
    - intros s env loc Hs. cbn [scoped_item] in Hs. cbn [flt_item]. destruct (depth_of_ok env s Hs) as [d Hd]. rewrite Hd. cbn [rmap]. eauto.
    - intros ss d env loc Hs. cbn [scoped_item] in Hs. destruct Hs as [Hd Hss]. cbn [flt_item].
      destruct (depth_of_ok env d Hd) as [dd Hdd]. destruct (depths_of_ok env ss Hss) as [ds Hds].
      rewrite Hdd, Hds. cbn [rbind rmap]. eauto.
    - intros t Pt env loc Hs. cbn [scoped_item] in Hs. rewrite flt_item_B. destruct (Pt env KBlock Hs) as [tg Htg]. rewrite Htg. cbn [rmap]. eauto.
    - intros t Pt env loc Hs. cbn [scoped_item] in Hs. rewrite flt_item_L. destruct (Pt env KLoop Hs) as [tg Htg]. rewrite Htg. cbn [rmap]. eauto.
    - intros c a Pc Pa env loc Hs. cbn [scoped_item] in Hs. destruct Hs as [Hc Ha]. rewrite flt_item_I.
      destruct (Pc env KIf Hc) as [x Hx]. destruct (Pa env KElse Ha) as [y Hy]. rewrite Hx, Hy. cbn [rbind rmap]. eauto.
  Qed.
End FltOk.

Theorem flt_ok : forall cx env t k, scoped (ex_id2i cx) env t -> exists tg, flt_tree cx env t k = Ok tg.
Proof. intros cx env t k. apply (proj1 (flt_ok_both cx)). Qed.
Theorem flt_item_ok : forall cx env it loc, scoped_item (ex_id2i cx) env it -> exists tg, flt_item cx env it loc = Ok tg.
Proof. intros cx env it loc. apply (proj2 (flt_ok_both cx)). Qed.

Theorem emit_no_panic : forall cx ar t p0, Den ar t -> scoped (ex_id2i cx) [] t ->
  exists st', emit_events cx ar (init_estate p0) (events false t) = Ok st' /\ blocks st' = [] /\ kinds st' = [].
Proof.
  intros cx ar t p0 HD Hs. destruct (flt_ok cx [] t KEntry Hs) as [tg Htg].
  destruct (emit_tree_spec cx ar t tg p0 HD Htg) as (st' & Hr & _ & _ & Hb & Hk & _). eauto.
Qed.

Theorem emit_body_spec : forall cx ar t tg p0 fuel,
  Den ar t -> dfs_in_order false fuel ar (tsid t) = Ok (events false t) ->
  flt_tree cx [] t KEntry = Ok tg ->
  exists st', emit_body cx fuel ar (tsid t) p0 = Ok st' /\ out st' = map snd tg /\ imap st' = tag_positions cx p0 tg.
Proof.
  intros cx ar t tg p0 fuel HD Hdfs Hf. unfold emit_body. rewrite Hdfs. cbn [rbind].
  destruct (emit_tree_spec cx ar t tg p0 HD Hf) as (st' & Hr & Ho & Hi & _). eauto.
Qed.

Lemma depth_of_position env s d : depth_of env s = Ok d -> position s env 0 = Some d.
Proof. unfold depth_of. destruct (position s env 0); cbn [of_opt]; intros H; inversion H; reflexivity. Qed.

Theorem flt_depth_position : forall cx env s loc tg,
  flt_item cx env (ItBr s) loc = Ok tg -> exists d, tg = [(loc, WBr d)] /\ position s env 0 = Some d.
Proof.
  intros cx env s loc tg Hf. apply rmap_ok in Hf as (d & Hd & ->). exists d. split; [reflexivity|apply depth_of_position, Hd].
Qed.
Theorem flt_depth_position_brif : forall cx env s loc tg,
  flt_item cx env (ItBrIf s) loc = Ok tg -> exists d, tg = [(loc, WBrIf d)] /\ position s env 0 = Some d.
Proof.
  intros cx env s loc tg Hf. apply rmap_ok in Hf as (d & Hd & ->). exists d. split; [reflexivity|apply depth_of_position, Hd].
Qed.

(* the depth is the index of the FIRST occurrence of the target among the enclosing sequences *)
Lemma position_first s env : forall n d, position s env n = Some d ->
  exists i, d = n + N.of_nat i /\ nth_error env i = Some s /\ forall j, (j < i)%nat -> nth_error env j <> Some s.
Proof.
  induction env as [|x env IH]; intros n d H; cbn [position] in H; [discriminate|].
  destruct (N.eqb x s) eqn:E.
  - apply N.eqb_eq in E. subst x. inversion H; subst. exists O. split; [cbn; lia|]. split; [reflexivity|]. intros j Hj; lia.
  - apply IH in H as (i & -> & Hn & Hlt). exists (S i). split; [lia|]. split; [exact Hn|].
    intros [|j] Hj; cbn [nth_error].
    + intros Heq. inversion Heq; subst. rewrite N.eqb_refl in E. discriminate.
    + apply Hlt. lia.
Qed.
Corollary position_sound s env d : position s env 0 = Some d ->
  nth_error env (N.to_nat d) = Some s /\ forall j, (j < N.to_nat d)%nat -> nth_error env j <> Some s.
Proof. intros H. apply position_first in H as (i & -> & Hn & Hlt). rewrite N.add_0_l, Nat2N.id. auto. Qed.

Definition wdelta (w : wins) : Z := match w with WBlock _ | WLoop _ | WIf _ => 1 | WEnd => -1 | _ => 0 end.
Fixpoint opens (ws : list wins) : Z := match ws with [] => 0 | w :: ws' => wdelta w + opens ws' end.
Lemma opens_app a b : opens (a ++ b) = (opens a + opens b)%Z.
Proof. induction a as [|w a IH]; cbn [app opens]; [reflexivity|]. rewrite IH. lia. Qed.

Lemma flt_opens cx :
  (forall t env k tg, flt_tree cx env t k = Ok tg -> opens (map snd tg) = match k with KIf => 0 | _ => -1 end%Z) /\
  (forall it env loc tg, flt_item cx env it loc = Ok tg -> opens (map snd tg) = 0%Z).
Proof.
  apply flt_ind with (PL := fun _ _ tg => opens (map snd tg) = 0%Z).
  - reflexivity.
  - intros env x l a b Ha Hb. rewrite map_app, opens_app, Ha, Hb. reflexivity.
  - intros env t k body Hb. rewrite map_app, opens_app, Hb. destruct k; reflexivity.
  - reflexivity.
  - reflexivity.
  - reflexivity.
  - reflexivity.
  - intros env t loc tg H. cbn [map snd opens wdelta]. rewrite H. reflexivity.
  - intros env t loc tg H. cbn [map snd opens wdelta]. rewrite H. reflexivity.
  - intros env c a loc x y Hx Hy. cbn [map snd opens wdelta]. rewrite map_app, opens_app, Hx, Hy. reflexivity.
Qed.

Theorem flt_balanced : forall cx env t k tg, flt_tree cx env t k = Ok tg ->
  opens (map snd tg) = match k with KIf => 0 | _ => -1 end%Z.
Proof. intros cx env t. apply flt_opens. Qed.
Theorem flt_item_balanced : forall cx env it loc tg, flt_item cx env it loc = Ok tg -> opens (map snd tg) = 0%Z.
Proof. intros cx env it. apply flt_opens. Qed.

(* a stronger nesting check: a depth counter that may never underflow, and WElse only
   inside an open construct; [wnest ws d] = depth after reading [ws] from depth [d] *)
Fixpoint wnest (ws : list wins) (d : nat) : option nat :=
  match ws with
  | [] => Some d
  | w :: ws' =>
      match w with
      | WBlock _ | WLoop _ | WIf _ => wnest ws' (S d)
      | WEnd => match d with O => None | S d' => wnest ws' d' end
      | WElse => match d with O => None | S _ => wnest ws' d end
      | _ => wnest ws' d
      end
  end.

Lemma flt_wnest cx :
  (forall t env k tg, flt_tree cx env t k = Ok tg ->
     forall rest d, wnest (map snd tg ++ rest) (S d) = wnest rest (match k with KIf => S d | _ => d end)) /\
  (forall it env loc tg, flt_item cx env it loc = Ok tg -> forall rest d, wnest (map snd tg ++ rest) d = wnest rest d).
Proof.
  apply flt_ind with (PL := fun _ _ tg => forall rest d, wnest (map snd tg ++ rest) d = wnest rest d).
  - reflexivity.
  - intros env x l a b Ha Hb rest d. rewrite map_app, <- app_assoc, Ha, Hb. reflexivity.
  - intros env t k body Hb rest d. rewrite map_app, <- app_assoc, Hb. destruct k; reflexivity.
  - reflexivity.
  - reflexivity.
  - reflexivity.
  - reflexivity.
  - intros env t loc tg H rest d. cbn [map snd app wnest]. rewrite H. reflexivity.
  - intros env t loc tg H rest d. cbn [map snd app wnest]. rewrite H. reflexivity.
  - intros env c a loc x y Hx Hy rest d. cbn [map snd app wnest]. rewrite map_app, <- app_assoc, Hx, Hy. reflexivity.
Qed.

(* a whole function body (entry sequence, one implicit frame) is well nested and closes that frame *)
Theorem flt_nested : forall cx t tg, flt_tree cx [] t KEntry = Ok tg -> wnest (map snd tg) 1 = Some O.
Proof. intros cx t tg Hf. pose proof (proj1 (flt_wnest cx) t [] KEntry tg Hf [] O) as H.
  rewrite app_nil_r in H. exact H. Qed.

Print Assumptions emit_tree_spec.
Print Assumptions flt_ok.
Print Assumptions emit_no_panic.
Print Assumptions emit_body_spec.
Print Assumptions flt_balanced.
Print Assumptions flt_nested.
