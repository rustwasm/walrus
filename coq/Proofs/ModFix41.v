(* C08, module-level fixpoint, names emitted and synthesised (cf_skip_name = false, cf_synthetic_names = true): the two
   name facts of ModFix40 hold because every function index / local slot of the second parse is the image of a named
   function / local of the first module; hence em_secs e2 = em_secs e1 for every configuration. *)
From Coq Require Import List NArith ZArith Bool Arith Lia Permutation Sorted.
Import ListNotations.
From WV Require Import Gen.Ops Model.Common Model.IR Model.Arena Model.Traversal Model.EmitFn Model.Locals
                       Model.ParseFn Model.ModuleM Model.ParseM Model.EmitM Gen.Attrs.
From WV Require Import Proofs.Arena Proofs.Order Proofs.IndexMaps Proofs.Structure Proofs.Structure2 Proofs.ParseTotal.
From WV Require Import Proofs.Names Proofs.ModFix Proofs.ModFix7.
From WV Require Proofs.ModFix17 Proofs.ModFix20 Proofs.ModFix21 Proofs.ModFixEx.
From WV Require Proofs.ModFix12 Proofs.ModFix15 Proofs.ModFix16 Proofs.ModFix11
                Proofs.ArenaN Proofs.TotalityBodies Proofs.Renumbering Proofs.ModFix32 Proofs.ModFix6 Proofs.ParseFn.
From WV Require Import Proofs.ModFix40.
From WV Require Import Model.ParseSpec.
Local Open Scope nat_scope.

(* parse invariant: before the name sections are applied an IMPORTED function has no name
   (synthetic names are given to declared local functions only) *)
Definition fni (f : mfunc) : Prop := match fn_kind f with FK_Import _ _ => fn_name f = None | _ => True end.

(* every step before the name sections keeps it *)
Lemma step_fni st m ids m' ids' : phase_of st <> Naming -> Forall fni (items (m_funcs m)) ->
  do_step st m ids = POk (m', ids') -> Forall fni (items (m_funcs m')).
Proof.
  intros Hq H E. destruct (before_names _ Hq) as [Hq'|[p ->]].
  - destruct (step_arenas _ _ _ _ _ Hq' E) as [_ Af _ _ _ _ _ _ _].
    refine (achange_Forall _ _ _ _ _ Af _ _ H); [intros x y <- Hx; exact Hx|].
    intros v Hv. unfold fni, new_fn in *. destruct (fn_kind v); [exact Hv|exact I|exact I].
  - cbn [do_step] in E. pinv E. injection E as <- _. wcbn.
    apply WV.Proofs.Names.Forall_upd; [|exact H]. intros x _. exact I.
Qed.

(* the function arena of a parsed module: an arena without named imports, then the name sections *)
Theorem parseM_funcs_structure : forall cf ver w s, parseM cf ver w = POk s ->
  exists m0, ids_consistent m0 (ps_ids s) /\ Forall fni (items (m_funcs m0)) /\
    m_funcs (ps_m s) = apply_names (m_funcs m0) (ii_funcs (ps_ids s)) set_fn_name (flat_map wn_funcs (name_sections w)).
Proof.
  intros cf ver w s HP. destruct (parseM_before_names _ _ _ _ HP) as (m0 & R & I0 & ->). exists m0.
  split; [exact I0|]. split; [|apply all_names_funcs].
  exact (reach_by_inv _ (fun m _ => Forall fni (items (m_funcs m))) step_fni _ _ R (Forall_nil _)).
Qed.

(* a named imported function of a parsed module got its name from a name section of the input *)
Corollary parseM_named_nonlocal cf ver w s i f : parseM cf ver w = POk s ->
  In (i, f) (aiter (m_funcs (ps_m s))) -> fn_name f <> None ->
  (exists a b, fn_kind f = FK_Import a b) -> In i (map fst (flat_map wn_funcs (name_sections w))).
Proof.
  intros HP Hin Hne (ia & ib & Hk).
  destruct (parseM_funcs_structure _ _ _ _ HP) as (m0 & I0 & F0 & Ef).
  set (l := flat_map wn_funcs (name_sections w)) in *.
  assert (Il : ii_funcs (ps_ids s) = iota (length (items (m_funcs m0)))) by (unfold ids_consistent in I0; tauto).
  assert (D0 : dead (m_funcs m0) = []) by (unfold ids_consistent in I0; tauto).
  rewrite Il in Ef. rewrite Ef in Hin.
  destruct (apply_names_spec set_fn_name (m_funcs m0) l set_fn_name_idem) as (HL & HD & Hn & _). cbv zeta in HL, HD, Hn.
  rewrite D0 in HD. apply (aiter_nodead _ _ _ HD) in Hin.
  assert (Hlt : N.to_nat i < length (items (m_funcs m0))) by (rewrite <- HL; apply nth_error_Some; congruence).
  destruct (nth_error (items (m_funcs m0)) (N.to_nat i)) as [old|] eqn:Eo; [|apply nth_error_None in Eo; lia].
  rewrite (Hn _ _ Eo), N2Nat.id in Hin.
  destruct (last_name l i) as [nm|] eqn:El.
  - apply last_name_in in El. apply (in_map fst) in El. exact El.
  - exfalso. cbn [renamed] in Hin. inversion Hin; subst f. rewrite Forall_forall in F0.
    specialize (F0 old (nth_error_In _ _ Eo)). unfold fni in F0. rewrite Hk in F0. contradiction.
Qed.

(* the functions below the import count of the re-parsed module are imports *)
Lemma second_imports_kind cf ver w ilen s1 e1 s2 e2 j f :
  two_trips cf ver w ilen s1 e1 s2 e2 -> aget (m_funcs (ps_m s2)) j = Some f ->
  N.to_nat j < length (imported_funcs (ps_m s1)) -> exists a b, fn_kind f = FK_Import a b.
Proof.
  intros TT Hg Hlt. pose proof TT as (P1 & E1 & P2 & E2).
  destruct (WV.Proofs.ModFix6.fn_layout _ _ _ _ _ _ _ _ TT) as [HI _].
  pose proof (parseM_iv _ _ _ _ P2) as IV. destruct IV as (_ & _ & _ & [_ IF]).
  pose proof (parseM_ids _ _ _ _ P2) as Hid.
  assert (D : dead (m_imports (ps_m s2)) = []) by (unfold ids_consistent in Hid; tauto).
  unfold imported_funcs at 1 in HI. unfold live_imports in HI. rewrite (aiter_snd_nodead _ D) in HI.
  fold (ifuncs (items (m_imports (ps_m s2)))) in HI. rewrite HI in IF. rewrite Forall_forall in IF.
  assert (Hin : In j (iota (length (imported_funcs (ps_m s1))))).
  { eapply nth_error_In. rewrite (iota_nth _ _ Hlt), N2Nat.id. reflexivity. }
  destruct (IF _ Hin) as (v & Hv & Hp). apply aget_nth in Hg. rewrite Hg in Hv. inversion Hv; subst v.
  unfold is_imp_fn in Hp. destruct (fn_kind f); try contradiction. eauto.
Qed.

Theorem funcs_named_kept_holds : forall cf ver w ilen s1 e1 s2 e2,
  two_trips cf ver w ilen s1 e1 s2 e2 -> cf_synthetic_names cf = true -> cf_skip_name cf = false ->
  ModFix21.funcs_named_kept s2 (stream_names (em_secs e1)).
Proof.
  intros cf ver w ilen s1 e1 s2 e2 TT Hsyn Hskip i f Hin Hne. pose proof TT as (P1 & E1 & P2 & E2).
  destruct (emitted_names_canonical_s _ _ _ _ _ _ P1 E1 Hskip) as (s_nm1 & En1 & Hpay1 & Hsec1 & Hs1 & _).
  rewrite (stream_names_of _ _ Hpay1 Hs1).
  pose proof (parseM_ids _ _ _ _ P2) as Hid.
  assert (D : dead (m_funcs (ps_m s2)) = []) by (unfold ids_consistent in Hid; tauto).
  assert (IF : ii_funcs (ps_ids s2) = iota (length (items (m_funcs (ps_m s2))))) by (unfold ids_consistent in Hid; tauto).
  pose proof Hin as Hg. apply (aiter_nodead _ _ _ D) in Hg.
  assert (Hlt : N.to_nat i < length (items (m_funcs (ps_m s2)))) by (apply nth_error_Some; congruence).
  destruct (emitM_x2i _ _ _ _ E1) as (fs1 & Hfs1 & _).
  pose proof (WV.Proofs.ModFix12.second_funcs_count _ _ _ _ _ _ _ E1 P2 Hfs1) as Hcnt. rewrite imported_funcs_eq in Hcnt.
  rewrite IF, iota_length in Hcnt.
  destruct (Nat.lt_ge_cases (N.to_nat i) (length (imported_funcs (ps_m s1)))) as [Hi|Hi].
  - (* an import: its name comes from the name section *)
    assert (Hga : aget (m_funcs (ps_m s2)) i = Some f) by (apply WV.Proofs.ArenaN.aiter_In; exact Hin).
    destruct (second_imports_kind _ _ _ _ _ _ _ _ _ _ TT Hga Hi) as (a & b & Hk).
    pose proof (parseM_named_nonlocal _ _ _ _ _ _ P2 Hin Hne) as K.
    rewrite Hsec1, (sections_of _ Hs1 wn_funcs eq_refl) in K. apply K. eauto.
  - (* a local function: it is the image of a (named) local function of the first module *)
    set (k := N.to_nat i - length (imported_funcs (ps_m s1))).
    assert (Hk : k < length fs1) by (unfold k; lia).
    destruct (nth_error fs1 k) as [[id lf1]|] eqn:Hp; [|apply nth_error_None in Hp; lia].
    destruct (WV.Proofs.ModFix15.fs1_nth _ _ _ _ _ _ _ _ _ _ _ _ TT Hfs1 Hp) as ((f1 & Hg1 & Hk1) & Hj & _).
    assert (Ej : N.of_nat (length (imported_funcs (ps_m s1)) + k) = i) by (unfold k; lia). rewrite Ej in Hj.
    pose proof (parseM_local_func_named _ _ _ _ _ _ _ P1 Hsyn Hg1 Hk1) as Hn1.
    destruct (fn_name f1) as [nm|] eqn:En; [|contradiction].
    apply emit_names_fields in En1. destruct En1 as (_ & Nf & _).
    destruct (named_spec _ _ _ _ _ Nf) as (_ & _ & Tot & _).
    destruct (Tot id f1 nm (proj2 (WV.Proofs.ArenaN.aiter_In _ _ _) Hg1) En) as (j & Hj' & Hinj).
    rewrite Hj in Hj'. inversion Hj'; subst j. apply (in_map fst) in Hinj. exact Hinj.
Qed.

Lemma find_by_key {A} (key : A -> N) : forall (l : list A) k x, NoDup (map key l) -> nth_error l k = Some x ->
  find (fun y => N.eqb (key y) (key x)) l = Some x.
Proof.
  induction l as [|a l IH]; intros k x ND Hk; [destruct k; discriminate|].
  cbn [map] in ND. inversion ND; subst. destruct k as [|k]; cbn [nth_error] in Hk; cbn [find].
  - inversion Hk; subst. rewrite N.eqb_refl. reflexivity.
  - destruct (N.eqb_spec (key a) (key x)) as [E|_]; [|eapply IH; eauto].
    exfalso. apply H1. rewrite E. apply in_map. eapply nth_error_In; exact Hk.
Qed.

(* every slot of an emitted function is the slot of an emitted local (a parameter or a used local) *)
Lemma slot_hit ty args used decls lmap p : NoDup args ->
  emit_locals ty args used = (decls, lmap) -> p < length args + length (expand_locals decls) ->
  exists id, In id (used ++ args) /\ local_index lmap id = Some (N.of_nat p).
Proof.
  intros ND E Hp.
  destruct (Nat.lt_ge_cases p (length args)) as [Ha|Ha].
  - destruct (nth_error args p) as [id|] eqn:Hn; [|apply nth_error_None in Hn; lia].
    exists id. split; [apply in_or_app; right; eapply nth_error_In; exact Hn|].
    apply (WV.Proofs.ModFix11.emit_locals_index_iff ty args used decls lmap ND E).
    destruct (WV.Proofs.ModFix11.emit_locals_decls_grouped ty _ _ _ _ E) as (_ & _ & _ & _ & _ & _ & _ & Hm).
    rewrite Hm, <- app_length.
    apply (WV.Proofs.ModFix11.nth_error_in_combine N.of_nat _ 0 p id). rewrite nth_error_app1 by exact Ha. exact Hn.
  - destruct (WV.Proofs.ModFix11.emit_locals_slots_bij ty _ _ _ _ E) as (_ & Hb).
    destruct (Hb (p - length args)) as (id & Hu & _ & _ & Hin & _); [lia|].
    replace (length args + (p - length args)) with p in Hin by lia.
    exists id. split; [apply in_or_app; left; exact Hu|].
    apply (WV.Proofs.ModFix11.emit_locals_index_iff ty args used decls lmap ND E). exact Hin.
Qed.

(* with synthetic names every local name the first emit writes is non-empty *)
Lemma emitted_local_names_nonempty cf ver w ilen s e s_nm fi names slot n :
  parseM cf ver w = POk s -> emitM (ps_m s) ilen [] = Ok e -> cf_synthetic_names cf = true ->
  emit_names (ps_m s) (em_x2i e) (em_fns e) = Ok s_nm ->
  In (fi, names) (wn_locals (names_of s_nm)) -> In (slot, n) names -> n <> [].
Proof.
  intros HP HE Hsyn En H1 H2. destruct (local_names_emit_partial _ _ _ _ En) as [A B].
  apply A in H1. destruct H1 as (fid & f & ef & _ & _ & _ & _ & ->).
  apply B in H2. destruct H2 as (lid & lo & q & _ & Hg & Hn & _).
  destruct (parseM_local_named _ _ _ _ _ _ HP Hsyn Hg) as (n' & Hn' & Hne). congruence.
Qed.

(* hence dropping empty names (what the parser does under synthetic names) drops nothing *)
Lemma loc_entries_syn_eq ids (L : list (N * namemap)) :
  (forall fi names slot n, In (fi, names) L -> In (slot, n) names -> n <> []) ->
  loc_entries true ids L = loc_entries false ids L.
Proof.
  intros H. unfold loc_entries. rewrite !flat_map_concat_map. f_equal. apply map_ext_in.
  intros [fi names] Hin. unfold fn_entries. cbn [fst snd].
  destruct (nth_N (ii_funcs ids) fi) as [fid0|]; [|reflexivity]. f_equal.
  rewrite (filter_all (fun q : N * nstr => negb (false && str_empty (snd q)))) by (intros; reflexivity).
  apply filter_all. intros [slot n] Hq. cbn [snd andb]. specialize (H fi names slot n Hin Hq).
  destruct n; [contradiction|reflexivity].
Qed.

(* An emitted function of the second module comes from a local function [id] of the first, emitted as [ef1] at the
   index [fid]; its parse-time local vector has one local per slot of [ef1]. *)
Lemma second_fn_origin cf ver w ilen s1 e1 s2 e2 fid ef2 :
  two_trips cf ver w ilen s1 e1 s2 e2 -> valid_stream w -> In ef2 (em_fns e2) -> ef_id ef2 = fid ->
  exists id f1 lf1 ef1 base2,
    aget (m_funcs (ps_m s1)) id = Some f1 /\ fn_kind f1 = FK_Local lf1 /\
    get_idx (em_x2i e1) S_func id = Ok fid /\
    find (fun e => N.eqb (ef_id e) id) (em_fns e1) = Some ef1 /\
    emit_function (ps_m s1) (em_x2i e1) ilen id lf1 = Ok ef1 /\
    locals_vec (ps_ids s2) fid =
      map N.of_nat (seq base2 (length (lf_args lf1) + length (expand_locals (wb_locals (ef_body ef1))))).
Proof.
  intros TT V Hin2 Hid2. pose proof TT as (P1 & E1 & _).
  pose proof (ModFix17.params_kept_holds _ _ _ _ _ _ _ _ TT) as PK.
  pose proof (WV.Proofs.ModFix15.W_holds_V _ _ _ _ _ _ _ _ TT V) as HW.
  destruct (ModFix17.second_fn_source _ _ _ _ _ _ _ _ _ _ TT Hin2 Hid2)
    as (id & f1 & lf1 & ef1 & f2 & lf2 & k' & Hg1 & Hk1 & Hj & Hg2 & Hk2 & Hef1 & He1 & Hem2).
  destruct (emitM_x2i _ _ _ _ E1) as (fs1 & Hfs1 & _).
  destruct (WV.Proofs.ModFix12.emit_code_payload _ _ _ _ E1 Hfs1) as (_ & _ & Hids1 & _).
  destruct (ModFix17.second_emit_locals _ _ _ _ _ _ _ _ _ _ _ _ _ _ _ _ TT V HW PK Hg1 Hk1 Hj Hg2 Hk2 He1 Hem2)
    as (evs1 & decls & lmap1 & base2 & n & _ & _ & _ & L4 & _ & L6 & L7 & _).
  destruct (WV.Proofs.ModFix12.emit_function_inv _ _ _ _ _ _ He1) as (_ & _ & _ & _ & _ & _ & _ & _ & _ & Hid1 & _).
  exists id, f1, lf1, ef1, base2. split; [exact Hg1|]. split; [exact Hk1|]. split; [exact Hj|]. split.
  { rewrite <- Hid1. apply (find_by_key ef_id (em_fns e1) k' ef1); [|exact Hef1].
    rewrite Hids1. apply (used_local_functions_ids _ _ Hfs1). }
  split; [exact He1|]. rewrite L4, <- L6. exact L7.
Qed.

(* with synthetic names on, the first emit writes a name for every slot of a local function whose body refers to
   locals of its own only: the slot belongs to a parameter or a used local, which is allocated, hence named *)
Lemma first_emit_names_slot cf ver w s ilen e id f lf ef p :
  parseM cf ver w = POk s -> emitM (ps_m s) ilen [] = Ok e -> cf_synthetic_names cf = true -> ModFix17.locals_in_range s ->
  aget (m_funcs (ps_m s)) id = Some f -> fn_kind f = FK_Local lf -> emit_function (ps_m s) (em_x2i e) ilen id lf = Ok ef ->
  p < length (lf_args lf) + length (expand_locals (wb_locals (ef_body ef))) ->
  exists nm, In (N.of_nat p, nm) (fn_local_names (ps_m s) ef).
Proof.
  intros HP HE Hsyn LR Hg Hk He Hp.
  destruct (WV.Proofs.ModFix12.emit_function_inv _ _ _ _ _ _ He) as (evs & decls & lmap & st & B1 & B2 & _ & _ & B5 & _ & B7 & _ & B9).
  rewrite B5 in Hp. cbn [wb_locals] in Hp.
  destruct (WV.Proofs.ModFix12.local_function_body _ _ _ _ _ _ _ HP Hg Hk)
    as (s0 & k0 & b0 & t & ety & _ & _ & _ & _ & _ & _ & _ & _ & _ & base & Hargs & Hlv).
  assert (ND : NoDup (lf_args lf)).
  { rewrite Hargs. apply WV.Proofs.Order.StronglySorted_lt_NoDup, WV.Proofs.ModFix11.seq_ids_sorted. }
  destruct (slot_hit _ _ _ _ _ p ND B2 Hp) as (lid & Hu & Hi).
  assert (Hv : In lid (locals_vec (ps_ids s) id)).
  { apply in_app_or in Hu. destruct Hu as [Hu|Hu].
    - apply ModFix17.used_of_log_in in Hu. exact (LR id f lf evs lid Hg Hk B1 Hu).
    - rewrite Hlv. rewrite Hargs in Hu. apply WV.Proofs.ModFix11.in_seq_ids in Hu. destruct Hu as (x & -> & Hx).
      apply WV.Proofs.ModFix11.in_seq_ids. exists x. split; [reflexivity|lia]. }
  destruct (ModFix17.parse_locals_struct _ _ _ _ _ _ HP HE) as (_ & _ & Alloc & _).
  destruct (Alloc id lid Hv) as (lo & Hlo). destruct (parseM_local_named _ _ _ _ _ _ HP Hsyn Hlo) as (nm & Hnm & _).
  exists nm. apply fn_local_names_in. unfold local_index in Hi.
  destruct (find (fun q : N * N => (fst q =? lid)%N) lmap) as [q|] eqn:Eq; [|discriminate].
  exists lid, lo, q. split; [rewrite B9; apply WV.Proofs.Order.sort_ids_members; exact Hu|].
  split; [exact Hlo|]. split; [exact Hnm|]. split; [rewrite B7; exact Eq|]. now injection Hi.
Qed.

(* from the state-level premise ModFix17.locals_in_range *)
Theorem locals_named_kept_state : forall cf ver w ilen s1 e1 s2 e2,
  two_trips cf ver w ilen s1 e1 s2 e2 -> valid_stream w -> ModFix17.locals_in_range s1 ->
  cf_synthetic_names cf = true -> cf_skip_name cf = false ->
  locals_named_kept s2 (stream_names (em_secs e1)).
Proof.
  intros cf ver w ilen s1 e1 s2 e2 TT V LR Hsyn Hskip fid lid lo Hv Hg. pose proof TT as (P1 & E1 & P2 & E2).
  destruct (emitted_names_canonical_s _ _ _ _ _ _ P1 E1 Hskip) as (s_nm1 & En1 & Hpay1 & Hsec1 & Hs1 & _).
  rewrite (stream_names_of _ _ Hpay1 Hs1).
  set (L1 := wn_locals (names_of s_nm1)) in *. set (ids := ps_ids s2) in *.
  assert (NE : forall fi names slot n, In (fi, names) L1 -> In (slot, n) names -> n <> []).
  { intros fi names slot n. apply (emitted_local_names_nonempty _ _ _ _ _ _ _ _ _ _ _ P1 E1 Hsyn En1). }
  (* what the second parse gives the local *)
  destruct (parseM_local_names _ _ _ _ _ _ P2 Hg) as [K _].
  unfold local_entries in K. rewrite Hsec1, Hsyn in K.
  rewrite (sections_of _ Hs1 (fun n => loc_entries true (ps_ids s2) (wn_locals n)) eq_refl) in K.
  fold L1 in K. fold ids in K. rewrite (loc_entries_syn_eq ids L1 NE) in K.
  (* it suffices to find an entry *)
  cut (exists n, last_name (loc_entries false ids L1) lid = Some n).
  { intros (n & Hn). rewrite Hn. apply K. exact Hn. }
  destruct (ModFix17.locals_struct_holds _ _ _ _ _ _ _ _ TT) as (Dis & NDv & _ & FE). cbv zeta in Dis, NDv, FE. fold ids in Dis, NDv, FE.
  pose proof (ModFix17.locals_canon_proved _ _ _ _ _ _ _ _ TT V (ModFix17.params_kept_holds _ _ _ _ _ _ _ _ TT)) as LC.
  unfold locals_canon in LC. rewrite (stream_names_of _ _ Hpay1 Hs1) in LC. fold L1 in LC. fold ids in LC.
  pose proof (emit_names_locals_sorted _ _ _ _ En1 (parsed_wf_funcs _ _ _ _ _ _ _ P1 E1)) as S1. fold L1 in S1.
  pose proof (parseM_ids _ _ _ _ P2) as I. unfold ids_consistent in I. fold ids in I.
  destruct I as (If & _ & _ & _ & _ & _ & Df & _). set (nf := length (items (m_funcs (ps_m s2)))) in *.
  (* the function that owns the local, the one it came from, and the slot of the local *)
  assert (Hne : locals_vec ids fid <> []) by (intros C; rewrite C in Hv; destruct Hv).
  destruct (FE fid Hne) as (f2 & ef2 & Ha2 & Hfind2).
  assert (Hlt : N.to_nat fid < nf).
  { apply (aiter_nodead _ _ _ Df) in Ha2. apply nth_error_Some. congruence. }
  apply find_some in Hfind2. destruct Hfind2 as (Hin2 & Hid2). apply N.eqb_eq in Hid2.
  destruct (second_fn_origin _ _ _ _ _ _ _ _ _ _ TT V Hin2 Hid2) as (id & f1 & lf1 & ef1 & base2 & Hg1 & Hk1 & Hj & Hfind1 & He1 & L7).
  destruct (In_nth_error _ _ Hv) as (p & Hpn).
  assert (Hpl : p < length (lf_args lf1) + length (expand_locals (wb_locals (ef_body ef1)))).
  { assert (p < length (locals_vec ids fid)) by (apply nth_error_Some; congruence).
    unfold ids in H. rewrite L7, map_length, seq_length in H. exact H. }
  (* the entry the first emit wrote for that slot *)
  destruct (first_emit_names_slot _ _ _ _ _ _ _ _ _ _ p P1 E1 Hsyn LR Hg1 Hk1 He1 Hpl) as (nm & Hslot).
  exists nm. apply (local_name_key ids nf L1 fid p lid nm If Hlt Dis NDv S1 (fun fi names H => proj1 (LC fi names H)) Hpn).
  exists (sort_nm (fn_local_names (ps_m s1) ef1)). split; [|apply in_sort_nm; exact Hslot].
  apply (proj1 (local_names_emit_partial _ _ _ _ En1)). exists id, f1, ef1.
  split; [apply WV.Proofs.ArenaN.aiter_In; exact Hg1|]. split; [exact Hfind1|].
  split; [intros C; rewrite C in Hslot; destruct Hslot|]. split; [exact Hj|reflexivity].
Qed.

Lemma no_imports_ftys : forall r, Forall (fun sec => imports_of sec = []) r -> flat_map sec_ftys r = flat_map funcs_of r.
Proof.
  induction 1 as [|sec r H _ IH]; [reflexivity|]. cbn [flat_map]. rewrite IH. f_equal.
  destruct sec; try reflexivity. cbn [imports_of] in H. subst. reflexivity.
Qed.
(* on a validator-ordered stream the function index space is: imported functions, then the function section(s) *)
Lemma valid_ftys_split : forall w c, valid_from c w -> exists X, flat_map sec_ftys w = X ++ flat_map funcs_of w.
Proof.
  induction w as [|sec r IH]; intros c V; [exists []; reflexivity|].
  cbn [valid_from] in V. destruct V as [Vs Vr]. destruct (IH _ Vr) as [X HX]. cbn [flat_map].
  destruct sec as [ts|l|l|l|l|l|l|f|l|n|bs|l|cu]; try (exists X; exact HX).
  - exists (imp_ftys l ++ X). cbn [sec_ftys funcs_of app]. rewrite HX, app_assoc. reflexivity.
  - exists []. cbn [sec_ftys funcs_of app]. f_equal. apply no_imports_ftys.
    apply (WV.Proofs.Renumbering.valid_no_imports r _ Vr). rewrite WV.Proofs.Renumbering.c_last_cstep. cbn [rank]. lia.
Qed.
Lemma valid_counts : forall w c, valid_from c w ->
  c_nbodies (WV.Proofs.ModFix16.ctx_from c w) = c_nloc (WV.Proofs.ModFix16.ctx_from c w).
Proof.
  induction w as [|sec r IH]; intros c V; cbn [valid_from] in V; [exact V|].
  destruct V as [_ Vr]. exact (IH _ Vr).
Qed.
Lemma valid_code_funcs_len w : valid_stream w -> length (flat_map code_of w) = length (flat_map funcs_of w).
Proof.
  intros V. pose proof (valid_counts w ctx0 V) as H.
  rewrite WV.Proofs.ModFix16.ctx_nbodies, WV.Proofs.ModFix16.ctx_nloc in H. cbn [ctx0 c_nbodies c_nloc Nat.add] in H. exact H.
Qed.
Lemma nth_error_combine {A B} : forall (l1 : list A) (l2 : list B) k a b,
  nth_error l1 k = Some a -> nth_error l2 k = Some b -> nth_error (combine l1 l2) k = Some (a, b).
Proof.
  induction l1 as [|x l1 IH]; intros l2 k a b H1 H2; [destruct k; discriminate|].
  destruct l2 as [|y l2]; [destruct k; discriminate|]. destruct k as [|k]; cbn in *; [congruence|eauto].
Qed.

Theorem locals_in_range_bridge : forall cf ver w s, parseM cf ver w = POk s -> valid_stream w ->
  locals_in_range w -> ModFix17.locals_in_range s.
Proof.
  intros cf ver w s P1 V LR fid f lf evs lid Hg Hk Hlog Hin.
  destruct (WV.Proofs.ModFix12.local_function_body _ _ _ _ _ _ _ P1 Hg Hk)
    as (s0 & k & b & t & ety & _ & _ & Hb & _ & Hjk & Ht & _ & Hen & Hpb & base & Hargs & Hlv).
  destruct (WV.Proofs.ModFix12.valid_bodies_structured _ _ _ _ b fid V P1 (nth_error_In _ _ Hb)) as (l & eloc & Eops & _ & Hw).
  set (cx := {| px_i2id := i2id_fun (ps_ids s) fid; px_types := types_list (ps_m s) |}) in *.
  rewrite Eops, (WV.Proofs.ParseFn.parse_body_arena cx ety (ty_results t) l eloc Hw) in Hpb. injection Hpb as Har.
  rewrite (WV.Proofs.TotalityBodies.parsed_log cx lf ety l eloc Hw (eq_sym Har) Hen) in Hlog. injection Hlog as <-.
  destruct (WV.Proofs.TotalityBodies.parsed_log_refs cx ety l eloc S_local lid Hin) as (o & loc & i & Ho & Hi & ->).
  cbn [px_i2id cx]. rewrite ModFix17.i2id_local. apply nth_In. rewrite Hlv, map_length, seq_length.
  (* the type the function section names for this body *)
  destruct (parseM_sigs _ _ _ _ P1) as [[_ HT] HF]. unfold FInv in HF.
  pose proof (parseM_ids _ _ _ _ P1) as Hid. unfold ids_consistent in Hid. destruct Hid as (If & _).
  pose proof (aget_nth _ _ _ Hg) as Hn.
  assert (Hc : nth_error (K_fty (ps_m s)) (N.to_nat fid) = Some (fcore f)) by (unfold K_fty; apply map_nth_error; exact Hn).
  destruct (ModFix17.Forall2_nth_r _ _ _ HF _ _ Hc) as (ti & Hti & Hty).
  rewrite fcore_ty in Hty. unfold func_ty in Hty. rewrite Hk in Hty.
  destruct (valid_ftys_split w ctx0 V) as [X HX].
  pose proof (valid_code_funcs_len w V) as Hcf.
  pose proof (Forall2_length _ _ _ HF) as HFl. unfold K_fty in HFl. rewrite map_length in HFl.
  rewrite If, iota_length in Hjk.
  assert (Hkl : k < length (flat_map code_of w)) by (apply nth_error_Some; congruence).
  rewrite HX in HFl, Hti. rewrite app_length in HFl.
  rewrite nth_error_app2 in Hti by lia.
  replace (N.to_nat fid - length X) with k in Hti by lia.
  (* the executable premise at this body *)
  unfold locals_in_range, locals_in_range_b in LR. rewrite forallb_forall in LR.
  specialize (LR (ti, b) (nth_error_In _ _ (nth_error_combine _ _ _ _ _ Hti Hb))). cbn [fst snd] in LR.
  destruct (nth_error (flat_map types_of w) (N.to_nat ti)) as [t'|] eqn:Et'; [|discriminate].
  destruct (HT _ _ Et') as (id & ty & Hi1 & Hi2 & (Sp & _)).
  unfold nth_N in Hty. rewrite Hi1 in Hty. injection Hty as ->.
  rewrite (ModFix17.pk_types_get _ _ _ _ _ P1), Hi2 in Ht. injection Ht as <-.
  rewrite Sp. unfold body_locals_in_range in LR. rewrite forallb_forall in LR.
  assert (Hob : In (WOp o, loc) (wb_ops b)) by (rewrite Eops; apply in_or_app; left; exact Ho).
  specialize (LR _ Hob). cbn [fst] in LR. unfold op_locals_below in LR. rewrite forallb_forall in LR.
  specialize (LR _ Hi). cbn [fst snd] in LR. apply Nat.ltb_lt in LR. exact LR.
Qed.

Theorem locals_named_kept_holds : forall cf ver w ilen s1 e1 s2 e2,
  two_trips cf ver w ilen s1 e1 s2 e2 -> valid_stream w -> locals_in_range w ->
  cf_synthetic_names cf = true -> cf_skip_name cf = false ->
  locals_named_kept s2 (stream_names (em_secs e1)).
Proof.
  intros cf ver w ilen s1 e1 s2 e2 TT V LR Hsyn Hskip.
  apply (locals_named_kept_state cf ver w ilen s1 e1 s2 e2 TT V); try assumption.
  destruct TT as (P1 & _). exact (locals_in_range_bridge _ _ _ _ P1 V LR).
Qed.

Theorem module_fixpoint_all_configs : forall cf ver w ilen s1 e1 s2 e2,
  two_trips cf ver w ilen s1 e1 s2 e2 -> valid_stream w -> locals_in_range w -> em_secs e2 = em_secs e1.
Proof.
  intros cf ver w ilen s1 e1 s2 e2 TT V LR.
  apply (module_fixpoint_all_configs_partial cf ver w ilen s1 e1 s2 e2 TT V). intros Hskip Hsyn. split.
  - exact (funcs_named_kept_holds _ _ _ _ _ _ _ _ TT Hsyn Hskip).
  - exact (locals_named_kept_holds _ _ _ _ _ _ _ _ TT V LR Hsyn Hskip).
Qed.

(* the second trip exists AND reproduces the stream, for every configuration *)
Theorem module_fixpoint_total_all_configs : forall cf ver w s1 ilen e1,
  valid_stream w -> locals_in_range w -> parseM cf ver w = POk s1 -> emitM (ps_m s1) ilen [] = Ok e1 ->
  valid_stream (em_secs e1) /\
  exists s2 e2, parseM cf ver (em_secs e1) = POk s2 /\ emitM (ps_m s2) ilen [] = Ok e2 /\ em_secs e2 = em_secs e1.
Proof.
  intros cf ver w s1 ilen e1 V LR P1 E1.
  destruct (WV.Proofs.ModFix32.module_fixpoint_total _ _ _ _ _ _ V P1 E1) as (V1 & s2 & e2 & P2 & E2 & _).
  split; [exact V1|]. exists s2, e2. split; [exact P2|]. split; [exact E2|].
  apply (module_fixpoint_all_configs cf ver w ilen s1 e1 s2 e2); [repeat split; assumption|exact V|exact LR].
Qed.

(* iterating the round trip: one trip lands on a fixed point, whatever the configuration *)
Theorem trip_fixed_all_configs : forall cf ver ilen w w1, valid_stream w -> locals_in_range w ->
  WV.Proofs.ModFix32.trip cf ver ilen w = Some w1 -> valid_stream w1 /\ WV.Proofs.ModFix32.trip cf ver ilen w1 = Some w1.
Proof.
  intros cf ver ilen w w1 V LR T. destruct (WV.Proofs.ModFix32.trip_inv _ _ _ _ _ T) as (s & e & P & E & ->).
  destruct (module_fixpoint_total_all_configs _ _ _ _ _ _ V LR P E) as (V1 & s2 & e2 & P2 & E2 & Hfix).
  split; [exact V1|]. unfold WV.Proofs.ModFix32.trip. rewrite P2, E2, Hfix. reflexivity.
Qed.
Theorem emit_parse_idempotent_all_configs : forall cf ver ilen w w1, valid_stream w -> locals_in_range w ->
  WV.Proofs.ModFix32.trip cf ver ilen w = Some w1 ->
  forall n, n >= 1 -> WV.Proofs.ModFix32.trips cf ver ilen n w = Some w1.
Proof.
  intros cf ver ilen w w1 V LR T n Hge. destruct n as [|k]; [lia|]. cbn [WV.Proofs.ModFix32.trips]. rewrite T.
  apply WV.Proofs.ModFix32.trips_fixed. exact (proj2 (trip_fixed_all_configs _ _ _ _ _ V LR T)).
Qed.

(* non-vacuity: the module of ModFix40.synthetic_nonvacuous (synthetic names on, an unnamed function with a parameter
   and a used declared local, no name section in the input) satisfies every premise; the theorem applies to it, and the
   name section it reproduces is not empty *)
Example all_configs_applies : forall s1 e1 s2 e2,
  two_trips ModFixEx.syn_config [49%N] wN ModFixEx.il1 s1 e1 s2 e2 -> em_secs e2 = em_secs e1.
Proof.
  intros s1 e1 s2 e2 TT. apply (module_fixpoint_all_configs _ _ _ _ _ _ _ _ TT wN_valid). vm_compute. reflexivity.
Qed.
Example all_configs_nonvacuous :
  cf_skip_name ModFixEx.syn_config = false /\ cf_synthetic_names ModFixEx.syn_config = true /\
  exists w1, WV.Proofs.ModFix32.trip ModFixEx.syn_config [49%N] ModFixEx.il1 wN = Some w1 /\
    WV.Proofs.ModFix32.trip ModFixEx.syn_config [49%N] ModFixEx.il1 w1 = Some w1 /\
    wn_locals (stream_names w1) = [(0%N, [(0%N, [97%N; 114%N; 103%N; 48%N]); (1%N, [108%N; 49%N])])].
Proof.
  split; [reflexivity|]. split; [reflexivity|].
  destruct (WV.Proofs.ModFix32.trip ModFixEx.syn_config [49%N] ModFixEx.il1 wN) as [w1|] eqn:T; [|vm_compute in T; discriminate].
  exists w1. split; [reflexivity|]. split.
  - apply (trip_fixed_all_configs _ _ _ _ _ wN_valid); [vm_compute; reflexivity|exact T].
  - vm_compute in T. injection T as <-. vm_compute. reflexivity.
Qed.
(* the premise is needed: the ModFixEx witness (valid stream, local.get 0 in a function without locals) violates it
   (ModFix40.wP_violates) and the conclusion fails there (ModFixEx.module_fixpoint_refuted_valid_stream) *)

Print Assumptions parseM_funcs_structure.
Print Assumptions funcs_named_kept_holds.
Print Assumptions locals_in_range_bridge.
Print Assumptions locals_named_kept_state.
Print Assumptions locals_named_kept_holds.
Print Assumptions module_fixpoint_all_configs.
Print Assumptions module_fixpoint_total_all_configs.
Print Assumptions trip_fixed_all_configs.
Print Assumptions emit_parse_idempotent_all_configs.
Print Assumptions all_configs_applies.
Print Assumptions all_configs_nonvacuous.
