(* Proofs about Model/GC.v (walrus passes/used.rs + passes/gc.rs).
   An abstract worklist over any graph computes exactly the reachable set (sound, complete, duplicate free, never out of
   fuel once fuel > |universe|); Model/GC.v's [push] / [wl] are an instance of it, which gives [used_reach] and its
   corollaries; [gc_sweep] keeps exactly the live ids that are in the used set. *)
From Coq Require Import List NArith Arith Lia Bool Permutation.
Import ListNotations.
From WV Require Import Gen.Ops Model.Common Model.IR Model.Arena Model.Traversal Model.ModuleM Model.ParseM Model.EmitM Model.GC.
From WV Require Proofs.Arena Proofs.ArenaN.
Local Open Scope nat_scope.

Lemma nodup_app_l (X : Type) (l1 l2 : list X) : NoDup (l1 ++ l2) -> NoDup l1.
Proof.
  induction l1 as [|x r IH]; intros H; [constructor|].
  cbn in H. inversion H; subst. constructor; [|auto].
  intros Hin. apply H2. apply in_or_app. left. exact Hin.
Qed.

Lemma filter_length_le (X : Type) (f : X -> bool) (l : list X) : length (filter f l) <= length l.
Proof. induction l as [|x r IH]; cbn; [lia|]. destruct (f x); cbn; lia. Qed.

Section Worklist.
  Variable X : Type.
  Variable eqb : X -> X -> bool.
  Hypothesis eqb_spec : forall a b, eqb a b = true <-> a = b.
  Variable stacked : X -> bool.            (* false for entities that are only marked (types) *)
  Variable succ : X -> option (list X).    (* None = panic *)

  Record ast := { used : list X; stack : list X }.

  Definition amem (x : X) (l : list X) : bool := existsb (eqb x) l.

  (* mirrors Model/GC.v's [push] *)
  Definition apush (s : ast) (x : X) : ast :=
    if amem x (used s) then s
    else {| used := x :: used s;
            stack := if stacked x then x :: stack s else stack s |}.

  (* mirrors Model/GC.v's [wl] *)
  Fixpoint awl (fuel : nat) (s : ast) : option (list X) :=
    match fuel with
    | O => None
    | S f =>
        match stack s with
        | [] => Some (used s)
        | x :: rest =>
            match succ x with
            | None => None
            | Some ys => awl f (fold_left apush ys {| used := used s; stack := rest |})
            end
        end
    end.

  Inductive reach (roots : list X) : X -> Prop :=
  | reach_root x : In x roots -> reach roots x
  | reach_step x ys y : reach roots x -> stacked x = true -> succ x = Some ys -> In y ys -> reach roots y.

  Lemma amem_In x l : amem x l = true <-> In x l.
  Proof.
    unfold amem. rewrite existsb_exists. split.
    - intros (y & H & E). apply eqb_spec in E. now subst.
    - intros H. exists x. split; [exact H|]. now apply eqb_spec.
  Qed.

  Lemma amem_nIn x l : amem x l = false <-> ~ In x l.
  Proof. rewrite <- amem_In. destruct (amem x l); split; intros H; congruence. Qed.

  Lemma X_dec (a b : X) : {a = b} + {a <> b}.
  Proof.
    destruct (eqb a b) eqn:E; [left; now apply eqb_spec|right].
    intros H. apply eqb_spec in H. congruence.
  Qed.

  (* what a run of pushes does: it prepends the genuinely new elements *)
  Lemma push_spec ys : forall s,
    NoDup (used s) -> NoDup (stack s) -> incl (stack s) (used s) ->
    exists new, used (fold_left apush ys s) = new ++ used s /\
                stack (fold_left apush ys s) = filter stacked new ++ stack s /\
                NoDup (new ++ used s) /\ NoDup (filter stacked new ++ stack s) /\
                incl new ys /\ (forall y, In y ys -> In y (new ++ used s)).
  Proof.
    induction ys as [|y ys IH]; intros s Hnu Hns Hsub; cbn [fold_left].
    - exists []. cbn. repeat split; auto; try (intros ? []).
    - destruct (amem y (used s)) eqn:M.
      + replace (apush s y) with s by (unfold apush; now rewrite M).
        destruct (IH s Hnu Hns Hsub) as (new & E1 & E2 & A & B & C & D).
        exists new. repeat split; auto.
        * intros z Hz. right. apply C, Hz.
        * intros z [<-|Hz]; [apply in_or_app; right; now apply amem_In|now apply D].
      + assert (Hny : ~ In y (used s)) by now apply amem_nIn.
        assert (Hnys : ~ In y (stack s)) by (intros H; apply Hny, Hsub, H).
        set (s1 := {| used := y :: used s; stack := if stacked y then y :: stack s else stack s |}).
        replace (apush s y) with s1 by (unfold apush; now rewrite M).
        destruct (IH s1) as (new & E1 & E2 & A & B & C & D).
        * cbn. constructor; auto.
        * cbn. destruct (stacked y); [constructor; auto|auto].
        * cbn. destruct (stacked y).
          -- intros z [<-|Hz]; [left; auto|right; apply Hsub, Hz].
          -- intros z Hz. right. apply Hsub, Hz.
        * cbn [used stack s1] in *.
          exists (new ++ [y]). rewrite filter_app, <- !app_assoc. cbn [filter app].
          repeat split.
          -- exact E1.
          -- rewrite E2. destruct (stacked y); reflexivity.
          -- exact A.
          -- destruct (stacked y); [exact B|rewrite app_nil_l; exact B].
          -- intros z Hz. apply in_app_or in Hz as [Hz|[<-|[]]]; [right; apply C, Hz|left; auto].
          -- intros z [<-|Hz]; [apply in_or_app; right; left; auto|now apply D].
  Qed.

  (* one iteration of the loop: pop [x], push its successors; and the state the loop starts from *)
  Lemma pop_spec u x rest ys :
    NoDup u -> NoDup (x :: rest) -> incl (x :: rest) u ->
    let s' := fold_left apush ys {| used := u; stack := rest |} in
    exists new, used s' = new ++ u /\ stack s' = filter stacked new ++ rest /\
                NoDup (used s') /\ NoDup (stack s') /\ incl (stack s') (used s') /\
                incl new ys /\ incl ys (used s').
  Proof.
    intros Hnu Hns Hsub s'. inversion Hns as [|? ? _ Hnr]; subst.
    destruct (push_spec ys {| used := u; stack := rest |} Hnu Hnr (fun z Hz => Hsub z (or_intror Hz)))
      as (new & E1 & E2 & A & B & C & D).
    cbn [used stack] in *. exists new. subst s'. rewrite E1, E2.
    split; [reflexivity|]. split; [reflexivity|]. split; [exact A|]. split; [exact B|]. split; [|split; [exact C|exact D]].
    intros z Hz. apply in_app_or in Hz as [Hz|Hz]; apply in_or_app; [left; apply filter_In in Hz; apply Hz|right; apply Hsub; right; exact Hz].
  Qed.

  Lemma init_spec roots :
    let s := fold_left apush roots {| used := []; stack := [] |} in
    NoDup (used s) /\ NoDup (stack s) /\ stack s = filter stacked (used s) /\ incl (used s) roots /\ incl roots (used s).
  Proof.
    intros s. destruct (push_spec roots {| used := []; stack := [] |}) as (new & E1 & E2 & A & B & C & D);
      [constructor|constructor|intros ? []|].
    cbn [used stack] in *. rewrite app_nil_r in *. subst s. rewrite E1, E2.
    split; [exact A|]. split; [exact B|]. split; [reflexivity|]. split; [exact C|exact D].
  Qed.

  Section Run.
    Variable roots : list X.
    Variable universe : list X.
    Hypothesis succ_ok : forall x, reach roots x -> stacked x = true -> succ x <> None.
    Hypothesis reach_univ : forall x, reach roots x -> In x universe.
    Hypothesis univ_nd : NoDup universe.

    Record Inv (s : ast) : Prop := {
      inv_nd : NoDup (used s);
      inv_nds : NoDup (stack s);
      inv_sub : incl (stack s) (used s);
      inv_stk : forall x, In x (stack s) -> stacked x = true;
      inv_roots : incl roots (used s);
      inv_closed : forall x, In x (used s) -> stacked x = true -> ~ In x (stack s) ->
                   forall ys y, succ x = Some ys -> In y ys -> In y (used s);
      inv_reach : forall x, In x (used s) -> reach roots x }.

    (* the ids not yet used, plus the stack: a step pops one id off the stack, and each id it marks used is one more in
       [used] (one less in the first summand) and at most one more on the stack *)
    Definition measure (s : ast) : nat := (length universe - length (used s)) + length (stack s).

    Lemma inv_used_le s : Inv s -> length (used s) <= length universe.
    Proof.
      intros I. apply NoDup_incl_length; [apply (inv_nd _ I)|].
      intros z Hz. apply reach_univ, (inv_reach _ I), Hz.
    Qed.

    Lemma inv_init : Inv (fold_left apush roots {| used := []; stack := [] |}).
    Proof.
      destruct (init_spec roots) as (A & B & E & C & D). rewrite E in B.
      constructor; rewrite ?E; [exact A|exact B| | |exact D| |].
      - intros z Hz. apply filter_In in Hz. apply Hz.
      - intros z Hz. apply filter_In in Hz. apply Hz.
      - intros z Hz Hs Hn. exfalso. apply Hn. apply filter_In. auto.
      - intros z Hz. apply reach_root, C, Hz.
    Qed.

    Lemma step_inv s x rest ys :
      Inv s -> stack s = x :: rest -> succ x = Some ys ->
      Inv (fold_left apush ys {| used := used s; stack := rest |}) /\
      measure (fold_left apush ys {| used := used s; stack := rest |}) < measure s.
    Proof.
      intros I Es Ex. destruct I as [Hnu Hns Hsub Hstk Hr Hc Hre]. rewrite Es in *.
      destruct (pop_spec (used s) x rest ys Hnu Hns Hsub) as (new & E1 & E2 & A & B & S & C & D).
      assert (Hxr : reach roots x) by (apply Hre, Hsub; left; reflexivity).
      assert (Hxs : stacked x = true) by (apply Hstk; left; reflexivity).
      set (s' := fold_left apush ys {| used := used s; stack := rest |}) in *.
      assert (I' : Inv s').
      { constructor; [exact A|exact B|exact S|rewrite E2|rewrite E1|rewrite E1, E2|rewrite E1].
        - intros z Hz. apply in_app_or in Hz as [Hz|Hz]; [apply filter_In in Hz; apply Hz|apply Hstk; right; exact Hz].
        - intros z Hz. apply in_or_app; right; apply Hr, Hz.
        - intros z Hz Hzs Hnz ys' y Hys' Hy.
          apply in_app_or in Hz as [Hz|Hz].
          + exfalso. apply Hnz. apply in_or_app; left. apply filter_In. auto.
          + destruct (X_dec z x) as [->|Hne].
            * rewrite Ex in Hys'. inversion Hys'; subst. rewrite <- E1. apply D, Hy.
            * apply in_or_app; right. apply (Hc z Hz Hzs) with (ys := ys'); auto.
              intros [->|Hin]; [congruence|]. apply Hnz. apply in_or_app; right; exact Hin.
        - intros z Hz. apply in_app_or in Hz as [Hz|Hz]; [|auto].
          apply C in Hz. eapply reach_step; eauto. }
      split; [exact I'|].
      pose proof (inv_used_le _ I') as Hle'. pose proof (NoDup_incl_length Hnu (fun z Hz => reach_univ z (Hre z Hz))) as Hule.
      unfold measure. rewrite E1, E2 in *. rewrite Es.
      rewrite !app_length in *. cbn [length].
      pose proof (filter_length_le _ stacked new). lia.
    Qed.

    Lemma measure_init : measure (fold_left apush roots {| used := []; stack := [] |}) <= length universe.
    Proof.
      pose proof inv_init as I. pose proof (inv_used_le _ I) as Hle.
      pose proof (NoDup_incl_length (inv_nds _ I) (inv_sub _ I)). unfold measure. lia.
    Qed.

    Lemma awl_inv : forall fuel s, Inv s -> measure s < fuel ->
      exists U, awl fuel s = Some U /\ NoDup U /\ (forall x, In x U <-> reach roots x).
    Proof.
      induction fuel as [|f IH]; intros s I Hf; [lia|].
      cbn [awl]. destruct (stack s) as [|x rest] eqn:Es.
      - exists (used s). split; [reflexivity|]. split; [apply (inv_nd _ I)|].
        intros x. split; [apply (inv_reach _ I)|].
        intros Hx. induction Hx as [x Hx|x ys y Hx IHx Hs Hys Hy].
        + apply (inv_roots _ I), Hx.
        + apply (inv_closed _ I x IHx Hs) with (ys := ys); auto. rewrite Es. intros [].
      - assert (Hxr : reach roots x) by (apply (inv_reach _ I), (inv_sub _ I); rewrite Es; left; reflexivity).
        assert (Hxs : stacked x = true) by (apply (inv_stk _ I); rewrite Es; left; reflexivity).
        destruct (succ x) as [ys|] eqn:Ex; [|exfalso; now apply (succ_ok x Hxr Hxs)].
        destruct (step_inv s x rest ys I Es Ex) as [I' Hm]. apply IH; [exact I'|lia].
    Qed.
  End Run.

  (* Fuel: any fuel strictly greater than the size of a duplicate-free universe containing every
     reachable entity suffices. *)
  Theorem awl_sound_complete : forall roots universe fuel,
    (forall x, reach roots x -> stacked x = true -> succ x <> None) ->
    (forall x, reach roots x -> In x universe) -> NoDup universe -> length universe < fuel ->
    exists U, awl fuel (fold_left apush roots {| used := []; stack := [] |}) = Some U /\
              NoDup U /\ (forall x, In x U <-> reach roots x).
  Proof.
    intros roots universe fuel Hs Hu Hnd Hf.
    apply (awl_inv roots universe Hs Hu).
    - apply inv_init.
    - pose proof (measure_init roots universe Hu). lia.
  Qed.

  (* the reachable set is the least set containing the roots and closed under the followed edges *)
  Lemma reach_least roots (P : X -> Prop) :
    (forall x, In x roots -> P x) ->
    (forall x ys y, P x -> stacked x = true -> succ x = Some ys -> In y ys -> P y) ->
    forall x, reach roots x -> P x.
  Proof. intros Hr Hs x H; induction H; eauto. Qed.
End Worklist.

Arguments used {X}. Arguments stack {X}. Arguments Build_ast {X}.
Arguments amem {X}. Arguments apush {X}. Arguments awl {X}. Arguments reach {X}.

(* idempotence on sets: restrict the graph to the kept set U (a deleted entity has no successors any
   more: looking it up panics); the set reachable from the same roots is again U *)
Theorem gc_idempotent_sets (X : Type) (eqb : X -> X -> bool) (stacked : X -> bool)
        (succ : X -> option (list X)) (roots U : list X) :
  (forall a b, eqb a b = true <-> a = b) ->
  (forall x, In x U <-> reach stacked succ roots x) ->
  let succ' := fun x => if amem eqb x U then succ x else None in
  forall x, reach stacked succ' roots x <-> In x U.
Proof.
  intros eqb_spec HU succ' x. split.
  - intros H. apply HU. induction H as [x Hx|x ys y Hx IH Hs Hys Hy]; [now apply reach_root|].
    unfold succ' in Hys. destruct (amem eqb x U); [|discriminate]. eapply reach_step; eauto.
  - intros Hx. apply HU in Hx.
    induction Hx as [x Hin|x ys y Hxr IH Hs Hys Hy]; [now apply reach_root|].
    eapply reach_step; [exact IH|exact Hs| |exact Hy].
    unfold succ'. replace (amem eqb x U) with true; [exact Hys|].
    symmetry. apply (amem_In X eqb eqb_spec). apply HU. exact Hxr.
Qed.

Definition is_type (x : ent) : bool := match fst x with S_type => true | _ => false end.
Definition ent_stacked (x : ent) : bool := negb (is_type x).
Definition res_opt {A} (r : res A) : option A := match r with Ok a => Some a | _ => None end.
Definition succ_opt (m : wir) (x : ent) : option (list ent) := res_opt (succ m x).
Definition to_ast (s : ust) : ast ent := {| used := u_used s; stack := u_stack s |}.
(* reachability in the module's reference graph *)
Definition greach (m : wir) (rs : list ent) : ent -> Prop := reach ent_stacked (succ_opt m) rs.

Lemma space_code'_inj a b : space_code' a = space_code' b -> a = b.
Proof. destruct a, b; cbn; intros H; try reflexivity; discriminate H. Qed.

Lemma ent_eqb_spec (a b : ent) : ent_eqb a b = true <-> a = b.
Proof.
  destruct a as [sa ia], b as [sb ib]. unfold ent_eqb. cbn [fst snd].
  rewrite andb_true_iff, !N.eqb_eq. split.
  - intros [H1 H2]. apply space_code'_inj in H1. now subst.
  - intros H. inversion H. auto.
Qed.

Lemma mem_ent_amem x l : mem_ent x l = amem ent_eqb x l.
Proof. reflexivity. Qed.

Lemma mem_ent_In x l : mem_ent x l = true <-> In x l.
Proof. rewrite mem_ent_amem. apply (amem_In ent ent_eqb ent_eqb_spec). Qed.

Lemma push_apush s x : to_ast (push s x) = apush ent_eqb ent_stacked (to_ast s) x.
Proof.
  unfold push, apush, to_ast. cbn [used stack]. rewrite mem_ent_amem.
  destruct (amem ent_eqb x (u_used s)); [reflexivity|]. cbn [u_used u_stack].
  unfold ent_stacked, is_type. destruct (fst x); reflexivity.
Qed.

Lemma fold_push_apush ys : forall s,
  to_ast (fold_left push ys s) = fold_left (apush ent_eqb ent_stacked) ys (to_ast s).
Proof. induction ys as [|y ys IH]; intros s; cbn [fold_left]; [reflexivity|]. now rewrite IH, push_apush. Qed.

Lemma wl_awl m : forall fuel s,
  res_opt (wl fuel m s) = awl ent_eqb ent_stacked (succ_opt m) fuel (to_ast s).
Proof.
  induction fuel as [|f IH]; intros s; [reflexivity|].
  cbn [wl awl]. change (stack (to_ast s)) with (u_stack s). change (used (to_ast s)) with (u_used s).
  destruct (u_stack s) as [|x rest]; [reflexivity|].
  unfold succ_opt. destruct (succ m x) as [ys| |]; cbn [rbind res_opt]; try reflexivity.
  rewrite IH, fold_push_apush. reflexivity.
Qed.

(* the run from the roots, in the two vocabularies *)
Lemma wl_awl_init m fuel rs U :
  wl fuel m (fold_left push rs {| u_used := []; u_stack := [] |}) = Ok U <->
  awl ent_eqb ent_stacked (succ_opt m) fuel (fold_left (apush ent_eqb ent_stacked) rs {| used := []; stack := [] |}) = Some U.
Proof.
  change {| used := []; stack := [] |} with (to_ast {| u_used := []; u_stack := [] |}).
  rewrite <- fold_push_apush, <- wl_awl. destruct (wl _ m _); cbn; split; congruence.
Qed.

Definition ents_of (s : space) (n : nat) : list ent := map (fun i => (s, N.of_nat i)) (seq 0 n).
Definition all_entities (m : wir) : list ent :=
  ents_of S_func (length (items (m_funcs m))) ++ ents_of S_table (length (items (m_tables m))) ++
  ents_of S_global (length (items (m_globals m))) ++ ents_of S_memory (length (items (m_memories m))) ++
  ents_of S_data (length (items (m_data m))) ++ ents_of S_elem (length (items (m_elements m))) ++
  ents_of S_type (length (items (Model.Arena.arena (m_types m)))).

Lemma ents_of_length s n : length (ents_of s n) = n.
Proof. unfold ents_of. now rewrite map_length, seq_length. Qed.

Lemma ents_of_In s n x : In x (ents_of s n) <-> fst x = s /\ N.to_nat (snd x) < n.
Proof.
  unfold ents_of. rewrite in_map_iff. split.
  - intros (i & <- & Hi). apply in_seq in Hi. cbn [fst snd]. rewrite Nat2N.id. split; [reflexivity|lia].
  - intros [Hs Hn]. exists (N.to_nat (snd x)). split; [|apply in_seq; lia].
    rewrite N2Nat.id. destruct x; cbn in *; now subst.
Qed.

Lemma ents_of_NoDup s n : NoDup (ents_of s n).
Proof.
  unfold ents_of. apply FinFun.Injective_map_NoDup; [|apply seq_NoDup].
  intros a b H. inversion H. now apply Nat2N.inj.
Qed.

Theorem all_entities_length m : length (all_entities m) = n_entities m.
Proof. unfold all_entities, n_entities. rewrite !app_length, !ents_of_length. lia. Qed.

Theorem all_entities_NoDup m : NoDup (all_entities m).
Proof.
  unfold all_entities.
  repeat (apply Proofs.Arena.nodup_app;
          [apply ents_of_NoDup| |
           let x := fresh "x" in let H1 := fresh "H" in let H2 := fresh "H" in
           intros x H1 H2; apply ents_of_In in H1; destruct H1 as [H1 _];
           repeat (apply in_app_or in H2; destruct H2 as [H2|H2]);
           apply ents_of_In in H2; destruct H2 as [H2 _]; congruence]).
  apply ents_of_NoDup.
Qed.

(* membership: an entity of one of the seven id spaces whose id has been allocated *)
Lemma all_entities_In m x :
  In x (all_entities m) <->
  N.to_nat (snd x) < match fst x with
                     | S_func => length (items (m_funcs m)) | S_table => length (items (m_tables m))
                     | S_global => length (items (m_globals m)) | S_memory => length (items (m_memories m))
                     | S_data => length (items (m_data m)) | S_elem => length (items (m_elements m))
                     | S_type => length (items (Model.Arena.arena (m_types m)))
                     | S_local => 0 end.
Proof.
  unfold all_entities. rewrite !in_app_iff, !ents_of_In.
  destruct x as [s i]. cbn [fst snd]. destruct s; split; intros H;
    repeat (match goal with H : _ \/ _ |- _ => destruct H as [H|H] | H : _ /\ _ |- _ => destruct H as [? H] end);
    try discriminate; try lia; auto 10.
Qed.

Section UsedReach.
  Variable m : wir.
  Variable rs : list ent.
  Hypothesis Halloc : forall x, greach m rs x -> In x (all_entities m).
  Hypothesis Hlive : forall x, greach m rs x -> negb (is_type x) = true -> succ m x <> Panic /\ succ m x <> OutOfFuel.

  Lemma used_awl :
    exists U, wl (S (S (n_entities m))) m (fold_left push rs {| u_used := []; u_stack := [] |}) = Ok U /\
              NoDup U /\ forall x, In x U <-> greach m rs x.
  Proof.
    destruct (awl_sound_complete ent ent_eqb ent_eqb_spec ent_stacked (succ_opt m) rs (all_entities m)
                (S (S (n_entities m)))) as (U & E & Hnd & HU).
    - intros x Hx Hs. destruct (Hlive x Hx Hs) as [H1 H2]. unfold succ_opt.
      destruct (succ m x); cbn; congruence.
    - exact Halloc.
    - apply all_entities_NoDup.
    - rewrite all_entities_length. lia.
    - exists U. split; [apply wl_awl_init; exact E|split; [exact Hnd|exact HU]].
  Qed.
End UsedReach.

(* the statements speak of the roots of the module, [roots m = Ok rs]; the proofs hold for any root list [rs] *)
Theorem used_no_fuel : forall m rs,
  roots m = Ok rs ->
  (forall x, greach m rs x -> In x (all_entities m)) ->
  (forall x, greach m rs x -> negb (is_type x) = true -> succ m x <> Panic /\ succ m x <> OutOfFuel) ->
  exists U, wl (S (S (n_entities m))) m (fold_left push rs {| u_used := []; u_stack := [] |}) = Ok U.
Proof. intros m rs _ Ha Hl. destruct (used_awl m rs Ha Hl) as (U & E & _). now exists U. Qed.

Theorem used_reach : forall m rs U,
  roots m = Ok rs ->
  (forall x, greach m rs x -> In x (all_entities m)) ->
  (forall x, greach m rs x -> negb (is_type x) = true -> succ m x <> Panic /\ succ m x <> OutOfFuel) ->
  wl (S (S (n_entities m))) m (fold_left push rs {| u_used := []; u_stack := [] |}) = Ok U ->
  NoDup U /\ forall x, In x U <-> greach m rs x.
Proof.
  intros m rs U _ Ha Hl E. destruct (used_awl m rs Ha Hl) as (U' & E' & H).
  rewrite E in E'. inversion E'; subst. exact H.
Qed.

Theorem used_closed : forall m rs U,
  roots m = Ok rs ->
  (forall x, greach m rs x -> In x (all_entities m)) ->
  (forall x, greach m rs x -> negb (is_type x) = true -> succ m x <> Panic /\ succ m x <> OutOfFuel) ->
  wl (S (S (n_entities m))) m (fold_left push rs {| u_used := []; u_stack := [] |}) = Ok U ->
  forall x, In x U -> is_type x = false -> forall ys, succ m x = Ok ys -> forall y, In y ys -> In y U.
Proof.
  intros m rs U Hr Ha Hl E x Hx Ht ys Hys y Hy. destruct (used_reach m rs U Hr Ha Hl E) as [_ HU].
  apply HU. apply HU in Hx. eapply reach_step; [exact Hx| | |exact Hy].
  - unfold ent_stacked. now rewrite Ht.
  - unfold succ_opt. now rewrite Hys.
Qed.

Theorem used_precise : forall m rs U,
  roots m = Ok rs ->
  (forall x, greach m rs x -> In x (all_entities m)) ->
  (forall x, greach m rs x -> negb (is_type x) = true -> succ m x <> Panic /\ succ m x <> OutOfFuel) ->
  wl (S (S (n_entities m))) m (fold_left push rs {| u_used := []; u_stack := [] |}) = Ok U ->
  forall x, In x U -> greach m rs x.
Proof. intros m rs U Hr Ha Hl E x Hx. now apply (used_reach m rs U Hr Ha Hl E). Qed.

Theorem used_roots : forall m rs U,
  roots m = Ok rs ->
  (forall x, greach m rs x -> In x (all_entities m)) ->
  (forall x, greach m rs x -> negb (is_type x) = true -> succ m x <> Panic /\ succ m x <> OutOfFuel) ->
  wl (S (S (n_entities m))) m (fold_left push rs {| u_used := []; u_stack := [] |}) = Ok U ->
  incl rs U.
Proof. intros m rs U Hr Ha Hl E x Hx. apply (used_reach m rs U Hr Ha Hl E). now apply reach_root. Qed.

(* [used m] is the worklist result from the roots, possibly with the "first memory" residue:
   when a data segment is kept but no memory is, the first live memory is added *)
Lemma used_inv m u : Model.GC.used m = Ok u ->
  exists rs U, roots m = Ok rs /\
    wl (S (S (n_entities m))) m (fold_left push rs {| u_used := []; u_stack := [] |}) = Ok U /\
    (u = U \/
     exists mid v rest, aiter (m_memories m) = (mid, v) :: rest /\ used_of U S_memory = [] /\
                        used_of U S_data <> [] /\ u = (S_memory, mid) :: U).
Proof.
  unfold Model.GC.used. intros H.
  destruct (roots m) as [rs| |]; cbn [rbind] in H; try discriminate H.
  destruct (wl _ m _) as [U| |] eqn:EU; cbn [rbind] in H; try discriminate H.
  exists rs, U. split; [reflexivity|]. split; [exact EU|].
  destruct (used_of U S_data) as [|d ds]; [left; destruct (used_of U S_memory); congruence|].
  destruct (used_of U S_memory) as [|x xs]; [|left; congruence].
  destruct (aiter (m_memories m)) as [|[mid v] rest]; [left; congruence|].
  right. exists mid, v, rest. repeat split; [discriminate|congruence].
Qed.

Lemma delete_contains A (f : A -> A) (a a' : tarena A) id id' :
  delete f a id = Some a' -> contains a' id' = contains a id' && negb (Nat.eqb id' id).
Proof.
  unfold delete. destruct (contains a id) eqn:C; [|discriminate]. intros H; inversion H; subst; clear H.
  unfold contains, is_dead. cbn [items dead existsb].
  destruct (Nat.eqb_spec id' id) as [->|Hne].
  - cbn [orb negb]. rewrite andb_false_r. destruct (nth_error _ id); reflexivity.
  - rewrite Proofs.Arena.upd_nth_ne by congruence. cbn [orb negb]. now rewrite andb_true_r.
Qed.

Lemma contains_index A (a : tarena A) id : contains a id = true <-> exists v, index a id = Some v.
Proof.
  unfold contains, index, get. destruct (nth_error (items a) id) as [v|]; destruct (is_dead a id); cbn; split;
    try discriminate; try (intros [? ?]; discriminate); eauto.
Qed.

Lemma iter_live' A (a : tarena A) id v : In (id, v) (iter a) <-> index a id = Some v.
Proof. exact (Proofs.Arena.iter_live A (fun x => x) (fun _ _ => true) a id v). Qed.

Definition del_step {A} (keep : list N) (acc : res (tarena A)) (p : N * A) : res (tarena A) :=
  rbind acc (fun a => if existsb (N.eqb (fst p)) keep then Ok a else of_opt (adelete a (fst p))).

Lemma del_fold_notok A keep (L : list (N * A)) r :
  (forall a, r <> Ok a) -> forall a, fold_left (del_step keep) L r <> Ok a.
Proof.
  revert r. induction L as [|p L IH]; intros r Hr; cbn [fold_left]; [exact Hr|].
  apply IH. intros a. destruct r; cbn; [exfalso; now apply (Hr a0)|discriminate|discriminate].
Qed.

(* folding [delete] over a list of candidates: an id survives iff it was live and was not a
   non-kept candidate *)
Lemma del_fold_contains A keep (L : list (N * A)) : forall a0 a',
  fold_left (del_step keep) L (Ok a0) = Ok a' ->
  forall id, contains a' id =
             contains a0 id && negb (existsb (fun p => Nat.eqb id (N.to_nat (fst p)) && negb (existsb (N.eqb (fst p)) keep)) L).
Proof.
  induction L as [|p L IH]; intros a0 a' H id; cbn [fold_left existsb] in *.
  - inversion H; subst. now rewrite andb_true_r.
  - unfold del_step at 2 in H. cbn [rbind] in H.
    destruct (existsb (N.eqb (fst p)) keep) eqn:K.
    + rewrite (IH _ _ H). cbn [negb]. now rewrite andb_false_r.
    + unfold adelete in H. destruct (delete (fun x => x) a0 (N.to_nat (fst p))) as [a1|] eqn:D; cbn [of_opt] in H.
      * rewrite (IH _ _ H), (delete_contains _ _ _ _ _ id D). cbn [negb]. rewrite andb_true_r, negb_orb.
        now rewrite andb_assoc.
      * exfalso. revert H. apply del_fold_notok. discriminate.
Qed.

Lemma delete_unused_spec A (a a' : tarena A) keep :
  delete_unused a keep = Ok a' ->
  forall id : N, contains a' (N.to_nat id) = true <->
                 contains a (N.to_nat id) = true /\ existsb (N.eqb id) keep = true.
Proof.
  intros H id. change (fold_left (del_step keep) (aiter a) (Ok a) = Ok a') in H.
  rewrite (del_fold_contains _ _ _ _ _ H), andb_true_iff, negb_true_iff. split.
  - intros [C E]. split; [exact C|].
    destruct (existsb (N.eqb id) keep) eqn:K; [reflexivity|exfalso].
    apply contains_index in C as (v & Hv). apply Proofs.ArenaN.aiter_In in Hv.
    assert (existsb (fun p : N * A => Nat.eqb (N.to_nat id) (N.to_nat (fst p)) && negb (existsb (N.eqb (fst p)) keep)) (aiter a) = true) as E'.
    { apply existsb_exists. exists (id, v). split; [exact Hv|]. cbn [fst]. now rewrite Nat.eqb_refl, K. }
    congruence.
  - intros [C K]. split; [exact C|].
    destruct (existsb _ (aiter a)) eqn:E; [exfalso|reflexivity].
    apply existsb_exists in E as (p & _ & E). apply andb_true_iff in E as [E1 E2].
    apply Nat.eqb_eq, N2Nat.inj in E1. subst id. rewrite K in E2. discriminate.
Qed.

Lemma used_of_mem u s id : existsb (N.eqb id) (used_of u s) = mem_ent (s, id) u.
Proof.
  unfold used_of, mem_ent. induction u as [|x u IH]; [reflexivity|].
  cbn [flat_map existsb]. rewrite existsb_app, IH. f_equal.
  unfold ent_eqb. cbn [fst snd]. rewrite (N.eqb_sym (space_code' s)).
  destruct (N.eqb (space_code' (fst x)) (space_code' s)); cbn; [now rewrite orb_false_r|reflexivity].
Qed.

Lemma keep_used u s id : existsb (N.eqb id) (used_of u s) = true <-> In (s, id) u.
Proof. rewrite used_of_mem. apply mem_ent_In. Qed.

Lemma used_of_In u s id : In id (used_of u s) <-> In (s, id) u.
Proof.
  rewrite <- keep_used. symmetry. exact (amem_In N N.eqb N.eqb_eq id (used_of u s)).
Qed.

Lemma delete_unused_used A (a a' : tarena A) u s :
  delete_unused a (used_of u s) = Ok a' ->
  forall id : N, contains a' (N.to_nat id) = true <->
                 contains a (N.to_nat id) = true /\ mem_ent (s, id) u = true.
Proof. intros H id. rewrite (delete_unused_spec _ _ _ _ H), used_of_mem. reflexivity. Qed.

(* deleting with the identity as [on_delete] only adds a tombstone, on an allocated id *)
Lemma upd_id A (l : list A) : forall n, upd l n (fun x => x) = l.
Proof. induction l as [|x r IH]; intros [|n]; cbn; [reflexivity|reflexivity|reflexivity|now rewrite IH]. Qed.

Lemma delete_id_inv A (a a' : tarena A) id : delete (fun x => x) a id = Some a' ->
  id < length (items a) /\ a' = {| items := items a; dead := id :: dead a |}.
Proof.
  unfold delete, contains. destruct (nth_error (items a) id) eqn:E; [|discriminate].
  destruct (negb (is_dead a id)); [|discriminate]. intros [= <-]. rewrite upd_id.
  split; [apply nth_error_Some; congruence|reflexivity].
Qed.

(* so a sweep leaves the items alone and puts tombstones on allocated ids *)
Lemma del_fold_shape A keep (L : list (N * A)) : forall a0 a',
  fold_left (del_step keep) L (Ok a0) = Ok a' ->
  items a' = items a0 /\ exists ds, dead a' = ds ++ dead a0 /\ Forall (fun d => d < length (items a0)) ds.
Proof.
  induction L as [|p L IH]; intros a0 a' H; cbn [fold_left] in H.
  - injection H as <-. split; [reflexivity|]. exists []. split; [reflexivity|constructor].
  - unfold del_step at 2 in H. cbn [rbind] in H.
    destruct (existsb (N.eqb (fst p)) keep); [apply IH; exact H|].
    unfold adelete in H. destruct (delete (fun x => x) a0 (N.to_nat (fst p))) as [a1|] eqn:D; cbn [of_opt] in H;
      [|exfalso; revert H; apply del_fold_notok; discriminate].
    apply delete_id_inv in D as [Hlt ->]. destruct (IH _ _ H) as (Ei & ds & Ed & F). cbn [items dead] in *.
    split; [exact Ei|]. exists (ds ++ [N.to_nat (fst p)]). rewrite <- app_assoc. split; [exact Ed|].
    apply Forall_app. split; [exact F|]. constructor; [exact Hlt|constructor].
Qed.

Lemma delete_unused_shape A (a a' : tarena A) keep : delete_unused a keep = Ok a' ->
  items a' = items a /\ exists ds, dead a' = ds ++ dead a /\ Forall (fun d => d < length (items a)) ds.
Proof. exact (del_fold_shape A keep (aiter a) a a'). Qed.

Lemma gc_fields m m' u : gc_sweep m = Ok m' -> Model.GC.used m = Ok u ->
  delete_unused (m_funcs m) (used_of u S_func) = Ok (m_funcs m') /\
  delete_unused (m_tables m) (used_of u S_table) = Ok (m_tables m') /\
  delete_unused (m_globals m) (used_of u S_global) = Ok (m_globals m') /\
  delete_unused (m_memories m) (used_of u S_memory) = Ok (m_memories m') /\
  delete_unused (m_data m) (used_of u S_data) = Ok (m_data m') /\
  delete_unused (m_elements m) (used_of u S_elem) = Ok (m_elements m') /\
  types_delete_unused (m_types m) (used_of u S_type) = Ok (m_types m').
Proof.
  intros H Hu. unfold gc_sweep in H. rewrite Hu in H. cbn [rbind] in H.
  repeat match type of H with
         | rbind ?r _ = Ok _ => let E := fresh "E" in destruct r eqn:E; cbn [rbind] in H; [|discriminate H|discriminate H]
         end.
  injection H as <-. repeat split; assumption.
Qed.

Theorem gc_keeps_exactly_used : forall m m', gc_sweep m = Ok m' -> forall u, Model.GC.used m = Ok u ->
  (forall id, contains (m_funcs m') (N.to_nat id) = true <->
              (contains (m_funcs m) (N.to_nat id) = true /\ mem_ent (S_func, id) u = true)) /\
  (forall id, contains (m_tables m') (N.to_nat id) = true <->
              (contains (m_tables m) (N.to_nat id) = true /\ mem_ent (S_table, id) u = true)) /\
  (forall id, contains (m_globals m') (N.to_nat id) = true <->
              (contains (m_globals m) (N.to_nat id) = true /\ mem_ent (S_global, id) u = true)) /\
  (forall id, contains (m_memories m') (N.to_nat id) = true <->
              (contains (m_memories m) (N.to_nat id) = true /\ mem_ent (S_memory, id) u = true)) /\
  (forall id, contains (m_data m') (N.to_nat id) = true <->
              (contains (m_data m) (N.to_nat id) = true /\ mem_ent (S_data, id) u = true)) /\
  (forall id, contains (m_elements m') (N.to_nat id) = true <->
              (contains (m_elements m) (N.to_nat id) = true /\ mem_ent (S_elem, id) u = true)).
Proof.
  intros m m' H u Hu.
  destruct (gc_fields m m' u H Hu) as (Ef & Et & Eg & Em & Ed & Ee & _).
  split; [exact (delete_unused_used _ _ _ _ _ Ef)|]. split; [exact (delete_unused_used _ _ _ _ _ Et)|].
  split; [exact (delete_unused_used _ _ _ _ _ Eg)|]. split; [exact (delete_unused_used _ _ _ _ _ Em)|].
  split; [exact (delete_unused_used _ _ _ _ _ Ed)|exact (delete_unused_used _ _ _ _ _ Ee)].
Qed.

(* gc_sweep never touches exports, start, custom sections, configuration, locals, producers (nor debug
   sections, the module name, the code section offset) *)
Theorem gc_preserves : forall m m', gc_sweep m = Ok m' ->
  m_exports m' = m_exports m /\ m_start m' = m_start m /\ m_customs m' = m_customs m /\
  m_config m' = m_config m /\ m_locals m' = m_locals m /\ m_producers m' = m_producers m /\
  m_debug m' = m_debug m /\ m_name m' = m_name m /\ m_code_section_offset m' = m_code_section_offset m.
Proof.
  intros m m' H. unfold gc_sweep in H.
  repeat match type of H with
         | rbind ?r _ = Ok _ => destruct r; cbn [rbind] in H; [|discriminate H|discriminate H]
         end.
  injection H as <-. repeat split.
Qed.

Print Assumptions awl_sound_complete.
Print Assumptions used_reach.
Print Assumptions gc_keeps_exactly_used.
Print Assumptions gc_idempotent_sets.
