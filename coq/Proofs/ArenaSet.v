(* C17, the de-duplicating ArenaSet (Model/Arena.v): the side map `already` and the arena determine each other
   on the live items ([SInv]), for a key equality that is an equivalence; so inserting an equal value gives the
   existing id back and live items are pairwise distinct. *)
From Coq Require Import List NArith Bool Arith Lia.
Import ListNotations.
From WV Require Import Model.Arena Proofs.Arena.

Section ArenaSetProofs.
  Variable A : Type.
  Variable on_delete : A -> A.
  Variable eqA : A -> A -> bool.
  Hypothesis eqA_refl : forall x, eqA x x = true.
  Hypothesis eqA_sym : forall x y, eqA x y = eqA y x.
  Hypothesis eqA_trans : forall x y z, eqA x y = true -> eqA y z = true -> eqA x z = true.

  Implicit Types s : aset A.
  Implicit Types m : list (A * nat).

  Notation sstep := (sstep on_delete eqA).
  Notation srun := (srun on_delete eqA).
  Notation lookup := (lookup eqA).
  Notation map_remove := (map_remove eqA).
  Notation insert := (insert eqA).
  Notation aset_remove := (aset_remove on_delete eqA).

  Definition SInv s : Prop :=
    Inv A (arena s) /\
    (forall k id, In (k, id) (already s) -> index (arena s) id = Some k) /\
    (forall id v, index (arena s) id = Some v -> lookup (already s) v = Some id).

  Lemma eqA_congr k v v' : eqA v v' = true -> eqA k v = eqA k v'.
  Proof.
    intros H. destruct (eqA k v) eqn:E1, (eqA k v') eqn:E2; try reflexivity.
    - rewrite (eqA_trans k v v' E1 H) in E2. discriminate.
    - rewrite eqA_sym in H. rewrite (eqA_trans k v' v E2 H) in E1. discriminate.
  Qed.

  Lemma lookup_eqA m v v' : eqA v v' = true -> lookup m v = lookup m v'.
  Proof.
    intros H. induction m as [|[k id] r IH]; cbn; [reflexivity|].
    rewrite (eqA_congr k v v' H), IH. reflexivity.
  Qed.

  Lemma lookup_In m v id : lookup m v = Some id -> exists k, In (k, id) m /\ eqA k v = true.
  Proof.
    induction m as [|[k i] r IH]; cbn; [discriminate|].
    destruct (eqA k v) eqn:E.
    - intros H; inversion H; subst. exists k. auto.
    - intros H. destruct (IH H) as [k' [Hin He]]. exists k'. auto.
  Qed.

  Lemma lookup_remove_eq m v v' : eqA v v' = true -> lookup (map_remove m v) v' = None.
  Proof.
    intros H. induction m as [|[k id] r IH]; cbn; [reflexivity|].
    destruct (eqA k v) eqn:E; [exact IH|]. cbn.
    rewrite <- (eqA_congr k v v' H), E. exact IH.
  Qed.

  Lemma lookup_remove_ne m v v' : eqA v v' = false -> lookup (map_remove m v) v' = lookup m v'.
  Proof.
    intros H. induction m as [|[k id] r IH]; cbn; [reflexivity|].
    destruct (eqA k v) eqn:E.
    - destruct (eqA k v') eqn:E'; [|exact IH].
      rewrite eqA_sym in E. rewrite (eqA_trans v k v' E E') in H. discriminate.
    - cbn. rewrite IH. reflexivity.
  Qed.

  Lemma In_remove m v k id : In (k, id) (map_remove m v) -> In (k, id) m /\ eqA k v = false.
  Proof.
    induction m as [|[k0 i0] r IH]; cbn; [intros []|].
    destruct (eqA k0 v) eqn:E.
    - intros H. destruct (IH H). auto.
    - cbn. intros [H|H]; [inversion H; subst; auto|]. destruct (IH H). auto.
  Qed.

  Theorem insert_existing s id v0 v :
    SInv s -> index (arena s) id = Some v0 -> eqA v0 v = true -> insert s v = (s, id).
  Proof.
    intros [_ [_ H3]] Hi He. unfold Arena.insert.
    rewrite <- (lookup_eqA (already s) v0 v He), (H3 _ _ Hi). reflexivity.
  Qed.

  Lemma lookup_absent s v :
    SInv s -> (forall id v0, index (arena s) id = Some v0 -> eqA v0 v = false) ->
    lookup (already s) v = None.
  Proof.
    intros [_ [H2 _]] Hn. destruct (lookup (already s) v) as [id|] eqn:E; [|reflexivity].
    destruct (lookup_In _ _ _ E) as [k [Hin He]].
    rewrite (Hn _ _ (H2 _ _ Hin)) in He. discriminate.
  Qed.

  Theorem insert_fresh s v :
    SInv s -> (forall id v0, index (arena s) id = Some v0 -> eqA v0 v = false) ->
    exists s', insert s v = (s', next_id (arena s)) /\
               index (arena s') (next_id (arena s)) = Some v /\ SInv s' /\
               (forall id, id < next_id (arena s) -> index (arena s') id = index (arena s) id).
  Proof.
    intros HS Hn. pose proof (lookup_absent s v HS Hn) as Hl.
    destruct HS as [H1 [H2 H3]].
    unfold Arena.insert. rewrite Hl.
    exists {| arena := fst (alloc (arena s) v); already := (v, next_id (arena s)) :: already s |}.
    split; [reflexivity|]. unfold SInv. cbn [arena already].
    split; [apply index_alloc_new, H1|]. split; [|intros id Hid; apply index_alloc_old; exact Hid].
    split; [apply alloc_inv; exact H1|]. split.
    - intros k id [Hin|Hin].
      + inversion Hin; subst. apply index_alloc_new, H1.
      + pose proof (H2 _ _ Hin) as Hi. rewrite index_alloc_old; [exact Hi|].
        eapply index_lt; exact Hi.
    - intros id w Hi. apply index_alloc_inv in Hi. cbn [Arena.lookup].
      destruct Hi as [[Hlt Hi]|[-> ->]].
      + rewrite eqA_sym, (Hn _ _ Hi). apply H3; exact Hi.
      + rewrite eqA_refl. reflexivity.
  Qed.

  Lemma remove_inv s id s' : SInv s -> aset_remove s id = Some s' -> SInv s'.
  Proof.
    intros [H1 [H2 H3]] H. unfold Arena.aset_remove in H.
    destruct (index (arena s) id) as [v|] eqn:Ei; [|discriminate].
    destruct (delete on_delete (arena s) id) as [a'|] eqn:Ed; [|discriminate].
    inversion H; subst; clear H. unfold SInv. cbn [arena already].
    split; [eapply delete_inv; eauto|]. split.
    - intros k id' Hin. apply In_remove in Hin. destruct Hin as [Hin He].
      pose proof (H2 _ _ Hin) as Hi.
      assert (id' <> id) as Hne.
      { intros ->. rewrite Ei in Hi. inversion Hi; subst. rewrite eqA_refl in He. discriminate. }
      rewrite (delete_isolated _ _ _ _ _ _ Ed Hne). exact Hi.
    - intros id' w Hi.
      assert (id' <> id) as Hne.
      { intros ->. rewrite (delete_gone _ _ _ _ _ Ed) in Hi. discriminate. }
      rewrite (delete_isolated _ _ _ _ _ _ Ed Hne) in Hi.
      rewrite lookup_remove_ne; [apply H3; exact Hi|].
      destruct (eqA v w) eqn:E; [|reflexivity]. exfalso.
      pose proof (lookup_eqA (already s) v w E) as Hl.
      rewrite (H3 _ _ Ei), (H3 _ _ Hi) in Hl. congruence.
  Qed.

  Lemma sinv_empty : SInv aset_empty.
  Proof.
    split; [apply inv_empty|]. split.
    - intros k id [].
    - intros id v H. unfold index, get in H. cbn in H. destruct id; discriminate.
  Qed.

  Lemma insert_cases s v :
    SInv s ->
    (exists id v0, index (arena s) id = Some v0 /\ eqA v0 v = true) \/
    (forall id v0, index (arena s) id = Some v0 -> eqA v0 v = false).
  Proof.
    intros HS. destruct (lookup (already s) v) as [id|] eqn:E.
    - left. destruct (lookup_In _ _ _ E) as [k [Hin He]].
      destruct HS as [_ [H2 _]]. exists id, k. split; [apply H2; exact Hin|exact He].
    - right. intros id v0 Hi. destruct (eqA v0 v) eqn:He; [|reflexivity].
      destruct HS as [_ [_ H3]]. rewrite <- (lookup_eqA _ v0 v He), (H3 _ _ Hi) in E. discriminate.
  Qed.

  Lemma sstep_inv s o : SInv s -> SInv (fst (sstep s o)).
  Proof.
    intros HS. destruct o as [v|id|id|id| | |w| ]; cbn; try exact HS.
    - destruct (insert_cases s v HS) as [[id [v0 [Hi He]]]|Hn].
      + rewrite (insert_existing s id v0 v HS Hi He). exact HS.
      + destruct (insert_fresh s v HS Hn) as [s' [E [_ [HS' _]]]]. rewrite E. exact HS'.
    - destruct (aset_remove s id) eqn:E; cbn; [eapply remove_inv; eauto|exact HS].
  Qed.

  Lemma srun_cons s o r :
    srun s (o :: r) = (fst (srun (fst (sstep s o)) r), snd (sstep s o) :: snd (srun (fst (sstep s o)) r)).
  Proof.
    cbn [Arena.srun]. destruct (sstep s o) as [s' x]. cbn [fst snd].
    destruct (Arena.srun on_delete eqA s' r) as [s'' xs]. reflexivity.
  Qed.

  Theorem srun_inv ops : forall s, SInv s -> SInv (fst (srun s ops)).
  Proof.
    induction ops as [|o r IH]; intros s H; [exact H|].
    rewrite srun_cons. cbn [fst]. apply IH, sstep_inv, H.
  Qed.

  Theorem live_distinct s id1 id2 v1 v2 :
    SInv s -> index (arena s) id1 = Some v1 -> index (arena s) id2 = Some v2 ->
    eqA v1 v2 = true -> id1 = id2.
  Proof.
    intros [_ [_ H3]] Hi1 Hi2 He.
    pose proof (lookup_eqA (already s) v1 v2 He) as Hl.
    rewrite (H3 _ _ Hi1), (H3 _ _ Hi2) in Hl. congruence.
  Qed.

  (* re-adding a value after its id was deleted yields a fresh id, never the old one *)
  Theorem readd_after_delete s id v s' v' :
    SInv s -> index (arena s) id = Some v -> aset_remove s id = Some s' -> eqA v v' = true ->
    exists s'', insert s' v' = (s'', next_id (arena s)) /\ id < next_id (arena s) /\
                index (arena s'') id = None.
  Proof.
    intros HS Hi Hr He.
    pose proof (remove_inv _ _ _ HS Hr) as HS'.
    unfold Arena.aset_remove in Hr. rewrite Hi in Hr.
    destruct (delete on_delete (arena s) id) as [a'|] eqn:Ed; [|discriminate].
    inversion Hr; subst; clear Hr. cbn [arena] in *.
    assert (Hnext : next_id a' = next_id (arena s)).
    { unfold delete in Ed. destruct (contains (arena s) id); [|discriminate].
      inversion Ed. unfold next_id; cbn. apply upd_length. }
    assert (Hn : forall id0 v0, index a' id0 = Some v0 -> eqA v0 v' = false).
    { intros id0 v0 Hi0. destruct (eqA v0 v') eqn:E; [|reflexivity]. exfalso.
      assert (id0 <> id) as Hne.
      { intros ->. rewrite (delete_gone _ _ _ _ _ Ed) in Hi0. discriminate. }
      rewrite (delete_isolated _ _ _ _ _ _ Ed Hne) in Hi0.
      apply Hne. eapply (live_distinct s id0 id v0 v HS Hi0 Hi).
      rewrite (eqA_sym v v') in He. eapply eqA_trans; eauto. }
    destruct (insert_fresh _ v' HS' Hn) as [s'' [E [_ [_ Hold]]]]. cbn [arena] in *.
    exists s''. rewrite <- Hnext. split; [exact E|].
    pose proof (index_lt _ _ _ _ Hi) as Hlt.
    split; [rewrite Hnext; exact Hlt|].
    rewrite Hold by (rewrite Hnext; exact Hlt). exact (delete_gone _ _ _ _ _ Ed).
  Qed.
End ArenaSetProofs.
