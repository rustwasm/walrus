(* C08, module level fixpoint: payload equalities for the EXPORT, START, ELEMENT, DATA COUNT and DATA sections
   of two consecutive round trips, under visible identity premises [rho_id s2 e2 S] for the index spaces a
   section refers to.  The stream is read by section kind (Structure2 [emit_kinds]); exports and element segments are
   instances of ModFix4 [payload_related]. *)
From Coq Require Import List NArith ZArith Bool Arith Lia.
Import ListNotations.
From WV Require Import Gen.Ops Model.Common Model.IR Model.Arena Model.Traversal Model.EmitFn Model.Locals
                       Model.ParseFn Model.ModuleM Model.ParseM Model.EmitM Gen.Attrs.
From WV Require Import Proofs.Arena Proofs.Order Proofs.IndexMaps Proofs.CustomsCfg Proofs.Escalation Proofs.Structure
                       Proofs.ParsedWf Proofs.Structure2 Proofs.Totality Proofs.Renumbering Proofs.ModFix Proofs.ModFix4.
Local Open Scope nat_scope.

Theorem sg_stream_wf m ilen e : emitM m ilen [] = Ok e -> stream_wf (em_secs e) = true.
Proof. apply emit_stream_wf. Qed.

Lemma sg_once_payload {B} (f : wsec -> list B) t w sec : stream_wf w = true -> t < 12 ->
  (forall s, has_tag t s = false -> f s = []) -> In sec w -> has_tag t sec = true -> flat_map f w = f sec.
Proof.
  intros Hwf Ht Hf Hin Hs. apply (once_flat_map f t Hf w sec); [apply stream_wf_once; assumption|exact Hin|exact Hs].
Qed.

Lemma sg_kind_space_ok k : kind_space k <> S_type /\ kind_space k <> S_local.
Proof. destruct k; split; discriminate. Qed.

Lemma sg_exports_empty cf ver w s ilen e : parseM cf ver w = POk s -> emitM (ps_m s) ilen [] = Ok e ->
  flat_map exports_of w = [] -> flat_map exports_of (em_secs e) = [].
Proof.
  intros Hp He Hw. destruct (parseM_GES _ _ _ _ Hp) as (_ & HE & _). rewrite sec_exports_of, Hw in HE. cbn [map] in HE.
  pose proof (parseM_ids _ _ _ _ Hp) as Hid.
  assert (D : dead (m_exports (ps_m s)) = []) by (unfold ids_consistent in Hid; tauto).
  emitM_kinds He. unfold emit_exports in Eex. rewrite (aiter_nodead_snd _ D), HE in Eex. inversion Eex; subst s_ex.
  rewrite (flat_map_tag exports_of 6), Ekind by (intros [] Hs; try reflexivity; discriminate Hs). reflexivity.
Qed.

Lemma sg_export_rt_id cf ver w s ilen e wi wo : parseM cf ver w = POk s -> emitM (ps_m s) ilen [] = Ok e ->
  rho_id s e S_func -> rho_id s e S_table -> rho_id s e S_memory -> rho_id s e S_global ->
  export_rt e wi wo -> wo = wi.
Proof.
  intros Hp He Hf Ht Hm Hg (A & B & C). destruct wi as [ni ki ii], wo as [no ko io]. cbn [we_name we_kind we_index] in *.
  subst no ko. f_equal. destruct (sg_kind_space_ok ki) as [K1 K2].
  apply (get_idx_rho_id _ _ _ _ _ _ _ _ _ _ Hp He K1 K2); [|exact C]. destruct ki; assumption.
Qed.

Lemma exports_roundtrip_payload cf ver w s ilen e : parseM cf ver w = POk s -> emitM (ps_m s) ilen [] = Ok e ->
  Forall2 (export_rt e) (flat_map exports_of w) (flat_map exports_of (em_secs e)).
Proof.
  intros Hp He. apply (payload_related exports_of 6 S_Exports); try reflexivity.
  - intros [] Hs; try reflexivity; discriminate Hs.
  - apply stream_wf_once; [exact (emit_stream_wf _ _ _ He)|lia].
  - exact (sg_exports_empty _ _ _ _ _ _ Hp He).
  - exact (structure_exports_gen _ _ _ _ _ _ _ Hp He).
Qed.

Theorem fix_exports cf ver w ilen s1 e1 s2 e2 : two_trips cf ver w ilen s1 e1 s2 e2 ->
  rho_id s2 e2 S_func -> rho_id s2 e2 S_table -> rho_id s2 e2 S_memory -> rho_id s2 e2 S_global ->
  flat_map exports_of (em_secs e2) = flat_map exports_of (em_secs e1).
Proof.
  intros (Hp1 & He1 & Hp2 & He2) Hf Ht Hm Hg. refine (Forall2_eq _ _ _ _ (exports_roundtrip_payload _ _ _ _ _ _ Hp2 He2)).
  intros a b _ R. exact (sg_export_rt_id _ _ _ _ _ _ _ _ Hp2 He2 Hf Ht Hm Hg R).
Qed.

Lemma sg_starts_cases w : (forall f, ~ In (S_Start f) w) \/ exists f, In (S_Start f) w.
Proof.
  induction w as [|x r IH]; [left; intros f []|]. destruct IH as [IH|[f Hf]]; [|right; exists f; right; exact Hf].
  destruct (starts_of x) as [|f0 l0] eqn:Ex.
  - left. intros f' C. destruct C as [C|C]; [subst x; discriminate Ex|exact (IH _ C)].
  - right. destruct x; try discriminate Ex. eexists. left. reflexivity.
Qed.
Lemma sg_no_start_nil w : (forall f, ~ In (S_Start f) w) -> flat_map starts_of w = [].
Proof.
  intros H. apply flat_map_nil. intros s Hs. destruct s; try reflexivity. destruct (H _ Hs).
Qed.
Lemma sg_starts_tag : forall s, has_tag 7 s = false -> starts_of s = [].
Proof. intros [] Hs; try reflexivity. discriminate. Qed.

Theorem fix_start cf ver w ilen s1 e1 s2 e2 : two_trips cf ver w ilen s1 e1 s2 e2 -> rho_id s2 e2 S_func ->
  flat_map starts_of (em_secs e2) = flat_map starts_of (em_secs e1).
Proof.
  intros (Hp1 & He1 & Hp2 & He2) Hf.
  pose proof (sg_stream_wf _ _ _ He1) as W1. pose proof (sg_stream_wf _ _ _ He2) as W2.
  destruct (sg_starts_cases (em_secs e1)) as [Hn|[f Hin]].
  - rewrite (sg_no_start_nil _ Hn). apply sg_no_start_nil.
    apply (structure_no_start _ _ _ _ _ _ _ Hp2 He2 Hn). intros f' [].
  - destruct (structure_start _ _ _ _ _ _ _ f Hp2 He2 W1 Hin) as (f' & Hg & Hin').
    assert (E : f' = f) by (apply (get_idx_rho_id _ _ _ _ _ _ _ S_func _ _ Hp2 He2); [discriminate|discriminate|exact Hf|exact Hg]). subst f'.
    rewrite (sg_once_payload starts_of 7 _ (S_Start f) W2 ltac:(lia) sg_starts_tag Hin' eq_refl).
    rewrite (sg_once_payload starts_of 7 _ (S_Start f) W1 ltac:(lia) sg_starts_tag Hin eq_refl). reflexivity.
Qed.

(* the form in which the emitter writes an element segment: table 0 of an active segment is implicit
   ([None]), never [Some 0]; no constant is the catch-all [WC_Other] *)
Definition sg_elem_canon (we : welem) : Prop :=
  match wel_kind we with WEK_Active tbl off => tbl <> Some 0%N /\ off <> WC_Other | _ => True end /\
  match wel_items we with WEI_Exprs _ es => Forall (fun c => c <> WC_Other) es | _ => True end.

Lemma sg_emit_elem_canon x e we : emit_elem x e = Ok we -> sg_elem_canon we.
Proof.
  unfold emit_elem. intros E. rinv E as its Eits. rinv E as k Ek. inversion E; subst we; clear E.
  unfold sg_elem_canon. cbn [wel_kind wel_items]. split.
  - destruct (el_kind e) as [| |t off]; try (inversion Ek; exact I).
    rinv Ek as ti Eti. rinv Ek as o Eo. inversion Ek; subst k; clear Ek. split.
    + destruct (N.eqb ti 0) eqn:Ez; [discriminate|]. apply N.eqb_neq in Ez. congruence.
    + exact (emit_const_not_other _ _ _ Eo).
  - destruct (el_items e) as [fs|t es].
    + destruct (rmapM (get_idx x S_func) fs) as [l| |]; cbn [rmap] in Eits; inversion Eits; exact I.
    + destruct (rmapM (emit_const x) es) as [l| |] eqn:El; cbn [rmap] in Eits; try discriminate. inversion Eits; subst its.
      apply rmapM_ok_inv in El. clear - El. induction El as [|a b l l' Hab _ IH]; constructor; [exact (emit_const_not_other _ _ _ Hab)|exact IH].
Qed.

Lemma sg_Forall2_In_r {A B} (R : A -> B -> Prop) : forall l l' b, Forall2 R l l' -> In b l' -> exists a, In a l /\ R a b.
Proof.
  intros l l' b F. induction F as [|a0 b0 l l' H0 F IH]; intros Hin; [destruct Hin|].
  destruct Hin as [<-|Hin]; [exists a0; split; [left; reflexivity|exact H0]|].
  destruct (IH Hin) as (a & Ha & Hr). exists a. split; [right; exact Ha|exact Hr].
Qed.

Theorem sg_emitted_elems_canon m ilen e : emitM m ilen [] = Ok e -> Forall sg_elem_canon (flat_map elems_of (em_secs e)).
Proof.
  intros He. emitM_kinds He. rewrite (flat_map_tag elems_of 8), Ekind by (intros [] Hs; try reflexivity; discriminate Hs). cbn [nth].
  rewrite emit_elements_unfold in Eel. destruct (aiter (m_elements m)) as [|p0 ps]; [inversion Eel; constructor|].
  rinv Eel as r Er. inversion Eel. cbn [flat_map elems_of]. rewrite app_nil_r.
  apply elems_go_entries' in Er. destruct Er as [_ F]. apply Forall_forall. intros we Hwe.
  destruct (sg_Forall2_In_r _ _ _ _ F Hwe) as (p & _ & Hp). exact (sg_emit_elem_canon _ _ _ Hp).
Qed.

Corollary emitted_elems_canonical_table m ilen e1 : emitM m ilen [] = Ok e1 ->
  forall we tbl off, In we (flat_map elems_of (em_secs e1)) -> wel_kind we = WEK_Active tbl off ->
    tbl = None \/ exists ti, tbl = Some ti /\ ti <> 0%N.
Proof.
  intros He we tbl off Hin Hk. pose proof (sg_emitted_elems_canon _ _ _ He) as F. rewrite Forall_forall in F.
  destruct (F _ Hin) as [C _]. rewrite Hk in C. destruct C as [C _]. destruct tbl as [ti|]; [|left; reflexivity].
  right. exists ti. split; [reflexivity|]. intros ->. apply C. reflexivity.
Qed.

Lemma sg_elem_rt_id cf ver w s ilen e wi wo : parseM cf ver w = POk s -> emitM (ps_m s) ilen [] = Ok e ->
  rho_id s e S_func -> rho_id s e S_table -> rho_id s e S_global ->
  sg_elem_canon wi -> elem_rt (em_x2i e) wi wo -> wo = wi.
Proof.
  intros Hp He Hf Ht Hg [C1 C2] [R1 R2]. destruct wi as [ki ii], wo as [ko io]. cbn [wel_kind wel_items] in *. f_equal.
  - destruct ki as [| |tbl off], ko as [| |tbl' off']; try contradiction; try reflexivity.
    destruct R1 as [(ti & Hti & ->) Ro]. destruct C1 as [Ct Co].
    assert (E : ti = match tbl with Some t => t | None => 0%N end)
      by (apply (get_idx_rho_id _ _ _ _ _ _ _ S_table _ _ Hp He); [discriminate|discriminate|exact Ht|exact Hti]).
    subst ti. rewrite (ren_const_id _ _ _ _ _ _ _ _ _ Hp He Hg Hf Co Ro). f_equal.
    destruct tbl as [t|]; [|reflexivity]. destruct (N.eqb t 0) eqn:Ez; [|reflexivity].
    apply N.eqb_eq in Ez. subst t. congruence.
  - destruct ii as [fs|t es], io as [fs'|t' es']; try contradiction.
    + f_equal. apply Forall2_eq in R2; [exact R2|]. intros a b _ Hab.
      apply (get_idx_rho_id _ _ _ _ _ _ _ S_func _ _ Hp He); [discriminate|discriminate|exact Hf|exact Hab].
    + destruct R2 as [-> F]. f_equal. apply Forall2_eq in F; [exact F|]. intros a b Ha Hab.
      rewrite Forall_forall in C2. exact (ren_const_id _ _ _ _ _ _ _ _ _ Hp He Hg Hf (C2 _ Ha) Hab).
Qed.

Lemma sg_elems_empty cf ver w s ilen e : parseM cf ver w = POk s -> emitM (ps_m s) ilen [] = Ok e ->
  flat_map elems_of w = [] -> flat_map elems_of (em_secs e) = [].
Proof.
  intros Hp He Hw. pose proof (parseM_elems _ _ _ _ Hp) as HK. rewrite Hw in HK. cbn [map] in HK.
  unfold K_elems in HK. apply map_eq_nil in HK.
  pose proof (parseM_ids _ _ _ _ Hp) as Hid.
  assert (D : dead (m_elements (ps_m s)) = []) by (unfold ids_consistent in Hid; tauto).
  pose proof (aiter_nodead_snd _ D) as HA. rewrite HK in HA. apply map_eq_nil in HA.
  emitM_kinds He. rewrite emit_elements_unfold, HA in Eel. inversion Eel; subst s_el.
  rewrite (flat_map_tag elems_of 8), Ekind by (intros [] Hs; try reflexivity; discriminate Hs). reflexivity.
Qed.

Lemma elems_roundtrip_payload cf ver w s ilen e : parseM cf ver w = POk s -> emitM (ps_m s) ilen [] = Ok e ->
  Forall2 (elem_rt (em_x2i e)) (flat_map elems_of w) (flat_map elems_of (em_secs e)).
Proof.
  intros Hp He. apply (payload_related elems_of 8 S_Elems); try reflexivity.
  - intros [] Hs; try reflexivity; discriminate Hs.
  - apply stream_wf_once; [exact (emit_stream_wf _ _ _ He)|lia].
  - exact (sg_elems_empty _ _ _ _ _ _ Hp He).
  - exact (structure_elems_gen _ _ _ _ _ _ _ Hp He).
Qed.

Theorem fix_elems cf ver w ilen s1 e1 s2 e2 : two_trips cf ver w ilen s1 e1 s2 e2 ->
  rho_id s2 e2 S_func -> rho_id s2 e2 S_table -> rho_id s2 e2 S_global ->
  flat_map elems_of (em_secs e2) = flat_map elems_of (em_secs e1).
Proof.
  intros (Hp1 & He1 & Hp2 & He2) Hf Ht Hg. pose proof (sg_emitted_elems_canon _ _ _ He1) as CAN. rewrite Forall_forall in CAN.
  refine (Forall2_eq _ _ _ _ (elems_roundtrip_payload _ _ _ _ _ _ Hp2 He2)).
  intros a b Ha R. exact (sg_elem_rt_id _ _ _ _ _ _ _ _ Hp2 He2 Hf Ht Hg (CAN _ Ha) R).
Qed.

Definition sg_pass (p : N * mdata) : bool := match da_kind (snd p) with DK_Passive => true | _ => false end.
Definition sg_data_ok (d : wdata) : Prop := match wd_kind d with WDK_Active _ off => off <> WC_Other | _ => True end.
Definition sg_uses (m : wir) : Prop :=
  exists p lf, In p (aiter (m_funcs m)) /\ fn_kind (snd p) = FK_Local lf /\ uses_data lf = Ok true.

Lemma sg_datas_tag : forall s, has_tag 11 s = false -> datas_of s = [].
Proof. intros [] Hs; try reflexivity. discriminate. Qed.
Lemma sg_dcounts_tag : forall s, has_tag 9 s = false -> dcounts_of s = [].
Proof. intros [] Hs; try reflexivity. discriminate. Qed.
Lemma sg_filter_nil_inv {A} (f : A -> bool) l : filter f l = [] -> forall a, In a l -> f a = false.
Proof.
  intros E a Ha. destruct (f a) eqn:Ef; [|reflexivity].
  assert (X : In a (filter f l)) by (apply filter_In; auto). rewrite E in X. destruct X.
Qed.
Lemma sg_existsb_F2 {A B} (f : A -> bool) (g : B -> bool) : forall l l', Forall2 (fun a b => g b = f a) l l' -> existsb g l' = existsb f l.
Proof. intros l l' F. induction F as [|a b l l' H _ IH]; [reflexivity|]. cbn [existsb]. rewrite H, IH. reflexivity. Qed.

Lemma sg_dcount_cases w : (forall n, ~ In (S_DataCount n) w) \/ exists n, In (S_DataCount n) w.
Proof.
  induction w as [|x r IH]; [left; intros n []|]. destruct IH as [IH|[n Hn]]; [|right; exists n; right; exact Hn].
  destruct (dcounts_of x) as [|n0 l0] eqn:Ex.
  - left. intros n' C. destruct C as [C|C]; [subst x; discriminate Ex|exact (IH _ C)].
  - right. destruct x; try discriminate Ex. eexists. left. reflexivity.
Qed.
Lemma sg_no_dcount_nil w : (forall n, ~ In (S_DataCount n) w) -> flat_map dcounts_of w = [].
Proof. intros H. apply flat_map_nil. intros s Hs. destruct s; try reflexivity. destruct (H _ Hs). Qed.

Lemma sg_nodata_out m ilen e : emitM m ilen [] = Ok e -> aiter (m_data m) = [] ->
  forall s, In s (em_secs e) -> has_tag 9 s = false /\ has_tag 11 s = false.
Proof.
  intros He Ha s Hin. emitM_kinds He.
  unfold emit_data_count in Edc. rewrite Ha in Edc. inversion Edc; subst s_dc x10; clear Edc.
  unfold emit_data in Eda. rewrite Ha in Eda. inversion Eda; subst s_da; clear Eda.
  split; [exact (sg_filter_nil_inv _ _ (Ekind 9) s Hin)|exact (sg_filter_nil_inv _ _ (Ekind 11) s Hin)].
Qed.
Lemma sg_nodata_payloads w : (forall s, In s w -> has_tag 9 s = false /\ has_tag 11 s = false) ->
  flat_map datas_of w = [] /\ flat_map dcounts_of w = [].
Proof.
  intros H. split; apply flat_map_nil; intros s Hs; destruct (H s Hs) as [H9 H11];
    [apply sg_datas_tag; exact H11|apply sg_dcounts_tag; exact H9].
Qed.
Lemma sg_nodata_in cf ver w s : parseM cf ver w = POk s ->
  (forall sec, In sec w -> has_tag 9 sec = false /\ has_tag 11 sec = false) -> aiter (m_data (ps_m s)) = [].
Proof.
  intros Hp H. pose proof (parseM_data _ _ _ _ Hp) as HK. fold kd_step in HK.
  rewrite (fold_kdata_none w []) in HK by (apply filter_none; intros a Ha; apply (H a Ha)).
  unfold K_data in HK. apply map_eq_nil in HK.
  pose proof (parseM_ids _ _ _ _ Hp) as Hid.
  assert (D : dead (m_data (ps_m s)) = []) by (unfold ids_consistent in Hid; tauto).
  pose proof (aiter_nodead_snd _ D) as HA. rewrite HK in HA. apply map_eq_nil in HA. exact HA.
Qed.

Lemma sg_before_app {A} (p l : list A) x y :
  (exists w1 w2, l = w1 ++ x :: w2 /\ In y w2) -> exists w1 w2, p ++ l = w1 ++ x :: w2 /\ In y w2.
Proof. intros (w1 & w2 & -> & H). exists (p ++ w1), w2. split; [apply app_assoc|exact H]. Qed.

Lemma sg_data_out m ilen e : emitM m ilen [] = Ok e -> aiter (m_data m) <> [] ->
  exists ds, In (S_Data ds) (em_secs e) /\ ds <> [] /\
    Forall2 (fun p d => is_passive d = sg_pass p /\ sg_data_ok d) (aiter (m_data m)) ds /\
    dc_before (em_secs e) ds /\
    (forall n, In (S_DataCount n) (em_secs e) -> n = N.of_nat (length ds)) /\
    ((exists n, In (S_DataCount n) (em_secs e)) <-> (existsb sg_pass (aiter (m_data m)) = true \/ sg_uses m)).
Proof.
  intros He Hne. emitM_kinds He.
  pose proof (emit_data_count_shape _ _ _ _ Edc) as Hsh.
  pose proof (emit_data_count_iff _ _ _ _ Edc) as Hiff.
  assert (X : exists ds, s_da = [S_Data ds] /\
             Forall2 (fun p d => is_passive d = sg_pass p /\ sg_data_ok d) (aiter (m_data m)) ds).
  { clear - Eda Hne. unfold emit_data in Eda. destruct (aiter (m_data m)) as [|p0 ps]; [congruence|].
    rinv Eda as ds Eds. inversion Eda; subst s_da; clear Eda. apply rmapM_ok_inv in Eds. exists ds. split; [reflexivity|].
    eapply Forall2_impl; [|exact Eds]. cbn beta. intros a b H. unfold is_passive, sg_pass, sg_data_ok.
    destruct (da_kind (snd a)) as [|mem off].
    - inversion H; subst b. cbn [wd_kind]. split; [reflexivity|exact I].
    - rinv H as mi Emi. rinv H as o Eo. inversion H; subst b. cbn [wd_kind]. split; [reflexivity|].
      exact (emit_const_not_other _ _ _ Eo). }
  destruct X as (ds & -> & F).
  assert (HL : length (aiter (m_data m)) = length ds) by (eapply Forall2_length; exact F).
  assert (HIN : forall n', In (S_DataCount n') (em_secs e) <-> In (S_DataCount n') s_dc).
  { intros n'. pose proof (Ekind 9) as K. cbn [nth] in K. rewrite <- K, filter_In. split; [intros H; split; [exact H|reflexivity]|tauto]. }
  assert (HV : forall n, In (S_DataCount n) (em_secs e) -> n = N.of_nat (length ds)).
  { intros n Hi. apply HIN in Hi. destruct Hsh as [->| ->]; [destruct Hi|]. destruct Hi as [Hi|[]].
    inversion Hi. unfold len_N. rewrite HL. reflexivity. }
  assert (HD : In (S_Data ds) (filter (has_tag 11) (em_secs e))) by (rewrite Ekind; left; reflexivity).
  exists ds. split; [exact (proj1 (proj1 (filter_In _ _ _) HD))|].
  split; [intros ->; destruct (aiter (m_data m)); [congruence|discriminate HL]|].
  split; [exact F|]. split; [|split; [exact HV|]].
  - intros n Hi. pose proof (HV n Hi) as En. split; [subst n; apply Nat2N.id|].
    apply HIN in Hi. destruct Hsh as [->| Hsh]; [destruct Hi|]. rewrite Hsh in Hi. destruct Hi as [Hi|[]].
    rewrite Esecs, Hsh. do 9 apply sg_before_app. exists [], (s_co ++ [S_Data ds] ++ rest).
    split; [rewrite Hi; reflexivity|apply in_or_app; right; left; reflexivity].
  - split.
    + intros [n Hi]. apply HIN in Hi. apply Hiff. intros C. rewrite C in Hi. destruct Hi.
    + intros Hc. assert (Hs : s_dc <> []) by (apply Hiff; split; [exact Hne|exact Hc]).
      destruct Hsh as [->| ->]; [congruence|]. eexists. apply HIN. left. reflexivity.
Qed.

Lemma sg_data_rt_id cf ver w s ilen e wi wo : parseM cf ver w = POk s -> emitM (ps_m s) ilen [] = Ok e ->
  rho_id s e S_memory -> rho_id s e S_global -> rho_id s e S_func ->
  sg_data_ok wi -> data_rt (em_x2i e) wi wo -> wo = wi.
Proof.
  intros Hp He Hm Hg Hf C [R1 R2]. destruct wi as [ki bi], wo as [ko bo]. unfold sg_data_ok in C. cbn [wd_kind wd_bytes] in *.
  subst bo. f_equal. destruct ki as [|mi off], ko as [|mi' off']; try contradiction; try reflexivity.
  destruct R2 as [Hmi Ro]. rewrite (ren_const_id _ _ _ _ _ _ _ _ _ Hp He Hg Hf C Ro). f_equal.
  apply (get_idx_rho_id _ _ _ _ _ _ _ S_memory _ _ Hp He); [discriminate|discriminate|exact Hm|exact Hmi].
Qed.

Theorem fix_data cf ver w ilen s1 e1 s2 e2 : two_trips cf ver w ilen s1 e1 s2 e2 ->
  rho_id s2 e2 S_memory -> rho_id s2 e2 S_global -> rho_id s2 e2 S_func ->
  flat_map datas_of (em_secs e2) = flat_map datas_of (em_secs e1).
Proof.
  intros (Hp1 & He1 & Hp2 & He2) Hm Hg Hf.
  pose proof (sg_stream_wf _ _ _ He1) as W1. pose proof (sg_stream_wf _ _ _ He2) as W2.
  destruct (aiter (m_data (ps_m s1))) as [|p0 ps] eqn:Ha.
  - pose proof (sg_nodata_out _ _ _ He1 Ha) as N1. pose proof (sg_nodata_in _ _ _ _ Hp2 N1) as Ha2.
    pose proof (sg_nodata_out _ _ _ He2 Ha2) as N2.
    rewrite (proj1 (sg_nodata_payloads _ N1)), (proj1 (sg_nodata_payloads _ N2)). reflexivity.
  - destruct (sg_data_out _ _ _ He1) as (ds1 & Hin1 & Hne1 & F1 & Hdc1 & _); [rewrite Ha; discriminate|].
    destruct (structure_data _ _ _ _ _ _ _ _ Hp2 He2 W1 Hin1 Hdc1 Hne1) as (ds2 & Hin2 & F2).
    assert (E : ds2 = ds1).
    { apply Forall2_eq in F2; [exact F2|]. intros a b Ha' R.
      destruct (sg_Forall2_In_r _ _ _ _ F1 Ha') as (p & _ & _ & Hok).
      exact (sg_data_rt_id _ _ _ _ _ _ _ _ Hp2 He2 Hm Hg Hf Hok R). }
    subst ds2.
    rewrite (sg_once_payload datas_of 11 _ (S_Data ds1) W2 ltac:(lia) sg_datas_tag Hin2 eq_refl).
    rewrite (sg_once_payload datas_of 11 _ (S_Data ds1) W1 ltac:(lia) sg_datas_tag Hin1 eq_refl). reflexivity.
Qed.

(* the data count.  The section is written iff some segment is passive or some local function body
   uses a data segment (memory.init / data.drop); the first is a property of the data payload, the
   second of the BODIES, so it is a premise here: the two parsed modules agree on it. *)
Theorem fix_data_count cf ver w ilen s1 e1 s2 e2 : two_trips cf ver w ilen s1 e1 s2 e2 ->
  (sg_uses (ps_m s2) <-> sg_uses (ps_m s1)) ->
  flat_map dcounts_of (em_secs e2) = flat_map dcounts_of (em_secs e1).
Proof.
  intros (Hp1 & He1 & Hp2 & He2) Hu.
  pose proof (sg_stream_wf _ _ _ He1) as W1. pose proof (sg_stream_wf _ _ _ He2) as W2.
  destruct (aiter (m_data (ps_m s1))) as [|p0 ps] eqn:Ha.
  - pose proof (sg_nodata_out _ _ _ He1 Ha) as N1. pose proof (sg_nodata_in _ _ _ _ Hp2 N1) as Ha2.
    pose proof (sg_nodata_out _ _ _ He2 Ha2) as N2.
    rewrite (proj2 (sg_nodata_payloads _ N1)), (proj2 (sg_nodata_payloads _ N2)). reflexivity.
  - destruct (sg_data_out _ _ _ He1) as (ds1 & Hin1 & Hne1 & F1 & Hdc1 & HV1 & Hiff1); [rewrite Ha; discriminate|].
    destruct (structure_data_count _ _ _ _ _ [] _ _ Hp2 He2 W1 Hin1 Hdc1 Hne1) as (HV2 & Hiff2); [intros n []|].
    fold (sg_uses (ps_m s2)) in Hiff2.
    assert (HP : existsb is_passive ds1 = existsb sg_pass (aiter (m_data (ps_m s1)))).
    { apply sg_existsb_F2. eapply Forall2_impl; [|exact F1]. cbn beta. intros a b [H _]. exact H. }
    rewrite HP in Hiff2.
    assert (EX : (exists n, In (S_DataCount n) (em_secs e2)) <-> (exists n, In (S_DataCount n) (em_secs e1))).
    { rewrite Hiff1, Hiff2, Hu. reflexivity. }
    destruct (sg_dcount_cases (em_secs e1)) as [Hn1|[n1 Hi1]].
    + assert (Hn2 : forall n, ~ In (S_DataCount n) (em_secs e2)).
      { intros n Hi. destruct (proj1 EX (ex_intro _ n Hi)) as [n' Hi']. exact (Hn1 _ Hi'). }
      rewrite (sg_no_dcount_nil _ Hn1), (sg_no_dcount_nil _ Hn2). reflexivity.
    + destruct (proj2 EX (ex_intro _ n1 Hi1)) as [n2 Hi2].
      pose proof (HV1 _ Hi1) as E1. pose proof (HV2 _ Hi2) as E2. subst n1 n2.
      rewrite (sg_once_payload dcounts_of 9 _ _ W2 ltac:(lia) sg_dcounts_tag Hi2 eq_refl).
      rewrite (sg_once_payload dcounts_of 9 _ _ W1 ltac:(lia) sg_dcounts_tag Hi1 eq_refl). reflexivity.
Qed.

(* the premise of [fix_data_count] in other forms *)
Definition sg_uses_flag (p : N * mfunc) : res bool := match fn_kind (snd p) with FK_Local lf => uses_data lf | _ => Ok false end.
(* as the flags computed by emit_data_count *)
Lemma sg_uses_flags m us : rmapM sg_uses_flag (aiter (m_funcs m)) = Ok us -> (existsb (fun b => b) us = true <-> sg_uses m).
Proof.
  intros Eu. rewrite existsb_id_In, (rmapM_In _ _ _ Eu true). unfold sg_uses. split.
  - intros (p & Hp & E). unfold sg_uses_flag in E. destruct (fn_kind (snd p)) as [? ?|lf|?] eqn:Ek; try discriminate E.
    exists p, lf. auto.
  - intros (p & lf & Hp & Ek & E). exists p. split; [exact Hp|]. unfold sg_uses_flag. rewrite Ek. exact E.
Qed.
Corollary fix_data_count_flags cf ver w ilen s1 e1 s2 e2 us1 us2 : two_trips cf ver w ilen s1 e1 s2 e2 ->
  rmapM sg_uses_flag (aiter (m_funcs (ps_m s1))) = Ok us1 -> rmapM sg_uses_flag (aiter (m_funcs (ps_m s2))) = Ok us2 ->
  existsb (fun b => b) us2 = existsb (fun b => b) us1 ->
  flat_map dcounts_of (em_secs e2) = flat_map dcounts_of (em_secs e1).
Proof.
  intros H E1 E2 Hu. apply (fix_data_count _ _ _ _ _ _ _ _ H).
  rewrite <- (sg_uses_flags _ _ E1), <- (sg_uses_flags _ _ E2), Hu. reflexivity.
Qed.
(* it only depends on the list of function kinds *)
Lemma sg_uses_kinds m : sg_uses m <->
  exists lf, In (FK_Local lf) (map (fun p => fn_kind (snd p)) (aiter (m_funcs m))) /\ uses_data lf = Ok true.
Proof.
  unfold sg_uses. split.
  - intros (p & lf & Hp & Ek & E). exists lf. split; [|exact E]. apply in_map_iff. exists p. split; [exact Ek|exact Hp].
  - intros (lf & Hin & E). apply in_map_iff in Hin. destruct Hin as (p & Ek & Hp). exists p, lf. auto.
Qed.
Corollary fix_data_count_kinds cf ver w ilen s1 e1 s2 e2 : two_trips cf ver w ilen s1 e1 s2 e2 ->
  map (fun p => fn_kind (snd p)) (aiter (m_funcs (ps_m s2))) = map (fun p => fn_kind (snd p)) (aiter (m_funcs (ps_m s1))) ->
  flat_map dcounts_of (em_secs e2) = flat_map dcounts_of (em_secs e1).
Proof.
  intros H Hk. apply (fix_data_count _ _ _ _ _ _ _ _ H). rewrite !sg_uses_kinds, Hk. reflexivity.
Qed.

Print Assumptions sg_stream_wf.
Print Assumptions emitted_elems_canonical_table.
Print Assumptions fix_exports.
Print Assumptions fix_start.
Print Assumptions fix_elems.
Print Assumptions fix_data.
Print Assumptions fix_data_count.
Print Assumptions fix_data_count_flags.
Print Assumptions fix_data_count_kinds.
