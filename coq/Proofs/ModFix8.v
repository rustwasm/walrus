(* C08, module level fixpoint: the CUSTOM part of the stream (name / producers / raw custom sections).
   Decomposition of the custom payload of an emitted stream, and the fixpoint of the raw customs and
   of the producers section across two consecutive round trips. *)
From Coq Require Import List NArith ZArith Bool Arith Lia.
Import ListNotations.
From WV Require Import Gen.Ops Model.Common Model.IR Model.Arena Model.ModuleM Model.ParseM Model.EmitM.
From WV Require Import Proofs.IndexMaps Proofs.Structure Proofs.Structure2 Proofs.CustomsCfg Proofs.Names Proofs.ModFix.
Local Open Scope nat_scope.

(* ================================================================== A. payloads *)
Definition name_payload (w : list wsec) : list (option wnames) :=
  flat_map (fun s => match s with S_Custom (CS_Name n) => [n] | _ => [] end) w.
Definition prod_payload (w : list wsec) : list (option wproducers) :=
  flat_map (fun s => match s with S_Custom (CS_Producers p) => [p] | _ => [] end) w.
Definition debug_payload (w : list wsec) : list (str * list N) :=
  flat_map (fun s => match s with S_Custom (CS_Debug n d) => [(n, d)] | _ => [] end) w.
Definition mk_raw (c : str * list N) : wcsec := CS_Raw (fst c) (snd c).

Lemma name_payload_app a b : name_payload (a ++ b) = name_payload a ++ name_payload b.
Proof. apply flat_map_app. Qed.
Lemma prod_payload_app a b : prod_payload (a ++ b) = prod_payload a ++ prod_payload b.
Proof. apply flat_map_app. Qed.
Lemma debug_payload_app a b : debug_payload (a ++ b) = debug_payload a ++ debug_payload b.
Proof. apply flat_map_app. Qed.
Lemma customs_app a b : flat_map ModFix.customs_of (a ++ b) = flat_map ModFix.customs_of a ++ flat_map ModFix.customs_of b.
Proof. apply flat_map_app. Qed.

Lemma plain_flat {B} (f : wsec -> list B) l :
  (forall s, is_custom s = false -> f s = []) -> plain_secs l -> flat_map f l = [].
Proof.
  intros Hf. induction 1 as [|s l Hs _ IH]; [reflexivity|]. cbn [flat_map]. rewrite IH, (Hf _ Hs). reflexivity.
Qed.
Lemma plain_customs l : plain_secs l -> flat_map ModFix.customs_of l = [].
Proof. apply plain_flat. intros []; try discriminate; reflexivity. Qed.
Lemma plain_name l : plain_secs l -> name_payload l = [].
Proof. apply plain_flat. intros []; try discriminate; reflexivity. Qed.
Lemma plain_prod l : plain_secs l -> prod_payload l = [].
Proof. apply plain_flat. intros []; try discriminate; reflexivity. Qed.
Lemma plain_debug l : plain_secs l -> debug_payload l = [].
Proof. apply plain_flat. intros []; try discriminate; reflexivity. Qed.
Lemma plain_prod_cat l : plain_secs l -> prod_cat l = [].
Proof. apply plain_flat. intros []; try discriminate; reflexivity. Qed.

(* the raw custom sections written by emit *)
Lemma sec_customs_payloads cs :
  flat_map ModFix.customs_of (CustomsCfg.sec_customs cs) = map mk_raw (CustomsCfg.raw_customs (CustomsCfg.sec_customs cs)) /\
  name_payload (CustomsCfg.sec_customs cs) = [] /\ prod_payload (CustomsCfg.sec_customs cs) = [] /\
  debug_payload (CustomsCfg.sec_customs cs) = [] /\ prod_cat (CustomsCfg.sec_customs cs) = [].
Proof.
  induction cs as [|[c|] cs IH]; [repeat split; reflexivity| |exact IH].
  destruct IH as (I1 & I2 & I3 & I4 & I5).
  unfold CustomsCfg.sec_customs in *. cbn [flat_map].
  rewrite customs_app, name_payload_app, prod_payload_app, debug_payload_app, prod_cat_app, raw_customs_app, map_app.
  rewrite I1, I2, I3, I4, I5.
  destruct (starts_with_debug (cu_name c)); repeat split; reflexivity.
Qed.

Lemma sec_producers_payloads cf p :
  flat_map ModFix.customs_of (CustomsCfg.sec_producers cf p) = map CS_Producers (prod_payload (CustomsCfg.sec_producers cf p)) /\
  name_payload (CustomsCfg.sec_producers cf p) = [] /\ debug_payload (CustomsCfg.sec_producers cf p) = [] /\
  prod_payload (CustomsCfg.sec_producers cf p) = (if cf_skip_producers cf then [] else match p with [] => [] | _ => [Some p] end) /\
  prod_cat (CustomsCfg.sec_producers cf p) = (if cf_skip_producers cf then [] else p).
Proof.
  unfold CustomsCfg.sec_producers. destruct (cf_skip_producers cf); [repeat split; reflexivity|].
  destruct p as [|a p]; repeat split; try reflexivity.
  unfold prod_cat. cbn [flat_map]. rewrite app_nil_r. reflexivity.
Qed.

Lemma sec_names_payloads cf m0 x efs l : CustomsCfg.sec_names cf m0 x efs = Ok l ->
  flat_map ModFix.customs_of l = map CS_Name (name_payload l) /\
  prod_payload l = [] /\ debug_payload l = [] /\ prod_cat l = [] /\
  (name_payload l = [] \/ exists n, name_payload l = [Some n]) /\
  (cf_skip_name cf = true -> name_payload l = []).
Proof.
  intros H. assert (S : cf_skip_name cf = true -> l = []).
  { unfold CustomsCfg.sec_names in H. intros Hs. rewrite Hs in H. injection H as <-. reflexivity. }
  destruct (sec_names_shape _ _ _ _ _ H) as [->|[n ->]].
  - repeat split; try reflexivity. left; reflexivity.
  - repeat split; try reflexivity; [right; exists n; reflexivity|]. intros Hs. discriminate (S Hs).
Qed.

(* ================================================================== B. the shape of an emitted stream (dw = []) *)
Lemma emitM_shape m ilen e : emitM m ilen [] = Ok e ->
  exists front x efs nm,
    plain_secs front /\ CustomsCfg.sec_names (m_config m) m x efs = Ok nm /\
    em_secs e = front ++ nm ++ CustomsCfg.sec_producers (m_config m) (m_producers m) ++ CustomsCfg.sec_customs (m_customs m).
Proof.
  intros H. destruct (emitM_split _ _ _ _ H) as (front & x & efs & nm & Ef & En & ->).
  exists front, x, efs, nm. split; [exact (emit_front_plain _ _ _ _ _ Ef)|]. split; [exact En|].
  cbn [em_secs]. unfold sec_dwarf. destruct (cf_generate_dwarf _); reflexivity.
Qed.

(* everything about the custom payloads of one emitted stream *)
Lemma emitM_payloads m ilen e : emitM m ilen [] = Ok e ->
  flat_map ModFix.customs_of (em_secs e)
    = map CS_Name (name_payload (em_secs e)) ++ map CS_Producers (prod_payload (em_secs e)) ++ map mk_raw (CustomsCfg.raw_customs (em_secs e)) /\
  debug_payload (em_secs e) = [] /\
  (name_payload (em_secs e) = [] \/ exists n, name_payload (em_secs e) = [Some n]) /\
  (cf_skip_name (m_config m) = true -> name_payload (em_secs e) = []) /\
  prod_payload (em_secs e) = (if cf_skip_producers (m_config m) then [] else match m_producers m with [] => [] | p => [Some p] end) /\
  prod_cat (em_secs e) = (if cf_skip_producers (m_config m) then [] else m_producers m).
Proof.
  intros H. destruct (emitM_shape _ _ _ H) as (front & x & efs & nm & Pf & En & ->).
  pose proof (sec_names_raw _ _ _ _ _ En) as Rn.
  apply sec_names_payloads in En. destruct En as (N1 & N2 & N3 & N4 & N5 & N6).
  destruct (sec_producers_payloads (m_config m) (m_producers m)) as (P1 & P2 & P3 & P4 & P5).
  destruct (sec_customs_payloads (m_customs m)) as (C1 & C2 & C3 & C4 & C5).
  rewrite !customs_app, !name_payload_app, !prod_payload_app, !debug_payload_app, !prod_cat_app, !raw_customs_app.
  rewrite (plain_customs _ Pf), (plain_name _ Pf), (plain_prod _ Pf), (plain_debug _ Pf), (plain_prod_cat _ Pf), (plain_raw _ Pf).
  rewrite N1, N2, N3, N4, P1, P2, P3, P5, C1, C2, C3, C4, C5, Rn, sec_producers_raw.
  cbn [app]. rewrite !app_nil_r.
  repeat split; try assumption.
  destruct (m_producers m); exact P4.
Qed.

(* ================================================================== C. parse side *)
(* m_producers of a parsed module: the concatenated producers sections, with the walrus entry added/replaced *)
Theorem parseM_producers : forall cf ver w s, parseM cf ver w = POk s ->
  m_producers (ps_m s) = producers_field (prod_cat w) s_processed_by s_walrus ver.
Proof. intros cf ver w s H. apply parseM_custom_fields in H. injection H as H _. exact H. Qed.

(* ================================================================== D. the theorems *)
(* C1: decomposition of the custom payload of an emitted stream: name ; producers ; raw customs, no .debug section,
   at most one name section and at most one producers section, both parsable ([Some]) *)
Theorem emit_customs_payload : forall m ilen e, emitM m ilen [] = Ok e ->
  flat_map ModFix.customs_of (em_secs e)
    = map CS_Name (name_payload (em_secs e)) ++ map CS_Producers (prod_payload (em_secs e)) ++
      map (fun c => CS_Raw (fst c) (snd c)) (CustomsCfg.raw_customs (em_secs e)) /\
  debug_payload (em_secs e) = [] /\
  (name_payload (em_secs e) = [] \/ exists n, name_payload (em_secs e) = [Some n]) /\
  (prod_payload (em_secs e) = [] \/ exists p, prod_payload (em_secs e) = [Some p]).
Proof.
  intros m ilen e H. destruct (emitM_payloads _ _ _ H) as (H1 & H2 & H3 & _ & H5 & _).
  split; [exact H1|]. split; [exact H2|]. split; [exact H3|].
  rewrite H5. destruct (cf_skip_producers _); [left; reflexivity|].
  destruct (m_producers m) as [|a p]; [left; reflexivity|right; eexists; reflexivity].
Qed.

(* the emitted raw customs never start with ".debug": they are a fixpoint of the emit-time filter *)
Lemma filter_idem {A} (f : A -> bool) l : filter f (filter f l) = filter f l.
Proof.
  induction l as [|a l IH]; [reflexivity|]. cbn [filter]. destruct (f a) eqn:E; [|exact IH].
  cbn [filter]. rewrite E, IH. reflexivity.
Qed.

(* C2 *)
Theorem fix_raw : forall cf ver w ilen s1 e1 s2 e2, two_trips cf ver w ilen s1 e1 s2 e2 ->
  CustomsCfg.raw_customs (em_secs e2) = CustomsCfg.raw_customs (em_secs e1).
Proof.
  intros cf ver w ilen s1 e1 s2 e2 (P1 & E1 & P2 & E2).
  rewrite (c12_roundtrip _ _ _ _ _ _ _ P2 E2 eq_refl).
  rewrite (c12_roundtrip _ _ _ _ _ _ _ P1 E1 eq_refl).
  apply filter_idem.
Qed.

(* the producers field of the second parse = the one of the first parse *)
Lemma fix_m_producers : forall cf ver w ilen s1 e1 s2 e2, two_trips cf ver w ilen s1 e1 s2 e2 ->
  cf_skip_producers cf = false -> m_producers (ps_m s2) = m_producers (ps_m s1).
Proof.
  intros cf ver w ilen s1 e1 s2 e2 (P1 & E1 & P2 & E2) Hs.
  rewrite (parseM_producers _ _ _ _ P2).
  destruct (emitM_payloads _ _ _ E1) as (_ & _ & _ & _ & _ & H6).
  rewrite H6, (parseM_config _ _ _ _ P1), Hs.
  rewrite (parseM_producers _ _ _ _ P1). apply producers_idempotent.
Qed.

(* C3 *)
Theorem fix_producers : forall cf ver w ilen s1 e1 s2 e2, two_trips cf ver w ilen s1 e1 s2 e2 ->
  prod_payload (em_secs e2) = prod_payload (em_secs e1).
Proof.
  intros cf ver w ilen s1 e1 s2 e2 T. pose proof T as (P1 & E1 & P2 & E2).
  destruct (emitM_payloads _ _ _ E1) as (_ & _ & _ & _ & H1 & _).
  destruct (emitM_payloads _ _ _ E2) as (_ & _ & _ & _ & H2 & _).
  rewrite H1, H2, (parseM_config _ _ _ _ P1), (parseM_config _ _ _ _ P2).
  destruct (cf_skip_producers cf) eqn:Hs; [reflexivity|].
  rewrite (fix_m_producers _ _ _ _ _ _ _ _ T Hs). reflexivity.
Qed.

(* C4 *)
Theorem fix_customs : forall cf ver w ilen s1 e1 s2 e2, two_trips cf ver w ilen s1 e1 s2 e2 ->
  name_payload (em_secs e2) = name_payload (em_secs e1) ->
  flat_map ModFix.customs_of (em_secs e2) = flat_map ModFix.customs_of (em_secs e1).
Proof.
  intros cf ver w ilen s1 e1 s2 e2 T Hn. pose proof T as (P1 & E1 & P2 & E2).
  destruct (emit_customs_payload _ _ _ E1) as (H1 & _).
  destruct (emit_customs_payload _ _ _ E2) as (H2 & _).
  rewrite H1, H2, Hn, (fix_producers _ _ _ _ _ _ _ _ T), (fix_raw _ _ _ _ _ _ _ _ T). reflexivity.
Qed.

(* C5 *)
Theorem skip_name_case : forall cf ver w ilen s1 e1 s2 e2, two_trips cf ver w ilen s1 e1 s2 e2 ->
  cf_skip_name cf = true -> name_payload (em_secs e2) = name_payload (em_secs e1).
Proof.
  intros cf ver w ilen s1 e1 s2 e2 (P1 & E1 & P2 & E2) Hs.
  destruct (emitM_payloads _ _ _ E1) as (_ & _ & _ & H1 & _).
  destruct (emitM_payloads _ _ _ E2) as (_ & _ & _ & H2 & _).
  rewrite (parseM_config _ _ _ _ P1) in H1. rewrite (parseM_config _ _ _ _ P2) in H2.
  rewrite (H1 Hs), (H2 Hs). reflexivity.
Qed.

(* corollaries: with names skipped the whole custom part is a fixpoint; the payload of any emitted stream
   contains no CS_Debug and is laid out name ; producers ; raw *)
Corollary fix_customs_skip_name : forall cf ver w ilen s1 e1 s2 e2, two_trips cf ver w ilen s1 e1 s2 e2 ->
  cf_skip_name cf = true ->
  flat_map ModFix.customs_of (em_secs e2) = flat_map ModFix.customs_of (em_secs e1).
Proof.
  intros cf ver w ilen s1 e1 s2 e2 T Hs. apply (fix_customs _ _ _ _ _ _ _ _ T).
  apply (skip_name_case _ _ _ _ _ _ _ _ T Hs).
Qed.

Print Assumptions emit_customs_payload.
Print Assumptions parseM_producers.
Print Assumptions fix_raw.
Print Assumptions fix_producers.
Print Assumptions fix_customs.
Print Assumptions skip_name_case.
Print Assumptions fix_customs_skip_name.
