(* The line-program row loop (Proofs/LineProg.v) instantiated with the real address converter of
   Model/Dwarf.v and composed with the classification theorems of Proofs/Dwarf.v. *)
From Coq Require Import List NArith Bool Lia.
Import ListNotations.
From WV Require Import Model.Dwarf Model.LineProg Proofs.Dwarf Proofs.LineProg.
Local Open Scope N_scope.

(* the InstrLocId of the instruction that starts at input address [a] *)
Definition loc_of (t : dtables) (a : N) : option N :=
  option_map snd (find (fun p => fst p =? a) (dt_instrs t)).

(* under tables_wf the instruction addresses are strictly increasing, hence keys are unique *)
Lemma loc_of_in : forall t a loc, tables_wf t -> In (a, loc) (dt_instrs t) -> loc_of t a = Some loc.
Proof.
  intros t a loc Hwf Hin. unfold loc_of. rewrite (find_key_sorted t Hwf a loc Hin). reflexivity.
Qed.

Lemma flat_map_ext_in : forall {A B} (f g : A -> list B) (l : list A),
  (forall x, In x l -> f x = g x) -> flat_map f l = flat_map g l.
Proof.
  intros A B f g l H. rewrite !flat_map_concat_map, (map_ext_in f g l H). reflexivity.
Qed.

Theorem line_rows_end_to_end : forall t c seqs s' evs,
  tables_wf t -> wf seqs ->
  (forall p a ln, In p seqs -> In (LRow a false ln) (snd p) ->
                  exists loc, In (a + fst p, loc) (dt_instrs t)) ->
  lrun (convert_address t c) lst0 (prog_of seqs) = Some (s', evs) ->
  filter (fun r => negb (snd r)) (rows_of 0 evs)
  = flat_map (fun p => flat_map (fun i =>
      match i with
      | LRow a false ln =>
          match loc_of t (a + fst p) with
          | Some loc => match lookup loc (ct_imap c) with
                        | Some x => [(x - ct_start c, ln, false)]
                        | None => []
                        end
          | None => []
          end
      | _ => []
      end) (snd p)) seqs.
Proof.
  intros t c seqs s' evs Hwf Hseqs Hrows H.
  rewrite (lrun_rows_exact (convert_address t c) seqs s' evs Hseqs H).
  apply flat_map_ext_in. intros p Hp.
  apply flat_map_ext_in. intros i Hi.
  destruct i as [v|a [|] ln]; try reflexivity.
  destruct (Hrows p a ln Hp Hi) as [loc Hloc].
  rewrite (loc_of_in t _ loc Hwf Hloc), (convert_instr t Hwf c _ loc true Hloc).
  destruct (lookup loc (ct_imap c)) as [x|]; reflexivity.
Qed.

(* no table hypothesis at all: the conversion of a well-formed line program never fails, every output
   sequence is closed, and none of gimli's writer assertions fires *)
Theorem line_program_total_end_to_end : forall t c seqs,
  wf seqs ->
  exists s' evs, lrun (convert_address t c) lst0 (prog_of seqs) = Some (s', evs) /\
                 l_in s' = false /\ writer_ok false 0 evs = true.
Proof.
  intros t c seqs Hseqs.
  destruct (lrun_wf_total (convert_address t c) seqs Hseqs) as (s' & evs & H & Hin).
  exists s', evs. split; [exact H|split; [exact Hin|]].
  exact (proj1 (lrun_writer_ok0 _ _ _ _ H)).
Qed.

Print Assumptions line_rows_end_to_end.
Print Assumptions line_program_total_end_to_end.
