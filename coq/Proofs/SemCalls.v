(* C01, calls: a module-level big-step semantics with direct calls, function references, call_ref and call_indirect, and the
   theorem that a consistent renumbering of the function index space (what the emission does when it reorders functions)
   preserves behaviour.  Stdlib only; the evaluator is executable. *)
(* Modelling: the control part is a simplified cousin of [eval] of Model/Sem.v (operand stack shared between caller and callee,
   no unwinding at labels), because the renaming argument only cares where function indices live - in instructions ([ICall f],
   [IRefFunc f]), in the state (stack, table, globals), in the module (the index space, the export table).  Every other
   operator is an [IOther o] whose semantics [step_op] is a Section variable, asked only to commute with the renaming of the
   references stored in the state ([step_op_rename]); this is discharged for a concrete operator set that moves function
   references around ([cstep_rename]). *)
From Coq Require Import List NArith Bool String Lia.
Import ListNotations.
Local Open Scope N_scope.

Inductive value := VNum (n : N) | VFuncRef (f : N).
Record state := mkState { stack : list value; table : list (option N); globals : list value }.
Definition set_stack (s : list value) (st : state) : state := mkState s (table st) (globals st).

Definition is_num (v : value) : bool := match v with VNum _ => true | VFuncRef _ => false end.
Definition numeric (vs : list value) : Prop := forallb is_num vs = true.

Lemma nth_error_map' {A B} (g : A -> B) (l : list A) (n : nat) :
  nth_error (map g l) n = option_map g (nth_error l n).
Proof. revert n; induction l as [|a l IH]; intros [|n]; cbn; auto. Qed.

Section SemCalls.
  Variable op : Type.                                  (* the operators that do not mention function indices *)
  Variable step_op : op -> state -> option state.      (* [None] = trap *)

  Inductive instr :=
  | ICall (f : N)
  | IRefFunc (f : N)
  | ICallRef                      (* pops a function reference, calls it *)
  | ICallIndirect                 (* pops a table index, calls the reference stored there *)
  | IOther (o : op)
  | IBlock (b : list instr)
  | ILoop (b : list instr)
  | IIf (t e : list instr)
  | IBr (l : nat)
  | IBrIf (l : nat)
  | IReturn.
  Definition body := list instr.

  Record module := mkModule { funcs : N -> option body; exports : string -> option N }.

  Inductive res := RNormal (st : state) | RBr (l : nat) (st : state) | RReturn (st : state) | RTrap | ROOF.
  Inductive outcome := Done (st : state) | Trap | OutOfFuel.

  (* leaving a function body: falling off the end, `return`, or a branch to the function label *)
  Definition fn_exit (r : res) : outcome :=
    match r with
    | RNormal s | RReturn s | RBr O s => Done s
    | RBr (S _) _ => Trap
    | RTrap => Trap
    | ROOF => OutOfFuel
    end.

  (* a call, given the evaluator [ex] to use for the callee and for the rest of the caller *)
  Definition do_call (ex : body -> state -> res) (M : module) (f : N) (rest : body) (st : state) : res :=
    match funcs M f with
    | None => RTrap
    | Some fb =>
        match fn_exit (ex fb st) with
        | Done s => ex rest s
        | Trap => RTrap
        | OutOfFuel => ROOF
        end
    end.

  Fixpoint exec (fuel : nat) (M : module) (b : body) (st : state) {struct fuel} : res :=
    match fuel with
    | O => ROOF
    | S k =>
      match b with
      | [] => RNormal st
      | i :: rest =>
        match i with
        | IOther o => match step_op o st with Some st1 => exec k M rest st1 | None => RTrap end
        | ICall f => do_call (exec k M) M f rest st
        | IRefFunc f => exec k M rest (set_stack (VFuncRef f :: stack st) st)
        | ICallRef =>
            match stack st with
            | VFuncRef f :: s => do_call (exec k M) M f rest (set_stack s st)
            | _ => RTrap
            end
        | ICallIndirect =>
            match stack st with
            | VNum ix :: s =>
                match nth_error (table st) (N.to_nat ix) with
                | Some (Some f) => do_call (exec k M) M f rest (set_stack s st)
                | _ => RTrap
                end
            | _ => RTrap
            end
        | IBlock b1 =>
            match exec k M b1 st with
            | RNormal s1 | RBr O s1 => exec k M rest s1
            | RBr (S l) s1 => RBr l s1
            | r => r
            end
        | ILoop b1 =>
            match exec k M b1 st with
            | RNormal s1 => exec k M rest s1
            | RBr O s1 => exec k M (ILoop b1 :: rest) s1
            | RBr (S l) s1 => RBr l s1
            | r => r
            end
        | IIf t e =>
            match stack st with
            | VNum c :: s => exec k M (IBlock (if c =? 0 then e else t) :: rest) (set_stack s st)
            | _ => RTrap
            end
        | IBr l => RBr l st
        | IBrIf l =>
            match stack st with
            | VNum c :: s => if c =? 0 then exec k M rest (set_stack s st) else RBr l (set_stack s st)
            | _ => RTrap
            end
        | IReturn => RReturn st
        end
      end
    end.

  (* running function [f]: its body gets the whole fuel; [ICall g] inside runs [g] with one less *)
  Definition run (fuel : nat) (M : module) (f : N) (st : state) : outcome :=
    match funcs M f with
    | None => Trap
    | Some b => fn_exit (exec fuel M b st)
    end.

  Definition run_export (fuel : nat) (M : module) (n : string) (st : state) : outcome :=
    match exports M n with
    | None => Trap
    | Some f => run fuel M f st
    end.

  Definition results (o : outcome) : option (list value) :=
    match o with Done s => Some (stack s) | _ => None end.

  Section Rename.
    Variables rho rho_inv : N -> N.

    Definition rename_value (v : value) : value :=
      match v with VNum n => VNum n | VFuncRef f => VFuncRef (rho f) end.
    Definition rename_state (st : state) : state :=
      mkState (map rename_value (stack st)) (map (option_map rho) (table st)) (map rename_value (globals st)).
    Fixpoint rename_instr (i : instr) : instr :=
      match i with
      | ICall f => ICall (rho f)
      | IRefFunc f => IRefFunc (rho f)
      | IBlock b => IBlock (map rename_instr b)
      | ILoop b => ILoop (map rename_instr b)
      | IIf t e => IIf (map rename_instr t) (map rename_instr e)
      | i => i
      end.
    Definition rename_body (b : body) : body := map rename_instr b.
    (* function index [rho f] of the renamed module holds the renamed body of [f] *)
    Definition rename_module (M : module) : module :=
      mkModule (fun g => option_map rename_body (funcs M (rho_inv g)))
               (fun n => option_map rho (exports M n)).
    Definition rename_res (r : res) : res :=
      match r with
      | RNormal s => RNormal (rename_state s)
      | RBr l s => RBr l (rename_state s)
      | RReturn s => RReturn (rename_state s)
      | RTrap => RTrap
      | ROOF => ROOF
      end.
    Definition rename_outcome (o : outcome) : outcome :=
      match o with Done s => Done (rename_state s) | Trap => Trap | OutOfFuel => OutOfFuel end.

    (* the only thing needed of [rho]: [rho_inv] is a left inverse (i.e. [rho] is injective, with a
       computable inverse).  Surjectivity is NOT needed. *)
    Hypothesis rho_left_inv : forall f, rho_inv (rho f) = f.
    (* the per-operator interface *)
    Hypothesis step_op_rename :
      forall o st, step_op o (rename_state st) = option_map rename_state (step_op o st).

    Lemma rename_set_stack s st :
      rename_state (set_stack s st) = set_stack (map rename_value s) (rename_state st).
    Proof. reflexivity. Qed.

    Lemma rename_module_lookup M f :
      funcs (rename_module M) (rho f) = option_map rename_body (funcs M f).
    Proof. cbn [funcs rename_module]. now rewrite rho_left_inv. Qed.

    Lemma fn_exit_rename r : fn_exit (rename_res r) = rename_outcome (fn_exit r).
    Proof. destruct r as [s|[|l] s|s| |]; reflexivity. Qed.

    Lemma do_call_rename (ex ex' : body -> state -> res) M
          (Hex : forall b st, ex' (rename_body b) (rename_state st) = rename_res (ex b st)) f rest st :
      do_call ex' (rename_module M) (rho f) (rename_body rest) (rename_state st)
      = rename_res (do_call ex M f rest st).
    Proof.
      unfold do_call. rewrite rename_module_lookup.
      destruct (funcs M f) as [fb|]; cbn [option_map]; [|reflexivity].
      rewrite Hex, fn_exit_rename.
      destruct (fn_exit (ex fb st)) as [s| |]; cbn [rename_outcome]; [apply Hex|reflexivity|reflexivity].
    Qed.

    Lemma exec_rename M : forall fuel b st,
      exec fuel (rename_module M) (rename_body b) (rename_state st) = rename_res (exec fuel M b st).
    Proof.
      induction fuel as [|k IH]; intros b st; [reflexivity|].
      destruct b as [|i rest]; [reflexivity|].
      destruct i as [f|f| | |o|b1|b1|t e|l|l| ].
      - (* call *) exact (do_call_rename (exec k M) (exec k (rename_module M)) M (IH) f rest st).
      - (* ref.func *) cbn [rename_body map rename_instr exec].
        change (map rename_instr rest) with (rename_body rest).
        rewrite <- IH. reflexivity.
      - (* call_ref *) cbn [rename_body map rename_instr exec].
        change (stack (rename_state st)) with (map rename_value (stack st)).
        destruct (stack st) as [|[n|g] s]; cbn [map rename_value]; try reflexivity.
        rewrite <- rename_set_stack.
        exact (do_call_rename (exec k M) (exec k (rename_module M)) M (IH) g rest _).
      - (* call_indirect *) cbn [rename_body map rename_instr exec].
        change (stack (rename_state st)) with (map rename_value (stack st)).
        destruct (stack st) as [|[n|g] s]; cbn [map rename_value]; try reflexivity.
        change (table (rename_state st)) with (map (option_map rho) (table st)).
        rewrite nth_error_map'.
        destruct (nth_error (table st) (N.to_nat n)) as [[g|]|]; cbn [option_map]; try reflexivity.
        rewrite <- rename_set_stack.
        exact (do_call_rename (exec k M) (exec k (rename_module M)) M (IH) g rest _).
      - (* other *) cbn [rename_body map rename_instr exec].
        rewrite step_op_rename.
        destruct (step_op o st) as [st1|]; cbn [option_map]; [|reflexivity].
        apply IH.
      - (* block *) cbn [rename_body map rename_instr exec].
        change (map rename_instr b1) with (rename_body b1).
        change (map rename_instr rest) with (rename_body rest).
        rewrite IH.
        destruct (exec k M b1 st) as [s1|[|l] s1|s1| |]; cbn [rename_res]; try reflexivity; apply IH.
      - (* loop *) cbn [rename_body map rename_instr exec].
        change (map rename_instr b1) with (rename_body b1).
        change (map rename_instr rest) with (rename_body rest).
        rewrite IH.
        destruct (exec k M b1 st) as [s1|[|l] s1|s1| |]; cbn [rename_res]; try reflexivity; [apply IH|].
        exact (IH (ILoop b1 :: rest) s1).
      - (* if *) cbn [rename_body map rename_instr exec].
        change (stack (rename_state st)) with (map rename_value (stack st)).
        destruct (stack st) as [|[c|g] s]; cbn [map rename_value]; try reflexivity.
        rewrite <- rename_set_stack.
        rewrite <- (IH (IBlock (if c =? 0 then e else t) :: rest)).
        destruct (c =? 0); reflexivity.
      - (* br *) reflexivity.
      - (* br_if *) cbn [rename_body map rename_instr exec].
        change (stack (rename_state st)) with (map rename_value (stack st)).
        destruct (stack st) as [|[c|g] s]; cbn [map rename_value]; try reflexivity.
        rewrite <- rename_set_stack.
        destruct (c =? 0); [apply IH|reflexivity].
      - (* return *) reflexivity.
    Qed.

    Theorem rename_preserves_behaviour : forall fuel M f st,
      run fuel (rename_module M) (rho f) (rename_state st) = rename_outcome (run fuel M f st).
    Proof.
      intros fuel M f st. unfold run. rewrite rename_module_lookup.
      destruct (funcs M f) as [b|]; cbn [option_map]; [|reflexivity].
      now rewrite exec_rename, fn_exit_rename.
    Qed.

    Theorem export_call_same_behaviour : forall fuel M n st,
      run_export fuel (rename_module M) n (rename_state st) = rename_outcome (run_export fuel M n st).
    Proof.
      intros fuel M n st. unfold run_export. cbn [exports rename_module].
      destruct (exports M n) as [f|]; cbn [option_map]; [|reflexivity].
      apply rename_preserves_behaviour.
    Qed.

    Lemma numeric_rename vs : numeric vs -> map rename_value vs = vs.
    Proof.
      unfold numeric. induction vs as [|[n|f] vs IH]; cbn; intro H; [reflexivity| |discriminate].
      now rewrite IH.
    Qed.

    Lemma results_rename_numeric o vs : results o = Some vs -> numeric vs -> results (rename_outcome o) = Some vs.
    Proof. destruct o as [s| |]; cbn; try discriminate. intros H Hn. injection H as <-. now rewrite numeric_rename. Qed.

    Theorem numeric_results_identical : forall fuel M f st vs,
      results (run fuel M f st) = Some vs -> numeric vs ->
      results (run fuel (rename_module M) (rho f) (rename_state st)) = Some vs.
    Proof. intros fuel M f st vs. rewrite rename_preserves_behaviour. apply results_rename_numeric. Qed.

    Theorem numeric_results_identical_export : forall fuel M n st vs,
      results (run_export fuel M n st) = Some vs -> numeric vs ->
      results (run_export fuel (rename_module M) n (rename_state st)) = Some vs.
    Proof. intros fuel M n st vs. rewrite export_call_same_behaviour. apply results_rename_numeric. Qed.

    Corollary trap_preserved fuel M f st :
      run fuel M f st = Trap <-> run fuel (rename_module M) (rho f) (rename_state st) = Trap.
    Proof.
      rewrite rename_preserves_behaviour. destruct (run fuel M f st); cbn; split; congruence.
    Qed.
    Corollary out_of_fuel_preserved fuel M f st :
      run fuel M f st = OutOfFuel <-> run fuel (rename_module M) (rho f) (rename_state st) = OutOfFuel.
    Proof.
      rewrite rename_preserves_behaviour. destruct (run fuel M f st); cbn; split; congruence.
    Qed.
  End Rename.

  (* The reading "rho / rho_inv with the inverse laws on the DOMAIN": a map of the defined indices
     [0, n) into themselves with a left inverse there, extended by the identity outside. *)
  Section Perm.
    Variable n : N.
    Variables rho rho_inv : N -> N.
    Hypothesis rho_dom : forall f, f < n -> rho f < n.
    Hypothesis rho_inv_dom : forall f, f < n -> rho_inv (rho f) = f.
    Definition ext (r : N -> N) (f : N) : N := if f <? n then r f else f.

    Lemma ext_left_inv f : ext rho_inv (ext rho f) = f.
    Proof.
      unfold ext. destruct (N.ltb_spec f n) as [Hlt|Hge].
      - pose proof (rho_dom f Hlt) as Hd. apply N.ltb_lt in Hd. rewrite Hd. now apply rho_inv_dom.
      - destruct (N.ltb_spec f n); [lia|reflexivity].
    Qed.

    Hypothesis step_op_rename_ext :
      forall o st, step_op o (rename_state (ext rho) st) = option_map (rename_state (ext rho)) (step_op o st).

    Theorem rename_preserves_behaviour_perm : forall fuel M f st,
      run fuel (rename_module (ext rho) (ext rho_inv) M) (ext rho f) (rename_state (ext rho) st)
      = rename_outcome (ext rho) (run fuel M f st).
    Proof. apply rename_preserves_behaviour; [exact ext_left_inv|exact step_op_rename_ext]. Qed.
  End Perm.
End SemCalls.

Arguments ICall {op}. Arguments IRefFunc {op}. Arguments ICallRef {op}. Arguments ICallIndirect {op}.
Arguments IOther {op}. Arguments IBlock {op}. Arguments ILoop {op}. Arguments IIf {op}.
Arguments IBr {op}. Arguments IBrIf {op}. Arguments IReturn {op}.

(* operators that create numbers, and that MOVE function references (without looking at them) *)
Inductive cop := OConst (n : N) | OAdd | ODrop | ODup | OTableSet | OTableGet | OGlobalSet0 | OIsNum.

Fixpoint upd {A} (l : list A) (n : nat) (x : A) : option (list A) :=
  match l, n with
  | [], _ => None
  | _ :: l', O => Some (x :: l')
  | a :: l', S n' => option_map (cons a) (upd l' n' x)
  end.

Lemma upd_map {A B} (g : A -> B) (l : list A) (n : nat) (x : A) :
  upd (map g l) n (g x) = option_map (map g) (upd l n x).
Proof.
  revert n; induction l as [|a l IH]; intros [|n]; cbn; auto.
  rewrite IH. destruct (upd l n x); reflexivity.
Qed.

Definition cstep (o : cop) (st : state) : option state :=
  match o with
  | OConst n => Some (set_stack (VNum n :: stack st) st)
  | OAdd => match stack st with
            | VNum a :: VNum b :: s => Some (set_stack (VNum (a + b) :: s) st)
            | _ => None end
  | ODrop => match stack st with _ :: s => Some (set_stack s st) | _ => None end
  | ODup => match stack st with v :: s => Some (set_stack (v :: v :: s) st) | _ => None end
  | OTableSet => match stack st with
                 | VFuncRef f :: VNum ix :: s =>
                     match upd (table st) (N.to_nat ix) (Some f) with
                     | Some t' => Some (mkState s t' (globals st))
                     | None => None
                     end
                 | _ => None end
  | OTableGet => match stack st with
                 | VNum ix :: s =>
                     match nth_error (table st) (N.to_nat ix) with
                     | Some (Some f) => Some (set_stack (VFuncRef f :: s) st)
                     | _ => None
                     end
                 | _ => None end
  | OGlobalSet0 => match stack st, globals st with
                   | v :: s, _ :: gs => Some (mkState s (table st) (v :: gs))
                   | _, _ => None end
  | OIsNum => match stack st with   (* ref.is_null-like: inspects the KIND of a value, not the index *)
              | v :: s => Some (set_stack (VNum (if is_num v then 1 else 0) :: s) st)
              | _ => None end
  end.

(* the interface hypothesis holds for these operators, for EVERY renaming (not even injective) *)
Lemma cstep_rename (rho : N -> N) : forall o st,
  cstep o (rename_state rho st) = option_map (rename_state rho) (cstep o st).
Proof.
  intros o [s t g]; destruct o; cbn [cstep rename_state stack table globals].
  - reflexivity.
  - destruct s as [|[a|a] [|[b|b] s]]; reflexivity.
  - destruct s as [|v s]; reflexivity.
  - destruct s as [|v s]; reflexivity.
  - destruct s as [|[a|f] [|[ix|b] s]]; try reflexivity. cbn [map rename_value].
    change (Some (rho f)) with (option_map rho (Some f)). rewrite upd_map.
    destruct (upd t (N.to_nat ix) (Some f)); reflexivity.
  - destruct s as [|[ix|f] s]; try reflexivity. cbn [map rename_value].
    rewrite nth_error_map'. destruct (nth_error t (N.to_nat ix)) as [[f|]|]; reflexivity.
  - destruct s as [|v s]; [reflexivity|]. destruct g as [|g0 gs]; reflexivity.
  - destruct s as [|[a|f] s]; reflexivity.
Qed.

(* the theorem, instantiated: no interface hypothesis left *)
Theorem rename_preserves_behaviour_cop (rho rho_inv : N -> N) :
  (forall f, rho_inv (rho f) = f) ->
  forall fuel (M : module cop) f st,
    run cop cstep fuel (rename_module cop rho rho_inv M) (rho f) (rename_state rho st)
    = rename_outcome rho (run cop cstep fuel M f st).
Proof. intros H. apply rename_preserves_behaviour; [exact H|apply cstep_rename]. Qed.

(* An operator that LOOKS at a function index breaks the interface hypothesis: `ref.func`-as-integer *)
Definition leaky_step (_ : unit) (st : state) : option state :=
  match stack st with
  | VFuncRef f :: s => Some (set_stack (VNum f :: s) st)
  | _ => None
  end.
Theorem leaky_op_violates_interface :
  exists (rho : N -> N) st,
    leaky_step tt (rename_state rho st) <> option_map (rename_state rho) (leaky_step tt st).
Proof. exists (fun f => f + 1), (mkState [VFuncRef 0] [] []). cbn. discriminate. Qed.

Definition sigma (f : N) : N :=           (* the permutation (0 2 1): 0 -> 2, 2 -> 1, 1 -> 0 *)
  match f with 0 => 2 | 2 => 1 | 1 => 0 | f => f end.
Definition sigma_inv (f : N) : N :=
  match f with 2 => 0 | 1 => 2 | 0 => 1 | f => f end.
Lemma sigma_left_inv f : sigma_inv (sigma f) = f.
Proof. destruct f as [|[[p|p|]|[p|p|]|]]; reflexivity. Qed.
Lemma sigma_right_inv f : sigma (sigma_inv f) = f.
Proof. destruct f as [|[[p|p|]|[p|p|]|]]; reflexivity. Qed.

(* f0: installs f1 in table slot 1 (via ref.func + table.set), pushes 5, calls f2, leaves a reference to f2;
   f2: call_indirect through table slot 0 (holding f1), then a loop counting a value down, then +1;
   f1: +10, and stores a reference to itself in global 0 *)
Definition ex_f0 : body cop :=
  [IOther (OConst 1); IRefFunc 1; IOther OTableSet; IOther (OConst 5); ICall 2; IRefFunc 2].
Definition ex_f2 : body cop :=
  [IOther (OConst 0); ICallIndirect;
   IOther (OConst 3);
   ILoop [IOther (OConst 0); IOther OAdd;            (* keep the counter *)
          IOther ODup; IIf [] [IBr 2];               (* counter = 0: leave the function *)
          IOther ODrop; IOther (OConst 0); IBr 0];   (* never terminates otherwise: drop and restart with 0 *)
   IOther (OConst 99)].
Definition ex_f1 : body cop :=
  [IOther (OConst 10); IOther OAdd; IRefFunc 1; IOther OGlobalSet0].
Definition ex_M : module cop :=
  mkModule cop
    (fun f => match f with 0 => Some ex_f0 | 1 => Some ex_f1 | 2 => Some ex_f2 | _ => None end)
    (fun n => if String.eqb n "main" then Some 0 else if String.eqb n "helper" then Some 1 else None).
Definition ex_st : state := mkState [] [Some 1; None] [VNum 0].
Definition ex_M' : module cop := rename_module cop sigma sigma_inv ex_M.

Example ex_original :
  run cop cstep 50 ex_M 0 ex_st
  = Done (mkState [VFuncRef 2; VNum 0; VNum 15] [Some 1; Some 1] [VFuncRef 1]).
Proof. vm_compute. reflexivity. Qed.
Example ex_renamed :
  run cop cstep 50 ex_M' (sigma 0) (rename_state sigma ex_st)
  = Done (mkState [VFuncRef 1; VNum 0; VNum 15] [Some 0; Some 0] [VFuncRef 0]).
Proof. vm_compute. reflexivity. Qed.
Example ex_both_sides :
  run cop cstep 50 ex_M' (sigma 0) (rename_state sigma ex_st)
  = rename_outcome sigma (run cop cstep 50 ex_M 0 ex_st).
Proof. vm_compute. reflexivity. Qed.
Example ex_both_sides_export :
  run_export cop cstep 50 ex_M' "main" (rename_state sigma ex_st)
  = rename_outcome sigma (run_export cop cstep 50 ex_M "main" ex_st).
Proof. vm_compute. reflexivity. Qed.
(* the renamed module really is a different module: its function 0 is f1 of the input, etc. *)
Example ex_reordered :
  funcs cop ex_M' 0 = Some (rename_body cop sigma ex_f1) /\
  funcs cop ex_M' 1 = Some (rename_body cop sigma ex_f2) /\
  funcs cop ex_M' 2 = Some (rename_body cop sigma ex_f0) /\
  exports cop ex_M' "main" = Some 2 /\
  rename_body cop sigma ex_f0 <> ex_f0.
Proof. vm_compute. repeat split; try reflexivity. discriminate. Qed.
(* without the renaming of the call targets the reordered module behaves differently *)
Example ex_unrenamed_differs :
  run cop cstep 50 (mkModule cop (fun g => funcs cop ex_M (sigma_inv g)) (exports cop ex_M)) (sigma 0) ex_st
  <> run cop cstep 50 ex_M 0 ex_st.
Proof. vm_compute. discriminate. Qed.
Example ex_oof :
  run cop cstep 7 ex_M 0 ex_st = OutOfFuel /\
  run cop cstep 7 ex_M' (sigma 0) (rename_state sigma ex_st) = OutOfFuel.
Proof. vm_compute. split; reflexivity. Qed.
Example ex_trap :
  run cop cstep 50 ex_M 2 (mkState [] [None] []) = Trap /\
  run cop cstep 50 ex_M' (sigma 2) (rename_state sigma (mkState [] [None] [])) = Trap.
Proof. vm_compute. split; reflexivity. Qed.
Example ex_numeric :
  results (run cop cstep 50 ex_M 1 (mkState [VNum 1] [] []))
  = results (run cop cstep 50 ex_M' (sigma 1) (rename_state sigma (mkState [VNum 1] [] []))).
Proof. vm_compute. reflexivity. Qed.

(* the general theorem applies to the example: every fuel, function and state *)
Example ex_by_theorem fuel f st :
  run cop cstep fuel ex_M' (sigma f) (rename_state sigma st)
  = rename_outcome sigma (run cop cstep fuel ex_M f st).
Proof. apply rename_preserves_behaviour_cop. exact sigma_left_inv. Qed.

(* If the inverse laws are only required on the DEFINED function indices, and nothing says that
   [rho] keeps undefined indices away from defined ones, the statement fails: an undefined callee
   (trap) can be renamed onto a defined function. *)
Theorem rename_preserves_behaviour_domain_only_refuted :
  exists (rho rho_inv : N -> N) (M : module cop) (f : N) (st : state),
    (forall g, funcs cop M g <> None -> rho_inv (rho g) = g /\ rho (rho_inv g) = g) /\
    run cop cstep 5 (rename_module cop rho rho_inv M) (rho f) (rename_state rho st)
    <> rename_outcome rho (run cop cstep 5 M f st).
Proof.
  exists (fun _ => 0), (fun g => g),
    (mkModule cop (fun g => if g =? 0 then Some [IOther (OConst 7)] else None) (fun _ => None)),
    1, (mkState [] [] []).
  split.
  - intros g. cbn [funcs]. destruct (N.eqb_spec g 0) as [->|Hne]; [split; reflexivity|].
    intros H; now destruct H.
  - vm_compute. discriminate.
Qed.

Print Assumptions rename_preserves_behaviour.
Print Assumptions export_call_same_behaviour.
Print Assumptions numeric_results_identical.
Print Assumptions numeric_results_identical_export.
Print Assumptions rename_preserves_behaviour_perm.
Print Assumptions rename_preserves_behaviour_cop.
Print Assumptions cstep_rename.
Print Assumptions leaky_op_violates_interface.
Print Assumptions ex_both_sides.
Print Assumptions ex_by_theorem.
Print Assumptions rename_preserves_behaviour_domain_only_refuted.
