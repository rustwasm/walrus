(* The GC pass with its last step: gc m = gc_sweep m ;; declare_referenced_funcs.
   The declare step touches the element arena only, so every theorem about [gc_sweep] surfaced in Props/ lifts to [gc]
   (under the name <name>_full) by conversion, except the clauses about element segments; after the pass everything
   `ref.func`-ed by a kept body is declared, which the sweep alone does not give. *)
From Coq Require Import List NArith ZArith Bool Arith Lia Permutation Sorted.
Import ListNotations.
From WV Require Import Gen.Ops Model.Common Model.IR Model.Arena Model.Traversal Model.EmitFn Model.Locals
                       Model.ParseFn Model.ModuleM Model.ParseM Model.EmitM Model.GC.
From WV Require Import Proofs.Arena Proofs.Order Proofs.IndexMaps Proofs.Totality Proofs.ArenaN.
From WV Require Proofs.GC.
Local Open Scope nat_scope.

Definition decl_seg (fs : list N) : melem := {| el_kind := ELK_Declared; el_items := ELI_Funcs fs; el_name := None |}.

Lemma declare_inv m m' : declare_referenced_funcs m = Ok m' ->
  exists fs, undeclared_funcs m = Ok fs /\
    ((fs = [] /\ m' = m) \/
     (fs <> [] /\ m' = set_elements m (fst (aalloc (m_elements m) (decl_seg fs))))).
Proof.
  unfold declare_referenced_funcs. destruct (undeclared_funcs m) as [fs| |]; cbn [rmap]; intros H; try discriminate H.
  injection H as <-. exists fs. split; [reflexivity|]. destruct fs as [|f r]; [left; auto|right].
  split; [discriminate|reflexivity].
Qed.

(* so it touches the element arena only: every other field of the result is that of the input by computation *)
Lemma declare_set_elements m m' : declare_referenced_funcs m = Ok m' -> exists ea, m' = set_elements m ea.
Proof.
  intros H. destruct (declare_inv m m' H) as [fs [_ [[_ ->]|[_ ->]]]]; [exists (m_elements m); destruct m|eexists]; reflexivity.
Qed.

Theorem declare_frame m m' : declare_referenced_funcs m = Ok m' ->
  (m_imports m' = m_imports m /\ m_tables m' = m_tables m /\ m_types m' = m_types m /\ m_funcs m' = m_funcs m /\
   m_globals m' = m_globals m /\ m_locals m' = m_locals m /\ m_exports m' = m_exports m /\ m_memories m' = m_memories m /\
   m_data m' = m_data m /\ m_start m' = m_start m /\ m_producers m' = m_producers m /\ m_customs m' = m_customs m /\
   m_debug m' = m_debug m /\ m_name m' = m_name m /\ m_config m' = m_config m /\
   m_code_section_offset m' = m_code_section_offset m) /\
  exists fs, undeclared_funcs m = Ok fs /\
    ((fs = [] /\ m_elements m' = m_elements m) \/
     (fs <> [] /\ m_elements m' = fst (aalloc (m_elements m) (decl_seg fs)))).
Proof.
  intros H. destruct (declare_inv m m' H) as [fs [Hu [[-> ->]|[Hne ->]]]].
  - split; [repeat split|]. exists []. split; [exact Hu|left; auto].
  - split; [repeat split|]. exists fs. split; [exact Hu|right; auto].
Qed.

Lemma aalloc_snd {A} (a : tarena A) v : snd (aalloc a v) = anext a.
Proof. reflexivity. Qed.

(* an arena whose tombstones are all allocated ids (every arena the real code can build) *)
Definition dead_in_range {A} (a : tarena A) : Prop := Forall (fun d => d < length (items a)) (dead a).

Lemma declare_elements m m' : declare_referenced_funcs m = Ok m' ->
  (forall id e, aget (m_elements m) id = Some e -> aget (m_elements m') id = Some e) /\
  dead (m_elements m') = dead (m_elements m) /\
  exists fs, undeclared_funcs m = Ok fs /\
    forall id e, aget (m_elements m') id = Some e ->
      aget (m_elements m) id = Some e \/ (fs <> [] /\ id = anext (m_elements m) /\ e = decl_seg fs).
Proof.
  intros H. destruct (declare_inv m m' H) as [fs [Hu [[-> ->]|[Hne ->]]]].
  - split; [auto|]. split; [reflexivity|]. exists []. split; [exact Hu|]. auto.
  - wcbn. split; [intros id e; apply aget_snoc_some|]. split; [reflexivity|]. exists fs. split; [exact Hu|].
    intros id e Hg. apply aget_snoc_inv in Hg. destruct Hg as [Hg|[-> ->]]; [left; exact Hg|right; auto].
Qed.

(* in a traversal log every `ref.func f` comes with the visit of f *)
Definition rf_ok (evs : list ev) : Prop :=
  forall f loc, In (EInstr (IPlain (P_RefFunc f)) loc) evs -> In (ERef S_func f) evs.

Lemma rf_app a b : rf_ok a -> rf_ok b -> rf_ok (a ++ b).
Proof. intros Ha Hb f loc H. apply in_app_or in H. apply in_or_app. destruct H; [left; eapply Ha|right; eapply Hb]; eauto. Qed.
Lemma rf_nil : rf_ok [].
Proof. intros f loc []. Qed.

Lemma field_events_no_instr i j l : In (EInstr j l) (field_events i) -> False.
Proof.
  destruct i; cbn [field_events]; intros H; apply in_map_iff in H; destruct H as [? [? ?]]; discriminate.
Qed.

Lemma rf_here i loc : rf_ok (EInstr i loc :: instr_visit default_hook_recurses false i).
Proof.
  intros f loc' [H|H].
  - injection H as -> _. right. unfold instr_visit. right. apply in_or_app. right.
    change (In (ERef S_func f) [ERef S_func f]). left; reflexivity.
  - exfalso. unfold instr_visit in H. destruct H as [H|H]; [discriminate|].
    apply in_app_or in H. destruct H as [H|H].
    + destruct (negb false && default_hook_recurses); [eapply field_events_no_instr; eauto|destruct H].
    + destruct visit_fields_after_hook; [eapply field_events_no_instr; eauto|destruct H].
Qed.

(* an instruction contributes its own events, then the scan stops (at a nested construct) or goes on *)
Lemma scan_here ov i loc l idx :
  let here := EInstr i loc :: instr_visit default_hook_recurses ov i in
  fst (scan ov ((i, loc) :: l) idx) = here \/ fst (scan ov ((i, loc) :: l) idx) = here ++ fst (scan ov l (S idx)).
Proof. cbn [scan]. destruct (scan ov l (S idx)). destruct i; auto. Qed.

Lemma scan_rf l : forall idx, rf_ok (fst (scan false l idx)).
Proof.
  induction l as [|[i loc] l IH]; intros idx; [apply rf_nil|].
  destruct (scan_here false i loc l idx) as [-> | ->]; [apply rf_here|apply rf_app; [apply rf_here|apply IH]].
Qed.

Lemma rf_no_instr evs : (forall i loc, ~ In (EInstr i loc) evs) -> rf_ok evs.
Proof. intros H f loc Hin. destruct (H _ _ Hin). Qed.

Lemma run_dfs_rf : forall fuel ar stack evs, run_dfs false fuel ar stack = Ok evs -> rf_ok evs.
Proof.
  induction fuel as [|k IH]; intros ar stack evs H; cbn [run_dfs] in H; [discriminate|].
  destruct stack as [|[sid idx] rest]; [injection H as <-; apply rf_nil|].
  destruct (nth_error ar (N.to_nat sid)) as [q|]; [|discriminate].
  assert (Hpre : rf_ok (if Nat.eqb idx 0 then EStart sid :: seq_visit q else [])).
  { apply rf_no_instr. intros i loc. destruct (Nat.eqb idx 0); [|intros []]. unfold seq_visit.
    intros [Hx|Hx]; [discriminate Hx|]. destruct (sq_ty q); [destruct Hx|destruct Hx as [Hx|[]]; discriminate Hx]. }
  pose proof (scan_rf (skipn idx (sq_instrs q)) idx) as Hs.
  destruct (scan false (skipn idx (sq_instrs q)) idx) as [evs0 [[ridx kids]|]]; cbn [fst] in Hs;
    (destruct (run_dfs false k ar _) as [r| |] eqn:Er; cbn [rmap] in H; try discriminate H); injection H as <-.
  - apply rf_app; [exact Hpre|]. apply rf_app; [exact Hs|exact (IH _ _ _ Er)].
  - apply rf_app; [exact Hpre|]. apply rf_app; [exact Hs|]. apply (rf_app [EEnd sid] r); [|exact (IH _ _ _ Er)].
    apply rf_no_instr. intros i loc [Hx|[]]. discriminate Hx.
Qed.

Lemma ref_of_ev e f :
  In f (match e with EInstr (IPlain (P_RefFunc g)) _ => [g] | _ => [] end) -> exists loc, e = EInstr (IPlain (P_RefFunc f)) loc.
Proof.
  destruct e as [s|ty|i loc|i|sp id|s|s]; try (intros []).
  destruct i as [p|s|s|c a|s|s|ss d]; try (intros []).
  destruct p; try (intros []; fail). intros [<-|[]]. eauto.
Qed.

Lemma ref_funcs_of_log_In evs f :
  In f (ref_funcs_of_log evs) <-> exists loc, In (EInstr (IPlain (P_RefFunc f)) loc) evs.
Proof.
  unfold ref_funcs_of_log. rewrite in_flat_map. split.
  - intros [e [He Hf]]. destruct (ref_of_ev e f Hf) as [loc ->]. eauto.
  - intros [loc H]. exists (EInstr (IPlain (P_RefFunc f)) loc). split; [exact H|left; reflexivity].
Qed.

Lemma log_ref_func_visited lf evs f : lf_log lf = Ok evs -> In f (ref_funcs_of_log evs) -> In (ERef S_func f) evs.
Proof. intros Hl Hf. apply ref_funcs_of_log_In in Hf. destruct Hf as [loc Hf]. exact (run_dfs_rf _ _ _ _ Hl f loc Hf). Qed.

Lemma Forall2_in_r {A B} (R : A -> B -> Prop) l bs : Forall2 R l bs -> forall b, In b bs -> exists a, In a l /\ R a b.
Proof.
  induction 1 as [|a b l bs Hab HF IH]; intros x Hx; [destruct Hx|].
  destruct Hx as [<-|Hx]; [exists a; split; [left; reflexivity|exact Hab]|].
  destruct (IH x Hx) as [a' [Ha' Hr]]. exists a'. split; [right; exact Ha'|exact Hr].
Qed.
Lemma Forall2_in_l {A B} (R : A -> B -> Prop) l bs : Forall2 R l bs -> forall a, In a l -> exists b, In b bs /\ R a b.
Proof.
  induction 1 as [|a b l bs Hab HF IH]; intros x Hx; [destruct Hx|].
  destruct Hx as [<-|Hx]; [exists b; split; [left; reflexivity|exact Hab]|].
  destruct (IH x Hx) as [b' [Hb' Hr]]. exists b'. split; [right; exact Hb'|exact Hr].
Qed.

Definition refs_of_fn (p : N * mfunc) : res (list N) :=
  match fn_kind (snd p) with FK_Local lf => rmap ref_funcs_of_log (lf_log lf) | _ => Ok [] end.

Lemma referenced_funcs_inv m refd : referenced_funcs m = Ok refd ->
  exists ls, rmapM refs_of_fn (aiter (m_funcs m)) = Ok ls /\ refd = concat ls.
Proof.
  unfold referenced_funcs. fold refs_of_fn. destruct (rmapM refs_of_fn (aiter (m_funcs m))) as [ls| |]; cbn [rmap]; intros H; try discriminate H.
  injection H as <-. eauto.
Qed.

Lemma referenced_funcs_In m refd f : referenced_funcs m = Ok refd ->
  (In f refd <-> exists id fn lf evs, aget (m_funcs m) id = Some fn /\ fn_kind fn = FK_Local lf /\
                                      lf_log lf = Ok evs /\ In f (ref_funcs_of_log evs)).
Proof.
  intros H. destruct (referenced_funcs_inv m refd H) as [ls [El ->]]. apply rmapM_ok_inv in El. split.
  - intros Hf. apply in_concat in Hf. destruct Hf as [l0 [Hl0 Hf]].
    destruct (Forall2_in_r _ _ _ El l0 Hl0) as [[id fn] [Hp Hr]]. unfold refs_of_fn in Hr. cbn [snd] in Hr.
    destruct (fn_kind fn) as [i ty|lf|ty] eqn:Ek.
    + injection Hr as <-. destruct Hf.
    + destruct (lf_log lf) as [evs| |] eqn:Elog; cbn [rmap] in Hr; try discriminate Hr. injection Hr as <-.
      exists id, fn, lf, evs. split; [apply aiter_In; exact Hp|auto].
    + injection Hr as <-. destruct Hf.
  - intros (id & fn & lf & evs & Hg & Hk & Hl & Hf). apply aiter_In in Hg.
    destruct (Forall2_in_l _ _ _ El _ Hg) as [l0 [Hl0 Hr]]. unfold refs_of_fn in Hr. cbn [snd] in Hr.
    rewrite Hk, Hl in Hr. cbn [rmap] in Hr. injection Hr as <-. apply in_concat. eauto.
Qed.

Lemma undeclared_funcs_inv m fs : undeclared_funcs m = Ok fs ->
  exists refd, referenced_funcs m = Ok refd /\
               fs = sort_ids (filter (fun f => negb (existsb (N.eqb f) (declared_funcs m))) refd).
Proof.
  unfold undeclared_funcs. destruct (referenced_funcs m) as [refd| |]; cbn [rmap]; intros H; try discriminate H.
  injection H as <-. eauto.
Qed.

Lemma existsb_eqb_In f l : existsb (N.eqb f) l = true <-> In f l.
Proof. exact (G.amem_In N N.eqb N.eqb_eq f l). Qed.

Lemma undeclared_funcs_In m fs refd f : undeclared_funcs m = Ok fs -> referenced_funcs m = Ok refd ->
  (In f fs <-> In f refd /\ ~ In f (declared_funcs m)).
Proof.
  intros Hu Hr. destruct (undeclared_funcs_inv m fs Hu) as [refd' [Hr' ->]]. rewrite Hr in Hr'. injection Hr' as <-.
  rewrite sort_ids_members, filter_In, negb_true_iff, <- not_true_iff_false, existsb_eqb_In. reflexivity.
Qed.

Lemma undeclared_funcs_nil m refd : referenced_funcs m = Ok refd ->
  (forall f, In f refd -> In f (declared_funcs m)) -> undeclared_funcs m = Ok [].
Proof.
  intros Hr H. unfold undeclared_funcs. rewrite Hr. cbn [rmap].
  destruct (filter _ refd) as [|x r] eqn:E; [reflexivity|exfalso].
  assert (Hx : In x (x :: r)) by (left; reflexivity). rewrite <- E in Hx. apply filter_In in Hx as [Hx Hn].
  apply H, existsb_eqb_In in Hx. rewrite Hx in Hn. discriminate Hn.
Qed.

Lemma declare_nothing m : undeclared_funcs m = Ok [] -> declare_referenced_funcs m = Ok m.
Proof. intros H. unfold declare_referenced_funcs. rewrite H. reflexivity. Qed.

Lemma succ_func_live m f ys : succ m (S_func, f) = Ok ys -> liveF m f.
Proof.
  unfold succ. cbn [fst snd]. destruct (aget (m_funcs m) f) as [v|] eqn:E; [|discriminate]. intros _. exists v. exact E.
Qed.

(* what the traversal log of a used local function mentions is used: the log is what [succ] follows *)
Lemma kept_log_ents m u id fn lf evs : used m = Ok u -> In (S_func, id) u ->
  aget (m_funcs m) id = Some fn -> fn_kind fn = FK_Local lf -> lf_log lf = Ok evs ->
  forall e y, In e evs ->
    In y (match e with ERef S_local _ => [] | ERef sp id => [(sp, id)] | ESeqType t => [(S_type, t)] | _ => [] end) -> In y u.
Proof.
  intros Hu Hin Hg Hk Hl e y He Hy. destruct (used_closed' m u Hu) as (rs & _ & _ & K).
  destruct (K (S_func, id) Hin) as (ys & Hys & Hinc); [discriminate|discriminate|].
  apply Hinc. unfold succ in Hys. cbn [fst snd] in Hys. rewrite Hg, Hk, Hl in Hys. cbn [rmap] in Hys.
  injection Hys as <-. right. apply in_flat_map. exists e. split; assumption.
Qed.

Theorem sweep_referenced_live m m1 refd : gc_sweep m = Ok m1 -> referenced_funcs m1 = Ok refd ->
  forall f, In f refd -> liveF m1 f.
Proof.
  intros Hg Hr f Hf. destruct (gc_shape m m1 Hg) as [u [Hu R]].
  apply (referenced_funcs_In m1 refd f Hr) in Hf. destruct Hf as (id & fn & lf & evs & Hget & Hk & Hl & Hf).
  apply (gr_funcs _ _ _ R) in Hget. destruct Hget as [Hget Hin].
  assert (Hfu : In (S_func, f) u).
  { apply (kept_log_ents m u id fn lf evs Hu Hin Hget Hk Hl (ERef S_func f)); [|left; reflexivity].
    eapply log_ref_func_visited; eauto. }
  destruct (used_closed' m u Hu) as (rs & _ & _ & K).
  destruct (K _ Hfu) as [ys' [Hys' _]]; [discriminate|discriminate|].
  destruct (succ_func_live m f ys' Hys') as [v Hv]. exists v. apply (gr_funcs _ _ _ R). auto.
Qed.

Lemma gc_inv_full m m' : gc m = Ok m' -> exists m1, gc_sweep m = Ok m1 /\ declare_referenced_funcs m1 = Ok m'.
Proof.
  unfold gc. destruct (gc_sweep m) as [m1| |]; cbn [rbind]; intros H; try discriminate H. eauto.
Qed.

Lemma declare_closed m m' : closed m ->
  (forall refd, referenced_funcs m = Ok refd -> forall f, In f refd -> liveF m f) ->
  declare_referenced_funcs m = Ok m' -> closed m'.
Proof.
  intros C Hlive H. destruct (declare_inv m m' H) as [fs [Hu [[-> ->]|[Hne ->]]]]; [exact C|].
  destruct (undeclared_funcs_inv m fs Hu) as [refd [Hr Efs]].
  constructor.
  - exact (cl_imports m C).
  - exact (cl_func_imp m C).
  - exact (cl_table_imp m C).
  - exact (cl_mem_imp m C).
  - exact (cl_global_imp m C).
  - exact (cl_func_ty m C).
  - exact (cl_globals m C).
  - exact (cl_exports m C).
  - exact (cl_start m C).
  - intros id e Hg. wcbn. apply aget_snoc_inv in Hg. destruct Hg as [Hg|[-> ->]].
    + exact (cl_elements m C id e Hg).
    + cbn [decl_seg el_items el_kind]. split; [|exact I]. intros f Hf.
      apply (Hlive refd Hr). rewrite Efs in Hf. apply sort_ids_members, filter_In in Hf. apply Hf.
  - exact (cl_data m C).
Qed.

Lemma declare_no_func_offsets m m' : no_func_offsets m -> declare_referenced_funcs m = Ok m' -> no_func_offsets m'.
Proof.
  intros [NFe NFd] H. destruct (declare_inv m m' H) as [fs [Hu [[-> ->]|[Hne ->]]]]; [split; assumption|].
  split.
  - intros id e t f Hg. wcbn. apply aget_snoc_inv in Hg. destruct Hg as [Hg|[-> ->]]; [eapply NFe; eauto|discriminate].
  - exact NFd.
Qed.

(* closedness is preserved by the whole pass (same corner as for the sweep: no `ref.func` segment offsets) *)
Theorem gc_closed_partial_full m m' : closed m -> no_func_offsets m -> gc m = Ok m' -> closed m'.
Proof.
  intros C NF H. destruct (gc_inv_full m m' H) as [m1 [Hs Hd]].
  eapply declare_closed; [eapply gc_closed_partial; eauto| |exact Hd].
  intros refd Hr. eapply sweep_referenced_live; eauto.
Qed.
Lemma gc_no_func_offsets_full m m' : no_func_offsets m -> gc m = Ok m' -> no_func_offsets m'.
Proof.
  intros NF H. destruct (gc_inv_full m m' H) as [m1 [Hs Hd]].
  eapply declare_no_func_offsets; [|exact Hd]. eapply gc_no_func_offsets; eauto.
Qed.

Definition elem_funcs (e : melem) : list N :=
  match el_items e with
  | ELI_Funcs fs => fs
  | ELI_Exprs _ es => flat_map (fun c => match c with MC_RefFunc f => [f] | _ => [] end) es
  end.

Lemma declared_elem m id e f : aget (m_elements m) id = Some e -> In f (elem_funcs e) -> In f (declared_funcs m).
Proof.
  intros Hg Hf. unfold declared_funcs. apply in_or_app. right. apply in_or_app. left.
  apply in_flat_map. exists (id, e). split; [apply aiter_In; exact Hg|exact Hf].
Qed.

Lemma declared_mono m m' : m_exports m' = m_exports m -> m_globals m' = m_globals m ->
  (forall id e, aget (m_elements m) id = Some e -> aget (m_elements m') id = Some e) ->
  incl (declared_funcs m) (declared_funcs m').
Proof.
  intros Ex Eg He f Hf. unfold declared_funcs in *. rewrite Ex, Eg. apply in_app_or in Hf. apply in_or_app.
  destruct Hf as [Hf|Hf]; [left; exact Hf|right]. apply in_app_or in Hf. apply in_or_app.
  destruct Hf as [Hf|Hf]; [left|right; exact Hf]. apply in_flat_map in Hf. destruct Hf as [[id e] [Hp Hf]].
  apply in_flat_map. exists (id, e). split; [|exact Hf]. apply aiter_In, He, aiter_In, Hp.
Qed.

Theorem declare_declares_all m m' : dead_in_range (m_elements m) ->
  declare_referenced_funcs m = Ok m' -> undeclared_funcs m' = Ok [].
Proof.
  intros Hd H. destruct (declare_inv m m' H) as [fs [Hu [[-> ->]|[Hne ->]]]]; [exact Hu|].
  destruct (undeclared_funcs_inv m fs Hu) as [refd [Hr Efs]].
  set (m' := set_elements m (fst (aalloc (m_elements m) (decl_seg fs)))).
  assert (Hr' : referenced_funcs m' = Ok refd) by exact Hr.   (* [referenced_funcs] reads the function arena only *)
  apply (undeclared_funcs_nil m' refd Hr'). intros f Hf.
  destruct (in_dec N.eq_dec f (declared_funcs m)) as [Hdecl|Hdecl].
  - apply (declared_mono m m'); [reflexivity|reflexivity| |exact Hdecl]. intros id e. subst m'. wcbn. apply aget_snoc_some.
  - assert (Hfs : In f fs) by (apply (undeclared_funcs_In m fs refd f Hu Hr); auto).
    apply (declared_elem m' (anext (m_elements m)) (decl_seg fs) f); [|exact Hfs].
    subst m'. cbn [m_elements set_elements]. apply aget_snoc_new. exact Hd.
Qed.

Lemma sweep_elements_items m m1 : gc_sweep m = Ok m1 ->
  items (m_elements m1) = items (m_elements m) /\
  exists ds, dead (m_elements m1) = ds ++ dead (m_elements m) /\ Forall (fun d => d < length (items (m_elements m))) ds.
Proof.
  intros H. destruct (gc_shape m m1 H) as [u [Hu _]]. destruct (G.gc_fields m m1 u H Hu) as (_ & _ & _ & _ & _ & Ee & _).
  exact (G.delete_unused_shape _ _ _ _ Ee).
Qed.

Lemma sweep_elements_dir m m1 : gc_sweep m = Ok m1 -> dead_in_range (m_elements m) -> dead_in_range (m_elements m1).
Proof.
  intros H Hd. destruct (sweep_elements_items m m1 H) as (Ei & ds & Ed & F). unfold dead_in_range.
  rewrite Ei, Ed. apply Forall_app. split; assumption.
Qed.

(* What the declare step is there for.  The unconditional statement is false of the model for an ill-formed element arena
   (a tombstone on a not yet allocated id: the new segment is born dead), which no sequence of arena operations can
   build; see [gc_declares_all_referenced_refuted].  With tombstones in range - in particular after [parseM] - it holds. *)
Theorem gc_declares_all_referenced_partial m m' : dead_in_range (m_elements m) -> gc m = Ok m' -> undeclared_funcs m' = Ok [].
Proof.
  intros Hd H. destruct (gc_inv_full m m' H) as [m1 [Hs Hdc]].
  eapply declare_declares_all; [|exact Hdc]. eapply sweep_elements_dir; eauto.
Qed.

Lemma parsed_elements_dir cf ver w s : parseM cf ver w = POk s -> dead_in_range (m_elements (ps_m s)).
Proof.
  intros HP. pose proof (parseM_ids _ _ _ _ HP) as I. unfold ids_consistent in I.
  assert (E : dead (m_elements (ps_m s)) = []) by (decompose [and] I; assumption).
  unfold dead_in_range. rewrite E. constructor.
Qed.

Theorem gc_declares_all_referenced_after_parse cf ver w s m' :
  parseM cf ver w = POk s -> gc (ps_m s) = Ok m' -> undeclared_funcs m' = Ok [].
Proof. intros HP. exact (gc_declares_all_referenced_partial _ _ (parsed_elements_dir _ _ _ _ HP)). Qed.

Definition w_ty : mtype := {| ty_params := []; ty_results := []; ty_entry := false; ty_name := None |}.
Definition w_lf (body : list (instr * N)) : mlocalfunc :=
  {| lf_ty := 0%N; lf_args := []; lf_arena := [{| sq_ty := ST_Simple None; sq_instrs := body; sq_end := 2%N |}];
     lf_entry := 0%N; lf_orig_range := None; lf_instr_mapping := [] |}.
(* function 0, exported, body `ref.func 1; drop`; function 1 with an empty body, listed only by a passive element
   segment that nothing refers to.  [d] = the tombstones of the element arena ([] for a well-formed module). *)
Definition w_mod (d : list nat) : wir :=
  {| m_imports := empty; m_tables := empty;
     m_types := {| arena := {| items := [w_ty]; dead := [] |}; already := [(w_ty, 0)] |};
     m_funcs := {| items := [ {| fn_kind := FK_Local (w_lf [(IPlain (P_RefFunc 1%N), 0%N); (IPlain P_Drop, 1%N)]); fn_name := None |};
                              {| fn_kind := FK_Local (w_lf []); fn_name := None |} ]; dead := [] |};
     m_globals := empty; m_locals := empty;
     m_exports := {| items := [ {| ex_name := []; ex_kind := EK_Func; ex_item := 0%N |} ]; dead := [] |};
     m_memories := empty; m_data := empty;
     m_elements := {| items := [ {| el_kind := ELK_Passive; el_items := ELI_Funcs [1%N]; el_name := None |} ]; dead := d |};
     m_start := None; m_producers := []; m_customs := []; m_debug := []; m_name := None; m_config := default_config;
     m_code_section_offset := 0%N |}.
Definition res_get {A} (d : A) (r : res A) : A := match r with Ok a => a | _ => d end.

(* the sweep alone leaves an undeclared function reference: function 1 survives (function 0 refers to it), the
   passive segment that declared it does not *)
Theorem gc_sweep_leaves_undeclared_refuted :
  exists m m', gc_sweep m = Ok m' /\ exists f fs, undeclared_funcs m' = Ok (f :: fs).
Proof.
  exists (w_mod []), (res_get (w_mod []) (gc_sweep (w_mod []))). split; [vm_compute; reflexivity|].
  exists 1%N, []. vm_compute. reflexivity.
Qed.
(* ... while in the same module nothing was undeclared before the sweep, and nothing is after the whole pass *)
Example w_mod_before : undeclared_funcs (w_mod []) = Ok [].
Proof. vm_compute. reflexivity. Qed.
Example w_mod_after : exists m', gc (w_mod []) = Ok m' /\ undeclared_funcs m' = Ok [] /\
  aget (m_elements m') 1%N = Some (decl_seg [1%N]) /\ aget (m_elements m') 0%N = None.
Proof.
  exists (res_get (w_mod []) (gc (w_mod []))).
  split; [vm_compute; reflexivity|]. split; [vm_compute; reflexivity|]. split; vm_compute; reflexivity.
Qed.

(* the premise of [gc_declares_all_referenced_partial] cannot be dropped in the model *)
Theorem gc_declares_all_referenced_refuted :
  exists m m', gc m = Ok m' /\ undeclared_funcs m' <> Ok [].
Proof.
  exists (w_mod [1]), (res_get (w_mod [1]) (gc (w_mod [1]))). split; [vm_compute; reflexivity|].
  vm_compute. discriminate.
Qed.

Corollary gc_closed_after_parse_full cf ver w s m :
  parseM cf ver w = POk s -> gc (ps_m s) = Ok m -> closed m /\ no_func_offsets m.
Proof.
  intros E Hg. destruct (parseM_closed_nfo _ _ _ _ E) as [C NF].
  split; [eapply gc_closed_partial_full; eauto|eapply gc_no_func_offsets_full; eauto].
Qed.

Lemma declare_types m m' : declare_referenced_funcs m = Ok m' -> m_types m' = m_types m.
Proof. intros H. destruct (declare_set_elements m m' H) as [ea ->]. reflexivity. Qed.
Lemma declare_funcs m m' : declare_referenced_funcs m = Ok m' -> m_funcs m' = m_funcs m.
Proof. intros H. destruct (declare_set_elements m m' H) as [ea ->]. reflexivity. Qed.

Theorem gc_types_named_ok_full m m' : types_named_ok m -> gc m = Ok m' -> types_named_ok m'.
Proof.
  intros T H. destruct (gc_inv_full m m' H) as [m1 [Hs Hd]]. destruct (declare_set_elements m1 m' Hd) as [ea ->].
  exact (gc_types_named_ok m m1 T Hs).
Qed.

Corollary emit_total_after_gc_bodies_full cf ver w s m ilen dw fs :
  parseM cf ver w = POk s -> gc (ps_m s) = Ok m -> used_local_functions m = Ok fs ->
  (forall x, final_maps m fs x -> forall id lf, In (id, lf) fs -> body_ok m x ilen lf) ->
  exists e, emitM m ilen dw = Ok e.
Proof.
  intros E Hg Hfs Hb. eapply emit_total_closed_bodies; eauto.
  - eapply gc_closed_after_parse_full; eauto.
  - eapply gc_types_named_ok_full; [|exact Hg]. eapply parseM_types_named_ok; eauto.
Qed.

(* same witness as for the sweep: the module has no local function, so the declare step adds nothing *)
Theorem gc_closed_refuted_full :
  exists m m', closed m /\ gc m = Ok m' /\ ~ closed m' /\
               (exists e, emitM m (fun _ => 0%N) [] = Ok e) /\ emitM m' (fun _ => 0%N) [] = Panic.
Proof.
  exists wit, (res_get wit (gc wit)). split; [exact wit_closed|]. split; [vm_compute; reflexivity|]. split; [|split].
  - intros C.
    assert (E : aget (m_data (res_get wit (gc wit))) 0%N = Some {| da_kind := DK_Active 0 (MC_RefFunc 0); da_value := []; da_name := None |})
      by (vm_compute; reflexivity).
    pose proof (cl_data _ C _ _ E) as H. cbn [da_kind cref_live] in H. destruct H as [_ [v Hv]].
    vm_compute in Hv. discriminate.
  - eexists. vm_compute. reflexivity.
  - vm_compute. reflexivity.
Qed.

Theorem gc_preserves_full : forall m m', gc m = Ok m' ->
  m_exports m' = m_exports m /\ m_start m' = m_start m /\ m_customs m' = m_customs m /\
  m_config m' = m_config m /\ m_locals m' = m_locals m /\ m_producers m' = m_producers m /\
  m_debug m' = m_debug m /\ m_name m' = m_name m /\ m_code_section_offset m' = m_code_section_offset m.
Proof.
  intros m m' H. destruct (gc_inv_full m m' H) as [m1 [Hs Hd]]. destruct (declare_set_elements m1 m' Hd) as [ea ->].
  exact (G.gc_preserves m m1 Hs).
Qed.

Theorem gc_customs_full : forall m m', gc m = Ok m' -> m_customs m' = m_customs m.
Proof. intros m m' H. apply (gc_preserves_full m m' H). Qed.

From WV Require Import Proofs.Switches.

Lemma sweep_elements_next m m1 : gc_sweep m = Ok m1 -> anext (m_elements m1) = anext (m_elements m).
Proof. intros H. unfold anext, next_id. now rewrite (proj1 (sweep_elements_items m m1 H)). Qed.

(* the elements after the two steps: the swept ones, plus possibly the new segment, which has the next id of the ORIGINAL
   arena (deletion leaves tombstones, ids are never reused), is declared and lists kept functions only *)
Lemma sweep_declare_elements m m1 m' : gc_sweep m = Ok m1 -> declare_referenced_funcs m1 = Ok m' ->
  exists fs, undeclared_funcs m1 = Ok fs /\
    (forall id e, aget (m_elements m1) id = Some e -> aget (m_elements m') id = Some e) /\
    (forall id e, aget (m_elements m') id = Some e ->
       aget (m_elements m1) id = Some e \/
       (fs <> [] /\ id = anext (m_elements m) /\ e = decl_seg fs /\ forall f, In f fs -> liveF m' f)) /\
    (forall id, id <> anext (m_elements m) -> aget (m_elements m') id = aget (m_elements m1) id).
Proof.
  intros Hs Hd. pose proof (sweep_elements_next m m1 Hs) as Hn.
  destruct (declare_inv m1 m' Hd) as [fs [Hu [[-> ->]|[Hne ->]]]]; [exists []|exists fs]; (split; [exact Hu|]).
  - split; [auto|]. split; [auto|]. auto.
  - cbn [m_elements set_elements]. split; [intros id e; apply aget_snoc_some|]. split.
    + intros id e Hg. apply aget_snoc_inv in Hg. destruct Hg as [Hg|[-> ->]]; [left; exact Hg|right].
      split; [exact Hne|]. split; [exact Hn|]. split; [reflexivity|]. intros f Hf.
      destruct (undeclared_funcs_inv m1 fs Hu) as [refd [Hr Efs]].
      rewrite Efs in Hf. apply sort_ids_members, filter_In in Hf.
      exact (sweep_referenced_live m m1 refd Hs Hr f (proj1 Hf)).
    + intros id Hid. apply aget_snoc_ne. rewrite Hn. exact Hid.
Qed.

Theorem gc_elements_full m m' : gc m = Ok m' ->
  exists m1 fs, gc_sweep m = Ok m1 /\ undeclared_funcs m1 = Ok fs /\
    (forall id e, aget (m_elements m1) id = Some e -> aget (m_elements m') id = Some e) /\
    (forall id e, aget (m_elements m') id = Some e ->
       aget (m_elements m1) id = Some e \/
       (fs <> [] /\ id = anext (m_elements m) /\ e = decl_seg fs /\ forall f, In f fs -> liveF m' f)) /\
    (forall id, id <> anext (m_elements m) -> aget (m_elements m') id = aget (m_elements m1) id).
Proof.
  intros H. destruct (gc_inv_full m m' H) as [m1 [Hs Hd]]. destruct (sweep_declare_elements m m1 m' Hs Hd) as [fs Hfs].
  exists m1, fs. split; [exact Hs|exact Hfs].
Qed.

(* The element clause of the sweep theorem ("every element segment of the result is a segment of the
   input") is false for the whole pass - [gc_kept_unchanged_refuted] - because of the one new segment; everything else is
   as before. *)
Theorem gc_kept_unchanged_full m m' : gc m = Ok m' ->
  (forall id v, aget (m_funcs m') id = Some v -> aget (m_funcs m) id = Some v) /\
  (forall id v, aget (m_tables m') id = Some v -> aget (m_tables m) id = Some v) /\
  (forall id v, aget (m_globals m') id = Some v -> aget (m_globals m) id = Some v) /\
  (forall id v, aget (m_memories m') id = Some v -> aget (m_memories m) id = Some v) /\
  (forall id v, aget (m_data m') id = Some v -> aget (m_data m) id = Some v) /\
  (forall id v, aget (m_elements m') id = Some v ->
     aget (m_elements m) id = Some v \/
     (id = anext (m_elements m) /\ exists fs, fs <> [] /\ v = decl_seg fs /\ forall f, In f fs -> liveF m' f)) /\
  (forall id v, aget (m_imports m') id = Some v -> aget (m_imports m) id = Some v) /\
  (forall id t, types_get m' id = Some t -> types_get m id = Some t) /\
  m_locals m' = m_locals m.
Proof.
  intros H. destruct (gc_inv_full m m' H) as [m1 [Hs Hd]].
  destruct (sweep_declare_elements m m1 m' Hs Hd) as (fs & _ & _ & Hel & _).
  destruct (gc_kept_unchanged m m1 Hs) as (K1 & K2 & K3 & K4 & K5 & K6 & K7 & K8 & K9).
  destruct (declare_set_elements m1 m' Hd) as [ea ->].
  split; [exact K1|]. split; [exact K2|]. split; [exact K3|]. split; [exact K4|]. split; [exact K5|].
  split; [|split; [exact K7|split; [exact K8|exact K9]]].
  intros id v Hg. destruct (Hel id v Hg) as [Hg1|(Hne & -> & -> & Hl)]; [left; exact (K6 id v Hg1)|right].
  split; [reflexivity|]. exists fs. auto.
Qed.

Theorem gc_kept_unchanged_refuted :
  exists m m' id v, gc m = Ok m' /\ aget (m_elements m') id = Some v /\ aget (m_elements m) id = None.
Proof.
  exists (w_mod []), (res_get (w_mod []) (gc (w_mod []))), 1%N, (decl_seg [1%N]).
  split; [vm_compute; reflexivity|]. split; vm_compute; reflexivity.
Qed.

Theorem gc_kept_function_full m m' id f : gc m = Ok m' -> aget (m_funcs m') id = Some f ->
  aget (m_funcs m) id = Some f /\
  types_get m' (func_ty f) = types_get m (func_ty f) /\
  m_locals m' = m_locals m.
Proof.
  intros H. destruct (gc_inv_full m m' H) as [m1 [Hs Hd]]. destruct (declare_set_elements m1 m' Hd) as [ea ->].
  exact (gc_kept_function m m1 id f Hs).
Qed.

Theorem gc_exports_start_same_targets_full m m' : gc m = Ok m' ->
  m_exports m' = m_exports m /\ m_start m' = m_start m /\
  (forall id e, aget (m_exports m') id = Some e -> item_same m m' (ex_kind e) (ex_item e)) /\
  (forall f, m_start m' = Some f -> item_same m m' EK_Func f).
Proof.
  intros H. destruct (gc_inv_full m m' H) as [m1 [Hs Hd]]. destruct (declare_set_elements m1 m' Hd) as [ea ->].
  exact (gc_exports_start_same_targets m m1 Hs).
Qed.

(* the new segment is not in the used set of the input (its id is not allocated there), so
   "everything in the used set looks the same before and after" survives *)
Lemma declare_same_at m m1 m' x : declare_referenced_funcs m1 = Ok m' ->
  (fst x = S_elem -> snd x <> anext (m_elements m1)) -> same_at m m1 x -> same_at m m' x.
Proof.
  intros Hd Hx. destruct (declare_inv m1 m' Hd) as [fs [_ [[_ ->]|[_ ->]]]]; [exact (fun h => h)|].
  destruct x as [s id]. destruct s; try exact (fun h => h).
  unfold same_at. cbn [fst snd m_elements set_elements] in *. intros <-. apply aget_snoc_ne, Hx. reflexivity.
Qed.

Theorem gc_reachable_closed_submodule_full m m' : gc m = Ok m' ->
  exists u U, used m = Ok u /\ incl U u /\ (forall x, In x u -> fst x <> S_memory -> In x U) /\
    (forall x, In x u -> same_at m m' x) /\
    forall x, In x U -> exists ys, succ m x = Ok ys /\ succ m' x = Ok ys /\
                                   forall y, In y ys -> In y U /\ In y u /\ same_at m m' y.
Proof.
  intros H. destruct (gc_inv_full m m' H) as [m1 [Hs Hd]].
  destruct (gc_reachable_closed_submodule m m1 Hs) as (u & U & Hu & HUu & Hnm & Hsame & Hcl).
  assert (Hsame' : forall x, In x u -> same_at m m' x).
  { intros x Hx. apply (declare_same_at m m1 m' x Hd); [|exact (Hsame x Hx)].
    intros Hk. destruct x as [s id]. cbn [fst snd] in *. subst s.
    destruct (Hcl _ (Hnm _ Hx ltac:(cbn; discriminate))) as (ys & Hys & _).
    unfold succ in Hys. cbn [fst snd] in Hys. destruct (aget (m_elements m) id) as [e|] eqn:E; [|discriminate].
    rewrite (sweep_elements_next m m1 Hs). intros ->. rewrite aget_anext_none in E. discriminate E. }
  exists u, U. split; [exact Hu|]. split; [exact HUu|]. split; [exact Hnm|]. split; [exact Hsame'|].
  intros x Hx. destruct (Hcl x Hx) as (ys & Hys & _ & Hall). exists ys. split; [exact Hys|].
  split; [rewrite (same_at_succ m m' x (Hsame' x (HUu x Hx))); exact Hys|].
  intros y Hy. destruct (Hall y Hy) as (A & B & _). auto.
Qed.

(* Functions, tables, globals, memories, data exactly as for the sweep; the kept element segments are
   exactly the used ones plus at most ONE new segment, whose id is the next id of the input arena, which is declared and
   lists kept functions only.  The uncorrected element clause is false: [gc_keeps_exactly_used_refuted]. *)
Theorem gc_keeps_exactly_used_full : forall m m', gc m = Ok m' -> forall u, Model.GC.used m = Ok u ->
  (forall id, contains (m_funcs m') (N.to_nat id) = true <->
              (contains (m_funcs m) (N.to_nat id) = true /\ mem_ent (S_func, id) u = true)) /\
  (forall id, contains (m_tables m') (N.to_nat id) = true <->
              (contains (m_tables m) (N.to_nat id) = true /\ mem_ent (S_table, id) u = true)) /\
  (forall id, contains (m_globals m') (N.to_nat id) = true <->
              (contains (m_globals m) (N.to_nat id) = true /\ mem_ent (S_global, id) u = true)) /\
  (forall id, contains (m_memories m') (N.to_nat id) = true <->
              (contains (m_memories m) (N.to_nat id) = true /\ mem_ent (S_memory, id) u = true)) /\
  (forall id, contains (m_data m') (N.to_nat id) = true <->
              (contains (m_data m) (N.to_nat id) = true /\ mem_ent (S_data, id) u = true)) /\
  (forall id, contains (m_elements m') (N.to_nat id) = true <->
              ((contains (m_elements m) (N.to_nat id) = true /\ mem_ent (S_elem, id) u = true) \/
               (id = anext (m_elements m) /\
                exists fs, fs <> [] /\ aget (m_elements m') id = Some (decl_seg fs) /\ forall f, In f fs -> liveF m' f))).
Proof.
  intros m m' H u Hu. destruct (gc_inv_full m m' H) as [m1 [Hs Hd]].
  destruct (sweep_declare_elements m m1 m' Hs Hd) as (fs & _ & Hold & Hel & _).
  destruct (G.gc_keeps_exactly_used m m1 Hs u Hu) as (K1 & K2 & K3 & K4 & K5 & K6).
  destruct (declare_set_elements m1 m' Hd) as [ea ->].
  split; [exact K1|]. split; [exact K2|]. split; [exact K3|]. split; [exact K4|]. split; [exact K5|].
  intros id. rewrite <- (K6 id). rewrite !G.contains_index. split.
  - intros [v Hv]. destruct (Hel id v Hv) as [Hg|(Hne & -> & -> & Hl)]; [left; eauto|right].
    split; [reflexivity|]. exists fs. auto.
  - intros [[v Hv]|[_ (fs' & _ & Hg & _)]]; [exists v; apply Hold, Hv|eauto].
Qed.

Theorem gc_keeps_exactly_used_refuted :
  exists m m' u id, gc m = Ok m' /\ Model.GC.used m = Ok u /\
    contains (m_elements m') (N.to_nat id) = true /\ contains (m_elements m) (N.to_nat id) = false.
Proof.
  exists (w_mod []), (res_get (w_mod []) (gc (w_mod []))), (res_get [] (Model.GC.used (w_mod []))), 1%N.
  split; [vm_compute; reflexivity|]. split; [vm_compute; reflexivity|]. split; vm_compute; reflexivity.
Qed.

(* what Props/C06.v [c06_only_unused_deleted] needs: a used live function survives the pass *)
Theorem gc_only_unused_deleted_full : forall m m', gc m = Ok m' -> forall u, Model.GC.used m = Ok u ->
  forall id, contains (m_funcs m) (N.to_nat id) = true -> mem_ent (S_func, id) u = true ->
             contains (m_funcs m') (N.to_nat id) = true.
Proof.
  intros m m' Hg u Hu id Hc Hm. destruct (gc_keeps_exactly_used_full m m' Hg u Hu) as [Hf _].
  apply Hf. split; assumption.
Qed.

Lemma declared_segment_root m rs id e : roots m = Ok rs -> aget (m_elements m) id = Some e -> el_kind e = ELK_Declared ->
  In (S_elem, id) rs.
Proof.
  unfold roots. intros H Hg Hk.
  match type of H with rbind ?A _ = _ => destruct A as [elems| |] eqn:Eel; cbn [rbind] in H; try discriminate H end.
  injection H as <-. apply in_or_app. right. apply in_or_app. right. apply in_or_app. right. apply in_or_app. left.
  apply rmapM_ok_inv in Eel. apply aiter_In in Hg. destruct (Forall2_in_l _ _ _ Eel _ Hg) as [b [Hb Hr]].
  cbn [fst snd] in Hr. rewrite Hk in Hr. injection Hr as <-. apply in_concat. exists [(S_elem, id)]. split; [exact Hb|left; reflexivity].
Qed.

Theorem declared_segment_kept m m2 id e : aget (m_elements m) id = Some e -> el_kind e = ELK_Declared ->
  gc_sweep m = Ok m2 -> aget (m_elements m2) id = Some e.
Proof.
  intros Hg Hk H. destruct (gc_shape m m2 H) as [u [Hu R]].
  destruct (used_closed' m u Hu) as [rs [Hr [Hrs _]]].
  apply (gr_elements _ _ _ R). split; [exact Hg|]. apply Hrs. eapply declared_segment_root; eauto.
Qed.

(* the segment added by the pass is kept by a further sweep (and, [declare_idempotent], not added a second time) *)
Theorem gc_new_segment_is_root m m' m2 id fs : gc m = Ok m' -> aget (m_elements m') id = Some (decl_seg fs) ->
  (forall rs, roots m' = Ok rs -> In (S_elem, id) rs) /\
  (gc_sweep m' = Ok m2 -> aget (m_elements m2) id = Some (decl_seg fs)).
Proof.
  intros _ Hg. split.
  - intros rs Hr. eapply declared_segment_root; eauto.
  - intros H. eapply declared_segment_kept; eauto.
Qed.

Theorem declare_idempotent m m1 : dead_in_range (m_elements m) -> declare_referenced_funcs m = Ok m1 ->
  declare_referenced_funcs m1 = Ok m1.
Proof. intros Hd H. exact (declare_nothing m1 (declare_declares_all m m1 Hd H)). Qed.

(* on the result of the whole pass the declare step is the identity; hence a second run of the pass consists of its sweep
   alone whenever that sweep removes no function body reference... stated exactly: if the second sweep changes nothing,
   the second run changes nothing *)
Theorem gc_declare_idempotent_partial m m1 : dead_in_range (m_elements m) -> gc m = Ok m1 ->
  declare_referenced_funcs m1 = Ok m1 /\ (gc_sweep m1 = Ok m1 -> gc m1 = Ok m1).
Proof.
  intros Hd H. pose proof (declare_nothing m1 (gc_declares_all_referenced_partial m m1 Hd H)) as E.
  split; [exact E|]. intros Hs. unfold gc. rewrite Hs. exact E.
Qed.

From WV Require Import Model.ParseSpec Proofs.ParseTotal Proofs.TotalityBodies.

Lemma declare_live m1 m' : declare_referenced_funcs m1 = Ok m' -> forall sp id, ent_live m1 sp id -> ent_live m' sp id.
Proof.
  intros Hd sp id. destruct (declare_inv m1 m' Hd) as [fs [_ [[_ ->]|[_ ->]]]]; [exact (fun h => h)|].
  destruct sp; try exact (fun h => h). intros [v Hv]. exists v. apply aget_snoc_some, Hv.
Qed.

Theorem emit_total_after_gc_final_partial_full cf ver w s m' ilen dw :
  valid_stream w -> parseM cf ver w = POk s -> refs_in_range w (ps_ids s) -> gc (ps_m s) = Ok m' ->
  exists e, emitM m' ilen dw = Ok e.
Proof.
  intros V E RR Hgc. destruct (gc_inv_full _ _ Hgc) as [m1 [Hsw Hd]].
  destruct (gc_shape _ _ Hsw) as (u & Hu & R).
  pose proof (declare_funcs _ _ Hd) as Ff.
  assert (Hfun : forall id fn, aget (m_funcs m') id = Some fn ->
                               aget (m_funcs (ps_m s)) id = Some fn /\ In (S_func, id) u)
    by (intros id fn Hg; rewrite Ff in Hg; apply (gr_funcs _ _ _ R); exact Hg).
  destruct (used_local_functions_total m') as [fs Hfs].
  { intros id fn Hg. destruct (Hfun _ _ Hg) as [Hg0 _].
    pose proof (parsed_funcs cf ver w s V E id fn Hg0) as H. unfold func_parsed in H.
    destruct (fn_kind fn) as [? ?|lf|?]; [exact I| |exact H].
    destruct H as (tys & b & _ & ety & l & eloc & _ & Hw & Ea & Ee).
    eexists. eapply (parsed_log _ lf ety l eloc); eassumption. }
  eapply emit_total_after_gc_bodies_full; [exact E|exact Hgc|exact Hfs|].
  intros x FM id lf Hin.
  destruct (used_local_functions_entries _ _ Hfs id lf Hin) as (fn & Hg & Hk).
  destruct (Hfun _ _ Hg) as [Hg0 Hu0].
  destruct (parsed_refs_ok cf ver w s id fn lf V E RR Hg0 Hk) as (evs & Hl & Hr).
  pose proof (parsed_funcs cf ver w s V E id fn Hg0) as H. unfold func_parsed in H. rewrite Hk in H.
  destruct H as (tys & b & _ & ety & l & eloc & Eops & Hw & Ea & Ee).
  eapply parsed_body_ok_gen; try eassumption.
  intros sp rid Hs He.
  pose proof (kept_refs _ _ _ _ _ _ Hu Hu0 Hg0 Hk Hl sp rid Hs) as Hkept.
  rewrite (parsed_log _ lf ety l eloc Hw Ea Ee) in Hl. injection Hl as <-.
  destruct (gc_closed_after_parse_full _ _ _ _ _ E Hgc) as [C' _].
  eapply live_indexed; eauto. apply (declare_live m1 m' Hd).
  eapply gc_live; [exact R|apply (Hr sp rid Hs He)|apply Hkept, He].
Qed.

From WV Require Import Proofs.Renumbering.

Theorem gc_imports_wf_full m m' : imports_wf m -> gc m = Ok m' -> imports_wf m'.
Proof.
  intros IW H. destruct (gc_inv_full m m' H) as [m1 [Hs Hd]]. destruct (declare_set_elements m1 m' Hd) as [ea ->].
  exact (gc_imports_wf m m1 IW Hs).
Qed.

Section AfterGCFull.
  Variables (cf : config) (ver : list N) (w : wmod) (s : pst) (ilen : wins -> N) (dw : list wsec) (m' : wir) (e' : emitted).
  Hypothesis HP : parseM cf ver w = POk s.
  Hypothesis HG : gc (ps_m s) = Ok m'.
  Hypothesis HE : emitM m' ilen dw = Ok e'.

  Lemma gc_wf_space_full S : S <> S_local -> wf_map (space_map (em_x2i e') S).
  Proof.
    intros HL. apply (imports_wf_maps m' ilen dw e' S); [|exact HE|exact HL].
    eapply gc_imports_wf_full; [|exact HG]. eapply parsed_imports_wf; exact HP.
  Qed.

  Theorem rho_gc_inj_full S i i' j : S <> S_type -> S <> S_local -> rho s e' S i = Ok j -> rho s e' S i' = Ok j -> i = i'.
  Proof. intros HS HL. apply (rho_inj_gen s e' S (n_in s S) (ids_space_n _ _ _ _ HP S HS HL) (gc_wf_space_full S HL)). Qed.

  (* the emitted ids that are input ids are exactly the kept input ids; the new segment's id is not an input id *)
  Lemma gc_emitted_kept_full : exists u, used (ps_m s) = Ok u /\
    forall S id, S <> S_type -> S <> S_local -> (N.to_nat id < n_in s S)%nat ->
      (In id (emitted_ids e' S) <-> In (S, id) u).
  Proof.
    destruct (gc_inv_full _ _ HG) as [m1 [Hs Hd]]. destruct (sweep_declare_elements _ _ _ Hs Hd) as (fs & _ & _ & _ & Hne).
    destruct (gc_shape _ _ Hs) as [u [Hu R]]. exists u. split; [exact Hu|]. intros S id HS HL Hlt.
    destruct (gc_closed_after_parse_full _ _ _ _ _ HP HG) as [C _].
    rewrite (emitted_iff_live _ _ _ _ S id HE C HS).
    assert (Hl0 : ent_live (ps_m s) S id).
    { apply (lt_live_space _ _ S id (parseM_ids _ _ _ _ HP) HS HL). rewrite <- (n_in_arena _ _ _ _ HP S HS HL). exact Hlt. }
    assert (E1 : ent_live m' S id <-> ent_live m1 S id).
    { destruct (declare_set_elements m1 m' Hd) as [ea Em']. destruct S; try congruence; try (rewrite Em'; reflexivity).
      cbn [ent_live]. rewrite Hne; [reflexivity|]. intros ->. rewrite (n_in_arena _ _ _ _ HP S_elem HS HL) in Hlt.
      cbn [arena_len] in Hlt. unfold anext, next_id in Hlt. rewrite Nat2N.id in Hlt. lia. }
    rewrite E1, (gc_live_iff _ _ _ S id R HS HL). tauto.
  Qed.

  Theorem rho_gc_defined_full : exists u, used (ps_m s) = Ok u /\
    forall S i, S <> S_type -> S <> S_local ->
      ((exists j, rho s e' S i = Ok j) <-> (N.to_nat i < n_in s S)%nat /\ In (S, i) u).
  Proof.
    destruct gc_emitted_kept_full as [u [Hu K]]. exists u. split; [exact Hu|]. intros S i HS HL.
    rewrite (rho_defined_gen s e' S (n_in s S) (ids_space_n _ _ _ _ HP S HS HL) (gc_wf_space_full S HL)).
    split; intros [H1 H2]; (split; [exact H1|]); apply (K S i HS HL H1); exact H2.
  Qed.
End AfterGCFull.

Lemma sweep_referenced_sub m1 s2 refd1 : gc_sweep m1 = Ok s2 -> referenced_funcs m1 = Ok refd1 ->
  exists refd2, referenced_funcs s2 = Ok refd2 /\ incl refd2 refd1.
Proof.
  intros Hs Hr. destruct (gc_shape m1 s2 Hs) as [u [Hu R]].
  destruct (referenced_funcs_inv m1 refd1 Hr) as [ls [El _]]. apply rmapM_ok_inv in El.
  destruct (rmapM_total refs_of_fn (aiter (m_funcs s2))) as [ls2 E2].
  { intros [id fn] Hp. apply aiter_In in Hp. apply (gr_funcs _ _ _ R) in Hp. destruct Hp as [Hp _]. apply aiter_In in Hp.
    destruct (Forall2_in_l _ _ _ El _ Hp) as [b [_ Hb]]. eauto. }
  assert (Hr2 : referenced_funcs s2 = Ok (concat ls2)).
  { unfold referenced_funcs. fold refs_of_fn. rewrite E2. reflexivity. }
  exists (concat ls2). split; [exact Hr2|]. intros f Hf.
  apply (referenced_funcs_In s2 _ f Hr2) in Hf. destruct Hf as (id & fn & lf & evs & Hg & Hk & Hl & Hf).
  apply (referenced_funcs_In m1 refd1 f Hr). apply (gr_funcs _ _ _ R) in Hg. destruct Hg as [Hg _]. eauto 10.
Qed.

(* The second run of the pass: its declare step adds nothing provided its sweep deletes no declaration that is still
   needed (premise [incl (declared_funcs m1) (declared_funcs s2)]; Proofs/GcIdem.v discharges it, the second sweep deleting
   nothing at all).  Then the second run IS its sweep. *)
Theorem gc_declare_idempotent_partial2 m m1 s2 : dead_in_range (m_elements m) -> gc m = Ok m1 -> gc_sweep m1 = Ok s2 ->
  incl (declared_funcs m1) (declared_funcs s2) -> gc m1 = Ok s2.
Proof.
  intros Hd H Hs Hinc.
  pose proof (gc_declares_all_referenced_partial m m1 Hd H) as Hu.
  destruct (undeclared_funcs_inv m1 [] Hu) as [refd1 [Hr1 _]].
  destruct (sweep_referenced_sub m1 s2 refd1 Hs Hr1) as [refd2 [Hr2 Hsub]].
  assert (Hu2 : undeclared_funcs s2 = Ok []).
  { apply (undeclared_funcs_nil s2 refd2 Hr2). intros f Hf. apply Hinc.
    destruct (in_dec N.eq_dec f (declared_funcs m1)) as [Hin|Hnin]; [exact Hin|exfalso].
    assert (X : In f []) by (apply (undeclared_funcs_In m1 [] refd1 f Hu Hr1); auto). destruct X. }
  unfold gc. rewrite Hs. exact (declare_nothing s2 Hu2).
Qed.

Print Assumptions declare_frame.
Print Assumptions declare_elements.
Print Assumptions sweep_referenced_live.
Print Assumptions gc_declares_all_referenced_partial.
Print Assumptions gc_declares_all_referenced_after_parse.
Print Assumptions gc_declares_all_referenced_refuted.
Print Assumptions gc_sweep_leaves_undeclared_refuted.
Print Assumptions gc_closed_partial_full.
Print Assumptions gc_closed_after_parse_full.
Print Assumptions emit_total_after_gc_bodies_full.
Print Assumptions gc_closed_refuted_full.
Print Assumptions emit_total_after_gc_final_partial_full.
Print Assumptions rho_gc_inj_full.
Print Assumptions rho_gc_defined_full.
Print Assumptions gc_preserves_full.
Print Assumptions gc_elements_full.
Print Assumptions gc_keeps_exactly_used_full.
Print Assumptions gc_keeps_exactly_used_refuted.
Print Assumptions gc_only_unused_deleted_full.
Print Assumptions gc_kept_unchanged_full.
Print Assumptions gc_kept_unchanged_refuted.
Print Assumptions gc_kept_function_full.
Print Assumptions gc_reachable_closed_submodule_full.
Print Assumptions gc_exports_start_same_targets_full.
Print Assumptions gc_customs_full.
Print Assumptions gc_types_named_ok_full.
Print Assumptions gc_imports_wf_full.
Print Assumptions declared_segment_kept.
Print Assumptions gc_new_segment_is_root.
Print Assumptions declare_idempotent.
Print Assumptions gc_declare_idempotent_partial.
Print Assumptions gc_declare_idempotent_partial2.
