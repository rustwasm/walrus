(* C08 - emission is deterministic, repeatable and a fixpoint of the round trip. Statements only.
   Hash-ordered containers of the Rust (IdHashSet iteration in used_locals, the per-function
   maps) are modelled as lists in ARBITRARY order; determinism = the output does not depend on
   that order. *)
From Coq Require Import List NArith Bool Permutation Sorted. Import ListNotations.
From WV Require Import Gen.Ops Model.Common Model.IR Model.ModuleM Model.ParseM Model.EmitM Model.Locals
                       Proofs.CustomsCfg Proofs.Order.
Local Open Scope nat_scope.

(* (1) repeatable: emitting consumes or alters nothing (custom sections included); emitting the
   returned module again gives exactly the same result - hence any number of times *)
Theorem c08_emit_keeps_module : forall m ilen dw e, emitM m ilen dw = Ok e -> em_module e = m.
Proof. exact emit_keeps_module. Qed.
Theorem c08_repeat : forall m ilen dw e, emitM m ilen dw = Ok e -> emitM (em_module e) ilen dw = Ok e.
Proof. exact emit_repeat. Qed.

(* (2) deterministic: the iteration order of the used-locals hash set cannot reach the output *)
Theorem c08_locals_order_free : forall ty args l l', (forall x, In x l <-> In x l') ->
  emit_locals ty args l = emit_locals ty args l'.
Proof. exact emit_locals_order_free. Qed.
(* ... nor can the arrival order of names or of the local functions (keys are distinct ids) *)
Theorem c08_names_order_free : forall A (l l' : list (N * A)),
  Permutation l l' -> NoDup (map fst l) -> sort_nm l = sort_nm l'.
Proof. exact sort_nm_order_free. Qed.
Theorem c08_func_order_free : forall l l', Permutation l l' ->
  NoDup (map (fun t : N * N * mlocalfunc => snd (fst t)) l) -> sort_funcs l = sort_funcs l'.
Proof. exact func_order_free. Qed.

(* (3) fixpoint halves: what is already in canonical order stays put when processed again *)
Theorem c08_sorted_locals_stay : forall l, StronglySorted N.lt l -> sort_ids l = l.
Proof. exact sort_ids_id. Qed.
Theorem c08_sorted_types_stay : forall l,
  StronglySorted (fun a b => ty_le (snd a) (snd b) = true) l -> sort_types l = l.
Proof. exact sort_types_stable_id. Qed.
Theorem c08_func_order_canonical : forall l, StronglySorted func_before (sort_funcs l).
Proof. exact sort_funcs_sorted. Qed.




(* (5) the iteration order of the type arena, of the function arena, of the used-locals set and of the name vectors cannot
   reach the output; type keys are pairwise distinct for parsed modules (on arbitrary arenas ties are possible: witness) *)
From WV Require Import Proofs.Names Proofs.SortKeys.
Theorem c08_types_order_free_for_parsed_modules :
  forall (cf : config) (ver : nstr) (w : wmod) (s : pst) (x : x2i) (l' : list (N * mtype)),
         parseM cf ver w = POk s ->
         Permutation (emitted_types (ps_m s)) l' -> emit_types (ps_m s) x = emit_types_from l' x.
Proof. exact parsed_emit_types_order_free. Qed.

Theorem c08_functions_iteration_order_free :
  forall (ps1 ps2 : list (N * mfunc)) (l1 : list (list (N * N * mlocalfunc))),
         Permutation ps1 ps2 ->
         NoDup (map fst ps1) ->
         rmapM func_entry ps1 = Ok l1 ->
         exists l2 : list (list (N * N * mlocalfunc)),
           rmapM func_entry ps2 = Ok l2 /\ Order.sort_funcs (concat l1) = Order.sort_funcs (concat l2).
Proof. exact used_funcs_iteration_order_free. Qed.

Theorem c08_locals_perm_invariant :
  forall (ty : N -> valty) (args u1 u2 : list N),
         Permutation u1 u2 -> emit_locals ty args u1 = emit_locals ty args u2.
Proof. exact emit_locals_perm_invariant. Qed.

Theorem c08_names_perm_invariant :
  forall (A : Type) (x : x2i) (s : space) (getn : A -> option nstr) (l1 l2 : list (N * A))
           (nm : namemap),
         Permutation l1 l2 ->
         NoDup (map fst l1) ->
         NoDup (map snd (space_map x s)) -> named x s getn l1 = Ok nm -> named x s getn l2 = Ok nm.
Proof. exact named_perm_invariant. Qed.

Theorem c08_type_ties_possible_on_arbitrary_arenas :
  exists l1 l2 : list (N * mtype), Permutation l1 l2 /\ sort_types l1 <> sort_types l2.
Proof. exact sort_types_perm_invariant_refuted. Qed.


(* (6) the function-body half of the round-trip fixpoint: the normal form is idempotent, normal forms are exactly its fixed
   points, an operator whose indices are already the output indices is re-emitted unchanged, and a body in normal form is
   reproduced exactly (operators AND locations): the emitted operator stream is the stream that was parsed *)
From WV Require Import Model.ParseFn Model.ParseSpec Model.EmitFn Model.EmitSpec Model.BodySpec Model.Sem Proofs.Codec Proofs.Fixpoint.
Theorem c08_normal_form_idempotent :
  forall l : list rt, fst (nf_rt_list false (fst (nf_rt_list false l))) = fst (nf_rt_list false l).
Proof. exact nf_rt_idem. Qed.

Theorem c08_normal_forms_are_the_fixed_points :
  forall l : list rt, is_nf l <-> fst (nf_rt_list false l) = l.
Proof. exact nf_rt_normal. Qed.

Theorem c08_operator_fixed_under_identity_renaming :
  forall (cx : pctx) (ecx : ectx) (o : wop),
         maps_id cx ecx -> imm_ok o -> ~ known_big_offset o -> nf_op cx ecx o = WOp o.
Proof. exact nf_op_fixed. Qed.

Theorem c08_body_fixpoint :
  forall (cx : pctx) (ecx : ectx) (l : list rt),
         is_nf l ->
         Forall (insf cx ecx) (flat_list l) ->
         map (fun p : N * wins => (snd p, fst p)) (fst (nf_list cx ecx false l)) = flat_list l.
Proof. exact body_fixpoint. Qed.

Theorem c08_emitted_stream_is_parsed_stream :
  forall (cx : pctx) (ecx : ectx) (ety : N) (rs : list valty) (l : list rt) (eloc p0 : N),
         wfl cx 1 l ->
         (forall o : wop, decode_plain (px_i2id cx) o <> None -> encode_plain (ex_id2i ecx) (dec cx o) <> None) ->
         is_nf l ->
         Forall (insf cx ecx) (flat_list l) ->
         exists (ar : arena) (st : estate) (fuel : nat),
           parse_body cx ety rs (flat_list l ++ [(WEnd, eloc)]) = Ok ar /\
           emit_body ecx fuel ar 0 p0 = Ok st /\ out st = map fst (flat_list l ++ [(WEnd, eloc)]).
Proof. exact body_fixpoint_emitted. Qed.


(* (4) the sort calls of the SOURCE (regenerated, Gen/SortKeys.v) are the ones the models implement: used locals by id
   (natural order of LocalId), local functions by (Reverse(size), id), types by their (params, results) order, every
   name-section vector by index, function ranges by id, the DWARF tables by start / address.  A changed key or a dropped
   sort changes the regenerated text and breaks this theorem. *)
(* ---- the MODULE-level fixpoint: emit (parse (emit (parse w))) = emit (parse w) on the abstract section stream, for every stream with the
   validator's guarantees, unless names are emitted AND synthesised (that case needs the extra input premise [locals_in_range], see the end of this block).  Ingredients: every emitted stream is canonical (section order, types strictly sorted and distinct, imports first,
   element tables canonical, one name section; bodies are flattenings of normal forms); on the second trip every renumbering is the identity;
   hence every section is reproduced literally.  The second trip cannot fail.
   The unrestricted statement is FALSE OF THE MODEL: the witness has an out-of-range local index, which the model's [valid_stream] does not
   exclude and the model's parser turns into an invented local (the real validator rejects such a body; the fidelity gap of section 0.7) - under
   synthetic names the invented local gets a name on the second trip. *)
From WV Require Import Proofs.IndexMaps Proofs.ParseTotal Proofs.ModFix Proofs.ModFix2 Proofs.ModFix9 Proofs.ModFix20.
From WV Require Proofs.ModFixEx Proofs.ModFix3 Proofs.ModFix4 Proofs.ModFix10 Proofs.ModFix14 Proofs.ModFix8.
Theorem c08_module_fixpoint :
  forall (cf : config) (ver : str) (w : wmod) (ilen : wins -> N) (s1 : pst) 
           (e1 : emitted) (s2 : pst) (e2 : emitted),
         parseM cf ver w = POk s1 ->
         emitM (ps_m s1) ilen [] = Ok e1 ->
         parseM cf ver (em_secs e1) = POk s2 ->
         emitM (ps_m s2) ilen [] = Ok e2 ->
         valid_stream w -> cf_skip_name cf = true \/ cf_synthetic_names cf = false -> em_secs e2 = em_secs e1.
Proof. exact module_fixpoint_partial. Qed.

Theorem c08_module_fixpoint_unrestricted_refuted :
  exists
           (cf : config) (ver : str) (w : wmod) (ilen : wins -> N) (s1 : pst) (e1 : emitted) 
         (s2 : pst) (e2 : emitted),
           valid_stream w /\ two_trips cf ver w ilen s1 e1 s2 e2 /\ em_secs e2 <> em_secs e1.
Proof. exact ModFixEx.module_fixpoint_refuted_valid_stream. Qed.

Theorem c08_emitted_stream_canonical :
  forall (cf : config) (ver : str) (w : wmod) (s : pst) (ilen : wins -> N) (e : emitted),
         parseM cf ver w = POk s -> emitM (ps_m s) ilen [] = Ok e -> canonical (em_secs e).
Proof. exact emit_canonical. Qed.

Theorem c08_second_trip_renumbering_is_identity :
  forall (cf : config) (ver : str) (w : wmod) (ilen : wins -> N) (s1 : pst) 
           (e1 : emitted) (s2 : pst) (e2 : emitted),
         two_trips cf ver w ilen s1 e1 s2 e2 -> valid_stream w -> forall S : space, rho_id s2 e2 S.
Proof. exact canonical_identity_maps_valid. Qed.

Theorem c08_module_fixpoint_all_but_names :
  forall (cf : config) (ver : str) (w : wmod) (ilen : wins -> N) (s1 : pst) 
           (e1 : emitted) (s2 : pst) (e2 : emitted),
         two_trips cf ver w ilen s1 e1 s2 e2 ->
         valid_stream w ->
         ModFix8.name_payload (em_secs e2) = ModFix8.name_payload (em_secs e1) -> em_secs e2 = em_secs e1.
Proof. exact module_fixpoint_but_names. Qed.

(* the second trip cannot fail, and iterating the round trip any number of times gives the stream of the first trip *)
From WV Require Import Proofs.ModFix32.
Theorem c08_second_trip_total :
  forall (cf : config) (ver : str) (w : wmod) (s1 : pst) (ilen : wins -> N) (e1 : emitted),
         valid_stream w ->
         parseM cf ver w = POk s1 ->
         emitM (ps_m s1) ilen [] = Ok e1 ->
         valid_stream (em_secs e1) /\
         (exists (s2 : pst) (e2 : emitted),
            parseM cf ver (em_secs e1) = POk s2 /\
            emitM (ps_m s2) ilen [] = Ok e2 /\
            (cf_skip_name cf = true \/ cf_synthetic_names cf = false -> em_secs e2 = em_secs e1)).
Proof. exact module_fixpoint_total. Qed.

Theorem c08_round_trip_idempotent :
  forall (cf : config) (ver : str) (ilen : wins -> N) (w w1 : wmod),
         valid_stream w ->
         cf_skip_name cf = true \/ cf_synthetic_names cf = false ->
         trip cf ver ilen w = Some w1 -> forall n : nat, (n >= 1)%nat -> trips cf ver ilen n w = Some w1.
Proof. exact emit_parse_idempotent_on_valid. Qed.

Theorem c08_module_fixpoint_nonvacuous :
  exists (s1 : pst) (e1 : emitted) (s2 : pst) (e2 : emitted),
           two_trips default_config [49] ModFixEx.wA ModFixEx.il1 s1 e1 s2 e2 /\
           em_secs e2 = em_secs e1 /\ em_secs e1 <> ModFixEx.wA.
Proof. exact ModFixEx.module_fixpoint_nonvacuous. Qed.

Theorem c08_fix_types :
  forall (cf : config) (ver : str) (w : wmod) (ilen : wins -> N) (s1 : pst) 
           (e1 : emitted) (s2 : pst) (e2 : emitted),
         two_trips cf ver w ilen s1 e1 s2 e2 ->
         flat_map Structure2.types_of (em_secs e2) = flat_map Structure2.types_of (em_secs e1).
Proof. exact ModFix3.fix_types. Qed.

Theorem c08_fix_tables :
  forall (cf : config) (ver : str) (w : wmod) (ilen : wins -> N) (s1 : pst) 
           (e1 : emitted) (s2 : pst) (e2 : emitted),
         two_trips cf ver w ilen s1 e1 s2 e2 ->
         flat_map Structure.tables_of (em_secs e2) = flat_map Structure.tables_of (em_secs e1).
Proof. exact ModFix4.fix_tables. Qed.


(* ---- the open case (names emitted AND synthesised) reduced to two visible facts about the second parse (it finds exactly the names the first
   emit wrote); the parse invariants behind them (under synthetic names every local and every local function is named after parsing); the
   refutation witness of the unrestricted statement has a local index out of range *)
From WV Require Import Proofs.ModFix40.
Theorem c08_module_fixpoint_all_configs_partial :
  forall (cf : config) (ver : str) (w : wmod) (ilen : wins -> N) (s1 : pst) 
           (e1 : emitted) (s2 : pst) (e2 : emitted),
         two_trips cf ver w ilen s1 e1 s2 e2 ->
         valid_stream w ->
         (cf_skip_name cf = false ->
          cf_synthetic_names cf = true ->
          ModFix21.funcs_named_kept s2 (ModFix7.stream_names (em_secs e1)) /\
          locals_named_kept s2 (ModFix7.stream_names (em_secs e1))) -> em_secs e2 = em_secs e1.
Proof. exact module_fixpoint_all_configs_partial. Qed.

Theorem c08_synthetic_names_every_local_named :
  forall (cf : config) (ver : str) (w : wmod) (s : pst),
         parseM cf ver w = POk s -> cf_synthetic_names cf = true -> LN (m_locals (ps_m s)).
Proof. exact parseM_locals_named. Qed.

Theorem c08_synthetic_names_every_function_named :
  forall (cf : config) (ver : str) (w : wmod) (s : pst),
         parseM cf ver w = POk s -> cf_synthetic_names cf = true -> Forall fnl (WV.Model.Arena.items (m_funcs (ps_m s))).
Proof. exact parseM_funcs_named. Qed.

Theorem c08_refutation_witness_has_local_out_of_range :
  ~ locals_in_range ModFixEx.wP.
Proof. exact wP_violates. Qed.


(* ---- the open case CLOSED: for EVERY configuration (synthetic names included) the round trip is a fixpoint on every stream with the validator's
   guarantees whose bodies use no local index out of range (the executable premise [locals_in_range]; the real validator guarantees it, the model's
   [valid_stream] does not - it is exactly what the refutation witness above violates); the second trip exists; one trip lands on a fixed point *)
From WV Require Import Proofs.ModFix41.
Theorem c08_module_fixpoint_all_configs :
  forall (cf : config) (ver : str) (w : wmod) (ilen : wins -> N) (s1 : pst) 
           (e1 : emitted) (s2 : pst) (e2 : emitted),
         two_trips cf ver w ilen s1 e1 s2 e2 -> valid_stream w -> locals_in_range w -> em_secs e2 = em_secs e1.
Proof. exact module_fixpoint_all_configs. Qed.

Theorem c08_module_fixpoint_total_all_configs :
  forall (cf : config) (ver : str) (w : wmod) (s1 : pst) (ilen : wins -> N) (e1 : emitted),
         valid_stream w ->
         locals_in_range w ->
         parseM cf ver w = POk s1 ->
         emitM (ps_m s1) ilen [] = Ok e1 ->
         valid_stream (em_secs e1) /\
         (exists (s2 : pst) (e2 : emitted),
            parseM cf ver (em_secs e1) = POk s2 /\ emitM (ps_m s2) ilen [] = Ok e2 /\ em_secs e2 = em_secs e1).
Proof. exact module_fixpoint_total_all_configs. Qed.

Theorem c08_round_trip_idempotent_all_configs :
  forall (cf : config) (ver : str) (ilen : wins -> N) (w w1 : wmod),
         valid_stream w ->
         locals_in_range w ->
         trip cf ver ilen w = Some w1 -> forall n : nat, (n >= 1)%nat -> trips cf ver ilen n w = Some w1.
Proof. exact emit_parse_idempotent_all_configs. Qed.


From WV Require Gen.ConfigEmit Proofs.Config.
(* the order in which Module::emit_wasm calls the section emitters (regenerated on every run) *)
Theorem c08_emit_wasm_source_pinned : WV.Gen.ConfigEmit.emit_wasm_skeleton = WV.Proofs.Config.expected_emit_wasm_skeleton.
Proof. exact WV.Proofs.Config.emit_wasm_skeleton_pinned. Qed.

Require Import Coq.Strings.String.
From WV Require Import Gen.SortKeys.
Theorem c08_source_sort_keys :
  sort_call SS_used_locals = "sort_unstable()"%string /\
  sort_call SS_local_functions = "sort_by_key(|(id,_,size)|(cmp::Reverse( *size),*id))"%string /\
  sort_call SS_types = "sort_by_key(|&(_,ty)|ty)"%string /\
  sort_call SS_function_ranges = "sort_by_key(|i|i.0)"%string /\
  sort_call SS_dwarf_ranges = "sort_by_key(|i|i.0.start)"%string /\
  sort_call SS_dwarf_instrs = "sort_by_key(|i|i.0)"%string /\
  Forall (fun p => snd p = "sort_by_key(|p|p.0)"%string) name_section_sorts /\
  map fst name_section_sorts = ["funcs"; "locals"; "types"; "tables"; "memories"; "globals"; "elements"; "data"; "map"]%string.
Proof. repeat split; try reflexivity. repeat constructor. Qed.


(* ================================================================== THE FIXPOINT AT BYTE LEVEL (Model/ModBytes.v, Proofs/BytesEnd.v):
   [roundtrip_bytes] = the model's reader, parseM, emitM, the model's writer; walrus's output bytes are a fixpoint of it, for every configuration *)
From WV Require Import Model.ModBytes Proofs.ModBytes Proofs.BytesEnd.
Theorem c08_bytes_fixpoint :
  forall (cf : config) (ver : str) (ilen : wins -> N) (bs b1 : list N) (w : wmod),
    dec_wmod false bs = Some w -> ParseTotal.valid_stream w -> ModFix40.locals_in_range w ->
    (forall (s : pst) (e : emitted), parseM cf ver w = POk s -> emitM (ps_m s) ilen nil = Ok e -> wf_wmod (em_secs e) = true) ->
    roundtrip_bytes cf ver ilen bs = Some b1 -> roundtrip_bytes cf ver ilen b1 = Some b1.
Proof. exact bytes_fixpoint. Qed.
Theorem c08_bytes_round_trip_idempotent :
  forall (cf : config) (ver : str) (ilen : wins -> N) (bs b1 : list N) (w : wmod),
    dec_wmod false bs = Some w -> ParseTotal.valid_stream w -> ModFix40.locals_in_range w ->
    (forall (s : pst) (e : emitted), parseM cf ver w = POk s -> emitM (ps_m s) ilen nil = Ok e -> wf_wmod (em_secs e) = true) ->
    roundtrip_bytes cf ver ilen bs = Some b1 -> forall n : nat, (n >= 1)%nat -> roundtrips_bytes cf ver ilen n bs = Some b1.
Proof. exact bytes_round_trip_idempotent. Qed.
(* non-vacuity, by the theorem and again by computation: the round trip of the module with one of everything, with the encoder's real instruction lengths *)
Example c08_bytes_fixpoint_example : roundtrip_bytes default_config ev_ver Bytes.ilen_total everything_out = Some everything_out.
Proof. exact everything_out_is_fixpoint. Qed.

Print Assumptions c08_emit_keeps_module.
Print Assumptions c08_repeat.
Print Assumptions c08_locals_order_free.
Print Assumptions c08_names_order_free.
Print Assumptions c08_func_order_free.
Print Assumptions c08_sorted_locals_stay.
Print Assumptions c08_sorted_types_stay.
Print Assumptions c08_func_order_canonical.
Print Assumptions c08_source_sort_keys.
Print Assumptions c08_types_order_free_for_parsed_modules.
Print Assumptions c08_functions_iteration_order_free.
Print Assumptions c08_locals_perm_invariant.
Print Assumptions c08_names_perm_invariant.
Print Assumptions c08_type_ties_possible_on_arbitrary_arenas.
Print Assumptions c08_normal_form_idempotent.
Print Assumptions c08_normal_forms_are_the_fixed_points.
Print Assumptions c08_operator_fixed_under_identity_renaming.
Print Assumptions c08_body_fixpoint.
Print Assumptions c08_emitted_stream_is_parsed_stream.
Print Assumptions c08_emit_wasm_source_pinned.
Print Assumptions c08_module_fixpoint.
Print Assumptions c08_module_fixpoint_unrestricted_refuted.
Print Assumptions c08_emitted_stream_canonical.
Print Assumptions c08_second_trip_renumbering_is_identity.
Print Assumptions c08_module_fixpoint_all_but_names.
Print Assumptions c08_second_trip_total.
Print Assumptions c08_module_fixpoint_nonvacuous.
Print Assumptions c08_fix_types.
Print Assumptions c08_fix_tables.
Print Assumptions c08_round_trip_idempotent.
Print Assumptions c08_module_fixpoint_all_configs_partial.
Print Assumptions c08_synthetic_names_every_local_named.
Print Assumptions c08_synthetic_names_every_function_named.
Print Assumptions c08_refutation_witness_has_local_out_of_range.
Print Assumptions c08_module_fixpoint_all_configs.
Print Assumptions c08_module_fixpoint_total_all_configs.
Print Assumptions c08_round_trip_idempotent_all_configs.
Print Assumptions c08_bytes_fixpoint.
Print Assumptions c08_bytes_round_trip_idempotent.
Print Assumptions c08_bytes_fixpoint_example.
