(* Module::parse as a sequence of steps.  Every function of Model/ParseM.v is a loop (or a fixed sequence) over one
   kind of input item; [do_step] names the loop bodies and each parse function is a run of steps.  What is proved
   of one step (a property it keeps, the fields of the module it may write, the component of the index maps it may
   extend) then holds of every parse function and of parseM, with no induction over each of them. *)
From Coq Require Import List NArith Bool. Import ListNotations.
From WV Require Import Gen.Ops Model.Common Model.IR Model.Arena Model.ParseFn Model.ModuleM Model.ParseM Gen.Attrs.
Local Open Scope N_scope.

Lemma pbind_ok {A B} (r : pres A) (f : A -> pres B) b :
  pbind r f = POk b -> exists a, r = POk a /\ f a = POk b.
Proof. destruct r; cbn; try discriminate. intros H. eauto. Qed.
Lemma of_opt_err_ok {A} (o : option A) a : of_opt_err o = POk a -> o = Some a.
Proof. destruct o; cbn; congruence. Qed.
Lemma of_opt_panic_ok {A} (o : option A) a : of_opt_panic o = POk a -> o = Some a.
Proof. destruct o; cbn; congruence. Qed.

Tactic Notation "pinv" hyp(H) "as" ident(a) ident(E) :=
  apply pbind_ok in H; destruct H as [a [E H]].
Tactic Notation "pinv" hyp(H) :=
  let a := fresh "a" in let E := fresh "E" in
  apply pbind_ok in H; destruct H as [a [E H]].

(* [cbn] restricted to the record projections, [set_*], [push_*] and the arena operations, in the goal and all hypotheses:
   shows the fields a step wrote and unfolds nothing else *)
Ltac wcbn :=
  cbn [ps_m ps_ids ps_bodies ps_names ps_calls_on_parse with_m with_ids
       set_types set_imports set_funcs set_tables set_memories set_globals set_locals set_exports set_data
       set_elements set_start set_producers set_customs set_debug set_name
       m_imports m_tables m_types m_funcs m_globals m_locals m_exports m_memories m_data m_elements m_start
       m_producers m_customs m_debug m_name m_config m_code_section_offset
       ii_tables ii_types ii_funcs ii_globals ii_memories ii_elements ii_data ii_locals
       push_func push_table push_memory push_global push_element push_data push_local
       items dead Arena.arena already aset_at aalloc alloc next_id anext fst snd] in *.

Definition pstate : Type := wir * i2ids.

Definition push_type (ids : i2ids) (id : N) : i2ids :=
  {| ii_tables := ii_tables ids; ii_types := ii_types ids ++ [id]; ii_funcs := ii_funcs ids; ii_globals := ii_globals ids;
     ii_memories := ii_memories ids; ii_elements := ii_elements ids; ii_data := ii_data ids; ii_locals := ii_locals ids |}.

Inductive step :=
| St_type (ps rs : list valty)                       (* one entry of the type section *)
| St_import (i : wimport)
| St_func (tyidx : N)                                (* one entry of the function section *)
| St_table (t : wtable)
| St_mem (mm : wmem)
| St_global (g : wglobalty) (c : wconst)
| St_export (e : wexport)
| St_start (f : N)
| St_elem (e : welem)
| St_reserve_data                                    (* one slot reserved by the data count section *)
| St_data (prealloc : bool) (i : N) (d : wdata)      (* the i-th data segment *)
| St_custom (c : wcsec)                              (* producers / debug / raw; a name section leaves the module alone *)
| St_local (fid : N) (t : valty) (prefix : str)      (* one argument or declared local of function fid *)
| St_entry_type (rs : list valty)                    (* the block type of a function's entry block *)
| St_body (p : prepared)                             (* a parsed body installed in its function *)
| St_names (n : wnames)
| St_processed_by (version : str).

Definition do_step (st : step) (m : wir) (ids : i2ids) : pres pstate :=
  match st with
  | St_type ps rs =>
      let '(m1, id) := types_insert m {| ty_params := ps; ty_results := rs; ty_entry := false; ty_name := None |} in
      POk (m1, push_type ids id)
  | St_import i => parse_import m ids i
  | St_func tyidx =>
      ty <-- of_opt_err (nth_N (ii_types ids) tyidx) ;;
      let '(fa, fid) := aalloc (m_funcs m) {| fn_kind := FK_Uninit ty; fn_name := None |} in
      let idx := len_N (ii_funcs ids) in
      (* [102] is "f": walrus names the function format!("f{}", idx) *)
      let fa := match synth (m_config m) [102] idx with Some n => aset_at fa fid (fun f => {| fn_kind := fn_kind f; fn_name := Some n |}) | None => fa end in
      POk (set_funcs m fa, push_func ids fid)
  | St_table t => let '(ta, tid) := aalloc (m_tables m) (gen_parse_table_local t) in POk (set_tables m ta, push_table ids tid)
  | St_mem mm => let '(ma, mid) := aalloc (m_memories m) (gen_parse_memory_local mm) in POk (set_memories m ma, push_memory ids mid)
  | St_global g c =>
      init <-- eval_const ids c ;;
      let '(ga, gid) := aalloc (m_globals m) (gen_parse_global_local g init) in
      POk (set_globals m ga, push_global ids gid)
  | St_export e =>
      item <-- of_opt_err (nth_N (ids_of_kind ids (we_kind e)) (we_index e)) ;;
      let '(ea, _) := aalloc (m_exports m) {| ex_name := we_name e; ex_kind := we_kind e; ex_item := item |} in
      POk (set_exports m ea, ids)
  | St_start f => fid <-- of_opt_err (nth_N (ii_funcs ids) f) ;; POk (set_start m (Some fid), ids)
  | St_elem e => parse_elem m ids e
  | St_reserve_data => let '(da, did) := aalloc (m_data m) empty_data in POk (set_data m da, push_data ids did)
  | St_data prealloc i d => parse_data_from m ids prealloc i [d]
  | St_custom c =>
      POk (ps_m (parse_custom {| ps_m := m; ps_ids := ids; ps_bodies := []; ps_names := []; ps_calls_on_parse := 0 |} c), ids)
  | St_local fid t prefix => let '(m1, ids1, _) := add_locals m ids fid [t] prefix in POk (m1, ids1)
  | St_entry_type rs =>
      POk (fst (types_insert m {| ty_params := []; ty_results := rs; ty_entry := true; ty_name := None |}), ids)
  | St_body p =>
      lf <-- parse_one_body m ids p ;;
      POk (set_funcs m (aset_at (m_funcs m) (pr_fid p) (fun f => {| fn_kind := FK_Local lf; fn_name := fn_name f |})), ids)
  | St_names n => POk (parse_names m ids n, ids)
  | St_processed_by version => POk (set_producers m (producers_field (m_producers m) s_processed_by s_walrus version), ids)
  end.

Fixpoint run_steps (l : list step) (m : wir) (ids : i2ids) : pres pstate :=
  match l with [] => POk (m, ids) | st :: r => x <-- do_step st m ids ;; run_steps r (fst x) (snd x) end.

Lemma run_steps_app l1 l2 m ids :
  run_steps (l1 ++ l2) m ids = (x <-- run_steps l1 m ids ;; run_steps l2 (fst x) (snd x)).
Proof.
  revert m ids; induction l1 as [|st r IH]; intros m ids; cbn [run_steps app pbind]; [reflexivity|].
  destruct (do_step st m ids) as [x| |]; cbn [pbind]; [apply IH|reflexivity|reflexivity].
Qed.

Lemma parse_types_steps ts : forall m ids,
  run_steps (map (fun t => St_type (fst t) (snd t)) ts) m ids = POk (parse_types m ids ts).
Proof.
  induction ts as [|[ps rs] r IH]; intros m ids; cbn [map run_steps parse_types do_step fst snd]; [reflexivity|].
  destruct (types_insert m _) as [m1 id]. apply IH.
Qed.
Lemma parse_imports_steps l : forall m ids, run_steps (map St_import l) m ids = parse_imports m ids l.
Proof. induction l as [|i r IH]; intros m ids; cbn [map run_steps parse_imports do_step]; [reflexivity|]. destruct (parse_import m ids i) as [x| |]; cbn [pbind]; [apply IH|reflexivity|reflexivity]. Qed.
Lemma parse_funcs_steps l : forall m ids, run_steps (map St_func l) m ids = parse_funcs m ids l.
Proof.
  induction l as [|t r IH]; intros m ids; cbn [map run_steps parse_funcs do_step]; [reflexivity|].
  destruct (of_opt_err _) as [ty| |]; cbn [pbind]; [|reflexivity|reflexivity]. destruct (aalloc _ _) as [fa fid]. apply IH.
Qed.
Lemma parse_tables_steps l : forall m ids, run_steps (map St_table l) m ids = POk (parse_tables m ids l).
Proof. induction l as [|t r IH]; intros m ids; cbn [map run_steps parse_tables do_step]; [reflexivity|]. destruct (aalloc _ _) as [ta tid]. apply IH. Qed.
Lemma parse_mems_steps l : forall m ids, run_steps (map St_mem l) m ids = POk (parse_mems m ids l).
Proof. induction l as [|t r IH]; intros m ids; cbn [map run_steps parse_mems do_step]; [reflexivity|]. destruct (aalloc _ _) as [ta tid]. apply IH. Qed.
Lemma parse_globals_steps l : forall m ids, run_steps (map (fun x => St_global (fst x) (snd x)) l) m ids = parse_globals m ids l.
Proof.
  induction l as [|[g c] r IH]; intros m ids; cbn [map run_steps parse_globals do_step fst snd]; [reflexivity|].
  destruct (eval_const ids c) as [init| |]; cbn [pbind]; [|reflexivity|reflexivity]. destruct (aalloc _ _) as [ga gid]. apply IH.
Qed.
Lemma parse_exports_steps l : forall m ids,
  run_steps (map St_export l) m ids = (m' <-- parse_exports m ids l ;; POk (m', ids)).
Proof.
  induction l as [|e r IH]; intros m ids; cbn [map run_steps parse_exports do_step]; [reflexivity|].
  destruct (of_opt_err _) as [item| |]; cbn [pbind]; [|reflexivity|reflexivity]. destruct (aalloc _ _) as [ea eid]. apply IH.
Qed.
Lemma parse_elems_steps l : forall m ids, run_steps (map St_elem l) m ids = parse_elems m ids l.
Proof. induction l as [|i r IH]; intros m ids; cbn [map run_steps parse_elems do_step]; [reflexivity|]. destruct (parse_elem m ids i) as [x| |]; cbn [pbind]; [apply IH|reflexivity|reflexivity]. Qed.
Lemma reserve_data_steps n : forall m ids, run_steps (repeat St_reserve_data n) m ids = POk (reserve_data m ids n).
Proof. induction n as [|n IH]; intros m ids; cbn [repeat run_steps reserve_data do_step]; [reflexivity|]. destruct (aalloc _ _) as [da did]. apply IH. Qed.

Fixpoint data_steps (prealloc : bool) (i : N) (l : list wdata) : list step :=
  match l with [] => [] | d :: r => St_data prealloc i d :: data_steps prealloc (i + 1) r end.
Lemma parse_data_from_steps l : forall m ids pre i, run_steps (data_steps pre i l) m ids = parse_data_from m ids pre i l.
Proof.
  induction l as [|d r IH]; intros m ids pre i; cbn [data_steps run_steps parse_data_from do_step]; [reflexivity|].
  destruct (if pre then _ else _) as [[[m1 ids1] id]| |]; cbn [pbind]; [|reflexivity|reflexivity].
  destruct (match wd_kind d with WDK_Passive => _ | WDK_Active mi off => _ end) as [[m2 kind]| |]; cbn [pbind]; [|reflexivity|reflexivity].
  destruct (of_opt_panic _) as [x| |]; cbn [pbind fst snd]; [apply IH|reflexivity|reflexivity].
Qed.

Lemma add_locals_steps tys : forall m ids fid prefix,
  run_steps (map (fun t => St_local fid t prefix) tys) m ids = POk (fst (add_locals m ids fid tys prefix)).
Proof.
  induction tys as [|t r IH]; intros m ids fid prefix; cbn [map run_steps add_locals do_step fst]; [reflexivity|].
  destruct (aalloc _ _) as [la lid]. cbn [pbind fst snd]. rewrite IH.
  destruct (add_locals _ _ fid r prefix) as [[m1 ids1] rest]. reflexivity.
Qed.
Lemma install_bodies_steps ps : forall m ids,
  run_steps (map St_body ps) m ids = (m' <-- install_bodies m ids ps ;; POk (m', ids)).
Proof.
  induction ps as [|p r IH]; intros m ids; cbn [map run_steps install_bodies do_step]; [reflexivity|].
  destruct (parse_one_body m ids p) as [lf| |]; cbn [pbind fst snd]; [apply IH|reflexivity|reflexivity].
Qed.
Lemma parse_all_names_steps ns : forall m ids,
  run_steps (map St_names ns) m ids = POk (fold_left (fun m n => parse_names m ids n) ns m, ids).
Proof. induction ns as [|n r IH]; intros m ids; cbn [map run_steps fold_left do_step pbind fst snd]; [reflexivity|apply IH]. Qed.

(* one payload; the data section looks at the module to see whether a data count section came before *)
Definition sec_steps (m : wir) (sec : wsec) : list step :=
  match sec with
  | S_Types ts => map (fun t => St_type (fst t) (snd t)) ts
  | S_Imports l => map St_import l
  | S_Funcs l => map St_func l
  | S_Tables l => map St_table l
  | S_Mems l => map St_mem l
  | S_Globals l => map (fun x => St_global (fst x) (snd x)) l
  | S_Exports l => map St_export l
  | S_Start f => [St_start f]
  | S_Elems l => map St_elem l
  | S_DataCount n => repeat St_reserve_data (N.to_nat n)
  | S_Code _ => []
  | S_Data l => data_steps (negb (Nat.eqb (length (iter (m_data m))) 0)) 0 l
  | S_Custom c => [St_custom c]
  end.
Lemma parse_sec_steps s sec s' : parse_sec s sec = POk s' ->
  run_steps (sec_steps (ps_m s) sec) (ps_m s) (ps_ids s) = POk (ps_m s', ps_ids s').
Proof.
  intros E. destruct sec; cbn [parse_sec sec_steps] in *.
  - rewrite parse_types_steps. destruct (parse_types _ _ _). injection E as <-. reflexivity.
  - rewrite parse_imports_steps. pinv E as x Ex. injection E as <-. rewrite Ex. destruct x; reflexivity.
  - rewrite parse_funcs_steps. pinv E as x Ex. injection E as <-. rewrite Ex. destruct x; reflexivity.
  - rewrite parse_tables_steps. destruct (parse_tables _ _ _). injection E as <-. reflexivity.
  - rewrite parse_mems_steps. destruct (parse_mems _ _ _). injection E as <-. reflexivity.
  - rewrite parse_globals_steps. pinv E as x Ex. injection E as <-. rewrite Ex. destruct x; reflexivity.
  - rewrite parse_exports_steps. pinv E as x Ex. injection E as <-. rewrite Ex. reflexivity.
  - cbn [run_steps do_step]. pinv E as x Ex. injection E as <-. rewrite Ex. reflexivity.
  - rewrite parse_elems_steps. pinv E as x Ex. injection E as <-. rewrite Ex. destruct x; reflexivity.
  - rewrite reserve_data_steps. destruct (reserve_data _ _ _). injection E as <-. reflexivity.
  - injection E as <-. reflexivity.
  - rewrite parse_data_from_steps. pinv E as x Ex. injection E as <-. unfold parse_data in Ex. rewrite Ex. destruct x; reflexivity.
  - injection E as <-. cbn [run_steps do_step pbind fst snd]. destruct s, c as [n d|n d|[n|]|[p|]]; reflexivity.
Qed.

Lemma Forall_map_all {A B} (P : B -> Prop) (g : A -> B) l : (forall a, P (g a)) -> Forall P (map g l).
Proof. intros H. apply Forall_map, Forall_forall. intros a _. apply H. Qed.

(* the steps of a section are of the section's kind *)
Lemma in_sec_steps m sec st : In st (sec_steps m sec) ->
  match sec, st with
  | S_Types _, St_type _ _ | S_Imports _, St_import _ | S_Funcs _, St_func _ | S_Tables _, St_table _ | S_Mems _, St_mem _
  | S_Globals _, St_global _ _ | S_Exports _, St_export _ | S_Start _, St_start _ | S_Elems _, St_elem _
  | S_DataCount _, St_reserve_data | S_Data _, St_data _ _ _ => True
  | S_Custom c, St_custom c' => c' = c
  | _, _ => False
  end.
Proof.
  destruct sec as [l|l|l|l|l|l|l|f|l|n|l|l|c]; cbn [sec_steps]; intros H; try (apply in_map_iff in H; destruct H as [x [<- _]]; exact I).
  - destruct H as [<-|[]]. exact I.
  - apply repeat_spec in H. subst st. exact I.
  - destruct H.
  - revert H. generalize (negb (Nat.eqb (length (iter (m_data m))) 0)) as pre, 0 as i.
    induction l as [|d r IH]; intros pre i H; [destruct H|]. destruct H as [<-|H]; [exact I|exact (IH _ _ H)].
  - destruct H as [<-|[]]. reflexivity.
Qed.

(* a property of the kind of step a payload consists of holds of all its steps *)
Lemma sec_steps_all (P : step -> Prop) m sec :
  match sec with
  | S_Types _ => forall ps rs, P (St_type ps rs) | S_Imports _ => forall i, P (St_import i) | S_Funcs _ => forall t, P (St_func t)
  | S_Tables _ => forall t, P (St_table t) | S_Mems _ => forall t, P (St_mem t) | S_Globals _ => forall g c, P (St_global g c)
  | S_Exports _ => forall e, P (St_export e) | S_Start f => P (St_start f) | S_Elems _ => forall e, P (St_elem e)
  | S_DataCount _ => P St_reserve_data | S_Code _ => True | S_Data _ => forall pre i d, P (St_data pre i d)
  | S_Custom c => P (St_custom c)
  end -> Forall P (sec_steps m sec).
Proof.
  destruct sec; cbn [sec_steps]; intros H; try (apply Forall_map_all; intros; apply H); try (repeat constructor; exact H).
  - apply Forall_forall. intros st ->%repeat_spec. exact H.
  - generalize 0%N. induction ds as [|d r IH]; intros i; cbn [data_steps]; constructor; [apply H|apply IH].
Qed.

(* Module::parse runs its steps in four phases: the sections; then the locals and the entry block type of every
   defined function; then the bodies; then the name sections and the producers field. *)
Inductive phase := Sections | Prepare | Install | Naming.
Definition phase_of (st : step) : phase :=
  match st with
  | St_local _ _ _ | St_entry_type _ => Prepare
  | St_body _ => Install
  | St_names _ | St_processed_by _ => Naming
  | _ => Sections
  end.
(* the first two phases as propositions that compute on a given step *)
Definition sec_step (st : step) : Prop := match phase_of st with Sections => True | _ => False end.
Definition prepare_step (st : step) : Prop := match phase_of st with Prepare => True | _ => False end.
Lemma phase_sec_step st : phase_of st = Sections -> sec_step st.
Proof. unfold sec_step. intros ->. exact I. Qed.
Lemma prepare_step_phase st : prepare_step st -> phase_of st = Prepare.
Proof. unfold prepare_step. destruct (phase_of st); (reflexivity || contradiction). Qed.

Lemma sec_steps_phase m sec : Forall (fun st => phase_of st = Sections) (sec_steps m sec).
Proof. apply sec_steps_all. destruct sec; try exact I; reflexivity. Qed.

(* which steps prepare the bodies depends on the types looked up *)
Lemma prepare_bodies_steps bs : forall m ids ni i m' ids' ps,
  prepare_bodies m ids ni i bs = POk (m', ids', ps) -> exists l, Forall prepare_step l /\ run_steps l m ids = POk (m', ids').
Proof.
  induction bs as [|b r IH]; intros m ids ni i m' ids' ps E; cbn [prepare_bodies] in E.
  - injection E as <- <- _. exists []. split; [constructor|reflexivity].
  - pinv E as fid Efid. pinv E as f Ef. destruct (fn_kind f); try discriminate. pinv E as t Et.
    destruct (add_locals m ids fid (ty_params t) _) as [[m1 ids1] args] eqn:E1.
    destruct (types_insert m1 _) as [m2 tid] eqn:E2.
    destruct (add_locals m2 ids1 fid _ _) as [[m3 ids3] ls] eqn:E3.
    pinv E as x Ex. destruct x as [[m4 ids4] rest]. injection E as <- <- _.
    destruct (IH _ _ _ _ _ _ _ Ex) as (l & Hl & R).
    (* [97; 114; 103] is "arg", [108] is "l": walrus's format!("arg{}", i) and format!("l{}", i) *)
    exists (map (fun ty => St_local fid ty [97; 114; 103]) (ty_params t) ++ St_entry_type (ty_results t)
            :: map (fun ty => St_local fid ty [108]) (expand_locals (wb_locals b)) ++ l).
    split.
    + apply Forall_app. split; [apply Forall_map_all; intros; exact I|].
      constructor; [exact I|]. apply Forall_app. split; [apply Forall_map_all; intros; exact I|exact Hl].
    + rewrite run_steps_app, add_locals_steps, E1. cbn [pbind fst snd run_steps do_step]. rewrite E2. cbn [pbind fst snd].
      rewrite run_steps_app, add_locals_steps, E3. exact R.
Qed.

(* [reach_by Q a b]: from state a, steps of the class Q lead to state b *)
Inductive reach_by (Q : step -> Prop) : pstate -> pstate -> Prop :=
| rb_refl a : reach_by Q a a
| rb_step st m ids b c : Q st -> do_step st m ids = POk b -> reach_by Q b c -> reach_by Q (m, ids) c.
Definition reach : pstate -> pstate -> Prop := reach_by (fun _ => True).

Lemma reach_by_trans Q a b c : reach_by Q a b -> reach_by Q b c -> reach_by Q a c.
Proof. induction 1; intros H2; [exact H2|]. eapply rb_step; eauto. Qed.
Lemma reach_by_mono (Q Q' : step -> Prop) a b : (forall st, Q st -> Q' st) -> reach_by Q a b -> reach_by Q' a b.
Proof. intros HQ. induction 1; [constructor|]. eapply rb_step; eauto. Qed.
Lemma reach_by_reach Q a b : reach_by Q a b -> reach a b.
Proof. apply reach_by_mono. intros st _. exact I. Qed.

Lemma run_steps_by Q l : Forall Q l -> forall m ids b, run_steps l m ids = POk b -> reach_by Q (m, ids) b.
Proof.
  induction 1 as [|st r Hst _ IH]; intros m ids b E; cbn [run_steps] in E.
  - injection E as <-. constructor.
  - pinv E as x Ex. destruct x as [m1 ids1]. eapply rb_step; [exact Hst|exact Ex|apply IH; exact E].
Qed.
Lemma parse_sec_by s sec s' : parse_sec s sec = POk s' ->
  reach_by (fun st => phase_of st = Sections) (ps_m s, ps_ids s) (ps_m s', ps_ids s').
Proof. intros E. exact (run_steps_by _ _ (sec_steps_phase _ _) _ _ _ (parse_sec_steps _ _ _ E)). Qed.
Lemma parse_secs_by w : forall s s', parse_secs s w = POk s' ->
  reach_by (fun st => phase_of st = Sections) (ps_m s, ps_ids s) (ps_m s', ps_ids s').
Proof.
  induction w as [|sec r IH]; intros s s' E; cbn [parse_secs] in E.
  - injection E as <-. constructor.
  - pinv E as s1 E1. exact (reach_by_trans _ _ _ _ (parse_sec_by _ _ _ E1) (IH _ _ E)).
Qed.
Lemma add_locals_by m ids fid tys prefix m' ids' ls : add_locals m ids fid tys prefix = (m', ids', ls) ->
  reach_by (fun st => phase_of st = Prepare) (m, ids) (m', ids').
Proof.
  intros E. eapply run_steps_by; [|rewrite add_locals_steps, E; reflexivity]. apply Forall_map_all. reflexivity.
Qed.
Lemma prepare_bodies_by bs m ids ni i m' ids' ps : prepare_bodies m ids ni i bs = POk (m', ids', ps) ->
  reach_by (fun st => phase_of st = Prepare) (m, ids) (m', ids').
Proof.
  intros E. destruct (prepare_bodies_steps _ _ _ _ _ _ _ _ E) as (l & Hl & R).
  exact (run_steps_by _ l (Forall_impl _ prepare_step_phase Hl) _ _ _ R).
Qed.
Lemma install_bodies_by ps m ids m' : install_bodies m ids ps = POk m' -> reach_by (fun st => phase_of st = Install) (m, ids) (m', ids).
Proof.
  intros E. eapply run_steps_by; [|rewrite install_bodies_steps, E; reflexivity]. apply Forall_map_all. reflexivity.
Qed.

Lemma run_steps_reach l m ids b : run_steps l m ids = POk b -> reach (m, ids) b.
Proof. apply run_steps_by, Forall_forall. intros st _. exact I. Qed.
Lemma parse_secs_reach w s s' : parse_secs s w = POk s' -> reach (ps_m s, ps_ids s) (ps_m s', ps_ids s').
Proof. intros E. exact (reach_by_reach _ _ _ (parse_secs_by _ _ _ E)). Qed.
Lemma add_locals_reach m ids fid tys prefix m' ids' ls :
  add_locals m ids fid tys prefix = (m', ids', ls) -> reach (m, ids) (m', ids').
Proof. intros E. exact (reach_by_reach _ _ _ (add_locals_by _ _ _ _ _ _ _ _ E)). Qed.
Lemma prepare_bodies_reach bs m ids ni i m' ids' ps :
  prepare_bodies m ids ni i bs = POk (m', ids', ps) -> reach (m, ids) (m', ids').
Proof. intros E. exact (reach_by_reach _ _ _ (prepare_bodies_by _ _ _ _ _ _ _ _ E)). Qed.
Lemma install_bodies_reach ps m ids m' : install_bodies m ids ps = POk m' -> reach (m, ids) (m', ids).
Proof. intros E. exact (reach_by_reach _ _ _ (install_bodies_by _ _ _ _ E)). Qed.

Theorem parseM_reach cf ver w s : parseM cf ver w = POk s -> reach (empty_wir cf, empty_i2ids) (ps_m s, ps_ids s).
Proof.
  unfold parseM. intros E. pinv E as s1 E1. apply parse_secs_reach in E1. cbn [ps_m ps_ids] in E1.
  destruct (_ <? _); [discriminate|]. pinv E as x Ex. destruct x as [[m1 ids1] prepared]. pinv E as m2 E2. injection E as <-.
  cbn [ps_m ps_ids].
  eapply reach_by_trans; [exact E1|]. eapply reach_by_trans; [exact (prepare_bodies_reach _ _ _ _ _ _ _ _ Ex)|].
  eapply reach_by_trans; [exact (install_bodies_reach _ _ _ _ E2)|].
  eapply reach_by_trans; [exact (run_steps_reach _ _ _ _ (parse_all_names_steps (ps_names s1) _ _))|].
  eapply (rb_step _ (St_processed_by ver)); [exact I|reflexivity|constructor].
Qed.

(* What every step of a class keeps is kept along the runs of that class. *)
Section InvOn.
  Variable Q : step -> Prop.
  Variable Inv : wir -> i2ids -> Prop.
  Hypothesis step_inv : forall st m ids m' ids', Q st -> Inv m ids -> do_step st m ids = POk (m', ids') -> Inv m' ids'.
  Lemma reach_by_inv a b : reach_by Q a b -> Inv (fst a) (snd a) -> Inv (fst b) (snd b).
  Proof. induction 1 as [|st m ids [m1 ids1] c Hq E _ IH]; intros H; [exact H|]. exact (IH (step_inv _ _ _ _ _ Hq H E)). Qed.
  Lemma run_steps_inv_on l : Forall Q l -> forall m ids m' ids', Inv m ids -> run_steps l m ids = POk (m', ids') -> Inv m' ids'.
  Proof. intros Hl m ids m' ids' H E. exact (reach_by_inv _ _ (run_steps_by Q l Hl _ _ _ E) H). Qed.
  Lemma add_locals_inv_on tys m ids fid pre m' ids' l : (forall t, Q (St_local fid t pre)) ->
    Inv m ids -> add_locals m ids fid tys pre = (m', ids', l) -> Inv m' ids'.
  Proof.
    intros K H E. apply (run_steps_inv_on _ (Forall_map_all Q _ tys K) _ _ _ _ H). rewrite add_locals_steps, E. reflexivity.
  Qed.

  Hypothesis Q_sec : forall st, sec_step st -> Q st.
  Let Q_sections a b (R : reach_by (fun st => phase_of st = Sections) a b) : reach_by Q a b :=
    reach_by_mono _ Q a b (fun st H => Q_sec st (phase_sec_step st H)) R.
  Lemma parse_sec_inv_on s sec s' : Inv (ps_m s) (ps_ids s) -> parse_sec s sec = POk s' -> Inv (ps_m s') (ps_ids s').
  Proof. intros H E. exact (reach_by_inv _ _ (Q_sections _ _ (parse_sec_by _ _ _ E)) H). Qed.
  Lemma parse_secs_inv_on w s s' : Inv (ps_m s) (ps_ids s) -> parse_secs s w = POk s' -> Inv (ps_m s') (ps_ids s').
  Proof. intros H E. exact (reach_by_inv _ _ (Q_sections _ _ (parse_secs_by _ _ _ E)) H). Qed.
End InvOn.
Lemma parse_secs_sec_inv (Inv : wir -> i2ids -> Prop) :
  (forall st m ids m' ids', sec_step st -> Inv m ids -> do_step st m ids = POk (m', ids') -> Inv m' ids') ->
  forall w s s', Inv (ps_m s) (ps_ids s) -> parse_secs s w = POk s' -> Inv (ps_m s') (ps_ids s').
Proof. intros step_inv. exact (parse_secs_inv_on sec_step Inv step_inv (fun _ H => H)). Qed.

(* the class of all steps, up to parseM *)
Section Inv.
  Variable Inv : wir -> i2ids -> Prop.
  Hypothesis step_inv : forall st m ids m' ids', Inv m ids -> do_step st m ids = POk (m', ids') -> Inv m' ids'.

  Lemma reach_inv a b : reach a b -> Inv (fst a) (snd a) -> Inv (fst b) (snd b).
  Proof. exact (reach_by_inv (fun _ => True) Inv (fun st m ids m' ids' _ => step_inv st m ids m' ids') a b). Qed.
  Lemma run_steps_inv l m ids m' ids' : Inv m ids -> run_steps l m ids = POk (m', ids') -> Inv m' ids'.
  Proof. intros H E. exact (reach_inv _ _ (run_steps_reach _ _ _ _ E) H). Qed.
  Lemma parse_secs_inv w s s' : Inv (ps_m s) (ps_ids s) -> parse_secs s w = POk s' -> Inv (ps_m s') (ps_ids s').
  Proof. intros H E. exact (reach_inv _ _ (parse_secs_reach _ _ _ E) H). Qed.
  Theorem parseM_inv cf ver w s : Inv (empty_wir cf) empty_i2ids -> parseM cf ver w = POk s -> Inv (ps_m s) (ps_ids s).
  Proof. intros H E. exact (reach_inv _ _ (parseM_reach _ _ _ _ E) H). Qed.
End Inv.

(* The fields of the module a step may write: [m'] after the step is [m] with those fields taken from [m'].
   A projection of any other field reduces, on [writes st m m'], to the projection of [m]. *)
Definition writes (st : step) (m m' : wir) : wir :=
  match st with
  | St_type _ _ | St_entry_type _ => set_types m (m_types m')
  | St_import _ => set_imports (set_funcs (set_tables (set_memories (set_globals m (m_globals m')) (m_memories m')) (m_tables m')) (m_funcs m')) (m_imports m')
  | St_func _ | St_body _ => set_funcs m (m_funcs m')
  | St_table _ => set_tables m (m_tables m')
  | St_mem _ => set_memories m (m_memories m')
  | St_global _ _ => set_globals m (m_globals m')
  | St_export _ => set_exports m (m_exports m')
  | St_start _ => set_start m (m_start m')
  | St_elem _ => set_elements (set_tables m (m_tables m')) (m_elements m')
  | St_reserve_data => set_data m (m_data m')
  | St_data _ _ _ => set_data (set_memories m (m_memories m')) (m_data m')
  | St_custom _ => set_customs (set_debug (set_producers m (m_producers m')) (m_debug m')) (m_customs m')
  | St_local _ _ _ => set_locals m (m_locals m')
  | St_names _ => set_data (set_elements (set_globals (set_memories (set_tables (set_types (set_locals (set_funcs (set_name m (m_name m'))
                    (m_funcs m')) (m_locals m')) (m_types m')) (m_tables m')) (m_memories m')) (m_globals m')) (m_elements m')) (m_data m')
  | St_processed_by _ => set_producers m (m_producers m')
  end.
Lemma wir_eta m : m = {| m_imports := m_imports m; m_tables := m_tables m; m_types := m_types m; m_funcs := m_funcs m; m_globals := m_globals m;
  m_locals := m_locals m; m_exports := m_exports m; m_memories := m_memories m; m_data := m_data m; m_elements := m_elements m; m_start := m_start m;
  m_producers := m_producers m; m_customs := m_customs m; m_debug := m_debug m; m_name := m_name m; m_config := m_config m;
  m_code_section_offset := m_code_section_offset m |}.
Proof. destruct m; reflexivity. Qed.

Lemma apply_local_names_writes l : forall m ids m', apply_local_names m ids l = Some m' -> m' = set_locals m (m_locals m').
Proof.
  induction l as [|[fi names] r IH]; intros m ids m' E; cbn [apply_local_names] in E.
  - injection E as <-. apply wir_eta.
  - destruct (nth_N (ii_funcs ids) fi); apply IH in E; exact E.
Qed.
Lemma parse_names_writes m ids n : parse_names m ids n = writes (St_names n) m (parse_names m ids n).
Proof.
  unfold parse_names. cbv zeta. destruct (apply_local_names _ ids (wn_locals n)) as [m1|] eqn:E.
  - apply apply_local_names_writes in E. rewrite E. destruct (wn_module n); reflexivity.
  - destruct (wn_module n); reflexivity.
Qed.

(* The index maps: a step leaves them alone or pushes one id onto one component. *)
Definition pushes (st : step) (ids : i2ids) (id : N) : i2ids :=
  match st with
  | St_type _ _ => push_type ids id
  | St_import i => match wi_kind i with WI_Func _ => push_func ids id | WI_Table _ => push_table ids id
                                      | WI_Mem _ => push_memory ids id | WI_Global _ => push_global ids id end
  | St_func _ => push_func ids id
  | St_table _ => push_table ids id
  | St_mem _ => push_memory ids id
  | St_global _ _ => push_global ids id
  | St_elem _ => push_element ids id
  | St_reserve_data => push_data ids id
  | St_data prealloc _ _ => if prealloc then ids else push_data ids id
  | St_local fid _ _ => push_local ids fid id
  | St_export _ | St_start _ | St_custom _ | St_entry_type _ | St_body _ | St_names _ | St_processed_by _ => ids
  end.

Theorem step_frame st m ids m' ids' : do_step st m ids = POk (m', ids') ->
  m' = writes st m m' /\ exists id, ids' = pushes st ids id.
Proof.
  intros E. destruct st; cbn [do_step pushes] in *.
  - unfold types_insert in E. destruct (insert _ _ _). injection E as <- <-. split; [reflexivity|eexists; reflexivity].
  - unfold parse_import in E. destruct (wi_kind i); [pinv E| | |]; wcbn; injection E as <- <-; (split; [reflexivity|eexists; reflexivity]).
  - pinv E. wcbn. injection E as <- <-. split; [reflexivity|eexists; reflexivity].
  - wcbn. injection E as <- <-. split; [reflexivity|eexists; reflexivity].
  - wcbn. injection E as <- <-. split; [reflexivity|eexists; reflexivity].
  - pinv E. wcbn. injection E as <- <-. split; [reflexivity|eexists; reflexivity].
  - pinv E. wcbn. injection E as <- <-. split; [reflexivity|exists 0; reflexivity].
  - pinv E. injection E as <- <-. split; [reflexivity|exists 0; reflexivity].
  - unfold parse_elem in E. pinv E as its Eits. pinv E as mk Emk. destruct mk as [m1 kind]. wcbn. injection E as <- <-.
    split; [|eexists; reflexivity]. destruct (wel_kind e).
    + injection Emk as <- _. reflexivity.
    + injection Emk as <- _. reflexivity.
    + pinv Emk as tid Etid. pinv Emk as tb Etb. pinv Emk as o Eo. pinv Emk as ok Eok. destruct ok; [|discriminate].
      injection Emk as <- _. reflexivity.
  - wcbn. injection E as <- <-. split; [reflexivity|eexists; reflexivity].
  - cbn [parse_data_from] in E. pinv E as x Ex. destruct x as [[m1 ids1] id]. pinv E as y Ey. destruct y as [m2 kind]. pinv E as u Eu.
    injection E as <- <-.
    assert (H1 : m1 = set_data m (m_data m1) /\ exists id, ids1 = if prealloc then ids else push_data ids id).
    { destruct prealloc; [pinv Ex as z Ez|wcbn]; injection Ex as <- <- _.
      - split; [apply wir_eta|exists 0; reflexivity].
      - split; [reflexivity|eexists; reflexivity]. }
    assert (H2 : m2 = set_memories m1 (m_memories m2)).
    { destruct (wd_kind d).
      - injection Ey as <- _. apply wir_eta.
      - pinv Ey as mid Emid. pinv Ey as mm Emm. pinv Ey as o Eo. pinv Ey as ok Eok. destruct ok; [|discriminate].
        injection Ey as <- _. reflexivity. }
    split; [rewrite H2, (proj1 H1); reflexivity|exact (proj2 H1)].
  - injection E as <- <-. split; [|exists 0; reflexivity].
    destruct c as [n d|n d|[n|]|[p|]]; cbn [parse_custom ps_m with_m]; (reflexivity || apply wir_eta).
  - cbn [add_locals] in E. wcbn. injection E as <- <-. split; [reflexivity|eexists; reflexivity].
  - unfold types_insert in E. destruct (insert _ _ _). injection E as <- <-. split; [reflexivity|exists 0; reflexivity].
  - pinv E. injection E as <- <-. split; [reflexivity|exists 0; reflexivity].
  - injection E as <- <-. split; [apply parse_names_writes|exists 0; reflexivity].
  - injection E as <- <-. split; [reflexivity|exists 0; reflexivity].
Qed.
Corollary step_writes st m ids m' ids' : do_step st m ids = POk (m', ids') -> m' = writes st m m'.
Proof. intros E. exact (proj1 (step_frame _ _ _ _ _ E)). Qed.
Corollary step_ids st m ids m' ids' : do_step st m ids = POk (m', ids') -> exists id, ids' = pushes st ids id.
Proof. intros E. exact (proj2 (step_frame _ _ _ _ _ E)). Qed.

(* a function of the module that no step of a class writes has the same value after a run of that class *)
Definition keeps {A} (f : wir -> A) (st : step) : Prop := forall m m', f (writes st m m') = f m.
Lemma step_keeps {A} (f : wir -> A) st m ids m' ids' : do_step st m ids = POk (m', ids') -> keeps f st -> f m' = f m.
Proof. intros E K. rewrite (step_writes _ _ _ _ _ E). apply K. Qed.
Lemma reach_by_keeps {A} (f : wir -> A) (Q : step -> Prop) : (forall st, Q st -> keeps f st) ->
  forall a b, reach_by Q a b -> f (fst b) = f (fst a).
Proof.
  intros HQ a b R. refine (reach_by_inv Q (fun m _ => f m = f (fst a)) _ a b R eq_refl).
  intros st m ids m' ids' Hq H E. rewrite (step_keeps f _ _ _ _ _ E (HQ st Hq)). exact H.
Qed.
Lemma run_steps_keeps {A} (f : wir -> A) l : Forall (keeps f) l ->
  forall m ids m' ids', run_steps l m ids = POk (m', ids') -> f m' = f m.
Proof. intros K m ids m' ids' E. exact (reach_by_keeps f (keeps f) (fun st Kst => Kst) _ _ (run_steps_by _ l K _ _ _ E)). Qed.

Lemma step_config st m ids m' ids' : do_step st m ids = POk (m', ids') -> m_config m' = m_config m.
Proof. intros E. apply (step_keeps m_config _ _ _ _ _ E). intros a b. destruct st; reflexivity. Qed.
Lemma reach_config a b : reach a b -> m_config (fst b) = m_config (fst a).
Proof. apply (reach_by_keeps m_config). intros st _ m m'. destruct st; reflexivity. Qed.

Lemma add_locals_keeps {A} (f : wir -> A) tys m ids fid pre m' ids' l :
  (forall t, keeps f (St_local fid t pre)) -> add_locals m ids fid tys pre = (m', ids', l) -> f m' = f m.
Proof.
  intros K E. apply (run_steps_keeps f _ (Forall_map_all _ _ tys K) m ids m' ids'). rewrite add_locals_steps, E. reflexivity.
Qed.
Lemma prepare_bodies_keeps {A} (f : wir -> A) bs m ids ni i m' ids' ps :
  (forall st, prepare_step st -> keeps f st) -> prepare_bodies m ids ni i bs = POk (m', ids', ps) -> f m' = f m.
Proof.
  intros K E. destruct (prepare_bodies_steps _ _ _ _ _ _ _ _ E) as (l & Hl & R).
  exact (run_steps_keeps f l (Forall_impl _ K Hl) _ _ _ _ R).
Qed.
Lemma install_bodies_keeps {A} (f : wir -> A) ps m ids m' :
  (forall p, keeps f (St_body p)) -> install_bodies m ids ps = POk m' -> f m' = f m.
Proof.
  intros K E. apply (run_steps_keeps f _ (Forall_map_all _ St_body ps K) m ids m' ids).
  rewrite install_bodies_steps, E. reflexivity.
Qed.
Lemma parse_all_names_keeps {A} (f : wir -> A) ns m ids :
  (forall n, keeps f (St_names n)) -> f (fold_left (fun m n => parse_names m ids n) ns m) = f m.
Proof. intros K. exact (run_steps_keeps f _ (Forall_map_all _ St_names ns K) m ids _ ids (parse_all_names_steps ns m ids)). Qed.

(* The steps of one payload all write the same fields ([writes] does not look at a step's arguments): *)
Definition sec_writes (sec : wsec) (m m' : wir) : wir :=
  match sec with
  | S_Types _ => set_types m (m_types m')
  | S_Imports _ => set_imports (set_funcs (set_tables (set_memories (set_globals m (m_globals m')) (m_memories m')) (m_tables m')) (m_funcs m')) (m_imports m')
  | S_Funcs _ => set_funcs m (m_funcs m')
  | S_Tables _ => set_tables m (m_tables m')
  | S_Mems _ => set_memories m (m_memories m')
  | S_Globals _ => set_globals m (m_globals m')
  | S_Exports _ => set_exports m (m_exports m')
  | S_Start _ => set_start m (m_start m')
  | S_Elems _ => set_elements (set_tables m (m_tables m')) (m_elements m')
  | S_DataCount _ => set_data m (m_data m')
  | S_Code _ => m
  | S_Data _ => set_data (set_memories m (m_memories m')) (m_data m')
  | S_Custom _ => set_customs (set_debug (set_producers m (m_producers m')) (m_debug m')) (m_customs m')
  end.

Lemma run_steps_writes (W : wir -> wir -> wir) l :
  (forall m, W m m = m) -> (forall m m1 m2, W (W m m1) m2 = W m m2) -> Forall (fun st => writes st = W) l ->
  forall m ids m' ids', run_steps l m ids = POk (m', ids') -> m' = W m m'.
Proof.
  intros Wr Ww. induction 1 as [|st r Hst _ IH]; intros m ids m' ids' E; cbn [run_steps] in E.
  - injection E as <- _. symmetry. apply Wr.
  - pinv E as x Ex. destruct x as [m1 ids1]. apply IH in E. apply step_writes in Ex. rewrite Hst in Ex.
    cbn [fst] in E. rewrite Ex, Ww in E. exact E.
Qed.

Theorem parse_sec_writes s sec s' : parse_sec s sec = POk s' -> ps_m s' = sec_writes sec (ps_m s) (ps_m s').
Proof.
  intros E. apply parse_sec_steps in E. revert E. apply run_steps_writes.
  - intros m. destruct sec, m; reflexivity.
  - intros m m1 m2. destruct sec; reflexivity.
  - apply sec_steps_all. destruct sec; reflexivity.
Qed.

(* a function of the index maps that no step of a class changes has the same value after a run of that class *)
Lemma reach_by_ids {X} (f : i2ids -> X) (Q : step -> Prop) : (forall st ids id, Q st -> f (pushes st ids id) = f ids) ->
  forall a b, reach_by Q a b -> f (snd b) = f (snd a).
Proof.
  intros HQ a b R. refine (reach_by_inv Q (fun _ ids => f ids = f (snd a)) _ a b R eq_refl).
  intros st m ids m' ids' Hq H E. destruct (step_ids _ _ _ _ _ E) as [id ->]. rewrite HQ; assumption.
Qed.

Lemma pushes_ii_types st ids id :
  ii_types (pushes st ids id) = match st with St_type _ _ => ii_types ids ++ [id] | _ => ii_types ids end.
Proof. destruct st as [| i | | | | | | | | | [|] | | | | | |]; try reflexivity. cbn [pushes]. destruct (wi_kind i); reflexivity. Qed.
Lemma pushes_ii_locals st ids id :
  match st with St_local _ _ _ => True | _ => ii_locals (pushes st ids id) = ii_locals ids end.
Proof. destruct st as [| i | | | | | | | | | [|] | | | | | |]; try exact I; try reflexivity. cbn [pushes]. destruct (wi_kind i); reflexivity. Qed.
Lemma step_ii_types st m ids m' ids' : do_step st m ids = POk (m', ids') ->
  match st with St_type _ _ => exists id, ii_types ids' = ii_types ids ++ [id] | _ => ii_types ids' = ii_types ids end.
Proof. intros E. destruct (step_ids _ _ _ _ _ E) as [id ->]. rewrite pushes_ii_types. destruct st; eauto. Qed.
