(* C01, body level: the normal form of a function body (Model/BodySpec.v) is observationally equivalent to the body in the
   abstract big-step semantics of Model/Sem.v: the same result (fall-through / branch / halt / stuck / out of fuel) and the
   same final state, for every state and every fuel.  Proved once, for the bodies all of whose operators lie in a set [P]
   ([nf_equiv_P]); [P] = everything and [P] = the operators of the body are the instances used.  A toy machine shows that
   [eval] is not vacuous. *)
From Coq Require Import List NArith Bool Lia. Import ListNotations.
From WV Require Import Gen.Ops Model.Common Model.IR Model.ParseFn Model.ParseSpec Model.EmitFn
  Model.BodySpec Model.Sem.
From WV Require Import Proofs.ParseFn Proofs.Body.
Local Open Scope nat_scope.

Definition nfrl_inner :=
  fix nfl (u : bool) (l : list rt) {struct l} : list rt * bool :=
    match l with
    | [] => ([], u)
    | t :: l' => let '(a, u1) := nf_rt u t in let '(b, u2) := nfl u1 l' in (a ++ b, u2)
    end.
Lemma nfrl_inner_eq l : forall u, nfrl_inner u l = nf_rt_list u l.
Proof.
  induction l as [|t l IH]; intros u; [reflexivity|].
  cbn [nfrl_inner nf_rt_list]. destruct (nf_rt u t) as [a u1].
  fold nfrl_inner. now rewrite IH.
Qed.

Definition keepr (u : bool) (x : rt) : list rt := if u then [] else [x].

Lemma nf_rt_block u bt b l e :
  nf_rt u (RBlock bt b l e) = (keepr u (RBlock bt (fst (nf_rt_list false b)) l e), u).
Proof. rewrite <- nfrl_inner_eq. reflexivity. Qed.
Lemma nf_rt_loop u bt b l e :
  nf_rt u (RLoop bt b l e) = (keepr u (RLoop bt (fst (nf_rt_list false b)) l e), u).
Proof. rewrite <- nfrl_inner_eq. reflexivity. Qed.
Lemma nf_rt_if_none u bt th l e :
  nf_rt u (RIf bt th None l e) =
  (keepr u (RIf bt (fst (nf_rt_list false th)) (Some (default_loc, [])) l e), u).
Proof. rewrite <- nfrl_inner_eq. reflexivity. Qed.
Lemma nf_rt_if_some u bt th le el l e :
  nf_rt u (RIf bt th (Some (le, el)) l e) =
  (keepr u (RIf bt (fst (nf_rt_list false th)) (Some (le, fst (nf_rt_list false el))) l e), u).
Proof. rewrite <- !nfrl_inner_eq. reflexivity. Qed.

Lemma nf_rt_list_cons u t l :
  nf_rt_list u (t :: l) =
  (fst (nf_rt u t) ++ fst (nf_rt_list (snd (nf_rt u t)) l), snd (nf_rt_list (snd (nf_rt u t)) l)).
Proof.
  cbn [nf_rt_list]. destruct (nf_rt u t) as [a u1]. cbn [fst snd].
  destruct (nf_rt_list u1 l) as [b u2]. reflexivity.
Qed.

(* dead code: with [u = true] nothing is kept and the flag stays *)
Lemma nf_rt_dead t : nf_rt true t = ([], true).
Proof. destruct t as [o l|l|d l|d l|ds d l|bt body l e|bt body l e|bt th [[le eb]|] l e]; reflexivity. Qed.
Lemma nf_rt_list_dead l : nf_rt_list true l = ([], true).
Proof.
  induction l as [|t l IH]; [reflexivity|].
  rewrite nf_rt_list_cons, nf_rt_dead. cbn [fst snd]. rewrite IH. reflexivity.
Qed.

(* what [nf_rt] drops when the sequence is still live: exactly the nops *)
Lemma nf_rt_live_nil t : fst (nf_rt false t) = [] -> exists loc, t = RNop loc.
Proof.
  destruct t as [o l|l|d l|d l|ds d l|bt body l e|bt body l e|bt th [[le eb]|] l e]; intros H.
  2: { exists l. reflexivity. }
  all: first [ rewrite nf_rt_block in H | rewrite nf_rt_loop in H | rewrite nf_rt_if_some in H
             | rewrite nf_rt_if_none in H | idtac ];
    cbn in H; discriminate H.
Qed.

(* all plain operators of a tree / forest, recursively - also those in dead code *)
Fixpoint ops_of_t (t : rt) {struct t} : list wop :=
  let ol := fix ol (l : list rt) {struct l} : list wop :=
      match l with [] => [] | x :: l' => ops_of_t x ++ ol l' end in
  match t with
  | RPlain o _ => [o]
  | RBlock _ b _ _ => ol b
  | RLoop _ b _ _ => ol b
  | RIf _ th None _ _ => ol th
  | RIf _ th (Some (_, eb)) _ _ => ol th ++ ol eb
  | _ => []
  end.
Fixpoint ops_of (l : list rt) : list wop :=
  match l with [] => [] | x :: l' => ops_of_t x ++ ops_of l' end.

Definition ops_inner :=
  fix ol (l : list rt) {struct l} : list wop :=
    match l with [] => [] | x :: l' => ops_of_t x ++ ol l' end.
Lemma ops_inner_eq l : ops_inner l = ops_of l.
Proof. induction l as [|t l IH]; [reflexivity|]. cbn [ops_inner ops_of]. fold ops_inner. now rewrite IH. Qed.
Lemma ops_of_block bt b l e : ops_of_t (RBlock bt b l e) = ops_of b.
Proof. rewrite <- ops_inner_eq. reflexivity. Qed.
Lemma ops_of_loop bt b l e : ops_of_t (RLoop bt b l e) = ops_of b.
Proof. rewrite <- ops_inner_eq. reflexivity. Qed.
Lemma ops_of_if_none bt th l e : ops_of_t (RIf bt th None l e) = ops_of th.
Proof. rewrite <- ops_inner_eq. reflexivity. Qed.
Lemma ops_of_if_some bt th le eb l e : ops_of_t (RIf bt th (Some (le, eb)) l e) = ops_of th ++ ops_of eb.
Proof. rewrite <- !ops_inner_eq. reflexivity. Qed.
Lemma ops_of_app a b : ops_of (a ++ b) = ops_of a ++ ops_of b.
Proof. induction a as [|t a IH]; [reflexivity|]. cbn [app ops_of]. now rewrite IH, app_assoc. Qed.

Section Machine.
  Variable S : Type.
  Variable halt : Type.
  Variable pop_cond : S -> option (bool * S).
  Variable pop_index : S -> option (N * S).
  Variable unwind : N -> S -> S.
  Variable leave : S -> S.

  Notation res := (res S halt).
  Notation step := (step S halt).
  Notation close := (close S halt leave).

  Lemma close_ext (r : res) f g : (forall s, f s = g s) -> close r f = close r g.
  Proof. intros H. destruct r as [s|[|k] s|h s| |]; cbn [Sem.close]; auto. Qed.

  Section One.
    Variable sem : wins -> S -> step.
    Variable enter : blockty -> S -> S.
    Variable arity loop_arity : blockty -> N.
    Variable rr : rt -> S -> res.

    Notation evt := (evt S halt pop_cond pop_index unwind enter leave sem arity loop_arity rr).
    Notation evl := (evl S halt pop_cond pop_index unwind enter leave sem arity loop_arity rr).

    Definition evl_inner :=
      fix evl (l : list rt) (s : S) {struct l} : res :=
        match l with
        | [] => Fall s
        | t :: l' => match evt t s with Fall s' => evl l' s' | r => r end
        end.
    Lemma evl_inner_eq l : forall s, evl_inner l s = evl l s.
    Proof.
      induction l as [|t l IH]; intros s; [reflexivity|].
      cbn [evl_inner Sem.evl]. destruct (evt t s); reflexivity.
    Qed.

    Lemma evt_block bt b l e s :
      evt (RBlock bt b l e) s = close (evl b (enter bt s)) (fun s' => Fall (unwind (arity bt) s')).
    Proof. rewrite <- evl_inner_eq. reflexivity. Qed.
    Lemma evt_loop bt b l e s :
      evt (RLoop bt b l e) s =
      close (evl b (enter bt s)) (fun s' => rr (RLoop bt b l e) (unwind (loop_arity bt) s')).
    Proof. rewrite <- evl_inner_eq. reflexivity. Qed.
    Lemma evt_if bt th el l e s :
      evt (RIf bt th el l e) s =
      match pop_cond s with
      | None => Stuck
      | Some (true, s') => close (evl th (enter bt s')) (fun s'' => Fall (unwind (arity bt) s''))
      | Some (false, s') =>
          close (match el with Some (_, eb) => evl eb (enter bt s') | None => Fall (enter bt s') end)
                (fun s'' => Fall (unwind (arity bt) s''))
      end.
    Proof.
      cbn [Sem.evt]. destruct (pop_cond s) as [[[|] s']|]; [| |reflexivity].
      - fold evl_inner. rewrite evl_inner_eq. reflexivity.
      - destruct el as [[le eb]|]; [|reflexivity]. fold evl_inner. rewrite evl_inner_eq. reflexivity.
    Qed.

    Lemma evl_cons t l s :
      evl (t :: l) s = match evt t s with Fall s' => evl l s' | r => r end.
    Proof. reflexivity. Qed.
    Lemma evl_single t s : evl [t] s = evt t s.
    Proof. cbn [Sem.evl]. destruct (evt t s); reflexivity. Qed.
    Lemma evl_app a : forall b s,
      evl (a ++ b) s = match evl a s with Fall s' => evl b s' | r => r end.
    Proof.
      induction a as [|t a IH]; intros b s; [reflexivity|].
      cbn [app]. rewrite !evl_cons. destruct (evt t s); try reflexivity. apply IH.
    Qed.

    (* a sequence that never falls through makes whatever follows it unreachable *)
    Definition nofall_t (t : rt) : Prop := forall s s', evt t s <> Fall s'.
    Definition nofall (l : list rt) : Prop := forall s s', evl l s <> Fall s'.

    Lemma evl_app_nofall a b s : nofall a -> evl (a ++ b) s = evl a s.
    Proof.
      intros H. rewrite evl_app. destruct (evl a s) eqn:E; try reflexivity.
      exfalso. exact (H _ _ E).
    Qed.
    Lemma nofall_cons_head t l : nofall_t t -> nofall (t :: l).
    Proof.
      intros H s s' E. rewrite evl_cons in E. destruct (evt t s) eqn:Et; try discriminate E.
      exact (H _ _ Et).
    Qed.
    Lemma nofall_cons_tail t l : nofall l -> nofall (t :: l).
    Proof.
      intros H s s' E. rewrite evl_cons in E. destruct (evt t s) eqn:Et; try discriminate E.
      exact (H _ _ E).
    Qed.

    Lemma eval_t_evt fuel t s :
      eval_t S halt pop_cond pop_index unwind enter leave sem arity loop_arity fuel t s
      = Sem.evt S halt pop_cond pop_index unwind enter leave sem arity loop_arity
          (rerun_of S halt pop_cond pop_index unwind enter leave sem arity loop_arity fuel) t s.
    Proof. destruct fuel; reflexivity. Qed.

    (* `if` without `else` = `if` with an empty `else`: the absent arm is entered and left,
       [leave (enter bt s')], exactly as the empty one *)
    Lemma evt_else_synthesis bt th l e le s :
      evt (RIf bt th None l e) s = evt (RIf bt th (Some (le, [])) l e) s.
    Proof. rewrite !evt_if. reflexivity. Qed.
  End One.

  (* [sem_out (WOp o)] stands for the meaning, in the OUTPUT module, of the re-encoded operator [nf_op cx ecx o];
     [arity_out bt] for that of [nf_bt cx ecx bt] (see [nf_equiv_renamed]).  The two hypotheses on operators are asked
     for the operators in [P] only, the conclusions hold of the bodies all of whose operators (dead code included)
     are in [P]: with [P] = the operators of one body the hypotheses need only hold - and for a concrete machine are
     only true - of the operators that occur. *)
  Section EquivOn.
    Variable sem_in sem_out : wins -> S -> step.
    Variable enter_in enter_out : blockty -> S -> S.
    Variable arity_in arity_out loop_arity_in loop_arity_out : blockty -> N.
    Variable P : wop -> Prop.
    Hypothesis H_op : forall o, P o -> forall s, sem_out (WOp o) s = sem_in (WOp o) s.
    Hypothesis H_enter : forall bt s, enter_out bt s = enter_in bt s.
    Hypothesis H_arity : forall bt, arity_out bt = arity_in bt.
    Hypothesis H_loop_arity : forall bt, loop_arity_out bt = loop_arity_in bt.
    (* return / unreachable never fall through *)
    Hypothesis H_term : forall o, P o -> marks_unreachable o = true -> forall s, exists h s', sem_in (WOp o) s = Halt h s'.

    Notation evt_in := (evt S halt pop_cond pop_index unwind enter_in leave sem_in arity_in loop_arity_in).
    Notation evl_in := (evl S halt pop_cond pop_index unwind enter_in leave sem_in arity_in loop_arity_in).
    Notation evl_out := (evl S halt pop_cond pop_index unwind enter_out leave sem_out arity_out loop_arity_out).
    Notation eval_t_in := (eval_t S halt pop_cond pop_index unwind enter_in leave sem_in arity_in loop_arity_in).
    Notation eval_in := (eval S halt pop_cond pop_index unwind enter_in leave sem_in arity_in loop_arity_in).
    Notation eval_out := (eval S halt pop_cond pop_index unwind enter_out leave sem_out arity_out loop_arity_out).
    Notation rr_of_in := (rerun_of S halt pop_cond pop_index unwind enter_in leave sem_in arity_in loop_arity_in).
    Notation rr_of_out := (rerun_of S halt pop_cond pop_index unwind enter_out leave sem_out arity_out loop_arity_out).
    Notation nofall_in := (nofall sem_in enter_in arity_in loop_arity_in).

    Definition OpsT (t : rt) : Prop := forall o, In o (ops_of_t t) -> P o.
    Definition OpsL (l : list rt) : Prop := forall o, In o (ops_of l) -> P o.
    Lemma OpsL_cons t l : OpsL (t :: l) -> OpsT t /\ OpsL l.
    Proof. intros H. split; intros o Ho; apply H; cbn [ops_of]; apply in_or_app; auto. Qed.
    Lemma OpsL_app a b : OpsL (a ++ b) -> OpsL a /\ OpsL b.
    Proof. unfold OpsL. rewrite ops_of_app. intros H. split; intros o Ho; apply H, in_or_app; auto. Qed.

    (* a tree after which nf marks the sequence unreachable never falls through *)
    Lemma term_nofall rr t : OpsT t -> snd (nf_rt false t) = true -> forall s s', evt_in rr t s <> Fall s'.
    Proof.
      destruct t as [o l|l|d l|d l|ds d l|bt body l e|bt body l e|bt th [[le eb]|] l e]; intros HP H s s' E;
        first [ rewrite nf_rt_block in H | rewrite nf_rt_loop in H | rewrite nf_rt_if_some in H
              | rewrite nf_rt_if_none in H | idtac ];
        cbn [nf_rt snd orb] in H; try discriminate H.
      - assert (Po : P o) by (apply HP; cbn; auto).
        destruct (H_term o Po H s) as (h & s1 & Hs). cbn [Sem.evt] in E. rewrite Hs in E. discriminate E.
      - cbn [Sem.evt] in E. discriminate E.
      - cbn [Sem.evt] in E. destruct (pop_index s) as [[i s1]|]; discriminate E.
    Qed.

    (* the flag computed by nf is sound: once set, the prefix never falls through *)
    Lemma flag_nofall rr l : OpsL l -> forall u, snd (nf_rt_list u l) = true -> u = true \/ nofall_in rr l.
    Proof.
      induction l as [|t l IH]; intros HP u H.
      - left. exact H.
      - apply OpsL_cons in HP. destruct HP as [HPt HPl].
        rewrite nf_rt_list_cons in H. cbn [snd] in H. destruct (IH HPl _ H) as [Hu|Hn].
        + destruct u; [now left|]. right. apply nofall_cons_head. exact (term_nofall rr t HPt Hu).
        + right. apply nofall_cons_tail, Hn.
    Qed.

    Section Rerun.
      Variable rr_in rr_out : rt -> S -> res.
      Hypothesis H_rr : forall bt b l e s, OpsL b ->
        rr_out (RLoop bt (fst (nf_rt_list false b)) l e) s = rr_in (RLoop bt b l e) s.

      Definition Et (t : rt) : Prop := OpsT t -> forall s, evl_out rr_out (fst (nf_rt false t)) s = evt_in rr_in t s.
      Definition El (l : list rt) : Prop := OpsL l -> forall s, evl_out rr_out (fst (nf_rt_list false l)) s = evl_in rr_in l s.

      Lemma El_of_Forall l : Forall Et l -> El l.
      Proof.
        induction 1 as [|t l Ht Hl IH]; intros HP s; [reflexivity|].
        apply OpsL_cons in HP. destruct HP as [HPt HPl].
        rewrite nf_rt_list_cons. cbn [fst]. rewrite evl_app, (Ht HPt s), evl_cons.
        destruct (snd (nf_rt false t)) eqn:Hu.
        - rewrite nf_rt_list_dead. cbn [fst].
          destruct (evt_in rr_in t s) eqn:E; try reflexivity.
          exfalso. exact (term_nofall rr_in t HPt Hu _ _ E).
        - destruct (evt_in rr_in t s); try reflexivity. apply IH, HPl.
      Qed.

      Lemma Et_all : forall t, Et t.
      Proof.
        induction t as [o l|l|d l|d l|ds d l|bt body l e HF|bt body l e HF|bt th el l e HFt HFe] using rt_ind';
          intros HP s.
        - cbn [nf_rt fst]. rewrite evl_single. cbn [Sem.evt]. rewrite H_op; [reflexivity|]. apply HP. cbn. auto.
        - reflexivity.
        - cbn [nf_rt fst]. rewrite evl_single. reflexivity.
        - cbn [nf_rt fst]. rewrite evl_single. reflexivity.
        - cbn [nf_rt fst]. rewrite evl_single. reflexivity.
        - unfold OpsT in HP. rewrite ops_of_block in HP.
          rewrite nf_rt_block. cbn [fst keepr]. rewrite evl_single, !evt_block.
          rewrite H_enter, (El_of_Forall _ HF HP _). apply close_ext. intros s'. now rewrite H_arity.
        - unfold OpsT in HP. rewrite ops_of_loop in HP.
          rewrite nf_rt_loop. cbn [fst keepr]. rewrite evl_single, !evt_loop.
          rewrite H_enter, (El_of_Forall _ HF HP _). apply close_ext. intros s'.
          rewrite H_loop_arity. apply H_rr. exact HP.
        - destruct el as [[le eb]|].
          + unfold OpsT in HP. rewrite ops_of_if_some in HP.
            assert (HPt : OpsL th) by (intros o Ho; apply HP, in_or_app; auto).
            assert (HPe : OpsL eb) by (intros o Ho; apply HP, in_or_app; auto).
            rewrite nf_rt_if_some. cbn [fst keepr]. rewrite evl_single, !evt_if.
            destruct (pop_cond s) as [[[|] s1]|]; [| |reflexivity].
            * rewrite H_enter, (El_of_Forall _ HFt HPt _). apply close_ext. intros s'. now rewrite H_arity.
            * cbn [optP snd] in HFe. rewrite H_enter, (El_of_Forall _ HFe HPe _).
              apply close_ext. intros s'. now rewrite H_arity.
          + unfold OpsT in HP. rewrite ops_of_if_none in HP.
            rewrite nf_rt_if_none. cbn [fst keepr]. rewrite evl_single, !evt_if.
            destruct (pop_cond s) as [[[|] s1]|]; [| |reflexivity].
            * rewrite H_enter, (El_of_Forall _ HFt HP _). apply close_ext. intros s'. now rewrite H_arity.
            * cbn [Sem.evl]. rewrite H_enter. apply close_ext. intros s'. now rewrite H_arity.
      Qed.
      Lemma El_all l : El l.
      Proof. apply El_of_Forall, Forall_forall. intros t _. apply Et_all. Qed.
    End Rerun.

    Lemma rerun_equiv fuel : forall bt b l e s, OpsL b ->
      rr_of_out fuel (RLoop bt (fst (nf_rt_list false b)) l e) s = rr_of_in fuel (RLoop bt b l e) s.
    Proof.
      induction fuel as [|f IH]; intros bt b l e s HP; [reflexivity|].
      cbn [rerun_of]. rewrite !eval_t_evt.
      assert (HPt : OpsT (RLoop bt b l e)) by (unfold OpsT; rewrite ops_of_loop; exact HP).
      pose proof (Et_all _ _ IH (RLoop bt b l e) HPt s) as H.
      rewrite nf_rt_loop in H. cbn [fst keepr] in H. rewrite evl_single in H. exact H.
    Qed.

    (* THE EQUIVALENCE for a body all of whose operators are in [P]: same outcome and same final state, for every
       state and every fuel *)
    Theorem nf_equiv_P : forall fuel l s, OpsL l ->
      eval_out fuel (fst (nf_rt_list false l)) s = eval_in fuel l s.
    Proof. intros fuel l s HP. unfold eval. apply El_all; [apply rerun_equiv|exact HP]. Qed.
    Theorem nf_equiv_P_t : forall fuel t s, OpsT t ->
      eval_out fuel (fst (nf_rt false t)) s = eval_t_in fuel t s.
    Proof. intros fuel t s HP. rewrite eval_t_evt. unfold eval. apply Et_all; [apply rerun_equiv|exact HP]. Qed.
  End EquivOn.

  Section Equiv.
    Variable sem_in sem_out : wins -> S -> step.
    Variable enter_in enter_out : blockty -> S -> S.
    Variable arity_in arity_out loop_arity_in loop_arity_out : blockty -> N.

    (* renumbering is unobservable: the trusted interface to the WebAssembly semantics *)
    Hypothesis H_op : forall o s, sem_out (WOp o) s = sem_in (WOp o) s.
    Hypothesis H_enter : forall bt s, enter_out bt s = enter_in bt s.
    Hypothesis H_arity : forall bt, arity_out bt = arity_in bt.
    Hypothesis H_loop_arity : forall bt, loop_arity_out bt = loop_arity_in bt.
    Hypothesis H_term : forall o s, marks_unreachable o = true -> exists h s', sem_in (WOp o) s = Halt h s'.

    Notation eval_t_in := (eval_t S halt pop_cond pop_index unwind enter_in leave sem_in arity_in loop_arity_in).
    Notation eval_in := (eval S halt pop_cond pop_index unwind enter_in leave sem_in arity_in loop_arity_in).
    Notation eval_out := (eval S halt pop_cond pop_index unwind enter_out leave sem_out arity_out loop_arity_out).

    Theorem nf_equiv : forall fuel l s,
      eval_out fuel (fst (nf_rt_list false l)) s = eval_in fuel l s.
    Proof.
      intros fuel l s.
      apply (nf_equiv_P sem_in sem_out enter_in enter_out arity_in arity_out loop_arity_in loop_arity_out (fun _ => True));
        auto. intros o _. exact Logic.I.
    Qed.

    (* single trees, e.g. a whole function body wrapped in its implicit block *)
    Theorem nf_equiv_t : forall fuel t s,
      eval_out fuel (fst (nf_rt false t)) s = eval_t_in fuel t s.
    Proof.
      intros fuel t s.
      apply (nf_equiv_P_t sem_in sem_out enter_in enter_out arity_in arity_out loop_arity_in loop_arity_out (fun _ => True));
        auto. intros o _. exact Logic.I.
    Qed.
    (* divergence (running out of any given fuel) is preserved and reflected *)
    Corollary nf_equiv_fuel : forall fuel l s,
      eval_out fuel (fst (nf_rt_list false l)) s = Fuel <-> eval_in fuel l s = Fuel.
    Proof. intros fuel l s. rewrite nf_equiv. reflexivity. Qed.

    (* what follows a non-falling prefix is irrelevant *)
    Theorem eval_app_nofall : forall fuel a b s,
      (forall s0 s', eval_in fuel a s0 <> Fall s') -> eval_in fuel (a ++ b) s = eval_in fuel a s.
    Proof. intros fuel a b s H. unfold eval. apply evl_app_nofall. exact H. Qed.

    (* the prefix after which nf cuts (flag set) never falls through *)
    Theorem nf_cut_nofall : forall fuel l,
      snd (nf_rt_list false l) = true -> forall s s', eval_in fuel l s <> Fall s'.
    Proof.
      intros fuel l H.
      destruct (flag_nofall sem_in enter_in arity_in loop_arity_in (fun _ => True) (fun o _ Hu s => H_term o s Hu)
                  (rerun_of S halt pop_cond pop_index unwind enter_in leave sem_in arity_in loop_arity_in fuel)
                  l (fun o _ => Logic.I) false H) as [Hu|Hn]; [discriminate Hu|].
      exact Hn.
    Qed.

    (* every tree of a sequence that nf drops is a nop, or sits after a prefix that never
       falls through (so it is never reached) *)
    Theorem nf_drops_only_dead : forall l1 t l2,
      fst (nf_rt (snd (nf_rt_list false l1)) t) = [] ->
      (exists loc, t = RNop loc) \/
      (forall fuel s s', eval_in fuel l1 s <> Fall s') /\
      (forall fuel s, eval_in fuel (l1 ++ t :: l2) s = eval_in fuel l1 s).
    Proof.
      intros l1 t l2 H. destruct (snd (nf_rt_list false l1)) eqn:Hu.
      - right. split.
        + intros fuel. apply nf_cut_nofall, Hu.
        + intros fuel s. apply eval_app_nofall. apply nf_cut_nofall, Hu.
      - left. apply nf_rt_live_nil, H.
    Qed.
    (* ... and conversely everything after the cut IS dropped *)
    Theorem nf_after_cut_dropped : forall l1 l2,
      snd (nf_rt_list false l1) = true ->
      fst (nf_rt_list false (l1 ++ l2)) = fst (nf_rt_list false l1).
    Proof.
      intros l1 l2. generalize false. induction l1 as [|t l1 IH]; intros u H.
      - cbn [nf_rt_list snd] in H. subst u. cbn [app]. rewrite nf_rt_list_dead. reflexivity.
      - cbn [app]. rewrite !nf_rt_list_cons in *. cbn [fst snd] in *. now rewrite (IH _ H).
    Qed.

    (* an else-less `if` means the same as one with an empty `else` *)
    Theorem else_synthesis : forall fuel bt th l e le s,
      eval_t_in fuel (RIf bt th None l e) s = eval_t_in fuel (RIf bt th (Some (le, [])) l e) s.
    Proof. intros. rewrite !eval_t_evt. apply evt_else_synthesis. Qed.
  End Equiv.

  (* [sem_in] interprets the operators of the INPUT module, [sem_out'] those of the OUTPUT module;
     the output trees carry the original [o] / [bt], so the output semantics first applies the
     re-encoding [nf_op] / [nf_bt] - exactly what [flat'] (Part 3) puts into the emitted stream. *)
  Section Renamed.
    Variable cx : pctx.
    Variable ecx : ectx.
    Variable sem_in sem_out' : wins -> S -> step.
    Variable enter_in enter_out' : blockty -> S -> S.
    Variable arity_in arity_out' loop_arity_in loop_arity_out' : blockty -> N.
    Definition sem_ren (w : wins) : S -> step :=
      match w with WOp o => sem_out' (nf_op cx ecx o) | w => sem_out' w end.
    Hypothesis H_op : forall o s, sem_out' (nf_op cx ecx o) s = sem_in (WOp o) s.
    Hypothesis H_enter : forall bt s, enter_out' (nf_bt cx ecx bt) s = enter_in bt s.
    Hypothesis H_arity : forall bt, arity_out' (nf_bt cx ecx bt) = arity_in bt.
    Hypothesis H_loop_arity : forall bt, loop_arity_out' (nf_bt cx ecx bt) = loop_arity_in bt.
    Hypothesis H_term : forall o s, marks_unreachable o = true -> exists h s', sem_in (WOp o) s = Halt h s'.

    Theorem nf_equiv_renamed : forall fuel l s,
      eval S halt pop_cond pop_index unwind (fun bt => enter_out' (nf_bt cx ecx bt)) leave sem_ren
           (fun bt => arity_out' (nf_bt cx ecx bt)) (fun bt => loop_arity_out' (nf_bt cx ecx bt))
           fuel (fst (nf_rt_list false l)) s
      = eval S halt pop_cond pop_index unwind enter_in leave sem_in arity_in loop_arity_in fuel l s.
    Proof.
      intros fuel l s. apply nf_equiv.
      - intros o s0. cbn [sem_ren]. apply H_op.
      - exact H_enter.
      - exact H_arity.
      - exact H_loop_arity.
      - exact H_term.
    Qed.
  End Renamed.

End Machine.

Section MachineOn.
  Variable S : Type.
  Variable halt : Type.
  Variable pop_cond : S -> option (bool * S).
  Variable pop_index : S -> option (N * S).
  Variable unwind : N -> S -> S.
  Variable leave : S -> S.

  (* the hypotheses on the operators asked only for the operators of THIS body *)
  Theorem nf_equiv_on : forall (sem_in sem_out : wins -> S -> step S halt) (enter_in enter_out : blockty -> S -> S)
      (arity_in arity_out loop_arity_in loop_arity_out : blockty -> N) (l : list rt),
    (forall o, In o (ops_of l) -> forall s, sem_out (WOp o) s = sem_in (WOp o) s) ->
    (forall bt s, enter_out bt s = enter_in bt s) ->
    (forall bt, arity_out bt = arity_in bt) ->
    (forall bt, loop_arity_out bt = loop_arity_in bt) ->
    (forall o, In o (ops_of l) -> marks_unreachable o = true -> forall s, exists h s', sem_in (WOp o) s = Halt h s') ->
    forall fuel s,
      eval S halt pop_cond pop_index unwind enter_out leave sem_out arity_out loop_arity_out fuel (fst (nf_rt_list false l)) s
      = eval S halt pop_cond pop_index unwind enter_in leave sem_in arity_in loop_arity_in fuel l s.
  Proof.
    intros sem_in sem_out enter_in enter_out arity_in arity_out loop_arity_in loop_arity_out l H1 H2 H3 H4 H5 fuel s.
    apply (nf_equiv_P S halt pop_cond pop_index unwind leave sem_in sem_out enter_in enter_out
             arity_in arity_out loop_arity_in loop_arity_out (fun o => In o (ops_of l))); try assumption; try (intros o Ho; exact Ho).
  Qed.

  Theorem nf_equiv_renamed_on : forall (cx : pctx) (ecx : ectx) (sem_in sem_out' : wins -> S -> step S halt)
      (enter_in enter_out' : blockty -> S -> S)
      (arity_in arity_out' loop_arity_in loop_arity_out' : blockty -> N) (l : list rt),
    (forall o, In o (ops_of l) -> forall s, sem_out' (nf_op cx ecx o) s = sem_in (WOp o) s) ->
    (forall bt s, enter_out' (nf_bt cx ecx bt) s = enter_in bt s) ->
    (forall bt, arity_out' (nf_bt cx ecx bt) = arity_in bt) ->
    (forall bt, loop_arity_out' (nf_bt cx ecx bt) = loop_arity_in bt) ->
    (forall o, In o (ops_of l) -> marks_unreachable o = true -> forall s, exists h s', sem_in (WOp o) s = Halt h s') ->
    forall fuel s,
      eval S halt pop_cond pop_index unwind (fun bt => enter_out' (nf_bt cx ecx bt)) leave (sem_ren S halt cx ecx sem_out')
           (fun bt => arity_out' (nf_bt cx ecx bt)) (fun bt => loop_arity_out' (nf_bt cx ecx bt))
           fuel (fst (nf_rt_list false l)) s
      = eval S halt pop_cond pop_index unwind enter_in leave sem_in arity_in loop_arity_in fuel l s.
  Proof.
    intros cx ecx sem_in sem_out' enter_in enter_out' arity_in arity_out' loop_arity_in loop_arity_out' l H1 H2 H3 H4 H5 fuel s.
    apply nf_equiv_on; try assumption.
  Qed.
End MachineOn.

Definition swap {A B} (p : A * B) : B * A := (snd p, fst p).

Section FlatNf.
  Variable cx : pctx.
  Variable ecx : ectx.

  Definition Ft (t : rt) : Prop := forall u,
    map swap (fst (nf cx ecx u t)) = flat_list' cx ecx (fst (nf_rt u t)) /\
    snd (nf cx ecx u t) = snd (nf_rt u t).
  Definition Fl (l : list rt) : Prop := forall u,
    map swap (fst (nf_list cx ecx u l)) = flat_list' cx ecx (fst (nf_rt_list u l)) /\
    snd (nf_list cx ecx u l) = snd (nf_rt_list u l).

  Lemma flat_list'_app a b : flat_list' cx ecx (a ++ b) = flat_list' cx ecx a ++ flat_list' cx ecx b.
  Proof. unfold flat_list'. apply flat_map_app. Qed.

  Lemma Fl_of_Forall l : Forall Ft l -> Fl l.
  Proof.
    induction 1 as [|t l Ht Hl IH]; intros u; [split; reflexivity|].
    rewrite nf_list_cons, nf_rt_list_cons. cbn [fst snd].
    destruct (Ht u) as [H1 H2]. rewrite H2. destruct (IH (snd (nf_rt u t))) as [H3 H4].
    split; [|exact H4]. rewrite map_app, flat_list'_app, H1, H3. reflexivity.
  Qed.

  Lemma Ft_all : forall t, Ft t.
  Proof.
    induction t as [o l|l|d l|d l|ds d l|bt body l e HF|bt body l e HF|bt th el l e HFt HFe] using rt_ind';
      intros u.
    - destruct u; split; reflexivity.
    - split; reflexivity.
    - destruct u; split; reflexivity.
    - destruct u; split; reflexivity.
    - destruct u; split; reflexivity.
    - rewrite nf_block, nf_rt_block. cbn [fst snd]. split; [|reflexivity].
      destruct u; [reflexivity|]. cbn [keepr flat_list' flat_map flat' map swap fst snd].
      rewrite app_nil_r, map_app. destruct (Fl_of_Forall _ HF false) as [H _].
      rewrite H. reflexivity.
    - rewrite nf_loop, nf_rt_loop. cbn [fst snd]. split; [|reflexivity].
      destruct u; [reflexivity|]. cbn [keepr flat_list' flat_map flat' map swap fst snd].
      rewrite app_nil_r, map_app. destruct (Fl_of_Forall _ HF false) as [H _].
      rewrite H. reflexivity.
    - destruct el as [[le eb]|].
      + rewrite nf_if_some, nf_rt_if_some. cbn [fst snd]. split; [|reflexivity].
        destruct u; [reflexivity|]. cbn [keepr flat_list' flat_map flat' map swap fst snd].
        rewrite app_nil_r, map_app. cbn [map swap fst snd]. rewrite map_app.
        destruct (Fl_of_Forall _ HFt false) as [H _]. cbn [optP snd] in HFe.
        destruct (Fl_of_Forall _ HFe false) as [H' _]. rewrite H, H'. reflexivity.
      + rewrite nf_if_none, nf_rt_if_none. cbn [fst snd]. split; [|reflexivity].
        destruct u; [reflexivity|]. cbn [keepr flat_list' flat_map flat' map swap fst snd].
        rewrite app_nil_r, map_app. destruct (Fl_of_Forall _ HFt false) as [H _].
        rewrite H. reflexivity.
  Qed.

  (* the tagged list of Model/BodySpec.v IS the flattening of the tree-level normal form *)
  Theorem flat_nf_rt : forall u l,
    map (fun p => (snd p, fst p)) (fst (nf_list cx ecx u l)) = flat_list' cx ecx (fst (nf_rt_list u l)).
  Proof.
    intros u l. apply (Fl_of_Forall l). apply Forall_forall. intros t _. apply Ft_all.
  Qed.
  Theorem flag_nf_rt : forall u l, snd (nf_list cx ecx u l) = snd (nf_rt_list u l).
  Proof.
    intros u l. apply (Fl_of_Forall l). apply Forall_forall. intros t _. apply Ft_all.
  Qed.

  (* hence the operator stream of [nf_body] (what [roundtrip_body] says is emitted) *)
  Corollary nf_body_ops : forall l eloc,
    map snd (nf_body cx ecx l eloc) = map fst (flat_list' cx ecx (fst (nf_rt_list false l))) ++ [WEnd].
  Proof.
    intros l eloc. unfold nf_body. rewrite map_app. cbn [map snd]. f_equal.
    rewrite <- flat_nf_rt, map_map. apply map_ext. intros [a b]. reflexivity.
  Qed.
End FlatNf.

(* the emitted body, end to end: parse then emit outputs the flattening of the tree-level normal
   form (whose evaluation [nf_equiv] relates to that of the source trees) *)
Theorem roundtrip_body_sem : forall cx ecx ety rs l eloc p0,
  wfl cx 1 l ->
  (forall o, decode_plain (px_i2id cx) o <> None -> encode_plain (ex_id2i ecx) (dec cx o) <> None) ->
  exists ar st fuel,
    parse_body cx ety rs (flat_list l ++ [(WEnd, eloc)]) = Ok ar /\
    emit_body ecx fuel ar 0 p0 = Ok st /\
    out st = map fst (flat_list' cx ecx (fst (nf_rt_list false l))) ++ [WEnd].
Proof.
  intros cx ecx ety rs l eloc p0 Hw Henc.
  destruct (roundtrip_body cx ecx ety rs l eloc p0 Hw Henc) as (ar & st & fuel & Hp & He & Ho & _).
  exists ar, st, fuel. split; [exact Hp|]. split; [exact He|]. rewrite Ho. apply nf_body_ops.
Qed.

(* state = (counter, ticks): every plain operator ticks, except return / unreachable which halt;
   br_if / if pop "counter <> 0" and decrement it; br_table pops the counter as the index. *)
Module Toy.
  Definition St := (nat * nat)%type.
  Definition tsem (w : wins) (s : St) : step St unit :=
    match w with
    | WOp o => if marks_unreachable o then Halt tt s else Next (fst s, Datatypes.S (snd s))
    | _ => Next s
    end.
  Definition tcond (s : St) : option (bool * St) :=
    match fst s with O => Some (false, s) | Datatypes.S k => Some (true, (k, snd s)) end.
  Definition tindex (s : St) : option (N * St) := Some (N.of_nat (fst s), (O, snd s)).
  Definition tunwind (n : N) (s : St) : St := s.
  Definition tenter (bt : blockty) (s : St) : St := s.   (* identity hooks: the semantics without label records *)
  Definition tleave (s : St) : St := s.
  Definition tarity (bt : blockty) : N := 0%N.
  Definition teval := eval St unit tcond tindex tunwind tenter tleave tsem tarity tarity.

  (* block { loop { drop ; nop ; br_if 0 ; drop ; drop } ; br 0 ; drop } ; return ; drop *)
  Definition prog : list rt :=
    [ RBlock BT_Empty
        [ RLoop BT_Empty [RPlain W_Drop 1%N; RNop 2%N; RBrIf 0%N 3%N; RPlain W_Drop 4%N; RPlain W_Drop 5%N] 6%N 7%N;
          RBr 0%N 8%N; RPlain W_Drop 9%N ] 10%N 11%N;
      RPlain W_Return 12%N; RPlain W_Drop 13%N ].

  (* the loop runs counter+1 times: the final state depends on the input *)
  Example run0 : teval 10 prog (0, 0) = Stop tt (0, 3).
  Proof. vm_compute. reflexivity. Qed.
  Example run3 : teval 10 prog (3, 0) = Stop tt (0, 6).
  Proof. vm_compute. reflexivity. Qed.
  (* not enough fuel for 3 re-entries *)
  Example run3_fuel : teval 2 prog (3, 0) = Fuel.
  Proof. vm_compute. reflexivity. Qed.
  (* a branch leaving the forest is reported as such *)
  Example run_br : teval 1 [RIf BT_Empty [RBr 2%N 1%N] None 2%N 3%N; RPlain W_Drop 4%N] (1, 0) = Br 1 (0, 0).
  Proof. vm_compute. reflexivity. Qed.
  Example run_br' : teval 1 [RIf BT_Empty [RBr 2%N 1%N] None 2%N 3%N; RPlain W_Drop 4%N] (0, 0) = Fall (0, 1).
  Proof. vm_compute. reflexivity. Qed.

  (* its normal form: nop, `drop` after `br 0`, `drop` after `return` are gone *)
  Example prog_nf : fst (nf_rt_list false prog) =
    [ RBlock BT_Empty
        [ RLoop BT_Empty [RPlain W_Drop 1%N; RBrIf 0%N 3%N; RPlain W_Drop 4%N; RPlain W_Drop 5%N] 6%N 7%N;
          RBr 0%N 8%N ] 10%N 11%N;
      RPlain W_Return 12%N ].
  Proof. vm_compute. reflexivity. Qed.

  (* [nf_equiv] instantiated: the hypotheses are satisfiable *)
  Theorem toy_equiv : forall fuel l s, teval fuel (fst (nf_rt_list false l)) s = teval fuel l s.
  Proof.
    intros fuel l s. unfold teval. apply nf_equiv; try reflexivity.
    intros o s0 H. exists tt, s0. cbn [tsem]. rewrite H. reflexivity.
  Qed.
End Toy.

Print Assumptions nf_equiv.
Print Assumptions nf_equiv_renamed.
Print Assumptions nf_drops_only_dead.
Print Assumptions else_synthesis.
Print Assumptions flat_nf_rt.
Print Assumptions roundtrip_body_sem.
Print Assumptions Toy.toy_equiv.
Print Assumptions nf_equiv_on.
Print Assumptions nf_equiv_renamed_on.
