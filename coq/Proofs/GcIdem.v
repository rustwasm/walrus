(* C07: running the GC pass a second time changes nothing - at MODULE level.
   The sweep: [gc_sweep m = Ok m1 -> gc_sweep m1 = Ok m1], with NO premise on m: the used-analysis of m1 is, as a LIST,
   the used-analysis of m (same roots in the same order, same successors of every kept entity, same fuel since
   tombstoning keeps the arena lengths, same "first memory" residue), and a sweep that finds every live entity used
   returns its input.  The whole pass: the one segment the declare step may add is a root whose successors were kept. *)
From Coq Require Import List NArith ZArith Bool Arith Lia Permutation Sorted.
Import ListNotations.
From WV Require Import Gen.Ops Model.Common Model.IR Model.Arena Model.Traversal Model.EmitFn Model.Locals
                       Model.ParseFn Model.ModuleM Model.ParseM Model.EmitM Model.GC.
From WV Require Import Proofs.Arena Proofs.Order Proofs.IndexMaps Proofs.Totality Proofs.Switches Proofs.GcDeclare Proofs.ArenaN.
From WV Require Proofs.GC.
Local Open Scope nat_scope.

Lemma iter_from_filter {A} (l : list A) (d d' : list nat) :
  (forall k, existsb (Nat.eqb k) d = true -> existsb (Nat.eqb k) d' = true) ->
  forall n, iter_from n l d' = filter (fun p => negb (existsb (Nat.eqb (fst p)) d')) (iter_from n l d).
Proof.
  intros Hd. induction l as [|x r IH]; intros n; cbn [iter_from]; [reflexivity|].
  destruct (existsb (Nat.eqb n) d) eqn:E.
  - rewrite (Hd n E). apply IH.
  - cbn [filter fst]. destruct (existsb (Nat.eqb n) d'); cbn [negb]; rewrite IH; reflexivity.
Qed.

Lemma filter_map_comm {A B} (h : A -> B) (K : B -> bool) (l : list A) :
  filter K (map h l) = map h (filter (fun x => K (h x)) l).
Proof. induction l as [|x r IH]; cbn; [reflexivity|]. destruct (K (h x)); cbn; now rewrite IH. Qed.

Theorem delete_unused_aiter {A} (a a' : tarena A) keep : delete_unused a keep = Ok a' ->
  aiter a' = filter (fun p => existsb (N.eqb (fst p)) keep) (aiter a).
Proof.
  intros H. destruct (G.delete_unused_shape _ _ _ _ H) as (Hi & ds & Hd & _).
  unfold aiter, iter. rewrite Hi, (iter_from_filter (items a) (dead a) (dead a')), filter_map_comm.
  2:{ intros k Hk. rewrite Hd, existsb_app, Hk. apply orb_true_r. }
  f_equal. apply filter_ext_in. intros [id v] Hin. cbn [fst snd]. apply (G.iter_live' _ a id v) in Hin.
  (* a live id of [a] has no tombstone in [a'] iff it is still live there, iff it is kept *)
  assert (Hn : nth_error (items a) id = Some v) by (unfold index, get in Hin; destruct (is_dead a id); [discriminate|exact Hin]).
  pose proof (delete_unused_aget _ _ _ H (N.of_nat id) v) as Hg. unfold aget in Hg. rewrite Nat2N.id in Hg.
  apply eq_true_iff_eq. transitivity (index a' id = Some v); [|rewrite Hg; tauto].
  unfold index, get, is_dead. rewrite Hi, Hn. destruct (existsb (Nat.eqb id) (dead a')); cbn; split; congruence.
Qed.

Theorem delete_unused_all_kept {A} (a : tarena A) keep :
  (forall id v, aget a id = Some v -> existsb (N.eqb id) keep = true) -> delete_unused a keep = Ok a.
Proof.
  intros H. unfold delete_unused.
  assert (K : forall p, In p (aiter a) -> existsb (N.eqb (fst p)) keep = true) by (intros [id v] Hp; apply aiter_In in Hp; eauto).
  revert K. generalize (aiter a) as L. induction L as [|p L IH]; intros K; cbn [fold_left rbind]; [reflexivity|].
  rewrite (K p (or_introl eq_refl)). apply IH. intros q Hq. apply K. right. exact Hq.
Qed.

Lemma aset_remove_arena s id s1 : aset_remove (fun x => x) mtype_eqb s id = Some s1 ->
  delete (fun x => x) (arena s) id = Some (arena s1).
Proof.
  unfold aset_remove. destruct (index (arena s) id); [|discriminate].
  destruct (delete (fun x => x) (arena s) id); [|discriminate]. intros [= <-]. reflexivity.
Qed.

Theorem types_delete_unused_all_kept s keep :
  (forall id t, aset_index s id = Some t -> existsb (N.eqb (N.of_nat id)) keep = true) -> types_delete_unused s keep = Ok s.
Proof.
  intros H. unfold types_delete_unused.
  assert (K : forall p, In p (aset_iter s) -> existsb (N.eqb (N.of_nat (fst p))) keep = true)
    by (intros [id t] Hp; apply (G.iter_live' _ (arena s) id t) in Hp; eauto).
  revert K. generalize (aset_iter s) as L. induction L as [|p L IH]; intros K; cbn [fold_left rbind]; [reflexivity|].
  rewrite (K p (or_introl eq_refl)). apply IH. intros q Hq. apply K. right. exact Hq.
Qed.

(* a type that is visited by the sweep and survives it was in the keep-list *)
Lemma ty_fold_only_kept keep (L : list (nat * mtype)) : forall s0 s',
  fold_left (ty_step keep) L (Ok s0) = Ok s' ->
  forall id t, aset_index s' id = Some t -> forall p, In p L -> fst p = id -> existsb (N.eqb (N.of_nat id)) keep = true.
Proof.
  induction L as [|q L IH]; intros s0 s' H id t Hi p Hp Hid; [destruct Hp|].
  cbn [fold_left] in H. unfold ty_step at 2 in H. cbn [rbind] in H.
  destruct (existsb (N.eqb (N.of_nat (fst q))) keep) eqn:K.
  - destruct Hp as [->|Hp]; [rewrite <- Hid; exact K|eapply IH; eauto].
  - destruct (aset_remove (fun x => x) mtype_eqb s0 (fst q)) as [s1|] eqn:D; cbn [of_opt] in H;
      [|exfalso; revert H; apply ty_fold_notok; discriminate].
    destruct Hp as [->|Hp]; [exfalso|eapply IH; eauto].
    pose proof (ty_fold_old keep L _ _ H id t Hi) as Hb. apply aset_remove_arena in D.
    unfold aset_index in Hb. rewrite (delete_index _ _ _ id D), Hid, Nat.eqb_refl in Hb. discriminate.
Qed.

Lemma types_delete_unused_only_kept s s' keep : types_delete_unused s keep = Ok s' ->
  forall id t, aset_index s' id = Some t -> existsb (N.eqb (N.of_nat id)) keep = true.
Proof.
  intros H id t Hi. apply (ty_fold_only_kept keep _ _ _ H id t Hi (id, t)); [|reflexivity].
  apply (G.iter_live' _ (arena s) id t). exact (ty_fold_old keep _ _ _ H id t Hi).
Qed.

Lemma ty_fold_items keep (L : list (nat * mtype)) : forall s0 s',
  fold_left (ty_step keep) L (Ok s0) = Ok s' -> items (arena s') = items (arena s0).
Proof.
  induction L as [|q L IH]; intros s0 s' H; cbn [fold_left] in H; [injection H as <-; reflexivity|].
  unfold ty_step at 2 in H. cbn [rbind] in H.
  destruct (existsb (N.eqb (N.of_nat (fst q))) keep); [apply IH; assumption|].
  destruct (aset_remove (fun x => x) mtype_eqb s0 (fst q)) as [s1|] eqn:D; cbn [of_opt] in H;
    [|exfalso; revert H; apply ty_fold_notok; discriminate].
  rewrite (IH _ _ H). apply aset_remove_arena, G.delete_id_inv in D. destruct D as [_ ->]. reflexivity.
Qed.

Lemma types_delete_unused_items s s' keep : types_delete_unused s keep = Ok s' -> items (arena s') = items (arena s).
Proof. exact (ty_fold_items keep _ s s'). Qed.

Lemma push_used s y z : In z (u_used (push s y)) <-> z = y \/ In z (u_used s).
Proof.
  unfold push. destruct (mem_ent y (u_used s)) eqn:M; cbn [u_used In]; [|split; intros [E|E]; auto].
  apply G.mem_ent_In in M. split; [auto|intros [->|E]; assumption].
Qed.

Lemma fold_push_used ys : forall s z, In z (u_used (fold_left push ys s)) <-> In z ys \/ In z (u_used s).
Proof.
  induction ys as [|y ys IH]; intros s z; cbn [fold_left In]; [tauto|]. rewrite IH, push_used. split; intros; intuition auto.
Qed.

Lemma push_stack_sub s y : incl (u_stack s) (u_used s) -> incl (u_stack (push s y)) (u_used (push s y)).
Proof.
  unfold push. intros Hs. destruct (mem_ent y (u_used s)); [exact Hs|]. cbn [u_used u_stack].
  destruct (fst y); intros z Hz; try (right; apply Hs; exact Hz);
    (destruct Hz as [<-|Hz]; [left; reflexivity|right; apply Hs; exact Hz]).
Qed.

Lemma fold_push_stack_sub ys : forall s, incl (u_stack s) (u_used s) ->
  incl (u_stack (fold_left push ys s)) (u_used (fold_left push ys s)).
Proof. induction ys as [|y ys IH]; intros s Hs; cbn [fold_left]; [exact Hs|]. apply IH, push_stack_sub, Hs. Qed.

Lemma init_stack_sub rs :
  incl (u_stack (fold_left push rs {| u_used := []; u_stack := [] |})) (u_used (fold_left push rs {| u_used := []; u_stack := [] |})).
Proof. apply fold_push_stack_sub. intros z []. Qed.

Lemma pop_stack_sub used x rest ys : incl (x :: rest) used ->
  let s' := fold_left push ys {| u_used := used; u_stack := rest |} in incl (u_stack s') (u_used s').
Proof. intros Hs. apply fold_push_stack_sub. intros z Hz. apply Hs. right. exact Hz. Qed.

Lemma wl_used_mono m : forall fuel s U, wl fuel m s = Ok U -> incl (u_used s) U.
Proof.
  induction fuel as [|f IH]; intros s U H; [discriminate H|]. cbn [wl] in H.
  destruct (u_stack s) as [|x rest]; [injection H as <-; apply incl_refl|].
  destruct (succ m x) as [ys| |]; cbn [rbind] in H; try discriminate H.
  intros z Hz. apply (IH _ _ H), fold_push_used. right. exact Hz.
Qed.

Theorem wl_transfer m m' : forall fuel s U, wl fuel m s = Ok U -> incl (u_stack s) (u_used s) ->
  (forall x, In x U -> succ m' x = succ m x) -> wl fuel m' s = Ok U.
Proof.
  induction fuel as [|f IH]; intros s U H Hs Hsucc; [discriminate H|].
  pose proof (wl_used_mono m _ _ _ H) as Hm. cbn [wl] in H |- *.
  destruct (u_stack s) as [|x rest]; [exact H|].
  rewrite (Hsucc x) by (apply Hm, Hs; left; reflexivity).
  destruct (succ m x) as [ys| |]; cbn [rbind] in H |- *; try discriminate H.
  apply IH; [exact H|exact (pop_stack_sub _ x rest ys Hs)|exact Hsucc].
Qed.

(* the worklist result is included in every set containing the start set and closed under the successors *)
Theorem wl_least m (P : ent -> Prop) :
  (forall x ys y, P x -> succ m x = Ok ys -> In y ys -> P y) ->
  forall fuel s U, wl fuel m s = Ok U -> incl (u_stack s) (u_used s) ->
  (forall x, In x (u_used s) -> P x) -> forall x, In x U -> P x.
Proof.
  intros Pcl. induction fuel as [|f IH]; intros s U H Hs HP; [discriminate H|]. cbn [wl] in H.
  destruct (u_stack s) as [|x rest]; [injection H as <-; exact HP|].
  destruct (succ m x) as [ys| |] eqn:Ex; cbn [rbind] in H; try discriminate H.
  apply (IH _ _ H); [exact (pop_stack_sub _ x rest ys Hs)|].
  intros z Hz. apply fold_push_used in Hz. cbn [u_used] in Hz. destruct Hz as [Hz|Hz]; [|apply HP, Hz].
  apply (Pcl x ys z); [apply HP, Hs; left; reflexivity|exact Ex|exact Hz].
Qed.

Definition elem_root (m : wir) (p : N * melem) : res (list ent) :=
  match el_kind (snd p) with
  | ELK_Active t _ => match aget (m_tables m) t with
                      | Some tb => Ok (match tb_import tb with Some _ => [(S_elem, fst p)] | None => [] end)
                      | None => Panic end
  | ELK_Declared => Ok [(S_elem, fst p)]
  | ELK_Passive => Ok [] end.
Definition data_root (p : N * mdata) : list ent :=
  match da_kind (snd p) with DK_Active _ _ => [(S_data, fst p)] | _ => [] end.
Definition roots_of (m : wir) (elems : list (list ent)) : list ent :=
  map (fun p => (kind_space (ex_kind (snd p)), ex_item (snd p))) (aiter (m_exports m)) ++
  (match m_start m with Some f => [(S_func, f)] | None => [] end) ++
  flat_map data_root (aiter (m_data m)) ++ concat elems ++
  flat_map (fun c => match c with Some c => cu_roots c | None => [] end) (m_customs m).
Lemma roots_unfold m :
  roots m = rbind (rmapM (elem_root m) (aiter (m_elements m))) (fun elems => Ok (roots_of m elems)).
Proof. reflexivity. Qed.

Lemma rmapM_filter {A B} (f g : A -> res (list B)) (K : A -> bool) : forall l bs,
  rmapM f l = Ok bs ->
  (forall p, In p l -> K p = false -> f p = Ok []) -> (forall p, In p l -> K p = true -> g p = f p) ->
  exists bs', rmapM g (filter K l) = Ok bs' /\ concat bs' = concat bs.
Proof.
  induction l as [|a r IH]; intros bs H H0 H1; cbn [rmapM] in H.
  - injection H as <-. exists []. split; reflexivity.
  - destruct (f a) as [y| |] eqn:Ea; cbn [rbind] in H; try discriminate H.
    destruct (rmapM f r) as [ys| |] eqn:Er; cbn [rbind] in H; try discriminate H. injection H as <-.
    destruct (IH ys eq_refl) as [bs' [E' Ec]].
    + intros p Hp. apply H0. right. exact Hp.
    + intros p Hp. apply H1. right. exact Hp.
    + cbn [filter]. destruct (K a) eqn:Ka.
      * exists (y :: bs'). cbn [rmapM]. rewrite (H1 a (or_introl eq_refl) Ka), Ea, E'. cbn [rbind concat].
        split; [reflexivity|now rewrite Ec].
      * exists bs'. split; [exact E'|]. rewrite (H0 a (or_introl eq_refl) Ka) in Ea. injection Ea as <-.
        cbn [concat app]. exact Ec.
Qed.

Lemma flat_map_filter_nil {A B} (g : A -> list B) (K : A -> bool) (l : list A) :
  (forall p, In p l -> K p = false -> g p = []) -> flat_map g (filter K l) = flat_map g l.
Proof.
  induction l as [|a r IH]; intros H; cbn [filter flat_map]; [reflexivity|].
  destruct (K a) eqn:Ka; cbn [flat_map]; rewrite IH by (intros p Hp; apply H; right; exact Hp); [reflexivity|].
  rewrite (H a (or_introl eq_refl) Ka). reflexivity.
Qed.

Theorem sweep_roots m m1 rs : gc_sweep m = Ok m1 -> roots m = Ok rs -> roots m1 = Ok rs.
Proof.
  intros H Hr0. destruct (gc_shape m m1 H) as [u [Hu R]].
  destruct (used_core m u Hu) as (rs' & U & Hr' & HrsU & HUu & Hnm & _ & Hcl).
  rewrite Hr0 in Hr'. injection Hr' as <-.
  destruct (G.gc_fields m m1 u H Hu) as (_ & _ & _ & _ & Ed & Ee & _).
  destruct (G.gc_preserves m m1 H) as (Pe & Ps & Pc & _).
  pose proof Hr0 as Hr. rewrite roots_unfold in Hr |- *.
  destruct (rmapM (elem_root m) (aiter (m_elements m))) as [elems| |] eqn:Eel; cbn [rbind] in Hr; try discriminate Hr.
  injection Hr as Hrs. rewrite (delete_unused_aiter _ _ _ Ee).
  destruct (rmapM_filter (elem_root m) (elem_root m1) (fun p => existsb (N.eqb (fst p)) (used_of u S_elem))
              (aiter (m_elements m)) elems Eel) as [bs' [E' Ec]].
  - intros [id e] Hp HK. cbn [fst] in HK. pose proof (rmapM_ok_inv _ _ _ Eel) as F2.
    destruct (Forall2_in_l _ _ _ F2 _ Hp) as [b [Hb Hfb]].
    assert (Hc : b = [] \/ In (S_elem, id) b).
    { unfold elem_root in Hfb. cbn [fst snd] in Hfb. destruct (el_kind e) as [| |t off].
      - injection Hfb as <-. left. reflexivity.
      - injection Hfb as <-. right. left. reflexivity.
      - destruct (aget (m_tables m) t) as [tb|]; [|discriminate Hfb]. injection Hfb as <-.
        destruct (tb_import tb); [right; left; reflexivity|left; reflexivity]. }
    destruct Hc as [->|Hin]; [exact Hfb|exfalso].
    assert (Hu' : In (S_elem, id) u).
    { apply HUu, HrsU. rewrite <- Hrs. unfold roots_of. apply in_or_app. right. apply in_or_app. right.
      apply in_or_app. right. apply in_or_app. left. apply in_concat. exists b. split; assumption. }
    apply G.keep_used in Hu'. congruence.
  - intros [id e] Hp HK. cbn [fst] in HK. unfold elem_root. cbn [fst snd].
    destruct (el_kind e) as [| |t off] eqn:Ek; try reflexivity.
    assert (Hin : In (S_table, t) u).
    { apply G.keep_used in HK. assert (HU : In (S_elem, id) U) by (apply Hnm; [exact HK|cbn; discriminate]).
      destruct (Hcl _ HU) as [ys [Hys Hsub]]. apply HUu, Hsub.
      unfold succ in Hys. cbn [fst snd] in Hys. apply aiter_In in Hp. rewrite Hp in Hys. injection Hys as <-.
      apply in_or_app. right. rewrite Ek. apply in_or_app. right. left. reflexivity. }
    pose proof (gc_same_at m m1 u H R (S_table, t) Hin) as Hs. unfold same_at in Hs. cbn [fst snd] in Hs.
    rewrite Hs. reflexivity.
  - rewrite E'. cbn [rbind]. f_equal. rewrite <- Hrs. unfold roots_of.
    rewrite Pe, Ps, Pc, Ec, (delete_unused_aiter _ _ _ Ed). f_equal. f_equal. f_equal.
    apply flat_map_filter_nil. intros [id d] Hp HK. cbn [fst] in HK. unfold data_root. cbn [fst snd].
    destruct (da_kind d) as [|mem off] eqn:Ek; [reflexivity|exfalso].
    apply aiter_In in Hp. pose proof (roots_active_data m rs id d mem off Hr0 Hp Ek) as Hin.
    apply HrsU, HUu, G.keep_used in Hin. congruence.
Qed.

Theorem sweep_n_entities m m1 : gc_sweep m = Ok m1 -> n_entities m1 = n_entities m.
Proof.
  intros H. destruct (gc_shape m m1 H) as [u [Hu _]].
  destruct (G.gc_fields m m1 u H Hu) as (Ef & Et & Eg & Em & Ed & Ee & Ety).
  unfold n_entities.
  rewrite (proj1 (G.delete_unused_shape _ _ _ _ Ef)), (proj1 (G.delete_unused_shape _ _ _ _ Et)),
    (proj1 (G.delete_unused_shape _ _ _ _ Eg)), (proj1 (G.delete_unused_shape _ _ _ _ Em)),
    (proj1 (G.delete_unused_shape _ _ _ _ Ed)), (proj1 (G.delete_unused_shape _ _ _ _ Ee)),
    (types_delete_unused_items _ _ _ Ety). reflexivity.
Qed.

Theorem sweep_used m m1 u : gc_sweep m = Ok m1 -> used m = Ok u -> used m1 = Ok u.
Proof.
  intros H Hu. destruct (gc_shape m m1 H) as [u' [Hu' R]]. rewrite Hu in Hu'. injection Hu' as <-.
  destruct (G.used_inv m u Hu) as (rs & U & Hr & Hw & Hcase).
  assert (HUu : incl U u).
  { destruct Hcase as [->|(mid & v & rest & _ & _ & _ & ->)]; [apply incl_refl|apply incl_tl, incl_refl]. }
  destruct (G.gc_fields m m1 u H Hu) as (_ & _ & _ & Em & _ & _ & _).
  unfold used in Hu |- *. rewrite Hr in Hu. cbn [rbind] in Hu. rewrite Hw in Hu. cbn [rbind] in Hu.
  rewrite (sweep_roots m m1 rs H Hr). cbn [rbind]. rewrite (sweep_n_entities m m1 H).
  rewrite (wl_transfer m m1 _ _ U Hw (init_stack_sub rs)).
  2:{ intros x Hx. apply same_at_succ, (gc_same_at m m1 u H R), HUu, Hx. }
  cbn [rbind]. rewrite (delete_unused_aiter _ _ _ Em).
  destruct (used_of U S_data) as [|d ds]; [destruct (used_of U S_memory); exact Hu|].
  destruct (used_of U S_memory) as [|x xs] eqn:EM; [|exact Hu].
  destruct (aiter (m_memories m)) as [|[mid v] rest]; [exact Hu|].
  injection Hu as <-. cbn [filter fst].
  replace (existsb (N.eqb mid) (used_of ((S_memory, mid) :: U) S_memory)) with true
    by (symmetry; apply G.keep_used; left; reflexivity).
  reflexivity.
Qed.

Definition live_in (m : wir) (x : ent) : Prop :=
  match fst x with
  | S_func => exists v, aget (m_funcs m) (snd x) = Some v
  | S_table => exists v, aget (m_tables m) (snd x) = Some v
  | S_memory => exists v, aget (m_memories m) (snd x) = Some v
  | S_global => exists v, aget (m_globals m) (snd x) = Some v
  | S_data => exists v, aget (m_data m) (snd x) = Some v
  | S_elem => exists v, aget (m_elements m) (snd x) = Some v
  | S_type => exists t, types_get m (snd x) = Some t
  | S_local => False
  end.

Definition all_used (m : wir) (u : list ent) : Prop :=
  (forall x, live_in m x -> In x u) /\ (forall id i, aget (m_imports m) id = Some i -> imp_used u i = true).

Lemma imp_used_mono u u2 i : incl u u2 -> imp_used u i = true -> imp_used u2 i = true.
Proof. intros Hi. unfold imp_used. destruct (im_kind i); rewrite !G.mem_ent_In; apply Hi. Qed.

Lemma gc_sweep_unfold m u : used m = Ok u ->
  gc_sweep m =
  rbind (delete_unused (m_imports m) (map fst (filter (fun p => imp_used u (snd p)) (aiter (m_imports m))))) (fun ia =>
  rbind (delete_unused (m_tables m) (used_of u S_table)) (fun ta =>
  rbind (delete_unused (m_globals m) (used_of u S_global)) (fun ga =>
  rbind (delete_unused (m_memories m) (used_of u S_memory)) (fun ma =>
  rbind (delete_unused (m_data m) (used_of u S_data)) (fun da =>
  rbind (delete_unused (m_elements m) (used_of u S_elem)) (fun ea =>
  rbind (types_delete_unused (m_types m) (used_of u S_type)) (fun tya =>
  rbind (delete_unused (m_funcs m) (used_of u S_func)) (fun fa =>
  Ok (set_funcs (set_types (set_elements (set_data (set_memories (set_globals (set_tables (set_imports m ia) ta) ga) ma) da) ea) tya) fa))))))))).
Proof. intros Hu. unfold gc_sweep. rewrite Hu. reflexivity. Qed.

Theorem gc_sweep_all_used m u : used m = Ok u -> all_used m u -> gc_sweep m = Ok m.
Proof.
  intros Hu [L I]. rewrite (gc_sweep_unfold m u Hu).
  assert (K : forall A (a : tarena A) s, (forall id v, aget a id = Some v -> live_in m (s, id)) -> delete_unused a (used_of u s) = Ok a).
  { intros A a s H. apply delete_unused_all_kept. intros id v Hv. apply G.keep_used, L, (H id v Hv). }
  rewrite (delete_unused_all_kept (m_imports m)).
  2:{ intros id i Hg. apply existsb_eqb_In.
      apply in_map_iff. exists (id, i). split; [reflexivity|]. apply filter_In. split; [apply aiter_In; exact Hg|exact (I id i Hg)]. }
  cbn [rbind]. do 5 (rewrite K by (intros id v Hv; exists v; exact Hv); cbn [rbind]).
  rewrite (types_delete_unused_all_kept (m_types m)).
  2:{ intros id t Ht. apply G.keep_used, L. exists t. unfold types_get. cbn [snd]. rewrite Nat2N.id. exact Ht. }
  cbn [rbind]. rewrite K by (intros id v Hv; exists v; exact Hv). cbn [rbind]. f_equal. destruct m; reflexivity.
Qed.

Theorem sweep_all_used m m1 u : gc_sweep m = Ok m1 -> used m = Ok u -> all_used m1 u.
Proof.
  intros H Hu. destruct (gc_shape m m1 H) as [u' [Hu' R]]. rewrite Hu in Hu'. injection Hu' as <-.
  split; [|intros id i Hg; apply (gr_imports _ _ _ R) in Hg; apply Hg].
  intros [s id]. unfold live_in. cbn [fst snd]. destruct s; try (intros [v Hv]); [| | | | | | |contradiction].
  - apply (gr_funcs _ _ _ R) in Hv. apply Hv.
  - destruct (G.gc_fields m m1 u H Hu) as (_ & _ & _ & _ & _ & _ & Ety). apply G.keep_used. rewrite <- (N2Nat.id id).
    exact (types_delete_unused_only_kept _ _ _ Ety _ _ Hv).
  - apply (gr_tables _ _ _ R) in Hv. apply Hv.
  - apply (gr_memories _ _ _ R) in Hv. apply Hv.
  - apply (gr_globals _ _ _ R) in Hv. apply Hv.
  - apply (gr_data _ _ _ R) in Hv. apply Hv.
  - apply (gr_elements _ _ _ R) in Hv. apply Hv.
Qed.

Theorem gc_sweep_idempotent m m1 : gc_sweep m = Ok m1 -> gc_sweep m1 = Ok m1.
Proof.
  intros H. destruct (gc_shape m m1 H) as [u [Hu _]].
  exact (gc_sweep_all_used m1 u (sweep_used m m1 u H Hu) (sweep_all_used m m1 u H Hu)).
Qed.

Print Assumptions gc_sweep_idempotent.

(* Counting, with no premise on the graph: a successful run popped fewer entities than it had fuel; a run inside a
   closed set whose stacked members fit in the fuel succeeds. *)
Section WlCount.
  Variable X : Type.
  Variable eqb : X -> X -> bool.
  Hypothesis eqb_spec : forall a b, eqb a b = true <-> a = b.
  Variable stacked : X -> bool.
  Variable succ : X -> option (list X).
  Notation awl := (G.awl eqb stacked succ).
  Notation apush := (G.apush eqb stacked).
  Notation fs := (filter stacked).

  Lemma awl_pops : forall fuel s U, awl fuel s = Some U ->
    NoDup (G.used s) -> NoDup (G.stack s) -> incl (G.stack s) (G.used s) ->
    NoDup U /\ length (fs U) + length (G.stack s) < fuel + length (fs (G.used s)).
  Proof.
    induction fuel as [|f IH]; intros s U H Hnu Hns Hsub; [discriminate|].
    cbn [G.awl] in H. destruct (G.stack s) as [|x rest] eqn:Es.
    - inversion H; subst. split; [exact Hnu|]. cbn [length]. lia.
    - destruct (succ x) as [ys|] eqn:Ex; [|discriminate].
      destruct (G.pop_spec X eqb eqb_spec stacked (G.used s) x rest ys Hnu Hns Hsub) as (new & E1 & E2 & A & B & S & _).
      destruct (IH _ _ H A B S) as [I1 I2]. split; [exact I1|].
      rewrite E1, E2, filter_app, !app_length in I2. cbn [length]. lia.
  Qed.

  Lemma awl_pops_init roots fuel U :
    awl fuel (fold_left apush roots {| G.used := []; G.stack := [] |}) = Some U -> NoDup U /\ length (fs U) < fuel.
  Proof.
    intros H. destruct (G.init_spec X eqb eqb_spec stacked roots) as (A & B & E & _).
    destruct (awl_pops _ _ _ H A B) as [I1 I2]; [rewrite E; intros z Hz; apply filter_In in Hz; apply Hz|].
    split; [exact I1|]. rewrite E in I2. lia.
  Qed.

  Section Total.
    Variable V : list X.
    Hypothesis Vcl : forall x, In x V -> stacked x = true -> exists ys, succ x = Some ys /\ incl ys V.

    Lemma fs_le l : NoDup l -> incl l V -> length (fs l) <= length (fs V).
    Proof.
      intros Hn Hi. apply NoDup_incl_length; [apply NoDup_filter, Hn|].
      intros z Hz. apply filter_In in Hz. apply filter_In. split; [apply Hi|]; apply Hz.
    Qed.

    Lemma awl_total : forall fuel s,
      NoDup (G.used s) -> NoDup (G.stack s) -> incl (G.stack s) (G.used s) ->
      (forall x, In x (G.stack s) -> stacked x = true) -> incl (G.used s) V ->
      (length (fs V) - length (fs (G.used s))) + length (G.stack s) < fuel ->
      exists U, awl fuel s = Some U /\ incl U V.
    Proof.
      induction fuel as [|f IH]; intros s Hnu Hns Hsub Hstk HV Hm; [lia|].
      cbn [G.awl]. destruct (G.stack s) as [|x rest] eqn:Es.
      - exists (G.used s). split; [reflexivity|exact HV].
      - assert (HxV : In x V) by (apply HV, Hsub; left; reflexivity).
        destruct (Vcl x HxV (Hstk x (or_introl eq_refl))) as [ys [Ex Hys]]. rewrite Ex.
        destruct (G.pop_spec X eqb eqb_spec stacked (G.used s) x rest ys Hnu Hns Hsub) as (new & E1 & E2 & A & B & S & C & _).
        assert (HV' : incl (new ++ G.used s) V) by (apply incl_app; [intros z Hz; apply Hys, C, Hz|exact HV]).
        rewrite E1 in A. pose proof (fs_le _ A HV') as Hle. rewrite <- E1 in A, HV'.
        apply IH; [exact A|exact B|exact S| |exact HV'|].
        + rewrite E2. intros z Hz. apply in_app_or in Hz as [Hz|Hz]; [apply filter_In in Hz; apply Hz|apply Hstk; right; exact Hz].
        + rewrite E1, E2. rewrite filter_app, !app_length in *. cbn [length] in Hm. lia.
    Qed.

    Lemma awl_total_init roots fuel : incl roots V -> length (fs V) < fuel ->
      exists U, awl fuel (fold_left apush roots {| G.used := []; G.stack := [] |}) = Some U /\ incl U V.
    Proof.
      intros Hr Hf. destruct (G.init_spec X eqb eqb_spec stacked roots) as (A & B & E & C & _).
      apply awl_total; [exact A|exact B| | | |]; rewrite ?E.
      - intros z Hz. apply filter_In in Hz. apply Hz.
      - intros z Hz. apply filter_In in Hz. apply Hz.
      - intros z Hz. apply Hr, C, Hz.
      - pose proof (fs_le _ A (fun z Hz => Hr z (C z Hz))). lia.
    Qed.
  End Total.
End WlCount.

Lemma not_type_stacked x : G.ent_stacked x = true <-> G.is_type x = false.
Proof. unfold G.ent_stacked. destruct (G.is_type x); cbn; split; congruence. Qed.

Lemma wl_pops m rs fuel U : wl fuel m (fold_left push rs {| u_used := []; u_stack := [] |}) = Ok U ->
  NoDup U /\ length (filter G.ent_stacked U) < fuel.
Proof. intros H. apply G.wl_awl_init in H. exact (awl_pops_init ent ent_eqb G.ent_eqb_spec _ _ rs fuel U H). Qed.

Lemma wl_total m rs fuel V :
  (forall x, In x V -> G.is_type x = false -> exists ys, succ m x = Ok ys /\ incl ys V) ->
  incl rs V -> length (filter G.ent_stacked V) < fuel ->
  exists U, wl fuel m (fold_left push rs {| u_used := []; u_stack := [] |}) = Ok U /\ incl U V.
Proof.
  intros Vcl Hr Hf.
  destruct (awl_total_init ent ent_eqb G.ent_eqb_spec G.ent_stacked (G.succ_opt m) V) with (roots := rs) (fuel := fuel)
    as (U & HU & HUV); [|exact Hr|exact Hf|exists U; split; [apply G.wl_awl_init; exact HU|exact HUV]].
  intros x Hx Hs. destruct (Vcl x Hx (proj1 (not_type_stacked x) Hs)) as [ys [Hys Hin]].
  exists ys. split; [unfold G.succ_opt; rewrite Hys; reflexivity|exact Hin].
Qed.

Definition dm (m1 : wir) (fs : list N) : wir := set_elements m1 (fst (aalloc (m_elements m1) (decl_seg fs))).

Lemma dm_succ m1 fs x ys : succ m1 x = Ok ys -> succ (dm m1 fs) x = Ok ys.
Proof.
  destruct x as [s id]. unfold succ, dm. cbn [fst snd m_funcs m_tables m_globals m_memories m_data m_elements set_elements].
  destruct s; try exact (fun h => h).
  destruct (aget (m_elements m1) id) as [e|] eqn:E; [|discriminate]. rewrite aalloc_eq. cbn [fst]. rewrite (aget_snoc_some _ _ _ _ E). exact (fun h => h).
Qed.

Lemma dm_n_entities m1 fs : n_entities (dm m1 fs) = S (n_entities m1).
Proof.
  unfold n_entities, dm. cbn [m_funcs m_tables m_globals m_memories m_data m_elements m_types set_elements].
  rewrite aalloc_eq. cbn [fst items]. rewrite app_length. cbn [length]. lia.
Qed.

Lemma roots_of_In m elems x : In x (roots_of m elems) <-> In x (roots_of m []) \/ In x (concat elems).
Proof. unfold roots_of. cbn [concat]. rewrite !in_app_iff. cbn [In]. tauto. Qed.

Lemma rmapM_snoc {A B} (f : A -> res B) x y : forall l bs,
  rmapM f l = Ok bs -> f x = Ok y -> rmapM f (l ++ [x]) = Ok (bs ++ [y]).
Proof.
  induction l as [|a l IH]; intros bs H Hx; cbn [rmapM app] in *.
  - injection H as <-. rewrite Hx. reflexivity.
  - destruct (f a) as [b| |]; cbn [rbind] in *; try discriminate H.
    destruct (rmapM f l) as [bs'| |]; cbn [rbind] in *; try discriminate H. injection H as <-.
    rewrite (IH bs' eq_refl Hx). reflexivity.
Qed.

(* the new segment is iterated last, and is a root: the roots are the old ones and the new segment *)
Lemma dm_roots m1 fs rs : dead_in_range (m_elements m1) -> roots m1 = Ok rs ->
  exists rs2, roots (dm m1 fs) = Ok rs2 /\ incl rs rs2 /\ In (S_elem, anext (m_elements m1)) rs2 /\
              incl rs2 ((S_elem, anext (m_elements m1)) :: rs).
Proof.
  intros Hd Hr. rewrite roots_unfold in Hr |- *.
  destruct (rmapM (elem_root m1) (aiter (m_elements m1))) as [elems| |] eqn:Eel; cbn [rbind] in Hr; try discriminate Hr.
  injection Hr as <-. unfold dm at 2. cbn [m_elements set_elements]. rewrite aalloc_eq. cbn [fst]. rewrite (aiter_snoc _ _ Hd).
  rewrite (rmapM_snoc (elem_root (dm m1 fs)) (anext (m_elements m1), decl_seg fs) [(S_elem, anext (m_elements m1))] _ elems Eel eq_refl).
  cbn [rbind].
  eexists. split; [reflexivity|].
  assert (K : forall x, In x (roots_of (dm m1 fs) (elems ++ [[(S_elem, anext (m_elements m1))]])) <->
                        x = (S_elem, anext (m_elements m1)) \/ In x (roots_of m1 elems)).
  { intros x. rewrite (roots_of_In m1), roots_of_In, concat_app, in_app_iff. cbn [concat app In].
    change (roots_of (dm m1 fs) []) with (roots_of m1 []). intuition auto. }
  split; [intros x Hx; apply K; right; exact Hx|]. split; [apply K; left; reflexivity|].
  intros x Hx. apply K in Hx. destruct Hx as [->|Hx]; [left; reflexivity|right; exact Hx].
Qed.

(* the worklist: [V] = the old result plus the new segment is closed in the new module and its stacked members fit in the
   fuel (one more of each than before, and the old run fitted), so the run succeeds inside [V]; its result is closed under the old
   successors and contains the old roots, so it contains the old result *)
Lemma dm_wl m1 fs rs U : dead_in_range (m_elements m1) -> roots m1 = Ok rs ->
  wl (S (S (n_entities m1))) m1 (fold_left push rs {| u_used := []; u_stack := [] |}) = Ok U ->
  (forall f, In f fs -> In (S_func, f) U) ->
  exists rs2 U2, roots (dm m1 fs) = Ok rs2 /\
    wl (S (S (n_entities (dm m1 fs)))) (dm m1 fs) (fold_left push rs2 {| u_used := []; u_stack := [] |}) = Ok U2 /\
    incl U U2 /\ incl U2 ((S_elem, anext (m_elements m1)) :: U) /\ In (S_elem, anext (m_elements m1)) U2.
Proof.
  intros Hd Hr Hw HfsU. set (enew := (S_elem, anext (m_elements m1)) : ent). set (m2 := dm m1 fs).
  destruct (wl_closed m1 rs _ U Hw) as [HrsU HclU]. destruct (wl_pops m1 rs _ U Hw) as [HndU Hpops].
  destruct (dm_roots m1 fs rs Hd Hr) as (rs2 & Hr2 & Hrs12 & Hnew2 & Hrs2V). fold enew m2 in Hr2, Hnew2, Hrs2V.
  destruct (wl_total m2 rs2 (S (S (n_entities m2))) (enew :: U)) as (U2 & Hw2 & HU2V).
  { intros x [<-|Hx] Ht.
    - unfold succ. cbn [fst snd enew]. unfold m2, dm. cbn [m_elements set_elements]. rewrite aalloc_eq. cbn [fst]. rewrite (aget_snoc_new _ _ Hd).
      cbn [decl_seg el_items el_kind]. eexists. split; [reflexivity|]. intros y Hy. apply in_app_or in Hy as [Hy|[]].
      apply in_map_iff in Hy as [f [<- Hf]]. right. apply HfsU, Hf.
    - destruct (HclU x Hx Ht) as [ys [Hys Hin]]. exists ys. split; [exact (dm_succ m1 fs x ys Hys)|apply incl_tl, Hin]. }
  { intros x Hx. destruct (Hrs2V x Hx) as [<-|Hx']; [left; reflexivity|right; apply HrsU, Hx']. }
  { unfold m2. cbn [filter G.ent_stacked G.is_type fst enew negb length]. rewrite dm_n_entities. lia. }
  destruct (wl_closed m2 rs2 _ U2 Hw2) as [Hrs2U2 HclU2].
  exists rs2, U2. split; [exact Hr2|]. split; [exact Hw2|]. split; [|split; [exact HU2V|apply Hrs2U2, Hnew2]].
  assert (Pcl : forall x ys y, In x U2 -> succ m1 x = Ok ys -> In y ys -> In y U2).
  { intros x ys y Hx Hys Hy. destruct (G.is_type x) eqn:Ht.
    - rewrite (succ_type m1 x) in Hys by (unfold G.is_type in Ht; destruct (fst x); try discriminate; reflexivity).
      injection Hys as <-. destruct Hy.
    - destruct (HclU2 x Hx Ht) as [ys' [Hys' Hin]]. unfold m2 in Hys'. rewrite (dm_succ m1 fs x ys Hys) in Hys'.
      injection Hys' as <-. apply Hin, Hy. }
  intros z Hz. apply (wl_least m1 (fun x => In x U2) Pcl _ _ U Hw (init_stack_sub rs)); [|exact Hz].
  intros x Hx. apply fold_push_used in Hx as [Hx|[]]. apply Hrs2U2, Hrs12, Hx.
Qed.

Theorem dm_used m1 fs u : dead_in_range (m_elements m1) -> used m1 = Ok u -> (forall f, In f fs -> In (S_func, f) u) ->
  exists u2, used (dm m1 fs) = Ok u2 /\ incl u u2 /\ In (S_elem, anext (m_elements m1)) u2.
Proof.
  intros Hd Hu Hfs. destruct (G.used_inv m1 u Hu) as (rs & U & Hr & Hw & Hcase).
  destruct (dm_wl m1 fs rs U Hd Hr Hw) as (rs2 & U2 & Hr2 & Hw2 & HUU2 & HU2V & Hnew).
  { intros f Hf. apply Hfs in Hf. destruct Hcase as [->|(mid & v & rest & _ & _ & _ & ->)]; [exact Hf|].
    destruct Hf as [E|Hf]; [discriminate E|exact Hf]. }
  unfold used. rewrite Hr2. cbn [rbind]. rewrite Hw2. cbn [rbind].
  change (aiter (m_memories (dm m1 fs))) with (aiter (m_memories m1)).
  destruct Hcase as [->|(mid & v & rest & Hmem & HnoM & HD & ->)].
  - destruct (used_of U2 S_data); destruct (used_of U2 S_memory); destruct (aiter (m_memories m1)) as [|[? ?] ?];
      eexists; (split; [reflexivity|]); (split; [|try right; exact Hnew]); try exact HUU2; apply incl_tl, HUU2.
  - (* the residue is the same: still no memory in the result, still some data segment *)
    assert (HM2 : used_of U2 S_memory = []).
    { destruct (used_of U2 S_memory) as [|i l] eqn:E; [reflexivity|exfalso].
      assert (Hi : In i (used_of U2 S_memory)) by (rewrite E; left; reflexivity).
      apply G.used_of_In, HU2V in Hi. destruct Hi as [Hi|Hi]; [discriminate Hi|].
      apply G.used_of_In in Hi. rewrite HnoM in Hi. exact Hi. }
    rewrite HM2, Hmem. destruct (used_of U2 S_data) eqn:HD2.
    + exfalso. destruct (used_of U S_data) as [|d ds] eqn:E; [congruence|].
      assert (Hi : In d (used_of U S_data)) by (rewrite E; left; reflexivity).
      apply G.used_of_In, HUU2, G.used_of_In in Hi. rewrite HD2 in Hi. exact Hi.
    + eexists. split; [reflexivity|]. split; [|right; exact Hnew].
      intros x [<-|Hx]; [left; reflexivity|right; apply HUU2, Hx].
Qed.

(* a fixpoint of the sweep stays one when a declared segment that lists live functions is added *)
Theorem declared_sweep_fix m1 fs : gc_sweep m1 = Ok m1 ->
  dead_in_range (m_elements m1) -> (forall f, In f fs -> liveF m1 f) -> gc_sweep (dm m1 fs) = Ok (dm m1 fs).
Proof.
  intros H Hd Hlive. destruct (gc_shape m1 m1 H) as [u [Hu _]]. destruct (sweep_all_used m1 m1 u H Hu) as [L I].
  destruct (dm_used m1 fs u Hd Hu) as (u2 & Hu2 & Huu2 & Hnew); [intros f Hf; exact (L (S_func, f) (Hlive f Hf))|].
  apply (gc_sweep_all_used _ u2 Hu2). split.
  - intros [s id]. destruct s; try (intros h; apply Huu2, L; exact h).
    intros [e He]. unfold dm in He. cbn [snd m_elements set_elements] in He. apply aget_snoc_inv in He as [He|[-> _]]; [|exact Hnew].
    apply Huu2, (L (S_elem, id)). exists e. exact He.
  - intros id i Hg. exact (imp_used_mono u u2 i Huu2 (I id i Hg)).
Qed.

(* the sweep of a second run deletes nothing (the added declared segment is a root) *)
Theorem gc_then_sweep_idempotent m m2 : dead_in_range (m_elements m) -> gc m = Ok m2 -> gc_sweep m2 = Ok m2.
Proof.
  intros Hdr H. destruct (gc_inv_full m m2 H) as [m1 [Hs Hd]].
  pose proof (gc_sweep_idempotent m m1 Hs) as Hfix.
  destruct (declare_inv m1 m2 Hd) as [fs [Hud [[-> ->]|[Hne ->]]]]; [exact Hfix|].
  apply (declared_sweep_fix m1 fs Hfix).
  - apply (sweep_elements_dir m m1 Hs Hdr).
  - intros f Hf. destruct (undeclared_funcs_inv m1 fs Hud) as [refd [Hr Efs]].
    rewrite Efs in Hf. apply sort_ids_members, filter_In in Hf.
    exact (sweep_referenced_live m m1 refd Hs Hr f (proj1 Hf)).
Qed.

Theorem gc_idempotent_partial m m1 : dead_in_range (m_elements m) -> gc m = Ok m1 -> gc m1 = Ok m1.
Proof.
  intros Hdr H. apply (gc_declare_idempotent_partial m m1 Hdr H). exact (gc_then_sweep_idempotent m m1 Hdr H).
Qed.

Theorem gc_idempotent_after_parse cf ver w s m1 : parseM cf ver w = POk s -> gc (ps_m s) = Ok m1 -> gc m1 = Ok m1.
Proof. intros HP. exact (gc_idempotent_partial _ _ (parsed_elements_dir _ _ _ _ HP)). Qed.

(* the premise on the tombstones of the element arena cannot be dropped in the model: with a tombstone on the next id the
   new segment is born dead, the reference stays undeclared, and every further run appends one more segment *)
Theorem gc_idempotent_refuted : exists m m1 m2, gc m = Ok m1 /\ gc m1 = Ok m2 /\ m2 <> m1.
Proof.
  exists (w_mod [1]), (res_get (w_mod [1]) (gc (w_mod [1]))), (res_get (w_mod [1]) (gc (res_get (w_mod [1]) (gc (w_mod [1]))))).
  split; [vm_compute; reflexivity|]. split; [vm_compute; reflexivity|].
  intros E. apply (f_equal (fun m => length (items (m_elements m)))) in E. vm_compute in E. discriminate E.
Qed.

Print Assumptions gc_then_sweep_idempotent.
Print Assumptions gc_idempotent_partial.
Print Assumptions gc_idempotent_after_parse.
Print Assumptions gc_idempotent_refuted.
