(* C19 / T-index: the index maps.  The parse-time maps (IndicesToIds, [i2ids]) return, for each index space,
   the entity the input defines at that index; the emit-time maps (IdsToIndices, [x2i]) return the position at
   which each entity is emitted; and there are sufficient conditions under which the section emitters never hit
   an "index not set" panic. *)
From Coq Require Import List NArith ZArith Bool Arith Lia Permutation Sorted.
Import ListNotations.
From WV Require Import Gen.Ops Model.Common Model.IR Model.Arena Model.Traversal Model.EmitFn Model.Locals
                       Model.ParseFn Model.ModuleM Model.ParseM Model.EmitM Gen.Attrs.
From WV Require Export Proofs.ParseSteps.
From WV Require Import Proofs.Arena Proofs.Order.
From WV Require Proofs.ArenaSet Proofs.ArenaN.
Local Open Scope nat_scope.

Definition iota (n : nat) : list N := map N.of_nat (seq 0 n).

Lemma iota_S n : iota (S n) = iota n ++ [N.of_nat n].
Proof. unfold iota. rewrite seq_S, map_app. reflexivity. Qed.
Lemma iota_length n : length (iota n) = n.
Proof. unfold iota. rewrite map_length, seq_length. reflexivity. Qed.
Lemma iota_nth n k : k < n -> nth_error (iota n) k = Some (N.of_nat k).
Proof.
  intros H. unfold iota. rewrite nth_error_map.
  rewrite (nth_error_nth' (seq 0 n) 0) by (rewrite seq_length; exact H).
  rewrite seq_nth by exact H. reflexivity.
Qed.

(* Holds while parsing only: nothing is deleted yet, so in each index space id = position in the arena = index, and
   no arena has a dead entry (the last nine clauses).  A deletion (gc, an edit) makes it false. *)
Definition ids_consistent (m : wir) (ids : i2ids) : Prop :=
  ii_funcs ids = iota (length (items (m_funcs m))) /\ ii_tables ids = iota (length (items (m_tables m))) /\
  ii_memories ids = iota (length (items (m_memories m))) /\ ii_globals ids = iota (length (items (m_globals m))) /\
  ii_elements ids = iota (length (items (m_elements m))) /\ ii_data ids = iota (length (items (m_data m))) /\
  dead (m_funcs m) = [] /\ dead (m_tables m) = [] /\ dead (m_memories m) = [] /\ dead (m_globals m) = [] /\
  dead (m_elements m) = [] /\ dead (m_data m) = [] /\ dead (m_imports m) = [] /\ dead (m_exports m) = [] /\
  dead (Arena.arena (m_types m)) = [].

Lemma idc_ids m ids : ids_consistent m ids ->
  ii_funcs ids = iota (length (items (m_funcs m))) /\ ii_tables ids = iota (length (items (m_tables m))) /\
  ii_memories ids = iota (length (items (m_memories m))) /\ ii_globals ids = iota (length (items (m_globals m))) /\
  ii_elements ids = iota (length (items (m_elements m))) /\ ii_data ids = iota (length (items (m_data m))).
Proof. unfold ids_consistent. tauto. Qed.
Lemma idc_nodead m ids : ids_consistent m ids ->
  dead (m_funcs m) = [] /\ dead (m_tables m) = [] /\ dead (m_memories m) = [] /\ dead (m_globals m) = [] /\
  dead (m_elements m) = [] /\ dead (m_data m) = [] /\ dead (m_imports m) = [] /\ dead (m_exports m) = [] /\
  dead (Arena.arena (m_types m)) = [].
Proof. unfold ids_consistent. tauto. Qed.

Ltac idc_split :=
  repeat match goal with
         | H : ids_consistent _ _ |- _ => unfold ids_consistent in H; decompose [and] H; clear H
         end;
  unfold ids_consistent; wcbn;
  repeat match goal with |- _ /\ _ => split end.

(* one clause after an allocation: the pushed id is the old length, [anext a = N.of_nat (length (items a))], and
   [iota_S] extends the old clause by it; the other clauses are the old ones *)
Ltac idc_one :=
  unfold anext, next_id; repeat (rewrite app_length || rewrite upd_length); cbn [length]; rewrite ?Nat.add_1_r, ?iota_S;
  first [assumption | congruence].

Ltac idc_solve := idc_split; idc_one.

Lemma idc_empty cf : ids_consistent (empty_wir cf) empty_i2ids.
Proof. unfold ids_consistent. cbn. repeat split. Qed.

Lemma types_insert_dead m t m1 id :
  types_insert m t = (m1, id) ->
  m1 = set_types m (m_types m1) /\ dead (Arena.arena (m_types m1)) = dead (Arena.arena (m_types m)).
Proof.
  unfold types_insert, insert. destruct (lookup mtype_eqb (already (m_types m)) t).
  - intros H; inversion H; subst; clear H. wcbn. auto.
  - wcbn. intros H; inversion H; subst; clear H. wcbn. auto.
Qed.

Lemma types_insert_idc m ids t m1 id :
  ids_consistent m ids -> types_insert m t = (m1, id) -> ids_consistent m1 ids.
Proof.
  intros H E. apply types_insert_dead in E. destruct E as [E1 E2]. rewrite E1.
  idc_split; idc_one.
Qed.

Lemma parse_import_idc m ids i m' ids' :
  ids_consistent m ids -> parse_import m ids i = POk (m', ids') -> ids_consistent m' ids'.
Proof.
  intros H E. unfold parse_import in E. destruct (wi_kind i); [pinv E|..]; wcbn; injection E as <- <-; idc_solve.
Qed.

Lemma parse_elem_idc m ids e m' ids' :
  ids_consistent m ids -> parse_elem m ids e = POk (m', ids') -> ids_consistent m' ids'.
Proof.
  intros H E. unfold parse_elem in E. pinv E as its Eits. pinv E as mk Emk. destruct mk as [m1 kind].
  wcbn. injection E as <- <-.
  assert (H1 : ids_consistent m1 ids).
  { destruct (wel_kind e); [injection Emk as <- _; exact H..|].
    pinv Emk as tid Etid. pinv Emk as tb Etb. pinv Emk as o Eo. pinv Emk as ok Eok. destruct ok; [|discriminate].
    injection Emk as <- _. clear - H. idc_solve. }
  clear - H1. idc_solve.
Qed.

(* the name section only rewrites items in place: no arena changes its length or its dead list *)
Definition same_shape {A} (a b : tarena A) : Prop := length (items a) = length (items b) /\ dead a = dead b.

Lemma idc_same_shape m m' ids : ids_consistent m ids ->
  same_shape (m_funcs m') (m_funcs m) -> same_shape (m_tables m') (m_tables m) -> same_shape (m_memories m') (m_memories m) ->
  same_shape (m_globals m') (m_globals m) -> same_shape (m_elements m') (m_elements m) -> same_shape (m_data m') (m_data m) ->
  dead (m_imports m') = dead (m_imports m) -> dead (m_exports m') = dead (m_exports m) ->
  dead (Arena.arena (m_types m')) = dead (Arena.arena (m_types m)) -> ids_consistent m' ids.
Proof.
  unfold ids_consistent. intros H [-> ->] [-> ->] [-> ->] [-> ->] [-> ->] [-> ->] -> -> ->. exact H.
Qed.

Lemma apply_names_shape {A} (setn : A -> ModuleM.str -> A) (idx2id : list N) : forall (l : namemap) (a : tarena A),
  same_shape (apply_names a idx2id setn l) a.
Proof.
  unfold same_shape. induction l as [|[i n] r IH]; intros a; cbn [apply_names]; [auto|].
  destruct (nth_N idx2id i); [|apply IH].
  destruct (IH (aset_at a n0 (fun x => setn x n))) as [H1 H2]. rewrite H1, H2. wcbn.
  rewrite upd_length. auto.
Qed.

Lemma parse_names_idc m ids ids0 n : ids_consistent m ids0 -> ids_consistent (parse_names m ids n) ids0.
Proof.
  intros H. unfold parse_names. cbv zeta.
  set (m1 := match wn_module n with Some s => set_name m (Some s) | None => m end).
  assert (H1 : ids_consistent m1 ids0) by (subst m1; destruct (wn_module n); exact H).
  clearbody m1. clear H.
  destruct (apply_local_names _ ids (wn_locals n)) as [m3|] eqn:E3; [apply apply_local_names_writes in E3; rewrite E3; clear E3|];
    apply (idc_same_shape _ _ _ H1); first [apply apply_names_shape | split; reflexivity | reflexivity].
Qed.

Lemma step_idc st m ids m' ids' : ids_consistent m ids -> do_step st m ids = POk (m', ids') -> ids_consistent m' ids'.
Proof.
  intros H E. destruct st; cbn [do_step] in E.
  - destruct (types_insert m _) as [m1 id] eqn:Et. injection E as <- <-.
    pose proof (types_insert_idc _ _ _ _ _ H Et) as H1. clear - H1. unfold push_type. idc_solve.
  - exact (parse_import_idc _ _ _ _ _ H E).
  - pinv E. wcbn. destruct (synth _ _ _); injection E as <- <-; idc_solve.
  - wcbn. injection E as <- <-. idc_solve.
  - wcbn. injection E as <- <-. idc_solve.
  - pinv E. wcbn. injection E as <- <-. idc_solve.
  - pinv E. wcbn. injection E as <- <-. idc_solve.
  - pinv E. injection E as <- <-. idc_solve.
  - exact (parse_elem_idc _ _ _ _ _ H E).
  - wcbn. injection E as <- <-. idc_solve.
  - cbn [parse_data_from] in E. pinv E as x Ex. destruct x as [[m1 ids1] id]. pinv E as y Ey. destruct y as [m2 kind].
    pinv E as u Eu. injection E as <- <-.
    assert (H1 : ids_consistent m1 ids1).
    { destruct prealloc; [pinv Ex as z Ez|wcbn]; injection Ex as <- <- _; [exact H|clear - H; idc_solve]. }
    assert (H2 : ids_consistent m2 ids1).
    { destruct (wd_kind d); [injection Ey as <- _; exact H1|].
      pinv Ey as mid Emid. pinv Ey as mm Emm. pinv Ey as o Eo. pinv Ey as ok Eok. destruct ok; [|discriminate].
      injection Ey as <- _. clear - H1. idc_solve. }
    clear - H2. idc_solve.
  - injection E as <- <-. destruct c as [n d|n d|[n|]|[p|]]; cbn [parse_custom ps_m with_m]; try exact H; clear - H; idc_solve.
  - cbn [add_locals] in E. wcbn. injection E as <- <-. destruct (synth _ _ _); idc_solve.
  - destruct (types_insert m _) as [m1 id] eqn:Et. injection E as <- <-. exact (types_insert_idc _ _ _ _ _ H Et).
  - pinv E. injection E as <- <-. idc_solve.
  - injection E as <- <-. apply parse_names_idc, H.
  - injection E as <- <-. idc_solve.
Qed.

Lemma parse_sec_idc s sec s' :
  ids_consistent (ps_m s) (ps_ids s) -> parse_sec s sec = POk s' -> ids_consistent (ps_m s') (ps_ids s').
Proof. intros H E. exact (run_steps_inv _ step_idc _ _ _ _ _ H (parse_sec_steps _ _ _ E)). Qed.
Theorem parse_secs_ids : forall w s s',
  ids_consistent (ps_m s) (ps_ids s) -> parse_secs s w = POk s' -> ids_consistent (ps_m s') (ps_ids s').
Proof. exact (parse_secs_inv _ step_idc). Qed.
Lemma add_locals_idc : forall tys m ids fid pre m' ids' l,
  ids_consistent m ids -> add_locals m ids fid tys pre = (m', ids', l) -> ids_consistent m' ids'.
Proof. intros tys m ids fid pre m' ids' l H E. exact (reach_inv _ step_idc _ _ (add_locals_reach _ _ _ _ _ _ _ _ E) H). Qed.
Lemma prepare_bodies_idc : forall bs m ids ni i m' ids' ps,
  ids_consistent m ids -> prepare_bodies m ids ni i bs = POk (m', ids', ps) -> ids_consistent m' ids'.
Proof. intros bs m ids ni i m' ids' ps H E. exact (reach_inv _ step_idc _ _ (prepare_bodies_reach _ _ _ _ _ _ _ _ E) H). Qed.
Lemma install_bodies_idc : forall ps m ids m',
  ids_consistent m ids -> install_bodies m ids ps = POk m' -> ids_consistent m' ids.
Proof. intros ps m ids m' H E. exact (reach_inv _ step_idc _ _ (install_bodies_reach _ _ _ _ E) H). Qed.

Theorem parseM_ids : forall cf ver w s, parseM cf ver w = POk s -> ids_consistent (ps_m s) (ps_ids s).
Proof. intros cf ver w s. exact (parseM_inv _ step_idc cf ver w s (idc_empty cf)). Qed.

Lemma valty_eqb'_eq a b : valty_eqb' a b = true <-> a = b.
Proof. split; [destruct a, b; cbn; congruence|intros ->; apply N.eqb_refl]. Qed.
Lemma vl_eqb_eq : forall a b, vl_eqb a b = true <-> a = b.
Proof.
  induction a as [|x a IH]; intros [|y b]; cbn [vl_eqb]; try (split; congruence).
  rewrite andb_true_iff, valty_eqb'_eq, IH. split; [intros [-> ->]; reflexivity|intros H; inversion H; auto].
Qed.
(* the ArenaSet key equality is equality of (params, results, entry) *)
Lemma mtype_eqb_spec a b :
  mtype_eqb a b = true <-> ty_params a = ty_params b /\ ty_results a = ty_results b /\ ty_entry a = ty_entry b.
Proof.
  unfold mtype_eqb. rewrite !andb_true_iff, !vl_eqb_eq, eqb_true_iff. tauto.
Qed.

(* what the type arena must satisfy for [insert]'s de-duplication to be meaningful: nothing is dead and
   the `already_in_arena` map points at items equal (as keys) to the recorded key *)
Definition types_wf (s : aset mtype) : Prop :=
  dead (Arena.arena s) = [] /\
  forall k id, In (k, id) (already s) ->
    exists k', nth_error (items (Arena.arena s)) id = Some k' /\ mtype_eqb k k' = true.

Lemma types_wf_empty : types_wf aset_empty.
Proof. split; [reflexivity|intros k id []]. Qed.

Lemma lookup_In_eqb (l : list (mtype * nat)) v id :
  lookup mtype_eqb l v = Some id -> exists k, In (k, id) l /\ mtype_eqb k v = true.
Proof. apply Proofs.ArenaSet.lookup_In. Qed.

Lemma mtype_eqb_trans a b c : mtype_eqb a b = true -> mtype_eqb b c = true -> mtype_eqb a c = true.
Proof. rewrite !mtype_eqb_spec. intuition congruence. Qed.
Lemma mtype_eqb_sym a b : mtype_eqb a b = true -> mtype_eqb b a = true.
Proof. rewrite !mtype_eqb_spec. intuition congruence. Qed.

Lemma aset_index_nodead (s : aset mtype) id :
  dead (Arena.arena s) = [] -> aset_index s id = nth_error (items (Arena.arena s)) id.
Proof. intros H. unfold aset_index, index, get, is_dead. rewrite H. reflexivity. Qed.

Lemma types_insert_spec m t m1 id :
  types_wf (m_types m) -> types_insert m t = (m1, id) ->
  types_wf (m_types m1) /\
  (forall i x, nth_error (items (Arena.arena (m_types m))) i = Some x ->
               nth_error (items (Arena.arena (m_types m1))) i = Some x) /\
  exists ty, nth_error (items (Arena.arena (m_types m1))) (N.to_nat id) = Some ty /\ mtype_eqb t ty = true.
Proof.
  intros [Hd Ha] E. unfold types_insert, insert in E.
  destruct (lookup mtype_eqb (already (m_types m)) t) as [i|] eqn:El.
  - inversion E; subst; clear E. wcbn. split; [split; assumption|]. split; [auto|].
    rewrite Nat2N.id. destruct (lookup_In_eqb _ _ _ El) as [k [Hin He]].
    destruct (Ha _ _ Hin) as [k' [Hn Hk]]. exists k'. split; [exact Hn|].
    eapply mtype_eqb_trans; [apply mtype_eqb_sym; exact He|exact Hk].
  - wcbn. inversion E; subst; clear E. wcbn. split; [split; [exact Hd|]|split].
    + intros k i [Hin|Hin]; wcbn; unfold next_id in *.
      * inversion Hin; subst. exists k. rewrite nth_error_app2, Nat.sub_diag by lia.
        split; [reflexivity|]. apply mtype_eqb_spec. auto.
      * destruct (Ha _ _ Hin) as [k' [Hn Hk]]. exists k'. split; [|exact Hk].
        rewrite nth_error_app1; [exact Hn|]. apply nth_error_Some. congruence.
    + intros i x Hn. rewrite nth_error_app1; [exact Hn|]. apply nth_error_Some. congruence.
    + exists t. unfold next_id. rewrite Nat2N.id, nth_error_app2, Nat.sub_diag by lia.
      split; [reflexivity|]. apply mtype_eqb_spec. auto.
Qed.

Lemma parse_types_frame : forall ts m ids m' ids',
  types_wf (m_types m) -> parse_types m ids ts = (m', ids') ->
  types_wf (m_types m') /\
  (forall i x, nth_error (items (Arena.arena (m_types m))) i = Some x ->
               nth_error (items (Arena.arena (m_types m'))) i = Some x) /\
  (exists l, ii_types ids' = ii_types ids ++ l /\ length l = length ts).
Proof.
  induction ts as [|[ps rs] r IH]; intros m ids m' ids' W E; cbn [parse_types] in E.
  - inversion E; subst. split; [exact W|]. split; [auto|]. exists []. rewrite app_nil_r. auto.
  - destruct (types_insert m _) as [m1 id] eqn:Et.
    destruct (types_insert_spec _ _ _ _ W Et) as [W1 [K1 _]].
    destruct (IH _ _ _ _ W1 E) as [W2 [K2 [l [El Ll]]]]. wcbn.
    split; [exact W2|]. split; [auto|]. exists (id :: l). rewrite El, <- app_assoc. cbn. auto.
Qed.

Theorem parse_types_spec : forall ts m ids m' ids',
  types_wf (m_types m) -> parse_types m ids ts = (m', ids') ->
  forall k t, nth_error ts k = Some t ->
  exists id ty, nth_error (ii_types ids') (length (ii_types ids) + k) = Some id /\
                aset_index (m_types m') (N.to_nat id) = Some ty /\
                ty_params ty = fst t /\ ty_results ty = snd t /\ ty_entry ty = false.
Proof.
  induction ts as [|[ps rs] r IH]; intros m ids m' ids' W E k t Hk; [destruct k; discriminate|].
  cbn [parse_types] in E. destruct (types_insert m _) as [m1 id] eqn:Et.
  destruct (types_insert_spec _ _ _ _ W Et) as [W1 [K1 [ty [Hty Heq]]]].
  destruct (parse_types_frame _ _ _ _ _ W1 E) as [W2 [K2 [l [El Ll]]]]. wcbn.
  destruct k as [|k].
  - cbn in Hk. inversion Hk; subst t; clear Hk. exists id, ty.
    rewrite El, <- app_assoc, Nat.add_0_r, nth_error_app2, Nat.sub_diag by lia.
    split; [reflexivity|]. rewrite aset_index_nodead by apply W2. split; [apply K2; exact Hty|].
    apply mtype_eqb_spec in Heq. cbn in Heq. cbn [fst snd]. intuition congruence.
  - cbn [nth_error] in Hk. destruct (IH _ _ _ _ W1 E k t Hk) as [id' [ty' [H1 H2]]].
    exists id', ty'. wcbn. rewrite app_length in H1. cbn [length] in H1.
    replace (length (ii_types ids) + S k) with (length (ii_types ids) + 1 + k) by lia. auto.
Qed.

(* the statement with only "nothing is dead" as premise is false: the de-duplication map must be sound *)
Definition bad_types : aset mtype :=
  {| Arena.arena := empty; already := [({| ty_params := []; ty_results := []; ty_entry := false; ty_name := None |}, 5)] |}.
Theorem parse_types_spec_refuted :
  exists m ids ts m' ids', dead (Arena.arena (m_types m)) = [] /\ parse_types m ids ts = (m', ids') /\
    exists k t, nth_error ts k = Some t /\
      ~ exists id ty, nth_error (ii_types ids') (length (ii_types ids) + k) = Some id /\
                      aset_index (m_types m') (N.to_nat id) = Some ty.
Proof.
  exists (set_types (empty_wir default_config) bad_types), empty_i2ids, [([], [])].
  eexists; eexists. split; [reflexivity|]. split; [reflexivity|].
  exists 0, ([], []). split; [reflexivity|]. intros [id [ty [H1 H2]]].
  cbn in H1. inversion H1; subst. cbn in H2. discriminate.
Qed.

Theorem parse_tables_spec : forall m ids l m' ids', parse_tables m ids l = (m', ids') ->
  items (m_tables m') = items (m_tables m) ++ map gen_parse_table_local l.
Proof.
  intros m ids l. revert m ids. induction l as [|t r IH]; intros m ids m' ids' E; cbn [parse_tables] in E.
  - inversion E; subst. cbn. rewrite app_nil_r. reflexivity.
  - wcbn. apply IH in E. wcbn. rewrite E, <- app_assoc. reflexivity.
Qed.

Theorem parse_mems_spec : forall m ids l m' ids', parse_mems m ids l = (m', ids') ->
  items (m_memories m') = items (m_memories m) ++ map gen_parse_memory_local l.
Proof.
  intros m ids l. revert m ids. induction l as [|t r IH]; intros m ids m' ids' E; cbn [parse_mems] in E.
  - inversion E; subst. cbn. rewrite app_nil_r. reflexivity.
  - wcbn. apply IH in E. wcbn. rewrite E, <- app_assoc. reflexivity.
Qed.

(* imports: [base] = the id the next import will get (its position in m_imports) *)
Fixpoint imp_tables (base : nat) (l : list wimport) : list mtable :=
  match l with
  | [] => []
  | i :: r => match wi_kind i with WI_Table t => [gen_parse_table_import t (N.of_nat base)] | _ => [] end
              ++ imp_tables (S base) r
  end.
Fixpoint imp_mems (base : nat) (l : list wimport) : list mmem :=
  match l with
  | [] => []
  | i :: r => match wi_kind i with WI_Mem t => [gen_parse_memory_import t (N.of_nat base)] | _ => [] end
              ++ imp_mems (S base) r
  end.
Fixpoint imp_globals (base : nat) (l : list wimport) : list mglobal :=
  match l with
  | [] => []
  | i :: r => match wi_kind i with WI_Global t => [gen_parse_global_import t (N.of_nat base)] | _ => [] end
              ++ imp_globals (S base) r
  end.
Fixpoint imp_funcs (tys : list N) (base : nat) (l : list wimport) : list mfunc :=
  match l with
  | [] => []
  | i :: r => match wi_kind i with
              | WI_Func ti => match nth_N tys ti with
                              | Some ty => [{| fn_kind := FK_Import (N.of_nat base) ty; fn_name := None |}]
                              | None => [] end
              | _ => [] end
              ++ imp_funcs tys (S base) r
  end.
(* the import records: each refers to the entity created for it (the arena's next id at that moment) *)
Fixpoint imp_entries (nf nt nm ng : nat) (l : list wimport) : list mimport :=
  match l with
  | [] => []
  | i :: r =>
      match wi_kind i with
      | WI_Func _ => {| im_module := wi_module i; im_name := wi_name i; im_kind := MI_Func (N.of_nat nf) |} :: imp_entries (S nf) nt nm ng r
      | WI_Table _ => {| im_module := wi_module i; im_name := wi_name i; im_kind := MI_Table (N.of_nat nt) |} :: imp_entries nf (S nt) nm ng r
      | WI_Mem _ => {| im_module := wi_module i; im_name := wi_name i; im_kind := MI_Mem (N.of_nat nm) |} :: imp_entries nf nt (S nm) ng r
      | WI_Global _ => {| im_module := wi_module i; im_name := wi_name i; im_kind := MI_Global (N.of_nat ng) |} :: imp_entries nf nt nm (S ng) r
      end
  end.

Theorem parse_imports_spec : forall l m ids m' ids', parse_imports m ids l = POk (m', ids') ->
  let base := length (items (m_imports m)) in
  items (m_tables m') = items (m_tables m) ++ imp_tables base l /\
  items (m_memories m') = items (m_memories m) ++ imp_mems base l /\
  items (m_globals m') = items (m_globals m) ++ imp_globals base l /\
  items (m_funcs m') = items (m_funcs m) ++ imp_funcs (ii_types ids) base l /\
  items (m_imports m') = items (m_imports m) ++
     imp_entries (length (items (m_funcs m))) (length (items (m_tables m)))
                 (length (items (m_memories m))) (length (items (m_globals m))) l /\
  ii_types ids' = ii_types ids.
Proof.
  induction l as [|i r IH]; intros m ids m' ids' E; cbn [parse_imports] in E.
  - inversion E; subst. cbn. rewrite !app_nil_r. auto 10.
  - pinv E as x Ex. destruct x as [m1 ids1]. apply IH in E. clear IH. cbv zeta in E. wcbn.
    destruct E as (E1 & E2 & E3 & E4 & E5 & E6). rewrite E1, E2, E3, E4, E5, E6. clear E1 E2 E3 E4 E5 E6.
    unfold parse_import in Ex. cbn [imp_tables imp_mems imp_globals imp_funcs imp_entries].
    destruct (wi_kind i).
    1: pinv Ex as t Et; apply of_opt_err_ok in Et; rewrite Et.
    all: wcbn; inversion Ex; subst; clear Ex; wcbn.
    all: unfold anext, next_id; rewrite !app_length; cbn [length app]; rewrite !Nat.add_1_r, <- !app_assoc; cbn [app].
    all: auto 10.
Qed.

(* the filter/flat_map reading: the k-th import, when it is a table, is the table
   [gen_parse_table_import attrs (base + k)] *)
Lemma imp_tables_flat_map : forall l base,
  imp_tables base l =
  flat_map (fun p => match wi_kind (snd p) with WI_Table t => [gen_parse_table_import t (N.of_nat (fst p))] | _ => [] end)
           (combine (seq base (length l)) l).
Proof. induction l as [|i r IH]; intros base; cbn; [reflexivity|]. rewrite IH. reflexivity. Qed.
Lemma imp_mems_flat_map : forall l base,
  imp_mems base l =
  flat_map (fun p => match wi_kind (snd p) with WI_Mem t => [gen_parse_memory_import t (N.of_nat (fst p))] | _ => [] end)
           (combine (seq base (length l)) l).
Proof. induction l as [|i r IH]; intros base; cbn; [reflexivity|]. rewrite IH. reflexivity. Qed.
Lemma imp_globals_flat_map : forall l base,
  imp_globals base l =
  flat_map (fun p => match wi_kind (snd p) with WI_Global t => [gen_parse_global_import t (N.of_nat (fst p))] | _ => [] end)
           (combine (seq base (length l)) l).
Proof. induction l as [|i r IH]; intros base; cbn; [reflexivity|]. rewrite IH. reflexivity. Qed.

Lemma lookup_app_new : forall (l : list (N * N)) id v, ~ In id (map fst l) -> lookup_i (l ++ [(id, v)]) id = Ok v.
Proof.
  unfold lookup_i. induction l as [|[k i] r IH]; intros id v Hn; cbn [app find fst snd].
  - rewrite N.eqb_refl. reflexivity.
  - destruct (N.eqb_spec k id) as [->|Hne]; [exfalso; apply Hn; left; reflexivity|].
    apply IH. intros Hin. apply Hn. right. exact Hin.
Qed.

Lemma pushed_lookup : forall l id, ~ In id (map fst l) -> lookup_i (pushed l id) id = Ok (len_N l).
Proof. intros l id H. unfold pushed. apply lookup_app_new, H. Qed.

Lemma lookup_app_old : forall (l l2 : list (N * N)) id' i, lookup_i l id' = Ok i -> lookup_i (l ++ l2) id' = Ok i.
Proof.
  unfold lookup_i. induction l as [|[k j] r IH]; intros l2 id' i; cbn [app find fst snd]; [discriminate|].
  destruct (N.eqb k id'); [auto|apply IH].
Qed.

Lemma pushed_lookup_old : forall l id id' i, lookup_i l id' = Ok i -> lookup_i (pushed l id) id' = Ok i.
Proof. intros l id id' i H. unfold pushed. apply lookup_app_old, H. Qed.

Lemma fold_push_spec : forall ids l0,
  fold_left (fun l id => pushed l id) ids l0 = l0 ++ combine ids (map N.of_nat (seq (length l0) (length ids))).
Proof.
  induction ids as [|id r IH]; intros l0; cbn [fold_left length seq map combine].
  - rewrite app_nil_r. reflexivity.
  - rewrite IH. unfold pushed, len_N. rewrite <- app_assoc, app_length. cbn [length app].
    rewrite Nat.add_1_r. reflexivity.
Qed.

(* numbering a list of ids from 0 *)
Definition number (ids : list N) : list (N * N) := combine ids (iota (length ids)).

Lemma fold_push_number ids : fold_left (fun l id => pushed l id) ids [] = number ids.
Proof. rewrite fold_push_spec. reflexivity. Qed.

Definition wf_map (l : list (N * N)) : Prop := map snd l = iota (length l) /\ NoDup (map fst l).

Lemma wf_map_nil : wf_map [].
Proof. split; [reflexivity|constructor]. Qed.

Lemma pushed_wf l id : wf_map l -> ~ In id (map fst l) -> wf_map (pushed l id).
Proof.
  intros [H1 H2] Hn. unfold pushed, wf_map. rewrite !map_app, app_length. cbn [map fst snd length].
  rewrite Nat.add_1_r, iota_S, H1. split; [reflexivity|].
  apply NoDup_app_intro; [exact H2|constructor; [intros []|constructor]|].
  intros x Hx [<-|[]]. exact (Hn Hx).
Qed.

Lemma number_fst ids : map fst (number ids) = ids.
Proof. unfold number. apply map_fst_combine. rewrite iota_length. reflexivity. Qed.
Lemma number_snd ids : map snd (number ids) = iota (length ids).
Proof. unfold number. apply map_snd_combine. rewrite iota_length. reflexivity. Qed.
Lemma number_length ids : length (number ids) = length ids.
Proof. unfold number. rewrite combine_length, iota_length. apply Nat.min_id. Qed.

Lemma number_wf ids : NoDup ids -> wf_map (number ids).
Proof. intros H. split; [rewrite number_snd, number_length; reflexivity|rewrite number_fst; exact H]. Qed.
(* the numbering half holds without any distinctness assumption *)
Lemma number_snd_iota ids : map snd (number ids) = iota (length (number ids)).
Proof. rewrite number_snd, number_length. reflexivity. Qed.

Lemma find_nodup : forall (l : list (N * N)) id i, NoDup (map fst l) -> In (id, i) l ->
  find (fun p => N.eqb (fst p) id) l = Some (id, i).
Proof.
  induction l as [|[k j] r IH]; intros id i Hnd Hin; [destruct Hin|].
  cbn [find fst]. cbn [map fst] in Hnd. inversion Hnd; subst.
  destruct Hin as [Hin|Hin].
  - inversion Hin; subst. rewrite N.eqb_refl. reflexivity.
  - destruct (N.eqb_spec k id) as [->|Hne].
    + exfalso. apply H1. apply (in_map fst) in Hin. exact Hin.
    + apply IH; assumption.
Qed.

Lemma wf_nth_snd (l : list (N * N)) n p : map snd l = iota (length l) -> nth_error l n = Some p -> snd p = N.of_nat n.
Proof.
  intros H Hn. assert (Hlt : n < length l) by (apply nth_error_Some; congruence).
  pose proof (map_nth_error (@snd N N) _ _ Hn) as Hm. rewrite H, iota_nth in Hm by exact Hlt. congruence.
Qed.

(* under wf_map the index IS the position *)
Lemma wf_lookup l id i : wf_map l -> (lookup_i l id = Ok i <-> nth_error l (N.to_nat i) = Some (id, i)).
Proof.
  intros [H1 H2]. unfold lookup_i. split.
  - destruct (find _ l) as [[k j]|] eqn:Ef; [|discriminate]. cbn [snd]. intros H; inversion H; subst j; clear H.
    apply find_some in Ef. destruct Ef as [Hin He]. cbn [fst] in He. apply N.eqb_eq in He. subst k.
    apply In_nth_error in Hin. destruct Hin as [n Hn].
    pose proof (wf_nth_snd _ _ _ H1 Hn) as Hs. cbn [snd] in Hs. subst i. rewrite Nat2N.id. exact Hn.
  - intros Hn. apply nth_error_In in Hn. rewrite (find_nodup _ _ _ H2 Hn). reflexivity.
Qed.

Lemma wf_lookup_fst l id i : wf_map l ->
  (lookup_i l id = Ok i <-> nth_error (map fst l) (N.to_nat i) = Some id).
Proof.
  intros W. rewrite (wf_lookup l id i W). split.
  - intros H. apply (map_nth_error (@fst N N)) in H. exact H.
  - intros H. rewrite nth_error_map in H. destruct (nth_error l (N.to_nat i)) as [[k j]|] eqn:En; [|discriminate].
    cbn in H. inversion H; subst k. pose proof (wf_nth_snd _ _ _ (proj1 W) En) as Hs. cbn [snd] in Hs.
    rewrite N2Nat.id in Hs. subst j. reflexivity.
Qed.

Lemma space_map_set_same x S v : S <> S_local -> space_map (set_space x S v) S = v.
Proof. destruct S; intros H; try reflexivity. congruence. Qed.
Lemma space_map_set_other x S S' v : S <> S' -> space_map (set_space x S v) S' = space_map x S'.
Proof. destruct S, S'; intros H; try reflexivity; congruence. Qed.
Lemma xi_locals_set x S v : xi_locals (set_space x S v) = xi_locals x.
Proof. destruct S; reflexivity. Qed.

Lemma push_idx_same x S id : S <> S_local -> space_map (push_idx x S id) S = pushed (space_map x S) id.
Proof. intros H. unfold push_idx. apply space_map_set_same, H. Qed.
Lemma push_idx_other x S S' id : S <> S' -> space_map (push_idx x S id) S' = space_map x S'.
Proof. intros H. unfold push_idx. apply space_map_set_other, H. Qed.

Definition push_all (S : space) (ids : list N) (x : x2i) : x2i := fold_left (fun x id => push_idx x S id) ids x.

Lemma push_all_same S : S <> S_local -> forall ids x,
  space_map (push_all S ids x) S = fold_left (fun l id => pushed l id) ids (space_map x S).
Proof.
  intros HS. induction ids as [|id r IH]; intros x; cbn [push_all fold_left]; [reflexivity|].
  fold (push_all S r (push_idx x S id)). rewrite IH, push_idx_same by exact HS. reflexivity.
Qed.
Lemma push_all_other S S' : S <> S' -> forall ids x, space_map (push_all S ids x) S' = space_map x S'.
Proof.
  intros HS. induction ids as [|id r IH]; intros x; cbn [push_all fold_left]; [reflexivity|].
  fold (push_all S r (push_idx x S id)). rewrite IH, push_idx_other by exact HS. reflexivity.
Qed.
Lemma fold_push_map {A} (f : A -> N) S : forall (l : list A) x,
  fold_left (fun x p => push_idx x S (f p)) l x = push_all S (map f l) x.
Proof. induction l as [|a r IH]; intros x; cbn [fold_left map push_all]; [reflexivity|]. rewrite IH. reflexivity. Qed.

(* a map built only by push_idx from empty *)
Lemma x2i_built S ids : S <> S_local -> space_map (push_all S ids empty_x2i) S = number ids.
Proof.
  intros HS. rewrite push_all_same by exact HS.
  replace (space_map empty_x2i S) with (@nil (N * N)) by (destruct S; reflexivity). apply fold_push_number.
Qed.

(* T-index, emit side: a lookup returns i exactly when the id sits at position i *)
Theorem x2i_positions : forall x S id i, wf_map (space_map x S) ->
  (get_idx x S id = Ok i <-> nth_error (map fst (space_map x S)) (N.to_nat i) = Some id).
Proof. intros x S id i W. unfold get_idx. apply wf_lookup_fst, W. Qed.

Corollary x2i_positions_built : forall S ids id i, S <> S_local -> NoDup ids ->
  (get_idx (fold_left (fun x id => push_idx x S id) ids empty_x2i) S id = Ok i <-> nth_error ids (N.to_nat i) = Some id).
Proof.
  intros S ids id i HS Hnd. fold (push_all S ids empty_x2i).
  rewrite x2i_positions; rewrite x2i_built by exact HS; [rewrite number_fst; reflexivity|apply number_wf, Hnd].
Qed.

Lemma rbind_ok {A B} (r : res A) (f : A -> res B) b : rbind r f = Ok b -> exists a, r = Ok a /\ f a = Ok b.
Proof. destruct r; cbn; try discriminate. eauto. Qed.
Tactic Notation "rinv" hyp(H) "as" ident(a) ident(E) := apply rbind_ok in H; destruct H as [a [E H]].

Definition live_imports (m : wir) : list mimport := map snd (aiter (m_imports m)).
Definition push_import (x : x2i) (i : mimport) : x2i :=
  match im_kind i with
  | MI_Func f => push_idx x S_func f | MI_Table t => push_idx x S_table t
  | MI_Mem mm => push_idx x S_memory mm | MI_Global g => push_idx x S_global g
  end.
(* ids of the imports of the kind that lives in space S, in import order *)
Definition imp_id (S : space) (i : mimport) : list N :=
  match im_kind i, S with
  | MI_Func f, S_func => [f] | MI_Table t, S_table => [t] | MI_Mem mm, S_memory => [mm] | MI_Global g, S_global => [g]
  | _, _ => []
  end.
Definition imp_ids (S : space) (l : list mimport) : list N := flat_map (imp_id S) l.

Lemma emit_import_x m x i w x' : emit_import m x i = Ok (w, x') -> x' = push_import x i.
Proof.
  unfold emit_import, push_import. destruct (im_kind i); intros H.
  1: rinv H as fn Efn.
  all: rinv H as a Ea; inversion H; reflexivity.
Qed.

Lemma emit_imports_l_x m : forall l x ws x', emit_imports_l m x l = Ok (ws, x') -> x' = fold_left push_import l x.
Proof.
  induction l as [|i r IH]; intros x ws x' H; cbn [emit_imports_l fold_left] in *.
  - inversion H; reflexivity.
  - rinv H as a Ea. rinv H as b Eb. inversion H; subst; clear H. destruct a as [w x1], b as [ws' x2]. cbn [fst snd] in *.
    apply emit_import_x in Ea. subst x1. eapply IH; eauto.
Qed.

Lemma emit_imports_x m x s x' : emit_imports m x = Ok (s, x') -> x' = fold_left push_import (live_imports m) x.
Proof.
  unfold emit_imports, live_imports. destruct (map snd (aiter (m_imports m))) as [|i r] eqn:E.
  - intros H; inversion H; reflexivity.
  - intros H. rinv H as a Ea. inversion H; subst; clear H. destruct a as [ws x1]. eapply emit_imports_l_x; eauto.
Qed.

Lemma space_map_local x : space_map x S_local = [].
Proof. reflexivity. Qed.

Lemma push_import_space S i x :
  space_map (push_import x i) S = fold_left (fun l id => pushed l id) (imp_id S i) (space_map x S).
Proof.
  unfold push_import, imp_id.
  destruct (im_kind i), S; cbn [fold_left];
    first [apply push_idx_same; discriminate | apply push_idx_other; discriminate | reflexivity].
Qed.

Lemma fold_push_import_space S : forall l x,
  space_map (fold_left push_import l x) S = fold_left (fun l id => pushed l id) (imp_ids S l) (space_map x S).
Proof.
  induction l as [|i r IH]; intros x; cbn [fold_left imp_ids flat_map]; [reflexivity|].
  fold (imp_ids S r). rewrite IH, fold_left_app, push_import_space. reflexivity.
Qed.

(* What each section emitter does to the emit-time maps (the lemmas [_x]): it pushes the ids of the entities it writes,
   in the order in which it writes them. *)
Definition emitted_types (m : wir) : list (N * mtype) :=
  sort_types (filter (fun p => negb (ty_entry (snd p))) (live_types m)).
Lemma emit_types_x m x : snd (emit_types m x) = push_all S_type (map fst (emitted_types m)) x.
Proof.
  unfold emit_types. fold (emitted_types m). destruct (emitted_types m) as [|p r] eqn:E; [reflexivity|].
  cbn [snd]. apply fold_push_map.
Qed.

Definition func_go := fix go (l : list (N * mlocalfunc)) (x : x2i) : res (list N * x2i) :=
  match l with
  | [] => Ok ([], x)
  | (id, lf) :: r => ti <- get_idx x S_type (lf_ty lf) ;; b <- go r (push_idx x S_func id) ;; Ok (ti :: fst b, snd b)
  end.
Lemma emit_func_section_unfold m x :
  emit_func_section m x =
  (fs <- used_local_functions m ;;
   match fs with [] => Ok ([], x) | _ => r <- func_go fs x ;; Ok ([S_Funcs (fst r)], snd r) end).
Proof. reflexivity. Qed.
Lemma func_go_x : forall l x r, func_go l x = Ok r -> snd r = push_all S_func (map fst l) x.
Proof.
  induction l as [|[id lf] l IH]; intros x r H; cbn [func_go] in H.
  - inversion H; reflexivity.
  - fold func_go in H. rinv H as ti Eti. rinv H as b Eb. inversion H; subst; clear H. cbn [snd map fst push_all fold_left].
    apply IH in Eb. exact Eb.
Qed.
Lemma emit_func_section_x m x s x' : emit_func_section m x = Ok (s, x') ->
  exists fs, used_local_functions m = Ok fs /\ x' = push_all S_func (map fst fs) x.
Proof.
  rewrite emit_func_section_unfold. intros H. rinv H as fs Efs. exists fs. split; [exact Efs|].
  destruct fs as [|p r]; [inversion H; reflexivity|].
  rinv H as b Eb. inversion H; subst; clear H. apply func_go_x in Eb. exact Eb.
Qed.

Definition local_tables (m : wir) : list (N * mtable) :=
  filter (fun p => match tb_import (snd p) with None => true | Some _ => false end) (aiter (m_tables m)).
Definition local_memories (m : wir) : list (N * mmem) :=
  filter (fun p => match me_import (snd p) with None => true | Some _ => false end) (aiter (m_memories m)).
Definition local_globals (m : wir) : list (N * mglobal * mconst) :=
  flat_map (fun p => match gl_kind (snd p) with GK_Local c => [(fst p, snd p, c)] | GK_Import _ => [] end) (aiter (m_globals m)).

Lemma emit_tables_x m x : snd (emit_tables m x) = push_all S_table (map fst (local_tables m)) x.
Proof.
  unfold emit_tables. fold (local_tables m). destruct (local_tables m) as [|p r]; [reflexivity|].
  cbn [snd]. apply fold_push_map.
Qed.
Lemma emit_memories_x m x : snd (emit_memories m x) = push_all S_memory (map fst (local_memories m)) x.
Proof.
  unfold emit_memories. fold (local_memories m). destruct (local_memories m) as [|p r]; [reflexivity|].
  cbn [snd]. apply fold_push_map.
Qed.

Definition globals_go := fix go (l : list (N * mglobal * mconst)) (x : x2i) : res (list (wglobalty * wconst) * x2i) :=
  match l with
  | [] => Ok ([], x)
  | (id, g, c) :: r =>
      let x1 := push_idx x S_global id in
      wc <- emit_const x1 c ;; b <- go r x1 ;; Ok ((gen_emit_global_local g, wc) :: fst b, snd b)
  end.
Lemma emit_globals_unfold m x :
  emit_globals m x =
  match local_globals m with
  | [] => Ok ([], x)
  | _ => r <- globals_go (local_globals m) x ;; Ok ([S_Globals (fst r)], snd r)
  end.
Proof. reflexivity. Qed.
Definition gid (t : N * mglobal * mconst) : N := fst (fst t).
Lemma globals_go_x : forall l x r, globals_go l x = Ok r -> snd r = push_all S_global (map gid l) x.
Proof.
  induction l as [|[[id g] c] l IH]; intros x r H; cbn [globals_go] in H.
  - inversion H; reflexivity.
  - fold globals_go in H. rinv H as wc Ewc. rinv H as b Eb. inversion H; subst; clear H.
    cbn [snd map gid fst push_all fold_left]. apply IH in Eb. exact Eb.
Qed.
Lemma emit_globals_x m x s x' : emit_globals m x = Ok (s, x') -> x' = push_all S_global (map gid (local_globals m)) x.
Proof.
  rewrite emit_globals_unfold. destruct (local_globals m) as [|p r] eqn:El; [intros H; inversion H; reflexivity|].
  intros H. rinv H as b Eb. inversion H; subst; clear H. apply globals_go_x in Eb. exact Eb.
Qed.

Definition elems_go := fix go (l : list (N * melem)) (x : x2i) : res (list welem * x2i) :=
  match l with
  | [] => Ok ([], x)
  | (id, e) :: r => let x1 := push_idx x S_elem id in
                    we <- emit_elem x1 e ;; b <- go r x1 ;; Ok (we :: fst b, snd b)
  end.
Lemma emit_elements_unfold m x :
  emit_elements m x =
  match aiter (m_elements m) with
  | [] => Ok ([], x)
  | l => r <- elems_go l x ;; Ok ([S_Elems (fst r)], snd r)
  end.
Proof. reflexivity. Qed.
Lemma elems_go_x : forall l x r, elems_go l x = Ok r -> snd r = push_all S_elem (map fst l) x.
Proof.
  induction l as [|[id e] l IH]; intros x r H; cbn [elems_go] in H.
  - inversion H; reflexivity.
  - fold elems_go in H. rinv H as we Ewe. rinv H as b Eb. inversion H; subst; clear H.
    cbn [snd map fst push_all fold_left]. apply IH in Eb. exact Eb.
Qed.
Lemma emit_elements_x m x s x' : emit_elements m x = Ok (s, x') -> x' = push_all S_elem (map fst (aiter (m_elements m))) x.
Proof.
  rewrite emit_elements_unfold. destruct (aiter (m_elements m)) as [|p r]; [intros H; inversion H; reflexivity|].
  intros H. rinv H as b Eb. inversion H; subst; clear H. apply elems_go_x in Eb. exact Eb.
Qed.

(* data count: the data map is set wholesale *)
Lemma emit_data_count_x m x s x' : emit_data_count m x = Ok (s, x') ->
  x' = match aiter (m_data m) with [] => x | l => set_space x S_data (number (map fst l)) end.
Proof.
  unfold emit_data_count. destruct (aiter (m_data m)) as [|p r]; [intros H; inversion H; reflexivity|].
  intros H. rinv H as us Eus. unfold number. rewrite map_length. unfold iota.
  destruct (_ || _); inversion H; reflexivity.
Qed.

Lemma emit_code_x m x ilen s x' efs : emit_code m x ilen = Ok (s, x', efs) -> forall S, space_map x' S = space_map x S.
Proof.
  unfold emit_code. intros H. rinv H as fs Efs. destruct fs as [|p r]; [inversion H; reflexivity|].
  rinv H as efs' Eefs. inversion H; subst; clear H. intros S; destruct S; reflexivity.
Qed.

Lemma imp_ids_nil S l : match S with S_func | S_table | S_memory | S_global => False | _ => True end -> imp_ids S l = [].
Proof.
  intros HS. induction l as [|i r IH]; [reflexivity|]. cbn [imp_ids flat_map]. fold (imp_ids S r). rewrite IH.
  unfold imp_id. destruct (im_kind i), S; try reflexivity; destruct HS.
Qed.

(* emitM, taken apart: each section emitter with the
   maps it starts from, and the section list as the concatenation of what they return *)
Definition emitM_tail (m : wir) (dw : list wsec) : list wsec :=
  (if cf_skip_producers (m_config m) then [] else match m_producers m with [] => [] | p => [S_Custom (CS_Producers (Some p))] end) ++
  (if cf_generate_dwarf (m_config m) then dw else []) ++
  flat_map (fun c => match c with
                     | Some c => if starts_with_debug (cu_name c) then [] else [S_Custom (CS_Raw (cu_name c) (cu_data c))]
                     | None => [] end) (m_customs m).
Lemma emitM_inv m ilen dw e : emitM m ilen dw = Ok e ->
  exists s_ty x1 s_im x2 s_fn x3 x4 x5 s_gl x6 s_ex s_st s_el x9 s_dc x10 s_co efs s_da s_nm,
    emit_types m empty_x2i = (s_ty, x1) /\ emit_imports m x1 = Ok (s_im, x2) /\ emit_func_section m x2 = Ok (s_fn, x3) /\
    x4 = snd (emit_tables m x3) /\ x5 = snd (emit_memories m x4) /\ emit_globals m x5 = Ok (s_gl, x6) /\
    emit_exports m x6 = Ok s_ex /\
    match m_start m with Some f => i <- get_idx x6 S_func f ;; Ok [S_Start i] | None => Ok [] end = Ok s_st /\
    emit_elements m x6 = Ok (s_el, x9) /\ emit_data_count m x9 = Ok (s_dc, x10) /\
    emit_code m x10 ilen = Ok (s_co, em_x2i e, efs) /\ emit_data m (em_x2i e) = Ok s_da /\
    (if cf_skip_name (m_config m) then Ok [] else emit_names m (em_x2i e) efs) = Ok s_nm /\
    em_secs e = s_ty ++ s_im ++ s_fn ++ fst (emit_tables m x3) ++ fst (emit_memories m x4) ++ s_gl ++ s_ex ++ s_st ++
                s_el ++ s_dc ++ s_co ++ s_da ++ s_nm ++ emitM_tail m dw.
Proof.
  intros H. unfold emitM, set_customs_take in H.
  destruct (emit_types m empty_x2i) as [s_ty x1] eqn:E1.
  rinv H as a2 E2. destruct a2 as [s_im x2].
  rinv H as a3 E3. destruct a3 as [s_fn x3].
  destruct (emit_tables m x3) as [s_tb x4] eqn:E4.
  destruct (emit_memories m x4) as [s_me x5] eqn:E5.
  rinv H as a6 E6. destruct a6 as [s_gl x6].
  rinv H as s_ex E7. rinv H as s_st E8.
  rinv H as a9 E9. destruct a9 as [s_el x9].
  rinv H as a10 E10. destruct a10 as [s_dc x10].
  rinv H as a11 E11. destruct a11 as [[s_co x11] efs].
  rinv H as s_da E12. rinv H as s_nm E13. injection H as <-. cbn [em_x2i em_secs].
  exists s_ty, x1, s_im, x2, s_fn, x3, x4, x5, s_gl, x6, s_ex, s_st, s_el, x9, s_dc, x10, s_co, efs, s_da, s_nm.
  rewrite E4, E5. cbn [fst snd]. repeat split; assumption.
Qed.
Ltac emitM_parts He :=
  destruct (emitM_inv _ _ _ _ He) as (s_ty & x1 & s_im & x2 & s_fn & x3 & x4 & x5 & s_gl & x6 & s_ex & s_st & s_el & x9 & s_dc & x10 & s_co & efs & s_da & s_nm & Ety & Eim & Efn & Ex4 & Ex5 & Egl & Eex & Est & Eel & Edc & Eco & Eda & Enm & Esecs).

(* the live imports of each kind, in import order *)
Definition imported_funcs (m : wir) : list N :=
  flat_map (fun i => match im_kind i with MI_Func f => [f] | _ => [] end) (live_imports m).
Definition imported_tables (m : wir) : list N :=
  flat_map (fun i => match im_kind i with MI_Table f => [f] | _ => [] end) (live_imports m).
Definition imported_memories (m : wir) : list N :=
  flat_map (fun i => match im_kind i with MI_Mem f => [f] | _ => [] end) (live_imports m).
Definition imported_globals (m : wir) : list N :=
  flat_map (fun i => match im_kind i with MI_Global f => [f] | _ => [] end) (live_imports m).
Lemma imported_funcs_eq m : imp_ids S_func (live_imports m) = imported_funcs m.
Proof. reflexivity. Qed.


Definition ids_of (x : x2i) (S : space) : list N := map fst (space_map x S).

Lemma fold_pushed_ids : forall ids l0, map fst (fold_left (fun l id => pushed l id) ids l0) = map fst l0 ++ ids.
Proof.
  intros ids l0. rewrite fold_push_spec, map_app, map_fst_combine; [reflexivity|].
  rewrite map_length, seq_length. reflexivity.
Qed.
Lemma ids_of_push_all_same S ids x : S <> S_local -> ids_of (push_all S ids x) S = ids_of x S ++ ids.
Proof. intros HS. unfold ids_of. rewrite push_all_same by exact HS. apply fold_pushed_ids. Qed.
Lemma ids_of_push_all_other S S' ids x : S <> S' -> ids_of (push_all S ids x) S' = ids_of x S'.
Proof. intros HS. unfold ids_of. rewrite push_all_other by exact HS. reflexivity. Qed.
Lemma ids_of_imports S l x : ids_of (fold_left push_import l x) S = ids_of x S ++ imp_ids S l.
Proof. unfold ids_of. rewrite fold_push_import_space. apply fold_pushed_ids. Qed.
Lemma ids_of_empty S : ids_of empty_x2i S = [].
Proof. destruct S; reflexivity. Qed.
Lemma ids_of_push_idx_same S id x : S <> S_local -> ids_of (push_idx x S id) S = ids_of x S ++ [id].
Proof. intros HS. unfold ids_of. rewrite push_idx_same by exact HS. unfold pushed. rewrite map_app. reflexivity. Qed.
Lemma ids_of_push_idx_other S S' id x : S <> S' -> ids_of (push_idx x S id) S' = ids_of x S'.
Proof. intros HS. unfold ids_of. rewrite push_idx_other by exact HS. reflexivity. Qed.

(* every map is numbered 0,1,2,... whatever the ids are *)
Definition numbered (x : x2i) : Prop := forall S, map snd (space_map x S) = iota (length (space_map x S)).
Lemma pushed_snd l id : map snd l = iota (length l) -> map snd (pushed l id) = iota (length (pushed l id)).
Proof. intros H. unfold pushed. rewrite map_app, app_length. cbn [map snd length]. rewrite Nat.add_1_r, iota_S, H. reflexivity. Qed.
Lemma numbered_empty : numbered empty_x2i.
Proof. intros S; destruct S; reflexivity. Qed.
Lemma numbered_push x S id : numbered x -> numbered (push_idx x S id).
Proof.
  intros H S'. destruct S; try exact (H S');
  destruct S'; first [ rewrite push_idx_other by discriminate; apply H
                     | rewrite push_idx_same by discriminate; apply pushed_snd, H ].
Qed.
Lemma numbered_push_all S ids : forall x, numbered x -> numbered (push_all S ids x).
Proof. induction ids as [|i r IH]; intros x H; cbn [push_all fold_left]; [exact H|]. apply IH, numbered_push, H. Qed.
Lemma numbered_imports l : forall x, numbered x -> numbered (fold_left push_import l x).
Proof.
  induction l as [|i r IH]; intros x H; cbn [fold_left]; [exact H|]. apply IH. unfold push_import.
  destruct (im_kind i); apply numbered_push, H.
Qed.
Lemma numbered_number x S : numbered x -> space_map x S = number (ids_of x S).
Proof.
  intros H. specialize (H S). unfold number, ids_of. rewrite map_length, <- H. clear.
  induction (space_map x S) as [|[a b] r IH]; [reflexivity|]. cbn. rewrite <- IH. reflexivity.
Qed.


(* the maps as they stand when the code section is emitted *)
Definition final_maps (m : wir) (fs : list (N * mlocalfunc)) (x : x2i) : Prop :=
  xi_types x = number (map fst (emitted_types m)) /\
  xi_funcs x = number (imported_funcs m ++ map fst fs) /\
  xi_tables x = number (imported_tables m ++ map fst (local_tables m)) /\
  xi_memories x = number (imported_memories m ++ map fst (local_memories m)) /\
  xi_globals x = number (imported_globals m ++ map gid (local_globals m)) /\
  xi_elements x = number (map fst (aiter (m_elements m))) /\
  xi_data x = number (map fst (aiter (m_data m))).

(* the index maps after the type, import, function, table and memory sections, for every space at once *)
Definition front_ids (m : wir) (fs : list (N * mlocalfunc)) (S : space) : list N :=
  match S with
  | S_type => map fst (emitted_types m)
  | S_func => imported_funcs m ++ map fst fs
  | S_table => imported_tables m ++ map fst (local_tables m)
  | S_memory => imported_memories m ++ map fst (local_memories m)
  | S_global => imported_globals m
  | _ => []
  end.
Lemma front_maps m fs x :
  x = push_all S_memory (map fst (local_memories m)) (push_all S_table (map fst (local_tables m)) (push_all S_func (map fst fs)
        (fold_left push_import (live_imports m) (push_all S_type (map fst (emitted_types m)) empty_x2i)))) ->
  (forall S, ids_of x S = front_ids m fs S) /\ numbered x.
Proof.
  intros ->. split.
  - intros S. destruct S; cbn [front_ids];
      repeat first [rewrite ids_of_push_all_other by discriminate | rewrite ids_of_push_all_same by discriminate | rewrite ids_of_imports];
      rewrite ids_of_empty, ?imp_ids_nil, ?app_nil_r by exact I; reflexivity.
  - repeat first [apply numbered_push_all | apply numbered_imports]. apply numbered_empty.
Qed.


(* from there the global and element sections push their ids, and the data count sets the data map *)
Lemma final_maps_built m fs x5 x6 x9 x10 :
  (forall S, ids_of x5 S = front_ids m fs S) -> numbered x5 ->
  x6 = push_all S_global (map gid (local_globals m)) x5 ->
  x9 = push_all S_elem (map fst (aiter (m_elements m))) x6 ->
  x10 = match aiter (m_data m) with [] => x9 | l => set_space x9 S_data (number (map fst l)) end ->
  final_maps m fs x10.
Proof.
  intros I5 Num5 E6 E9 E10.
  assert (K : forall S, S <> S_global -> S <> S_elem -> ids_of x9 S = front_ids m fs S).
  { intros S H1 H2. rewrite E9, E6, !ids_of_push_all_other by congruence. apply I5. }
  assert (N9 : forall S ids, ids_of x9 S = ids -> space_map x9 S = number ids).
  { intros S ids <-. apply numbered_number. rewrite E9, E6. apply numbered_push_all, numbered_push_all, Num5. }
  assert (F : forall S ids, S <> S_data -> ids_of x9 S = ids -> space_map x10 S = number ids).
  { intros S ids HS Hi. rewrite <- (N9 S ids Hi), E10. destruct (aiter (m_data m)); [reflexivity|].
    apply space_map_set_other. congruence. }
  unfold final_maps. repeat split.
  - apply (F S_type), (K S_type); discriminate.
  - apply (F S_func), (K S_func); discriminate.
  - apply (F S_table), (K S_table); discriminate.
  - apply (F S_memory), (K S_memory); discriminate.
  - apply (F S_global); [discriminate|].
    rewrite E9, E6, ids_of_push_all_other, ids_of_push_all_same, I5 by discriminate. reflexivity.
  - apply (F S_elem); [discriminate|].
    rewrite E9, ids_of_push_all_same, E6, ids_of_push_all_other, I5 by discriminate. reflexivity.
  - change (space_map x10 S_data = number (map fst (aiter (m_data m)))). rewrite E10.
    destruct (aiter (m_data m)) as [|p r]; [|apply space_map_set_same; discriminate]. apply N9, (K S_data); discriminate.
Qed.

(* the final maps of emit_wasm *)
Theorem emitM_x2i : forall m ilen dw e, emitM m ilen dw = Ok e ->
  exists fs, used_local_functions m = Ok fs /\
    xi_types (em_x2i e) = number (map fst (emitted_types m)) /\
    xi_funcs (em_x2i e) = number (imp_ids S_func (live_imports m) ++ map fst fs) /\
    xi_tables (em_x2i e) = number (imp_ids S_table (live_imports m) ++ map fst (local_tables m)) /\
    xi_memories (em_x2i e) = number (imp_ids S_memory (live_imports m) ++ map fst (local_memories m)) /\
    xi_globals (em_x2i e) = number (imp_ids S_global (live_imports m) ++ map gid (local_globals m)) /\
    xi_elements (em_x2i e) = number (map fst (aiter (m_elements m))) /\
    xi_data (em_x2i e) = number (map fst (aiter (m_data m))).
Proof.
  intros m ilen dw e H. emitM_parts H.
  pose proof (emit_types_x m empty_x2i) as F1. rewrite Ety in F1. cbn [snd] in F1.
  apply emit_imports_x in Eim. apply emit_func_section_x in Efn. destruct Efn as [fs [Efs Efn]].
  rewrite emit_tables_x in Ex4. rewrite emit_memories_x in Ex5.
  apply emit_globals_x in Egl. apply emit_elements_x in Eel. apply emit_data_count_x in Edc.
  pose proof (emit_code_x _ _ _ _ _ _ Eco) as F11.
  exists fs. split; [exact Efs|].
  destruct (front_maps m fs x5) as [I5 Num5]; [rewrite Ex5, Ex4, Efn, Eim, F1; reflexivity|].
  generalize (final_maps_built m fs x5 x6 x9 x10 I5 Num5 Egl Eel Edc). unfold final_maps.
  generalize (F11 S_type), (F11 S_func), (F11 S_table), (F11 S_memory), (F11 S_global), (F11 S_elem), (F11 S_data).
  cbn [space_map]. intros -> -> -> -> -> -> ->. exact (fun H => H).
Qed.

Lemma aiter_ids {A} (a : tarena A) : map fst (aiter a) = map N.of_nat (map fst (iter a)).
Proof. unfold aiter. rewrite !map_map. reflexivity. Qed.

Lemma lt_sorted_NoDup l : StronglySorted lt l -> NoDup l.
Proof.
  induction 1 as [|a l Hs IH Hall]; constructor; [|exact IH].
  intros Hin. rewrite Forall_forall in Hall. apply Hall in Hin. lia.
Qed.

Lemma aiter_NoDup {A} (a : tarena A) : NoDup (map fst (aiter a)).
Proof.
  rewrite aiter_ids. apply NoDup_map_inj; [intros x y; apply Nat2N.inj|].
  apply lt_sorted_NoDup. unfold iter. apply iter_from_sorted.
Qed.

Lemma NoDup_map_filter {A B} (f : A -> B) (p : A -> bool) (l : list A) : NoDup (map f l) -> NoDup (map f (filter p l)).
Proof.
  induction l as [|a l IH]; cbn [map filter]; intros H; [constructor|].
  inversion H; subst. destruct (p a); cbn [map]; [constructor|]; auto.
  rewrite in_map_iff. intros (b & Hb & Hin). apply filter_In in Hin. apply H2. rewrite <- Hb. apply in_map. tauto.
Qed.

Lemma number_wf_iff ids : wf_map (number ids) <-> NoDup ids.
Proof. split; [intros [_ H]; rewrite number_fst in H; exact H|apply number_wf]. Qed.

Lemma number_order l ids : l = number ids ->
  map fst l = ids /\ map snd l = iota (length l) /\ (NoDup ids -> wf_map l).
Proof. intros ->. split; [apply number_fst|]. split; [apply number_snd_iota|apply number_wf]. Qed.

(* functions: imported ones in import order, then the local ones in (Reverse(size), id) order *)
Theorem emit_order_funcs : forall m ilen dw e, emitM m ilen dw = Ok e ->
  exists fs, used_local_functions m = Ok fs /\
    map fst (xi_funcs (em_x2i e)) = imported_funcs m ++ map fst fs /\
    map snd (xi_funcs (em_x2i e)) = iota (length (xi_funcs (em_x2i e))) /\
    (NoDup (imported_funcs m ++ map fst fs) -> wf_map (xi_funcs (em_x2i e))).
Proof.
  intros m ilen dw e H. destruct (emitM_x2i _ _ _ _ H) as [fs [Hfs [_ [Hf _]]]].
  exists fs. split; [exact Hfs|exact (number_order _ _ Hf)].
Qed.

(* tables / memories / globals: imported ones in import order, then the live non-imported ones in arena order *)
Theorem emit_order_tables : forall m ilen dw e, emitM m ilen dw = Ok e ->
  map fst (xi_tables (em_x2i e)) = imported_tables m ++ map fst (local_tables m) /\
  map snd (xi_tables (em_x2i e)) = iota (length (xi_tables (em_x2i e))) /\
  (NoDup (imported_tables m ++ map fst (local_tables m)) -> wf_map (xi_tables (em_x2i e))).
Proof.
  intros m ilen dw e H. destruct (emitM_x2i _ _ _ _ H) as [fs [Hfs (_ & _ & Ht & _)]].
  exact (number_order _ _ Ht).
Qed.
Theorem emit_order_memories : forall m ilen dw e, emitM m ilen dw = Ok e ->
  map fst (xi_memories (em_x2i e)) = imported_memories m ++ map fst (local_memories m) /\
  map snd (xi_memories (em_x2i e)) = iota (length (xi_memories (em_x2i e))) /\
  (NoDup (imported_memories m ++ map fst (local_memories m)) -> wf_map (xi_memories (em_x2i e))).
Proof.
  intros m ilen dw e H. destruct (emitM_x2i _ _ _ _ H) as [fs [Hfs (_ & _ & _ & Ht & _)]].
  exact (number_order _ _ Ht).
Qed.
Theorem emit_order_globals : forall m ilen dw e, emitM m ilen dw = Ok e ->
  map fst (xi_globals (em_x2i e)) = imported_globals m ++ map gid (local_globals m) /\
  map snd (xi_globals (em_x2i e)) = iota (length (xi_globals (em_x2i e))) /\
  (NoDup (imported_globals m ++ map gid (local_globals m)) -> wf_map (xi_globals (em_x2i e))).
Proof.
  intros m ilen dw e H. destruct (emitM_x2i _ _ _ _ H) as [fs [Hfs (_ & _ & _ & _ & Ht & _)]].
  exact (number_order _ _ Ht).
Qed.
(* the local parts are duplicate-free by construction (arena order) *)
Lemma local_tables_NoDup m : NoDup (map fst (local_tables m)).
Proof. apply NoDup_map_filter, aiter_NoDup. Qed.
Lemma local_memories_NoDup m : NoDup (map fst (local_memories m)).
Proof. apply NoDup_map_filter, aiter_NoDup. Qed.
Lemma local_globals_ids m :
  map gid (local_globals m) =
  map fst (filter (fun p => match gl_kind (snd p) with GK_Local _ => true | GK_Import _ => false end) (aiter (m_globals m))).
Proof.
  unfold local_globals. induction (aiter (m_globals m)) as [|p r IH]; [reflexivity|].
  cbn [flat_map filter]. destruct (gl_kind (snd p)); cbn [app map gid fst]; rewrite IH; reflexivity.
Qed.
Lemma local_globals_NoDup m : NoDup (map gid (local_globals m)).
Proof. rewrite local_globals_ids. apply NoDup_map_filter, aiter_NoDup. Qed.

(* elements, data: the live ones in arena order; types: the sorted live non-entry types.
   These maps are well-formed unconditionally. *)
Theorem emit_order_elements : forall m ilen dw e, emitM m ilen dw = Ok e ->
  map fst (xi_elements (em_x2i e)) = map fst (aiter (m_elements m)) /\ wf_map (xi_elements (em_x2i e)).
Proof.
  intros m ilen dw e H. destruct (emitM_x2i _ _ _ _ H) as [fs [Hfs (_ & _ & _ & _ & _ & Ht & _)]].
  rewrite Ht. split; [apply number_fst|apply number_wf, aiter_NoDup].
Qed.
Theorem emit_order_data : forall m ilen dw e, emitM m ilen dw = Ok e ->
  map fst (xi_data (em_x2i e)) = map fst (aiter (m_data m)) /\ wf_map (xi_data (em_x2i e)).
Proof.
  intros m ilen dw e H. destruct (emitM_x2i _ _ _ _ H) as [fs [Hfs (_ & _ & _ & _ & _ & _ & Ht)]].
  rewrite Ht. split; [apply number_fst|apply number_wf, aiter_NoDup].
Qed.
Lemma emitted_types_NoDup m : NoDup (map fst (emitted_types m)).
Proof.
  unfold emitted_types. eapply Permutation_NoDup.
  - apply Permutation_sym, Permutation_map, sort_types_perm.
  - apply NoDup_map_filter. unfold live_types, aset_iter. apply (aiter_NoDup (Arena.arena (m_types m))).
Qed.
Theorem emit_order_types : forall m ilen dw e, emitM m ilen dw = Ok e ->
  map fst (xi_types (em_x2i e)) = map fst (emitted_types m) /\ wf_map (xi_types (em_x2i e)).
Proof.
  intros m ilen dw e H. destruct (emitM_x2i _ _ _ _ H) as [fs [Hfs (Ht & _)]].
  rewrite Ht. split; [apply number_fst|apply number_wf, emitted_types_NoDup].
Qed.

(* the local functions are emitted once each *)
Lemma rmapM_ok_inv {A B} (f : A -> res B) : forall l bs, rmapM f l = Ok bs -> Forall2 (fun a b => f a = Ok b) l bs.
Proof.
  induction l as [|a r IH]; intros bs H; cbn [rmapM] in H.
  - inversion H; constructor.
  - rinv H as y Ey. rinv H as ys Eys. inversion H; subst. constructor; auto.
Qed.

Lemma used_local_functions_ids m fs : used_local_functions m = Ok fs ->
  NoDup (map fst fs) /\
  forall id, In id (map fst fs) <-> exists f lf, In (id, f) (aiter (m_funcs m)) /\ fn_kind f = FK_Local lf.
Proof.
  rewrite used_local_functions_sort_funcs. intros H. rinv H as l El. inversion H; subst fs; clear H.
  rewrite map_map. cbn [fst].
  assert (P : Permutation (map (fun t : N * N * mlocalfunc => snd (fst t)) (sort_funcs (concat l)))
                          (map (fun t : N * N * mlocalfunc => snd (fst t)) (concat l)))
    by (apply Permutation_map, sort_funcs_perm).
  apply rmapM_ok_inv in El.
  assert (Q : map (fun t : N * N * mlocalfunc => snd (fst t)) (concat l) =
              map fst (filter (fun p => match fn_kind (snd p) with FK_Local _ => true | _ => false end) (aiter (m_funcs m)))).
  { clear P. induction El as [|p b L bs Hp HF IH]; [reflexivity|]. cbn [concat filter]. rewrite map_app, IH.
    destruct (fn_kind (snd p)) eqn:Ek.
    - inversion Hp; subst. reflexivity.
    - rinv Hp as sz Esz. inversion Hp; subst. reflexivity.
    - discriminate. }
  rewrite Q in P. split.
  - eapply Permutation_NoDup; [apply Permutation_sym; exact P|]. apply NoDup_map_filter, aiter_NoDup.
  - intros id. split.
    + intros Hin. eapply Permutation_in in Hin; [|exact P]. apply in_map_iff in Hin.
      destruct Hin as [[i f] [<- Hin]]. apply filter_In in Hin. destruct Hin as [Hin Hk]. cbn [snd fst] in *.
      destruct (fn_kind f) eqn:Ek; try discriminate. eauto.
    + intros [f [lf [Hin Hk]]]. eapply Permutation_in; [apply Permutation_sym; exact P|].
      apply in_map_iff. exists (id, f). split; [reflexivity|]. apply filter_In. split; [exact Hin|].
      cbn [snd]. rewrite Hk. reflexivity.
Qed.

Definition has_idx (x : x2i) (S : space) (id : N) : Prop := In id (map fst (space_map x S)).

Lemma lookup_total_iff (l : list (N * N)) id : (exists i, lookup_i l id = Ok i) <-> In id (map fst l).
Proof.
  unfold lookup_i. split.
  - intros [i H]. destruct (find _ l) as [p|] eqn:E; [|discriminate].
    apply find_some in E. destruct E as [Hin He]. apply N.eqb_eq in He. subst id. apply in_map, Hin.
  - intros Hin. destruct (find _ l) as [p|] eqn:E; [eauto|]. exfalso.
    apply in_map_iff in Hin. destruct Hin as [p [<- Hin]].
    pose proof (find_none _ _ E _ Hin) as Hf. cbn in Hf. rewrite N.eqb_refl in Hf. discriminate.
Qed.

(* a lookup succeeds exactly when the id was given an index *)
Lemma get_idx_total_iff x S id : (exists i, get_idx x S id = Ok i) <-> has_idx x S id.
Proof. apply lookup_total_iff. Qed.
Lemma get_idx_total x S id : has_idx x S id -> exists i, get_idx x S id = Ok i.
Proof. apply get_idx_total_iff. Qed.
Lemma get_idx_panics x S id : ~ has_idx x S id -> get_idx x S id = Panic.
Proof.
  intros H. unfold get_idx, lookup_i. destruct (find _ _) as [p|] eqn:E; [|reflexivity]. exfalso. apply H.
  apply (proj1 (lookup_total_iff _ _)). exists (snd p). unfold lookup_i. rewrite E. reflexivity.
Qed.

Lemma rmapM_total {A B} (f : A -> res B) : forall l, (forall a, In a l -> exists b, f a = Ok b) -> exists bs, rmapM f l = Ok bs.
Proof.
  induction l as [|a r IH]; intros H; cbn [rmapM]; [eauto|].
  destruct (H a (or_introl eq_refl)) as [b Eb]. rewrite Eb. cbn [rbind].
  destruct IH as [bs Ebs]; [intros a' Ha; apply H; right; exact Ha|]. rewrite Ebs. cbn [rbind]. eauto.
Qed.

Lemma has_idx_push x S id S' id' : has_idx x S id -> has_idx (push_idx x S' id') S id.
Proof.
  unfold has_idx. intros H. destruct S; try (destruct H; fail);
  destruct S'; first [ rewrite push_idx_other by discriminate; exact H
                     | rewrite push_idx_same by discriminate; unfold pushed; rewrite map_app, in_app_iff; left; exact H
                     | exact H ].
Qed.
Lemma has_idx_push_new x S id : S <> S_local -> has_idx (push_idx x S id) S id.
Proof.
  intros HS. unfold has_idx. rewrite push_idx_same by exact HS. unfold pushed. rewrite map_app, in_app_iff.
  right. left. reflexivity.
Qed.
Lemma has_idx_push_all x S id S' ids : has_idx x S id -> has_idx (push_all S' ids x) S id.
Proof.
  revert x. induction ids as [|i r IH]; intros x H; cbn [push_all fold_left]; [exact H|].
  apply IH, has_idx_push, H.
Qed.

Definition const_ok (x : x2i) (c : mconst) : Prop :=
  match c with MC_Global g => has_idx x S_global g | MC_RefFunc f => has_idx x S_func f | _ => True end.

Lemma rmap_total {A B} (f : A -> B) (r : res A) : (exists a, r = Ok a) <-> exists b, rmap f r = Ok b.
Proof. destruct r; cbn [rmap]; split; intros [y E]; try discriminate; eauto. Qed.

Theorem emit_const_total x c : const_ok x c <-> exists w, emit_const x c = Ok w.
Proof.
  destruct c as [v|g|t|f]; cbn [const_ok emit_const].
  - destruct v; split; eauto.
  - rewrite <- get_idx_total_iff. apply rmap_total.
  - split; eauto.
  - rewrite <- get_idx_total_iff. apply rmap_total.
Qed.

Lemma const_ok_push x c S id : const_ok x c -> const_ok (push_idx x S id) c.
Proof. destruct c; cbn [const_ok]; auto using has_idx_push. Qed.

Definition import_ok (m : wir) (x : x2i) (i : mimport) : Prop :=
  match im_kind i with
  | MI_Func f => exists fn, aget (m_funcs m) f = Some fn /\ has_idx x S_type (func_ty fn)
  | MI_Table t => exists tb, aget (m_tables m) t = Some tb
  | MI_Mem mm => exists me, aget (m_memories m) mm = Some me
  | MI_Global g => exists gl, aget (m_globals m) g = Some gl
  end.

Lemma import_ok_push m x i j : import_ok m x i -> import_ok m (push_import x j) i.
Proof.
  unfold import_ok, push_import. destruct (im_kind i); auto.
  intros [fn [H1 H2]]. exists fn. split; [exact H1|]. destruct (im_kind j); apply has_idx_push, H2.
Qed.

Lemma emit_import_total m x i : import_ok m x i -> exists r, emit_import m x i = Ok r.
Proof.
  unfold import_ok, emit_import. destruct (im_kind i).
  2-4: intros [tb H1]; rewrite H1; cbn; eauto.
  intros [fn [H1 H2]]. rewrite H1. cbn [of_opt rbind].
  destruct (get_idx_total (push_idx x S_func f) S_type (func_ty fn)) as [ti Eti]; [apply has_idx_push, H2|].
  rewrite Eti. cbn [rbind]. eauto.
Qed.

Lemma emit_imports_l_total m : forall l x, (forall i, In i l -> import_ok m x i) -> exists r, emit_imports_l m x l = Ok r.
Proof.
  induction l as [|i r IH]; intros x H; cbn [emit_imports_l]; [eauto|].
  destruct (emit_import_total m x i (H i (or_introl eq_refl))) as [[w x1] E]. rewrite E. cbn [rbind snd fst].
  apply emit_import_x in E. subst x1.
  destruct (IH (push_import x i)) as [b Eb]; [intros j Hj; apply import_ok_push, H; right; exact Hj|].
  rewrite Eb. cbn [rbind]. eauto.
Qed.

(* every live import refers to a live entity; an imported function's type has a type index *)
Theorem emit_imports_total m x :
  (forall i, In i (live_imports m) -> import_ok m x i) -> exists r, emit_imports m x = Ok r.
Proof.
  unfold emit_imports, live_imports. intros H. destruct (map snd (aiter (m_imports m))) as [|i r]; [eauto|].
  destruct (emit_imports_l_total m (i :: r) x H) as [b Eb]. rewrite Eb. cbn [rbind]. eauto.
Qed.

(* function section: the types of the local functions are in xi_types *)
Lemma func_go_total : forall l x, (forall id lf, In (id, lf) l -> has_idx x S_type (lf_ty lf)) -> exists r, func_go l x = Ok r.
Proof.
  induction l as [|[id lf] l IH]; intros x H; cbn [func_go]; [eauto|]. fold func_go.
  destruct (get_idx_total x S_type (lf_ty lf)) as [ti Eti]; [eapply H; left; reflexivity|].
  rewrite Eti. cbn [rbind].
  destruct (IH (push_idx x S_func id)) as [b Eb]; [intros id' lf' Hin; apply has_idx_push; eapply H; right; exact Hin|].
  rewrite Eb. cbn [rbind]. eauto.
Qed.

Theorem emit_func_section_total m x fs :
  used_local_functions m = Ok fs ->
  (forall id lf, In (id, lf) fs -> has_idx x S_type (lf_ty lf)) -> exists r, emit_func_section m x = Ok r.
Proof.
  intros Hfs H. rewrite emit_func_section_unfold, Hfs. cbn [rbind]. destruct fs as [|p r]; [eauto|].
  destruct (func_go_total _ x H) as [b Eb]. rewrite Eb. cbn [rbind]. eauto.
Qed.

(* globals: the initialiser of a local global may mention indexed functions, and globals that are
   indexed when it is emitted (the imported ones, and the local ones up to and including itself) *)
Fixpoint globals_ok (x : x2i) (l : list (N * mglobal * mconst)) : Prop :=
  match l with
  | [] => True
  | (id, g, c) :: r => const_ok (push_idx x S_global id) c /\ globals_ok (push_idx x S_global id) r
  end.

Lemma globals_go_total : forall l x, globals_ok x l <-> exists r, globals_go l x = Ok r.
Proof.
  induction l as [|[[id g] c] l IH]; intros x; cbn [globals_go globals_ok]; [split; eauto|]. fold globals_go.
  rewrite emit_const_total, IH. split.
  - intros [[w Ew] [b Eb]]. rewrite Ew. cbn [rbind]. rewrite Eb. cbn [rbind]. eauto.
  - intros [r E]. rinv E as w Ew. rinv E as b Eb. eauto.
Qed.

Theorem emit_globals_total m x : globals_ok x (local_globals m) <-> exists r, emit_globals m x = Ok r.
Proof.
  rewrite emit_globals_unfold. destruct (local_globals m) as [|p l] eqn:El; [cbn; split; eauto|].
  rewrite globals_go_total. split.
  - intros [b Eb]. rewrite Eb. cbn [rbind]. eauto.
  - intros [r E]. rinv E as b Eb. eauto.
Qed.

Lemma globals_ok_simple : forall l x, (forall t, In t l -> const_ok x (snd t)) -> globals_ok x l.
Proof.
  induction l as [|[[id g] c] l IH]; intros x H; cbn [globals_ok]; [exact I|]. split.
  - apply const_ok_push. apply (H (id, g, c)). left; reflexivity.
  - apply IH. intros t Ht. apply const_ok_push, H. right; exact Ht.
Qed.

Theorem emit_exports_total m x :
  (forall e, In e (map snd (aiter (m_exports m))) -> has_idx x (kind_space (ex_kind e)) (ex_item e)) ->
  exists s, emit_exports m x = Ok s.
Proof.
  unfold emit_exports. intros H. destruct (map snd (aiter (m_exports m))) as [|e r]; [eauto|].
  match goal with |- context [rmapM ?f ?l] => destruct (rmapM_total f l) as [es Ees] end.
  - intros a Ha. destruct (get_idx_total _ _ _ (H a Ha)) as [i Ei]. rewrite Ei. cbn [rbind]. eauto.
  - rewrite Ees. cbn [rbind]. eauto.
Qed.

Lemma emit_start_total x f : has_idx x S_func f -> exists s, (i <- get_idx x S_func f ;; Ok [S_Start i]) = Ok s.
Proof. intros H. destruct (get_idx_total _ _ _ H) as [i Ei]. rewrite Ei. cbn. eauto. Qed.

Definition elem_ok (x : x2i) (e : melem) : Prop :=
  match el_items e with
  | ELI_Funcs fs => forall f, In f fs -> has_idx x S_func f
  | ELI_Exprs _ es => forall c, In c es -> const_ok x c
  end /\
  match el_kind e with
  | ELK_Active t off => has_idx x S_table t /\ const_ok x off
  | _ => True
  end.

Theorem emit_elem_total x e : elem_ok x e -> exists w, emit_elem x e = Ok w.
Proof.
  intros [Hi Hk]. unfold emit_elem.
  assert (exists its, match el_items e with
                      | ELI_Funcs fs => rmap WEI_Funcs (rmapM (get_idx x S_func) fs)
                      | ELI_Exprs t es => rmap (WEI_Exprs t) (rmapM (emit_const x) es)
                      end = Ok its) as [its Eits].
  { destruct (el_items e) as [fs|t es]; apply rmap_total, rmapM_total; intros a Ha.
    - apply get_idx_total, Hi, Ha.
    - apply emit_const_total, Hi, Ha. }
  rewrite Eits. cbn [rbind].
  destruct (el_kind e) as [| |t off]; cbn [rbind]; eauto.
  destruct Hk as [Ht Ho]. destruct (get_idx_total _ _ _ Ht) as [ti Eti]. rewrite Eti. cbn [rbind].
  apply emit_const_total in Ho. destruct Ho as [o Eo]. rewrite Eo. cbn [rbind]. eauto.
Qed.

Lemma elem_ok_push x e S id : elem_ok x e -> elem_ok (push_idx x S id) e.
Proof.
  intros [Hi Hk]. split.
  - destruct (el_items e); intros a Ha; [apply has_idx_push|apply const_ok_push]; auto.
  - destruct (el_kind e); auto. destruct Hk. split; [apply has_idx_push|apply const_ok_push]; auto.
Qed.

Lemma elems_go_total : forall l x, (forall p, In p l -> elem_ok x (snd p)) -> exists r, elems_go l x = Ok r.
Proof.
  induction l as [|[id e] l IH]; intros x H; cbn [elems_go]; [eauto|]. fold elems_go.
  destruct (emit_elem_total (push_idx x S_elem id) e) as [w Ew]; [apply elem_ok_push, (H (id, e)); left; reflexivity|].
  rewrite Ew. cbn [rbind].
  destruct (IH (push_idx x S_elem id)) as [b Eb]; [intros p Hp; apply elem_ok_push, H; right; exact Hp|].
  rewrite Eb. cbn [rbind]. eauto.
Qed.

Theorem emit_elements_total m x :
  (forall p, In p (aiter (m_elements m)) -> elem_ok x (snd p)) -> exists r, emit_elements m x = Ok r.
Proof.
  rewrite emit_elements_unfold. intros H. destruct (aiter (m_elements m)) as [|p l]; [eauto|].
  destruct (elems_go_total _ x H) as [b Eb]. rewrite Eb. cbn [rbind]. eauto.
Qed.

(* data count: no index lookup; only the traversals of the local functions can fail *)
Theorem emit_data_count_total m x :
  (forall p, In p (aiter (m_funcs m)) -> match fn_kind (snd p) with FK_Local lf => exists evs, lf_log lf = Ok evs | _ => True end) ->
  exists r, emit_data_count m x = Ok r.
Proof.
  unfold emit_data_count. intros H. destruct (aiter (m_data m)) as [|p l]; [eauto|].
  match goal with |- context [rmapM ?f ?l] => destruct (rmapM_total f l) as [us Eus] end.
  - intros a Ha. specialize (H a Ha). destruct (fn_kind (snd a)); eauto.
    destruct H as [evs E]. unfold uses_data. rewrite E. cbn. eauto.
  - rewrite Eus. cbn [rbind]. destruct (_ || _); eauto.
Qed.

Definition data_ok (x : x2i) (d : mdata) : Prop :=
  match da_kind d with DK_Active mem off => has_idx x S_memory mem /\ const_ok x off | DK_Passive => True end.

Theorem emit_data_total m x :
  (forall p, In p (aiter (m_data m)) -> data_ok x (snd p)) -> exists s, emit_data m x = Ok s.
Proof.
  unfold emit_data. intros H. destruct (aiter (m_data m)) as [|p l]; [eauto|].
  match goal with |- context [rmapM ?f ?l] => destruct (rmapM_total f l) as [ds Eds] end.
  - intros a Ha. specialize (H a Ha). unfold data_ok in H. destruct (da_kind (snd a)) as [|mem off]; [eauto|].
    destruct H as [Hm Ho]. destruct (get_idx_total _ _ _ Hm) as [mi Emi]. rewrite Emi. cbn [rbind].
    apply emit_const_total in Ho. destruct Ho as [o Eo]. rewrite Eo. cbn [rbind]. eauto.
  - rewrite Eds. cbn [rbind]. eauto.
Qed.

(* name section: every named live entity must have an index *)
Lemma named_total {A} x s (getn : A -> option ModuleM.str) (l : list (N * A)) :
  (forall p, In p l -> getn (snd p) <> None -> has_idx x s (fst p)) -> exists r, named x s getn l = Ok r.
Proof.
  intros H. unfold named.
  match goal with |- context [rmapM ?f ?l] => destruct (rmapM_total f l) as [r Er] end.
  - intros a Ha. destruct (getn (snd a)) eqn:En; [|eauto].
    destruct (get_idx_total x s (fst a)) as [i Ei]; [apply H; [exact Ha|congruence]|]. rewrite Ei. cbn. eauto.
  - rewrite Er. cbn. eauto.
Qed.

Theorem emit_names_total m x efs :
  (forall p, In p (aiter (m_funcs m)) -> has_idx x S_func (fst p)) ->
  (forall p, In p (live_types m) -> ty_name (snd p) <> None -> has_idx x S_type (fst p)) ->
  (forall p, In p (aiter (m_tables m)) -> tb_name (snd p) <> None -> has_idx x S_table (fst p)) ->
  (forall p, In p (aiter (m_memories m)) -> me_name (snd p) <> None -> has_idx x S_memory (fst p)) ->
  (forall p, In p (aiter (m_globals m)) -> gl_name (snd p) <> None -> has_idx x S_global (fst p)) ->
  (forall p, In p (aiter (m_elements m)) -> el_name (snd p) <> None -> has_idx x S_elem (fst p)) ->
  (forall p, In p (aiter (m_data m)) -> da_name (snd p) <> None -> has_idx x S_data (fst p)) ->
  exists r, emit_names m x efs = Ok r.
Proof.
  intros Hf Hty Htb Hme Hgl Hel Hda. unfold emit_names.
  destruct (named_total x S_func fn_name (aiter (m_funcs m))) as [funcs E1]; [auto|]. rewrite E1. cbn [rbind].
  match goal with |- context [rmapM ?f ?l] => destruct (rmapM_total f l) as [locals E2] end.
  { intros a Ha. destruct (find _ efs) as [e|]; [|eauto].
    match goal with |- context [match ?names with [] => _ | _ => _ end] => destruct names; [eauto|] end.
    destruct (get_idx_total x S_func (fst a) (Hf a Ha)) as [fi Efi]. rewrite Efi. cbn. eauto. }
  rewrite E2. cbn [rbind].
  destruct (named_total x S_type ty_name (live_types m) Hty) as [types E3]. rewrite E3. cbn [rbind].
  destruct (named_total x S_table tb_name (aiter (m_tables m)) Htb) as [tables E4]. rewrite E4. cbn [rbind].
  destruct (named_total x S_memory me_name (aiter (m_memories m)) Hme) as [mems E5]. rewrite E5. cbn [rbind].
  destruct (named_total x S_global gl_name (aiter (m_globals m)) Hgl) as [globals E6]. rewrite E6. cbn [rbind].
  destruct (named_total x S_elem el_name (aiter (m_elements m)) Hel) as [elems E7]. rewrite E7. cbn [rbind].
  destruct (named_total x S_data da_name (aiter (m_data m)) Hda) as [data E8]. rewrite E8. cbn [rbind].
  destruct (m_name m); [eauto|]. destruct funcs; [|eauto]. destruct (sort_nm (concat locals)); [|eauto].
  destruct types; [|eauto]. destruct tables; [|eauto]. destruct mems; [|eauto]. destruct globals; [|eauto].
  destruct elems; [|eauto]. destruct data; eauto.
Qed.

(* the whole of emit_wasm
   A module is [emit_closed] when every id it mentions is live, of the right kind, and -- for the
   initialisers of globals -- already indexed when it is needed.  Phrased on the final emission
   order shown above.  Then no section emitter panics on an index lookup; what remains are the
   function bodies (emit_code: refs_ok / emit_body) and the name section, taken as premises. *)
Lemma has_idx_ids x S id ids : ids_of x S = ids -> In id ids -> has_idx x S id.
Proof. intros <- H. exact H. Qed.
Definition cref (Fs Gs : list N) (c : mconst) : Prop :=
  match c with MC_Global g => In g Gs | MC_RefFunc f => In f Fs | _ => True end.
Lemma const_ok_cref x c : const_ok x c <-> cref (ids_of x S_func) (ids_of x S_global) c.
Proof. destruct c; reflexivity. Qed.

Lemma globals_ok_prefix : forall l x,
  (forall l1 id g c l2, l = l1 ++ (id, g, c) :: l2 -> const_ok (push_all S_global (map gid l1 ++ [id]) x) c) ->
  globals_ok x l.
Proof.
  induction l as [|[[id g] c] l IH]; intros x H; cbn [globals_ok]; [exact I|]. split.
  - apply (H [] id g c l). reflexivity.
  - apply IH. intros l1 id' g' c' l2 E. specialize (H ((id, g, c) :: l1) id' g' c' l2).
    cbn [map gid fst app push_all fold_left] in H. apply H. rewrite E. reflexivity.
Qed.

Record emit_closed (m : wir) (fs : list (N * mlocalfunc)) : Prop := {
  (* imports: the imported entity is live; an imported function's type is an emitted type *)
  ec_imports : forall i, In i (live_imports m) ->
    match im_kind i with
    | MI_Func f => exists fn, aget (m_funcs m) f = Some fn /\ In (func_ty fn) (map fst (emitted_types m))
    | MI_Table t => exists tb, aget (m_tables m) t = Some tb
    | MI_Mem mm => exists me, aget (m_memories m) mm = Some me
    | MI_Global g => exists gl, aget (m_globals m) g = Some gl
    end;
  (* local functions: their types are emitted types *)
  ec_funcs : forall id lf, In (id, lf) fs -> In (lf_ty lf) (map fst (emitted_types m));
  (* global initialisers: emitted functions; imported globals or local globals up to itself *)
  ec_globals : forall l1 id g c l2, local_globals m = l1 ++ (id, g, c) :: l2 ->
    cref (imported_funcs m ++ map fst fs) (imported_globals m ++ map gid l1 ++ [id]) c;
  ec_exports : forall e, In e (map snd (aiter (m_exports m))) ->
    In (ex_item e) (match ex_kind e with
                    | EK_Func => imported_funcs m ++ map fst fs
                    | EK_Table => imported_tables m ++ map fst (local_tables m)
                    | EK_Mem => imported_memories m ++ map fst (local_memories m)
                    | EK_Global => imported_globals m ++ map gid (local_globals m) end);
  ec_start : forall f, m_start m = Some f -> In f (imported_funcs m ++ map fst fs);
  ec_elements : forall p, In p (aiter (m_elements m)) ->
    match el_items (snd p) with
    | ELI_Funcs l => forall f, In f l -> In f (imported_funcs m ++ map fst fs)
    | ELI_Exprs _ es => forall c, In c es ->
        cref (imported_funcs m ++ map fst fs) (imported_globals m ++ map gid (local_globals m)) c
    end /\
    match el_kind (snd p) with
    | ELK_Active t off => In t (imported_tables m ++ map fst (local_tables m)) /\
        cref (imported_funcs m ++ map fst fs) (imported_globals m ++ map gid (local_globals m)) off
    | _ => True
    end;
  ec_data : forall p, In p (aiter (m_data m)) ->
    match da_kind (snd p) with
    | DK_Active mem off => In mem (imported_memories m ++ map fst (local_memories m)) /\
        cref (imported_funcs m ++ map fst fs) (imported_globals m ++ map gid (local_globals m)) off
    | DK_Passive => True
    end }.

Lemma used_local_functions_logs m fs : used_local_functions m = Ok fs ->
  forall p, In p (aiter (m_funcs m)) -> match fn_kind (snd p) with FK_Local lf => exists evs, lf_log lf = Ok evs | _ => True end.
Proof.
  unfold used_local_functions. intros H. rinv H as l El. clear H. apply rmapM_ok_inv in El.
  induction El as [|p b L bs Hp HF IH]; intros q Hq; [destruct Hq|]. destruct Hq as [<-|Hq]; [|apply IH; exact Hq].
  destruct (fn_kind (snd p)); [exact I| |exact I]. rinv Hp as sz Esz. unfold lf_size in Esz.
  destruct (lf_log lf); try discriminate. eauto.
Qed.

Theorem emitM_total : forall m ilen dw fs,
  used_local_functions m = Ok fs ->
  emit_closed m fs ->
  (* function bodies and the name section: not index-map matters, taken as given *)
  (forall x, final_maps m fs x ->
     exists s x' efs, emit_code m x ilen = Ok (s, x', efs) /\
       (cf_skip_name (m_config m) = true \/ exists s', emit_names m x' efs = Ok s')) ->
  exists e, emitM m ilen dw = Ok e.
Proof.
  intros m ilen dw fs Hfs C Hcode. unfold emitM, set_customs_take.
  destruct (emit_types m empty_x2i) as [s_ty x1] eqn:E1.
  pose proof (emit_types_x m empty_x2i) as F1. rewrite E1 in F1. cbn [snd] in F1. clear E1.
  destruct (emit_imports_total m x1) as [[s_im x2] E2].
  { intros i Hi. pose proof (ec_imports _ _ C i Hi) as Hc. unfold import_ok. destruct (im_kind i); auto.
    destruct Hc as [fn [Hg Ht]]. exists fn. split; [exact Hg|]. unfold has_idx. fold (ids_of x1 S_type).
    rewrite F1, ids_of_push_all_same, ids_of_empty by discriminate. exact Ht. }
  rewrite E2. cbn [rbind]. apply emit_imports_x in E2.
  destruct (emit_func_section_total m x2 fs Hfs) as [[s_fn x3] E3].
  { intros id lf Hin. unfold has_idx. fold (ids_of x2 S_type).
    rewrite E2, ids_of_imports, imp_ids_nil, app_nil_r, F1, ids_of_push_all_same, ids_of_empty by (exact I || discriminate).
    eapply ec_funcs; eauto. }
  rewrite E3. cbn [rbind]. apply emit_func_section_x in E3. destruct E3 as [fs' [Hfs' E3]].
  assert (fs' = fs) by congruence. subst fs'. clear Hfs'.
  destruct (emit_tables m x3) as [s_tb x4] eqn:E4.
  pose proof (emit_tables_x m x3) as F4. rewrite E4 in F4. cbn [snd] in F4. clear E4.
  destruct (emit_memories m x4) as [s_me x5] eqn:E5.
  pose proof (emit_memories_x m x4) as F5. rewrite E5 in F5. cbn [snd] in F5. clear E5.
  destruct (front_maps m fs x5) as [I5 Num5]; [rewrite F5, F4, E3, E2, F1; reflexivity|].
  clear F5 F4 E3 E2 F1 x1 x2 x3 x4.
  destruct (proj1 (emit_globals_total m x5)) as [[s_gl x6] E6].
  { apply globals_ok_prefix. intros l1 id g c l2 El. apply const_ok_cref.
    rewrite ids_of_push_all_other, ids_of_push_all_same, !I5 by discriminate.
    eapply ec_globals; eauto. }
  rewrite E6. cbn [rbind]. apply emit_globals_x in E6.
  assert (I6 : forall S, S <> S_global -> ids_of x6 S = front_ids m fs S)
    by (intros S HS; rewrite E6, ids_of_push_all_other by congruence; apply I5).
  assert (Ifunc6 : ids_of x6 S_func = imported_funcs m ++ map fst fs) by (apply I6; discriminate).
  assert (Itab6 : ids_of x6 S_table = imported_tables m ++ map fst (local_tables m)) by (apply I6; discriminate).
  assert (Imem6 : ids_of x6 S_memory = imported_memories m ++ map fst (local_memories m)) by (apply I6; discriminate).
  assert (Iglob6 : ids_of x6 S_global = imported_globals m ++ map gid (local_globals m))
    by (rewrite E6, ids_of_push_all_same, I5 by discriminate; reflexivity).
  destruct (emit_exports_total m x6) as [s_ex E7].
  { intros e He. pose proof (ec_exports _ _ C e He) as Hc. destruct (ex_kind e).
    - exact (has_idx_ids _ _ _ _ Ifunc6 Hc).
    - exact (has_idx_ids _ _ _ _ Itab6 Hc).
    - exact (has_idx_ids _ _ _ _ Imem6 Hc).
    - exact (has_idx_ids _ _ _ _ Iglob6 Hc). }
  rewrite E7. cbn [rbind].
  assert (exists s_st, match m_start m with Some f => i <- get_idx x6 S_func f ;; Ok [S_Start i] | None => Ok [] end = Ok s_st)
    as [s_st E8].
  { destruct (m_start m) as [f|] eqn:Es; [|eauto]. apply emit_start_total, (has_idx_ids _ _ _ _ Ifunc6).
    eapply ec_start; eauto. }
  rewrite E8. cbn [rbind].
  assert (Cr : forall c, cref (imported_funcs m ++ map fst fs) (imported_globals m ++ map gid (local_globals m)) c ->
                         const_ok x6 c).
  { intros c Hc. apply const_ok_cref. rewrite Ifunc6, Iglob6. exact Hc. }
  destruct (emit_elements_total m x6) as [[s_el x9] E9].
  { intros p Hp. destruct (ec_elements _ _ C p Hp) as [Hi Hk]. split.
    - destruct (el_items (snd p)); [|auto]. intros f Hf. apply (has_idx_ids _ _ _ _ Ifunc6). auto.
    - destruct (el_kind (snd p)); auto. destruct Hk as [Ht Ho]. split; [exact (has_idx_ids _ _ _ _ Itab6 Ht)|auto]. }
  rewrite E9. cbn [rbind]. apply emit_elements_x in E9.
  destruct (emit_data_count_total m x9 (used_local_functions_logs m fs Hfs)) as [[s_dc x10] E10].
  rewrite E10. cbn [rbind]. apply emit_data_count_x in E10.
  pose proof (final_maps_built m fs x5 x6 x9 x10 I5 Num5 E6 E9 E10) as FM.
  destruct (Hcode x10 FM) as [s_co [x11 [efs [E11 Hn]]]]. rewrite E11. cbn [rbind].
  pose proof (emit_code_x _ _ _ _ _ _ E11) as F11.
  destruct (emit_data_total m x11) as [s_da E12].
  { intros p Hp. pose proof (ec_data _ _ C p Hp) as Hc. unfold data_ok. destruct (da_kind (snd p)) as [|mem off]; [exact I|].
    destruct Hc as [Hm Ho]. destruct FM as (_ & FMf & _ & FMm & FMg & _). split.
    - refine (has_idx_ids x11 S_memory _ _ _ Hm). unfold ids_of. rewrite F11. cbn [space_map]. rewrite FMm. apply number_fst.
    - apply const_ok_cref. unfold ids_of. rewrite !F11. cbn [space_map]. rewrite FMf, FMg, !number_fst. exact Ho. }
  rewrite E12. cbn [rbind].
  destruct Hn as [Hs|[s_nm E13]].
  - rewrite Hs. cbn [rbind]. eauto.
  - rewrite E13. destruct (cf_skip_name (m_config m)); cbn [rbind]; eauto.
Qed.

(* the sections list the entities
   in the order of the maps: position k of a map's id list is entry k of the corresponding section(s) *)
Definition import_emitted (m : wir) (i : mimport) (w : wimport) : Prop :=
  wi_module w = im_module i /\ wi_name w = im_name i /\
  match im_kind i with
  | MI_Func f => exists ti, wi_kind w = WI_Func ti
  | MI_Table t => exists tb, aget (m_tables m) t = Some tb /\ wi_kind w = WI_Table (gen_emit_table_import tb)
  | MI_Mem mm => exists me, aget (m_memories m) mm = Some me /\ wi_kind w = WI_Mem (gen_emit_memory_import me)
  | MI_Global g => exists gl, aget (m_globals m) g = Some gl /\ wi_kind w = WI_Global (gen_emit_global_import gl)
  end.
Lemma of_opt_ok {A} (o : option A) a : of_opt o = Ok a -> o = Some a.
Proof. destruct o; cbn; congruence. Qed.
Lemma emit_imports_l_entries m : forall l x ws x', emit_imports_l m x l = Ok (ws, x') -> Forall2 (import_emitted m) l ws.
Proof.
  induction l as [|i r IH]; intros x ws x' H; cbn [emit_imports_l] in H.
  - inversion H; constructor.
  - rinv H as a Ea. rinv H as b Eb. inversion H; subst; clear H. destruct a as [w x1], b as [ws' x2]. cbn [fst snd] in *.
    constructor; [|eapply IH; eauto]. clear IH Eb. unfold emit_import in Ea. unfold import_emitted.
    destruct (im_kind i).
    1: rinv Ea as fn Efn; rinv Ea as ti Eti.
    2-4: rinv Ea as tb Etb; apply of_opt_ok in Etb.
    all: inversion Ea; subst; cbn; eauto.
Qed.
Lemma emit_imports_entries m x s x' : emit_imports m x = Ok (s, x') ->
  (live_imports m = [] /\ s = []) \/ exists ws, s = [S_Imports ws] /\ Forall2 (import_emitted m) (live_imports m) ws.
Proof.
  unfold emit_imports, live_imports. destruct (map snd (aiter (m_imports m))) as [|i r] eqn:E.
  - intros H; inversion H; auto.
  - intros H. rinv H as a Ea. inversion H; subst; clear H. destruct a as [ws x1]. right. exists ws.
    split; [reflexivity|]. eapply emit_imports_l_entries; eauto.
Qed.

Lemma get_idx_push_other x S S' id id' : S <> S' -> get_idx (push_idx x S id) S' id' = get_idx x S' id'.
Proof. intros H. unfold get_idx. rewrite push_idx_other by exact H. reflexivity. Qed.
(* entry k of the function section is the type index of the k-th local function of the map *)
Lemma func_go_entries : forall l x r, func_go l x = Ok r ->
  Forall2 (fun p ti => get_idx x S_type (lf_ty (snd p)) = Ok ti) l (fst r).
Proof.
  induction l as [|[id lf] l IH]; intros x r H; cbn [func_go] in H.
  - inversion H; constructor.
  - fold func_go in H. rinv H as ti Eti. rinv H as b Eb. inversion H; subst; clear H. cbn [fst].
    constructor; [exact Eti|]. apply IH in Eb. clear - Eb.
    induction Eb as [|p t l' ts Hp HF IH']; constructor; [|exact IH'].
    rewrite get_idx_push_other in Hp by discriminate. exact Hp.
Qed.
Lemma emit_tables_entries m x :
  fst (emit_tables m x) = match local_tables m with [] => [] | l => [S_Tables (map (fun p => gen_emit_table_local (snd p)) l)] end.
Proof. unfold emit_tables. fold (local_tables m). destruct (local_tables m); reflexivity. Qed.
Lemma emit_memories_entries m x :
  fst (emit_memories m x) = match local_memories m with [] => [] | l => [S_Mems (map (fun p => gen_emit_memory_local (snd p)) l)] end.
Proof. unfold emit_memories. fold (local_memories m). destruct (local_memories m); reflexivity. Qed.
Lemma globals_go_entries : forall l x r, globals_go l x = Ok r ->
  Forall2 (fun t e => fst e = gen_emit_global_local (snd (fst t))) l (fst r).
Proof.
  induction l as [|[[id g] c] l IH]; intros x r H; cbn [globals_go] in H.
  - inversion H; constructor.
  - fold globals_go in H. rinv H as wc Ewc. rinv H as b Eb. inversion H; subst; clear H. cbn [fst].
    constructor; [reflexivity|]. eapply IH; eauto.
Qed.
Lemma elems_go_entries : forall l x r, elems_go l x = Ok r -> length (fst r) = length l.
Proof.
  induction l as [|[id e] l IH]; intros x r H; cbn [elems_go] in H.
  - inversion H; reflexivity.
  - fold elems_go in H. rinv H as we Ewe. rinv H as b Eb. inversion H; subst; clear H. cbn [fst length].
    f_equal. eapply IH; eauto.
Qed.

(* the type set through the parser
   Three kinds of step write the type set: an entry of the type section and the entry block type of a body insert
   a type, a name section renames items.  So a property of the type set (which may also speak of the type index
   vector) that insertion and renaming keep holds of every parsed module. *)
Lemma add_locals_types tys m ids fid pre m' ids' l : add_locals m ids fid tys pre = (m', ids', l) -> m_types m' = m_types m.
Proof. apply (add_locals_keeps m_types). intros t a b. reflexivity. Qed.
Lemma install_bodies_types ps m ids m' : install_bodies m ids ps = POk m' -> m_types m' = m_types m.
Proof. apply (install_bodies_keeps m_types). intros p a b. reflexivity. Qed.
Lemma apply_local_names_types l m ids m' : apply_local_names m ids l = Some m' -> m_types m' = m_types m.
Proof. intros E. rewrite (apply_local_names_writes _ _ _ _ E). reflexivity. Qed.

Lemma mtype_eqb_refl' a : mtype_eqb a a = true.
Proof. apply mtype_eqb_spec. auto. Qed.
Lemma set_type_name_eqb t n : mtype_eqb t (set_type_name t n) = true.
Proof. apply mtype_eqb_spec. cbn. auto. Qed.

(* position-wise equal up to the key equality (which ignores [ty_name]) *)
Definition items_eqv (a a' : list mtype) : Prop :=
  forall i k, nth_error a i = Some k -> exists k', nth_error a' i = Some k' /\ mtype_eqb k k' = true.

Lemma items_eqv_refl a : items_eqv a a.
Proof. intros i k H. exists k. split; [exact H|apply mtype_eqb_refl']. Qed.
Lemma items_eqv_trans a b c : items_eqv a b -> items_eqv b c -> items_eqv a c.
Proof.
  intros H1 H2 i k Hk. destruct (H1 _ _ Hk) as [k1 [Hk1 E1]]. destruct (H2 _ _ Hk1) as [k2 [Hk2 E2]].
  exists k2. split; [exact Hk2|]. eapply mtype_eqb_trans; eauto.
Qed.
Lemma items_eqv_upd l n s : items_eqv l (upd l n (fun x => set_type_name x s)).
Proof.
  intros i k Hk. destruct (Nat.eq_dec n i) as [->|Hne].
  - exists (set_type_name k s). split; [|apply set_type_name_eqb].
    apply (upd_nth_eq _ l i (fun x => set_type_name x s) k Hk).
  - exists k. split; [|apply mtype_eqb_refl']. rewrite upd_nth_ne by exact Hne. exact Hk.
Qed.
Lemma apply_names_types_eqv (idx2id : list N) : forall (l : namemap) (a : tarena mtype),
  dead (apply_names a idx2id set_type_name l) = dead a /\
  items_eqv (items a) (items (apply_names a idx2id set_type_name l)).
Proof.
  intros l a. split; [apply (apply_names_shape set_type_name)|]. revert a.
  induction l as [|[i n] r IH]; intros a; cbn [apply_names]; [apply items_eqv_refl|].
  destruct (nth_N idx2id i) as [id|]; [|apply IH].
  eapply items_eqv_trans; [|apply IH]. wcbn. apply items_eqv_upd.
Qed.

(* naming: the de-duplication map stays, the arena keeps its shape and changes only in [ty_name] *)
Lemma parse_names_type_set m ids n : exists a',
  m_types (parse_names m ids n) = {| Arena.arena := a'; already := already (m_types m) |} /\
  length (items a') = length (items (Arena.arena (m_types m))) /\ dead a' = dead (Arena.arena (m_types m)) /\
  items_eqv (items (Arena.arena (m_types m))) (items a').
Proof.
  unfold parse_names. cbv zeta. destruct (apply_local_names _ ids (wn_locals n)) as [m3|] eqn:E3.
  - apply apply_local_names_writes in E3.
    assert (Et : m_types m3 = m_types m) by (rewrite E3; destruct (wn_module n); reflexivity).
    exists (apply_names (Arena.arena (m_types m)) (ii_types ids) set_type_name (wn_types n)). wcbn. rewrite Et.
    split; [reflexivity|]. split; [apply (apply_names_shape set_type_name)|apply apply_names_types_eqv].
  - exists (Arena.arena (m_types m)). split; [destruct (wn_module n), m; cbn; destruct m_types; reflexivity|].
    split; [reflexivity|]. split; [reflexivity|apply items_eqv_refl].
Qed.

Section TypeSet.
  Variable P : aset mtype -> list N -> Prop.
  (* an inserted type is denoted by the index it got; the entry block type of a body gets no index *)
  Hypothesis P_insert : forall m t m1 id tys, P (m_types m) tys -> types_insert m t = (m1, id) ->
    P (m_types m1) (tys ++ [id]) /\ (ty_entry t = true -> P (m_types m1) tys).
  Hypothesis P_rename : forall s a' tys, length (items a') = length (items (Arena.arena s)) -> dead a' = dead (Arena.arena s) ->
    items_eqv (items (Arena.arena s)) (items a') -> P s tys -> P {| Arena.arena := a'; already := already s |} tys.

  Lemma step_types_inv st m ids m' ids' :
    P (m_types m) (ii_types ids) -> do_step st m ids = POk (m', ids') -> P (m_types m') (ii_types ids').
  Proof.
    intros W E. pose proof (step_ii_types _ _ _ _ _ E) as Ei.
    destruct st; try (rewrite Ei, (step_writes _ _ _ _ _ E); exact W); cbn [do_step] in E.
    - destruct (types_insert m _) as [m1 id] eqn:Et. injection E as <- <-. exact (proj1 (P_insert _ _ _ _ _ W Et)).
    - rewrite Ei. destruct (types_insert m _) as [m1 id] eqn:Et. injection E as <- _. exact (proj2 (P_insert _ _ _ _ _ W Et) eq_refl).
    - rewrite Ei. injection E as <- _. destruct (parse_names_type_set m ids n) as (a' & -> & L & D & Q). exact (P_rename _ _ _ L D Q W).
  Qed.
  Theorem parseM_types_inv cf ver w s : P aset_empty [] -> parseM cf ver w = POk s -> P (m_types (ps_m s)) (ii_types (ps_ids s)).
  Proof. exact (parseM_inv (fun m ids => P (m_types m) (ii_types ids)) step_types_inv cf ver w s). Qed.
End TypeSet.

(* renaming keeps [types_wf]: the de-duplication map is not touched, the arena items only change their name *)
Lemma types_wf_rename (s : aset mtype) (a' : tarena mtype) :
  types_wf s -> dead a' = dead (Arena.arena s) -> items_eqv (items (Arena.arena s)) (items a') ->
  types_wf {| Arena.arena := a'; already := already s |}.
Proof.
  intros [Hd Ha] D Q. split; wcbn.
  - rewrite D. exact Hd.
  - intros k id Hin. destruct (Ha _ _ Hin) as [k1 [Hn He]]. destruct (Q _ _ Hn) as [k2 [Hn2 He2]].
    exists k2. split; [exact Hn2|]. eapply mtype_eqb_trans; eauto.
Qed.
Lemma step_types_wf st m ids m' ids' : types_wf (m_types m) -> do_step st m ids = POk (m', ids') -> types_wf (m_types m').
Proof.
  apply (step_types_inv (fun s _ => types_wf s)).
  - intros m0 t m1 id _ W Et. pose proof (proj1 (types_insert_spec _ _ _ _ W Et)) as W1. split; [exact W1|intros _; exact W1].
  - intros s a' _ _ D Q W. exact (types_wf_rename s a' W D Q).
Qed.

Lemma parse_sec_types_wf s sec s' :
  types_wf (m_types (ps_m s)) -> parse_sec s sec = POk s' -> types_wf (m_types (ps_m s')).
Proof.
  intros W E. destruct sec; try (rewrite (parse_sec_writes _ _ _ E); exact W).
  cbn [parse_sec] in E. destruct (parse_types _ _ _) as [m1 i1] eqn:Ep. injection E as <-. exact (proj1 (parse_types_frame _ _ _ _ _ W Ep)).
Qed.

Theorem parse_secs_types_wf : forall w s s',
  types_wf (m_types (ps_m s)) -> parse_secs s w = POk s' -> types_wf (m_types (ps_m s')).
Proof. exact (parse_secs_inv (fun m _ => types_wf (m_types m)) step_types_wf). Qed.

(* so: for any prefix of the payload stream of a parse from scratch, the next type section is read faithfully *)
Corollary parse_types_spec_in_parse : forall cf w s ts m' ids',
  parse_secs {| ps_m := empty_wir cf; ps_ids := empty_i2ids; ps_bodies := []; ps_names := []; ps_calls_on_parse := 0 |} w = POk s ->
  parse_types (ps_m s) (ps_ids s) ts = (m', ids') ->
  forall k t, nth_error ts k = Some t ->
  exists id ty, nth_error (ii_types ids') (length (ii_types (ps_ids s)) + k) = Some id /\
                aset_index (m_types m') (N.to_nat id) = Some ty /\
                ty_params ty = fst t /\ ty_results ty = snd t /\ ty_entry ty = false.
Proof.
  intros cf w s ts m' ids' E Ep. eapply parse_types_spec; [|exact Ep].
  eapply parse_secs_types_wf; [|exact E]. apply types_wf_empty.
Qed.

Print Assumptions parseM_ids.
Print Assumptions parse_types_spec.
Print Assumptions x2i_positions.
Print Assumptions emit_order_funcs.
Print Assumptions parse_imports_spec.
Print Assumptions emitM_x2i.
Print Assumptions emitM_total.
Print Assumptions parse_types_spec_in_parse.
