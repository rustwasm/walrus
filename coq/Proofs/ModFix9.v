(* C08, module level: assembly of the fixpoint  emit (parse (emit (parse w))) = emit (parse w)
   from the per-kind payload fixpoints (ModFix2 .. ModFix8). *)
From Coq Require Import List NArith ZArith Bool Arith Lia.
Import ListNotations.
From WV Require Import Gen.Ops Model.Common Model.IR Model.Arena Model.ModuleM Model.ParseM Model.EmitM.
From WV Require Import Proofs.IndexMaps Proofs.Structure Proofs.Structure2 Proofs.Renumbering.
From WV Require Import Proofs.ModFix Proofs.ModFix2 Proofs.ModFix3 Proofs.ModFix4 Proofs.ModFix5 Proofs.ModFix6 Proofs.ModFix8.
From WV Require Proofs.ModFix7 Proofs.ModFix13.
Local Open Scope nat_scope.

Theorem canonical_identity_maps_nofunc : forall cf ver w ilen s1 e1 s2 e2,
  two_trips cf ver w ilen s1 e1 s2 e2 ->
  rho_id s2 e2 S_type /\ rho_id s2 e2 S_table /\ rho_id s2 e2 S_memory /\
  rho_id s2 e2 S_global /\ rho_id s2 e2 S_elem /\ rho_id s2 e2 S_data.
Proof.
  intros cf ver w ilen s1 e1 s2 e2 TT.
  split; [eapply types_identity; exact TT|].
  split; [eapply tmg_identity; [exact TT|left; reflexivity]|].
  split; [eapply tmg_identity; [exact TT|right; left; reflexivity]|].
  split; [eapply tmg_identity; [exact TT|right; right; reflexivity]|].
  eapply seg_identity; exact TT.
Qed.

Theorem canonical_identity_maps : forall cf ver w ilen s1 e1 s2 e2,
  two_trips cf ver w ilen s1 e1 s2 e2 -> sizes_stable s1 e1 s2 ->
  rho_id s2 e2 S_type /\ rho_id s2 e2 S_func /\ rho_id s2 e2 S_table /\ rho_id s2 e2 S_memory /\
  rho_id s2 e2 S_global /\ rho_id s2 e2 S_elem /\ rho_id s2 e2 S_data.
Proof.
  intros cf ver w ilen s1 e1 s2 e2 TT SS. destruct (canonical_identity_maps_nofunc _ _ _ _ _ _ _ _ TT) as (Hty & R).
  split; [exact Hty|]. split; [eapply funcs_identity; eassumption|exact R].
Qed.

(* the fixpoint, with what is left about function bodies and names as VISIBLE premises *)
Theorem module_fixpoint_from_body_facts : forall cf ver w ilen s1 e1 s2 e2,
  two_trips cf ver w ilen s1 e1 s2 e2 ->
  sizes_stable s1 e1 s2 ->                                                   (* re-parsed functions keep their size *)
  flat_map code_of (em_secs e2) = flat_map code_of (em_secs e1) ->           (* the code section is reproduced *)
  (sg_uses (ps_m s2) <-> sg_uses (ps_m s1)) ->                               (* some body uses a data segment *)
  name_payload (em_secs e2) = name_payload (em_secs e1) ->                   (* the name section is reproduced *)
  em_secs e2 = em_secs e1.
Proof.
  intros cf ver w ilen s1 e1 s2 e2 TT SS HC HU HN.
  destruct (canonical_identity_maps _ _ _ _ _ _ _ _ TT SS) as (Hty & Hf & Ht & Hm & Hg & He & Hd).
  apply (module_fixpoint_from_payloads _ _ _ _ _ _ _ _ TT).
  - eapply fix_types; exact TT.
  - eapply fix_imports; eassumption.
  - eapply fix_funcs_decl; eassumption.
  - eapply fix_tables; exact TT.
  - eapply fix_mems; exact TT.
  - eapply fix_globals; eassumption.
  - eapply fix_exports; eassumption.
  - eapply fix_start; eassumption.
  - eapply fix_elems; eassumption.
  - eapply fix_data_count; eassumption.
  - exact HC.
  - eapply fix_data; eassumption.
  - eapply fix_customs; eassumption.
Qed.

(* the name section: skipped by configuration, or reproduced when the local maps of the second trip are the identity *)
Definition names_premise (cf : config) (e1 : emitted) (s2 : pst) (e2 : emitted) : Prop :=
  cf_skip_name cf = true \/
  (cf_synthetic_names cf = false /\ ModFix7.locals_identity s2 e2 /\
   ModFix7.locals_canon s2 (ModFix7.stream_names (em_secs e1))).

Theorem fix_names_all : forall cf ver w ilen s1 e1 s2 e2,
  two_trips cf ver w ilen s1 e1 s2 e2 -> sizes_stable s1 e1 s2 -> names_premise cf e1 s2 e2 ->
  ModFix8.name_payload (em_secs e2) = ModFix8.name_payload (em_secs e1).
Proof.
  intros cf ver w ilen s1 e1 s2 e2 TT SS [Hs|(Hsyn & LI & LC)].
  - eapply skip_name_case; eassumption.
  - destruct (canonical_identity_maps _ _ _ _ _ _ _ _ TT SS) as (Hty & Hf & Ht & Hm & Hg & He & Hd).
    destruct (cf_skip_name cf) eqn:Hskip; [eapply skip_name_case; eassumption|].
    change (ModFix7.name_payload (em_secs e2) = ModFix7.name_payload (em_secs e1)).
    eapply ModFix7.fix_names; try eassumption.
    eapply ModFix13.counts_kept_holds; exact TT.
Qed.

Theorem module_fixpoint_from_body_facts2 : forall cf ver w ilen s1 e1 s2 e2,
  two_trips cf ver w ilen s1 e1 s2 e2 ->
  sizes_stable s1 e1 s2 ->
  flat_map code_of (em_secs e2) = flat_map code_of (em_secs e1) ->
  (sg_uses (ps_m s2) <-> sg_uses (ps_m s1)) ->
  names_premise cf e1 s2 e2 ->
  em_secs e2 = em_secs e1.
Proof.
  intros cf ver w ilen s1 e1 s2 e2 TT SS HC HU HN.
  eapply module_fixpoint_from_body_facts; try eassumption. eapply fix_names_all; eassumption.
Qed.

Print Assumptions canonical_identity_maps.
Print Assumptions module_fixpoint_from_body_facts2.
Print Assumptions module_fixpoint_from_body_facts.
