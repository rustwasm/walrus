(* Model/Traversal.v: dfs_in_order against the recursive specification [events] (dfs_in_order_spec; [resume] is
   the machine restarted in the middle of a sequence), dfs_pre_order_mut against the stack discipline [morder],
   and what the logs contain, read off projection by projection.
   [default_hook_recurses] / [default_hook_mut_recurses] are never unfolded. *)
From Coq Require Import List NArith Arith Lia Bool Permutation.
Import ListNotations.
From WV Require Import Gen.Ops Model.Common Model.IR Model.Traversal.
From WV Require Proofs.SeqArena.
Local Open Scope nat_scope.

Opaque default_hook_recurses default_hook_mut_recurses visit_fields_after_hook.

(* the nested fixpoints [events], [size], [Den] read flat: per item, and over the list of items *)
Definition here (ov : bool) (x : item * N) : list ev :=
  EInstr (shallow (fst x)) (snd x) :: instr_visit default_hook_recurses ov (shallow (fst x)).

Definition nested_events (ov : bool) (it : item) : list ev :=
  match it with
  | ItB t | ItL t => events ov t
  | ItI c a => events ov c ++ events ov a
  | _ => []
  end.

Definition items_events (ov : bool) (l : list (item * N)) : list ev :=
  flat_map (fun x => item_events ov (fst x) (snd x)) l.

Definition items_size (l : list (item * N)) : nat :=
  fold_right (fun x n => isize (fst x) + n) 0 l.

Definition tyv (ty : seqty) : list ev :=
  match ty with ST_Multi ty => [ESeqType ty] | ST_Simple _ => [] end.

Lemma seq_visit_shallow s ty items e : seq_visit (shallow_seq (T s ty items e)) = tyv ty.
Proof. reflexivity. Qed.

Lemma events_T ov s ty items e :
  events ov (T s ty items e) = EStart s :: tyv ty ++ items_events ov items ++ [EEnd s].
Proof. reflexivity. Qed.

Lemma item_events_eq ov it loc : item_events ov it loc = here ov (it, loc) ++ nested_events ov it.
Proof.
  destruct it as [p|s|s|ss d|t|t|c a]; cbn [item_events nested_events here fst snd];
    rewrite ?app_nil_r; reflexivity.
Qed.

Lemma items_events_cons ov x l :
  items_events ov (x :: l) = (here ov x ++ nested_events ov (fst x)) ++ items_events ov l.
Proof.
  unfold items_events. cbn [flat_map]. rewrite item_events_eq. destruct x as [it loc]. reflexivity.
Qed.

Lemma size_T s ty items e : size (T s ty items e) = S (items_size items).
Proof. reflexivity. Qed.

Lemma items_size_cons x l : items_size (x :: l) = isize (fst x) + items_size l.
Proof. reflexivity. Qed.

Definition ItemsDen (ar : arena) (l : list (item * N)) : Prop := Forall (fun x => IDen ar (fst x)) l.

Lemma Den_T ar s ty items e :
  Den ar (T s ty items e) <->
  nth_error ar (N.to_nat s) = Some (shallow_seq (T s ty items e)) /\ ItemsDen ar items.
Proof. apply SeqArena.Den_T. Qed.

Definition lift (P : tree -> Prop) (it : item) : Prop :=
  match it with
  | ItB t | ItL t => P t
  | ItI c a => P c /\ P a
  | _ => True
  end.

Section ind.
  Variable P : tree -> Prop.
  Hypothesis HT : forall s ty items e, Forall (fun x => lift P (fst x)) items -> P (T s ty items e).
  Fixpoint tree_ind' (t : tree) : P t :=
    match t with T s ty items e => HT s ty items e
      ((fix go (l : list (item * N)) : Forall (fun x => lift P (fst x)) l :=
          match l with
          | [] => Forall_nil _
          | x :: l' => Forall_cons x (lift_ind' (fst x)) (go l')
          end) items) end
  with lift_ind' (it : item) : lift P it :=
    match it return lift P it with
    | ItB t => tree_ind' t
    | ItL t => tree_ind' t
    | ItI c a => conj (tree_ind' c) (tree_ind' a)
    | _ => I
    end.
End ind.

Lemma skipn_map_app {A B} (f : A -> B) (d t : list A) : skipn (length d) (map f (d ++ t)) = map f t.
Proof. induction d as [|a d IH]; cbn [length app map skipn]; auto. Qed.

Lemma len_snoc {A} (d : list A) x : length (d ++ [x]) = S (length d).
Proof. rewrite app_length; cbn [length]; lia. Qed.

Lemma scan_cons ov x l idx :
  scan ov ((shallow (fst x), snd x) :: l) idx =
  match fst x with
  | ItB t | ItL t => (here ov x, Some (S idx, [tsid t]))
  | ItI c a => (here ov x, Some (S idx, [tsid c; tsid a]))
  | _ => let '(e, r) := scan ov l (S idx) in (here ov x ++ e, r)
  end.
Proof. destruct x as [[p|s|s|ss d|t|t|c a] loc]; reflexivity. Qed.

Lemma run_dfs_S ov f ar sid idx rest q :
  nth_error ar (N.to_nat sid) = Some q ->
  run_dfs ov (S f) ar ((sid, idx) :: rest) =
  match scan ov (skipn idx (sq_instrs q)) idx with
  | (evs, None) =>
      rmap (fun r => (if Nat.eqb idx 0 then EStart sid :: seq_visit q else []) ++ evs ++ [EEnd sid] ++ r)
           (run_dfs ov f ar rest)
  | (evs, Some (ridx, kids)) =>
      rmap (fun r => (if Nat.eqb idx 0 then EStart sid :: seq_visit q else []) ++ evs ++ r)
           (run_dfs ov f ar (map (fun k => (k, O)) kids ++ (sid, ridx) :: rest))
  end.
Proof. intros Hq. cbn [run_dfs]. rewrite Hq. reflexivity. Qed.

Lemma run_dfs_mono ov ar : forall f stack r,
  run_dfs ov f ar stack = Ok r -> forall f', f <= f' -> run_dfs ov f' ar stack = Ok r.
Proof.
  induction f as [|f IH]; intros stack r Hr f' Hle; [discriminate Hr|].
  destruct f' as [|f']; [lia|]. assert (Hle' : f <= f') by lia.
  destruct stack as [|[sid idx] rest]; [exact Hr|].
  destruct (nth_error ar (N.to_nat sid)) as [q|] eqn:Hq.
  - rewrite (run_dfs_S ov f ar sid idx rest q Hq) in Hr.
    rewrite (run_dfs_S ov f' ar sid idx rest q Hq).
    destruct (scan ov (skipn idx (sq_instrs q)) idx) as [evs [[ridx kids]|]].
    + destruct (run_dfs ov f ar (map (fun k => (k, 0)) kids ++ (sid, ridx) :: rest)) as [r'| |] eqn:Hin;
        cbn [rmap] in Hr; try discriminate Hr.
      rewrite (IH _ _ Hin f' Hle'). exact Hr.
    + destruct (run_dfs ov f ar rest) as [r'| |] eqn:Hin; cbn [rmap] in Hr; try discriminate Hr.
      rewrite (IH _ _ Hin f' Hle'). exact Hr.
  - cbn [run_dfs] in Hr. rewrite Hq in Hr. discriminate Hr.
Qed.

(* the statement for a whole tree, with an arbitrary continuation *)
Definition Ptree (ov : bool) (ar : arena) (t : tree) : Prop :=
  Den ar t -> forall rest f r,
  run_dfs ov f ar rest = Ok r ->
  run_dfs ov (size t + f) ar ((tsid t, 0) :: rest) = Ok (events ov t ++ r).

Lemma resume ov ar s ty e : forall todo done,
  nth_error ar (N.to_nat s) = Some (shallow_seq (T s ty (done ++ todo) e)) ->
  Forall (fun x => lift (Ptree ov ar) (fst x)) todo -> ItemsDen ar todo ->
  forall rest f r, run_dfs ov f ar rest = Ok r ->
   run_dfs ov (S (items_size todo) + f) ar ((s, length done) :: rest)
   = Ok ((if Nat.eqb (length done) 0 then EStart s :: tyv ty else [])
         ++ items_events ov todo ++ [EEnd s] ++ r).
Proof.
  induction todo as [|x todo IH]; intros done Hs HP HD rest f r Hr.
  - cbn [items_size fold_right Nat.add]. rewrite (run_dfs_S _ _ _ _ _ _ _ Hs).
    rewrite seq_visit_shallow.
    cbn [shallow_seq sq_instrs]. rewrite skipn_map_app. cbn [map scan].
    rewrite Hr. cbn [rmap items_events flat_map app]. reflexivity.
  - inversion HP as [|x0 l0 HPx HPtodo]; subst x0 l0. inversion HD as [|x0 l0 HDx HDtodo]; subst x0 l0.
    assert (Hs' : nth_error ar (N.to_nat s) = Some (shallow_seq (T s ty ((done ++ [x]) ++ todo) e)))
      by (rewrite <- app_assoc; exact Hs).
    specialize (IH (done ++ [x]) Hs' HPtodo HDtodo rest f r Hr).
    rewrite len_snoc in IH. cbn [Nat.eqb app] in IH.
    assert (Hsk : skipn (S (length done))
                    (map (fun y : item * N => (shallow (fst y), snd y)) ((done ++ [x]) ++ todo))
                  = map (fun y : item * N => (shallow (fst y), snd y)) todo)
      by (rewrite <- (len_snoc done x); apply skipn_map_app).
    rewrite items_size_cons, items_events_cons.
    cbn [Nat.add]. rewrite (run_dfs_S _ _ _ _ _ _ _ Hs).
    rewrite seq_visit_shallow.
    cbn [shallow_seq sq_instrs]. rewrite skipn_map_app. cbn [map]. rewrite scan_cons.
    destruct x as [[p|s0|s0|ss d|t|t|c a] loc]; cbn [fst isize lift nested_events IDen] in *.
    1-4: cbn [Nat.add] in *;
      rewrite (run_dfs_S _ _ _ _ _ _ _ Hs') in IH;
      cbn [shallow_seq sq_instrs] in IH; rewrite Hsk in IH.
    1-4: cbn [Nat.eqb] in IH;
      destruct (scan ov (map (fun y : item * N => (shallow (fst y), snd y)) todo) (S (length done)))
        as [evs [[ridx kids]|]];
      [ destruct (run_dfs ov (items_size todo + f) ar (map (fun k : N => (k, 0)) kids ++ (s, ridx) :: rest))
          as [r'| |]
      | destruct (run_dfs ov (items_size todo + f) ar rest) as [r'| |] ];
      cbn [rmap app] in IH |- *; try discriminate IH;
      injection IH as IH; f_equal; f_equal;
      rewrite app_nil_r, <- !app_assoc; f_equal; cbn [app]; exact IH.
    1-2: replace (S (size t) + items_size todo + f) with (size t + (S (items_size todo) + f)) by lia;
      cbn [map app]; rewrite (HPx HDx _ _ _ IH); cbn [rmap]; f_equal; f_equal;
      rewrite <- !app_assoc; reflexivity.
    destruct HPx as [HPc HPa]. destruct HDx as [HDc HDa].
    replace (S (size c + size a) + items_size todo + f)
      with (size c + (size a + (S (items_size todo) + f))) by lia.
    cbn [map app]. rewrite (HPc HDc _ _ _ (HPa HDa _ _ _ IH)). cbn [rmap]. f_equal. f_equal.
    rewrite <- !app_assoc. reflexivity.
Qed.

Lemma dfs_tree ov ar t : Ptree ov ar t.
Proof.
  induction t as [s ty items e HF] using tree_ind'.
  intros HD rest f r Hr. apply Den_T in HD as [Hs HD].
  rewrite size_T, events_T. cbn [tsid].
  pose proof (resume ov ar s ty e items [] Hs HF HD rest f r Hr) as R.
  cbn [length Nat.eqb app] in R. cbn [app]. rewrite <- !app_assoc. exact R.
Qed.

Theorem dfs_in_order_fuel : forall ov ar t f,
  Den ar t -> S (size t) <= f -> dfs_in_order ov f ar (tsid t) = Ok (events ov t).
Proof.
  intros ov ar t f HD Hle. unfold dfs_in_order.
  replace f with (size t + S (f - S (size t))) by lia.
  rewrite (dfs_tree ov ar t HD [] (S (f - S (size t))) [] eq_refl). now rewrite app_nil_r.
Qed.

Theorem dfs_in_order_spec : forall (ov : bool) (ar : arena) (t : tree),
  Den ar t -> dfs_in_order ov (S (size t)) ar (tsid t) = Ok (events ov t).
Proof. intros ov ar t HD. apply dfs_in_order_fuel; [exact HD|lia]. Qed.

Definition item_instr (x : item * N) : instr * N := (shallow (fst x), snd x).

Fixpoint instrs_in_order (t : tree) : list (instr * N) :=
  match t with T _ _ items _ =>
    (fix go (l : list (item * N)) : list (instr * N) :=
       match l with [] => [] | x :: l' => (item_instr x :: item_nested (fst x)) ++ go l' end) items
  end
with item_nested (it : item) : list (instr * N) :=
  match it with
  | ItB t | ItL t => instrs_in_order t
  | ItI c a => instrs_in_order c ++ instrs_in_order a
  | _ => []
  end.

Fixpoint subtrees (t : tree) : list tree :=
  t :: match t with T _ _ items _ =>
    (fix go (l : list (item * N)) : list tree :=
       match l with [] => [] | x :: l' => item_subtrees (fst x) ++ go l' end) items
  end
with item_subtrees (it : item) : list tree :=
  match it with
  | ItB t | ItL t => subtrees t
  | ItI c a => subtrees c ++ subtrees a
  | _ => []
  end.

Lemma instrs_T s ty items e :
  instrs_in_order (T s ty items e) = flat_map (fun x => item_instr x :: item_nested (fst x)) items.
Proof. reflexivity. Qed.

Lemma subtrees_T s ty items e :
  subtrees (T s ty items e) = T s ty items e :: flat_map (fun x => item_subtrees (fst x)) items.
Proof. reflexivity. Qed.

Fixpoint balanced (evs : list ev) (stack : list N) : bool :=
  match evs with
  | [] => match stack with [] => true | _ :: _ => false end
  | EStart s :: r => balanced r (s :: stack)
  | EEnd s :: r => match stack with top :: st => N.eqb top s && balanced r st | [] => false end
  | _ :: r => balanced r stack
  end.

Definition instr_refs (i : instr) : list (space * N) :=
  match i with IPlain p => visited_refs p | _ => [] end.
Definition ref_count (twice after : bool) (i : instr) : list (space * N) :=
  (if twice then instr_refs i else []) ++ (if after then instr_refs i else []).

(* the three projections of the log *)
Definition pI (e : ev) : list (instr * N) := match e with EInstr i l => [(i, l)] | _ => [] end.
Definition pS (e : ev) : list N := match e with EStart s => [s] | _ => [] end.
Definition pR (e : ev) : list (space * N) := match e with ERef sp id => [(sp, id)] | _ => [] end.

(* Events that open or close no sequence and carry no instruction: all that visiting an instruction's
   fields, a hook or a sequence type produces.  The emitter skips them, and so do [pI], [pS], [balanced]. *)
Definition ignored (e : ev) : Prop := match e with EStart _ | EEnd _ | EInstr _ _ => False | _ => True end.
Lemma field_events_ignored i : Forall ignored (field_events i).
Proof. destruct i; cbn [field_events]; apply Forall_forall; intros x Hx; apply in_map_iff in Hx as (y & <- & _); exact I. Qed.
Lemma instr_visit_ignored r ov i : Forall ignored (instr_visit r ov i).
Proof.
  unfold instr_visit. constructor; [exact I|]. apply Forall_app. split.
  - destruct (negb ov && r); [apply field_events_ignored|constructor].
  - destruct visit_fields_after_hook; [apply field_events_ignored|constructor].
Qed.
Lemma tyv_ignored ty : Forall ignored (tyv ty).
Proof. destruct ty; repeat constructor. Qed.

Lemma ignored_proj {B} (f : ev -> list B) : (forall e, ignored e -> f e = []) ->
  forall l, Forall ignored l -> flat_map f l = [].
Proof. intros Hf l. induction 1 as [|e l He _ IH]; cbn [flat_map]; [reflexivity|]. now rewrite (Hf e He), IH. Qed.
Lemma pI_ignored l : Forall ignored l -> flat_map pI l = [].
Proof. apply ignored_proj. now intros []. Qed.
Lemma pS_ignored l : Forall ignored l -> flat_map pS l = [].
Proof. apply ignored_proj. now intros []. Qed.

Lemma seqref_pR (l : list N) : flat_map pR (map ESeqRef l) = [].
Proof. induction l; auto. Qed.
Lemma field_events_pR i : flat_map pR (field_events i) = instr_refs i.
Proof.
  destruct i as [p|s|s|c a|s|s|ss d]; cbn [field_events instr_refs]; try apply seqref_pR.
  induction (visited_refs p) as [|[sp id] l IH]; cbn [map flat_map pR fst snd app]; [reflexivity|].
  rewrite IH. reflexivity.
Qed.

Lemma pR_if (c : bool) i :
  flat_map pR (if c then field_events i else []) = if c then instr_refs i else [].
Proof. destruct c; [apply field_events_pR|reflexivity]. Qed.

Lemma instr_visit_pR b ov i :
  flat_map pR (instr_visit b ov i) = ref_count (negb ov && b) visit_fields_after_hook i.
Proof.
  unfold instr_visit, ref_count. cbn [flat_map pR app]. rewrite flat_map_app, !pR_if. reflexivity.
Qed.

Lemma tyv_pR ty : flat_map pR (tyv ty) = []. Proof. destruct ty; reflexivity. Qed.

Lemma here_pI ov x : flat_map pI (here ov x) = [item_instr x].
Proof. unfold here. cbn [flat_map pI app]. now rewrite pI_ignored by apply instr_visit_ignored. Qed.
Lemma here_pS ov x : flat_map pS (here ov x) = [].
Proof. unfold here. cbn [flat_map pS app]. apply pS_ignored, instr_visit_ignored. Qed.
Lemma here_pR ov x :
  flat_map pR (here ov x)
  = ref_count (negb ov && default_hook_recurses) visit_fields_after_hook (shallow (fst x)).
Proof. unfold here. cbn [flat_map pR app]. apply instr_visit_pR. Qed.

Theorem in_order_instrs : forall ov t,
  flat_map (fun e => match e with EInstr i l => [(i, l)] | _ => [] end) (events ov t) = instrs_in_order t.
Proof.
  intros ov t. change (flat_map pI (events ov t) = instrs_in_order t).
  induction t as [s ty items e HF] using tree_ind'.
  rewrite events_T, instrs_T. cbn [flat_map pI app].
  rewrite !flat_map_app, pI_ignored by apply tyv_ignored. cbn [flat_map pI app]. rewrite app_nil_r.
  induction HF as [|[it loc] l Hx HFl IH]; [reflexivity|].
  rewrite items_events_cons. cbn [flat_map fst]. rewrite !flat_map_app, here_pI, IH.
  f_equal. cbn [app]. f_equal.
  destruct it as [p|s0|s0|ss d|t|t|c a]; cbn [nested_events item_nested lift flat_map] in *; auto.
  destruct Hx as [Hc Ha]. rewrite flat_map_app, Hc, Ha. reflexivity.
Qed.

Theorem in_order_starts : forall ov t,
  flat_map (fun e => match e with EStart s => [s] | _ => [] end) (events ov t) = map tsid (subtrees t).
Proof.
  intros ov t. change (flat_map pS (events ov t) = map tsid (subtrees t)).
  induction t as [s ty items e HF] using tree_ind'.
  rewrite events_T, subtrees_T. cbn [flat_map pS app map tsid]. f_equal.
  rewrite !flat_map_app, pS_ignored by apply tyv_ignored. cbn [flat_map pS app]. rewrite app_nil_r.
  induction HF as [|[it loc] l Hx HFl IH]; [reflexivity|].
  rewrite items_events_cons. cbn [flat_map fst]. rewrite map_app, !flat_map_app, here_pS, IH.
  f_equal. cbn [app].
  destruct it as [p|s0|s0|ss d|t|t|c a]; cbn [nested_events item_subtrees lift flat_map map] in *; auto.
  destruct Hx as [Hc Ha]. rewrite flat_map_app, map_app, Hc, Ha. reflexivity.
Qed.

Theorem in_order_refs : forall ov t,
  flat_map (fun e => match e with ERef sp id => [(sp, id)] | _ => [] end) (events ov t)
  = flat_map (fun x => ref_count (negb ov && default_hook_recurses) visit_fields_after_hook (fst x)) (instrs_in_order t).
Proof.
  intros ov t.
  change (flat_map pR (events ov t)
          = flat_map (fun x => ref_count (negb ov && default_hook_recurses) visit_fields_after_hook (fst x)) (instrs_in_order t)).
  induction t as [s ty items e HF] using tree_ind'.
  rewrite events_T, instrs_T. cbn [flat_map pR app].
  rewrite !flat_map_app, tyv_pR. cbn [flat_map pR app]. rewrite app_nil_r.
  induction HF as [|[it loc] l Hx HFl IH]; [reflexivity|].
  rewrite items_events_cons. cbn [flat_map fst]. rewrite !flat_map_app, here_pR, IH.
  f_equal. cbn [flat_map item_instr fst snd]. f_equal.
  destruct it as [p|s0|s0|ss d|t|t|c a]; cbn [nested_events item_nested lift flat_map] in *; auto.
  destruct Hx as [Hc Ha]. rewrite !flat_map_app, Hc, Ha. reflexivity.
Qed.

Lemma balanced_ignored l : Forall ignored l -> forall k st, balanced (l ++ k) st = balanced k st.
Proof.
  induction 1 as [|e l He _ IH]; intros k st; [reflexivity|].
  destruct e; try contradiction; cbn [app balanced]; apply IH.
Qed.

Lemma in_order_balanced_gen ov t : forall k st, balanced (events ov t ++ k) st = balanced k st.
Proof.
  induction t as [s ty items e HF] using tree_ind'. intros k st.
  rewrite events_T. cbn [app balanced]. rewrite <- !app_assoc.
  rewrite (balanced_ignored _ (tyv_ignored ty)).
  assert (Hitems : forall k' st', balanced (items_events ov items ++ k') st' = balanced k' st').
  { induction HF as [|[it loc] l Hx HFl IH]; intros k' st'; [reflexivity|].
    rewrite items_events_cons. rewrite <- !app_assoc.
    unfold here. cbn [app balanced]. rewrite (balanced_ignored _ (instr_visit_ignored _ _ _)).
    destruct it as [p|s0|s0|ss d|t|t|c a]; cbn [nested_events lift fst app] in *; auto.
    - rewrite Hx. apply IH.
    - rewrite Hx. apply IH.
    - destruct Hx as [Hc Ha]. rewrite <- app_assoc, Hc, Ha. apply IH. }
  rewrite Hitems. cbn [app balanced]. rewrite N.eqb_refl. reflexivity.
Qed.

Theorem in_order_balanced : forall ov t, balanced (events ov t) [] = true.
Proof.
  intros ov t. rewrite <- (app_nil_r (events ov t)). rewrite in_order_balanced_gen. reflexivity.
Qed.

Definition seq_events_mut (ov : bool) (t : tree) : list ev :=
  match t with T s ty items e =>
    EStart s :: seq_visit (shallow_seq t) ++
    flat_map (fun x => EInstr (shallow (fst x)) (snd x)
                       :: instr_visit default_hook_mut_recurses ov (shallow (fst x))) items
    ++ [EEnd s]
  end.

(* children in push order *)
Definition item_kids (it : item) : list tree :=
  match it with
  | ItB t | ItL t => [t]
  | ItI c a => [a; c]
  | _ => []
  end.
Definition kids (t : tree) : list tree :=
  match t with T _ _ items _ => flat_map (fun x => item_kids (fst x)) items end.

Fixpoint morder (fuel : nat) (stack : list tree) : option (list tree) :=
  match fuel with
  | O => None
  | S f =>
      match stack with
      | [] => Some []
      | t :: rest => option_map (cons t) (morder f (rev (kids t) ++ rest))
      end
  end.

Lemma scan_mut_items ov (items : list (item * N)) :
  scan_mut ov (map (fun x : item * N => (shallow (fst x), snd x)) items) =
  (flat_map (fun x => EInstr (shallow (fst x)) (snd x)
                      :: instr_visit default_hook_mut_recurses ov (shallow (fst x))) items,
   map tsid (flat_map (fun x => item_kids (fst x)) items)).
Proof.
  induction items as [|[it loc] l IH]; [reflexivity|].
  cbn [map flat_map fst snd]. rewrite map_app.
  destruct it as [p|s0|s0|ss d|t|t|c a]; cbn [shallow scan_mut item_kids map app];
    rewrite IH; reflexivity.
Qed.

Lemma Den_kids ar t : Den ar t -> Forall (Den ar) (kids t).
Proof.
  destruct t as [s ty items e]. intros HD. apply Den_T in HD as [_ HD]. cbn [kids].
  induction HD as [|[it loc] l Hx HDl IH]; [constructor|].
  cbn [flat_map fst]. apply Forall_app. split; [|exact IH].
  destruct it as [p|s0|s0|ss d|t|t|c a]; cbn [item_kids IDen fst] in *; auto.
  destruct Hx as [Hc Ha]. auto.
Qed.

Lemma run_pre_spec ov ar : forall fuel stack order,
  Forall (Den ar) stack -> morder fuel stack = Some order ->
  run_pre ov fuel ar (map tsid stack) = Ok (flat_map (seq_events_mut ov) order).
Proof.
  induction fuel as [|f IH]; intros stack order HD Hm; [discriminate Hm|].
  destruct stack as [|t rest].
  - cbn [morder] in Hm. injection Hm as Hm. subst order. reflexivity.
  - cbn [morder] in Hm.
    destruct (morder f (rev (kids t) ++ rest)) as [order'|] eqn:Hm'; [|discriminate Hm].
    cbn [option_map] in Hm. injection Hm as Hm. subst order.
    inversion HD as [|t0 l0 HDt HDrest]; subst t0 l0.
    assert (HDk : Forall (Den ar) (rev (kids t) ++ rest)).
    { apply Forall_app. split; [|exact HDrest]. apply Forall_rev. apply Den_kids. exact HDt. }
    specialize (IH _ _ HDk Hm').
    destruct t as [s ty items e]. apply Den_T in HDt as [Hs _].
    cbn [map tsid run_pre]. rewrite Hs.
    cbn [shallow_seq sq_instrs]. rewrite scan_mut_items.
    rewrite map_app, map_rev in IH. cbn [kids] in IH. rewrite IH.
    cbn [rmap flat_map seq_events_mut]. f_equal. cbn [app]. f_equal.
    change (seq_visit (shallow_seq (T s ty items e))) with (tyv ty).
    change (seq_visit {| sq_ty := ty; sq_instrs := map (fun x : item * N => (shallow (fst x), snd x)) items; sq_end := e |}) with (tyv ty).
    rewrite <- !app_assoc. reflexivity.
Qed.

Theorem dfs_pre_order_mut_spec : forall ov ar t fuel order,
  Den ar t -> morder fuel [t] = Some order ->
  dfs_pre_order_mut ov fuel ar (tsid t) = Ok (flat_map (seq_events_mut ov) order).
Proof.
  intros ov ar t fuel order HD Hm. unfold dfs_pre_order_mut.
  apply (run_pre_spec ov ar fuel [t] order); [constructor; [exact HD|constructor]|exact Hm].
Qed.

(* every sequence of the tree is visited exactly once *)
Definition ssize (l : list tree) : nat := fold_right (fun t n => size t + n) 0 l.

Lemma ssize_cons t l : ssize (t :: l) = size t + ssize l.
Proof. reflexivity. Qed.

Lemma ssize_app l1 l2 : ssize (l1 ++ l2) = ssize l1 + ssize l2.
Proof.
  induction l1 as [|t l IH]; [reflexivity|].
  cbn [app]. rewrite !ssize_cons, IH. lia.
Qed.

Lemma ssize_rev l : ssize (rev l) = ssize l.
Proof.
  induction l as [|t l IH]; [reflexivity|]. cbn [rev]. rewrite ssize_app, IH, !ssize_cons.
  change (ssize []) with 0. lia.
Qed.

Lemma ssize_kids t : ssize (kids t) < size t.
Proof.
  destruct t as [s ty items e]. rewrite size_T. cbn [kids].
  enough (ssize (flat_map (fun x => item_kids (fst x)) items) <= items_size items) by lia.
  induction items as [|[it loc] l IH]; [cbn; lia|].
  cbn [flat_map fst]. rewrite ssize_app, items_size_cons. cbn [fst].
  destruct it as [p|s0|s0|ss d|t|t|c a]; cbn [item_kids isize]; rewrite ?ssize_cons;
    change (ssize []) with 0; lia.
Qed.

Lemma kids_subtrees_perm t :
  Permutation (flat_map subtrees (kids t))
              (match t with T _ _ items _ => flat_map (fun x => item_subtrees (fst x)) items end).
Proof.
  destruct t as [s ty items e]. cbn [kids].
  induction items as [|[it loc] l IH]; [constructor|].
  cbn [flat_map fst]. rewrite flat_map_app. apply Permutation_app; [|exact IH].
  destruct it as [p|s0|s0|ss d|t|t|c a]; cbn [item_kids item_subtrees flat_map];
    rewrite ?app_nil_r; try apply Permutation_refl.
  apply Permutation_app_comm.
Qed.

Lemma morder_total_gen : forall fuel stack, ssize stack < fuel ->
  exists order, morder fuel stack = Some order /\ Permutation order (flat_map subtrees stack).
Proof.
  induction fuel as [|f IH]; intros stack Hlt; [lia|].
  destruct stack as [|t rest].
  - exists []. split; [reflexivity|constructor].
  - rewrite ssize_cons in Hlt.
    pose proof (ssize_kids t) as Hk.
    destruct (IH (rev (kids t) ++ rest)) as [order' [Hm Hp]].
    { rewrite ssize_app, ssize_rev. lia. }
    exists (t :: order'). split.
    + cbn [morder]. rewrite Hm. reflexivity.
    + cbn [flat_map]. eapply perm_trans; [apply perm_skip; exact Hp|].
      rewrite flat_map_app.
      destruct t as [s ty items e]. rewrite subtrees_T. cbn [app]. apply perm_skip.
      apply Permutation_app; [|apply Permutation_refl].
      eapply perm_trans; [|apply (kids_subtrees_perm (T s ty items e))].
      apply Permutation_flat_map. apply Permutation_sym, Permutation_rev.
Qed.

Theorem morder_total : forall t,
  exists order, morder (S (size t)) [t] = Some order /\ Permutation order (subtrees t).
Proof.
  intros t. destruct (morder_total_gen (S (size t)) [t]) as [order [Hm Hp]].
  { rewrite ssize_cons. change (ssize []) with 0. lia. }
  exists order. split; [exact Hm|]. cbn [flat_map] in Hp. rewrite app_nil_r in Hp. exact Hp.
Qed.

Lemma seq_events_mut_pR ov t :
  flat_map pR (seq_events_mut ov t) =
  match t with T _ _ items _ =>
    flat_map (fun x => ref_count (negb ov && default_hook_mut_recurses) visit_fields_after_hook (shallow (fst x))) items end.
Proof.
  destruct t as [s ty items e]. cbn [seq_events_mut]. rewrite seq_visit_shallow.
  cbn [flat_map pR app]. rewrite !flat_map_app, tyv_pR. cbn [flat_map pR app]. rewrite app_nil_r.
  induction items as [|[it loc] l IH]; [reflexivity|].
  cbn [flat_map fst snd]. rewrite flat_map_app. cbn [flat_map pR app]. rewrite instr_visit_pR, IH.
  reflexivity.
Qed.

Theorem pre_order_refs : forall ov order,
  flat_map (fun e => match e with ERef sp id => [(sp, id)] | _ => [] end) (flat_map (seq_events_mut ov) order)
  = flat_map (fun t => match t with T _ _ items _ =>
       flat_map (fun x => ref_count (negb ov && default_hook_mut_recurses) visit_fields_after_hook (shallow (fst x))) items end) order.
Proof.
  intros ov order.
  change (flat_map pR (flat_map (seq_events_mut ov) order)
          = flat_map (fun t => match t with T _ _ items _ =>
              flat_map (fun x => ref_count (negb ov && default_hook_mut_recurses) visit_fields_after_hook (shallow (fst x))) items end) order).
  induction order as [|t l IH]; [reflexivity|].
  cbn [flat_map]. rewrite flat_map_app, seq_events_mut_pR, IH. reflexivity.
Qed.

Lemma run_pre_mono ov ar : forall f stack r,
  run_pre ov f ar stack = Ok r -> forall f', f <= f' -> run_pre ov f' ar stack = Ok r.
Proof.
  induction f as [|f IH]; intros stack r Hr f' Hle; [discriminate Hr|].
  destruct f' as [|f']; [lia|]. assert (Hle' : f <= f') by lia.
  destruct stack as [|sid rest]; [exact Hr|].
  cbn [run_pre] in Hr |- *.
  destruct (nth_error ar (N.to_nat sid)) as [q|]; [|discriminate Hr].
  destruct (scan_mut ov (sq_instrs q)) as [evs ks].
  destruct (run_pre ov f ar (rev ks ++ rest)) as [r'| |] eqn:Hin; cbn [rmap] in Hr; try discriminate Hr.
  rewrite (IH _ _ Hin f' Hle'). exact Hr.
Qed.

Print Assumptions dfs_in_order_spec.
Print Assumptions dfs_in_order_fuel.
Print Assumptions in_order_instrs.
Print Assumptions in_order_starts.
Print Assumptions in_order_balanced.
Print Assumptions in_order_refs.
Print Assumptions dfs_pre_order_mut_spec.
Print Assumptions morder_total.
Print Assumptions pre_order_refs.
