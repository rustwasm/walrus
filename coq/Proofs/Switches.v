(* C14 (clauses a to c): the DWARF switch and the 2^3 combinations of the switches (names, producers, dwarf).
   C06 (clauses d to f): what GC keeps it keeps unchanged. *)
From Coq Require Import List NArith ZArith Bool Lia Arith.
Import ListNotations.
From WV Require Import Gen.Ops Model.Common Model.IR Model.Arena Model.Traversal Model.EmitFn Model.Locals
                       Model.ModuleM Model.ParseM Model.EmitM Model.GC.
From WV Require Import Proofs.CustomsCfg Proofs.Totality Proofs.ArenaN.
From WV Require Proofs.GC.
Module G := WV.Proofs.GC.
Local Open Scope nat_scope.


(* the part of the stream that precedes the DWARF sections: front ; names ; producers *)
Definition emit_pre (m : wir) (ilen : wins -> N) : res (list wsec * x2i * list emitted_fn) :=
  rbind (emit_front m ilen) (fun f =>
    let '(front, x, efs) := f in
    rbind (sec_names (m_config m) m x efs) (fun s_nm =>
      Ok (front ++ s_nm ++ sec_producers (m_config m) (m_producers m), x, efs))).

Definition emit_post (m : wir) (dw : list wsec) (f : list wsec * x2i * list emitted_fn) : res emitted :=
  let '(pre, x, efs) := f in
  Ok {| em_secs := pre ++ sec_dwarf (m_config m) dw ++ sec_customs (m_customs m);
        em_module := m; em_x2i := x; em_fns := efs |}.

(* the exact place of [dw]: after the producers section, before the raw custom sections *)
Theorem emitM_shape m ilen dw : emitM m ilen dw = rbind (emit_pre m ilen) (emit_post m dw).
Proof.
  rewrite emitM_factor. change (set_customs_take m) with m. unfold emit_pre.
  destruct (emit_front m ilen) as [[[front x] efs]| |]; cbn [rbind]; try reflexivity.
  unfold emit_tail. destruct (sec_names (m_config m) m x efs) as [s_nm| |]; cbn [rbind]; try reflexivity.
  unfold emit_post. rewrite <- !app_assoc. reflexivity.
Qed.

(* a. *)
Theorem dwarf_switch_off m ilen dw :
  cf_generate_dwarf (m_config m) = false -> emitM m ilen dw = emitM m ilen [].
Proof.
  intros H. rewrite !emitM_shape. destruct (emit_pre m ilen) as [[[pre x] efs]| |]; cbn [rbind]; try reflexivity.
  unfold emit_post, sec_dwarf. rewrite H. reflexivity.
Qed.

(* a DWARF section as the model sees one: the [CS_Debug] payload, or a raw custom section whose
   name starts with ".debug" *)
Definition is_debug_sec (s : wsec) : bool :=
  match s with
  | S_Custom (CS_Debug _ _) => true
  | S_Custom (CS_Raw n _) => starts_with_debug n
  | _ => false
  end.

Lemma plain_not_debug l : plain_secs l -> forall s, In s l -> is_debug_sec s = false.
Proof.
  intros Hl s Hs. unfold plain_secs in Hl. rewrite Forall_forall in Hl. specialize (Hl s Hs).
  destruct s; try reflexivity. discriminate.
Qed.
Lemma sec_names_not_debug cf m0 x efs l : sec_names cf m0 x efs = Ok l -> forall s, In s l -> is_debug_sec s = false.
Proof.
  unfold sec_names. destruct (cf_skip_name cf).
  - intros [= <-] s [].
  - intros H. apply emit_names_shape in H. destruct H as [->|[n ->]]; intros s Hs; [destruct Hs|].
    destruct Hs as [<-|[]]. reflexivity.
Qed.
Lemma sec_producers_not_debug cf p : forall s, In s (sec_producers cf p) -> is_debug_sec s = false.
Proof.
  unfold sec_producers. destruct (cf_skip_producers cf); [intros s []|]. destruct p; [intros s []|].
  intros s [<-|[]]. reflexivity.
Qed.
(* the raw customs of the output are those of [m_customs], minus the ".debug*" ones *)
Lemma sec_customs_from cs : forall s, In s (sec_customs cs) ->
  exists c, In (Some c) cs /\ s = S_Custom (CS_Raw (cu_name c) (cu_data c)) /\ starts_with_debug (cu_name c) = false.
Proof.
  intros s Hs. unfold sec_customs in Hs. apply in_flat_map in Hs. destruct Hs as ([c|] & Hin & Hc); [|destruct Hc].
  destruct (starts_with_debug (cu_name c)) eqn:E; [destruct Hc|]. destruct Hc as [<-|[]]. exists c. auto.
Qed.
Lemma sec_customs_not_debug cs : forall s, In s (sec_customs cs) -> is_debug_sec s = false.
Proof. intros s Hs. destruct (sec_customs_from cs s Hs) as (c & _ & -> & E). exact E. Qed.

Lemma emit_pre_not_debug m ilen pre x efs : emit_pre m ilen = Ok (pre, x, efs) ->
  forall s, In s pre -> is_debug_sec s = false.
Proof.
  unfold emit_pre. destruct (emit_front m ilen) as [[[front x0] efs0]| |] eqn:Ef; cbn [rbind]; try discriminate.
  destruct (sec_names (m_config m) m x0 efs0) as [s_nm| |] eqn:En; cbn [rbind]; try discriminate.
  intros [= <- _ _] s Hs. apply in_app_or in Hs. destruct Hs as [Hs|Hs].
  - eapply plain_not_debug; [eapply emit_front_plain; exact Ef|exact Hs].
  - apply in_app_or in Hs. destruct Hs as [Hs|Hs].
    + eapply sec_names_not_debug; eauto.
    + eapply sec_producers_not_debug; eauto.
Qed.

(* whatever the module and the switches: a DWARF-looking section of the output is one of [dw],
   and the switch is on.  (Even a ".debug*" entry of [m_customs] is not written.) *)
Theorem emit_debug_only_from_dw m ilen dw e : emitM m ilen dw = Ok e ->
  forall s, In s (em_secs e) -> is_debug_sec s = true -> cf_generate_dwarf (m_config m) = true /\ In s dw.
Proof.
  rewrite emitM_shape. destruct (emit_pre m ilen) as [[[pre x] efs]| |] eqn:Ep; cbn [rbind]; try discriminate.
  unfold emit_post. intros [= <-] s Hs Hd. cbn [em_secs] in Hs.
  apply in_app_or in Hs. destruct Hs as [Hs|Hs].
  { rewrite (emit_pre_not_debug _ _ _ _ _ Ep s Hs) in Hd. discriminate. }
  apply in_app_or in Hs. destruct Hs as [Hs|Hs].
  - unfold sec_dwarf in Hs. destruct (cf_generate_dwarf (m_config m)); [auto|destruct Hs].
  - rewrite (sec_customs_not_debug _ s Hs) in Hd. discriminate.
Qed.

Theorem dwarf_off_no_debug m ilen dw e :
  cf_generate_dwarf (m_config m) = false -> emitM m ilen dw = Ok e ->
  forall s, In s (em_secs e) -> is_debug_sec s = false.
Proof.
  intros Hoff He s Hs. destruct (is_debug_sec s) eqn:E; [|reflexivity].
  destruct (emit_debug_only_from_dw _ _ _ _ He s Hs E) as [Hon _]. congruence.
Qed.

Lemma customs_of_In m c : In (Some c) (m_customs m) -> In (cu_name c, cu_data c) (customs_of m).
Proof. intros H. unfold customs_of. apply in_flat_map. exists (Some c). split; [exact H|left; reflexivity]. Qed.
Lemma raw_customs_In w n d : In (n, d) (raw_customs w) -> In (S_Custom (CS_Raw n d)) w.
Proof.
  unfold raw_customs. intros H. apply in_flat_map in H. destruct H as (s & Hs & H).
  destruct s; try (exfalso; exact H).
  match goal with c : wcsec |- _ => destruct c; try (exfalso; exact H) end.
  destruct H as [[= <- <-]|[]]. exact Hs.
Qed.

(* the classification of custom sections into [CS_Raw] / [CS_Debug] is done by the (unmodelled)
   decoder; [parse_custom] trusts it.  With a classified input, nothing ".debug*" is kept raw. *)
Definition classified (w : list wsec) : Prop :=
  forall n d, In (S_Custom (CS_Raw n d)) w -> starts_with_debug n = false.

Theorem parse_never_keeps_debug_raw_partial cf ver w s :
  classified w -> parseM cf ver w = POk s ->
  forall c, In (Some c) (m_customs (ps_m s)) -> starts_with_debug (cu_name c) = false.
Proof.
  intros Hw Hp c Hc. apply customs_of_In in Hc. rewrite (parse_customs _ _ _ _ Hp) in Hc.
  apply raw_customs_In in Hc. exact (Hw _ _ Hc).
Qed.

(* without the premise the statement is false of the model *)
Definition dbg_name : str := [46; 100; 101; 98; 117; 103; 95; 120]%N.      (* ".debug_x" *)
Theorem parse_never_keeps_debug_raw_refuted :
  exists cf ver w s c, parseM cf ver w = POk s /\ In (Some c) (m_customs (ps_m s)) /\ starts_with_debug (cu_name c) = true.
Proof.
  exists default_config, [], [S_Custom (CS_Raw dbg_name [])].
  eexists. exists {| cu_name := dbg_name; cu_data := []; cu_roots := [] |}.
  split; [vm_compute; reflexivity|]. split; [left; reflexivity|reflexivity].
Qed.

(* ... but what such an entry does to the output is nothing: it is dropped by the emitter
   (see [emit_debug_only_from_dw]); in the other direction the DWARF payloads go to [m_debug] *)
Theorem parse_debug_payload_not_kept s n d : m_customs (ps_m (parse_custom s (CS_Debug n d))) = m_customs (ps_m s).
Proof. reflexivity. Qed.

(* b. *)
Theorem dwarf_switch_on m ilen dw :
  cf_generate_dwarf (m_config m) = true ->
  (forall e0, emitM m ilen [] = Ok e0 ->
     exists pre, em_secs e0 = pre ++ sec_customs (m_customs m) /\
                 emitM m ilen dw = Ok {| em_secs := pre ++ dw ++ sec_customs (m_customs m);
                                         em_module := em_module e0; em_x2i := em_x2i e0; em_fns := em_fns e0 |}) /\
  (forall e, emitM m ilen dw = Ok e -> exists e0, emitM m ilen [] = Ok e0).
Proof.
  intros Hon. rewrite !emitM_shape. destruct (emit_pre m ilen) as [[[pre x] efs]| |]; cbn [rbind]; split; try discriminate.
  - unfold emit_post, sec_dwarf. rewrite Hon. intros e0 [= <-]. exists pre. cbn [em_secs em_module em_x2i em_fns app]. auto.
  - intros e _. eexists. reflexivity.
Qed.

(* c. the three switches *)
Definition set_switches (m : wir) (skip_name skip_producers generate_dwarf : bool) : wir :=
  set_config m {| cf_generate_dwarf := generate_dwarf; cf_synthetic_names := cf_synthetic_names (m_config m);
                  cf_only_stable := cf_only_stable (m_config m); cf_skip_producers := skip_producers;
                  cf_skip_name := skip_name; cf_preserve_code_transform := cf_preserve_code_transform (m_config m) |}.

Lemma set_skip_name_is m b :
  set_skip_name m b = set_switches m b (cf_skip_producers (m_config m)) (cf_generate_dwarf (m_config m)).
Proof. reflexivity. Qed.
Lemma set_skip_producers_is m b :
  set_skip_producers m b = set_switches m (cf_skip_name (m_config m)) b (cf_generate_dwarf (m_config m)).
Proof. reflexivity. Qed.
Lemma set_switches_id m :
  set_switches m (cf_skip_name (m_config m)) (cf_skip_producers (m_config m)) (cf_generate_dwarf (m_config m)) = m.
Proof. destruct m as [? ? ? ? ? ? ? ? ? ? ? ? ? ? ? [? ? ? ? ? ?] ?]. reflexivity. Qed.
(* the switches are independent record fields: setting them in any order is the same *)
Lemma set_switches_twice m a b c a' b' c' : set_switches (set_switches m a b c) a' b' c' = set_switches m a' b' c'.
Proof. reflexivity. Qed.

Definition producers_sec (m : wir) : list wsec :=
  match m_producers m with [] => [] | p => [S_Custom (CS_Producers (Some p))] end.

Lemma sec_producers_eq cf p :
  sec_producers cf p = if cf_skip_producers cf then [] else match p with [] => [] | _ => [S_Custom (CS_Producers (Some p))] end.
Proof. unfold sec_producers. destruct (cf_skip_producers cf); [reflexivity|]. destruct p; reflexivity. Qed.

(* the output as a function of the three flags, the other fields of the module being fixed *)
Theorem switches_emitM m ilen dw sn sp gd :
  emitM (set_switches m sn sp gd) ilen dw =
  rbind (emit_front m ilen) (fun f =>
    let '(front, x, efs) := f in
    rbind (if sn then Ok [] else emit_names m x efs) (fun s_nm =>
      Ok {| em_secs := front ++ s_nm ++ (if sp then [] else producers_sec m) ++ (if gd then dw else []) ++ sec_customs (m_customs m);
            em_module := set_switches m sn sp gd; em_x2i := x; em_fns := efs |})).
Proof.
  rewrite emitM_factor. change (set_customs_take (set_switches m sn sp gd)) with (set_switches m sn sp gd).
  unfold set_switches at 1. rewrite (emit_front_core _ _ (same_core_set_config m _)).
  destruct (emit_front m ilen) as [[[front x] efs]| |]; cbn [rbind]; try reflexivity.
  unfold emit_tail, sec_names. cbn [m_config set_switches set_config cf_skip_name].
  assert (En : emit_names (set_switches m sn sp gd) x efs = emit_names m x efs).
  { apply emit_names_core. apply same_core_set_config. }
  rewrite En. destruct (if sn then Ok [] else emit_names m x efs) as [s_nm| |]; cbn [rbind]; try reflexivity.
  rewrite sec_producers_eq. unfold sec_dwarf, producers_sec.
  cbn [cf_skip_producers cf_generate_dwarf m_producers set_switches set_config m_customs]. destruct (m_producers m); reflexivity.
Qed.

(* all 8 combinations at once, from the all-on run (names and producers written, DWARF generated) *)
Theorem switches_factor m ilen dw e :
  emitM (set_switches m false false true) ilen dw = Ok e ->
  exists front nm pr cu,
    em_secs e = front ++ nm ++ pr ++ dw ++ cu /\
    plain_secs front /\
    (nm = [] \/ exists n, nm = [S_Custom (CS_Name (Some n))]) /\
    pr = producers_sec m /\ cu = sec_customs (m_customs m) /\
    forall sn sp gd, exists e',
      emitM (set_switches m sn sp gd) ilen dw = Ok e' /\
      em_secs e' = front ++ (if sn then [] else nm) ++ (if sp then [] else pr) ++ (if gd then dw else []) ++ cu /\
      em_x2i e' = em_x2i e /\ em_fns e' = em_fns e /\ em_module e' = set_switches m sn sp gd.
Proof.
  rewrite switches_emitM.
  destruct (emit_front m ilen) as [[[front x] efs]| |] eqn:Ef; cbn [rbind]; try discriminate.
  destruct (emit_names m x efs) as [nm| |] eqn:En; cbn [rbind]; try discriminate.
  intros [= <-]. exists front, nm, (producers_sec m), (sec_customs (m_customs m)). cbn [em_secs em_x2i em_fns].
  split; [reflexivity|]. split; [eapply emit_front_plain; exact Ef|]. split; [eapply emit_names_shape; exact En|].
  split; [reflexivity|]. split; [reflexivity|].
  intros sn sp gd. rewrite switches_emitM, Ef. cbn [rbind]. destruct sn; [|rewrite En]; cbn [rbind];
    eexists; (split; [reflexivity|]); cbn [em_secs em_x2i em_fns em_module]; repeat split; reflexivity.
Qed.

(* the converse on failures: a run that writes the name section succeeds only if the all-on run does;
   a run that skips it may succeed where the all-on run panics inside emit_names *)
Theorem switches_success m ilen dw sp gd e :
  emitM (set_switches m false sp gd) ilen dw = Ok e -> exists e', emitM (set_switches m false false true) ilen dw = Ok e'.
Proof.
  rewrite !switches_emitM. destruct (emit_front m ilen) as [[[front x] efs]| |]; cbn [rbind]; try discriminate.
  destruct (emit_names m x efs) as [nm| |]; cbn [rbind]; try discriminate. intros _. eexists. reflexivity.
Qed.


(* d. nothing is altered, only removed: the seven arenas, the type set, and the locals (untouched) *)
Theorem gc_kept_unchanged m m' : gc_sweep m = Ok m' ->
  (forall id v, aget (m_funcs m') id = Some v -> aget (m_funcs m) id = Some v) /\
  (forall id v, aget (m_tables m') id = Some v -> aget (m_tables m) id = Some v) /\
  (forall id v, aget (m_globals m') id = Some v -> aget (m_globals m) id = Some v) /\
  (forall id v, aget (m_memories m') id = Some v -> aget (m_memories m) id = Some v) /\
  (forall id v, aget (m_data m') id = Some v -> aget (m_data m) id = Some v) /\
  (forall id v, aget (m_elements m') id = Some v -> aget (m_elements m) id = Some v) /\
  (forall id v, aget (m_imports m') id = Some v -> aget (m_imports m) id = Some v) /\
  (forall id t, types_get m' id = Some t -> types_get m id = Some t) /\
  m_locals m' = m_locals m.
Proof.
  intros H. destruct (gc_shape m m' H) as [u [Hu R]].
  split; [intros id v Hv; apply (gr_funcs _ _ _ R) in Hv; tauto|].
  split; [intros id v Hv; apply (gr_tables _ _ _ R) in Hv; tauto|].
  split; [intros id v Hv; apply (gr_globals _ _ _ R) in Hv; tauto|].
  split; [intros id v Hv; apply (gr_memories _ _ _ R) in Hv; tauto|].
  split; [intros id v Hv; apply (gr_data _ _ _ R) in Hv; tauto|].
  split; [intros id v Hv; apply (gr_elements _ _ _ R) in Hv; tauto|].
  split; [intros id v Hv; apply (gr_imports _ _ _ R) in Hv; tauto|].
  split; [intros id t; exact (gc_types_old m m' id t H)|]. apply (G.gc_preserves m m' H).
Qed.

Definition same_at (m m' : wir) (x : ent) : Prop :=
  match fst x with
  | S_func => aget (m_funcs m') (snd x) = aget (m_funcs m) (snd x)
  | S_table => aget (m_tables m') (snd x) = aget (m_tables m) (snd x)
  | S_memory => aget (m_memories m') (snd x) = aget (m_memories m) (snd x)
  | S_global => aget (m_globals m') (snd x) = aget (m_globals m) (snd x)
  | S_data => aget (m_data m') (snd x) = aget (m_data m) (snd x)
  | S_elem => aget (m_elements m') (snd x) = aget (m_elements m) (snd x)
  | S_type => types_get m' (snd x) = types_get m (snd x)
  | S_local => aget (m_locals m') (snd x) = aget (m_locals m) (snd x)
  end.

Lemma rel_same {A} (a a' : tarena A) (P : Prop) id :
  (forall v, aget a' id = Some v <-> aget a id = Some v /\ P) -> P -> aget a' id = aget a id.
Proof.
  intros R HP. destruct (aget a' id) as [w|] eqn:E'.
  - destruct (proj1 (R w) eq_refl) as [E _]. symmetry. exact E.
  - destruct (aget a id) as [v|] eqn:E; [|reflexivity]. exfalso. assert (X : @None A = Some v) by (apply R; auto). discriminate X.
Qed.

Lemma gc_same_at m m' u : gc_sweep m = Ok m' -> gc_rel m m' u -> forall x, In x u -> same_at m m' x.
Proof.
  intros H R [s id] Hx. unfold same_at. cbn [fst snd]. destruct s.
  - exact (rel_same _ _ _ id (gr_funcs _ _ _ R id) Hx).
  - destruct (types_get m id) as [t|] eqn:E.
    + exact (gr_types _ _ _ R id t E Hx).
    + destruct (types_get m' id) as [t|] eqn:E'; [|reflexivity]. apply (gc_types_old m m' id t H) in E'. congruence.
  - exact (rel_same _ _ _ id (gr_tables _ _ _ R id) Hx).
  - exact (rel_same _ _ _ id (gr_memories _ _ _ R id) Hx).
  - exact (rel_same _ _ _ id (gr_globals _ _ _ R id) Hx).
  - exact (rel_same _ _ _ id (gr_data _ _ _ R id) Hx).
  - exact (rel_same _ _ _ id (gr_elements _ _ _ R id) Hx).
  - f_equal. apply (G.gc_preserves m m' H).
Qed.

(* what an entity refers to is read off its own value only *)
Lemma same_at_succ m m' x : same_at m m' x -> succ m' x = succ m x.
Proof.
  destruct x as [s id]. unfold same_at, succ. cbn [fst snd]. destruct s; intros E; try rewrite E; reflexivity.
Qed.

(* --- the used set: worklist result [U], closed under [succ]; [u] is [U] or [U] plus the first memory *)
Lemma succ_type m x : fst x = S_type -> succ m x = Ok [].
Proof. destruct x as [s id]. cbn [fst]. intros ->. reflexivity. Qed.

Lemma used_core m u : used m = Ok u ->
  exists rs U, roots m = Ok rs /\ incl rs U /\ incl U u /\
    (forall x, In x u -> fst x <> S_memory -> In x U) /\
    (u = U \/ exists mid v rest, aiter (m_memories m) = (mid, v) :: rest /\ used_of U S_memory = [] /\
                                 used_of U S_data <> [] /\ u = (S_memory, mid) :: U) /\
    (forall x, In x U -> exists ys, succ m x = Ok ys /\ incl ys U).
Proof.
  intros Hu. destruct (G.used_inv m u Hu) as (rs & U & Hr & Hw & Hcase).
  destruct (wl_closed m rs _ U Hw) as [I1 I2]. exists rs, U. split; [exact Hr|]. split; [exact I1|].
  assert (Hcl : forall x, In x U -> exists ys, succ m x = Ok ys /\ incl ys U).
  { intros x Hx. destruct (G.is_type x) eqn:Ht; [|apply I2; assumption].
    exists []. split; [|intros y []]. apply succ_type. unfold G.is_type in Ht. destruct (fst x); try discriminate; reflexivity. }
  split; [|split; [|split; [exact Hcase|exact Hcl]]].
  - destruct Hcase as [->|(mid & v & rest & _ & _ & _ & ->)]; [apply incl_refl|apply incl_tl, incl_refl].
  - destruct Hcase as [->|(mid & v & rest & _ & _ & _ & ->)]; [auto|]. intros x [<-|Hx] Hm; [cbn in Hm; congruence|exact Hx].
Qed.

(* e. the reachable part is identical before and after: a kept entity refers to the same entities in
   both modules, they are kept, and they look the same in both modules.
   [U] is the set reached from the roots; [u] (what gc_sweep keeps) may have one more element. *)
Theorem gc_reachable_closed_submodule m m' : gc_sweep m = Ok m' ->
  exists u U, used m = Ok u /\ incl U u /\ (forall x, In x u -> fst x <> S_memory -> In x U) /\
    (forall x, In x u -> same_at m m' x) /\
    forall x, In x U -> exists ys, succ m x = Ok ys /\ succ m' x = Ok ys /\
                                   forall y, In y ys -> In y U /\ In y u /\ same_at m m' y.
Proof.
  intros H. destruct (gc_shape m m' H) as [u [Hu R]].
  destruct (used_core m u Hu) as (rs & U & _ & _ & HUu & Hnm & _ & Hcl).
  exists u, U. split; [exact Hu|]. split; [exact HUu|]. split; [exact Hnm|].
  split; [exact (gc_same_at m m' u H R)|].
  intros x Hx. destruct (Hcl x Hx) as [ys [Hys Hin]]. exists ys. split; [exact Hys|].
  split; [rewrite (same_at_succ m m' x (gc_same_at m m' u H R x (HUu x Hx))); exact Hys|].
  intros y Hy. split; [exact (Hin y Hy)|]. split; [exact (HUu y (Hin y Hy))|].
  exact (gc_same_at m m' u H R y (HUu y (Hin y Hy))).
Qed.

(* the statement over [u] alone, as asked, holds for everything but memories ... *)
Theorem gc_reachable_closed_submodule_partial m m' u x ys :
  gc_sweep m = Ok m' -> used m = Ok u -> In x u -> fst x <> S_memory -> succ m x = Ok ys ->
  succ m' x = Ok ys /\ forall y, In y ys -> In y u /\ same_at m m' y.
Proof.
  intros H Hu Hx Hm Hys. destruct (gc_reachable_closed_submodule m m' H) as (u' & U & Hu' & HUu & Hnm & _ & Hcl).
  rewrite Hu in Hu'. injection Hu' as <-. destruct (Hcl x (Hnm x Hx Hm)) as (ys' & E & E' & Hall).
  rewrite Hys in E. injection E as <-. split; [exact E'|]. intros y Hy. destruct (Hall y Hy) as (_ & A & B). auto.
Qed.

(* ... and for memories too when the segment lists of the memories name active data segments only
   (what Module::parse and the data-segment API maintain): active segments are roots *)
Definition segs_active (m : wir) : Prop :=
  forall mid me d, aget (m_memories m) mid = Some me -> In d (me_segs me) ->
    exists dd mem off, aget (m_data m) d = Some dd /\ da_kind dd = DK_Active mem off.

Lemma roots_inv m rs : roots m = Ok rs ->
  exists elems,
    rs = map (fun p => (kind_space (ex_kind (snd p)), ex_item (snd p))) (aiter (m_exports m)) ++
         (match m_start m with Some f => [(S_func, f)] | None => [] end) ++
         flat_map (fun p => match da_kind (snd p) with DK_Active _ _ => [(S_data, fst p)] | _ => [] end) (aiter (m_data m)) ++
         elems.
Proof.
  unfold roots. match goal with |- rbind ?A _ = _ -> _ => destruct A as [elems| |]; cbn [rbind]; try discriminate end.
  intros [= <-]. eexists. reflexivity.
Qed.

Lemma roots_active_data m rs d dd mem off : roots m = Ok rs ->
  aget (m_data m) d = Some dd -> da_kind dd = DK_Active mem off -> In (S_data, d) rs.
Proof.
  intros Hr Hd Hk. destruct (roots_inv m rs Hr) as [elems ->].
  apply in_or_app. right. apply in_or_app. right. apply in_or_app. left.
  apply in_flat_map. exists (d, dd). split; [apply aiter_In; exact Hd|]. cbn [fst snd]. rewrite Hk. left. reflexivity.
Qed.

Theorem gc_reachable_closed_submodule_segs m m' u x ys :
  segs_active m -> gc_sweep m = Ok m' -> used m = Ok u -> In x u -> succ m x = Ok ys ->
  succ m' x = Ok ys /\ forall y, In y ys -> In y u /\ same_at m m' y.
Proof.
  intros SA H Hu Hx Hys.
  destruct (gc_shape m m' H) as [u' [Hu' R]]. rewrite Hu in Hu'. injection Hu' as <-.
  split; [rewrite (same_at_succ m m' x (gc_same_at m m' u H R x Hx)); exact Hys|].
  assert (Hin : forall y, In y ys -> In y u); [|intros y Hy; split; [auto|apply (gc_same_at m m' u H R); auto]].
  destruct x as [s id]. destruct s;
    try (intros y Hy; exact (proj1 (proj2 (gc_reachable_closed_submodule_partial m m' u _ ys H Hu Hx ltac:(cbn; discriminate) Hys) y Hy))).
  (* a memory: its successors are its data segments, all active, hence roots *)
  destruct (used_core m u Hu) as (rs & U & Hr & HrsU & HUu & _ & _ & _).
  unfold succ in Hys. cbn [fst snd] in Hys. destruct (aget (m_memories m) id) as [me|] eqn:E; [|discriminate].
  injection Hys as <-. intros y Hy. apply in_map_iff in Hy. destruct Hy as (d & <- & Hd).
  destruct (SA id me d E Hd) as (dd & mem & off & Hdd & Hk).
  apply HUu, HrsU. exact (roots_active_data m rs d dd mem off Hr Hdd Hk).
Qed.

(* the unrestricted statement is false of the model: a passive data segment kept by a custom
   section's roots, no memory otherwise used: the first memory is kept, its (here: ill-formed)
   segment list names a segment that is deleted *)
Definition wit_mem (segs : list N) : mmem :=
  {| me_shared := false; me_64 := false; me_init := 1; me_max := None; me_page := None;
     me_import := None; me_segs := segs; me_name := None |}.
Definition wit_e : wir :=
  {| m_imports := empty; m_tables := empty; m_types := aset_empty; m_funcs := empty;
     m_globals := empty; m_locals := empty; m_exports := empty;
     m_memories := {| items := [wit_mem [1%N]]; dead := [] |};
     m_data := {| items := [{| da_kind := DK_Passive; da_value := []; da_name := None |};
                            {| da_kind := DK_Passive; da_value := []; da_name := None |}]; dead := [] |};
     m_elements := empty;
     m_start := None; m_producers := [];
     m_customs := [Some {| cu_name := []; cu_data := []; cu_roots := [(S_data, 0%N)] |}];
     m_debug := []; m_name := None; m_config := default_config; m_code_section_offset := 0 |}.

Theorem gc_reachable_closed_submodule_refuted :
  exists m m' u x ys y, gc_sweep m = Ok m' /\ used m = Ok u /\ In x u /\ succ m x = Ok ys /\ In y ys /\ ~ In y u /\
                        aget (m_memories m') (snd x) = aget (m_memories m) (snd x) /\
                        aget (m_data m) (snd y) <> None /\ aget (m_data m') (snd y) = None.
Proof.
  exists wit_e. eexists. eexists. exists (S_memory, 0%N). eexists. exists (S_data, 1%N).
  split; [vm_compute; reflexivity|]. split; [vm_compute; reflexivity|].
  split; [left; reflexivity|]. split; [vm_compute; reflexivity|]. split; [left; reflexivity|].
  split; [intros [E|[E|[]]]; discriminate E|]. split; [vm_compute; reflexivity|].
  split; [vm_compute; discriminate|vm_compute; reflexivity].
Qed.

(* a kept function: same record (kind, body arena, arguments, name), its type is kept with the same
   value, and the locals arena is the same *)
Theorem gc_kept_function m m' id f : gc_sweep m = Ok m' -> aget (m_funcs m') id = Some f ->
  aget (m_funcs m) id = Some f /\
  types_get m' (func_ty f) = types_get m (func_ty f) /\
  m_locals m' = m_locals m.
Proof.
  intros H Hf. destruct (gc_shape m m' H) as [u [Hu R]].
  apply (gr_funcs _ _ _ R) in Hf. destruct Hf as [Hf Hin]. split; [exact Hf|]. split; [|apply (G.gc_preserves m m' H)].
  assert (Hs : exists ys, succ m (S_func, id) = Ok ys) by
    (destruct (gc_reachable_closed_submodule m m' H) as (u' & U & Hu' & HUu & Hnm & _ & Hcl);
     rewrite Hu in Hu'; injection Hu' as <-;
     destruct (Hcl _ (Hnm _ Hin ltac:(cbn; discriminate))) as (ys & E & _); eauto).
  destruct Hs as [ys Hys].
  destruct (gc_reachable_closed_submodule_partial m m' u _ ys H Hu Hin ltac:(cbn; discriminate) Hys) as [_ Hall].
  assert (Hty : In (S_type, func_ty f) ys).
  { unfold succ in Hys. cbn [fst snd] in Hys. rewrite Hf in Hys. unfold func_ty. destruct (fn_kind f) as [i ty|lf|ty].
    - injection Hys as <-. left. reflexivity.
    - destruct (lf_log lf); cbn [rmap] in Hys; try discriminate. injection Hys as <-. left. reflexivity.
    - discriminate. }
  exact (proj2 (Hall _ Hty)).
Qed.

(* f. exports and start: same lists, and every target is live, kept, with the same value *)
Definition item_same (m m' : wir) (k : ekind) (id : N) : Prop :=
  match k with
  | EK_Func => exists v, aget (m_funcs m') id = Some v /\ aget (m_funcs m) id = Some v
  | EK_Table => exists v, aget (m_tables m') id = Some v /\ aget (m_tables m) id = Some v
  | EK_Mem => exists v, aget (m_memories m') id = Some v /\ aget (m_memories m) id = Some v
  | EK_Global => exists v, aget (m_globals m') id = Some v /\ aget (m_globals m) id = Some v
  end.

(* a target that looks the same in both modules and has successors in [m] is live in both *)
Lemma root_item_same m m' k id ys :
  same_at m m' (kind_space k, id) -> succ m (kind_space k, id) = Ok ys -> item_same m m' k id.
Proof.
  unfold same_at, succ, item_same. destruct k; cbn [kind_space fst snd]; intros ->;
    (destruct (aget _ id) as [v|]; [eauto|discriminate]).
Qed.

Theorem gc_exports_start_same_targets m m' : gc_sweep m = Ok m' ->
  m_exports m' = m_exports m /\ m_start m' = m_start m /\
  (forall id e, aget (m_exports m') id = Some e -> item_same m m' (ex_kind e) (ex_item e)) /\
  (forall f, m_start m' = Some f -> item_same m m' EK_Func f).
Proof.
  intros H. destruct (gc_shape m m' H) as [u [Hu R]].
  destruct (used_core m u Hu) as (rs & U & Hr & HrsU & HUu & _ & _ & Hcl).
  destruct (roots_inv m rs Hr) as [elems Ers].
  assert (T : forall k id, In (kind_space k, id) rs -> item_same m m' k id).
  { intros k id Hx. apply HrsU in Hx. destruct (Hcl _ Hx) as [ys [Hys _]].
    exact (root_item_same m m' k id ys (gc_same_at m m' u H R _ (HUu _ Hx)) Hys). }
  split; [exact (gr_exports _ _ _ R)|]. split; [exact (gr_start _ _ _ R)|]. split.
  - intros id e He. rewrite (gr_exports _ _ _ R) in He. apply aiter_In in He.
    apply T. rewrite Ers. apply in_or_app. left. apply in_map_iff. exists (id, e). split; [reflexivity|exact He].
  - intros f Hs. rewrite (gr_start _ _ _ R) in Hs.
    apply (T EK_Func). rewrite Ers, Hs. apply in_or_app. right. left. reflexivity.
Qed.

Print Assumptions emitM_shape.
Print Assumptions dwarf_switch_off.
Print Assumptions emit_debug_only_from_dw.
Print Assumptions dwarf_off_no_debug.
Print Assumptions parse_never_keeps_debug_raw_partial.
Print Assumptions parse_never_keeps_debug_raw_refuted.
Print Assumptions dwarf_switch_on.
Print Assumptions switches_emitM.
Print Assumptions switches_factor.
Print Assumptions switches_success.
Print Assumptions gc_kept_unchanged.
Print Assumptions gc_kept_function.
Print Assumptions gc_reachable_closed_submodule.
Print Assumptions gc_reachable_closed_submodule_partial.
Print Assumptions gc_reachable_closed_submodule_segs.
Print Assumptions gc_reachable_closed_submodule_refuted.
Print Assumptions gc_exports_start_same_targets.
