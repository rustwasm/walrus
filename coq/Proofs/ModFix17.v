(* C08, module level fixpoint, part 17: the local-variable obligations of ModFix15 (D_holds, Lidx_holds)
   from the list-level fixpoint of emit_locals (ModFix11); a re-parsed local function has the signature of the
   function it came from (params_kept); the local vectors a parse builds are disjoint, duplicate-free and
   allocated (locals_struct). *)
From Coq Require Import List NArith ZArith Bool Arith Lia Permutation Sorted.
Import ListNotations.
From WV Require Import Gen.Ops Model.Common Model.IR Model.Arena Model.Traversal Model.EmitFn Model.Locals
                       Model.ParseFn Model.ParseSpec Model.BodySpec Model.ModuleM Model.ParseM Model.EmitM Gen.Attrs.
From WV Require Import Proofs.Arena Proofs.IndexMaps Proofs.CustomsCfg Proofs.Structure Proofs.Structure2 Proofs.Renumbering
                       Proofs.ParseTotal Proofs.Totality Proofs.TotalityBodies Proofs.ModFix Proofs.ModFix6 Proofs.ModFix12 Proofs.ModFix15.
From WV Require Proofs.Escalation Proofs.Order Proofs.Locals2 Proofs.Locals3 Proofs.Names Proofs.ModFix10 Proofs.ModFix14 Proofs.ModFix11 Proofs.ModFix7.
Import WV.Proofs.Locals2.
Local Open Scope nat_scope.

(* (L) every local id a body of the first parse mentions belongs to that function's local vector *)
Definition locals_in_range (s1 : pst) : Prop :=
  forall fid f lf evs lid,
    aget (m_funcs (ps_m s1)) fid = Some f -> fn_kind f = FK_Local lf -> lf_log lf = Ok evs ->
    In (ERef S_local lid) evs -> In lid (WV.Proofs.Names.locals_vec (ps_ids s1) fid).

(* the parameter count of corresponding functions (type payload is reproduced) *)
Definition params_kept (s1 : pst) (e1 : emitted) (s2 : pst) : Prop :=
  forall id j f1 lf1 f2 lf2 t2,
    aget (m_funcs (ps_m s1)) id = Some f1 -> fn_kind f1 = FK_Local lf1 ->
    get_idx (em_x2i e1) S_func id = Ok j ->
    aget (m_funcs (ps_m s2)) j = Some f2 -> fn_kind f2 = FK_Local lf2 ->
    types_get (ps_m s2) (lf_ty lf2) = Some t2 ->
    length (ty_params t2) = length (lf_args lf1).

Lemma used_of_log_in evs lid : In lid (used_of_log evs) <-> In (ERef S_local lid) evs.
Proof.
  unfold used_of_log. rewrite in_flat_map. split.
  - intros (e & He & Hl). destruct e; cbn in Hl; try contradiction.
    match goal with s : space |- _ => destruct s end; cbn in Hl; try contradiction.
    destruct Hl as [<-|[]]. exact He.
  - intros H. exists (ERef S_local lid). split; auto. now left.
Qed.

Lemma id2i_local x lmap id i : local_index lmap id = Some i -> id2i_fun x lmap S_local id = i.
Proof. unfold local_index, id2i_fun. destruct (find _ lmap); intros H; inversion H; reflexivity. Qed.

Lemma refs_ok_local x lmap evs lid : refs_ok x lmap evs = true -> In (ERef S_local lid) evs ->
  local_index lmap lid = Some (id2i_fun x lmap S_local lid).
Proof.
  unfold refs_ok. rewrite forallb_forall. intros H Hin. specialize (H _ Hin). cbn in H.
  apply existsb_exists in H. destruct H as (p0 & Hp0 & He0).
  unfold local_index, id2i_fun. destruct (find _ lmap) eqn:Ef; [reflexivity|].
  exfalso. apply (find_none _ _ Ef) in Hp0. congruence.
Qed.

Lemma i2id_local ids j p : i2id_fun ids j S_local p = nth (N.to_nat p) (WV.Proofs.Names.locals_vec ids j) 4294967295%N.
Proof. reflexivity. Qed.

Lemma nth_seq_ids base n p d : p < n -> nth p (map N.of_nat (seq base n)) d = N.of_nat (base + p).
Proof. intros Hp. exact (nth_error_nth _ _ d (WV.Proofs.ModFix11.nth_error_seq_ids base n p Hp)). Qed.

Lemma lmap_index_bound ty args used decls lmap id i :
  emit_locals ty args used = (decls, lmap) -> local_index lmap id = Some i ->
  N.to_nat i < length args + length (expand_locals decls).
Proof.
  intros E Hi. apply (WV.Proofs.Locals3.lookup_some_in lmap id i) in Hi.
  destruct (WV.Proofs.ModFix11.emit_locals_decls_grouped ty _ _ _ _ E) as (_ & _ & Hex & _ & _ & _ & _ & Hm).
  rewrite Hm, <- app_length in Hi. apply WV.Proofs.Order.in_combine_seq in Hi. destruct Hi as (k & Hk & ->).
  assert (k < length (args ++ WV.Proofs.ModFix11.grouped ty args used)) by (apply nth_error_Some; congruence).
  rewrite app_length in H. rewrite Hex, map_length. cbn [Nat.add]. rewrite Nat2N.id. exact H.
Qed.

Lemma parsed_args_NoDup cf ver w s id f lf :
  parseM cf ver w = POk s -> aget (m_funcs (ps_m s)) id = Some f -> fn_kind f = FK_Local lf -> NoDup (lf_args lf).
Proof.
  intros P Hg Hk. destruct (local_function_body _ _ _ _ _ _ _ P Hg Hk) as (s0 & k & b & t & ety & _ & _ & _ & _ & _ & _ & _ & _ & _ & base & -> & _).
  apply WV.Proofs.Order.StronglySorted_lt_NoDup, WV.Proofs.ModFix11.seq_ids_sorted.
Qed.

Lemma second_emit_locals cf ver w ilen s1 e1 s2 e2 id j f1 lf1 ef1 f2 lf2 ef2 :
  two_trips cf ver w ilen s1 e1 s2 e2 -> valid_stream w -> W_holds ilen s1 e1 s2 -> params_kept s1 e1 s2 ->
  aget (m_funcs (ps_m s1)) id = Some f1 -> fn_kind f1 = FK_Local lf1 ->
  get_idx (em_x2i e1) S_func id = Ok j ->
  aget (m_funcs (ps_m s2)) j = Some f2 -> fn_kind f2 = FK_Local lf2 ->
  emit_function (ps_m s1) (em_x2i e1) ilen id lf1 = Ok ef1 ->
  emit_function (ps_m s2) (em_x2i e2) ilen j lf2 = Ok ef2 ->
  exists evs1 decls lmap1 base2 n,
    lf_log lf1 = Ok evs1 /\
    refs_ok (em_x2i e1) lmap1 evs1 = true /\
    emit_locals (local_ty_fn (ps_m s1)) (lf_args lf1) (used_of_log evs1) = (decls, lmap1) /\
    wb_locals (ef_body ef1) = decls /\ ef_lmap ef1 = lmap1 /\
    n = length (lf_args lf1) + length (expand_locals decls) /\
    WV.Proofs.Names.locals_vec (ps_ids s2) j = map N.of_nat (seq base2 n) /\
    lf_args lf2 = map N.of_nat (seq base2 (length (lf_args lf1))) /\
    wb_locals (ef_body ef2) = decls /\
    ef_lmap ef2 = combine (map N.of_nat (seq base2 n)) (map N.of_nat (seq 0 n)) /\
    NoDup (ef_used ef2) /\
    (forall x, In x (ef_used ef2) <-> In x (map N.of_nat (seq base2 n))).
Proof.
  intros TT V HW PK Hg1 Hk1 Hj Hg2 Hk2 He1' He2. pose proof TT as (P1 & E1 & P2 & E2).
  destruct (emitM_x2i _ _ _ _ E1) as (fs1 & Hfs1 & _).
  destruct (second_trip_functions _ _ _ _ _ _ _ _ _ TT Hfs1 _ _ _ _ _ _ Hj Hg1 Hk1 Hg2 Hk2)
    as (k & ef1' & t2 & ety2 & _ & _ & Hbk & Hjk & He1 & Ht2 & Hety2 & Hen2 & Hpb2 & base2 & Hargs2 & Hlv2).
  rewrite He1' in He1. injection He1 as <-.
  destruct (first_trip_function _ _ _ _ _ _ _ _ _ _ V P1 Hg1 Hk1 He1')
    as (t & ety & l & eloc & evs & decls & lmap & st & A1 & A2 & A3 & A4 & A5 & A6 & A7 & A8 & A9 & A10).
  specialize (HW _ _ _ _ _ Hg1 Hk1 Hj He1'). rewrite A9 in HW, Hpb2, Hlv2. cbn [wb_ops wb_locals] in HW, Hpb2, Hlv2.
  destruct (emit_function_inv _ _ _ _ _ _ He2) as (evs2 & decls2 & lmap2 & st2 & B1 & B2 & B3 & B4 & B5 & _ & B7 & _ & B9).
  pose proof (PK _ _ _ _ _ _ _ Hg1 Hk1 Hj Hg2 Hk2 Ht2) as Hnp.
  (* the used set of the second body *)
  pose proof B1 as B1'. unfold lf_log in B1'. rewrite Hen2 in B1'.
  pose proof A5 as A5'. unfold lf_log in A5'. rewrite A4 in A5'.
  fold (cx_of s2 j) in Hpb2.
  pose proof (WV.Proofs.ModFix14.second_used_W _ _ _ _ _ _ _ _ _ _ (cx_of s2 j) ety2 (ty_results t2) (lf_arena lf2) _ _
                A2 A3 A8 HW Hpb2 B1') as Hu2.
  destruct (WV.Proofs.ModFix10.emitted_ops_structured _ _ _ _ _ _ _ _ _ _ A2 (WV.Proofs.ModFix10.enc_ok_all _ _) A3 A8)
    as (eloc1 & _ & _ & _ & _ & Hfst & _).
  destruct (WV.Proofs.ModFix10.trip_locals _ _ _ _ _ _ _ _ _ _ _ _ A2 (WV.Proofs.ModFix10.enc_ok_all _ _) A3 A8 A5') as (Hsel & _).
  cbv zeta in Hu2. rewrite Hfst, Hsel, map_map in Hu2. cbn [px_i2id cx_of ex_id2i ecx_of] in Hu2.
  pose proof (parsed_args_NoDup _ _ _ _ _ _ _ P1 Hg1 Hk1) as ND.
  (* the types of the second function's locals *)
  destruct (local_function_locals _ _ _ _ _ _ _ P2 Hg2 Hk2) as (k' & b & t2' & Hb & Hjk' & Ht2' & _ & Htys & _ & _).
  rewrite Ht2 in Ht2'. injection Ht2' as <-.
  pose proof (second_funcs_count _ _ _ _ _ _ _ E1 P2 Hfs1) as Hcnt.
  destruct (emit_code_payload _ _ _ _ E1 Hfs1) as (_ & _ & _ & Hlen).
  rewrite Hcnt, Hlen in Hjk'. assert (k' = k) by lia. subst k'. rewrite Hbk in Hb. injection Hb as <-.
  rewrite A9 in Htys. cbn [wb_locals] in Htys. rewrite Hlv2 in Htys.
  set (na := length (lf_args lf1)) in *.
  assert (Hty : forall j0 t0, nth_error (expand_locals decls) j0 = Some t0 ->
            local_ty_fn (ps_m s2) (N.of_nat (base2 + na + j0)) = t0).
  { intros j0 t0 Hn.
    assert (Hlt : j0 < length (expand_locals decls)) by (apply nth_error_Some; congruence).
    assert (G : nth_error (map (local_ty_fn (ps_m s2)) (map N.of_nat (seq base2 (length (ty_params t2) + length (expand_locals decls))))) (na + j0) = Some t0).
    { rewrite Htys, nth_error_app2 by lia. rewrite Hnp. now replace (na + j0 - na) with j0 by lia. }
    rewrite nth_error_map, WV.Proofs.ModFix11.nth_error_seq_ids in G by lia. injection G as <-. f_equal. f_equal. lia. }
  assert (Hg : forall id0 i, local_index lmap id0 = Some i ->
            i2id_fun (ps_ids s2) j S_local (id2i_fun (em_x2i e1) lmap S_local id0) = N.of_nat (base2 + N.to_nat i)).
  { intros id0 i Hi. rewrite (id2i_local _ _ _ _ Hi), i2id_local, Hlv2. apply nth_seq_ids.
    pose proof (lmap_index_bound _ _ _ _ _ _ _ A6 Hi). fold na in H. lia. }
  assert (Hu : forall x, In x (used_of_log evs2) <->
            exists id0 i, In id0 (used_of_log evs) /\ local_index lmap id0 = Some i /\ x = N.of_nat (base2 + N.to_nat i)).
  { intros x. rewrite Hu2, in_map_iff. split.
    - intros (id0 & <- & Hin). pose proof (refs_ok_local _ _ _ _ A7 (proj1 (used_of_log_in _ _) Hin)) as Hi.
      exists id0, (id2i_fun (em_x2i e1) lmap S_local id0). split; [exact Hin|]. split; [exact Hi|]. now apply Hg.
    - intros (id0 & i & Hin & Hi & ->). exists id0. split; auto. }
  pose proof (WV.Proofs.ModFix11.emit_locals_fixpoint_renamed _ _ _ _ _ (local_ty_fn (ps_m s2)) base2 (used_of_log evs2) ND A6 Hty Hu) as F.
  cbv zeta in F. fold na in F.
  pose proof (WV.Proofs.ModFix11.fx_order (lf_args lf1) decls base2) as Ho. cbv zeta in Ho. fold na in Ho.
  rewrite Ho in F.
  pose proof (WV.Proofs.Order.locals_slots_exact _ _ _ _ _ F) as Hs.
  rewrite WV.Proofs.Order.map_fst_combine in Hs by (now rewrite !map_length, !seq_length).
  rewrite Hargs2, Hnp in B2, B9. fold na in B2, B9. rewrite F in B2. injection B2 as <- <-.
  exists evs, decls, lmap, base2, (na + length (expand_locals decls)).
  rewrite A9, B5, A10, B7. cbn [wb_locals]. rewrite Hnp in Hlv2, Hargs2.
  split; [exact A5|]. split; [exact A7|]. split; [exact A6|]. split; [reflexivity|]. split; [reflexivity|].
  split; [reflexivity|]. split; [exact Hlv2|]. split; [exact Hargs2|]. split; [reflexivity|]. split; [reflexivity|].
  rewrite B9. split.
  - apply WV.Proofs.Order.StronglySorted_lt_NoDup, WV.Proofs.Order.sort_ids_sorted.
  - intros x. rewrite WV.Proofs.Order.sort_ids_members, in_app_iff, Hs. tauto.
Qed.

Theorem D_holds_proved cf ver w ilen s1 e1 s2 e2 :
  two_trips cf ver w ilen s1 e1 s2 e2 -> valid_stream w -> W_holds ilen s1 e1 s2 -> params_kept s1 e1 s2 ->
  D_holds ilen s1 e1 s2 e2.
Proof.
  intros TT V HW PK id j f1 lf1 ef1 f2 lf2 ef2 Hg1 Hk1 Hj Hg2 Hk2 He1 He2.
  destruct (second_emit_locals _ _ _ _ _ _ _ _ _ _ _ _ _ _ _ _ TT V HW PK Hg1 Hk1 Hj Hg2 Hk2 He1 He2)
    as (evs1 & decls & lmap1 & base2 & n & _ & _ & _ & D1 & _ & _ & _ & _ & D2 & _).
  congruence.
Qed.

Theorem Lidx_holds_proved cf ver w ilen s1 e1 s2 e2 :
  two_trips cf ver w ilen s1 e1 s2 e2 -> valid_stream w -> W_holds ilen s1 e1 s2 -> params_kept s1 e1 s2 ->
  Lidx_holds ilen s1 e1 s2 e2.
Proof.
  intros TT V HW PK id j f1 lf1 ef1 f2 lf2 ef2 evs1' lid Hg1 Hk1 Hj Hg2 Hk2 He1 He2 Hlog Hin.
  destruct (second_emit_locals _ _ _ _ _ _ _ _ _ _ _ _ _ _ _ _ TT V HW PK Hg1 Hk1 Hj Hg2 Hk2 He1 He2)
    as (evs1 & decls & lmap1 & base2 & n & L1 & L2 & L3 & _ & L5 & L6 & L7 & _ & _ & L10 & _).
  rewrite Hlog in L1. injection L1 as <-. rewrite L5, L10.
  pose proof (refs_ok_local _ _ _ _ L2 Hin) as Hp.
  set (p := id2i_fun (em_x2i e1) lmap1 S_local lid) in *.
  pose proof (lmap_index_bound _ _ _ _ _ _ _ L3 Hp) as Hb. rewrite <- L6 in Hb.
  rewrite i2id_local, L7, (nth_seq_ids _ _ _ _ Hb).
  rewrite (id2i_local _ _ _ _ (WV.Proofs.ModFix11.seq_combine_index base2 n (N.to_nat p) Hb)). apply N2Nat.id.
Qed.

(* the same without the (W) premise (ModFix15.W_holds_V) *)
Corollary D_holds_V cf ver w ilen s1 e1 s2 e2 :
  two_trips cf ver w ilen s1 e1 s2 e2 -> valid_stream w -> params_kept s1 e1 s2 -> D_holds ilen s1 e1 s2 e2.
Proof. intros TT V PK. eapply D_holds_proved; eauto. eapply W_holds_V; eauto. Qed.
Corollary Lidx_holds_V cf ver w ilen s1 e1 s2 e2 :
  two_trips cf ver w ilen s1 e1 s2 e2 -> valid_stream w -> params_kept s1 e1 s2 -> Lidx_holds ilen s1 e1 s2 e2.
Proof. intros TT V PK. eapply Lidx_holds_proved; eauto. eapply W_holds_V; eauto. Qed.

Lemma Forall2_nth_r {A B} (R : A -> B -> Prop) l1 l2 : Forall2 R l1 l2 ->
  forall k b, nth_error l2 k = Some b -> exists a, nth_error l1 k = Some a /\ R a b.
Proof.
  induction 1 as [|x y l1 l2 Hxy HF IH]; intros k b Hk; [destruct k; discriminate|].
  destruct k as [|k]; cbn in Hk |- *; [inversion Hk; subst; eauto|]. now apply IH.
Qed.

(* the per-emitted-function part (fifth conjunct) of ModFix7.locals_identity *)
(* an emitted function of the second module comes from a local function [id] of the first, emitted at the index [fid] *)
Lemma second_fn_source cf ver w ilen s1 e1 s2 e2 fid ef2 :
  two_trips cf ver w ilen s1 e1 s2 e2 -> In ef2 (em_fns e2) -> ef_id ef2 = fid ->
  exists id f1 lf1 ef1 f2 lf2 k,
    aget (m_funcs (ps_m s1)) id = Some f1 /\ fn_kind f1 = FK_Local lf1 /\ get_idx (em_x2i e1) S_func id = Ok fid /\
    aget (m_funcs (ps_m s2)) fid = Some f2 /\ fn_kind f2 = FK_Local lf2 /\ nth_error (em_fns e1) k = Some ef1 /\
    emit_function (ps_m s1) (em_x2i e1) ilen id lf1 = Ok ef1 /\ emit_function (ps_m s2) (em_x2i e2) ilen fid lf2 = Ok ef2.
Proof.
  intros TT Hin Hid. pose proof TT as (P1 & E1 & P2 & E2).
  destruct (emitM_x2i _ _ _ _ E2) as (fs2 & Hfs2 & _).
  destruct (emit_code_payload _ _ _ _ E2 Hfs2) as (_ & F2 & _ & _).
  destruct (In_nth_error _ _ Hin) as (k2 & Hk2n).
  destruct (Forall2_nth_r _ _ _ F2 _ _ Hk2n) as ([fid' lf2] & Hp2 & Hem). cbn [fst snd] in Hem.
  destruct (emit_function_inv _ _ _ _ _ _ Hem) as (_ & _ & _ & _ & _ & _ & _ & _ & _ & Hid' & _).
  rewrite Hid in Hid'. subst fid'.
  destruct (ulf_in _ _ _ _ Hfs2 (nth_error_In _ _ Hp2)) as (f2 & Hin2 & Hkind2).
  apply WV.Proofs.Totality.aiter_aget in Hin2.
  (* it is the k-th declared function; so is the one it came from *)
  destruct (emitM_x2i _ _ _ _ E1) as (fs1 & Hfs1 & _).
  destruct (emit_code_payload _ _ _ _ E1 Hfs1) as (_ & _ & _ & Hlen).
  pose proof (second_funcs_count _ _ _ _ _ _ _ E1 P2 Hfs1) as Hcnt. rewrite imported_funcs_eq in Hcnt.
  destruct (local_function_body _ _ _ _ _ _ _ P2 Hin2 Hkind2) as (s0 & k & b & t & ety & _ & _ & Hb & _ & Hjk & _).
  rewrite Hcnt, Hlen in Hjk.
  assert (Hk : k < length fs1) by (rewrite <- Hlen; apply nth_error_Some; congruence).
  destruct (nth_error fs1 k) as [[id lf1]|] eqn:Hp; [|apply nth_error_None in Hp; lia].
  destruct (fs1_nth _ _ _ _ _ _ _ _ _ _ _ _ TT Hfs1 Hp) as ((f1 & Hg1 & Hk1) & Hj & _).
  assert (Ej : N.of_nat (length (imported_funcs (ps_m s1)) + k) = fid) by lia. rewrite Ej in Hj.
  destruct (second_trip_functions _ _ _ _ _ _ _ _ _ TT Hfs1 _ _ _ _ _ _ Hj Hg1 Hk1 Hin2 Hkind2)
    as (k' & ef1 & t2 & ety2 & _ & Hef1 & _ & _ & He1 & _).
  exists id, f1, lf1, ef1, f2, lf2, k'. repeat split; assumption.
Qed.

Theorem locals_identity_ef cf ver w ilen s1 e1 s2 e2 :
  two_trips cf ver w ilen s1 e1 s2 e2 -> valid_stream w -> params_kept s1 e1 s2 ->
  forall fid ef, find (fun ef0 : emitted_fn => (ef_id ef0 =? fid)%N) (em_fns e2) = Some ef ->
    NoDup (ef_used ef) /\
    (forall lid, In lid (ef_used ef) <-> In lid (WV.Proofs.Names.locals_vec (ps_ids s2) fid)) /\
    (forall p lid, nth_error (WV.Proofs.Names.locals_vec (ps_ids s2) fid) p = Some lid ->
       exists q : N * N, find (fun q0 : N * N => (fst q0 =? lid)%N) (ef_lmap ef) = Some q /\ snd q = N.of_nat p).
Proof.
  intros TT V PK fid ef Hf. pose proof (W_holds_V _ _ _ _ _ _ _ _ TT V) as HW.
  apply find_some in Hf. destruct Hf as (Hin & Hid). apply N.eqb_eq in Hid.
  destruct (second_fn_source _ _ _ _ _ _ _ _ _ _ TT Hin Hid)
    as (id & f1 & lf1 & ef1 & f2 & lf2 & k & Hg1 & Hk1 & Hj & Hin2 & Hkind2 & _ & He1 & Hem).
  destruct (second_emit_locals _ _ _ _ _ _ _ _ _ _ _ _ _ _ _ _ TT V HW PK Hg1 Hk1 Hj Hin2 Hkind2 He1 Hem)
    as (evs1 & decls & lmap1 & base2 & n & _ & _ & _ & _ & _ & _ & L7 & _ & _ & L10 & L11 & L12).
  split; [exact L11|]. split; [intros lid; rewrite L7; apply L12|].
  intros p lid Hn. rewrite L7 in Hn.
  apply WV.Proofs.ModFix11.nth_error_seq_ids_inv in Hn. destruct Hn as [Hpn ->].
  pose proof (WV.Proofs.ModFix11.seq_combine_index base2 n p Hpn) as Hi. rewrite <- L10 in Hi. unfold local_index in Hi.
  destruct (find _ (ef_lmap ef)) as [q|]; [|discriminate]. exists q. split; [reflexivity|]. now injection Hi.
Qed.

(* the four module-wide conjuncts of ModFix7.locals_identity that are facts about the second PARSE alone
   (disjoint, duplicate-free, live local vectors that exist only for emitted local functions): NAMED premise *)
Definition locals_struct (s2 : pst) (e2 : emitted) : Prop :=
  let ids := ps_ids s2 in let m := ps_m s2 in
  (forall fid fid' lid, In lid (WV.Proofs.Names.locals_vec ids fid) -> In lid (WV.Proofs.Names.locals_vec ids fid') -> fid = fid') /\
  (forall fid, NoDup (WV.Proofs.Names.locals_vec ids fid)) /\
  (forall fid lid, In lid (WV.Proofs.Names.locals_vec ids fid) -> exists lo, aget (m_locals m) lid = Some lo) /\
  (forall fid, WV.Proofs.Names.locals_vec ids fid <> [] ->
     exists f ef, In (fid, f) (aiter (m_funcs m)) /\ find (fun ef0 : emitted_fn => (ef_id ef0 =? fid)%N) (em_fns e2) = Some ef).

Theorem locals_identity_proved cf ver w ilen s1 e1 s2 e2 :
  two_trips cf ver w ilen s1 e1 s2 e2 -> valid_stream w -> params_kept s1 e1 s2 -> locals_struct s2 e2 ->
  WV.Proofs.ModFix7.locals_identity s2 e2.
Proof.
  intros TT V PK (S1 & S2 & S3 & S4). unfold WV.Proofs.ModFix7.locals_identity. cbv zeta.
  split; [exact S1|]. split; [exact S2|]. split; [exact S3|]. split; [exact S4|].
  intros fid ef Hf. exact (locals_identity_ef _ _ _ _ _ _ _ _ TT V PK fid ef Hf).
Qed.

(* the local-name maps written by the first emit are canonical for the second parse *)
Definition local_names_on (m : wir) (e : emitted_fn) (used : list N) : list (N * str) :=
  flat_map (fun lid => match aget (m_locals m) lid with
                       | Some lo => match lo_name lo, find (fun q : N * N => N.eqb (fst q) lid) (ef_lmap e) with
                                    | Some n, Some q => [(snd q, n)] | _, _ => [] end
                       | None => [] end) used.
Definition local_names_of (m : wir) (e : emitted_fn) : list (N * str) := local_names_on m e (ef_used e).

Lemma emit_names_locals_field m x efs secs : emit_names m x efs = Ok secs ->
  exists r, rmapM (fun p : N * mfunc =>
              match find (fun e => N.eqb (ef_id e) (fst p)) efs with
              | None => Ok []
              | Some e => match local_names_of m e with
                          | [] => Ok []
                          | _ => fi <- get_idx x S_func (fst p) ;; Ok [(fi, sort_nm (local_names_of m e))] end
              end) (aiter (m_funcs m)) = Ok r /\
    wn_locals (WV.Proofs.Names.names_of secs) = sort_nm (concat r).
Proof.
  unfold emit_names. intros H.
  rinv H as funcs E1. rinv H as locals E2. rinv H as types E3. rinv H as tables E4. rinv H as mems E5.
  rinv H as globals E6. rinv H as elems E7. rinv H as data E8.
  exists locals. split; [exact E2|].
  destruct (m_name m); [inversion H; subst; reflexivity|].
  destruct funcs; [|inversion H; subst; reflexivity].
  destruct (sort_nm (concat locals)) eqn:ES; [|inversion H; subst; reflexivity].
  destruct types; [|inversion H; subst; reflexivity].
  destruct tables; [|inversion H; subst; reflexivity].
  destruct mems; [|inversion H; subst; reflexivity].
  destruct globals; [|inversion H; subst; reflexivity].
  destruct elems; [|inversion H; subst; reflexivity].
  destruct data; inversion H; subst; reflexivity.
Qed.

Lemma local_names_fst m e used p : In p (map fst (local_names_on m e used)) ->
  exists lid, In lid used /\ local_index (ef_lmap e) lid = Some p.
Proof.
  unfold local_names_on. rewrite in_map_iff. intros ([p' n] & <- & Hin). apply in_flat_map in Hin.
  destruct Hin as (lid & Hu & Hin). exists lid. split; [exact Hu|].
  destruct (aget (m_locals m) lid) as [lo|]; [|destruct Hin]. destruct (lo_name lo); [|destruct Hin].
  revert Hin. unfold local_index. destruct (find _ (ef_lmap e)) as [q|]; intros Hin; [|destruct Hin].
  destruct Hin as [Hq|[]]. inversion Hq; subst. reflexivity.
Qed.

Lemma local_names_NoDup m e : NoDup (ef_used e) ->
  (forall l1 l2 j, local_index (ef_lmap e) l1 = Some j -> local_index (ef_lmap e) l2 = Some j -> l1 = l2) ->
  NoDup (map fst (local_names_of m e)).
Proof.
  unfold local_names_of. intros ND Hinj. induction ND as [|a l Ha ND IH]; [constructor|].
  change (a :: l) with ([a] ++ l). unfold local_names_on in *. rewrite flat_map_app, map_app. apply WV.Proofs.Order.NoDup_app_intro; [|exact IH|].
  - cbn. destruct (aget (m_locals m) a) as [lo|]; [|constructor]. destruct (lo_name lo); [|constructor].
    destruct (find _ (ef_lmap e)); cbn; [|constructor]. constructor; [intros []|constructor].
  - intros p H1 H2. apply (local_names_fst m e) in H1, H2. destruct H1 as (a' & [<-|[]] & Ha'), H2 as (lid & Hu & Hl).
    rewrite (Hinj _ _ _ Ha' Hl) in Ha. contradiction.
Qed.

Theorem locals_canon_proved cf ver w ilen s1 e1 s2 e2 :
  two_trips cf ver w ilen s1 e1 s2 e2 -> valid_stream w -> params_kept s1 e1 s2 ->
  WV.Proofs.ModFix7.locals_canon s2 (WV.Proofs.ModFix7.stream_names (em_secs e1)).
Proof.
  intros TT V PK fi names Hin. pose proof TT as (P1 & E1 & P2 & E2). pose proof (W_holds_V _ _ _ _ _ _ _ _ TT V) as HW.
  destruct (WV.Proofs.ModFix7.emitM_name_payload _ _ _ E1) as (s_nm & Hn & Hpay & _).
  destruct (cf_skip_name (m_config (ps_m s1))) eqn:Sk.
  { subst s_nm. unfold WV.Proofs.ModFix7.stream_names in Hin. rewrite Hpay in Hin. cbn in Hin. destruct Hin. }
  pose proof (WV.Proofs.Names.emit_names_fields _ _ _ _ Hn) as (_ & _ & _ & _ & _ & _ & _ & _ & Hshape).
  rewrite (WV.Proofs.ModFix7.stream_names_of _ _ Hpay Hshape) in Hin.
  destruct (emit_names_locals_field _ _ _ _ Hn) as (r & Hr & Hl). rewrite Hl in Hin.
  eapply Permutation_in in Hin; [|apply WV.Proofs.Order.sort_nm_perm]. apply in_concat in Hin. destruct Hin as (piece & Hp & Hin).
  apply (proj1 (WV.Proofs.Escalation.rmapM_In _ _ _ Hr _)) in Hp. destruct Hp as ([pid pf] & Hpa & Hpe). cbn [fst] in Hpe.
  destruct (find (fun e : emitted_fn => (ef_id e =? pid)%N) (em_fns e1)) as [e|] eqn:Hf; [|inversion Hpe; subst; destruct Hin].
  destruct (local_names_of (ps_m s1) e) as [|x0 l0] eqn:Hln; [inversion Hpe; subst; destruct Hin|].
  rinv Hpe as j Hj. inversion Hpe; subst piece; clear Hpe. destruct Hin as [Hq|[]]. inversion Hq; subst fi names; clear Hq.
  rewrite <- Hln. clear Hln x0 l0.
  apply find_some in Hf. destruct Hf as (Hine & Hid). apply N.eqb_eq in Hid.
  destruct (emitM_x2i _ _ _ _ E1) as (fs1 & Hfs1 & _).
  destruct (emit_code_payload _ _ _ _ E1 Hfs1) as (_ & F1 & _ & _).
  destruct (In_nth_error _ _ Hine) as (k & Hk).
  destruct (Forall2_nth_r _ _ _ F1 _ _ Hk) as ([pid' lf1] & Hp1 & Hem1). cbn [fst snd] in Hem1.
  destruct (emit_function_inv _ _ _ _ _ _ Hem1) as (evs0 & decls0 & lmap0 & st0 & _ & _ & _ & _ & _ & Hid' & _ & _ & B9).
  rewrite Hid in Hid'. subst pid'.
  destruct (fs1_nth _ _ _ _ _ _ _ _ _ _ _ _ TT Hfs1 Hp1) as ((f1 & Hg1 & Hk1) & Hj' & (f2 & lf2 & Hg2 & Hk2)).
  rewrite Hj in Hj'. injection Hj' as Ej. rewrite <- Ej in Hg2.
  destruct (emitM_x2i _ _ _ _ E2) as (fs2 & Hfs2 & _).
  destruct (emit_code_payload _ _ _ _ E2 Hfs2) as (_ & F2 & _ & _).
  destruct (used_local_functions_ids _ _ Hfs2) as (_ & Hids).
  assert (Hj2 : In j (map fst fs2)).
  { apply Hids. exists f2, lf2. split; [apply WV.Proofs.Totality.aiter_aget; exact Hg2|exact Hk2]. }
  apply in_map_iff in Hj2. destruct Hj2 as ([j' lf2'] & Ej' & Hin2). cbn [fst] in Ej'. subst j'.
  destruct (In_nth_error _ _ Hin2) as (k2 & Hk2n).
  destruct (Forall2_nth_l _ _ _ _ _ F2 Hk2n) as (ef2 & _ & Hem2). cbn [fst snd] in Hem2.
  destruct (ulf_in _ _ _ _ Hfs2 Hin2) as (f2' & Hin2' & Hk2').
  apply WV.Proofs.Totality.aiter_aget in Hin2'.
  destruct (second_emit_locals _ _ _ _ _ _ _ _ _ _ _ _ _ _ _ _ TT V HW PK Hg1 Hk1 Hj Hin2' Hk2' Hem1 Hem2)
    as (evs1 & decls & lmap1 & base2 & n & _ & _ & L3 & _ & L5 & L6 & L7 & _).
  pose proof (parsed_args_NoDup _ _ _ _ _ _ _ P1 Hg1 Hk1) as ND.
  split.
  - apply WV.Proofs.Names.le_sorted_NoDup_lt; [apply WV.Proofs.Order.sort_nm_sorted|].
    eapply Permutation_NoDup; [apply Permutation_sym, Permutation_map, WV.Proofs.Order.sort_nm_perm|].
    apply local_names_NoDup.
    + rewrite B9. apply WV.Proofs.Order.StronglySorted_lt_NoDup, WV.Proofs.Order.sort_ids_sorted.
    + rewrite L5. intros l1 l2 i H1 H2.
      exact (proj1 (WV.Proofs.Locals3.locals_injective _ _ _ _ _ ND L3) l1 l2 i H1 H2).
  - intros p Hp. eapply Permutation_in in Hp; [|apply Permutation_map, WV.Proofs.Order.sort_nm_perm].
    apply local_names_fst in Hp. destruct Hp as (lid & _ & Hi). rewrite L5 in Hi.
    rewrite L7, map_length, seq_length, L6. exact (lmap_index_bound _ _ _ _ _ _ _ L3 Hi).
Qed.

Lemma pk_types_get cf ver w s id : parseM cf ver w = POk s ->
  types_get (ps_m s) id = nth_error (items (Arena.arena (m_types (ps_m s)))) (N.to_nat id).
Proof.
  intros P. pose proof (parseM_ids _ _ _ _ P) as Hid. unfold types_get. apply aset_index_nodead.
  unfold ids_consistent in Hid. decompose [and] Hid. assumption.
Qed.

(* the stronger fact: the signature of the function's type survives the round trip *)
Theorem sig_kept : forall cf ver w ilen s1 e1 s2 e2, two_trips cf ver w ilen s1 e1 s2 e2 ->
  forall id j f1 lf1 f2 lf2 t1 t2, aget (m_funcs (ps_m s1)) id = Some f1 -> fn_kind f1 = FK_Local lf1 ->
    get_idx (em_x2i e1) S_func id = Ok j -> aget (m_funcs (ps_m s2)) j = Some f2 -> fn_kind f2 = FK_Local lf2 ->
    types_get (ps_m s1) (lf_ty lf1) = Some t1 -> types_get (ps_m s2) (lf_ty lf2) = Some t2 ->
    ty_params t2 = ty_params t1 /\ ty_results t2 = ty_results t1.
Proof.
  intros cf ver w ilen s1 e1 s2 e2 (P1 & E1 & P2 & E2) id j f1 lf1 f2 lf2 t1 t2 G1 K1 Hj G2 K2 T1 T2.
  rewrite (pk_types_get _ _ _ _ _ P1) in T1. rewrite (pk_types_get _ _ _ _ _ P2) in T2.
  apply aget_nth in G1. apply aget_nth in G2.
  destruct (emit_func_decl _ _ _ _ E1 WV.Proofs.ModFix3.dw_custom_nil _ _ _ Hj G1) as (tj & Htj & Hty).
  unfold func_ty in Hty. rewrite K1 in Hty.
  destruct (emit_type_decl _ _ _ _ E1 WV.Proofs.ModFix3.dw_custom_nil _ _ Hty) as (ty & Hty1 & HO).
  rewrite T1 in Hty1. inversion Hty1; subst ty; clear Hty1. unfold out_types in HO.
  destruct (parseM_sigs _ _ _ _ P2) as [[_ HT] HF]. unfold FInv in HF. fold (out_ftys e1) in HF.
  destruct (Forall2_nth_l _ _ _ _ _ HF Htj) as (c & Hc & Hn).
  unfold K_fty in Hc. rewrite (map_nth_error fcore _ _ G2) in Hc. inversion Hc; subst c; clear Hc.
  rewrite fcore_ty in Hn. unfold func_ty in Hn. rewrite K2 in Hn.
  destruct (HT _ _ HO) as (id2 & ty2 & H1 & H2 & (S1 & S2 & _)).
  unfold nth_N in Hn. rewrite H1 in Hn. inversion Hn; subst id2; clear Hn.
  rewrite T2 in H2. inversion H2; subst ty2; clear H2. cbn [fst snd] in S1, S2. split; assumption.
Qed.

Theorem params_kept_holds : forall cf ver w ilen s1 e1 s2 e2, two_trips cf ver w ilen s1 e1 s2 e2 -> params_kept s1 e1 s2.
Proof.
  intros cf ver w ilen s1 e1 s2 e2 TT id j f1 lf1 f2 lf2 t2 G1 K1 Hj G2 K2 T2.
  pose proof TT as (P1 & _).
  destruct (local_function_body _ _ _ _ _ _ _ P1 G1 K1) as (s1' & k & b & t1 & ety & _ & _ & _ & _ & _ & T1 & _ & _ & _ & base & Ha & _).
  destruct (sig_kept _ _ _ _ _ _ _ _ TT _ _ _ _ _ _ _ _ G1 K1 Hj G2 K2 T1 T2) as [Sp _].
  rewrite Sp, Ha, map_length, seq_length. reflexivity.
Qed.

(* the local vectors of a parse: prepare_bodies only appends fresh ids to the vector of the function it prepares *)
Definition LI (m : wir) (ids : i2ids) : Prop :=
  (forall f lid, In lid (lvec (ii_locals ids) f) -> N.to_nat lid < length (items (m_locals m))) /\
  (forall f f' lid, In lid (lvec (ii_locals ids) f) -> In lid (lvec (ii_locals ids) f') -> f = f') /\
  (forall f, NoDup (lvec (ii_locals ids) f)).

Lemma in_fresh n0 k lid : In lid (map N.of_nat (seq n0 k)) -> n0 <= N.to_nat lid < n0 + k.
Proof. intros H. apply in_map_iff in H. destruct H as (x & <- & Hx). apply in_seq in Hx. rewrite Nat2N.id. lia. Qed.

Lemma add_locals_LI tys m ids fid pre m' ids' l :
  add_locals m ids fid tys pre = (m', ids', l) -> LI m ids -> LI m' ids'.
Proof.
  intros E (B & Dj & ND). destruct (add_locals_spec _ _ _ _ _ _ _ _ E) as (-> & Hty & _ & _ & Hv & Ho & _).
  set (n0 := length (items (m_locals m))) in *.
  assert (Hlen : length (items (m_locals m')) = n0 + length tys).
  { rewrite <- (map_length lo_ty), Hty, app_length, map_length. reflexivity. }
  assert (Hother : forall f, f <> fid -> lvec (ii_locals ids') f = lvec (ii_locals ids) f).
  { intros f Hf. unfold lvec. rewrite (Ho f Hf). reflexivity. }
  assert (Bnew : forall f lid, In lid (lvec (ii_locals ids') f) ->
                   (In lid (lvec (ii_locals ids) f)) \/ (f = fid /\ n0 <= N.to_nat lid < n0 + length tys)).
  { intros f lid H. destruct (N.eq_dec f fid) as [->|Hne].
    - rewrite Hv in H. apply in_app_or in H. destruct H as [H|H]; [left; exact H|right; split; [reflexivity|apply in_fresh; exact H]].
    - rewrite (Hother f Hne) in H. left. exact H. }
  split; [|split].
  - intros f lid H. rewrite Hlen. destruct (Bnew f lid H) as [H1|[_ H1]]; [specialize (B f lid H1); lia|lia].
  - intros f f' lid H H'. destruct (Bnew f lid H) as [H1|[-> H1]], (Bnew f' lid H') as [H2|[-> H2]].
    + eapply Dj; eauto.
    + specialize (B f lid H1). lia.
    + specialize (B f' lid H2). lia.
    + reflexivity.
  - intros f. destruct (N.eq_dec f fid) as [->|Hne]; [|rewrite (Hother f Hne); apply ND].
    rewrite Hv. apply WV.Proofs.Order.NoDup_app_intro; [apply ND| |].
    + apply WV.Proofs.Order.NoDup_map_inj; [apply Nat2N.inj|apply seq_NoDup].
    + intros x Hx Hx'. specialize (B fid x Hx). apply in_fresh in Hx'. lia.
Qed.

Lemma LI_locals m m' ids : m_locals m' = m_locals m -> LI m ids -> LI m' ids.
Proof. intros E (B & Dj & ND). split; [|split]; [rewrite E; exact B|exact Dj|exact ND]. Qed.

Lemma prepare_bodies_LI bs m ids ni i m' ids' ps :
  prepare_bodies m ids ni i bs = POk (m', ids', ps) -> LI m ids -> LI m' ids'.
Proof.
  intros E H. destruct (prepare_bodies_steps _ _ _ _ _ _ _ _ E) as (l & Hl & R).
  refine (run_steps_inv_on prepare_step LI _ l Hl _ _ _ _ H R).
  intros st m0 ids0 m1 ids1 Hst H0 E0. destruct st; try contradiction; cbn [do_step] in E0.
  - destruct (add_locals m0 ids0 fid [t] prefix) as [[m2 ids2] ls] eqn:Ea. injection E0 as <- <-.
    exact (add_locals_LI _ _ _ _ _ _ _ _ Ea H0).
  - destruct (types_insert m0 _) as [m2 tid] eqn:Et. injection E0 as <- <-.
    exact (LI_locals _ _ _ (types_insert_locals _ _ _ _ Et) H0).
Qed.

Lemma bounded_search (P : nat -> Prop) (dec : forall k, {P k} + {~ P k}) n :
  (exists k, k < n /\ P k) \/ (forall k, k < n -> ~ P k).
Proof.
  induction n as [|n IH]; [right; intros; lia|]. destruct IH as [(k & Hk & HP)|H]; [left; exists k; split; [lia|auto]|].
  destruct (dec n) as [Hn|Hn]; [left; exists n; split; [lia|auto]|].
  right. intros k Hk. destruct (Nat.eq_dec k n); [subst; auto|apply H; lia].
Qed.

Lemma optN_dec (a b : option N) : {a = b} + {a <> b}.
Proof. decide equality. apply N.eq_dec. Qed.

Lemma locals_vec_lvec ids fid : WV.Proofs.Names.locals_vec ids fid = lvec (ii_locals ids) fid.
Proof. unfold WV.Proofs.Names.locals_vec. rewrite locals_of_lfind. unfold lvec. destruct (lfind _ _); reflexivity. Qed.

Theorem parse_locals_struct cf ver w s ilen e :
  parseM cf ver w = POk s -> emitM (ps_m s) ilen [] = Ok e -> locals_struct s e.
Proof.
  intros E0 HE. pose proof E0 as E.
  apply parseM_shape in E. destruct E as (s1 & m1 & ids1 & prepared & m2 & E1 & E2 & E3 & Es).
  fold (pst0 cf) in E1. cbv zeta in Es.
  assert (IDC : ids_consistent (ps_m s1) (ps_ids s1)) by (eapply parse_secs_ids; [|exact E1]; apply idc_empty).
  pose proof (parse_secs_il _ _ _ E1) as IL. cbn in IL.
  pose proof (parse_secs_bodies_eq _ _ _ E1) as EB. cbn [ps_bodies pst0 app] in EB.
  pose proof (lo_secs _ _ _ E1) as LO. cbn [pst0 ps_m] in LO.
  destruct (prepare_bodies_locals _ _ _ _ _ _ _ _ E2) as (P1 & _ & P3 & P4 & P5).
  { destruct IDC as (-> & _). apply iota_NoDup. }
  { intros k fid0 _ _. rewrite IL. reflexivity. }
  assert (L0 : LI (ps_m s1) (ps_ids s1)).
  { unfold LI. rewrite IL. split; [|split]; cbn; intros; try contradiction. constructor. }
  pose proof (prepare_bodies_LI _ _ _ _ _ _ _ _ E2 L0) as (B & Dj & ND).
  pose proof (install_bodies_locals _ _ _ _ E3) as L2.
  destruct (fold_parse_names_same_tys ids1 (ps_names s1) m2) as [S1 S2]. rewrite L2 in S1, S2.
  assert (Eids : ps_ids s = ids1) by (rewrite Es; reflexivity).
  assert (Eloc : m_locals (ps_m s) = m_locals (fold_left (fun m n => parse_names m ids1 n) (ps_names s1) m2))
    by (rewrite Es; reflexivity).
  unfold locals_struct. cbv zeta. rewrite Eids.
  split; [|split; [|split]].
  - intros fid fid' lid. rewrite !locals_vec_lvec. apply Dj.
  - intros fid. rewrite locals_vec_lvec. apply ND.
  - intros fid lid. rewrite locals_vec_lvec. intros H. specialize (B _ _ H).
    rewrite Eloc. rewrite aget_nodead by (rewrite S2, P3, LO; reflexivity).
    destruct (nth_error _ (N.to_nat lid)) eqn:En; [eauto|].
    apply nth_error_None in En. rewrite <- (map_length lo_ty), S1, map_length in En. lia.
  - intros fid Hne. rewrite locals_vec_lvec in Hne.
    assert (Hk : exists k, k < length (ps_bodies s1) /\
                   fid_at (ps_ids s1) (len_N (iter (m_funcs (ps_m s1))) - len_N (ps_bodies s1)) 0 k = Some fid).
    { destruct (bounded_search (fun k => fid_at (ps_ids s1) (len_N (iter (m_funcs (ps_m s1))) - len_N (ps_bodies s1)) 0 k = Some fid)
                  (fun k => optN_dec _ _) (length (ps_bodies s1))) as [H|H]; [exact H|].
      exfalso. apply Hne. unfold lvec. rewrite (P4 fid H), IL. reflexivity. }
    destruct Hk as (k & Hk & Hfid).
    destruct (nth_error (ps_bodies s1) k) as [b|] eqn:Hb; [|apply nth_error_None in Hb; lia].
    pose proof Hb as Hb0. rewrite EB in Hb0.
    destruct (parsed_function_body _ _ _ _ _ _ E0 Hb0) as (fid' & f & lf & t & ety & Hfid' & Hg & Hkf & _).
    assert (fid' = fid).
    { pose proof IDC as IDC'. unfold ids_consistent in IDC'. destruct IDC' as (IF & _ & _ & _ & _ & _ & D & _).
      unfold fid_at in Hfid. rewrite N.add_0_r, IF in Hfid. apply nth_N_iota in Hfid.
      rewrite Eids, P1, IF, iota_length, <- EB in Hfid'.
      unfold len_N in Hfid. rewrite (iter_length_nodead _ D) in Hfid. lia. }
    subst fid'.
    destruct (emitM_x2i _ _ _ _ HE) as (fs & Hfs & _).
    destruct (emit_code_payload _ _ _ _ HE Hfs) as (_ & _ & Hids & _).
    destruct (used_local_functions_ids _ _ Hfs) as (_ & Hin).
    assert (Hi : In fid (map ef_id (em_fns e))).
    { rewrite Hids. apply Hin. exists f, lf. split; [apply WV.Proofs.Totality.aiter_aget; exact Hg|exact Hkf]. }
    apply in_map_iff in Hi. destruct Hi as (ef0 & He0 & Hin0).
    exists f. destruct (find (fun ef1 => (ef_id ef1 =? fid)%N) (em_fns e)) as [ef|] eqn:Ef.
    + exists ef. split; [apply WV.Proofs.Totality.aiter_aget; exact Hg|reflexivity].
    + exfalso. apply (find_none _ _ Ef) in Hin0. rewrite He0, N.eqb_refl in Hin0. discriminate.
Qed.

Theorem locals_struct_holds cf ver w ilen s1 e1 s2 e2 :
  two_trips cf ver w ilen s1 e1 s2 e2 -> locals_struct s2 e2.
Proof. intros (P1 & E1 & P2 & E2). eapply parse_locals_struct; eauto. Qed.

Print Assumptions D_holds_proved.
Print Assumptions Lidx_holds_proved.
Print Assumptions D_holds_V.
Print Assumptions Lidx_holds_V.
Print Assumptions locals_identity_ef.
Print Assumptions locals_identity_proved.
Print Assumptions locals_canon_proved.
Print Assumptions sig_kept.
Print Assumptions params_kept_holds.
Print Assumptions parse_locals_struct.
Print Assumptions locals_struct_holds.
