(* C08, module level fixpoint: the second parse cannot fail.  The boolean part of ParseTotal.valid_stream
   holds for an emitted stream: the section order and the final count clause outright, the per-section
   payload checks in the context reached given elem_ok / data_ok per segment and, for the globals, that no
   initialiser refers to its own global - which holds of a parsed module. *)
From Coq Require Import List NArith ZArith Bool Arith Lia Btauto.
Import ListNotations.
From WV Require Import Gen.Ops Model.Common Model.IR Model.Arena Model.Traversal Model.EmitFn Model.Locals
                       Model.ParseFn Model.ParseSpec Model.ModuleM Model.ParseM Model.EmitM Gen.Attrs.
From WV Require Import Proofs.Arena Proofs.Order Proofs.IndexMaps Proofs.CustomsCfg Proofs.Escalation Proofs.Structure Proofs.Structure2
                       Proofs.Totality Proofs.Renumbering Proofs.ParseTotal Proofs.ModFix Proofs.ModFix4 Proofs.ModFix2 Proofs.ModFix12.
Local Open Scope nat_scope.

Definition ctx_from (c : vctx) (w : list wsec) : vctx := fold_left cstep w c.
Definition ctx_after (w : list wsec) : vctx := ctx_from ctx0 w.

Definition pay_b (c : vctx) (s : wsec) : bool :=
  match s with
  | S_Imports l => forallb (import_ok c) l
  | S_Funcs l => forallb (fun ty => ltb_N ty (c_nt c)) l
  | S_Globals l => globals_ok (c_nf c) (c_globs c) l
  | S_Exports l => forallb (export_ok c) l
  | S_Start f => ltb_N f (c_nf c)
  | S_Elems l => forallb (elem_ok c) l
  | S_Data l => forallb (data_ok c) l && match c_dc c with Some n => length l =? n | None => true end
  | _ => true
  end.
Lemma valid_sec_b_split c s : valid_sec_b c s = order_ok c s && pay_b c s.
Proof. reflexivity. Qed.

Fixpoint order_b (last : nat) (w : list wsec) : bool :=
  match w with
  | [] => true
  | s :: r => match rank s with Some k => (last <? k) && order_b k r | None => order_b last r end
  end.
Fixpoint pays_b (c : vctx) (w : list wsec) : bool :=
  match w with [] => true | s :: r => pay_b c s && pays_b (cstep c s) r end.

Theorem valid_from_b_split : forall w c,
  valid_from_b c w = order_b (c_last c) w && pays_b c w && (c_nbodies (ctx_from c w) =? c_nloc (ctx_from c w)).
Proof.
  induction w as [|s r IH]; intros c; cbn [valid_from_b order_b pays_b ctx_from fold_left]; [reflexivity|].
  unfold ctx_from in IH. rewrite IH, valid_sec_b_split, c_last_cstep. unfold order_ok.
  destruct (rank s) as [k|]; btauto.
Qed.

Lemma pays_b_all : forall w c,
  (forall pre s post, w = pre ++ s :: post -> pay_b (ctx_from c pre) s = true) -> pays_b c w = true.
Proof.
  induction w as [|s r IH]; intros c H; [reflexivity|]. cbn [pays_b]. apply andb_true_iff. split.
  - apply (H [] s r). reflexivity.
  - apply IH. intros pre s' post E. apply (H (s :: pre) s' post). rewrite E. reflexivity.
Qed.
Lemma pays_b_app : forall a b c, pays_b c (a ++ b) = pays_b c a && pays_b (ctx_from c a) b.
Proof.
  induction a as [|s r IH]; intros b c; [reflexivity|]. cbn [app pays_b ctx_from fold_left].
  unfold ctx_from in IH. rewrite IH, andb_assoc. reflexivity.
Qed.

Lemma rank_tag s k : sec_tag s = Some k -> rank s = Some (S k).
Proof. destruct s; cbn [sec_tag rank]; intros [= <-]; reflexivity. Qed.
Lemma rank_untagged s : sec_tag s = None -> rank s = None.
Proof. destruct s; cbn [sec_tag rank]; try discriminate; reflexivity. Qed.
Lemma order_b_mono : forall w l l', l <= l' -> order_b l' w = true -> order_b l w = true.
Proof.
  induction w as [|s r IH]; intros l l' Hl H; [reflexivity|]. cbn [order_b] in *. destruct (rank s) as [k|]; [|eapply IH; eauto].
  apply andb_true_iff in H. destruct H as [H1 H2]. apply Nat.ltb_lt in H1. apply andb_true_iff. split; [apply Nat.ltb_lt; lia|exact H2].
Qed.
Lemma order_b_piece k p r last : tagged k p -> length p <= 1 -> last <= k -> order_b (S k) r = true -> order_b last (p ++ r) = true.
Proof.
  intros T L Hl H. destruct p as [|s [|s' p]]; [cbn [app]; eapply order_b_mono; [|exact H]; lia| |cbn [length] in L; lia].
  inversion T as [|? ? Hs _]; subst. cbn [app order_b]. rewrite (rank_tag _ _ Hs). apply andb_true_iff. split; [apply Nat.ltb_lt; lia|exact H].
Qed.
Lemma order_b_untagged : forall r l, (forall s, In s r -> sec_tag s = None) -> order_b l r = true.
Proof.
  induction r as [|s r IH]; intros l H; [reflexivity|]. cbn [order_b]. rewrite (rank_untagged s) by (apply H; left; reflexivity).
  apply IH. intros; apply H; right; assumption.
Qed.
Lemma order_b_pieces rest : (forall s, In s rest -> sec_tag s = None) -> forall ps a, Forall2 tagged (seq a (length ps)) ps ->
  Forall (fun p => length p <= 1) ps -> order_b a (fold_right (@app wsec) rest ps) = true.
Proof.
  intros R. induction ps as [|p ps IH]; intros a F L; cbn [fold_right length seq] in *; [apply order_b_untagged, R|].
  inversion F; subst. inversion L; subst. eapply order_b_piece; eauto.
Qed.

Theorem emitted_order_ok : forall m ilen e, emitM m ilen [] = Ok e -> order_b 0 (em_secs e) = true.
Proof.
  intros m ilen e He. pose proof (emit_stream_wf _ _ _ He) as Wf. emitM_kinds He. rewrite Esecs.
  apply (order_b_pieces rest Erest [s_ty; s_im; s_fn; fst (emit_tables m x3); fst (emit_memories m x4); s_gl; s_ex; s_st; s_el; s_dc; s_co; s_da] 0).
  - repeat (constructor; [assumption|]). constructor.
  - (* the k-th piece holds the sections of tag k, of which there is at most one *)
    apply Forall_nth. intros k d Hk. rewrite (nth_indep _ d [] Hk), <- Ekind. exact (stream_wf_once _ _ Wf Hk).
Qed.

Lemma cimp_fold_keep : forall l c, c_nt (fold_left cimp l c) = c_nt c /\ c_nloc (fold_left cimp l c) = c_nloc c /\
  c_nbodies (fold_left cimp l c) = c_nbodies c /\ c_dc (fold_left cimp l c) = c_dc c /\ c_ndata (fold_left cimp l c) = c_ndata c.
Proof.
  induction l as [|i r IH]; intros c; [repeat split|]. cbn [fold_left]. destruct (IH (cimp c i)) as (A & B & C & D & E).
  rewrite A, B, C, D, E. unfold cimp. destruct (wi_kind i); repeat split.
Qed.
Lemma ctx_nt : forall w c, c_nt (ctx_from c w) = c_nt c + length (flat_map types_of w).
Proof.
  induction w as [|s r IH]; intros c; [cbn; lia|]. cbn [ctx_from fold_left flat_map]. unfold ctx_from in IH. rewrite IH, app_length.
  unfold cstep, set_last. cbn [c_nt]. destruct s; cbn [cstep0 types_of c_nt length]; try lia.
  destruct (cimp_fold_keep is_ c) as (A & _). rewrite A. lia.
Qed.
Lemma ctx_nloc : forall w c, c_nloc (ctx_from c w) = c_nloc c + length (flat_map funcs_of w).
Proof.
  induction w as [|s r IH]; intros c; [cbn; lia|]. cbn [ctx_from fold_left flat_map]. unfold ctx_from in IH. rewrite IH, app_length.
  unfold cstep, set_last. cbn [c_nloc]. destruct s; cbn [cstep0 funcs_of c_nloc length]; try lia.
  destruct (cimp_fold_keep is_ c) as (_ & A & _). rewrite A. lia.
Qed.
Lemma ctx_nbodies : forall w c, c_nbodies (ctx_from c w) = c_nbodies c + length (flat_map code_of w).
Proof.
  induction w as [|s r IH]; intros c; [cbn; lia|]. cbn [ctx_from fold_left flat_map]. unfold ctx_from in IH. rewrite IH, app_length.
  unfold cstep, set_last. cbn [c_nbodies]. destruct s; cbn [cstep0 code_of c_nbodies length]; try lia.
  destruct (cimp_fold_keep is_ c) as (_ & _ & A & _). rewrite A. lia.
Qed.

(* the final clause of valid_from_b: as many code entries as declared functions *)
Lemma emitted_funcs_count m ilen e : emitM m ilen [] = Ok e ->
  exists fs, used_local_functions m = Ok fs /\ length (flat_map funcs_of (em_secs e)) = length fs.
Proof.
  intros He. emitM_kinds He. rewrite (flat_map_tag funcs_of 2), Ekind by (intros [] Hs; try reflexivity; discriminate Hs). cbn [nth].
  rewrite emit_func_section_unfold in Efn. rinv Efn as fs Efs. exists fs. split; [exact Efs|].
  destruct fs as [|p r]; [inversion Efn; reflexivity|].
  rinv Efn as b Eb. inversion Efn; subst; clear Efn. cbn [flat_map funcs_of]. rewrite app_nil_r.
  apply func_go_entries in Eb. apply Forall2_length in Eb. symmetry. exact Eb.
Qed.

Theorem emitted_bodies_count : forall m ilen e, emitM m ilen [] = Ok e ->
  c_nbodies (ctx_after (em_secs e)) = c_nloc (ctx_after (em_secs e)).
Proof.
  intros m ilen e He. unfold ctx_after. rewrite ctx_nbodies, ctx_nloc. cbn [ctx0 c_nbodies c_nloc Nat.add].
  destruct (emitted_funcs_count _ _ _ He) as (fs & Hfs & Hl). rewrite Hl.
  destruct (emit_code_payload _ _ _ _ He Hfs) as (_ & _ & _ & Hc). exact Hc.
Qed.

Lemma emitted_valid_b_of_pays m ilen e : emitM m ilen [] = Ok e -> pays_b ctx0 (em_secs e) = true ->
  valid_from_b ctx0 (em_secs e) = true.
Proof.
  intros He Hp. rewrite valid_from_b_split. cbn [ctx0 c_last]. fold ctx0.
  rewrite (emitted_order_ok _ _ _ He), Hp. apply Nat.eqb_eq. exact (emitted_bodies_count _ _ _ He).
Qed.

Theorem emitted_valid_b_reduce : forall m ilen e, emitM m ilen [] = Ok e ->
  (forall pre s post, em_secs e = pre ++ s :: post -> pay_b (ctx_after pre) s = true) ->
  valid_from_b ctx0 (em_secs e) = true.
Proof. intros m ilen e He Hp. exact (emitted_valid_b_of_pays _ _ _ He (pays_b_all _ ctx0 Hp)). Qed.

Lemma pay_b_trivial c s : (match sec_tag s with Some 0 | Some 3 | Some 4 | Some 9 | Some 10 | None => True | _ => False end) -> pay_b c s = true.
Proof. destruct s; cbn [sec_tag pay_b]; intros H; try reflexivity; destruct H. Qed.

(* imports and function declarations: the type indices are below the number of types *)
Lemma lookup_bound (l : list (N * N)) id j : map snd l = iota (length l) -> lookup_i l id = Ok j -> N.to_nat j < length l.
Proof.
  intros Hn H. unfold lookup_i in H. destruct (find _ l) as [p|] eqn:E; [|discriminate]. inversion H; subst j.
  apply find_some in E. destruct E as [Hin _]. apply iota_In. rewrite <- Hn. apply in_map. exact Hin.
Qed.
Lemma pushed_fold_length : forall ids (l : list (N * N)), length (fold_left (fun l id => pushed l id) ids l) = length l + length ids.
Proof.
  induction ids as [|i r IH]; intros l; cbn [fold_left length]; [lia|]. rewrite IH. unfold pushed. rewrite app_length. cbn [length]. lia.
Qed.
Lemma imp_ids_type l : imp_ids S_type l = [].
Proof. induction l as [|i r IH]; [reflexivity|]. cbn [imp_ids flat_map]. fold (imp_ids S_type r). rewrite IH. unfold imp_id. destruct (im_kind i); reflexivity. Qed.

Lemma types_map_after m s_ty x1 : emit_types m empty_x2i = (s_ty, x1) ->
  numbered x1 /\ length (space_map x1 S_type) = length (flat_map types_of s_ty).
Proof.
  intros E. pose proof (emit_types_x m empty_x2i) as X. rewrite E in X. cbn [snd] in X. subst x1. split.
  - apply numbered_push_all, numbered_empty.
  - rewrite push_all_same by discriminate. rewrite pushed_fold_length. cbn [space_map empty_x2i xi_types length Nat.add].
    rewrite (emit_types_decl _ _ _ _ E), !map_length. reflexivity.
Qed.

Lemma imports_pay m s_ty x1 s_im x2 c : emit_types m empty_x2i = (s_ty, x1) -> emit_imports m x1 = Ok (s_im, x2) ->
  c_nt c = length (flat_map types_of s_ty) -> pays_b c s_im = true.
Proof.
  intros Ety Eim Hc. destruct (types_map_after _ _ _ Ety) as [Nu Le].
  unfold emit_imports in Eim. destruct (map snd (aiter (m_imports m))) as [|i r] eqn:E; [inversion Eim; reflexivity|].
  rinv Eim as a Ea. inversion Eim; subst; clear Eim. destruct a as [ws xa]. cbn [fst pays_b pay_b]. rewrite andb_true_r.
  apply emit_imports_l_entries' in Ea. apply forallb_forall. intros wi Hwi.
  destruct (WV.Proofs.Names.Forall2_in_r _ _ _ _ Ea Hwi) as (mi & _ & _ & _ & Hm).
  unfold import_ok. destruct (im_kind mi).
  - destruct Hm as (fn & ti & _ & Hl & ->). unfold ltb_N. apply Nat.ltb_lt. rewrite Hc, <- Le. eapply lookup_bound; [apply Nu|exact Hl].
  - destruct Hm as (tb & _ & ->). reflexivity.
  - destruct Hm as (me & _ & ->). reflexivity.
  - destruct Hm as (gl & _ & ->). reflexivity.
Qed.

Lemma funcs_pay m s_ty x1 s_im x2 s_fn x3 c : emit_types m empty_x2i = (s_ty, x1) -> emit_imports m x1 = Ok (s_im, x2) ->
  emit_func_section m x2 = Ok (s_fn, x3) -> c_nt c = length (flat_map types_of s_ty) -> pays_b c s_fn = true.
Proof.
  intros Ety Eim Efn Hc. destruct (types_map_after _ _ _ Ety) as [Nu Le].
  pose proof (emit_imports_x _ _ _ _ Eim) as X2.
  assert (Nu2 : numbered x2) by (subst x2; apply numbered_imports, Nu).
  assert (Le2 : length (space_map x2 S_type) = length (flat_map types_of s_ty)).
  { subst x2. rewrite fold_push_import_space, imp_ids_type. cbn [fold_left]. exact Le. }
  rewrite emit_func_section_unfold in Efn. rinv Efn as fs Efs. destruct fs as [|p r]; [inversion Efn; reflexivity|].
  rinv Efn as b Eb. inversion Efn; subst s_fn x3; clear Efn. cbn [pays_b pay_b]. rewrite andb_true_r.
  apply func_go_entries in Eb. apply forallb_forall. intros ti Hti.
  destruct (WV.Proofs.Names.Forall2_in_r _ _ _ _ Eb Hti) as (q & _ & Hq).
  unfold ltb_N. apply Nat.ltb_lt. rewrite Hc, <- Le2. eapply lookup_bound; [apply Nu2|exact Hq].
Qed.

Lemma ctx_from_app c a b : ctx_from c (a ++ b) = ctx_from (ctx_from c a) b.
Proof. unfold ctx_from. apply fold_left_app. Qed.
Lemma pays_b_app' c A p B : pays_b (ctx_from c A) (p ++ B) = pays_b (ctx_from c A) p && pays_b (ctx_from c (A ++ p)) B.
Proof. rewrite pays_b_app, ctx_from_app. reflexivity. Qed.
Lemma pays_b_triv : forall p c, (forall s, In s p -> forall c', pay_b c' s = true) -> pays_b c p = true.
Proof.
  induction p as [|s r IH]; intros c H; [reflexivity|]. cbn [pays_b]. rewrite (H s (or_introl eq_refl)). apply IH.
  intros s' Hs'. apply H. right. exact Hs'.
Qed.
Lemma pays_b_tagged_triv k p c : tagged k p -> (k = 0 \/ k = 3 \/ k = 4 \/ k = 9 \/ k = 10) -> pays_b c p = true.
Proof.
  intros T Hk. apply pays_b_triv. intros s Hs c'. unfold tagged in T. rewrite Forall_forall in T. apply pay_b_trivial. rewrite (T s Hs).
  destruct Hk as [->|[->|[->|[->| ->]]]]; exact I.
Qed.
Lemma pays_b_sub w c A p B : w = A ++ p ++ B ->
  (forall pre s post, w = pre ++ s :: post -> In s p -> pay_b (ctx_from c pre) s = true) -> pays_b (ctx_from c A) p = true.
Proof.
  intros Ew H. apply pays_b_all. intros pre s post E. rewrite <- ctx_from_app. apply (H (A ++ pre) s (post ++ B)).
  - rewrite Ew, E, <- !app_assoc. reflexivity.
  - rewrite E. apply in_or_app. right. left. reflexivity.
Qed.

(* the sizes of the index spaces in the validation context are those of the emit-time maps *)
Lemma cimp_fold_sizes : forall l c,
  c_nimp (fold_left cimp l c) = c_nimp c + length (imp_ftys l) /\
  length (c_tabs (fold_left cimp l c)) = length (c_tabs c) + length (imp_tables_w l) /\
  length (c_mems (fold_left cimp l c)) = length (c_mems c) + length (imp_mems_w l) /\
  length (c_globs (fold_left cimp l c)) = length (c_globs c) + length (imp_globals_w l).
Proof.
  induction l as [|i r IH]; intros c; [cbn; repeat split; lia|]. cbn [fold_left]. destruct (IH (cimp c i)) as (A & B & C & D).
  rewrite A, B, C, D. unfold imp_ftys, imp_tables_w, imp_mems_w, imp_globals_w, cimp. cbn [flat_map].
  destruct (wi_kind i); cbn [c_nimp c_tabs c_mems c_globs app length]; rewrite ?app_length; cbn [length]; repeat split; lia.
Qed.
Lemma imp_w_app a b : imp_ftys (a ++ b) = imp_ftys a ++ imp_ftys b /\ imp_tables_w (a ++ b) = imp_tables_w a ++ imp_tables_w b /\
  imp_mems_w (a ++ b) = imp_mems_w a ++ imp_mems_w b /\ imp_globals_w (a ++ b) = imp_globals_w a ++ imp_globals_w b.
Proof. unfold imp_ftys, imp_tables_w, imp_mems_w, imp_globals_w. rewrite !flat_map_app. repeat split. Qed.

Lemma ctx_sizes_gen : forall w c,
  c_nimp (ctx_from c w) = c_nimp c + length (imp_ftys (flat_map imports_of w)) /\
  length (c_tabs (ctx_from c w)) = length (c_tabs c) + length (imp_tables_w (flat_map imports_of w)) + length (flat_map tables_of w) /\
  length (c_mems (ctx_from c w)) = length (c_mems c) + length (imp_mems_w (flat_map imports_of w)) + length (flat_map mems_of w) /\
  length (c_globs (ctx_from c w)) = length (c_globs c) + length (imp_globals_w (flat_map imports_of w)) + length (flat_map globals_of w).
Proof.
  induction w as [|s r IH]; intros c; [cbn; repeat split; lia|]. cbn [ctx_from fold_left flat_map]. unfold ctx_from in IH.
  destruct (IH (cstep c s)) as (A & B & C & D). rewrite A, B, C, D. clear IH A B C D.
  destruct (imp_w_app (imports_of s) (flat_map imports_of r)) as (E1 & E2 & E3 & E4). rewrite E1, E2, E3, E4, !app_length.
  unfold cstep, set_last. cbn [c_nimp c_tabs c_mems c_globs].
  destruct s; cbn [cstep0 imports_of tables_of mems_of globals_of c_nimp c_tabs c_mems c_globs length imp_ftys imp_tables_w imp_mems_w imp_globals_w flat_map];
    rewrite ?app_length, ?map_length; try (repeat split; lia).
  destruct (cimp_fold_sizes is_ c) as (A & B & C & D). unfold imp_ftys, imp_tables_w, imp_mems_w, imp_globals_w in *.
  rewrite A, B, C, D. repeat split; lia.
Qed.

Lemma emitted_imports_payload m ilen e : emitM m ilen [] = Ok e ->
  exists xt, Forall2 (import_emitted' m xt) (live_imports m) (flat_map imports_of (em_secs e)).
Proof.
  intros He. emitM_kinds He. rewrite (flat_map_tag imports_of 1), Ekind by (intros [] Hs; try reflexivity; discriminate Hs). cbn [nth].
  exists (space_map x1 S_type).
  unfold emit_imports in Eim. fold (live_imports m) in Eim. destruct (live_imports m) as [|i r] eqn:E.
  - inversion Eim; subst. constructor.
  - rinv Eim as a Ea. inversion Eim; subst s_im x2; clear Eim. destruct a as [ws xa]. cbn [fst flat_map imports_of]. rewrite app_nil_r.
    eapply emit_imports_l_entries'; eauto.
Qed.

Lemma imp_counts m xt : forall l ws, Forall2 (import_emitted' m xt) l ws ->
  length (imp_ids S_func l) = length (imp_ftys ws) /\ length (imp_ids S_table l) = length (imp_tables_w ws) /\
  length (imp_ids S_memory l) = length (imp_mems_w ws) /\ length (imp_ids S_global l) = length (imp_globals_w ws).
Proof.
  induction 1 as [|a b l ws (_ & _ & Hk) _ IH]; [repeat split|]. destruct IH as (A & B & C & D).
  unfold imp_ids, imp_ftys, imp_tables_w, imp_mems_w, imp_globals_w in *. cbn [flat_map]. rewrite !app_length, A, B, C, D. unfold imp_id.
  destruct (im_kind a).
  - destruct Hk as (fn & ti & _ & _ & ->). cbn [length]. repeat split; lia.
  - destruct Hk as (tb & _ & ->). cbn [length]. repeat split; lia.
  - destruct Hk as (me & _ & ->). cbn [length]. repeat split; lia.
  - destruct Hk as (gl & _ & ->). cbn [length]. repeat split; lia.
Qed.

Definition sizes (c : vctx) (e : emitted) : Prop :=
  c_nf c = length (space_map (em_x2i e) S_func) /\ length (c_tabs c) = length (space_map (em_x2i e) S_table) /\
  length (c_mems c) = length (space_map (em_x2i e) S_memory) /\ length (c_globs c) = length (space_map (em_x2i e) S_global).

Lemma emitted_globals_count m ilen e : emitM m ilen [] = Ok e -> length (flat_map globals_of (em_secs e)) = length (local_globals m).
Proof.
  intros He. destruct (emitted_globals_piece _ _ _ He) as (x5 & s_gl & x6 & Egl & ->).
  rewrite emit_globals_unfold in Egl. destruct (local_globals m) as [|p0 ps] eqn:El; [inversion Egl; reflexivity|].
  rewrite <- El in Egl. rinv Egl as r Er. inversion Egl; subst; clear Egl. cbn [flat_map globals_of]. rewrite app_nil_r.
  apply globals_go_entries' in Er. destruct Er as [_ F]. apply Forall2_length in F. rewrite <- F, El. reflexivity.
Qed.

Theorem sizes_of_payloads : forall m ilen e P, emitM m ilen [] = Ok e ->
  flat_map imports_of P = flat_map imports_of (em_secs e) -> flat_map funcs_of P = flat_map funcs_of (em_secs e) ->
  flat_map tables_of P = flat_map tables_of (em_secs e) -> flat_map mems_of P = flat_map mems_of (em_secs e) ->
  flat_map globals_of P = flat_map globals_of (em_secs e) -> sizes (ctx_after P) e.
Proof.
  intros m ilen e P He H1 H2 H3 H4 H5. unfold sizes, ctx_after, c_nf.
  destruct (ctx_sizes_gen P ctx0) as (A & B & C & D). rewrite A, B, C, D, ctx_nloc, H1, H2, H3, H4, H5. cbn [ctx0 c_nimp c_nloc c_tabs c_mems c_globs length Nat.add].
  destruct (emitM_x2i _ _ _ _ He) as (fs & Hfs & _ & Xf & Xt & Xm & Xg & _). cbn [space_map]. rewrite Xf, Xt, Xm, Xg, !number_length, !app_length, !map_length.
  destruct (emitted_imports_payload _ _ _ He) as (xt & F). destruct (imp_counts _ _ _ _ F) as (I1 & I2 & I3 & I4). rewrite I1, I2, I3, I4.
  destruct (emitted_funcs_count _ _ _ He) as (fs' & Hfs' & Hl). rewrite Hfs in Hfs'. inversion Hfs'; subst fs'. rewrite Hl.
  rewrite (emitted_tables _ _ _ He), (emitted_mems _ _ _ He), (emitted_globals_count _ _ _ He), !map_length. repeat split.
Qed.

Lemma final_numbered m ilen e S : emitM m ilen [] = Ok e -> S = S_func \/ S = S_table \/ S = S_memory \/ S = S_global ->
  map snd (space_map (em_x2i e) S) = iota (length (space_map (em_x2i e) S)).
Proof.
  intros He HS. destruct (emitM_x2i _ _ _ _ He) as (fs & Hfs & _ & Xf & Xt & Xm & Xg & _).
  destruct HS as [->|[->|[->| ->]]]; cbn [space_map]; rewrite ?Xf, ?Xt, ?Xm, ?Xg; apply number_snd_iota.
Qed.

Lemma start_pay m ilen e x6 s_st c : emitM m ilen [] = Ok e ->
  (forall S, S <> S_elem -> S <> S_data -> space_map (em_x2i e) S = space_map x6 S) ->
  match m_start m with Some f => i <- get_idx x6 S_func f ;; Ok [S_Start i] | None => Ok [] end = Ok s_st ->
  sizes c e -> pays_b c s_st = true.
Proof.
  intros He Hl Est (Sf & _). destruct (m_start m) as [f|]; [|inversion Est; reflexivity].
  rinv Est as i Ei. inversion Est; subst; clear Est. cbn [pays_b pay_b]. rewrite andb_true_r. unfold ltb_N. apply Nat.ltb_lt. rewrite Sf.
  unfold get_idx in Ei. rewrite <- Hl in Ei by discriminate. eapply lookup_bound; [|exact Ei]. apply (final_numbered _ _ _ _ He). tauto.
Qed.

Lemma rmapM_in {A B} (f : A -> res B) : forall l ys, rmapM f l = Ok ys -> forall y, In y ys -> exists a, In a l /\ f a = Ok y.
Proof. intros l ys H y Hy. exact (WV.Proofs.Names.Forall2_in_r _ _ _ _ (rmapM_ok_inv f l ys H) Hy). Qed.

Lemma exports_pay m ilen e x6 s_ex c : emitM m ilen [] = Ok e ->
  (forall S, S <> S_elem -> S <> S_data -> space_map (em_x2i e) S = space_map x6 S) ->
  emit_exports m x6 = Ok s_ex -> sizes c e -> pays_b c s_ex = true.
Proof.
  intros He Hl Eex (Sf & St & Sm & Sg). unfold emit_exports in Eex. destruct (map snd (aiter (m_exports m))) as [|x0 r]; [inversion Eex; reflexivity|].
  rinv Eex as es Ees. inversion Eex; subst; clear Eex. cbn [pays_b pay_b]. rewrite andb_true_r. apply forallb_forall. intros wo Hwo.
  destruct (rmapM_in _ _ _ Ees _ Hwo) as (a & _ & Ha). rinv Ha as i Ei. inversion Ha; subst; clear Ha.
  unfold export_ok. cbn [we_index we_kind]. unfold ltb_N. apply Nat.ltb_lt. unfold get_idx in Ei.
  destruct (ex_kind a); cbn [kind_space] in Ei; rewrite <- Hl in Ei by discriminate; rewrite ?Sf, ?St, ?Sm, ?Sg;
    (eapply lookup_bound; [|exact Ei]); apply (final_numbered _ _ _ _ He); tauto.
Qed.

(* data: the count clause; what remains is data_ok (memory index and offset) per segment *)
Lemma ctx_dc : forall w c, c_dc (ctx_from c w) = fold_left (fun o n => Some (N.to_nat n)) (flat_map dcounts_of w) (c_dc c).
Proof.
  induction w as [|s r IH]; intros c; [reflexivity|]. cbn [ctx_from fold_left flat_map]. unfold ctx_from in IH. rewrite IH, fold_left_app. f_equal.
  unfold cstep, set_last. cbn [c_dc]. destruct s; cbn [cstep0 dcounts_of c_dc fold_left]; try reflexivity.
  destruct (cimp_fold_keep is_ c) as (_ & _ & _ & A & _). exact A.
Qed.

Lemma data_pay m x s_da x9 s_dc x10 c : emit_data m x = Ok s_da -> emit_data_count m x9 = Ok (s_dc, x10) ->
  c_dc c = fold_left (fun o n => Some (N.to_nat n)) (flat_map dcounts_of s_dc) None ->
  (forall l, s_da = [S_Data l] -> forallb (data_ok c) l = true) -> pays_b c s_da = true.
Proof.
  intros Eda Edc Hc Hok. unfold emit_data in Eda. destruct (aiter (m_data m)) as [|p r] eqn:El; [inversion Eda; reflexivity|].
  rinv Eda as ds Eds. inversion Eda; subst s_da; clear Eda. cbn [pays_b pay_b]. rewrite andb_true_r, (Hok ds eq_refl). cbn [andb].
  apply rmapM_length in Eds. rewrite Hc. destruct (emit_data_count_shape _ _ _ _ Edc) as [->| ->]; [reflexivity|].
  cbn [flat_map dcounts_of app fold_left]. unfold len_N. rewrite Nat2N.id, El. apply Nat.eqb_eq. exact Eds.
Qed.

(* boolean validity and valid bodies make a valid_stream, on which the second parse succeeds *)
Lemma valid_from_of_b : forall w c, valid_from_b c w = true ->
  (forall pre bs post, w = pre ++ S_Code bs :: post -> Forall (body_valid (c_nt (ctx_from c pre))) bs) -> valid_from c w.
Proof.
  induction w as [|s r IH]; intros c H Hb; cbn [valid_from valid_from_b] in *; [apply Nat.eqb_eq; exact H|].
  apply andb_true_iff in H. destruct H as [H1 H2]. split.
  - split; [exact H1|]. destruct s; try exact I. apply (Hb [] bs r). reflexivity.
  - apply IH; [exact H2|]. intros pre bs post E. apply (Hb (s :: pre) bs post). rewrite E. reflexivity.
Qed.

Theorem emitted_valid_stream : forall m ilen e, emitM m ilen [] = Ok e -> valid_from_b ctx0 (em_secs e) = true ->
  (forall pre bs post, em_secs e = pre ++ S_Code bs :: post -> Forall (body_valid (length (flat_map types_of pre))) bs) ->
  valid_stream (em_secs e).
Proof.
  intros m ilen e He Hb Hbodies. apply valid_from_of_b; [exact Hb|]. intros pre bs post E. rewrite ctx_nt. cbn [ctx0 c_nt Nat.add].
  exact (Hbodies pre bs post E).
Qed.

Theorem second_parse_total : forall cf ver m ilen e, emitM m ilen [] = Ok e -> valid_from_b ctx0 (em_secs e) = true ->
  (forall pre bs post, em_secs e = pre ++ S_Code bs :: post -> Forall (body_valid (length (flat_map types_of pre))) bs) ->
  exists s2, parseM cf ver (em_secs e) = POk s2.
Proof. intros cf ver m ilen e He Hb Hbodies. apply parse_total. eapply emitted_valid_stream; eauto. Qed.

(* the emitter pushes the index of a global BEFORE emitting its initialiser, so a self-reference would be emitted
   as an (invalid) forward reference: the premise that excludes it *)
Definition no_self_ref (m : wir) : Prop := forall id g g', In (id, g, MC_Global g') (local_globals m) -> g' <> id.

Lemma lookup_pushed_neq (l : list (N * N)) id g j : lookup_i (pushed l id) g = Ok j -> g <> id -> lookup_i l g = Ok j.
Proof.
  unfold lookup_i, pushed. intros H Hne. destruct (find (fun p => N.eqb (fst p) g) l) as [p|] eqn:E.
  - assert (L : lookup_i l g = Ok (snd p)) by (unfold lookup_i; rewrite E; reflexivity).
    pose proof (lookup_app_old l [(id, len_N l)] g _ L) as L2. unfold lookup_i in L2. congruence.
  - exfalso. destruct (find _ (l ++ _)) as [q|] eqn:E2; [|discriminate]. apply find_some in E2. destruct E2 as [Hin Hq].
    apply in_app_or in Hin. destruct Hin as [Hin|[<-|[]]].
    + apply (find_none _ _ E) in Hin. congruence.
    + cbn [fst] in Hq. apply N.eqb_eq in Hq. congruence.
Qed.

Lemma globals_go_ok : forall l x r nf globs, globals_go l x = Ok r -> numbered x ->
  length (space_map x S_global) = length globs -> length (space_map x S_func) = nf ->
  (forall id g g', In (id, g, MC_Global g') l -> g' <> id) -> globals_ok nf globs (fst r) = true.
Proof.
  induction l as [|[[id g] c] l IH]; intros x r nf globs H Nu Lg Lf Hs; cbn [globals_go] in H; [inversion H; reflexivity|].
  fold globals_go in H. rinv H as wc Ewc. rinv H as b Eb. inversion H; subst r; clear H. cbn [fst globals_ok]. apply andb_true_iff. split.
  - destruct c as [v|g'|t|f]; cbn [emit_const] in Ewc.
    + destruct v; inversion Ewc; reflexivity.
    + destruct (get_idx (push_idx x S_global id) S_global g') as [j| |] eqn:Ej; cbn [rmap] in Ewc; inversion Ewc; subst wc. cbn [const_ok].
      unfold get_idx in Ej. rewrite push_idx_same in Ej by discriminate. apply lookup_pushed_neq in Ej; [|apply (Hs id g g'); left; reflexivity].
      unfold ltb_N. apply Nat.ltb_lt. rewrite <- Lg. eapply lookup_bound; [apply Nu|exact Ej].
    + inversion Ewc; reflexivity.
    + destruct (get_idx (push_idx x S_global id) S_func f) as [j| |] eqn:Ej; cbn [rmap] in Ewc; inversion Ewc; subst wc. cbn [const_ok].
      unfold get_idx in Ej. rewrite push_idx_other in Ej by discriminate.
      unfold ltb_N. apply Nat.ltb_lt. rewrite <- Lf. eapply lookup_bound; [apply Nu|exact Ej].
  - eapply IH; [exact Eb|apply numbered_push, Nu| | |].
    + rewrite push_idx_same by discriminate. unfold pushed. rewrite !app_length, Lg. reflexivity.
    + rewrite push_idx_other by discriminate. exact Lf.
    + intros id' g0 g' Hin. apply (Hs id' g0 g'). right. exact Hin.
Qed.

Lemma globals_pay m x5 s_gl x6 c : emit_globals m x5 = Ok (s_gl, x6) -> numbered x5 ->
  length (space_map x5 S_global) = length (c_globs c) -> length (space_map x5 S_func) = c_nf c -> no_self_ref m ->
  pays_b c s_gl = true.
Proof.
  intros Egl Nu Lg Lf Hs. rewrite emit_globals_unfold in Egl. destruct (local_globals m) as [|p0 ps] eqn:El; [inversion Egl; reflexivity|].
  rewrite <- El in Egl. rinv Egl as r Er. inversion Egl; subst s_gl x6; clear Egl. cbn [pays_b pay_b]. rewrite andb_true_r.
  eapply globals_go_ok; eauto.
Qed.

Lemma sizes_before_globals m ilen e P : emitM m ilen [] = Ok e ->
  flat_map imports_of P = flat_map imports_of (em_secs e) -> flat_map funcs_of P = flat_map funcs_of (em_secs e) ->
  flat_map globals_of P = [] ->
  c_nf (ctx_after P) = length (space_map (em_x2i e) S_func) /\ length (c_globs (ctx_after P)) = length (imp_ids S_global (live_imports m)).
Proof.
  intros He H1 H2 H5. unfold ctx_after, c_nf.
  destruct (ctx_sizes_gen P ctx0) as (A & _ & _ & D). rewrite A, D, ctx_nloc, H1, H2, H5. cbn [ctx0 c_nimp c_nloc c_globs length Nat.add].
  destruct (emitM_x2i _ _ _ _ He) as (fs & Hfs & _ & Xf & _). cbn [space_map]. rewrite Xf, !number_length, !app_length, !map_length.
  destruct (emitted_imports_payload _ _ _ He) as (xt & F). destruct (imp_counts _ _ _ _ F) as (I1 & _ & _ & I4). rewrite I1, I4.
  destruct (emitted_funcs_count _ _ _ He) as (fs' & Hfs' & Hl). rewrite Hfs in Hfs'. inversion Hfs'; subst fs'. rewrite Hl. split; lia.
Qed.

Lemma pays_b_tagged w c k A p B : tagged k p -> w = A ++ p ++ B ->
  (forall pre s post, w = pre ++ s :: post -> sec_tag s = Some k -> pay_b (ctx_from c pre) s = true) ->
  pays_b (ctx_from c A) p = true.
Proof.
  intros T Ew H. apply (pays_b_sub w c A p B Ew). intros pre s post E Hin. apply (H pre s post E).
  unfold tagged in T. rewrite Forall_forall in T. exact (T s Hin).
Qed.

(* [flat_map f a = flat_map f (em_secs e)] where [a] is the stream up to a piece of a kind later than t, [Es] and [Er] the
   fields Esecs and Erest of [emit_kinds]: what follows [a] has no section of tag t *)
Ltac before f t Es Er :=
  eapply (flat_map_before f t);
  [intros [] Hs; try reflexivity; discriminate Hs | rewrite Es, <- !app_assoc; reflexivity
  |repeat (apply Forall_app; split); try (eapply tagged_other; [eassumption|lia]); apply untagged_other, Er].

Theorem emitted_pays : forall m ilen e, emitM m ilen [] = Ok e ->
  no_self_ref m \/ (forall pre s post, em_secs e = pre ++ s :: post -> sec_tag s = Some 5 -> pay_b (ctx_after pre) s = true) ->
  (forall pre s post, em_secs e = pre ++ s :: post -> sec_tag s = Some 8 -> pay_b (ctx_after pre) s = true) ->
  (forall pre l post, em_secs e = pre ++ S_Data l :: post -> forallb (data_ok (ctx_after pre)) l = true) ->
  pays_b ctx0 (em_secs e) = true.
Proof.
  intros m ilen e He Hgl Hel Hd.
  pose proof He as He'. emitM_kinds He'.
  pose proof (emitM_late_maps _ _ _ _ _ _ _ _ _ _ Eel Edc Eco) as Hlate.
  rewrite Esecs in Hgl, Hel, Hd |- *. change ctx0 with (ctx_from ctx0 []) at 1.
  repeat (rewrite pays_b_app'; apply andb_true_iff; split).
  - eapply pays_b_tagged_triv; [exact T0|tauto].
  - eapply imports_pay; [exact Ety|exact Eim|]. rewrite ctx_nt. cbn [app ctx0 c_nt Nat.add]. reflexivity.
  - eapply funcs_pay; [exact Ety|exact Eim|exact Efn|]. rewrite ctx_nt. cbn [app ctx0 c_nt Nat.add].
    rewrite flat_map_app, (fun Hf => flat_map_off types_of 0 Hf s_im), app_nil_r; [reflexivity|intros [] Hs; try reflexivity; discriminate Hs|apply (tagged_other 0 1 _ T1); lia].
  - eapply pays_b_tagged_triv; [exact T3|tauto].
  - eapply pays_b_tagged_triv; [exact T4|tauto].
  - destruct Hgl as [Hself|Hgl]; [|eapply (pays_b_tagged _ _ 5); [exact T5| |exact Hgl]; rewrite <- !app_assoc; reflexivity].
    (* the maps when the global section is written *)
    pose proof (emit_types_x m empty_x2i) as X1. rewrite Ety in X1. cbn [snd] in X1.
    pose proof (emit_imports_x _ _ _ _ Eim) as X2.
    destruct (emit_func_section_x _ _ _ _ Efn) as (fs & Hfs & X3).
    pose proof (emit_tables_x m x3) as X4. rewrite <- Ex4 in X4.
    pose proof (emit_memories_x m x4) as X5. rewrite <- Ex5 in X5.
    match goal with |- pays_b (ctx_from ctx0 ?P) _ = true => destruct (sizes_before_globals m ilen e P He) as (Sf & Sg) end.
    + before imports_of 1 Esecs Erest.
    + before funcs_of 2 Esecs Erest.
    + apply (flat_map_off globals_of 5); [intros [] Hs; try reflexivity; discriminate Hs|].
      repeat (apply Forall_app; split); try (eapply tagged_other; [eassumption|lia]). constructor.
    + eapply globals_pay; [exact Egl| | | |exact Hself].
      * rewrite X5, X4, X3, X2, X1. repeat first [apply numbered_push_all | apply numbered_imports]. apply numbered_empty.
      * transitivity (length (imp_ids S_global (live_imports m))); [|symmetry; exact Sg].
        rewrite X5, X4, X3, !push_all_other by discriminate. rewrite X2, fold_push_import_space, pushed_fold_length, X1, push_all_other by discriminate. reflexivity.
      * transitivity (length (space_map (em_x2i e) S_func)); [|symmetry; exact Sf].
        rewrite Hlate by discriminate. rewrite (emit_globals_x _ _ _ _ Egl), push_all_other by discriminate. reflexivity.
  - eapply exports_pay; [exact He|exact Hlate|exact Eex|].
    apply (sizes_of_payloads _ _ _ _ He); [before imports_of 1 Esecs Erest|before funcs_of 2 Esecs Erest|before tables_of 3 Esecs Erest|before mems_of 4 Esecs Erest|before globals_of 5 Esecs Erest].
  - eapply start_pay; [exact He|exact Hlate|exact Est|].
    apply (sizes_of_payloads _ _ _ _ He); [before imports_of 1 Esecs Erest|before funcs_of 2 Esecs Erest|before tables_of 3 Esecs Erest|before mems_of 4 Esecs Erest|before globals_of 5 Esecs Erest].
  - eapply (pays_b_tagged _ _ 8); [exact T8| |exact Hel]. rewrite <- !app_assoc. reflexivity.
  - eapply pays_b_tagged_triv; [exact T9|tauto].
  - eapply pays_b_tagged_triv; [exact T10|tauto].
  - eapply data_pay; [exact Eda|exact Edc| |].
    + rewrite ctx_dc. cbn [ctx0 c_dc]. f_equal. transitivity (flat_map dcounts_of (em_secs e)); [before dcounts_of 9 Esecs Erest|].
      rewrite (flat_map_tag dcounts_of 9), Ekind by (intros [] Hs; try reflexivity; discriminate Hs). reflexivity.
    + intros l El. unfold ctx_after in Hd. eapply Hd. rewrite El, <- !app_assoc. cbn [app]. reflexivity.
  - apply pays_b_triv. intros s Hs c'. apply pay_b_trivial. rewrite (Erest s Hs). exact I.
Qed.

Theorem emitted_valid_b_partial4 : forall m ilen e, emitM m ilen [] = Ok e -> no_self_ref m ->
  (forall pre l post, em_secs e = pre ++ S_Elems l :: post -> forallb (elem_ok (ctx_after pre)) l = true) ->
  (forall pre l post, em_secs e = pre ++ S_Data l :: post -> forallb (data_ok (ctx_after pre)) l = true) ->
  valid_from_b ctx0 (em_secs e) = true.
Proof.
  intros m ilen e He Hself Hel Hd. apply (emitted_valid_b_of_pays _ _ _ He), (emitted_pays _ _ _ He (or_introl Hself)); [|exact Hd].
  intros pre s post E Hs. destruct s; try discriminate Hs. exact (Hel pre _ post E).
Qed.

Definition hard_tag3 (s : wsec) : Prop := match sec_tag s with Some 5 | Some 8 => True | _ => False end.

Theorem emitted_valid_b_partial3 : forall m ilen e, emitM m ilen [] = Ok e ->
  (forall pre s post, em_secs e = pre ++ s :: post -> hard_tag3 s -> pay_b (ctx_after pre) s = true) ->
  (forall pre l post, em_secs e = pre ++ S_Data l :: post -> forallb (data_ok (ctx_after pre)) l = true) ->
  valid_from_b ctx0 (em_secs e) = true.
Proof.
  intros m ilen e He Hh Hd. apply (emitted_valid_b_of_pays _ _ _ He), (emitted_pays _ _ _ He); [right| |exact Hd];
    intros pre s post E Hs; apply (Hh pre s post E); unfold hard_tag3; rewrite Hs; exact I.
Qed.

Definition hard_tag2 (s : wsec) : Prop := match sec_tag s with Some 5 | Some 8 | Some 11 => True | _ => False end.

Theorem emitted_valid_b_partial2 : forall m ilen e, emitM m ilen [] = Ok e ->
  (forall pre s post, em_secs e = pre ++ s :: post -> hard_tag2 s -> pay_b (ctx_after pre) s = true) ->
  valid_from_b ctx0 (em_secs e) = true.
Proof.
  intros m ilen e He Hh. apply (emitted_valid_b_partial3 _ _ _ He).
  - intros pre s post E Hs. apply (Hh pre s post E). unfold hard_tag3 in Hs. unfold hard_tag2. destruct (sec_tag s) as [[|[|[|[|[|[|[|[|[|k]]]]]]]]]|]; tauto.
  - intros pre l post E. pose proof (Hh pre (S_Data l) post E I) as H. cbn [pay_b] in H. apply andb_true_iff in H. exact (proj1 H).
Qed.

Definition hard_tag (s : wsec) : Prop :=
  match sec_tag s with Some 5 | Some 6 | Some 7 | Some 8 | Some 11 => True | _ => False end.

Theorem emitted_valid_b_partial : forall m ilen e, emitM m ilen [] = Ok e ->
  (forall pre s post, em_secs e = pre ++ s :: post -> hard_tag s -> pay_b (ctx_after pre) s = true) ->
  valid_from_b ctx0 (em_secs e) = true.
Proof.
  intros m ilen e He Hh. apply (emitted_valid_b_partial2 _ _ _ He). intros pre s post E Hs. apply (Hh pre s post E).
  unfold hard_tag2 in Hs. unfold hard_tag. destruct (sec_tag s) as [[|[|[|[|[|[|[|[|[|[|[|[|k]]]]]]]]]]]]|]; tauto.
Qed.

(* parsed modules have no self-referring global: an initialiser refers to an EARLIER global *)
Definition GB (K : list (wglobalty * option mconst)) : Prop :=
  forall p ty g', nth_error K p = Some (ty, Some (MC_Global g')) -> N.to_nat g' < p.
Lemma GB_nil : GB []. Proof. intros [|p] ty g' H; discriminate H. Qed.
Lemma GB_app_none K extra : GB K -> (forall x, In x extra -> snd x = None) -> GB (K ++ extra).
Proof.
  intros HK He p ty g' H. destruct (Nat.lt_ge_cases p (length K)) as [L|L].
  - rewrite nth_error_app1 in H by exact L. exact (HK _ _ _ H).
  - rewrite nth_error_app2 in H by exact L. apply nth_error_In, He in H. discriminate H.
Qed.
Lemma GB_snoc K ty c : GB K -> (forall g', c = MC_Global g' -> N.to_nat g' < length K) -> GB (K ++ [(ty, Some c)]).
Proof.
  intros HK Hc p ty' g' H. destruct (Nat.lt_ge_cases p (length K)) as [L|L].
  - rewrite nth_error_app1 in H by exact L. exact (HK _ _ _ H).
  - rewrite nth_error_app2 in H by exact L. destruct (p - length K) as [|k] eqn:Ek; [|destruct k; discriminate H].
    cbn in H. inversion H; subst. specialize (Hc g' eq_refl). lia.
Qed.

Lemma parse_globals_GB : forall l m ids m' ids',
  ii_globals ids = iota (length (items (m_globals m))) -> (exists n, ii_funcs ids = iota n) ->
  parse_globals m ids l = POk (m', ids') -> GB (K_globals m) -> GB (K_globals m').
Proof.
  induction l as [|[g c] r IH]; intros m ids m' ids' Hg Hf E HK; cbn [parse_globals] in E.
  - inversion E; subst. exact HK.
  - pinv E as init Ei. wcbn. refine (IH _ _ _ _ _ _ E _).
    + wcbn. rewrite Hg. unfold anext, next_id. rewrite app_length. cbn [length]. rewrite Nat.add_1_r, iota_S. reflexivity.
    + wcbn. exact Hf.
    + unfold K_globals. wcbn. rewrite map_app. cbn [map]. unfold gcore at 2. rewrite attr_global_local_kind.
      apply GB_snoc; [exact HK|]. intros g' ->. fold (K_globals m). unfold K_globals. rewrite map_length.
      destruct c; cbn [eval_const] in Ei; try discriminate Ei; try (inversion Ei; fail).
      * pinv Ei as rg Erg. apply of_opt_err_ok in Erg. rewrite Hg in Erg. unfold nth_N in Erg. apply iota_nth_inv in Erg.
        destruct Erg as [-> Hlt]. inversion Ei; subst. rewrite N2Nat.id in *. exact Hlt.
      * pinv Ei as rg Erg. inversion Ei.
Qed.

Lemma parse_sec_GB s sec s' : ids_consistent (ps_m s) (ps_ids s) -> parse_sec s sec = POk s' ->
  GB (K_globals (ps_m s)) -> GB (K_globals (ps_m s')).
Proof.
  intros Hid E HK.
  assert (Hgen : (forall x, In x (sec_globals sec) -> snd x = None) -> GB (K_globals (ps_m s'))).
  { intros Hn. destruct (parse_sec_GES _ _ _ Hid E) as (G & _). rewrite G. apply GB_app_none; assumption. }
  destruct sec; try (apply Hgen; cbn [sec_globals]; intros x Hx; destruct Hx; fail).
  - apply Hgen. cbn [sec_globals]. intros x Hx. apply in_map_iff in Hx. destruct Hx as (g & <- & _). reflexivity.
  - clear Hgen. unfold parse_sec in E. pinv E as x Ex. destruct x as [m1 i1]. inversion E; subst; clear E. wcbn.
    eapply parse_globals_GB; [| |exact Ex|exact HK].
    + unfold ids_consistent in Hid. tauto.
    + unfold ids_consistent in Hid. decompose [and] Hid. eauto.
Qed.
Lemma parse_secs_GB : forall w s s', ids_consistent (ps_m s) (ps_ids s) -> parse_secs s w = POk s' ->
  GB (K_globals (ps_m s)) -> GB (K_globals (ps_m s')).
Proof.
  induction w as [|x r IH]; intros s s' Hid E HK; cbn [parse_secs] in E; [inversion E; subst; exact HK|].
  pinv E as s1 E1. pose proof (parse_sec_idc _ _ _ Hid E1) as Hid1. apply (IH _ _ Hid1 E). exact (parse_sec_GB _ _ _ Hid E1 HK).
Qed.
Theorem parseM_GB : forall cf ver w s, parseM cf ver w = POk s -> GB (K_globals (ps_m s)).
Proof.
  intros cf ver w s E. destruct (parseM_KK _ _ _ _ E) as [s1 [E1 EK]]. unfold KK in EK. injection EK; intros.
  replace (K_globals (ps_m s)) with (K_globals (ps_m s1)) by congruence.
  apply (parse_secs_GB w (pst0 cf) s1 (idc_empty cf) E1). exact GB_nil.
Qed.
Theorem parsed_no_self_ref : forall cf ver w s, parseM cf ver w = POk s -> no_self_ref (ps_m s).
Proof.
  intros cf ver w s E id g g' Hin. unfold local_globals in Hin. apply in_flat_map in Hin. destruct Hin as ([id0 gl] & Hin & Hk).
  cbn [fst snd] in Hk. destruct (gl_kind gl) as [i|c] eqn:Ek; [destruct Hk|]. destruct Hk as [Hk|[]]. inversion Hk; subst id0 gl c; clear Hk.
  apply aiter_In_nth in Hin. pose proof (parseM_GB _ _ _ _ E (N.to_nat id) (gen_emit_global_local g) g') as HB.
  unfold K_globals in HB. rewrite nth_error_map, Hin in HB. cbn [option_map] in HB. unfold gcore in HB. rewrite Ek in HB.
  specialize (HB eq_refl). intros ->. lia.
Qed.

Theorem emitted_valid_b_parsed : forall cf ver w s1 ilen e1, parseM cf ver w = POk s1 -> emitM (ps_m s1) ilen [] = Ok e1 ->
  (forall pre l post, em_secs e1 = pre ++ S_Elems l :: post -> forallb (elem_ok (ctx_after pre)) l = true) ->
  (forall pre l post, em_secs e1 = pre ++ S_Data l :: post -> forallb (data_ok (ctx_after pre)) l = true) ->
  valid_from_b ctx0 (em_secs e1) = true.
Proof.
  intros cf ver w s1 ilen e1 HP HE Hel Hd. apply (emitted_valid_b_partial4 _ _ _ HE (parsed_no_self_ref _ _ _ _ HP) Hel Hd).
Qed.

Print Assumptions valid_from_b_split.
Print Assumptions emitted_order_ok.
Print Assumptions emitted_bodies_count.
Print Assumptions emitted_valid_b_reduce.
Print Assumptions imports_pay.
Print Assumptions funcs_pay.
Print Assumptions emitted_valid_b_partial.
Print Assumptions sizes_of_payloads.
Print Assumptions start_pay.
Print Assumptions exports_pay.
Print Assumptions emitted_valid_b_partial2.
Print Assumptions data_pay.
Print Assumptions emitted_valid_b_partial3.
Print Assumptions emitted_valid_stream.
Print Assumptions second_parse_total.
Print Assumptions globals_pay.
Print Assumptions emitted_valid_b_partial4.
Print Assumptions parsed_no_self_ref.
Print Assumptions emitted_valid_b_parsed.
