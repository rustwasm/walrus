(* The arena operations as the module model uses them (Model/ModuleM.v: identifiers are N, each operation is
   the one of Model/Arena.v at [N.to_nat id]): what each does to [aget]. *)
From Coq Require Import List NArith Arith Lia Sorted.
Import ListNotations.
From WV Require Import Gen.Ops Model.Common Model.IR Model.Arena Model.ModuleM.
From WV Require Proofs.Arena.
Local Open Scope nat_scope.

Lemma aget_nth {A} (a : tarena A) id v :
  aget a id = Some v -> nth_error (items a) (N.to_nat id) = Some v /\ is_dead a (N.to_nat id) = false.
Proof.
  unfold aget, index, get. destruct (is_dead a (N.to_nat id)); [discriminate|]. auto.
Qed.

Lemma aget_lt {A} (a : tarena A) id v : aget a id = Some v -> N.to_nat id < length (items a).
Proof. apply Proofs.Arena.index_lt. Qed.

Lemma aalloc_eq {A} (a : tarena A) (v : A) :
  aalloc a v = ({| items := items a ++ [v]; dead := dead a |}, N.of_nat (length (items a))).
Proof. reflexivity. Qed.

Lemma aget_snoc_old {A} (a : tarena A) v g :
  N.to_nat g < length (items a) -> aget {| items := items a ++ [v]; dead := dead a |} g = aget a g.
Proof. apply (Proofs.Arena.index_alloc_old A a v). Qed.

(* the premise is the second half of the arena invariant [Proofs.Arena.Inv] (dead positions are below the length); for a
   parsed module [IndexMaps.ids_consistent] gives [dead a = []] *)
Lemma aget_snoc_new {A} (a : tarena A) v :
  Forall (fun d => d < length (items a)) (dead a) ->
  aget {| items := items a ++ [v]; dead := dead a |} (N.of_nat (length (items a))) = Some v.
Proof. unfold aget. rewrite Nat2N.id. apply (Proofs.Arena.index_alloc_new A a v). Qed.

Lemma aget_snoc_some {A} (a : tarena A) v g x :
  aget a g = Some x -> aget {| items := items a ++ [v]; dead := dead a |} g = Some x.
Proof. intros H. rewrite aget_snoc_old; [exact H|exact (aget_lt a g x H)]. Qed.

Lemma aget_snoc_inv {A} (a : tarena A) v g x :
  aget {| items := items a ++ [v]; dead := dead a |} g = Some x -> aget a g = Some x \/ (g = anext a /\ x = v).
Proof.
  intros H. destruct (Proofs.Arena.index_alloc_inv A a v _ _ H) as [[_ H']|[E ->]]; [left; exact H'|right].
  split; [|reflexivity]. apply N2Nat.inj. rewrite E. symmetry. apply Nat2N.id.
Qed.

Lemma aget_anext_none {A} (a : tarena A) : aget a (anext a) = None.
Proof.
  destruct (aget a (anext a)) as [x|] eqn:E; [|reflexivity].
  apply aget_lt in E. unfold anext, next_id in E. rewrite Nat2N.id in E. lia.
Qed.

Lemma aget_snoc_ne {A} (a : tarena A) v g :
  g <> anext a -> aget {| items := items a ++ [v]; dead := dead a |} g = aget a g.
Proof.
  intros Hne. destruct (aget {| items := items a ++ [v]; dead := dead a |} g) as [x|] eqn:E.
  - apply aget_snoc_inv in E as [E|[E _]]; [symmetry; exact E|contradiction].
  - destruct (aget a g) as [x|] eqn:E'; [|reflexivity]. apply (aget_snoc_some a v) in E'. congruence.
Qed.

Lemma aget_aset_at_eq {A} (a : tarena A) id f v :
  aget a id = Some v -> aget (aset_at a id f) id = Some (f v).
Proof.
  intros H. apply aget_nth in H. destruct H as [Hn Hd].
  unfold aget, index, get, aset_at, is_dead in *. cbn [items dead]. rewrite Hd.
  apply Proofs.Arena.upd_nth_eq. exact Hn.
Qed.

Lemma aget_aset_at_ne {A} (a : tarena A) id f g :
  g <> id -> aget (aset_at a id f) g = aget a g.
Proof.
  intros H. unfold aget, index, get, aset_at, is_dead. cbn [items dead].
  destruct (existsb _ _); [reflexivity|].
  apply Proofs.Arena.upd_nth_ne. intros E. apply H. apply N2Nat.inj. symmetry. exact E.
Qed.

Lemma aset_at_length {A} (a : tarena A) id f : length (items (aset_at a id f)) = length (items a).
Proof. apply Proofs.Arena.upd_length. Qed.

Lemma adelete_other {A} (a a' : tarena A) id i :
  adelete a id = Some a' -> i <> id -> aget a' i = aget a i.
Proof.
  intros H Hne. apply (Proofs.Arena.delete_isolated _ _ _ _ _ _ H).
  intros E. apply Hne, N2Nat.inj, E.
Qed.

Lemma adelete_gone {A} (a a' : tarena A) id : adelete a id = Some a' -> aget a' id = None.
Proof. apply Proofs.Arena.delete_gone. Qed.

Lemma adelete_shape {A} (a a' : tarena A) id :
  adelete a id = Some a' -> length (items a') = length (items a) /\ dead a' = N.to_nat id :: dead a.
Proof.
  unfold adelete, delete. destruct (contains a (N.to_nat id)); [|discriminate].
  intros H; inversion H. cbn [items dead]. split; [apply Proofs.Arena.upd_length|reflexivity].
Qed.

(* aiter: the live items, in the order of their identifiers *)
Lemma aiter_In {A} (a : tarena A) id v : In (id, v) (aiter a) <-> aget a id = Some v.
Proof.
  unfold aiter, aget. rewrite <- (Proofs.Arena.iter_live A (fun x => x) (fun _ _ => true)), in_map_iff. split.
  - intros [[n x] [E Hin]]. cbn [fst snd] in E. inversion E; subst. rewrite Nat2N.id. exact Hin.
  - intros H. exists (N.to_nat id, v). cbn [fst snd]. rewrite N2Nat.id. auto.
Qed.

Lemma aiter_snoc {A} (a : tarena A) v :
  Forall (fun d => d < length (items a)) (dead a) ->
  aiter {| items := items a ++ [v]; dead := dead a |} = aiter a ++ [(anext a, v)].
Proof.
  intros Hb. unfold aiter, iter. cbn [items dead]. rewrite Proofs.Arena.iter_from_app, map_app. f_equal.
  cbn [iter_from Nat.add]. change (existsb _ (dead a)) with (is_dead a (length (items a))).
  rewrite (Proofs.Arena.is_dead_above A a _ _ Hb (le_n _)). reflexivity.
Qed.

Lemma find_first_sorted {B} (k : B -> nat) (f : B -> bool) (l : list B) p :
  StronglySorted lt (map k l) -> find f l = Some p ->
  forall q, In q l -> k q < k p -> f q = false.
Proof.
  induction l as [|x r IH]; intros Hs Hf q Hin Hlt; [destruct Hin|].
  cbn [map] in Hs. inversion Hs as [|? ? Hs' Hall]; subst. cbn [find] in Hf.
  destruct (f x) eqn:Efx.
  - inversion Hf; subst. destruct Hin as [->|Hin]; [lia|].
    rewrite Forall_forall in Hall. specialize (Hall (k q) (in_map k _ _ Hin)). lia.
  - destruct Hin as [->|Hin]; [exact Efx|]. eapply IH; eauto.
Qed.

(* the `get_imported_func` / `get_exported_func` style lookups: the first live item that satisfies [f] *)
Lemma aiter_find_first {A} (a : tarena A) (f : N * A -> bool) p :
  find f (aiter a) = Some p ->
  aget a (fst p) = Some (snd p) /\ f p = true /\
  forall j x, aget a j = Some x -> (j < fst p)%N -> f (j, x) = false.
Proof.
  intros H. pose proof (find_some _ _ H) as [Hin Hp]. split; [|split; [exact Hp|]].
  - apply aiter_In. destruct p; exact Hin.
  - intros j x Hj Hlt.
    apply (find_first_sorted (fun q => N.to_nat (fst q)) f (aiter a) p); [|exact H|apply aiter_In, Hj|cbn [fst]; lia].
    unfold aiter. rewrite map_map. erewrite map_ext; [apply Proofs.Arena.iter_creation_order|].
    intros q. apply Nat2N.id.
Qed.
