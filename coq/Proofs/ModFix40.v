(* C08, module-level fixpoint with synthetic names (cf_skip_name = false, cf_synthetic_names = true): the fixpoint for
   every configuration is reduced to two visible facts about the second parse ([funcs_named_kept], [locals_named_kept]:
   every function / local carries the name the first emit wrote for it); the parse invariants behind them (with
   synthetic names every local and every local function of a parsed module is named); the executable input premise
   [locals_in_range_b]. *)
From Coq Require Import List NArith ZArith Bool Arith Lia Permutation Sorted.
Import ListNotations.
From WV Require Import Gen.Ops Model.Common Model.IR Model.Arena Model.Traversal Model.EmitFn Model.Locals
                       Model.ParseFn Model.ModuleM Model.ParseM Model.EmitM Gen.Attrs.
From WV Require Import Proofs.Arena Proofs.Order Proofs.IndexMaps Proofs.Structure Proofs.Structure2 Proofs.ParseTotal.
From WV Require Import Proofs.Names Proofs.ModFix Proofs.ModFix7.
From WV Require Proofs.ModFix17 Proofs.ModFix20 Proofs.ModFix21 Proofs.ModFixEx.
From WV Require Import Model.ParseSpec.
Local Open Scope nat_scope.

Definition op_locals_below (n : nat) (o : wop) : bool :=
  forallb (fun r => match fst r with S_local => N.to_nat (snd r) <? n | _ => true end) (wop_refs o).
Definition body_locals_in_range (nparams : nat) (b : wbody) : bool :=
  let n := nparams + length (expand_locals (wb_locals b)) in
  forallb (fun x => match fst x with WOp o => op_locals_below n o | _ => true end) (wb_ops b).
(* the k-th body belongs to the k-th entry of the function section(s); its parameters are those of the
   type the entry names (position in the concatenated type sections) *)
Definition locals_in_range_b (w : wmod) : bool :=
  forallb (fun p => match nth_error (flat_map types_of w) (N.to_nat (fst p)) with
                    | Some t => body_locals_in_range (length (fst t)) (snd p)
                    | None => false end)
          (combine (flat_map funcs_of w) (flat_map code_of w)).
Definition locals_in_range (w : wmod) : Prop := locals_in_range_b w = true.

(* the witness of ModFixEx.module_fixpoint_refuted_valid_stream (local.get 0 in a function without locals) violates it;
   so does the second witness wP2; the valid examples satisfy it *)
Example wP_not_in_range : locals_in_range_b ModFixEx.wP = false. Proof. vm_compute. reflexivity. Qed.
Example wP2_not_in_range : locals_in_range_b ModFixEx.wP2 = false. Proof. vm_compute. reflexivity. Qed.
Example wP_violates : ~ locals_in_range ModFixEx.wP. Proof. unfold locals_in_range. rewrite wP_not_in_range. discriminate. Qed.
Example wA_in_range : locals_in_range ModFixEx.wA. Proof. vm_compute. reflexivity. Qed.
Example wS2_in_range : locals_in_range ModFixEx.wS2. Proof. vm_compute. reflexivity. Qed.
Example w4_in_range : locals_in_range ModFixEx.w4. Proof. vm_compute. reflexivity. Qed.

(* every local of a parse-time local vector of the second parse carries exactly the name the first
   emit wrote for its slot (synthesis adds nothing that is visible) *)
Definition locals_named_kept (s2 : pst) (n1 : wnames) : Prop :=
  forall fid lid lo, In lid (locals_vec (ps_ids s2) fid) -> aget (m_locals (ps_m s2)) lid = Some lo ->
    lo_name lo = last_name (loc_entries false (ps_ids s2) (wn_locals n1)) lid.

Theorem fix_names_locals_gen : forall cf ver w ilen s1 e1 s2 e2,
  two_trips cf ver w ilen s1 e1 s2 e2 -> cf_skip_name cf = false -> locals_named_kept s2 (stream_names (em_secs e1)) ->
  rho_id s2 e2 S_func -> locals_identity s2 e2 -> locals_canon s2 (stream_names (em_secs e1)) ->
  wn_locals (stream_names (em_secs e2)) = wn_locals (stream_names (em_secs e1)).
Proof. exact fix_names_locals_of. Qed.

(* without synthetic names the premise holds *)
Lemma locals_named_kept_nosyn cf ver w ilen s1 e1 s2 e2 :
  two_trips cf ver w ilen s1 e1 s2 e2 -> cf_skip_name cf = false -> cf_synthetic_names cf = false ->
  locals_named_kept s2 (stream_names (em_secs e1)).
Proof. exact (local_names_kept_nosyn cf ver w ilen s1 e1 s2 e2). Qed.

Theorem module_fixpoint_synthetic_partial : forall cf ver w ilen s1 e1 s2 e2,
  two_trips cf ver w ilen s1 e1 s2 e2 -> valid_stream w ->
  (cf_skip_name cf = false -> ModFix21.funcs_named_kept s2 (stream_names (em_secs e1))) ->
  (cf_skip_name cf = false -> locals_named_kept s2 (stream_names (em_secs e1))) ->
  em_secs e2 = em_secs e1.
Proof.
  intros cf ver w ilen s1 e1 s2 e2 TT V PF PL.
  destruct (cf_skip_name cf) eqn:Sk.
  { exact (ModFix20.module_fixpoint_skip_name _ _ _ _ _ _ _ _ TT V Sk). }
  apply (ModFix21.module_fixpoint_syn_partial cf ver w ilen s1 e1 s2 e2 TT V Sk (PF eq_refl)).
  pose proof (ModFix17.params_kept_holds _ _ _ _ _ _ _ _ TT) as PK.
  pose proof (ModFix17.locals_struct_holds _ _ _ _ _ _ _ _ TT) as LS.
  apply (fix_names_locals_gen cf ver w ilen s1 e1 s2 e2 TT Sk (PL eq_refl)).
  - apply (ModFix20.canonical_identity_maps_valid _ _ _ _ _ _ _ _ TT V).
  - eapply ModFix17.locals_identity_proved; eassumption.
  - eapply ModFix17.locals_canon_proved; eassumption.
Qed.

Definition lo_named (lo : mlocal) : Prop := exists n, lo_name lo = Some n /\ n <> [].
Definition LN (a : tarena mlocal) : Prop := Forall lo_named (items a).

(* name sections: with synthetic names on only non-empty names are applied *)
Lemma loc_entries_syn_nonempty ids l lid n : In (lid, n) (loc_entries true ids l) -> n <> [].
Proof.
  unfold loc_entries. rewrite in_flat_map. intros ([fi names] & _ & H). unfold fn_entries in H. cbn [fst snd] in H.
  destruct (nth_N (ii_funcs ids) fi); [|destruct H]. unfold resolve in H. apply in_flat_map in H.
  destruct H as ([p n'] & Hp & H). cbn [fst snd] in H. apply filter_In in Hp. destruct Hp as [_ Hp]. cbn [snd andb] in Hp.
  destruct (nth_N _ p); [|destruct H]. destruct H as [H|[]]. inversion H; subst. destruct n; [discriminate|discriminate].
Qed.
Lemma set_all_LN : forall l a, (forall lid n, In (lid, n) l -> n <> []) -> LN a -> LN (set_all a l).
Proof.
  induction l as [|[i n] r IH]; intros a Hl H; cbn [set_all]; [exact H|]. apply IH; [intros lid n' Hin; apply (Hl lid); right; exact Hin|].
  unfold LN, aset_at. cbn [items]. apply WV.Proofs.Names.Forall_upd; [|exact H].
  intros x _. exists n. split; [reflexivity|]. apply (Hl i). left. reflexivity.
Qed.

(* with synthetic names on, every step keeps [LN]: only a new local and a name section write the locals *)
Lemma step_LN st m ids m' ids' : cf_synthetic_names (m_config m) = true -> LN (m_locals m) ->
  do_step st m ids = POk (m', ids') -> LN (m_locals m').
Proof.
  intros Hs H E. destruct st; try (rewrite (step_writes _ _ _ _ _ E); exact H).
  - destruct (step_arenas (St_local fid t prefix) _ _ _ _ (or_intror eq_refl) E) as [_ _ _ _ _ _ _ _ Al].
    refine (achange_Forall _ _ _ _ _ Al _ _ H); [intros x y <- Hx; exact Hx|]. intros v Hv. exact (synth_name_on _ _ Hv Hs).
  - injection E as <- _. rewrite parse_names_eq. wcbn. apply set_all_LN; [|exact H]. rewrite Hs. apply loc_entries_syn_nonempty.
Qed.

Theorem parseM_locals_named : forall cf ver w s, parseM cf ver w = POk s -> cf_synthetic_names cf = true ->
  LN (m_locals (ps_m s)).
Proof.
  intros cf ver w s HP Hs.
  refine (proj2 (parseM_inv (fun m _ => m_config m = cf /\ LN (m_locals m)) _ cf ver w s (conj eq_refl (Forall_nil _)) HP)).
  intros st m ids m' ids' [Hc H] E. split; [rewrite (step_config _ _ _ _ _ E); exact Hc|].
  apply (step_LN st m ids m' ids'); [rewrite Hc; exact Hs|exact H|exact E].
Qed.

(* in the form used by the emitter: a live local of the parsed module has a name, and it is not empty *)
Corollary parseM_local_named cf ver w s lid lo : parseM cf ver w = POk s -> cf_synthetic_names cf = true ->
  aget (m_locals (ps_m s)) lid = Some lo -> exists n, lo_name lo = Some n /\ n <> [].
Proof.
  intros HP Hs Hg. pose proof (parseM_locals_named _ _ _ _ HP Hs) as H. unfold LN in H. rewrite Forall_forall in H.
  apply H. eapply nth_error_In. apply aget_nth. exact Hg.
Qed.

(* before the bodies are installed: no local function yet, every declared function is named *)
Definition fnu (f : mfunc) : Prop :=
  match fn_kind f with FK_Uninit _ => fn_name f <> None | FK_Import _ _ => True | FK_Local _ => False end.
(* afterwards *)
Definition fnl (f : mfunc) : Prop := match fn_kind f with FK_Local _ => fn_name f <> None | _ => True end.

(* the steps of the sections keep it (synthetic names on) *)
Lemma step_FN st m ids m' ids' : phase_of st = Sections -> cf_synthetic_names (m_config m) = true ->
  Forall fnu (items (m_funcs m)) -> do_step st m ids = POk (m', ids') -> Forall fnu (items (m_funcs m')).
Proof.
  intros Hq Hs H E. destruct (step_arenas _ _ _ _ _ (or_introl Hq) E) as [_ Af _ _ _ _ _ _ _].
  refine (achange_Forall _ _ _ _ _ Af _ _ H); [intros x y <- Hx; exact Hx|].
  intros v Hv. unfold fnu, new_fn in *. destruct (fn_kind v); [exact I|exact Hv|].
  destruct (synth_name_on _ _ Hv Hs) as (n & -> & _). discriminate.
Qed.

Definition fn_rel (f0 f : mfunc) : Prop :=
  fn_name f = fn_name f0 /\ (fn_kind f = fn_kind f0 \/ exists ty, fn_kind f0 = FK_Uninit ty).
Lemma Forall2_upd_r {A B} (R : A -> B -> Prop) g : forall l0 l n x0, Forall2 R l0 l -> nth_error l0 n = Some x0 ->
  (forall y, R x0 y -> R x0 (g y)) -> Forall2 R l0 (Arena.upd l n g).
Proof.
  induction l0 as [|a l0 IH]; intros l n x0 H Hn Hg; inversion H; subst; [destruct n; discriminate|].
  destruct n as [|n]; cbn [Arena.upd].
  - cbn in Hn. inversion Hn; subst. constructor; auto.
  - constructor; [assumption|]. eapply IH; eauto.
Qed.
Lemma install_bodies_rel : forall ps m ids m' fa0, install_bodies m ids ps = POk m' ->
  Forall (uninit_in fa0) ps -> Forall2 fn_rel (items fa0) (items (m_funcs m)) -> Forall2 fn_rel (items fa0) (items (m_funcs m')).
Proof.
  induction ps as [|p r IH]; intros m ids m' fa0 E U H; cbn [install_bodies] in E; [inversion E; subst; exact H|].
  pinv E as lf Elf. inversion U as [|? ? Up Ur]; subst. eapply IH; [exact E|exact Ur|]. wcbn.
  destruct Up as (f0 & ty & Hn & Hk). eapply Forall2_upd_r; [exact H|exact Hn|].
  intros y (Hy1 & _). split; [exact Hy1|]. right. exists ty. exact Hk.
Qed.
Lemma fn_rel_refl l : Forall2 fn_rel l l.
Proof. induction l; constructor; auto. split; [reflexivity|left; reflexivity]. Qed.
Lemma fnu_rel_fnl : forall l0 l, Forall fnu l0 -> Forall2 fn_rel l0 l -> Forall fnl l.
Proof.
  intros l0 l H0 H. induction H as [|f0 f l0 l (Hn & Hk) HF IH]; [constructor|].
  inversion H0; subst. constructor; [|auto]. unfold fnl, fnu in *.
  destruct (fn_kind f) eqn:Ek; try exact I. rewrite Hn. destruct Hk as [Hk|(ty & Hk)].
  - rewrite <- Hk in *. contradiction.
  - rewrite Hk in *. assumption.
Qed.
Lemma apply_names_fnl idx : forall l a, Forall fnl (items a) -> Forall fnl (items (apply_names a idx set_fn_name l)).
Proof.
  induction l as [|[i n] r IH]; intros a H; cbn [apply_names]; [exact H|].
  destruct (nth_N idx i); [|apply IH; exact H]. apply IH. unfold aset_at. cbn [items].
  apply WV.Proofs.Names.Forall_upd; [|exact H]. intros x Hx. unfold fnl, set_fn_name in *. cbn.
  destruct (fn_kind x); try exact I. discriminate.
Qed.

Theorem parseM_funcs_named : forall cf ver w s, parseM cf ver w = POk s -> cf_synthetic_names cf = true ->
  Forall fnl (items (m_funcs (ps_m s))).
Proof.
  intros cf ver w s HP Hs. destruct (parseM_phases _ _ _ _ HP) as (m1 & m2 & prepared & m3 & R1 & R2 & U & E3 & _ & ->).
  assert (F1 : m_config (fst m1) = cf /\ Forall fnu (items (m_funcs (fst m1)))).
  { refine (reach_by_inv _ (fun m _ => m_config m = cf /\ Forall fnu (items (m_funcs m))) _ _ _ R1 (conj eq_refl (Forall_nil _))).
    intros st m ids m' ids' Hq [Hc H] E. split; [rewrite (step_config _ _ _ _ _ E); exact Hc|].
    apply (step_FN st m ids m' ids' Hq); [rewrite Hc; exact Hs|exact H|exact E]. }
  destruct F1 as [_ F1]. rewrite <- (prepare_funcs _ _ R2) in F1. cbn [fst] in F1.
  cbn [set_producers m_funcs]. rewrite all_names_funcs. apply apply_names_fnl.
  eapply fnu_rel_fnl; [exact F1|]. eapply install_bodies_rel; [exact E3|exact U|]. apply fn_rel_refl.
Qed.

Corollary parseM_local_func_named cf ver w s fid f lf : parseM cf ver w = POk s -> cf_synthetic_names cf = true ->
  aget (m_funcs (ps_m s)) fid = Some f -> fn_kind f = FK_Local lf -> fn_name f <> None.
Proof.
  intros HP Hs Hg Hk. pose proof (parseM_funcs_named _ _ _ _ HP Hs) as H. rewrite Forall_forall in H.
  specialize (H f (nth_error_In _ _ (aget_nth _ _ _ Hg))). unfold fnl in H. rewrite Hk in H. exact H.
Qed.

(* The reduction to the two name facts: they hold trivially when the name section is skipped and are proved when
   names are not synthesised; for cf_skip_name = false and cf_synthetic_names = true they are premises here
   (ModFix41 proves them from the correspondence first module -> second parse). *)
Theorem module_fixpoint_all_configs_partial : forall cf ver w ilen s1 e1 s2 e2,
  two_trips cf ver w ilen s1 e1 s2 e2 -> valid_stream w ->
  (cf_skip_name cf = false -> cf_synthetic_names cf = true ->
     ModFix21.funcs_named_kept s2 (stream_names (em_secs e1)) /\ locals_named_kept s2 (stream_names (em_secs e1))) ->
  em_secs e2 = em_secs e1.
Proof.
  intros cf ver w ilen s1 e1 s2 e2 TT V H.
  destruct (cf_skip_name cf) eqn:Sk.
  { exact (ModFix20.module_fixpoint_skip_name _ _ _ _ _ _ _ _ TT V Sk). }
  destruct (cf_synthetic_names cf) eqn:Sy.
  - destruct (H eq_refl eq_refl) as [PF PL].
    apply (module_fixpoint_synthetic_partial cf ver w ilen s1 e1 s2 e2 TT V); intros _; assumption.
  - destruct TT as (P1 & E1 & P2 & E2).
    eapply ModFix20.module_fixpoint_partial; [exact P1|exact E1|exact P2|exact E2|exact V|right; exact Sy].
Qed.

(* non-vacuity: synthetic names on, one UNNAMED function with a parameter and a DECLARED local that is used, no name
   section in the input: every premise holds, the first emit already carries "f0", "arg0", "l1" *)
Definition wN : wmod :=
  [ S_Types [([VT_I32], [])]; S_Funcs [0%N];
    S_Code [ModFixEx.body [(1%N, VT_I64)] [RPlain (W_LocalGet 1%N) 1%N]] ].
Lemma wN_valid : valid_stream wN.
Proof.
  unfold valid_stream, wN. cbn [valid_from]. unfold valid_sec.
  repeat match goal with |- _ /\ _ => split end;
    try (vm_compute; reflexivity); try exact I.
  cbn [cstep cstep0 set_last c_nt fold_left cimp wi_kind rank ctx0 length Nat.add].
  repeat constructor. exists [RPlain (W_LocalGet 1%N) 1%N], 99%N. split; [reflexivity|].
  cbn [swfl swf]. split; [|exact I]. intros f H; vm_compute in H; discriminate H.
Qed.
(* the two round trips of [wN], evaluated once *)
Definition wN_s1 : pst := Eval vm_compute in
  match parseM ModFixEx.syn_config [49%N] wN with POk s => s
  | _ => {| ps_m := empty_wir ModFixEx.syn_config; ps_ids := empty_i2ids; ps_bodies := []; ps_names := []; ps_calls_on_parse := 0%N |} end.
Definition wN_e1 : emitted := Eval vm_compute in
  match emitM (ps_m wN_s1) ModFixEx.il1 [] with Ok e => e | _ => {| em_secs := []; em_module := ps_m wN_s1; em_x2i := empty_x2i; em_fns := [] |} end.
Definition wN_s2 : pst := Eval vm_compute in match parseM ModFixEx.syn_config [49%N] (em_secs wN_e1) with POk s => s | _ => wN_s1 end.
Definition wN_e2 : emitted := Eval vm_compute in match emitM (ps_m wN_s2) ModFixEx.il1 [] with Ok e => e | _ => wN_e1 end.
Example synthetic_nonvacuous :
  exists s1 e1 s2 e2, two_trips ModFixEx.syn_config [49%N] wN ModFixEx.il1 s1 e1 s2 e2 /\
    valid_stream wN /\ locals_in_range wN /\
    ModFix21.funcs_named_kept s2 (stream_names (em_secs e1)) /\ locals_named_kept s2 (stream_names (em_secs e1)) /\
    wn_funcs (stream_names (em_secs e1)) = [(0%N, [102%N; 48%N])] /\
    wn_locals (stream_names (em_secs e1)) = [(0%N, [(0%N, [97%N; 114%N; 103%N; 48%N]); (1%N, [108%N; 49%N])])] /\
    em_secs e2 = em_secs e1.
Proof.
  exists wN_s1, wN_e1, wN_s2, wN_e2.
  split; [unfold two_trips; split; [vm_compute; reflexivity|split; [vm_compute; reflexivity|split; [vm_compute; reflexivity|vm_compute; reflexivity]]]|].
  split; [exact wN_valid|]. split; [vm_compute; reflexivity|].
  split.
  { intros i f Hin Hne. vm_compute in Hin. destruct Hin as [Hin|[]]. inversion Hin; subst. vm_compute. left. reflexivity. }
  split.
  { intros fid lid lo Hv Hg. destruct fid as [|p].
    - vm_compute in Hv. destruct Hv as [<-|[<-|[]]]; vm_compute in Hg; inversion Hg; subst; vm_compute; reflexivity.
    - exfalso. vm_compute in Hv. exact Hv. }
  split; [vm_compute; reflexivity|]. split; vm_compute; reflexivity.
Qed.

Print Assumptions wP_violates.
Print Assumptions fix_names_locals_gen.
Print Assumptions locals_named_kept_nosyn.
Print Assumptions module_fixpoint_synthetic_partial.
Print Assumptions parseM_locals_named.
Print Assumptions parseM_local_named.
Print Assumptions parseM_funcs_named.
Print Assumptions parseM_local_func_named.
Print Assumptions module_fixpoint_all_configs_partial.
Print Assumptions synthetic_nonvacuous.
