(* What a reader sees in the address attributes of a subprogram DIE (C10): facts about
   [convert_attr_address] (the closure handed to gimli for every address attribute) and
   [convert_subprogram] (the (low_pc, high_pc) pair after convert_high_pc) of Model/Dwarf.v. *)
From Coq Require Import List NArith Bool Lia Sorted.
Import ListNotations.
From WV Require Import Model.Common Model.Dwarf Proofs.Dwarf.
Local Open Scope N_scope.

(* an attribute address is never redirected to anything but its own image or the tombstone *)

Theorem attr_address_trichotomy : forall t c a,
  (convert_attr_address t c a = a /\ (a = 0 \/ a = dead_code)) \/
  (exists x, convert_address t c a true = Some x /\ convert_attr_address t c a = x) \/
  (convert_address t c a true = None /\ convert_attr_address t c a = dead_code).
Proof.
  intros t c a. unfold convert_attr_address.
  destruct (N.eqb_spec a 0) as [E0|N0].
  - left. cbn [orb]. auto.
  - destruct (N.eqb_spec a dead_code) as [Ed|Nd]; cbn [orb].
    + left. auto.
    + right. destruct (convert_address t c a true) as [x|].
      * left. exists x. auto.
      * right. auto.
Qed.

(* unfolding of the attribute closure away from the two pass-through values *)
Lemma attr_address_live t c a : a <> 0 -> a <> dead_code ->
  convert_attr_address t c a = match convert_address t c a true with Some x => x | None => dead_code end.
Proof.
  intros N0 Nd. unfold convert_attr_address.
  apply N.eqb_neq in N0. apply N.eqb_neq in Nd. rewrite N0, Nd. reflexivity.
Qed.

Lemma body_start_pos t r : tables_wf t -> In r (dt_ranges t) ->
  body_start (fst r) <> 0 /\ body_start (fst r) <= rng_end r.
Proof.
  intros Hwf Hr. destruct (range_shape t Hwf r Hr) as (k & sz & Hk & Hsz & Hb & He). lia.
Qed.

(* kept function: the DIE read back covers exactly the emitted body.
   Side conditions really needed: only [low <> dead_code]; [low <> 0] and [low <= rng_end r] follow from tables_wf. *)

Theorem subprogram_die_kept : forall t c r s' e' sz' low off,
  tables_wf t -> In r (dt_ranges t) ->
  lookup (snd r) (ct_franges c) = Some (s', e') ->
  2 <= sz' -> e' = s' + leb5 sz' + sz' -> ct_start c <= s' ->
  low = body_start (fst r) -> off = rng_end r - low ->
  low <> dead_code ->
  convert_subprogram t c low off = (s' + leb5 sz' - ct_start c, sz').
Proof.
  intros t c r s' e' sz' low off Hwf Hr Hl Hsz He Hcs Hlow Hoff Nd.
  destruct (subprogram_range t Hwf c r s' e' sz' true Hr Hl Hsz He Hcs) as (H1 & H2 & H3).
  destruct (body_start_pos t r Hwf Hr) as [N0 Hle].
  unfold convert_subprogram. subst low off.
  rewrite attr_address_live by assumption.
  rewrite (N.add_comm (body_start (fst r))), (N.sub_add _ _ Hle), H1, H2, H3. reflexivity.
Qed.

(* removed function: tombstoned low_pc, and the size is left as it was, whatever it was (no side condition at all:
   a low_pc that already is the tombstone passes through as the tombstone) *)
Corollary subprogram_die_removed_any_off : forall t c r off,
  tables_wf t -> In r (dt_ranges t) ->
  lookup (snd r) (ct_franges c) = None ->
  convert_subprogram t c (body_start (fst r)) off = (dead_code, off).
Proof.
  intros t c r off Hwf Hr Hl.
  destruct (subprogram_removed t Hwf c r true Hr Hl) as [H1 H2].
  destruct (body_start_pos t r Hwf Hr) as [N0 Hle].
  unfold convert_subprogram. rewrite H1. f_equal.
  destruct (attr_address_trichotomy t c (body_start (fst r))) as [[E [?|Ed]]|[(x & Hx & _)|[_ E]]].
  - contradiction.
  - rewrite E. exact Ed.
  - congruence.
  - exact E.
Qed.

Theorem subprogram_die_removed : forall t c r low off,
  tables_wf t -> In r (dt_ranges t) ->
  lookup (snd r) (ct_franges c) = None ->
  low = body_start (fst r) -> off = rng_end r - low ->
  convert_subprogram t c low off = (dead_code, off).
Proof. intros t c r low off Hwf Hr Hl -> _. now apply subprogram_die_removed_any_off. Qed.

(* low_pc written as the address of the first instruction: it follows that instruction.
   [low <> 0] follows from tables_wf (an instruction lies strictly after a body start). *)

Theorem subprogram_die_of_instruction_start : forall t c low off loc x,
  tables_wf t -> In (low, loc) (dt_instrs t) ->
  lookup loc (ct_imap c) = Some x ->
  low <> dead_code ->
  fst (convert_subprogram t c low off) = x - ct_start c.
Proof.
  intros t c low off loc x Hwf Hin Hl Nd.
  assert (N0 : low <> 0).
  { destruct (instr_in_range t Hwf (low, loc) Hin) as (r & Hr & Hlt). cbn [fst] in Hlt. lia. }
  unfold convert_subprogram. cbn [fst].
  rewrite attr_address_live by assumption.
  rewrite (convert_instr_kept t Hwf c low loc x true Hin Hl). reflexivity.
Qed.

(* the side condition [low <> dead_code] of subprogram_die_kept and subprogram_die_of_instruction_start is really needed:
   a body start / instruction sitting exactly at the tombstone value passes through unchanged instead of being translated *)
Definition tomb_tables : dtables :=
  {| dt_instrs := [(4294967297, 0)]; dt_ranges := [((4294967294, 4294967301), 7)] |}.
Definition tomb_trans : ctrans := {| ct_imap := [(0, 103)]; ct_franges := [(7, (100, 107))]; ct_start := 90 |}.

Example tomb_tables_wf : tables_wf tomb_tables.
Proof.
  constructor; cbn [tomb_tables dt_instrs dt_ranges].
  - repeat constructor.
  - repeat constructor.
  - repeat constructor. exists 6. cbn. split; [lia|reflexivity].
  - repeat constructor. exists ((4294967294, 4294967301), 7). split; [cbn; tauto|]. vm_compute. split; reflexivity.
Qed.

Example tombstone_low_pc_passes_through :
  body_start (4294967294, 4294967301) = dead_code /\
  convert_address tomb_tables tomb_trans dead_code true = Some 11 /\
  convert_subprogram tomb_tables tomb_trans dead_code 6 = (dead_code, 6).
Proof. vm_compute. repeat split; reflexivity. Qed.

(* On [ex_tables]: function 7 (entry [10,17), body [11,17), size 6, 1-byte size field) is emitted at
   [100, 302) with a 200-byte body (2-byte size field); function 8 (entry [17,27), body [18,27)) is removed.
   The code section contents start at 90. *)
Definition ex_trans : ctrans :=
  {| ct_imap := [(0, 150); (1, 170)]; ct_franges := [(7, (100, 302))]; ct_start := 90 |}.

Example ex_kept_leb_changed :
  leb5 6 = 1 /\ leb5 200 = 2 /\
  convert_subprogram ex_tables ex_trans 11 6 = (12, 200).
Proof. vm_compute. repeat split; reflexivity. Qed.

(* the same through the theorem: its premises are satisfiable *)
Example ex_kept_by_theorem : convert_subprogram ex_tables ex_trans 11 6 = (100 + leb5 200 - 90, 200).
Proof.
  apply (subprogram_die_kept ex_tables ex_trans ((10, 17), 7) 100 302 200 11 6 ex_tables_wf).
  - cbn; tauto.
  - reflexivity.
  - lia.
  - reflexivity.
  - cbn; lia.
  - reflexivity.
  - reflexivity.
  - discriminate.
Qed.

Example ex_removed : convert_subprogram ex_tables ex_trans 18 9 = (dead_code, 9).
Proof. vm_compute. reflexivity. Qed.

Example ex_removed_by_theorem : convert_subprogram ex_tables ex_trans 18 9 = (dead_code, 9).
Proof.
  apply (subprogram_die_removed ex_tables ex_trans ((17, 27), 8) 18 9 ex_tables_wf).
  - cbn; tauto.
  - reflexivity.
  - reflexivity.
  - reflexivity.
Qed.

Example ex_instruction_start : fst (convert_subprogram ex_tables ex_trans 13 4) = 60.
Proof. vm_compute. reflexivity. Qed.

Example ex_attr_trichotomy :
  convert_attr_address ex_tables ex_trans 0 = 0 /\
  convert_attr_address ex_tables ex_trans dead_code = dead_code /\
  convert_attr_address ex_tables ex_trans 13 = 60 /\
  convert_attr_address ex_tables ex_trans 24 = dead_code /\
  convert_attr_address ex_tables ex_trans 5 = dead_code.
Proof. vm_compute. repeat split; reflexivity. Qed.

Print Assumptions attr_address_trichotomy.
Print Assumptions subprogram_die_kept.
Print Assumptions subprogram_die_removed.
Print Assumptions subprogram_die_of_instruction_start.
