(* C10: the explicit-stack DIE cursor (Model/DieCursor.v, walrus' DebuggingInformationCursor) enumerates a unit in pre-order,
   each entry exactly once, and convert_high_pc's zip pairs every DIE with its own image when the shapes agree. *)
From Coq Require Import List NArith Lia Bool.
Import ListNotations.
From WV Require Import Model.DieCursor.
Local Open Scope nat_scope.

(* induction over a tree with the hypothesis for every child *)
Fixpoint dtree_ind2 (P : dtree -> Prop)
  (H : forall i kids, Forall P kids -> P (DNode i kids)) (t : dtree) : P t :=
  match t with
  | DNode i kids =>
      H i kids ((fix go (l : list dtree) : Forall P l :=
                   match l with
                   | [] => Forall_nil P
                   | k :: r => Forall_cons k (dtree_ind2 P H k) (go r)
                   end) kids)
  end.

(* total size of a stack / of a list of children *)
Definition ssize (st : list dtree) : nat := fold_right (fun k n => dsize k + n) 0 st.

Lemma dsize_node : forall i kids, dsize (DNode i kids) = S (ssize kids).
Proof. reflexivity. Qed.

Lemma ssize_cons : forall t st, ssize (t :: st) = dsize t + ssize st.
Proof. reflexivity. Qed.

Lemma ssize_app : forall a b, ssize (a ++ b) = ssize a + ssize b.
Proof.
  induction a as [|t a IH]; intros b; [reflexivity|].
  cbn [app]. rewrite !ssize_cons, IH. lia.
Qed.

(* a call replaces the top of the stack by its children: one entry less *)
Lemma ssize_pop : forall i kids st, ssize (DNode i kids :: st) = S (ssize (kids ++ st)).
Proof. intros. rewrite ssize_app. reflexivity. Qed.

Lemma dsize_pos : forall t, 1 <= dsize t.
Proof. intros [i kids]. rewrite dsize_node. lia. Qed.

Lemma ssize_zero_nil : forall st, ssize st = 0 -> st = [].
Proof.
  intros [|t st] H; [reflexivity|].
  rewrite ssize_cons in H. pose proof (dsize_pos t). lia.
Qed.

Lemma preorder_node : forall i kids, preorder (DNode i kids) = i :: flat_map preorder kids.
Proof. reflexivity. Qed.

(* the entries still to be returned by a called cursor whose stack is [st] (head = the entry returned last) *)
Definition pending (st : list dtree) : list N := tl (flat_map preorder st).

Lemma pending_cons : forall i kids st,
  pending (DNode i kids :: st) = flat_map preorder kids ++ flat_map preorder st.
Proof. reflexivity. Qed.

Lemma flat_map_preorder_head : forall t q,
  flat_map preorder (t :: q) = did t :: pending (t :: q).
Proof. intros [i kids] q. reflexivity. Qed.

(* The invariant of the loop: a called cursor returns exactly what is pending, provided the fuel covers it. *)
Lemma visit_called_pending : forall root fuel st,
  ssize st <= S fuel ->
  visit root fuel {| c_stack := st; c_called := true |} = pending st.
Proof.
  intros root fuel. induction fuel as [|f IH]; intros [|[i kids] rest] Hf; try reflexivity;
    rewrite ssize_pop in Hf; rewrite pending_cons, <- flat_map_app.
  - rewrite (ssize_zero_nil (kids ++ rest)) by lia. reflexivity.
  - cbn [visit next_dfs c_called c_stack negb].
    destruct (kids ++ rest) as [|t' q]; [reflexivity|].
    cbn [current c_stack]. rewrite IH by lia.
    rewrite flat_map_preorder_head. reflexivity.
Qed.

Theorem visit_stack_spec : forall root fuel c t st,
  c_called c = true -> c_stack c = t :: st ->
  S fuel >= dsize t + ssize st ->
  visit root fuel c =
    flat_map preorder (match t with DNode _ kids => kids end) ++ flat_map preorder st.
Proof.
  intros root fuel [stk cal] t st Hc Hs Hf. cbn [c_called c_stack] in Hc, Hs. subst cal stk.
  rewrite visit_called_pending by (rewrite ssize_cons; lia).
  destruct t as [i kids]. apply pending_cons.
Qed.

(* the first call pushes and returns the root *)
Lemma visit_cursor0 : forall root f,
  visit root (S f) cursor0 = did root :: visit root f {| c_stack := [root]; c_called := true |}.
Proof. reflexivity. Qed.

(* Any fuel that covers the entries will do: the loop stops by itself, and the call that only observes the None is not needed. *)
Lemma visit_enough_fuel : forall root fuel, dsize root <= fuel -> visit root fuel cursor0 = preorder root.
Proof.
  intros root [|f] Hf; [pose proof (dsize_pos root); lia|].
  rewrite visit_cursor0.
  rewrite visit_called_pending by (rewrite ssize_cons; cbn [ssize fold_right]; lia).
  rewrite <- flat_map_preorder_head. cbn [flat_map]. apply app_nil_r.
Qed.

Theorem visit_more_fuel : forall root k,
  visit root (S (dsize root) + k) cursor0 = preorder root.
Proof. intros root k. apply visit_enough_fuel. lia. Qed.

Theorem visit_all_is_preorder : forall root, visit_all root = preorder root.
Proof. intros root. apply visit_enough_fuel, le_S, le_n. Qed.

Lemma visit_exact_fuel : forall root, visit root (dsize root) cursor0 = preorder root.
Proof. intros root. apply visit_enough_fuel, le_n. Qed.

(* the cursor returns None after the last entry, and keeps returning None *)
Theorem next_dfs_done_stays_done : forall root c c',
  next_dfs root c = (c', None) -> next_dfs root c' = (c', None).
Proof.
  intros root [stk [|]] c' H; [|discriminate H].
  destruct stk as [|[i kids] rest]; cbn in H.
  - injection H as <-. reflexivity.
  - destruct (kids ++ rest); [|discriminate H].
    injection H as <-. reflexivity.
Qed.

Lemma next_dfs_after_last : forall root,
  next_dfs root {| c_stack := []; c_called := true |} = ({| c_stack := []; c_called := true |}, None).
Proof. reflexivity. Qed.

(* a cursor is never done before its first call *)
Lemma next_dfs_first_is_root : forall root,
  snd (next_dfs root cursor0) = Some (did root).
Proof. reflexivity. Qed.

Lemma length_preorder : forall t, length (preorder t) = dsize t.
Proof.
  apply dtree_ind2. intros i kids HF.
  rewrite preorder_node, dsize_node. cbn [length]. f_equal.
  induction HF as [|t kids Ht _ IH]; [reflexivity|].
  cbn [flat_map]. rewrite app_length, ssize_cons, Ht, IH. reflexivity.
Qed.

Theorem visit_all_each_once : forall root,
  length (visit_all root) = dsize root /\
  (NoDup (preorder root) ->
     NoDup (visit_all root) /\ forall i, In i (preorder root) <-> In i (visit_all root)).
Proof.
  intros root. rewrite visit_all_is_preorder. split.
  - apply length_preorder.
  - intros Hnd. split; [exact Hnd|]. intros i. reflexivity.
Qed.

Lemma preorder_map_tree : forall f t, preorder (map_tree f t) = map f (preorder t).
Proof.
  intros f. apply dtree_ind2. intros i kids HF.
  cbn [map_tree]. rewrite !preorder_node. cbn [map]. f_equal.
  induction HF as [|t kids Ht _ IH]; [reflexivity|].
  cbn [map flat_map]. rewrite map_app, Ht, IH. reflexivity.
Qed.

Lemma combine_map_self : forall (A B : Type) (f : A -> B) (l : list A),
  combine l (map f l) = map (fun i => (i, f i)) l.
Proof.
  intros A B f. induction l as [|a l IH]; [reflexivity|].
  cbn [map combine]. rewrite IH. reflexivity.
Qed.

(* convert_high_pc on a converted unit of the same shape: every DIE is paired with its own image *)
Theorem high_pc_pairs_own_image : forall f from,
  high_pc_pairs from (map_tree f from) = map (fun i => (i, f i)) (preorder from).
Proof.
  intros f from. unfold high_pc_pairs.
  rewrite visit_all_is_preorder, preorder_map_tree. apply combine_map_self.
Qed.

Corollary high_pc_pairs_own_image_in : forall f from i j,
  In (i, j) (high_pc_pairs from (map_tree f from)) -> In i (preorder from) /\ j = f i.
Proof.
  intros f from i j H. rewrite high_pc_pairs_own_image in H.
  apply in_map_iff in H. destruct H as [x [E Hx]]. injection E as <- <-. split; [exact Hx|reflexivity].
Qed.

Lemma dsize_map_tree : forall f t, dsize (map_tree f t) = dsize t.
Proof.
  intros f t. rewrite <- !length_preorder, preorder_map_tree. apply map_length.
Qed.

(* The shape premise is needed.  Input unit 1 [2 [3]; 4]; in the converted unit (f = times 10) the image of DIE 3 is missing:
   10 [20; 40]; DIE 3 is then paired with the image of DIE 4. *)
Theorem high_pc_pairs_shape_mismatch_refuted :
  exists (f : N -> N) (from to : dtree) (i j : N),
    (forall a b, f a = f b -> a = b) /\
    i <> j /\ In i (preorder from) /\ In j (preorder from) /\
    In (i, f j) (high_pc_pairs from to) /\
    high_pc_pairs from to <> map (fun i => (i, f i)) (preorder from).
Proof.
  exists (fun i => (10 * i)%N),
         (DNode 1%N [DNode 2%N [DNode 3%N []]; DNode 4%N []]), (DNode 10%N [DNode 20%N []; DNode 40%N []]), 3%N, 4%N.
  split; [intros a b H; lia|].
  split; [discriminate|].
  split; [vm_compute; tauto|].
  split; [vm_compute; tauto|].
  split; [vm_compute; tauto|].
  vm_compute. discriminate.
Qed.

(* a unit of 4 levels with a node of 3 children *)
Definition ex_tree : dtree :=
  DNode 1%N [ DNode 2%N [ DNode 3%N []; DNode 4%N [ DNode 5%N [] ]; DNode 6%N [] ];
             DNode 7%N [];
             DNode 8%N [ DNode 9%N [] ] ].

Example ex_visit_all : visit_all ex_tree = [1;2;3;4;5;6;7;8;9]%N.
Proof. vm_compute. reflexivity. Qed.

Example ex_preorder : preorder ex_tree = [1;2;3;4;5;6;7;8;9]%N.
Proof. vm_compute. reflexivity. Qed.

Example ex_dsize : dsize ex_tree = 9.
Proof. vm_compute. reflexivity. Qed.

Example ex_each_once : NoDup (visit_all ex_tree) /\ length (visit_all ex_tree) = 9.
Proof.
  split; [|vm_compute; reflexivity].
  apply (proj2 (visit_all_each_once ex_tree)).
  vm_compute. repeat (constructor; [cbn [In]; intros H; repeat (destruct H as [H|H]; [discriminate H|]); exact H|]).
  constructor.
Qed.

Example ex_pairs : high_pc_pairs ex_tree (map_tree (fun i => (100 + i)%N) ex_tree)
  = [(1,101);(2,102);(3,103);(4,104);(5,105);(6,106);(7,107);(8,108);(9,109)]%N.
Proof. vm_compute. reflexivity. Qed.

(* the loop stops by itself: ten times the fuel, same list *)
Example ex_more_fuel : visit ex_tree 100 cursor0 = [1;2;3;4;5;6;7;8;9]%N.
Proof. vm_compute. reflexivity. Qed.

(* the invariant in the middle of the walk: the cursor has just returned DIE 2, DIE 7 and 8 wait on the stack *)
Example ex_mid :
  visit ex_tree 20
    {| c_stack := [ DNode 2%N [ DNode 3%N []; DNode 4%N [ DNode 5%N [] ]; DNode 6%N [] ]; DNode 7%N []; DNode 8%N [ DNode 9%N [] ] ];
       c_called := true |} = [3;4;5;6;7;8;9]%N.
Proof. vm_compute. reflexivity. Qed.

Print Assumptions visit_stack_spec.
Print Assumptions visit_all_is_preorder.
Print Assumptions visit_more_fuel.
Print Assumptions visit_all_each_once.
Print Assumptions high_pc_pairs_own_image.
Print Assumptions high_pc_pairs_shape_mismatch_refuted.
