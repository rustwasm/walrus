(* The arena of instruction sequences as a list: in-place update, lengths as ids, and the
   flat reading of [Den].  Shared by the proofs about the body parser, the builder, the
   traversals and the emitter. *)
From Coq Require Import List NArith Arith Lia. Import ListNotations.
From WV Require Import Gen.Ops Model.Common Model.IR.
Open Scope N_scope.

Lemma upd_length {A} (l : list A) i f : length (upd l i f) = length l.
Proof. revert i; induction l; intros [|i]; cbn; auto. Qed.
Lemma upd_at {A} (l : list A) x r f : upd (l ++ x :: r) (length l) f = l ++ f x :: r.
Proof. induction l; cbn; auto. now rewrite IHl. Qed.

Lemma len_N_app {A} (l m : list A) : len_N (l ++ m) = len_N l + len_N m.
Proof. unfold len_N. rewrite app_length. lia. Qed.
Lemma len_N_cons {A} (x : A) (l : list A) : len_N (x :: l) = 1 + len_N l.
Proof. unfold len_N. cbn [length]. lia. Qed.
Lemma to_nat_len_N {A} (l : list A) : N.to_nat (len_N l) = length l.
Proof. unfold len_N. apply Nat2N.id. Qed.

Lemma nth_error_at {A} (pre : list A) x r k : length pre = k -> nth_error (pre ++ x :: r) k = Some x.
Proof. intros <-. rewrite nth_error_app2 by lia. now rewrite Nat.sub_diag. Qed.

(* the conjunction the nested fixpoints of [Den], [scoped] build over the items of a sequence *)
Lemma all_Forall {A} (P : A -> Prop) l :
  (fix go (l : list A) : Prop := match l with [] => True | x :: l' => P x /\ go l' end) l <-> Forall P l.
Proof.
  induction l as [|x l IH]; [split; constructor|]. rewrite Forall_cons_iff, <- IH. reflexivity.
Qed.

Definition sh (x : item * N) : instr * N := (shallow (fst x), snd x).
Definition mkseq (ty : seqty) (its : list (instr * N)) (e : N) : iseq :=
  {| sq_ty := ty; sq_instrs := its; sq_end := e |}.

Lemma Den_T ar s ty items e :
  Den ar (T s ty items e) <->
  nth_error ar (N.to_nat s) = Some (mkseq ty (map sh items) e) /\ Forall (fun x => IDen ar (fst x)) items.
Proof. exact (and_iff_compat_l _ (all_Forall (fun x => IDen ar (fst x)) items)). Qed.
