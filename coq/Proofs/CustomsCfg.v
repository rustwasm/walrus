(* Custom sections, the skip_name / skip_producers switches, the producers section and the
   on_parse callback count, on the module-level models (ParseM / EmitM / GC).

   Layout:
     A. definitions asked for (raw_customs, customs_of, is_name_sec, is_producers_sec, set_skip_name, set_skip_producers)
     B. parse side  : m_producers and m_customs are written by the custom sections (and the processed-by step) alone
                      -> parseM_custom_fields, parse_customs, parse_callback_once
     C. emit side   : emitM factored as  front ; names ; producers ; dwarf ; customs
                      -> emit_customs, c12_roundtrip
     D. gc_sweep          : gc_customs
     E. switches    : c14_name_switch / c14_producers_switch, generic in the one fact about
                      [set_customs_take] they need (Section TakeGeneric)
     F. producers   : producers_once / idempotent / others_kept
     G. THE ONLY BLOCK THAT LOOKS AT THE BODY OF [set_customs_take] (end of file). *)
From Coq Require Import List NArith ZArith Bool Lia Arith.
Import ListNotations.
From WV Require Import Gen.Ops Model.Common Model.IR Model.Arena Model.Traversal Model.EmitFn Model.Locals
                       Model.ModuleM Model.ParseM Model.EmitM Model.GC Proofs.ParseSteps.
From WV Require Proofs.GC.
Local Open Scope nat_scope.

(* ================================================================== A. definitions *)
Definition raw_customs (w : list wsec) : list (str * list N) :=
  flat_map (fun s => match s with S_Custom (CS_Raw n d) => [(n, d)] | _ => [] end) w.
Definition customs_of (m : wir) : list (str * list N) :=
  flat_map (fun c => match c with Some c => [(cu_name c, cu_data c)] | None => [] end) (m_customs m).
Definition is_name_sec (s : wsec) : bool := match s with S_Custom (CS_Name _) => true | _ => false end.
Definition is_producers_sec (s : wsec) : bool := match s with S_Custom (CS_Producers _) => true | _ => false end.
Definition is_custom (s : wsec) : bool := match s with S_Custom _ => true | _ => false end.

Definition set_config (m : wir) (cf : config) : wir :=
  {| m_imports := m_imports m; m_tables := m_tables m; m_types := m_types m; m_funcs := m_funcs m;
     m_globals := m_globals m; m_locals := m_locals m; m_exports := m_exports m; m_memories := m_memories m;
     m_data := m_data m; m_elements := m_elements m; m_start := m_start m; m_producers := m_producers m;
     m_customs := m_customs m; m_debug := m_debug m; m_name := m_name m; m_config := cf;
     m_code_section_offset := m_code_section_offset m |}.
Definition set_skip_name (m : wir) (b : bool) : wir :=
  set_config m {| cf_generate_dwarf := cf_generate_dwarf (m_config m); cf_synthetic_names := cf_synthetic_names (m_config m);
                  cf_only_stable := cf_only_stable (m_config m); cf_skip_producers := cf_skip_producers (m_config m);
                  cf_skip_name := b; cf_preserve_code_transform := cf_preserve_code_transform (m_config m) |}.
Definition set_skip_producers (m : wir) (b : bool) : wir :=
  set_config m {| cf_generate_dwarf := cf_generate_dwarf (m_config m); cf_synthetic_names := cf_synthetic_names (m_config m);
                  cf_only_stable := cf_only_stable (m_config m); cf_skip_producers := b;
                  cf_skip_name := cf_skip_name (m_config m); cf_preserve_code_transform := cf_preserve_code_transform (m_config m) |}.

(* small list facts *)
Lemma raw_customs_app a b : raw_customs (a ++ b) = raw_customs a ++ raw_customs b.
Proof. apply flat_map_app. Qed.
Lemma raw_customs_cons x r : raw_customs (x :: r) = raw_customs [x] ++ raw_customs r.
Proof. unfold raw_customs. cbn [flat_map]. rewrite app_nil_r. reflexivity. Qed.
Lemma filter_id {A} (f : A -> bool) l : (forall x, In x l -> f x = true) -> filter f l = l.
Proof.
  induction l as [|a l IH]; intros H; [reflexivity|]. cbn [filter].
  rewrite (H a (or_introl eq_refl)). f_equal. apply IH. intros x Hx. apply H. right. exact Hx.
Qed.
Lemma filter_none {A} (f : A -> bool) l : (forall x, In x l -> f x = false) -> filter f l = [].
Proof.
  induction l as [|a l IH]; intros H; [reflexivity|]. cbn [filter].
  rewrite (H a (or_introl eq_refl)). apply IH. intros x Hx. apply H. right. exact Hx.
Qed.

(* ================================================================== B. parse side *)
(* head-driven case analysis of a [pres] computation in  [comp = POk x -> concl]  goals *)
Ltac pstep :=
  match goal with
  | |- pbind ?A _ = _ -> _ => destruct A eqn:?; cbn [pbind]; cbv zeta; try (intro; discriminate)
  | |- match ?e with _ => _ end = _ -> _ => destruct e eqn:?; cbv zeta; try (intro; discriminate)
  end.

(* the shape of a successful Module::parse *)
Lemma parseM_shape cf ver w s : parseM cf ver w = POk s ->
  exists s1 m1 ids1 prepared m2,
    parse_secs {| ps_m := empty_wir cf; ps_ids := empty_i2ids; ps_bodies := []; ps_names := []; ps_calls_on_parse := 0%N |} w = POk s1 /\
    prepare_bodies (ps_m s1) (ps_ids s1)
       (len_N (iter (m_funcs (ps_m s1))) - len_N (ps_bodies s1))%N 0%N (ps_bodies s1) = POk (m1, ids1, prepared) /\
    install_bodies m1 ids1 prepared = POk m2 /\
    let m2' := fold_left (fun m n => parse_names m ids1 n) (ps_names s1) m2 in
    s = {| ps_m := set_producers m2' (producers_field (m_producers m2') s_processed_by s_walrus ver);
           ps_ids := ids1; ps_bodies := []; ps_names := []; ps_calls_on_parse := (ps_calls_on_parse s1 + 1)%N |}.
Proof.
  unfold parseM. cbv zeta.
  destruct (parse_secs _ w) as [s1| |] eqn:E1; cbn [pbind]; try discriminate.
  destruct (_ <? _)%N; try discriminate.
  destruct (prepare_bodies _ _ _ _ _) as [[[m1 ids1] prepared]| |] eqn:E2; cbn [pbind]; try discriminate.
  destruct (install_bodies m1 ids1 prepared) as [m2| |] eqn:E3; cbn [pbind]; try discriminate.
  intros [= <-]. exists s1, m1, ids1, prepared, m2. repeat split; assumption.
Qed.

(* m_producers and m_customs are written by the custom sections, and m_producers once more by the last step *)
Definition custom_fields (m : wir) : wproducers * list (option mcustom) := (m_producers m, m_customs m).
Lemma custom_fields_keeps st : match st with St_custom _ | St_processed_by _ => True | _ => keeps custom_fields st end.
Proof. destruct st; try exact I; intros m m'; reflexivity. Qed.

(* what the producers sections of a stream add up to *)
Definition prod_cat (w : list wsec) : wproducers :=
  flat_map (fun s => match s with S_Custom (CS_Producers (Some p)) => p | _ => [] end) w.
Lemma prod_cat_app a b : prod_cat (a ++ b) = prod_cat a ++ prod_cat b.
Proof. apply flat_map_app. Qed.
Definition raw_custom (c : str * list N) : option mcustom := Some {| cu_name := fst c; cu_data := snd c; cu_roots := [] |}.

Lemma parse_sec_custom_fields s sec s' : parse_sec s sec = POk s' ->
  custom_fields (ps_m s') = (m_producers (ps_m s) ++ prod_cat [sec], m_customs (ps_m s) ++ map raw_custom (raw_customs [sec])).
Proof.
  intros E. destruct (is_custom sec) eqn:C.
  - destruct sec; try discriminate. injection E as <-.
    destruct c as [n d|n d|[n|]|[p|]]; unfold custom_fields, prod_cat; cbn [parse_custom raw_customs flat_map map app]; rewrite ?app_nil_r; reflexivity.
  - transitivity (custom_fields (ps_m s)).
    + refine (run_steps_keeps custom_fields _ _ _ _ _ _ (parse_sec_steps _ _ _ E)). apply Forall_forall. intros st H. apply in_sec_steps in H. pose proof (custom_fields_keeps st) as K.
      destruct st; try exact K; destruct sec; try contradiction; discriminate.
    + destruct sec; try discriminate; unfold custom_fields, prod_cat; cbn [raw_customs flat_map map app]; rewrite !app_nil_r; reflexivity.
Qed.
Lemma parse_secs_custom_fields w : forall s s', parse_secs s w = POk s' ->
  custom_fields (ps_m s') = (m_producers (ps_m s) ++ prod_cat w, m_customs (ps_m s) ++ map raw_custom (raw_customs w)).
Proof.
  induction w as [|x r IH]; intros s s' E; cbn [parse_secs] in E.
  - injection E as <-. unfold custom_fields, prod_cat. cbn [raw_customs flat_map map]. rewrite !app_nil_r. reflexivity.
  - pinv E as s1 E1. rewrite (IH _ _ E). apply parse_sec_custom_fields, pair_equal_spec in E1. destruct E1 as [-> ->].
    rewrite (raw_customs_cons x r), map_app, <- !app_assoc. change (prod_cat (x :: r)) with (prod_cat ([x] ++ r)). rewrite prod_cat_app. reflexivity.
Qed.

Theorem parseM_custom_fields cf ver w s : parseM cf ver w = POk s ->
  custom_fields (ps_m s) = (producers_field (prod_cat w) s_processed_by s_walrus ver, map raw_custom (raw_customs w)).
Proof.
  intros H. apply parseM_shape in H. destruct H as (s1 & m1 & ids1 & prepared & m2 & E1 & E2 & E3 & ->).
  apply parse_secs_custom_fields in E1.
  apply (prepare_bodies_keeps custom_fields) in E2; [|intros [] K; try destruct K; intros ? ?; reflexivity].
  apply (install_bodies_keeps custom_fields) in E3; [|intros p ? ?; reflexivity].
  pose proof (parse_all_names_keeps custom_fields (ps_names s1) m2 ids1 (fun _ _ _ => eq_refl)) as E4.
  rewrite E3, E2, E1 in E4. injection E4 as E4 E5.
  unfold custom_fields. cbn [ps_m m_producers m_customs set_producers]. rewrite E4, E5. reflexivity.
Qed.

(* 1 *)
Theorem parse_customs : forall cf ver w s, parseM cf ver w = POk s -> customs_of (ps_m s) = raw_customs w.
Proof.
  intros cf ver w s H. apply parseM_custom_fields in H. injection H as _ H. unfold customs_of. rewrite H.
  generalize (raw_customs w) as l. induction l as [|c l IH]; [reflexivity|]. cbn [map flat_map raw_custom cu_name cu_data app].
  rewrite IH. destruct c; reflexivity.
Qed.

(* 8 *)
Lemma parse_sec_calls s sec s' : parse_sec s sec = POk s' -> ps_calls_on_parse s' = ps_calls_on_parse s.
Proof.
  destruct sec; cbn [parse_sec]; cbv zeta; repeat pstep; intros [= <-]; try reflexivity.
  destruct c as [? ?|? ?|[?|]|[?|]]; reflexivity.
Qed.
Lemma parse_secs_calls w : forall s s', parse_secs s w = POk s' -> ps_calls_on_parse s' = ps_calls_on_parse s.
Proof.
  induction w as [|x r IH]; intros s s'; cbn [parse_secs].
  - intros [= <-]. reflexivity.
  - destruct (parse_sec s x) as [s1| |] eqn:E; cbn [pbind]; try discriminate.
    intros H. apply IH in H. rewrite H. eapply parse_sec_calls. exact E.
Qed.
Theorem parse_callback_once : forall cf ver w s, parseM cf ver w = POk s -> ps_calls_on_parse s = 1%N.
Proof.
  intros cf ver w s H. apply parseM_shape in H. destruct H as (s1 & m1 & ids1 & prepared & m2 & E1 & _ & _ & ->).
  apply parse_secs_calls in E1. cbn [ps_calls_on_parse] in *. rewrite E1. reflexivity.
Qed.

(* ================================================================== C. emit side *)

(* sections other than custom sections *)
Definition plain_secs (l : list wsec) : Prop := Forall (fun s => is_custom s = false) l.

Lemma plain_raw l : plain_secs l -> raw_customs l = [].
Proof.
  induction 1 as [|s l Hs _ IH]; [reflexivity|]. rewrite raw_customs_cons, IH.
  destruct s; try discriminate; reflexivity.
Qed.
Lemma plain_filter (f : wsec -> bool) l :
  (forall s, is_custom s = false -> f s = true) -> plain_secs l -> filter f l = l.
Proof.
  intros Hf Hl. apply filter_id. intros s Hs. apply Hf. unfold plain_secs in Hl. rewrite Forall_forall in Hl.
  apply Hl. exact Hs.
Qed.
Lemma plain_app a b : plain_secs a -> plain_secs b -> plain_secs (a ++ b).
Proof. intros Ha Hb. apply Forall_app. split; assumption. Qed.

(* what holds of every value the continuation returns holds of the value of the whole *)
Lemma rbind_post {A B} (P : B -> Prop) (r : res A) (f : A -> res B) b : (forall a, f a = Ok b -> P b) -> rbind r f = Ok b -> P b.
Proof. intros H. destruct r; cbn [rbind]; [apply H|discriminate|discriminate]. Qed.

(* head-driven case analysis of a [res] computation in  [comp = Ok x -> concl]  goals *)
Ltac estep :=
  match goal with
  | |- rbind ?A _ = _ -> _ => destruct A eqn:?; cbn [rbind]; cbv zeta; try (intro; discriminate)
  | |- match ?e with _ => _ end = _ -> _ => destruct e eqn:?; cbv zeta; try (intro; discriminate)
  end.
(* what the emitter of one section kind returns: nothing, or one section of that kind *)
Definition one_sec {A} (mk : A -> wsec) (l : list wsec) : Prop := l = [] \/ exists a, l = [mk a].
Lemma one_sec_plain {A} (mk : A -> wsec) l : one_sec mk l -> (forall a, is_custom (mk a) = false) -> plain_secs l.
Proof. intros [->|[a ->]] H; repeat constructor. apply H. Qed.

(* the result is [Ok l], [Ok (l, x)] or [Ok (l, x, efs)]: the first equation of the injection is the one about [l] *)
Ltac one_tac := cbv zeta; repeat estep; intros [= <-]; (left; reflexivity) || (right; eexists; reflexivity).

Lemma emit_types_one m x l x' : emit_types m x = (l, x') -> one_sec S_Types l.
Proof. unfold emit_types. one_tac. Qed.
Lemma emit_imports_one m x l x' : emit_imports m x = Ok (l, x') -> one_sec S_Imports l.
Proof. unfold emit_imports. one_tac. Qed.
Lemma emit_func_section_one m x l x' : emit_func_section m x = Ok (l, x') -> one_sec S_Funcs l.
Proof. unfold emit_func_section. one_tac. Qed.
Lemma emit_tables_one m x : one_sec S_Tables (fst (emit_tables m x)).
Proof. unfold emit_tables. destruct (filter _ _); [left|right; eexists]; reflexivity. Qed.
Lemma emit_memories_one m x : one_sec S_Mems (fst (emit_memories m x)).
Proof. unfold emit_memories. destruct (filter _ _); [left|right; eexists]; reflexivity. Qed.
Lemma emit_globals_one m x l x' : emit_globals m x = Ok (l, x') -> one_sec S_Globals l.
Proof. unfold emit_globals. one_tac. Qed.
Lemma emit_exports_one m x l : emit_exports m x = Ok l -> one_sec S_Exports l.
Proof. unfold emit_exports. one_tac. Qed.
Lemma emit_start_one (o : option N) x l :
  match o with Some f => i <- get_idx x S_func f ;; Ok [S_Start i] | None => Ok [] end = Ok l -> one_sec S_Start l.
Proof. one_tac. Qed.
Lemma emit_elements_one m x l x' : emit_elements m x = Ok (l, x') -> one_sec S_Elems l.
Proof. unfold emit_elements. one_tac. Qed.
Lemma emit_data_count_one m x l x' : emit_data_count m x = Ok (l, x') -> one_sec S_DataCount l.
Proof. unfold emit_data_count. one_tac. Qed.
Lemma emit_code_one m x ilen l x' efs : emit_code m x ilen = Ok (l, x', efs) -> one_sec S_Code l.
Proof. unfold emit_code. one_tac. Qed.
Lemma emit_data_one m x l : emit_data m x = Ok l -> one_sec S_Data l.
Proof. unfold emit_data. one_tac. Qed.

(* the name section: nothing, or exactly one CS_Name section *)
Lemma emit_names_shape m x efs l : emit_names m x efs = Ok l -> l = [] \/ exists n, l = [S_Custom (CS_Name (Some n))].
Proof.
  set (P := fun l : list wsec => l = [] \/ exists n, l = [S_Custom (CS_Name (Some n))]). change (emit_names m x efs = Ok l -> P l).
  unfold emit_names. cbv zeta. repeat (apply rbind_post; intros ?). subst P. cbv beta.
  (* the last match has ten cases; what is in the name section does not matter to any of them *)
  match goal with |- context [CS_Name (Some ?n)] => generalize n end. intros n.
  repeat estep; intros [= <-]; (left; reflexivity) || (right; exists n; reflexivity).
Qed.

(* --- emitM = front (type .. data sections) ; name ; producers ; dwarf ; customs *)
Definition emit_front (m0 : wir) (ilen : wins -> N) : res (list wsec * x2i * list emitted_fn) :=
  let '(s_ty, x) := emit_types m0 empty_x2i in
  a <- emit_imports m0 x ;; let '(s_im, x) := a in
  a <- emit_func_section m0 x ;; let '(s_fn, x) := a in
  let '(s_tb, x) := emit_tables m0 x in
  let '(s_me, x) := emit_memories m0 x in
  a <- emit_globals m0 x ;; let '(s_gl, x) := a in
  s_ex <- emit_exports m0 x ;;
  s_st <- match m_start m0 with Some f => i <- get_idx x S_func f ;; Ok [S_Start i] | None => Ok [] end ;;
  a <- emit_elements m0 x ;; let '(s_el, x) := a in
  a <- emit_data_count m0 x ;; let '(s_dc, x) := a in
  a <- emit_code m0 x ilen ;; let '(s_co, x, efs) := a in
  s_da <- emit_data m0 x ;;
  Ok (s_ty ++ s_im ++ s_fn ++ s_tb ++ s_me ++ s_gl ++ s_ex ++ s_st ++ s_el ++ s_dc ++ s_co ++ s_da, x, efs).

Definition sec_names (cf : config) (m0 : wir) (x : x2i) (efs : list emitted_fn) : res (list wsec) :=
  if cf_skip_name cf then Ok [] else emit_names m0 x efs.
Definition sec_producers (cf : config) (p : wproducers) : list wsec :=
  if cf_skip_producers cf then [] else match p with [] => [] | p => [S_Custom (CS_Producers (Some p))] end.
Definition sec_dwarf (cf : config) (dw : list wsec) : list wsec := if cf_generate_dwarf cf then dw else [].
Definition sec_customs (cs : list (option mcustom)) : list wsec :=
  flat_map (fun c => match c with
                     | Some c => if starts_with_debug (cu_name c) then [] else [S_Custom (CS_Raw (cu_name c) (cu_data c))]
                     | None => [] end) cs.
Definition emit_tail (m m0 : wir) (dw : list wsec) (f : list wsec * x2i * list emitted_fn) : res emitted :=
  let '(front, x, efs) := f in
  s_nm <- sec_names (m_config m) m0 x efs ;;
  Ok {| em_secs := front ++ s_nm ++ sec_producers (m_config m) (m_producers m0) ++ sec_dwarf (m_config m) dw ++ sec_customs (m_customs m);
        em_module := m0; em_x2i := x; em_fns := efs |}.

Lemma rbind_assoc {A B C} (r : res A) (f : A -> res B) (g : B -> res C) :
  rbind (rbind r f) g = rbind r (fun a => rbind (f a) g).
Proof. destruct r; reflexivity. Qed.
Lemma rbind_ext {A B} (r : res A) (f g : A -> res B) : (forall a, f a = g a) -> rbind r f = rbind r g.
Proof. intros H. destruct r; cbn [rbind]; [apply H|reflexivity|reflexivity]. Qed.

Lemma emitM_factor m ilen dw :
  emitM m ilen dw = rbind (emit_front (set_customs_take m) ilen) (emit_tail m (set_customs_take m) dw).
Proof.
  unfold emitM, emit_front. cbv zeta. generalize (set_customs_take m) as m0. intros m0.
  (* stage by stage: a bind of [emit_front] followed by [emit_tail] is the bind of [emitM] *)
  destruct (emit_types m0 empty_x2i) as [s_ty x0].
  do 2 (rewrite rbind_assoc; apply rbind_ext; intros [? ?]).
  destruct (emit_tables m0 _) as [s_tb x3]. destruct (emit_memories m0 x3) as [s_me x4].
  rewrite rbind_assoc. apply rbind_ext. intros [s_gl x5].
  do 2 (rewrite rbind_assoc; apply rbind_ext; intros ?).
  do 2 (rewrite rbind_assoc; apply rbind_ext; intros [? ?]).
  rewrite rbind_assoc. apply rbind_ext. intros [[s_co x8] efs].
  rewrite rbind_assoc. apply rbind_ext. intros s_da.
  cbn [rbind]. unfold emit_tail, sec_names, sec_producers, sec_dwarf, sec_customs. apply rbind_ext. intros s_nm.
  (* [| p => .. p ..] on a non-variable scrutinee is compiled with the scrutinee substituted for [p] *)
  rewrite <- !app_assoc. destruct (cf_skip_producers _), (m_producers m0); reflexivity.
Qed.

Lemma emitM_split m ilen dw e : emitM m ilen dw = Ok e ->
  exists front x efs nm,
    emit_front (set_customs_take m) ilen = Ok (front, x, efs) /\ sec_names (m_config m) (set_customs_take m) x efs = Ok nm /\
    e = {| em_secs := front ++ nm ++ sec_producers (m_config m) (m_producers (set_customs_take m)) ++ sec_dwarf (m_config m) dw ++
                      sec_customs (m_customs m);
           em_module := set_customs_take m; em_x2i := x; em_fns := efs |}.
Proof.
  intros H. rewrite emitM_factor in H.
  destruct (emit_front (set_customs_take m) ilen) as [[[front x] efs]| |]; cbn [rbind] in H; try discriminate.
  unfold emit_tail in H. destruct (sec_names _ _ x efs) as [nm| |] eqn:En; cbn [rbind] in H; try discriminate.
  injection H as <-. exists front, x, efs, nm. repeat split. exact En.
Qed.

(* emit_front taken apart: the twelve emitters in a row, each handing its index maps to the next.  An inductive, so that the
   goal stays small while the twelve cases are taken. *)
Inductive emit_front_parts (m0 : wir) (ilen : wins -> N) (front : list wsec) (x : x2i) (efs : list emitted_fn) : Prop :=
| EmitFront s_ty x1 s_im x2 s_fn x3 x4 x5 s_gl x6 s_ex s_st s_el x9 s_dc x10 s_co s_da
    (Ety : emit_types m0 empty_x2i = (s_ty, x1)) (Eim : emit_imports m0 x1 = Ok (s_im, x2))
    (Efn : emit_func_section m0 x2 = Ok (s_fn, x3))
    (Ex4 : x4 = snd (emit_tables m0 x3)) (Ex5 : x5 = snd (emit_memories m0 x4)) (Egl : emit_globals m0 x5 = Ok (s_gl, x6))
    (Eex : emit_exports m0 x6 = Ok s_ex)
    (Est : match m_start m0 with Some f => i <- get_idx x6 S_func f ;; Ok [S_Start i] | None => Ok [] end = Ok s_st)
    (Eel : emit_elements m0 x6 = Ok (s_el, x9)) (Edc : emit_data_count m0 x9 = Ok (s_dc, x10))
    (Eco : emit_code m0 x10 ilen = Ok (s_co, x, efs)) (Eda : emit_data m0 x = Ok s_da)
    (Efront : front = s_ty ++ s_im ++ s_fn ++ fst (emit_tables m0 x3) ++ fst (emit_memories m0 x4) ++ s_gl ++ s_ex ++ s_st ++
                      s_el ++ s_dc ++ s_co ++ s_da).
Lemma emit_front_inv m0 ilen front x efs : emit_front m0 ilen = Ok (front, x, efs) -> emit_front_parts m0 ilen front x efs.
Proof.
  unfold emit_front.
  destruct (emit_types m0 empty_x2i) as [s_ty x1] eqn:Ety.
  destruct (emit_imports m0 x1) as [[s_im x2]| |] eqn:Eim; cbn [rbind]; try discriminate.
  destruct (emit_func_section m0 x2) as [[s_fn x3]| |] eqn:Efn; cbn [rbind]; try discriminate.
  destruct (emit_tables m0 x3) as [s_tb x4] eqn:Etb. destruct (emit_memories m0 x4) as [s_me x5] eqn:Eme.
  destruct (emit_globals m0 x5) as [[s_gl x6]| |] eqn:Egl; cbn [rbind]; try discriminate.
  destruct (emit_exports m0 x6) as [s_ex| |] eqn:Eex; cbn [rbind]; try discriminate.
  match goal with |- rbind ?A _ = _ -> _ => destruct A as [s_st| |] eqn:Est; cbn [rbind]; try discriminate end.
  destruct (emit_elements m0 x6) as [[s_el x9]| |] eqn:Eel; cbn [rbind]; try discriminate.
  destruct (emit_data_count m0 x9) as [[s_dc x10]| |] eqn:Edc; cbn [rbind]; try discriminate.
  destruct (emit_code m0 x10 ilen) as [[[s_co x11] efs']| |] eqn:Eco; cbn [rbind]; try discriminate.
  destruct (emit_data m0 x11) as [s_da| |] eqn:Eda; cbn [rbind]; try discriminate.
  intros [= <- <- <-]. apply (EmitFront _ _ _ _ _ s_ty x1 s_im x2 s_fn x3 x4 x5 s_gl x6 s_ex s_st s_el x9 s_dc x10 s_co s_da);
    rewrite ?Etb, ?Eme; auto.
Qed.

Create HintDb emit_one discriminated.
#[export] Hint Resolve emit_types_one emit_imports_one emit_func_section_one emit_tables_one emit_memories_one emit_globals_one
  emit_exports_one emit_start_one emit_elements_one emit_data_count_one emit_code_one emit_data_one : emit_one.

Lemma emit_front_plain m0 ilen front x efs : emit_front m0 ilen = Ok (front, x, efs) -> plain_secs front.
Proof.
  intros H. destruct (emit_front_inv _ _ _ _ _ H). subst front.
  repeat apply plain_app; (eapply one_sec_plain; [eauto with emit_one|reflexivity]).
Qed.

Lemma sec_names_shape cf m0 x efs l : sec_names cf m0 x efs = Ok l -> l = [] \/ exists n, l = [S_Custom (CS_Name (Some n))].
Proof. unfold sec_names. destruct (cf_skip_name cf); [intros [= <-]; left; reflexivity|apply emit_names_shape]. Qed.
Lemma sec_names_raw cf m0 x efs l : sec_names cf m0 x efs = Ok l -> raw_customs l = [].
Proof. intros H. destruct (sec_names_shape _ _ _ _ _ H) as [->|[n ->]]; reflexivity. Qed.
Lemma sec_producers_raw cf p : raw_customs (sec_producers cf p) = [].
Proof. unfold sec_producers. destruct (cf_skip_producers cf); [reflexivity|]. destruct p; reflexivity. Qed.
Lemma sec_customs_raw cs :
  raw_customs (sec_customs cs) =
  filter (fun c => negb (starts_with_debug (fst c)))
         (flat_map (fun c => match c with Some c => [(cu_name c, cu_data c)] | None => [] end) cs).
Proof.
  induction cs as [|[c|] cs IH]; [reflexivity| |exact IH].
  unfold sec_customs in *. cbn [flat_map]. rewrite raw_customs_app, filter_app, IH. f_equal.
  cbn [filter fst]. destruct (starts_with_debug (cu_name c)); reflexivity.
Qed.

(* 2 *)
Theorem emit_customs : forall m ilen dw e, emitM m ilen dw = Ok e -> raw_customs dw = [] ->
  raw_customs (em_secs e) = filter (fun c => negb (starts_with_debug (fst c))) (customs_of m).
Proof.
  intros m ilen dw e H Hdw. destruct (emitM_split _ _ _ _ H) as (front & x & efs & nm & Ef & En & ->).
  apply emit_front_plain, plain_raw in Ef. apply sec_names_raw in En. cbn [em_secs].
  rewrite !raw_customs_app, Ef, En, sec_producers_raw, sec_customs_raw. cbn [app].
  replace (raw_customs (sec_dwarf (m_config m) dw)) with (@nil (str * list N)); [reflexivity|].
  unfold sec_dwarf. destruct (cf_generate_dwarf _); [symmetry; exact Hdw|reflexivity].
Qed.

(* 3 *)
Theorem c12_roundtrip : forall cf ver w s ilen dw e,
  parseM cf ver w = POk s -> emitM (ps_m s) ilen dw = Ok e -> raw_customs dw = [] ->
  raw_customs (em_secs e) = filter (fun c => negb (starts_with_debug (fst c))) (raw_customs w).
Proof.
  intros cf ver w s ilen dw e Hp He Hdw. rewrite (emit_customs _ _ _ _ He Hdw).
  rewrite (parse_customs _ _ _ _ Hp). reflexivity.
Qed.

(* the module handed back is the one the sections were emitted from *)
Lemma emit_module_is_take m ilen dw e : emitM m ilen dw = Ok e -> em_module e = set_customs_take m.
Proof. intros H. destruct (emitM_split _ _ _ _ H) as (front & x & efs & nm & _ & _ & ->). reflexivity. Qed.

(* ================================================================== D. gc_sweep *)
(* 4 *)
Theorem gc_customs : forall m m', gc_sweep m = Ok m' -> m_customs m' = m_customs m.
Proof. intros m m' H. apply (Proofs.GC.gc_preserves m m' H). Qed.

(* ================================================================== E. the two switches *)
(* the emitters read neither [m_config] nor [m_customs] *)
Definition same_core (a b : wir) : Prop :=
  m_imports a = m_imports b /\ m_tables a = m_tables b /\ m_types a = m_types b /\ m_funcs a = m_funcs b /\
  m_globals a = m_globals b /\ m_locals a = m_locals b /\ m_exports a = m_exports b /\ m_memories a = m_memories b /\
  m_data a = m_data b /\ m_elements a = m_elements b /\ m_start a = m_start b /\ m_producers a = m_producers b /\
  m_debug a = m_debug b /\ m_name a = m_name b /\ m_code_section_offset a = m_code_section_offset b.

Lemma same_core_refl a : same_core a a.
Proof. repeat split. Qed.
Lemma same_core_sym a b : same_core a b -> same_core b a.
Proof. intros (?&?&?&?&?&?&?&?&?&?&?&?&?&?&?). repeat split; symmetry; assumption. Qed.
Lemma same_core_trans a b c : same_core a b -> same_core b c -> same_core a c.
Proof.
  intros (?&?&?&?&?&?&?&?&?&?&?&?&?&?&?) (?&?&?&?&?&?&?&?&?&?&?&?&?&?&?). repeat split; etransitivity; eassumption.
Qed.
Lemma same_core_set_config m cf : same_core (set_config m cf) m.
Proof. repeat split. Qed.
Lemma same_core_eq a b : same_core a b -> a = set_customs (set_config b (m_config a)) (m_customs a).
Proof. destruct a, b. unfold same_core. cbn. intros (?&?&?&?&?&?&?&?&?&?&?&?&?&?&?). subst. reflexivity. Qed.

(* [emit_imports_l] is the one emitter that passes the module on to itself; the others project the fields they read, so that
   on a module rebuilt by [set_config] and [set_customs] they compute to what they are on the module itself *)
Lemma emit_imports_l_set m cf cs l : forall x,
  emit_imports_l (set_customs (set_config m cf) cs) x l = emit_imports_l m x l.
Proof.
  induction l as [|i r IH]; intros x; cbn [emit_imports_l]; [reflexivity|].
  change (emit_import (set_customs (set_config m cf) cs) x i) with (emit_import m x i).
  destruct (emit_import m x i) as [a| |]; cbn [rbind]; [|reflexivity|reflexivity]. rewrite IH. reflexivity.
Qed.
Lemma emit_front_set m cf cs ilen : emit_front (set_customs (set_config m cf) cs) ilen = emit_front m ilen.
Proof.
  unfold emit_front. change (emit_types (set_customs (set_config m cf) cs)) with (emit_types m).
  destruct (emit_types m empty_x2i) as [s_ty x0].
  replace (emit_imports (set_customs (set_config m cf) cs) x0) with (emit_imports m x0); [reflexivity|].
  unfold emit_imports. cbn [m_imports set_customs set_config]. destruct (map snd _); [reflexivity|].
  rewrite emit_imports_l_set. reflexivity.
Qed.

Lemma emit_front_core m1 m2 (H : same_core m1 m2) ilen : emit_front m1 ilen = emit_front m2 ilen.
Proof. rewrite (same_core_eq _ _ H). apply emit_front_set. Qed.
Lemma emit_names_core m1 m2 (H : same_core m1 m2) x efs : emit_names m1 x efs = emit_names m2 x efs.
Proof. rewrite (same_core_eq _ _ H). reflexivity. Qed.

Lemma filter_name_plain l : plain_secs l -> filter (fun s => negb (is_name_sec s)) l = l.
Proof. apply plain_filter. intros [] Hs; try discriminate; reflexivity. Qed.
Lemma filter_prod_plain l : plain_secs l -> filter (fun s => negb (is_producers_sec s)) l = l.
Proof. apply plain_filter. intros [] Hs; try discriminate; reflexivity. Qed.

Lemma sec_customs_filter (f : wsec -> bool) cs : (forall n d, f (S_Custom (CS_Raw n d)) = true) -> filter f (sec_customs cs) = sec_customs cs.
Proof.
  intros Hf. apply filter_id. intros s Hs. unfold sec_customs in Hs. apply in_flat_map in Hs. destruct Hs as ([c|] & _ & Hc); [|destruct Hc].
  destruct (starts_with_debug _); [destruct Hc|]. destruct Hc as [<-|[]]. apply Hf.
Qed.
Lemma sec_producers_no_name cf p : filter (fun s => negb (is_name_sec s)) (sec_producers cf p) = sec_producers cf p.
Proof. unfold sec_producers. destruct (cf_skip_producers cf); [reflexivity|]. destruct p; reflexivity. Qed.
Lemma sec_producers_all_prod cf p : filter (fun s => negb (is_producers_sec s)) (sec_producers cf p) = [].
Proof. unfold sec_producers. destruct (cf_skip_producers cf); [reflexivity|]. destruct p; reflexivity. Qed.
Lemma sec_dwarf_filter (f : wsec -> bool) cf dw :
  (forall s, In s dw -> f s = false) -> filter (fun s => negb (f s)) (sec_dwarf cf dw) = sec_dwarf cf dw.
Proof.
  intros Hdw. unfold sec_dwarf. destruct (cf_generate_dwarf cf); [|reflexivity].
  apply filter_id. intros s Hs. rewrite (Hdw s Hs). reflexivity.
Qed.

(* Everything below in this section uses ONE fact about [set_customs_take]: it leaves the fields the
   emitters read alone.  It is discharged in block G. *)
Section TakeGeneric.
  Hypothesis take_core : forall m, same_core (set_customs_take m) m.

  Lemma take_config_core m cf : same_core (set_customs_take (set_config m cf)) (set_customs_take m).
  Proof.
    eapply same_core_trans; [apply take_core|].
    eapply same_core_trans; [apply same_core_set_config|]. apply same_core_sym, take_core.
  Qed.

  (* whatever the switch was before: if it was on already, there is no name section to filter out *)
  Lemma c14_name_switch_gen : forall m ilen dw e,
    emitM m ilen dw = Ok e ->
    (forall s, In s dw -> is_name_sec s = false) ->
    exists e', emitM (set_skip_name m true) ilen dw = Ok e' /\
               em_secs e' = filter (fun s => negb (is_name_sec s)) (em_secs e).
  Proof.
    intros m ilen dw e He Hdw. rewrite emitM_factor in He |- *.
    unfold set_skip_name at 1. rewrite (emit_front_core _ _ (take_config_core m _)).
    destruct (emit_front (set_customs_take m) ilen) as [[[front x] efs]| |] eqn:Ef; cbn [rbind] in *; try discriminate.
    apply emit_front_plain in Ef. unfold emit_tail in *.
    destruct (sec_names (m_config m) _ x efs) as [s_nm| |] eqn:En; cbn [rbind] in He; try discriminate.
    injection He as <-. unfold sec_names at 1. cbn [m_config set_skip_name set_config cf_skip_name rbind].
    eexists. split; [reflexivity|]. cbn [em_secs].
    rewrite !filter_app, (filter_name_plain _ Ef), sec_producers_no_name, (sec_dwarf_filter is_name_sec _ _ Hdw),
            (sec_customs_filter _ _ (fun _ _ => eq_refl)).
    replace (filter _ s_nm) with (@nil wsec) by (destruct (sec_names_shape _ _ _ _ _ En) as [->|[n ->]]; reflexivity).
    replace (m_producers (set_customs_take (set_skip_name m true))) with (m_producers (set_customs_take m))
      by (symmetry; apply (take_config_core m _)).
    reflexivity.
  Qed.

  Lemma c14_producers_switch_gen : forall m ilen dw e,
    emitM m ilen dw = Ok e ->
    (forall s, In s dw -> is_producers_sec s = false) ->
    exists e', emitM (set_skip_producers m true) ilen dw = Ok e' /\
               em_secs e' = filter (fun s => negb (is_producers_sec s)) (em_secs e).
  Proof.
    intros m ilen dw e He Hdw. rewrite emitM_factor in He |- *.
    unfold set_skip_producers at 1. rewrite (emit_front_core _ _ (take_config_core m _)).
    destruct (emit_front (set_customs_take m) ilen) as [[[front x] efs]| |] eqn:Ef; cbn [rbind] in *; try discriminate.
    apply emit_front_plain in Ef. unfold emit_tail in *.
    assert (En' : sec_names (m_config (set_skip_producers m true)) (set_customs_take (set_skip_producers m true)) x efs
                  = sec_names (m_config m) (set_customs_take m) x efs).
    { unfold sec_names. cbn [m_config set_skip_producers set_config cf_skip_name].
      destruct (cf_skip_name (m_config m)); [reflexivity|]. apply emit_names_core. apply (take_config_core m _). }
    rewrite En'.
    destruct (sec_names (m_config m) _ x efs) as [s_nm| |] eqn:En; cbn [rbind] in He |- *; try discriminate.
    injection He as <-.
    eexists. split; [reflexivity|]. cbn [em_secs].
    rewrite !filter_app, (filter_prod_plain _ Ef), sec_producers_all_prod, (sec_dwarf_filter is_producers_sec _ _ Hdw),
            (sec_customs_filter _ _ (fun _ _ => eq_refl)).
    replace (filter _ s_nm) with s_nm by (destruct (sec_names_shape _ _ _ _ _ En) as [->|[n ->]]; reflexivity).
    reflexivity.
  Qed.
End TakeGeneric.

(* ================================================================== F. producers *)
Lemma str_eqb_eq a : forall b, str_eqb a b = true <-> a = b.
Proof.
  induction a as [|x a IH]; intros [|y b]; cbn [str_eqb]; split; intros H; try discriminate; try reflexivity.
  - apply andb_true_iff in H. destruct H as [Hx Hr]. apply N.eqb_eq in Hx. apply IH in Hr. congruence.
  - injection H as -> ->. rewrite N.eqb_refl. cbn [andb]. apply IH. reflexivity.
Qed.
Lemma str_eqb_refl a : str_eqb a a = true.
Proof. apply str_eqb_eq. reflexivity. Qed.
Lemma str_eqb_sym a b : str_eqb a b = str_eqb b a.
Proof.
  destruct (str_eqb a b) eqn:E1, (str_eqb b a) eqn:E2; try reflexivity.
  - apply str_eqb_eq in E1. subst. rewrite str_eqb_refl in E2. discriminate.
  - apply str_eqb_eq in E2. subst. rewrite str_eqb_refl in E1. discriminate.
Qed.
Lemma str_eqb_trans a b c : str_eqb a b = true -> str_eqb b c = true -> str_eqb a c = true.
Proof. rewrite !str_eqb_eq. congruence. Qed.

Definition is_walrus (nv : str * str) : bool := str_eqb (fst nv) s_walrus.
Definition count_walrus (vs : list (str * str)) : nat := length (filter is_walrus vs).
(* number of (name, version) pairs named "walrus" inside fields named "processed-by" *)
Fixpoint walrus_entries (p : wproducers) : nat :=
  match p with
  | [] => 0
  | (f, vs) :: r => (if str_eqb f s_processed_by then count_walrus vs else 0) + walrus_entries r
  end.
Fixpoint field_names_distinctb (p : wproducers) : bool :=
  match p with
  | [] => true
  | (f, _) :: r => forallb (fun g => negb (str_eqb f (fst g))) r && field_names_distinctb r
  end.
Definition field_names_distinct (p : wproducers) : Prop := field_names_distinctb p = true.

Lemma count_walrus_cons n v r : count_walrus ((n, v) :: r) = (if str_eqb n s_walrus then 1 else 0) + count_walrus r.
Proof. unfold count_walrus, is_walrus. cbn [filter fst]. destruct (str_eqb n s_walrus); reflexivity. Qed.
Lemma count_walrus_app a b : count_walrus (a ++ b) = count_walrus a + count_walrus b.
Proof. unfold count_walrus. rewrite filter_app, app_length. reflexivity. Qed.

Lemma replace_value_Some vs ver : forall vs',
  replace_value vs s_walrus ver = Some vs' -> count_walrus vs' = count_walrus vs /\ 1 <= count_walrus vs.
Proof.
  induction vs as [|[n v] r IH]; intros vs'; cbn [replace_value]; [discriminate|].
  destruct (str_eqb n s_walrus) eqn:E.
  - intros [= <-]. rewrite !count_walrus_cons, E, str_eqb_refl. lia.
  - destruct (replace_value r s_walrus ver) as [r'|]; cbn [option_map]; [|discriminate].
    intros [= <-]. rewrite !count_walrus_cons, E. destruct (IH r' eq_refl). lia.
Qed.
Lemma replace_value_None vs ver : replace_value vs s_walrus ver = None -> count_walrus vs = 0.
Proof.
  induction vs as [|[n v] r IH]; cbn [replace_value]; [reflexivity|].
  destruct (str_eqb n s_walrus) eqn:E; [discriminate|].
  destruct (replace_value r s_walrus ver); cbn [option_map]; [discriminate|].
  intros _. rewrite count_walrus_cons, E. rewrite IH; reflexivity.
Qed.

Lemma no_processed_by_after f r :
  forallb (fun g => negb (str_eqb f (fst g))) r = true -> str_eqb f s_processed_by = true -> walrus_entries r = 0.
Proof.
  intros Hall Hf. induction r as [|[g vs] r IH]; [reflexivity|].
  cbn [forallb fst] in Hall. apply andb_true_iff in Hall. destruct Hall as [Hg Hr].
  cbn [walrus_entries]. rewrite (IH Hr).
  destruct (str_eqb g s_processed_by) eqn:E; [|reflexivity].
  apply str_eqb_eq in Hf. apply str_eqb_eq in E. subst. rewrite str_eqb_refl in Hg. discriminate.
Qed.

(* 7a *)
Theorem producers_once : forall p ver, field_names_distinct p -> walrus_entries p <= 1 ->
  walrus_entries (producers_field p s_processed_by s_walrus ver) = 1.
Proof.
  unfold field_names_distinct. intros p ver. induction p as [|[f vs] r IH]; intros Hd Hle.
  - reflexivity.
  - cbn [producers_field]. cbn [field_names_distinctb] in Hd. apply andb_true_iff in Hd. destruct Hd as [Hf Hr].
    cbn [walrus_entries] in Hle. destruct (str_eqb f s_processed_by) eqn:E.
    + cbn [walrus_entries]. rewrite E. rewrite (no_processed_by_after f r Hf E) in *.
      destruct (replace_value vs s_walrus ver) as [vs'|] eqn:R.
      * apply replace_value_Some in R. lia.
      * apply replace_value_None in R. rewrite count_walrus_app, R, count_walrus_cons, str_eqb_refl. reflexivity.
    + cbn [walrus_entries]. rewrite E. cbn [plus]. apply IH; [exact Hr|lia].
Qed.

(* 7b *)
Lemma replace_value_fix vs name ver : forall vs',
  replace_value vs name ver = Some vs' -> replace_value vs' name ver = Some vs'.
Proof.
  induction vs as [|[n v] r IH]; intros vs'; cbn [replace_value]; [discriminate|].
  destruct (str_eqb n name) eqn:E.
  - intros [= <-]. cbn [replace_value]. rewrite str_eqb_refl. reflexivity.
  - destruct (replace_value r name ver) as [r'|] eqn:R; cbn [option_map]; [|discriminate].
    intros [= <-]. cbn [replace_value]. rewrite E, (IH r' eq_refl). reflexivity.
Qed.
Lemma replace_value_appended vs name ver :
  replace_value vs name ver = None -> replace_value (vs ++ [(name, ver)]) name ver = Some (vs ++ [(name, ver)]).
Proof.
  induction vs as [|[n v] r IH]; cbn [replace_value app].
  - intros _. rewrite str_eqb_refl. reflexivity.
  - destruct (str_eqb n name) eqn:E; [discriminate|].
    destruct (replace_value r name ver); cbn [option_map]; [discriminate|].
    intros _. rewrite (IH eq_refl). reflexivity.
Qed.

Lemma producers_field_idempotent p field name ver :
  producers_field (producers_field p field name ver) field name ver = producers_field p field name ver.
Proof.
  induction p as [|[f vs] r IH]; cbn [producers_field].
  - rewrite str_eqb_refl. cbn [replace_value]. rewrite str_eqb_refl. reflexivity.
  - destruct (str_eqb f field) eqn:E; cbn [producers_field]; rewrite E.
    + destruct (replace_value vs name ver) as [vs'|] eqn:R.
      * rewrite (replace_value_fix _ _ _ _ R). reflexivity.
      * rewrite (replace_value_appended _ _ _ R). reflexivity.
    + rewrite IH. reflexivity.
Qed.
Theorem producers_idempotent : forall p ver,
  producers_field (producers_field p s_processed_by s_walrus ver) s_processed_by s_walrus ver
  = producers_field p s_processed_by s_walrus ver.
Proof. intros. apply producers_field_idempotent. Qed.

(* 7c: remove the walrus entries of processed-by fields, then drop the fields left without values *)
Definition not_walrus (nv : str * str) : bool := negb (is_walrus nv).
Definition strip_values (f : str) (vs : list (str * str)) : list (str * str) :=
  if str_eqb f s_processed_by then filter not_walrus vs else vs.
Definition has_values (fv : str * list (str * str)) : bool := match snd fv with [] => false | _ => true end.
Definition strip_walrus (p : wproducers) : wproducers :=
  filter has_values (map (fun fv => (fst fv, strip_values (fst fv) (snd fv))) p).
(* the same, dropping only processed-by fields that are left without values (other empty fields are kept) *)
Definition strip_walrus_strict (p : wproducers) : wproducers :=
  filter (fun fv => negb (str_eqb (fst fv) s_processed_by) || has_values fv)
         (map (fun fv => (fst fv, strip_values (fst fv) (snd fv))) p).

Lemma not_walrus_cons n v r :
  filter not_walrus ((n, v) :: r) = if str_eqb n s_walrus then filter not_walrus r else (n, v) :: filter not_walrus r.
Proof. cbn [filter]. unfold not_walrus at 1, is_walrus. cbn [fst]. destruct (str_eqb n s_walrus); reflexivity. Qed.

Lemma replace_value_strip vs ver : forall vs',
  replace_value vs s_walrus ver = Some vs' -> filter not_walrus vs' = filter not_walrus vs.
Proof.
  induction vs as [|[n v] r IH]; intros vs'; cbn [replace_value]; [discriminate|].
  destruct (str_eqb n s_walrus) eqn:E.
  - intros [= <-]. rewrite !not_walrus_cons, E, str_eqb_refl. reflexivity.
  - destruct (replace_value r s_walrus ver) as [r'|]; cbn [option_map]; [|discriminate].
    intros [= <-]. rewrite !not_walrus_cons, E, (IH r' eq_refl). reflexivity.
Qed.
Lemma strip_values_field vs ver :
  strip_values s_processed_by (match replace_value vs s_walrus ver with Some vs' => vs' | None => vs ++ [(s_walrus, ver)] end)
  = strip_values s_processed_by vs.
Proof.
  unfold strip_values. rewrite str_eqb_refl. destruct (replace_value vs s_walrus ver) as [vs'|] eqn:R.
  - exact (replace_value_strip _ _ _ R).
  - rewrite filter_app, not_walrus_cons, str_eqb_refl. apply app_nil_r.
Qed.

Lemma strip_map_producers_field p ver :
  filter (fun fv => negb (str_eqb (fst fv) s_processed_by) || has_values fv)
    (map (fun fv => (fst fv, strip_values (fst fv) (snd fv))) (producers_field p s_processed_by s_walrus ver))
  = filter (fun fv => negb (str_eqb (fst fv) s_processed_by) || has_values fv)
    (map (fun fv => (fst fv, strip_values (fst fv) (snd fv))) p).
Proof.
  induction p as [|[f vs] r IH]; cbn [producers_field].
  - cbn [map fst snd]. unfold strip_values. rewrite str_eqb_refl, not_walrus_cons, str_eqb_refl.
    cbn [filter fst]. rewrite str_eqb_refl. reflexivity.
  - destruct (str_eqb f s_processed_by) eqn:E.
    + cbn [map fst snd]. apply str_eqb_eq in E. subst f. rewrite strip_values_field. reflexivity.
    + cbn [map filter fst snd]. rewrite IH. reflexivity.
Qed.

Theorem producers_others_kept_strict : forall p ver,
  strip_walrus_strict (producers_field p s_processed_by s_walrus ver) = strip_walrus_strict p.
Proof. intros. apply strip_map_producers_field. Qed.

Lemma strip_walrus_of_strict p : strip_walrus p = filter has_values (strip_walrus_strict p).
Proof.
  unfold strip_walrus, strip_walrus_strict. generalize (map (fun fv => (fst fv, strip_values (fst fv) (snd fv))) p) as l.
  induction l as [|a l IH]; [reflexivity|]. cbn [filter].
  destruct (has_values a) eqn:Ha.
  - rewrite orb_true_r. cbn [filter]. rewrite Ha, IH. reflexivity.
  - rewrite orb_false_r. destruct (negb _); cbn [filter]; rewrite ?Ha; exact IH.
Qed.

Theorem producers_others_kept : forall p ver,
  strip_walrus (producers_field p s_processed_by s_walrus ver) = strip_walrus p.
Proof. intros. rewrite !strip_walrus_of_strict, producers_others_kept_strict. reflexivity. Qed.

(* ==================================================================================================
   G. THE ONLY BLOCK THAT DEPENDS ON THE BODY OF [set_customs_take]
      (now [set_customs_take m := m]: the module keeps its custom sections across emit_wasm).
   ================================================================================================== *)

(* every field except (possibly) m_customs is preserved *)
Lemma set_customs_take_other_fields m :
  same_core (set_customs_take m) m /\ m_config (set_customs_take m) = m_config m.
Proof. repeat split. Qed.
Lemma set_customs_take_core m : same_core (set_customs_take m) m.
Proof. apply set_customs_take_other_fields. Qed.

(* 6 *)
Theorem c14_name_switch : forall m ilen dw e,
  cf_skip_name (m_config m) = false -> emitM m ilen dw = Ok e ->
  (forall s, In s dw -> is_name_sec s = false) ->
  exists e', emitM (set_skip_name m true) ilen dw = Ok e' /\
             em_secs e' = filter (fun s => negb (is_name_sec s)) (em_secs e).
Proof. intros m ilen dw e _. exact (c14_name_switch_gen set_customs_take_core m ilen dw e). Qed.
Theorem c14_producers_switch : forall m ilen dw e,
  cf_skip_producers (m_config m) = false -> emitM m ilen dw = Ok e ->
  (forall s, In s dw -> is_producers_sec s = false) ->
  exists e', emitM (set_skip_producers m true) ilen dw = Ok e' /\
             em_secs e' = filter (fun s => negb (is_producers_sec s)) (em_secs e).
Proof. intros m ilen dw e _. exact (c14_producers_switch_gen set_customs_take_core m ilen dw e). Qed.

(* 5 *)
Theorem emit_keeps_module : forall m ilen dw e, emitM m ilen dw = Ok e -> em_module e = m.
Proof. intros m ilen dw e H. rewrite (emit_module_is_take _ _ _ _ H). reflexivity. Qed.

Theorem emit_repeat : forall m ilen dw e, emitM m ilen dw = Ok e -> emitM (em_module e) ilen dw = Ok e.
Proof. intros m ilen dw e H. rewrite (emit_keeps_module _ _ _ _ H). exact H. Qed.
Theorem emit_twice_customs : forall m ilen dw e e',
  emitM m ilen dw = Ok e -> emitM (em_module e) ilen dw = Ok e' -> em_secs e' = em_secs e.
Proof. intros m ilen dw e e' H H'. rewrite (emit_repeat _ _ _ _ H) in H'. injection H' as <-. reflexivity. Qed.

Print Assumptions parse_customs.
Print Assumptions emit_customs.
Print Assumptions c12_roundtrip.
Print Assumptions gc_customs.
Print Assumptions emit_keeps_module.
Print Assumptions emit_repeat.
Print Assumptions emit_twice_customs.
Print Assumptions c14_name_switch.
Print Assumptions c14_producers_switch.
Print Assumptions producers_once.
Print Assumptions producers_idempotent.
Print Assumptions producers_others_kept.
Print Assumptions producers_others_kept_strict.
Print Assumptions parse_callback_once.
