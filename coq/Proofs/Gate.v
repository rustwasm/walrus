(* The validation gate: walrus accepts only what the reference validator accepts, and everything it accepts
   that uses only payload kinds walrus implements and that walrus's own section readers process. *)
From Coq Require Import List Bool. Import ListNotations.
From WV Require Import Gen.Gate Gen.Features Model.Gate.

(* no payload kind is consumed before it was validated (custom sections carry no validity obligations) *)
Theorem no_unchecked_arm : forall k, arm k <> AK_Unchecked.
Proof. intros k; destruct k; discriminate. Qed.

Theorem body_gate : operator_validated_before_use = true /\ body_end_validated = true /\ locals_validated_before_use = true.
Proof. repeat split; reflexivity. Qed.
(* reader and validator are both configured with the feature set of the configuration *)
Theorem features_reach_reader_and_validator : reader_uses_configured_features = true /\ validator_uses_configured_features = true.
Proof. split; reflexivity. Qed.

Section G.
  Variables (payload vstate : Type) (kind_of : payload -> payload_kind) (vstep : vstate -> payload -> option vstate) (consume_ok : payload -> bool).
  (* the reference validator ignores custom sections *)
  Hypothesis custom_noop : forall v p, arm (kind_of p) = AK_Custom -> vstep v p = Some v.

  Theorem gate_sound : forall ps v, gate payload vstate kind_of vstep consume_ok v ps = Accept ->
    exists v', reference payload vstate vstep v ps = Some v'.
  Proof.
    induction ps as [|p r IH]; intros v H; cbn [gate reference] in *.
    - eauto.
    - destruct (arm (kind_of p)) eqn:Ea.
      + destruct (vstep v p) as [v'|]; [|discriminate]. destruct (consume_ok p); [|discriminate]. apply IH; exact H.
      + discriminate.
      + discriminate.
      + rewrite (custom_noop v p Ea). apply IH; exact H.
      + exfalso. exact (no_unchecked_arm _ Ea).
  Qed.

  (* only for payload kinds walrus implements: the kinds it rejects after or without validation (component model,
     exception handling) are beyond the feature set its validator is configured with, and soundness does not need them *)
  Theorem gate_complete : forall ps v v', reference payload vstate vstep v ps = Some v' ->
    Forall (fun p => supported (kind_of p) = true) ps -> Forall (fun p => consume_ok p = true) ps ->
    gate payload vstate kind_of vstep consume_ok v ps = Accept.
  Proof.
    induction ps as [|p r IH]; intros v v' H Hs Hc; cbn [gate reference] in *; [reflexivity|].
    inversion Hs as [|? ? Hs1 Hs2]; subst. inversion Hc as [|? ? Hc1 Hc2]; subst.
    unfold supported in Hs1. destruct (arm (kind_of p)) eqn:Ea; try discriminate.
    - destruct (vstep v p) as [v1|]; [|discriminate]. rewrite Hc1. eapply IH; eauto.
    - rewrite (custom_noop v p Ea) in H. eapply IH; eauto.
  Qed.

  (* a rejected kind is rejected wherever it occurs, whatever precedes it validly *)
  Theorem gate_rejects_unsupported : forall pre p post v,
    supported (kind_of p) = false -> gate payload vstate kind_of vstep consume_ok v (pre ++ p :: post) = Reject.
  Proof.
    induction pre as [|q r IH]; intros p post v Hs; cbn [app gate].
    - unfold supported in Hs. destruct (arm (kind_of p)) eqn:Ea; try discriminate; try reflexivity.
      exfalso. exact (no_unchecked_arm _ Ea).
    - destruct (arm (kind_of q)) eqn:Eq; try reflexivity.
      + destruct (vstep v q); [|reflexivity]. destruct (consume_ok q); [|reflexivity]. apply IH; exact Hs.
      + apply IH; exact Hs.
      + exfalso. exact (no_unchecked_arm _ Eq).
  Qed.
End G.

Theorem supported_kinds : forall k, supported k = true <->
  In k [PK_Version; PK_DataSection; PK_TypeSection; PK_ImportSection; PK_TableSection; PK_MemorySection; PK_GlobalSection;
        PK_ExportSection; PK_ElementSection; PK_StartSection; PK_FunctionSection; PK_DataCountSection; PK_CodeSectionStart;
        PK_CodeSectionEntry; PK_CustomSection; PK_End].
Proof.
  intros k; split.
  - destruct k; intros H; try discriminate H; cbn; tauto.
  - intros H. repeat (destruct H as [<-|H]; [reflexivity|]). destruct H.
Qed.

Theorem only_stable_removes_exactly : forall f,
  has (features_of true) f = has (features_of false) f && negb (feature_eqb f F_MULTI_MEMORY || feature_eqb f F_MEMORY64 || feature_eqb f F_THREADS).
Proof. intros f; destruct f; reflexivity. Qed.
Theorem stable_subset_default : forall f, has (features_of true) f = true -> has (features_of false) f = true.
Proof. intros f; destruct f; cbn; intros H; try reflexivity; discriminate. Qed.
Theorem default_features : forall f, has (features_of false) f = true.
Proof. intros f; destruct f; reflexivity. Qed.

Print Assumptions no_unchecked_arm.
Print Assumptions gate_sound.
Print Assumptions gate_complete.
Print Assumptions gate_rejects_unsupported.
Print Assumptions only_stable_removes_exactly.
