(* C02 + C01: TYPE SAFETY of the concrete machine of Model/SemCore.v with respect to the validator of Model/TypeCore.v.  A body the
   validator accepts never GOES WRONG ([Halt Wrong]: stack underflow, operand of the wrong type, unbound or ill-typed slot, wrong
   memory slot, operator outside the core) and is never [Stuck]: from a well-typed state it falls through with exactly the results
   on the stack, branches to the function label / returns with the results on top, traps, or runs out of fuel.  One lemma per
   operator ([op_safe]); the induction ([safe_both]) needs an arbitrary label context and an arbitrary frame below the typed part. *)
From Coq Require Import List NArith ZArith Bool Lia. Import ListNotations.
From WV Require Import Gen.Ops Model.Common Model.IR Model.ParseFn Model.ParseSpec Model.EmitFn
  Model.BodySpec Model.Sem Model.Typing Model.SemCore Model.TypeCore.
From WV Require Import Proofs.ParseFn Proofs.Sem Proofs.TypingNf Proofs.TypeCore Proofs.ModFix10 Proofs.SemCore.
Local Open Scope nat_scope.

Inductive val_ty : val -> valty -> Prop :=
  | VT_32 : forall n, val_ty (VI32 n) VT_I32
  | VT_64 : forall n, val_ty (VI64 n) VT_I64.
(* [vs]: a piece of the operand stack, top FIRST; [ts]: its types, bottom-to-top *)
Definition has_types (vs : list val) (ts : list valty) : Prop := Forall2 val_ty vs (rev ts).

(* every local / global the environment declares is bound, at the slot that is its index, to a value of its type.
   No condition on the memory (the machine always has one; [te_has_mem e = false] only makes the validator reject
   the memory operators) and none on the range of the bit patterns (no operator goes wrong on a large pattern). *)
Definition locs_ok (e : tenv) (l : list (N * val)) : Prop :=
  forall i t, nthN_opt (te_locals e) i = Some t -> exists v, alookup i l = Some v /\ val_ty v t.
Definition globs_ok (e : tenv) (g : list (N * val)) : Prop :=
  forall i t m, nthN_opt (te_globals e) i = Some (t, m) -> exists v, alookup i g = Some v /\ val_ty v t.
Definition st_ok (e : tenv) (s : st) : Prop := locs_ok e (locs s) /\ globs_ok e (globs s).

(* the type table the machine reads its arities from *)
Definition tys_of (e : tenv) (i : N) : option (list valty * list valty) := nthN_opt (te_tys e) i.

Lemma tys_of_nth e i : tys_of e i = nth_error (te_tys e) (N.to_nat i).
Proof. apply nthN_opt_nth. Qed.

Lemma has_types_nil : has_types [] [].
Proof. constructor. Qed.
Lemma has_types_app v1 t1 v2 t2 : has_types v1 t1 -> has_types v2 t2 -> has_types (v2 ++ v1) (t1 ++ t2).
Proof. unfold has_types. intros H1 H2. rewrite rev_app_distr. apply Forall2_app; assumption. Qed.
Lemma has_types_split vs f i : has_types vs (f ++ i) -> exists vi vf, vs = vi ++ vf /\ has_types vi i /\ has_types vf f.
Proof.
  unfold has_types. rewrite rev_app_distr. intros H. apply Forall2_app_inv_r in H.
  destruct H as (vi & vf & Hi & Hf & ->). exists vi, vf. auto.
Qed.
Lemma Forall2_len {A B} (R : A -> B -> Prop) l1 l2 : Forall2 R l1 l2 -> length l1 = length l2.
Proof. induction 1; cbn [length]; congruence. Qed.
Lemma has_types_length vs ts : has_types vs ts -> length vs = length ts.
Proof. unfold has_types. intros H. apply Forall2_len in H. rewrite rev_length in H. exact H. Qed.
Lemma has_types_one v t : val_ty v t -> has_types [v] [t].
Proof. intros H. repeat constructor. exact H. Qed.
Lemma has_types_i32_inv vs : has_types vs [VT_I32] -> exists c, vs = [VI32 c].
Proof.
  unfold has_types. cbn [rev app]. intros H. inversion H as [|v t l l' Hv Hl]; subst. inversion Hl; subst.
  inversion Hv; subst. eexists. reflexivity.
Qed.

Lemma same_ty_of v v0 t : val_ty v t -> val_ty v0 t -> same_ty v v0 = true.
Proof. intros H1 H2. destruct H1; inversion H2; reflexivity. Qed.

Lemma aset_ok k v : forall l v0, alookup k l = Some v0 -> same_ty v v0 = true ->
  exists l', aset k v l = Some l' /\ alookup k l' = Some v /\ (forall k', k' <> k -> alookup k' l' = alookup k' l).
Proof.
  induction l as [|[k1 v1] l IH]; intros v0 H Hs; [discriminate H|].
  cbn [alookup aset] in *. destruct (N.eqb_spec k k1) as [->|Hne].
  - injection H as ->. rewrite Hs. eexists. split; [reflexivity|]. split.
    + cbn [alookup]. rewrite N.eqb_refl. reflexivity.
    + intros k' Hk. cbn [alookup]. destruct (N.eqb_spec k' k1); [contradiction|reflexivity].
  - destruct (IH _ H Hs) as (l' & -> & H1 & H2). eexists. split; [reflexivity|]. split.
    + cbn [alookup]. destruct (N.eqb_spec k k1); [contradiction|exact H1].
    + intros k' Hk. cbn [alookup]. destruct (k' =? k1)%N; [reflexivity|apply H2, Hk].
Qed.

Lemma locs_ok_set e l i t v : locs_ok e l -> nthN_opt (te_locals e) i = Some t -> val_ty v t ->
  exists l', aset i v l = Some l' /\ locs_ok e l'.
Proof.
  intros Hl Hi Hv. destruct (Hl _ _ Hi) as (v0 & Hv0 & Ht0).
  destruct (aset_ok i v l v0 Hv0 (same_ty_of _ _ _ Hv Ht0)) as (l' & Hs & H1 & H2).
  exists l'. split; [exact Hs|]. intros j tj Hj. destruct (N.eq_dec j i) as [->|Hne].
  - rewrite Hi in Hj. injection Hj as <-. exists v. auto.
  - rewrite (H2 _ Hne). apply Hl, Hj.
Qed.
Lemma globs_ok_set e g i t m v : globs_ok e g -> nthN_opt (te_globals e) i = Some (t, m) -> val_ty v t ->
  exists g', aset i v g = Some g' /\ globs_ok e g'.
Proof.
  intros Hg Hi Hv. destruct (Hg _ _ _ Hi) as (v0 & Hv0 & Ht0).
  destruct (aset_ok i v g v0 Hv0 (same_ty_of _ _ _ Hv Ht0)) as (g' & Hs & H1 & H2).
  exists g'. split; [exact Hs|]. intros j tj mj Hj. destruct (N.eq_dec j i) as [->|Hne].
  - rewrite Hi in Hj. injection Hj as <- <-. exists v. auto.
  - rewrite (H2 _ Hne). eapply Hg, Hj.
Qed.

(* what a step may be: the outputs [r] on the SAME rest of the stack, labels untouched, or a genuine trap *)
Definition step_ok (e : tenv) (r : list valty) (rest : list val) (ls : list N) (x : step st halt) : Prop :=
  match x with
  | Next s' => st_ok e s' /\ labs s' = ls /\ exists vr, stk s' = vr ++ rest /\ has_types vr r
  | Halt Trap s' => st_ok e s'
  | Halt _ _ => False
  end.

(* inversion of [has_types] on a concrete list of types *)
Ltac inv_types :=
  unfold has_types in *; cbn [rev app] in *;
  repeat match goal with
  | H : Forall2 val_ty _ (_ :: _) |- _ => inversion H; subst; clear H
  | H : Forall2 val_ty _ [] |- _ => inversion H; subst; clear H
  | H : val_ty _ VT_I32 |- _ => inversion H; subst; clear H
  | H : val_ty _ VT_I64 |- _ => inversion H; subst; clear H
  end.
(* a goal [step_ok] on a computed step *)
Ltac fin_step Hok :=
  cbn [app]; repeat match goal with |- context [if ?c then _ else _] => destruct c end;
  unfold trap, SemCore.push; cbn [step_ok with_stk with_mem with_pages stk labs locs globs];
  first [ exact Hok
        | split; [exact Hok|]; split; [reflexivity|];
          match goal with
          | |- exists vr, ?x :: ?r = vr ++ ?r /\ _ => exists [x]
          | |- exists vr, ?r = vr ++ ?r /\ _ => exists []
          end; split; [reflexivity|]; unfold has_types; cbn [rev app]; repeat constructor ].

Section Shapes.
  Variable e : tenv.
  Variable s : st.
  Variable vi rest : list val.
  Hypothesis Hok : st_ok e s.
  Hypothesis Hstk : stk s = vi ++ rest.

  Lemma bin32_ok f : has_types vi [VT_I32; VT_I32] -> step_ok e [VT_I32] rest (labs s) (bin32 f s).
  Proof. intros H. inv_types. unfold bin32. rewrite Hstk. fin_step Hok. Qed.
  Lemma bin64_ok f : has_types vi [VT_I64; VT_I64] -> step_ok e [VT_I64] rest (labs s) (bin64 f s).
  Proof. intros H. inv_types. unfold bin64. rewrite Hstk. fin_step Hok. Qed.
  Lemma div32_ok f : has_types vi [VT_I32; VT_I32] -> step_ok e [VT_I32] rest (labs s) (div32 f s).
  Proof. intros H. inv_types. unfold div32. rewrite Hstk. fin_step Hok. Qed.
  Lemma div64_ok f : has_types vi [VT_I64; VT_I64] -> step_ok e [VT_I64] rest (labs s) (div64 f s).
  Proof. intros H. inv_types. unfold div64. rewrite Hstk. fin_step Hok. Qed.
  Lemma divs32_ok : has_types vi [VT_I32; VT_I32] -> step_ok e [VT_I32] rest (labs s) (divs32_op s).
  Proof. intros H. inv_types. unfold divs32_op. rewrite Hstk. fin_step Hok. Qed.
  Lemma divs64_ok : has_types vi [VT_I64; VT_I64] -> step_ok e [VT_I64] rest (labs s) (divs64_op s).
  Proof. intros H. inv_types. unfold divs64_op. rewrite Hstk. fin_step Hok. Qed.
  Lemma un32_ok f : has_types vi [VT_I32] -> step_ok e [VT_I32] rest (labs s) (un32 f s).
  Proof. intros H. inv_types. unfold un32. rewrite Hstk. fin_step Hok. Qed.
  Lemma un64_ok f : has_types vi [VT_I64] -> step_ok e [VT_I64] rest (labs s) (un64 f s).
  Proof. intros H. inv_types. unfold un64. rewrite Hstk. fin_step Hok. Qed.
  Lemma cmp64_ok f : has_types vi [VT_I64; VT_I64] -> step_ok e [VT_I32] rest (labs s) (cmp64 f s).
  Proof. intros H. inv_types. unfold cmp64. rewrite Hstk. fin_step Hok. Qed.
  Lemma push32_ok n : vi = [] -> step_ok e [VT_I32] rest (labs s) (SemCore.push (VI32 n) s).
  Proof. intros ->. unfold SemCore.push. rewrite Hstk. fin_step Hok. Qed.
  Lemma push64_ok n : vi = [] -> step_ok e [VT_I64] rest (labs s) (SemCore.push (VI64 n) s).
  Proof. intros ->. unfold SemCore.push. rewrite Hstk. fin_step Hok. Qed.

  (* memory: the validator has checked that the memory index is 0 *)
  Lemma mem_load_ok mi off w post t : (forall n, val_ty (post n) t) -> (mi =? 0)%N = true -> has_types vi [VT_I32] ->
    step_ok e [t] rest (labs s) (mem_load mi off w post s).
  Proof.
    intros Hp Hm H. inv_types. unfold mem_load. rewrite Hm, Hstk. cbn [app].
    destruct (in_bounds s _ w); unfold trap; cbn [step_ok with_stk stk labs locs globs]; [|exact Hok].
    split; [exact Hok|]. split; [reflexivity|]. eexists [_]. split; [reflexivity|apply has_types_one, Hp].
  Qed.
  Lemma mem_store32_ok mi off w : (mi =? 0)%N = true -> has_types vi [VT_I32; VT_I32] ->
    step_ok e [] rest (labs s) (mem_store mi off w false s).
  Proof. intros Hm H. inv_types. unfold mem_store. rewrite Hm, Hstk. fin_step Hok. Qed.
  Lemma mem_store64_ok mi off w : (mi =? 0)%N = true -> has_types vi [VT_I32; VT_I64] ->
    step_ok e [] rest (labs s) (mem_store mi off w true s).
  Proof. intros Hm H. inv_types. unfold mem_store. rewrite Hm, Hstk. fin_step Hok. Qed.
  Lemma mem_size_ok mi : (mi =? 0)%N = true -> vi = [] -> step_ok e [VT_I32] rest (labs s) (mem_size mi s).
  Proof. intros Hm ->. unfold mem_size. rewrite Hm. unfold SemCore.push. rewrite Hstk. fin_step Hok. Qed.
  Lemma mem_grow_ok mi : (mi =? 0)%N = true -> has_types vi [VT_I32] -> step_ok e [VT_I32] rest (labs s) (mem_grow mi s).
  Proof. intros Hm H. inv_types. unfold mem_grow. rewrite Hm, Hstk. fin_step Hok. Qed.

  Lemma local_get_ok i t : nthN_opt (te_locals e) i = Some t -> vi = [] -> step_ok e [t] rest (labs s) (local_get i s).
  Proof.
    intros Hi ->. destruct Hok as [Hl Hg]. destruct (Hl _ _ Hi) as (v & Hv & Ht).
    unfold local_get, SemCore.push. rewrite Hv, Hstk. cbn [step_ok with_stk stk labs locs globs app].
    split; [split; assumption|]. split; [reflexivity|]. exists [v]. split; [reflexivity|apply has_types_one, Ht].
  Qed.
  Lemma global_get_ok i t m : nthN_opt (te_globals e) i = Some (t, m) -> vi = [] -> step_ok e [t] rest (labs s) (global_get i s).
  Proof.
    intros Hi ->. destruct Hok as [Hl Hg]. destruct (Hg _ _ _ Hi) as (v & Hv & Ht).
    unfold global_get, SemCore.push. rewrite Hv, Hstk. cbn [step_ok with_stk stk labs locs globs app].
    split; [split; assumption|]. split; [reflexivity|]. exists [v]. split; [reflexivity|apply has_types_one, Ht].
  Qed.
  Lemma has_types_one_inv t : has_types vi [t] -> exists v, vi = [v] /\ val_ty v t.
  Proof.
    unfold has_types. cbn [rev app]. intros H. inversion H as [|v t' l l' Hv Hl]; subst. inversion Hl; subst.
    exists v. auto.
  Qed.
  Lemma local_set_ok i t : nthN_opt (te_locals e) i = Some t -> has_types vi [t] -> step_ok e [] rest (labs s) (local_set i s).
  Proof.
    intros Hi H. destruct (has_types_one_inv _ H) as (v & -> & Hv). destruct Hok as [Hl Hg].
    destruct (locs_ok_set e _ i t v Hl Hi Hv) as (l' & Hs & Hl').
    unfold local_set. rewrite Hstk. cbn [app]. rewrite Hs. cbn [step_ok with_locs stk labs locs globs].
    split; [split; assumption|]. split; [reflexivity|]. exists []. split; [reflexivity|apply has_types_nil].
  Qed.
  Lemma local_tee_ok i t : nthN_opt (te_locals e) i = Some t -> has_types vi [t] -> step_ok e [t] rest (labs s) (local_tee i s).
  Proof.
    intros Hi H. destruct (has_types_one_inv _ H) as (v & -> & Hv). destruct Hok as [Hl Hg].
    destruct (locs_ok_set e _ i t v Hl Hi Hv) as (l' & Hs & Hl').
    unfold local_tee. rewrite Hstk. cbn [app]. rewrite Hs. cbn [step_ok with_locs stk labs locs globs].
    split; [split; assumption|]. split; [reflexivity|]. exists [v]. split; [reflexivity|apply has_types_one, Hv].
  Qed.
  Lemma global_set_ok i t m : nthN_opt (te_globals e) i = Some (t, m) -> has_types vi [t] -> step_ok e [] rest (labs s) (global_set i s).
  Proof.
    intros Hi H. destruct (has_types_one_inv _ H) as (v & -> & Hv). destruct Hok as [Hl Hg].
    destruct (globs_ok_set e _ i t m v Hg Hi Hv) as (g' & Hs & Hg').
    unfold global_set. rewrite Hstk. cbn [app]. rewrite Hs. cbn [step_ok with_globs stk labs locs globs].
    split; [split; assumption|]. split; [reflexivity|]. exists []. split; [reflexivity|apply has_types_nil].
  Qed.

  (* conversions and tests written inline in [core_op] *)
  Lemma conv_64_32_ok f : has_types vi [VT_I64] ->
    step_ok e [VT_I32] rest (labs s) (match stk s with VI64 a :: k => Next (with_stk s (VI32 (f a) :: k)) | _ => wrong s end).
  Proof. intros H. inv_types. rewrite Hstk. fin_step Hok. Qed.
  Lemma conv_32_64_ok f : has_types vi [VT_I32] ->
    step_ok e [VT_I64] rest (labs s) (match stk s with VI32 a :: k => Next (with_stk s (VI64 (f a) :: k)) | _ => wrong s end).
  Proof. intros H. inv_types. rewrite Hstk. fin_step Hok. Qed.

  Lemma drop_ok t : has_types vi [t] ->
    step_ok e [] rest (labs s) (core_op (fun i => i) (fun i => i) (fun i => i) W_Drop s).
  Proof.
    intros H. destruct (has_types_one_inv _ H) as (v & -> & Hv). cbn [core_op]. rewrite Hstk. cbn [app step_ok with_stk stk labs locs globs].
    split; [exact Hok|]. split; [reflexivity|]. exists []. split; [reflexivity|apply has_types_nil].
  Qed.
  Lemma select_ok t : is_int t = true -> has_types vi [t; t; VT_I32] ->
    step_ok e [t] rest (labs s) (core_op (fun i => i) (fun i => i) (fun i => i) W_Select s).
  Proof.
    intros Ht H. cbn [core_op]. destruct t; try discriminate Ht; inv_types; rewrite Hstk; cbn [app same_ty]; fin_step Hok.
  Qed.
End Shapes.

Lemma mem_ok_idx e m lg : mem_ok e m lg = true -> (wa_memory m =? 0)%N = true.
Proof. unfold mem_ok. intros H. apply andb_prop in H. destruct H as [H _]. apply andb_prop in H. apply H. Qed.
Lemma has_mem_idx e i : te_has_mem e && (i =? 0)%N = true -> (i =? 0)%N = true.
Proof. intros H. apply andb_prop in H. apply H. Qed.

Ltac prep_sig H :=
  cbn [core_sig] in H; unfold load_sig, store_sig in H;
  repeat match type of H with
  | context [match ?x with _ => _ end] => destruct x eqn:?; try discriminate H
  end; injection H as <- <-.

Lemma noncore_sig e o : is_core_shape o = false -> core_sig e o = None.
Proof. destruct o; first [reflexivity|discriminate]. Qed.
Lemma sig_core e o i r : core_sig e o = Some (i, r) -> is_core_shape o = true.
Proof. intros H. destruct (is_core_shape o) eqn:E; [reflexivity|]. rewrite (noncore_sig e o E) in H. discriminate H. Qed.

(* THE PER-OPERATOR LEMMA for the monomorphic operators: those [core_sig] gives a signature to *)
Definition sig_safe_at (e : tenv) (o : wop) : Prop := forall i r s vi rest,
  core_sig e o = Some (i, r) -> st_ok e s -> stk s = vi ++ rest -> has_types vi i ->
  step_ok e r rest (labs s) (core_op (fun i => i) (fun i => i) (fun i => i) o s).
Lemma sig_safe e : forall o, is_core_shape o = true -> sig_safe_at e o.
Proof.
  assert (Hnil : forall vi, has_types vi [] -> vi = [])
    by (intros [|v vi] H; [reflexivity|apply has_types_length in H; discriminate H]).
  apply core_cases; unfold sig_safe_at.
  1-2: intros z i r s vi rest H Hok Hstk Hvi; prep_sig H; first [eapply push32_ok | eapply push64_ok]; eauto.
  1-5: intros j i r s vi rest H Hok Hstk Hvi; prep_sig H;
    first [eapply local_get_ok | eapply local_set_ok | eapply local_tee_ok | eapply global_get_ok | eapply global_set_ok]; eauto.
  1-2: intros j i r s vi rest H Hok Hstk Hvi; prep_sig H; first [eapply mem_size_ok | eapply mem_grow_ok]; eauto using has_mem_idx.
  - each_core_op; intros m i r s vi rest H Hok Hstk Hvi; prep_sig H; cbn [core_op];
      first [ eapply mem_load_ok; first [eassumption | intros; constructor | eapply mem_ok_idx; eassumption]
            | eapply mem_store32_ok; first [eassumption | eapply mem_ok_idx; eassumption]
            | eapply mem_store64_ok; first [eassumption | eapply mem_ok_idx; eassumption] ].
  - each_core_op; intros i r s vi rest H Hok Hstk Hvi; try discriminate H; prep_sig H; cbn [core_op];
      first [ eapply bin32_ok; eassumption | eapply bin64_ok; eassumption | eapply div32_ok; eassumption | eapply div64_ok; eassumption
            | eapply divs32_ok; eassumption | eapply divs64_ok; eassumption | eapply un32_ok; eassumption | eapply un64_ok; eassumption
            | eapply cmp64_ok; eassumption | eapply conv_64_32_ok; eassumption | eapply conv_32_64_ok; eassumption ].
Qed.

Notation I := (fun i : N => i).

(* THE PER-OPERATOR LEMMA: an operator typed [ins -> outs] by the validator's operator typing, run on a stack whose top
   has the types [ins], yields [outs] on the same rest of the stack, or a genuine trap; it never goes wrong *)
Theorem op_safe e o i r s vi rest :
  core_optype e (WOp o) i r -> st_ok e s -> stk s = vi ++ rest -> has_types vi i ->
  step_ok e r rest (labs s) (core_sem I I I (WOp o) s).
Proof.
  intros [(o' & Eo & Hs)|[(Eo & t & -> & ->)|(Eo & t & Ht & -> & ->)]] Hok Hstk Hvi; injection Eo as ->; cbn [core_sem].
  - eapply sig_safe; [eapply sig_core| |..]; eassumption.
  - eapply drop_ok; eassumption.
  - eapply select_ok; eassumption.
Qed.

(* return / unreachable: a return with the results on top, or the trap of `unreachable` *)
Lemma dead_safe e o i s vi rest :
  core_opdead e (WOp o) i -> st_ok e s -> stk s = vi ++ rest -> has_types vi i ->
  (core_sem I I I (WOp o) s = Halt Trap s) \/ (core_sem I I I (WOp o) s = Halt Return s /\ i = te_results e).
Proof.
  intros [(Eo & ->)|(Eo & ->)] _ _ _; injection Eo as ->; [left|right]; auto.
Qed.

Lemma arity_eq e bt : arity (tys_of e) bt = N.of_nat (length (bt_results e bt)).
Proof.
  destruct bt as [|t|i]; try reflexivity. unfold arity, tys_of, bt_results, bt_sig.
  destruct (nthN_opt (te_tys e) i) as [[ps rs]|]; reflexivity.
Qed.
Lemma loop_arity_eq e bt : loop_arity (tys_of e) bt = N.of_nat (length (bt_params e bt)).
Proof.
  destruct bt as [|t|i]; try reflexivity. unfold loop_arity, tys_of, bt_params, bt_sig.
  destruct (nthN_opt (te_tys e) i) as [[ps rs]|]; reflexivity.
Qed.
Lemma nparams_eq e bt : nparams (tys_of e) bt = N.of_nat (length (bt_params e bt)).
Proof. rewrite nparams_loop_arity. apply loop_arity_eq. Qed.

Lemma nthN_in i : forall ds d, nthN i ds d = d \/ In (nthN i ds d) ds.
Proof.
  intros ds. revert i. induction ds as [|x ds IH]; intros i d; [left; reflexivity|].
  cbn [nthN]. destruct (i =? 0)%N; [right; left; reflexivity|].
  destruct (IH (i - 1)%N d) as [H|H]; [left; exact H|right; right; exact H].
Qed.

(* the result of running a sequence typed [.. -> b] in the label context [L], started with the typed part of the
   stack on [base] and the label records [ls]:
     Fall    the types [b] on the SAME base, the records untouched;
     Br d    the types of label d on top, then whatever the constructs passed had accumulated ([extra]), then the
             SAME base; the records of the constructs passed are popped ([close]): the records are [ls] again;
     return  the results of the function on top;   trap   a well-typed store;   never Wrong / Stuck *)
Definition res_ok (e : tenv) (L : list (list valty)) (b : list valty) (base : list val) (ls : list N)
    (r : res st halt) : Prop :=
  match r with
  | Fall s' => st_ok e s' /\ labs s' = ls /\ exists vs', stk s' = vs' ++ base /\ has_types vs' b
  | Br d s' => st_ok e s' /\ labs s' = ls /\
               exists ts vs' extra, nth_error L d = Some ts /\ stk s' = vs' ++ extra ++ base /\ has_types vs' ts
  | Stop Return s' => st_ok e s' /\ exists vs' rest, stk s' = vs' ++ rest /\ has_types vs' (te_results e)
  | Stop Trap s' => st_ok e s'
  | Stop Wrong _ => False
  | Stuck => False
  | Fuel => True
  end.

(* a result that is not a fall-through does not depend on the type after the sequence *)
Lemma res_ok_nofall e L b c base ls r : (forall s', r <> Fall s') -> res_ok e L b base ls r -> res_ok e L c base ls r.
Proof. destruct r as [s'|d s'|h s'| |]; intros Hn H; [exfalso; exact (Hn s' eq_refl)|exact H..]. Qed.

Lemma height_enter (vp rest : list val) n : length vp = n ->
  (N.of_nat (length (vp ++ rest)) - N.of_nat n)%N = N.of_nat (length rest).
Proof. intros <-. rewrite app_length. lia. Qed.

(* a branch TO a construct: exact unwinding *)
Lemma unwind_ok e s' ls lab vs' extra base :
  st_ok e s' -> labs s' = N.of_nat (length base) :: ls -> stk s' = vs' ++ extra ++ base -> has_types vs' lab ->
  let s'' := unwind (N.of_nat (length lab)) s' in
  st_ok e s'' /\ labs s'' = ls /\ stk s'' = vs' ++ base.
Proof.
  intros Hok Hl Hs Hv. apply has_types_length in Hv. rewrite <- Hv.
  destruct s' as [sk lo gl la me pg mx]. cbn [labs stk] in Hl, Hs. subst la sk.
  rewrite unwind_exact. cbn zeta. cbn [labs stk]. split; [exact Hok|]. split; reflexivity.
Qed.

Lemma labs_leave s : labs (leave s) = tl (labs s). Proof. reflexivity. Qed.
Lemma stk_leave s : stk (leave s) = stk s. Proof. reflexivity. Qed.
Lemma st_ok_leave e s : st_ok e s -> st_ok e (leave s). Proof. intros H. exact H. Qed.
Lemma labs_enter tys bt s : labs (enter tys bt s) = (height s - nparams tys bt)%N :: labs s. Proof. reflexivity. Qed.
Lemma stk_enter tys bt s : stk (enter tys bt s) = stk s. Proof. reflexivity. Qed.
Lemma st_ok_enter e tys bt s : st_ok e s -> st_ok e (enter tys bt s). Proof. intros H. exact H. Qed.

Section Close.
  Variable e : tenv.
  (* leaving a construct whose body was run on the base [vf ++ base] with the record of that height *)
  Lemma close_ok L lab rs f vf base ls r (on_br0 : st -> res st halt) :
    res_ok e (lab :: L) rs (vf ++ base) (N.of_nat (length (vf ++ base)) :: ls) r ->
    has_types vf f ->
    (forall s' vs' extra, st_ok e s' -> labs s' = N.of_nat (length (vf ++ base)) :: ls ->
       stk s' = vs' ++ extra ++ vf ++ base -> has_types vs' lab -> res_ok e L (f ++ rs) base ls (on_br0 s')) ->
    res_ok e L (f ++ rs) base ls (close st halt leave r on_br0).
  Proof.
    intros Hr Hf Hbr. destruct r as [s'|[|k] s'|[| |] s'| |]; cbn [close res_ok] in *; try exact Hr.
    - destruct Hr as (Hok & Hl & vs' & Hs & Hv). split; [apply st_ok_leave, Hok|]. split; [rewrite labs_leave, Hl; reflexivity|].
      exists (vs' ++ vf). split; [rewrite stk_leave, Hs, app_assoc; reflexivity|apply has_types_app; assumption].
    - destruct Hr as (Hok & Hl & ts & vs' & extra & Hn & Hs & Hv). cbn [nth_error] in Hn. injection Hn as <-.
      eapply Hbr; eassumption.
    - destruct Hr as (Hok & Hl & ts & vs' & extra & Hn & Hs & Hv). cbn [nth_error] in Hn.
      split; [apply st_ok_leave, Hok|]. split; [rewrite labs_leave, Hl; reflexivity|].
      exists ts, vs', (extra ++ vf). split; [exact Hn|]. split; [rewrite stk_leave, Hs, <- !app_assoc; reflexivity|exact Hv].
  Qed.
End Close.

Lemma pop_cond_ok s c k : stk s = VI32 c :: k -> pop_cond s = Some (negb (c =? 0)%N, with_stk s k).
Proof. intros H. unfold pop_cond. rewrite H. reflexivity. Qed.
Lemma pop_index_ok s c k : stk s = VI32 c :: k -> pop_index s = Some (c, with_stk s k).
Proof. intros H. unfold pop_index. rewrite H. reflexivity. Qed.

Section Safe.
  Variable e : tenv.
  Variable rr : rt -> st -> res st halt.

  Notation evt' := (evt st halt pop_cond pop_index unwind (enter (tys_of e)) leave (core_sem I I I)
                      (arity (tys_of e)) (loop_arity (tys_of e)) rr).
  Notation evl' := (evl st halt pop_cond pop_index unwind (enter (tys_of e)) leave (core_sem I I I)
                      (arity (tys_of e)) (loop_arity (tys_of e)) rr).

  Definition safe_l (run : list rt -> st -> res st halt) (L : list (list valty)) (l : list rt) (a b : list valty) : Prop :=
    forall s vs base, st_ok e s -> stk s = vs ++ base -> has_types vs a -> res_ok e L b base (labs s) (run l s).
  Definition safe_t (run : rt -> st -> res st halt) (L : list (list valty)) (t : rt) (a b : list valty) : Prop :=
    forall s vs base, st_ok e s -> stk s = vs ++ base -> has_types vs a -> res_ok e L b base (labs s) (run t s).

  (* re-entering a loop is safe (by induction on the fuel, below) *)
  Hypothesis Hrr : forall L t a b, cht1 e L t a b -> safe_t rr L t a b.

  (* entering a construct with the parameters [vp] on [vf ++ base]: the record is the height of [vf ++ base] *)
  Lemma enter_ok bt s vp vf base : stk s = (vp ++ vf) ++ base -> has_types vp (bt_params e bt) ->
    labs (enter (tys_of e) bt s) = N.of_nat (length (vf ++ base)) :: labs s /\
    stk (enter (tys_of e) bt s) = vp ++ (vf ++ base).
  Proof.
    intros Hs Hp. rewrite labs_enter, stk_enter, Hs, <- app_assoc. split; [|reflexivity].
    unfold height. rewrite Hs, <- app_assoc, nparams_eq. f_equal. apply height_enter, has_types_length, Hp.
  Qed.

  (* a block-like construct (block, if-arm): a branch to it falls through after the unwinding *)
  Lemma block_ok L bt body s vp vf f base :
    safe_l evl' (bt_results e bt :: L) body (bt_params e bt) (bt_results e bt) ->
    st_ok e s -> stk s = (vp ++ vf) ++ base -> has_types vp (bt_params e bt) -> has_types vf f ->
    res_ok e L (f ++ bt_results e bt) base (labs s)
      (close st halt leave (evl' body (enter (tys_of e) bt s)) (fun s' => Fall (unwind (arity (tys_of e) bt) s'))).
  Proof.
    intros IH Hok Hs Hp Hf. destruct (enter_ok bt s vp vf base Hs Hp) as [Hl Hk].
    eapply close_ok; [|exact Hf|].
    - rewrite <- Hl. eapply IH; [apply st_ok_enter, Hok|exact Hk|exact Hp].
    - intros s' vs' extra Hok' Hl' Hs' Hv'. rewrite arity_eq.
      destruct (unwind_ok e s' (labs s) _ vs' extra (vf ++ base) Hok' Hl' Hs' Hv') as (H1 & H2 & H3).
      cbn [res_ok]. split; [exact H1|]. split; [exact H2|]. exists (vs' ++ vf).
      split; [rewrite H3, app_assoc; reflexivity|apply has_types_app; assumption].
  Qed.

  Lemma safe_both :
    (forall L l a b, cht e L l a b -> safe_l evl' L l a b) /\
    (forall L t a b, cht1 e L t a b -> safe_t evt' L t a b).
  Proof.
    apply ht_ht1_ind.
    - (* nil *) intros L a s vs base Hok Hs Hv. cbn [evl res_ok]. split; [exact Hok|]. split; [reflexivity|]. exists vs. auto.
    - (* cons *) intros L t l a b c _ IH1 _ IH2 s vs base Hok Hs Hv. rewrite evl_cons.
      pose proof (IH1 s vs base Hok Hs Hv) as H1. destruct (evt' t s) as [s'|d s'|h s'| |] eqn:Et.
      + cbn [res_ok] in H1. destruct H1 as (Hok' & Hl' & vs' & Hs' & Hv'). rewrite <- Hl'. eapply IH2; eassumption.
      + eapply res_ok_nofall; [discriminate|exact H1].
      + eapply res_ok_nofall; [discriminate|exact H1].
      + exact H1.
      + exact H1.
    - (* plain *) intros L o loc f i r Hm Ho s vs base Hok Hs Hv.
      destruct (has_types_split _ _ _ Hv) as (vi & vf & -> & Hi & Hf). rewrite <- app_assoc in Hs.
      pose proof (op_safe e o i r s vi (vf ++ base) Ho Hok Hs Hi) as H. cbn [evt].
      destruct (core_sem I I I (WOp o) s) as [s'|[| |] s']; cbn [step_ok res_ok] in *; try exact H; try contradiction.
      destruct H as (Hok' & Hl' & vr & Hs' & Hr). split; [exact Hok'|]. split; [exact Hl'|].
      exists (vr ++ vf). split; [rewrite Hs', app_assoc; reflexivity|apply has_types_app; assumption].
    - (* dead *) intros L o loc f i b Hm Ho s vs base Hok Hs Hv.
      destruct (has_types_split _ _ _ Hv) as (vi & vf & -> & Hi & Hf). rewrite <- app_assoc in Hs.
      cbn [evt]. destruct (dead_safe e o i s vi (vf ++ base) Ho Hok Hs Hi) as [->|[-> ->]]; cbn [res_ok].
      + exact Hok.
      + split; [exact Hok|]. exists vi, (vf ++ base). auto.
    - (* nop *) intros L loc a s vs base Hok Hs Hv. cbn [evt res_ok]. split; [exact Hok|]. split; [reflexivity|]. exists vs. auto.
    - (* br *) intros L d loc f ts b Hn s vs base Hok Hs Hv.
      destruct (has_types_split _ _ _ Hv) as (vi & vf & -> & Hi & Hf). rewrite <- app_assoc in Hs.
      cbn [evt res_ok]. split; [exact Hok|]. split; [reflexivity|]. exists ts, vi, vf. auto.
    - (* br_if *) intros L d loc f ts Hn s vs base Hok Hs Hv.
      destruct (has_types_split _ _ _ Hv) as (vc & vf & -> & Hc & Hf).
      destruct (has_types_split _ _ _ Hc) as (vc' & vi & -> & Hc' & Hi).
      destruct (has_types_i32_inv _ Hc') as (c & ->). rewrite <- !app_assoc in Hs. cbn [app] in Hs.
      cbn [evt]. rewrite (pop_cond_ok _ _ _ Hs). destruct (negb (c =? 0)%N); cbn [res_ok with_stk stk labs].
      + split; [exact Hok|]. split; [reflexivity|]. exists ts, vi, vf. auto.
      + split; [exact Hok|]. split; [reflexivity|]. exists (vi ++ vf).
        split; [rewrite app_assoc; reflexivity|apply has_types_app; assumption].
    - (* br_table *) intros L ds d loc f ts b Hn Hds s vs base Hok Hs Hv.
      destruct (has_types_split _ _ _ Hv) as (vc & vf & -> & Hc & Hf).
      destruct (has_types_split _ _ _ Hc) as (vc' & vi & -> & Hc' & Hi).
      destruct (has_types_i32_inv _ Hc') as (c & ->). rewrite <- !app_assoc in Hs. cbn [app] in Hs.
      cbn [evt]. rewrite (pop_index_ok _ _ _ Hs). cbn [res_ok with_stk stk labs].
      split; [exact Hok|]. split; [reflexivity|]. exists ts, vi, vf. split; [|auto].
      destruct (nthN_in c ds d) as [->|Hin]; [exact Hn|]. rewrite Forall_forall in Hds. apply Hds, Hin.
    - (* block *) intros L bt body loc lend f _ IH s vs base Hok Hs Hv.
      destruct (has_types_split _ _ _ Hv) as (vp & vf & -> & Hp & Hf).
      rewrite evt_block. eapply block_ok; eassumption.
    - (* loop *) intros L bt body loc lend f Hb IH s vs base Hok Hs Hv.
      destruct (has_types_split _ _ _ Hv) as (vp & vf & -> & Hp & Hf).
      rewrite evt_loop. destruct (enter_ok bt s vp vf base Hs Hp) as [Hl Hk].
      eapply close_ok; [|exact Hf|].
      + rewrite <- Hl. eapply IH; [apply st_ok_enter, Hok|exact Hk|exact Hp].
      + intros s' vs' extra Hok' Hl' Hs' Hv'. rewrite loop_arity_eq.
        destruct (unwind_ok e s' (labs s) _ vs' extra (vf ++ base) Hok' Hl' Hs' Hv') as (H1 & H2 & H3).
        rewrite <- H2. eapply (Hrr L _ (f ++ bt_params e bt) (f ++ bt_results e bt)).
        * apply HT_loop, Hb.
        * exact H1.
        * rewrite H3, app_assoc. reflexivity.
        * apply has_types_app; assumption.
    - (* if / else *) intros L bt th le el loc lend f _ IHt _ IHe s vs base Hok Hs Hv.
      destruct (has_types_split _ _ _ Hv) as (vc & vf & -> & Hc & Hf).
      destruct (has_types_split _ _ _ Hc) as (vc' & vp & -> & Hc' & Hp).
      destruct (has_types_i32_inv _ Hc') as (c & ->). rewrite <- !app_assoc in Hs. cbn [app] in Hs.
      rewrite evt_if, (pop_cond_ok _ _ _ Hs).
      assert (Hs1 : stk (with_stk s (vp ++ vf ++ base)) = (vp ++ vf) ++ base) by (rewrite <- app_assoc; reflexivity).
      change (labs s) with (labs (with_stk s (vp ++ vf ++ base))).
      destruct (negb (c =? 0)%N); eapply block_ok; eassumption.
    - (* if without else *) intros L bt th loc lend f _ IHt Heq s vs base Hok Hs Hv.
      destruct (has_types_split _ _ _ Hv) as (vc & vf & -> & Hc & Hf).
      destruct (has_types_split _ _ _ Hc) as (vc' & vp & -> & Hc' & Hp).
      destruct (has_types_i32_inv _ Hc') as (c & ->). rewrite <- !app_assoc in Hs. cbn [app] in Hs.
      rewrite evt_if, (pop_cond_ok _ _ _ Hs).
      assert (Hs1 : stk (with_stk s (vp ++ vf ++ base)) = (vp ++ vf) ++ base) by (rewrite <- app_assoc; reflexivity).
      destruct (negb (c =? 0)%N).
      + change (labs s) with (labs (with_stk s (vp ++ vf ++ base))). eapply block_ok; eassumption.
      + cbn [close]. rewrite leave_enter. cbn [res_ok with_stk stk labs]. split; [exact Hok|]. split; [reflexivity|].
        exists (vp ++ vf). split; [rewrite app_assoc; reflexivity|]. rewrite <- Heq. apply has_types_app; assumption.
  Qed.
End Safe.

Lemma safe_rerun e : forall fuel L t a b, cht1 e L t a b ->
  safe_t e (rerun_of st halt pop_cond pop_index unwind (enter (tys_of e)) leave (core_sem I I I)
              (arity (tys_of e)) (loop_arity (tys_of e)) fuel) L t a b.
Proof.
  induction fuel as [|fuel IH]; intros L t a b H.
  - intros s vs base _ _ _. exact Logic.I.
  - intros s vs base Hok Hs Hv. cbn [rerun_of].
    replace (eval_t st halt pop_cond pop_index unwind (enter (tys_of e)) leave (core_sem I I I)
               (arity (tys_of e)) (loop_arity (tys_of e)) fuel t s)
      with (evt st halt pop_cond pop_index unwind (enter (tys_of e)) leave (core_sem I I I)
              (arity (tys_of e)) (loop_arity (tys_of e))
              (rerun_of st halt pop_cond pop_index unwind (enter (tys_of e)) leave (core_sem I I I)
                 (arity (tys_of e)) (loop_arity (tys_of e)) fuel) t s)
      by (destruct fuel; reflexivity).
    exact (proj2 (safe_both e _ IH) L t a b H s vs base Hok Hs Hv).
Qed.

(* the general statement for [run_core]: any label context, any typed sequence, any frame below *)
Theorem run_core_safe e fuel L l a b s vs base :
  cht e L l a b -> st_ok e s -> stk s = vs ++ base -> has_types vs a ->
  res_ok e L b base (labs s) (run_core id id id (tys_of e) fuel l s).
Proof.
  intros H Hok Hs Hv. unfold run_core, eval.
  exact (proj1 (safe_both e _ (safe_rerun e fuel)) L l a b H s vs base Hok Hs Hv).
Qed.

Definition final_ok (e : tenv) (r : res st halt) : Prop :=
  match r with
  | Fall s => st_ok e s /\ labs s = [] /\ has_types (stk s) (te_results e)            (* the results, exactly *)
  | Br d s => st_ok e s /\ d = 0 /\ labs s = [] /\                                     (* a branch to the function label *)
              exists vs rest, stk s = vs ++ rest /\ has_types vs (te_results e)
  | Stop Return s => st_ok e s /\ exists vs rest, stk s = vs ++ rest /\ has_types vs (te_results e)
  | Stop Trap s => st_ok e s
  | Stop Wrong _ => False
  | Stuck => False
  | Fuel => True
  end.

Theorem type_safety e body s0 :
  check_body e body = true -> st_ok e s0 -> stk s0 = [] -> labs s0 = [] ->
  forall fuel, final_ok e (run_core id id id (tys_of e) fuel body s0).
Proof.
  intros Hc Hok Hs Hl fuel. apply check_body_sound in Hc.
  pose proof (run_core_safe e fuel _ _ _ _ s0 [] [] Hc Hok Hs has_types_nil) as H. rewrite Hl in H.
  destruct (run_core id id id (tys_of e) fuel body s0) as [s|d s|[| |] s| |]; cbn [res_ok final_ok] in *; try exact H.
  - destruct H as (H1 & H2 & vs' & H3 & H4). rewrite app_nil_r in H3. subst vs'. auto.
  - destruct H as (H1 & H2 & ts & vs' & extra & Hn & H3 & H4). split; [exact H1|].
    destruct d as [|d]; [|destruct d; discriminate Hn]. injection Hn as <-. split; [reflexivity|]. split; [exact H2|].
    exists vs', (extra ++ []). auto.
Qed.

(* the emitted body (normal form of the round trip) of an accepted body is as safe *)
Corollary emitted_body_is_safe e body s0 :
  check_body e body = true -> st_ok e s0 -> stk s0 = [] -> labs s0 = [] ->
  forall fuel, final_ok e (run_core id id id (tys_of e) fuel (fst (nf_rt_list false body)) s0).
Proof. intros Hc. apply type_safety, check_body_nf, Hc. Qed.

(* the negative reading: an accepted body, and its emitted form, never go wrong and are never stuck *)
Corollary accepted_body_never_wrong e body s0 :
  check_body e body = true -> st_ok e s0 -> stk s0 = [] -> labs s0 = [] ->
  forall fuel, (forall s, run_core id id id (tys_of e) fuel body s0 <> Stop Wrong s) /\
               run_core id id id (tys_of e) fuel body s0 <> Stuck.
Proof.
  intros Hc Hok Hs Hl fuel. pose proof (type_safety e body s0 Hc Hok Hs Hl fuel) as H.
  split; [intros s E|intros E]; rewrite E in H; exact H.
Qed.

(* ANY assignment of values of the declared types to the locals and the globals, bound at consecutive slots from 0 *)
Fixpoint bind_from (k : N) (vs : list val) : list (N * val) :=
  match vs with [] => [] | v :: r => (k, v) :: bind_from (k + 1)%N r end.
Lemma bind_from_ok vs ts : Forall2 val_ty vs ts ->
  forall k i t, nthN_opt ts i = Some t -> exists v, alookup (k + i)%N (bind_from k vs) = Some v /\ val_ty v t.
Proof.
  induction 1 as [|v t0 vs ts Hv Hr IH]; intros k i t Hi; [discriminate Hi|].
  cbn [nthN_opt] in Hi. cbn [bind_from alookup]. destruct (N.eqb_spec i 0%N) as [->|Hne].
  - injection Hi as <-. rewrite N.add_0_r, N.eqb_refl. exists v. auto.
  - destruct (N.eqb_spec (k + i)%N k) as [E|_]; [lia|].
    replace (k + i)%N with ((k + 1) + (i - 1))%N by lia. apply IH, Hi.
Qed.
Lemma nthN_opt_map {A B} (f : A -> B) l i x : nthN_opt l i = Some x -> nthN_opt (map f l) i = Some (f x).
Proof. rewrite !nthN_opt_nth. apply map_nth_error. Qed.
Theorem st_ok_bind e lv gv k lb m p mx :
  Forall2 val_ty lv (te_locals e) -> Forall2 val_ty gv (map fst (te_globals e)) ->
  st_ok e {| stk := k; locs := bind_from 0 lv; globs := bind_from 0 gv; labs := lb; mem := m; pages := p; max_pages := mx |}.
Proof.
  intros Hl Hg. split; cbn [locs globs].
  - intros i t Hi. exact (bind_from_ok _ _ Hl 0%N i t Hi).
  - intros i t mu Hi. apply (bind_from_ok _ _ Hg 0%N i t). apply (nthN_opt_map fst _ _ _ Hi).
Qed.

(* a concrete instance, by computation: factorial of local 0 with a loop, a branch out of the block, a global *)
Module Ex.
  Local Open Scope N_scope.
  Definition e0 : tenv :=
    {| te_locals := [VT_I32; VT_I32]; te_globals := [(VT_I32, true)]; te_tys := []; te_results := [VT_I32]; te_has_mem := true |}.
  Definition P (o : wop) : rt := RPlain o 0.
  Definition fact : list rt :=
    [ P (W_I32Const 1); P (W_LocalSet 1);
      RBlock BT_Empty
        [ RLoop BT_Empty
            [ P (W_LocalGet 0); P W_I32Eqz; RBrIf 1 0;
              P (W_LocalGet 1); P (W_LocalGet 0); P W_I32Mul; P (W_LocalSet 1);
              P (W_LocalGet 0); P (W_I32Const 1); P W_I32Sub; P (W_LocalSet 0);
              RBr 0 0 ] 0 0 ] 0 0;
      P (W_LocalGet 1); P (W_GlobalSet 0); P (W_GlobalGet 0) ].
  Definition s_n (n : N) : st :=
    {| stk := []; locs := bind_from 0 [VI32 n; VI32 0]; globs := bind_from 0 [VI32 7]; labs := []; mem := []; pages := 1; max_pages := 1 |}.
  Example fact_accepted : check_body e0 fact = true.
  Proof. vm_compute. reflexivity. Qed.
  Example s_n_ok n : st_ok e0 (s_n n).
  Proof. apply st_ok_bind; repeat constructor. Qed.
  Example fact_safe n fuel : final_ok e0 (run_core id id id (tys_of e0) fuel fact (s_n n)).
  Proof. apply type_safety; [exact fact_accepted|apply s_n_ok|reflexivity|reflexivity]. Qed.
  Example fact_5 : match run_core id id id (tys_of e0) 9 fact (s_n 5) with Fall s => stk s | _ => [] end = [VI32 120].
  Proof. vm_compute. reflexivity. Qed.
  (* a rejected body that does go wrong: i64 operand for i32.add *)
  Example rejected_goes_wrong :
    check_body e0 [P (W_I64Const 1); P (W_I32Const 1); P W_I32Add] = false /\
    match run_core id id id (tys_of e0) 0 [P (W_I64Const 1); P (W_I32Const 1); P W_I32Add] (s_n 0) with Stop Wrong _ => true | _ => false end = true.
  Proof. split; vm_compute; reflexivity. Qed.
End Ex.

(* every operator of a typed body (dead code included) is an operator of the core, with an alignment exponent that
   survives the round trip: the validator bounds it by the access width *)
Lemma sig_align e : forall o, is_core_shape o = true -> forall i r, core_sig e o = Some (i, r) -> align_ok o = true.
Proof.
  apply (core_cases (fun o => forall i r, core_sig e o = Some (i, r) -> align_ok o = true)); each_core_op; try reflexivity; intros m i r H;
    unfold align_ok; cbn [memarg_of]; cbn [core_sig] in H; unfold load_sig, store_sig in H;
    match type of H with context [mem_ok ?e ?m ?lg] => destruct (mem_ok e m lg) eqn:Em; [|discriminate H] end;
    unfold mem_ok in Em; apply andb_prop in Em; destruct Em as [_ Em]; apply N.leb_le in Em; apply N.ltb_lt; lia.
Qed.
Lemma sig_core_shape e o i r : core_sig e o = Some (i, r) -> is_core_shape o = true /\ align_ok o = true.
Proof. intros H. pose proof (sig_core e o i r H) as Hc. split; [exact Hc|exact (sig_align e o Hc i r H)]. Qed.
Lemma typed_ops_core e :
  (forall L l a b, cht e L l a b -> forall o, In o (ops_of l) -> is_core_shape o = true /\ align_ok o = true) /\
  (forall L t a b, cht1 e L t a b -> forall o, In o (ops_of_t t) -> is_core_shape o = true /\ align_ok o = true).
Proof.
  apply ht_ht1_ind.
  - intros L a o [].
  - intros L t l a b c _ IH1 _ IH2 o Ho. cbn [ops_of] in Ho. apply in_app_or in Ho. destruct Ho; auto.
  - intros L o loc f i r _ Ho o' [<-|[]].
    destruct Ho as [(o1 & Eo & Hs)|[(Eo & _)|(Eo & _)]]; injection Eo as ->; [eapply sig_core_shape, Hs|split; reflexivity..].
  - intros L o loc f i b _ Ho o' [<-|[]]. destruct Ho as [(Eo & _)|(Eo & _)]; injection Eo as ->; split; reflexivity.
  - intros L loc a o [].
  - intros L d loc f ts b _ o [].
  - intros L d loc f ts _ o [].
  - intros L ds d loc f ts b _ _ o [].
  - intros L bt body loc lend f _ IH o Ho. rewrite ops_of_block in Ho. auto.
  - intros L bt body loc lend f _ IH o Ho. rewrite ops_of_loop in Ho. auto.
  - intros L bt th le el loc lend f _ IH1 _ IH2 o Ho. rewrite ops_of_if_some in Ho. apply in_app_or in Ho. destruct Ho; auto.
  - intros L bt th loc lend f _ IH _ o Ho. rewrite ops_of_if_none in Ho. auto.
Qed.

(* THE EMITTED BODY AS WALRUS WRITES IT - normal form, every operator and block type re-encoded ([ren_t]: its flattening is
   the emitted operator stream, [core_output_tree_is_emitted]) - run on the RENUMBERED slots and the OUTPUT type table,
   is as safe as the input body on the identity slots: it behaves exactly as the input ([core_roundtrip_equiv_tys]),
   which never goes wrong.  The only premise on the body beyond acceptance: 32-bit offsets (walrus truncates larger ones:
   [core_sem_renamed_big_offset_refuted]; the validator of the model does not bound the offset). *)
Theorem emitted_renamed_body_is_safe cx ecx lslot' gslot' mslot' tys' e body s0 :
  (forall i, lslot' (rl cx ecx i) = i) ->
  (forall i, gslot' (rg cx ecx i) = i) ->
  (forall i, mslot' (rm cx ecx i) = i) ->
  (forall i, tys_of e i = bt_tys cx (BT_Func i)) ->
  (forall i ps rs, tys_of e i = Some (ps, rs) -> existing cx ps rs <> None) ->
  (forall ps rs ty, find_type cx ps rs = Some ty -> tys' (ex_id2i ecx S_type ty) = Some (ps, rs)) ->
  check_body e body = true -> (forall o, In o (ops_of body) -> offset_ok o = true) ->
  st_ok e s0 -> stk s0 = [] -> labs s0 = [] ->
  forall fuel, final_ok e (run_core lslot' gslot' mslot' tys' fuel (map (ren_t cx ecx) (fst (nf_rt_list false body))) s0).
Proof.
  intros Hl Hg Hm H1 H2 H3 Hc Hoff Hok Hs Hlb fuel.
  pose proof (proj1 (typed_ops_core e) _ _ _ _ (check_body_sound e body Hc)) as Hcore.
  rewrite (core_roundtrip_equiv_tys cx ecx id id id lslot' gslot' mslot' (tys_of e) tys' Hl Hg Hm H1 H2 H3 body).
  - apply type_safety; assumption.
  - intros o Ho. unfold memarg_ok. rewrite (Hoff o Ho), (proj2 (Hcore o Ho)). reflexivity.
  - intros o Ho. apply core_shape_decodable, (proj1 (Hcore o Ho)).
Qed.

Print Assumptions op_safe.
Print Assumptions run_core_safe.
Print Assumptions type_safety.
Print Assumptions emitted_body_is_safe.
Print Assumptions accepted_body_never_wrong.
Print Assumptions st_ok_bind.
Print Assumptions emitted_renamed_body_is_safe.
