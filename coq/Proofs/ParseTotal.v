(* On what the validator guarantees, the parse model neither panics nor errs.
   [valid_stream w] states, purely on the payload stream, the guarantees of wasmparser's
   Validator that Module::parse relies on; [parse_total] shows they suffice. *)
From Coq Require Import List NArith ZArith Bool Arith Lia.
Import ListNotations.
From WV Require Import Gen.Ops Model.Common Model.IR Model.Arena Model.ParseFn Model.ParseSpec Model.ModuleM
                       Model.ParseM Gen.Attrs.
From WV Require Import Proofs.Arena Proofs.IndexMaps Proofs.ParseFn Proofs.Structure Proofs.Totality.
Local Open Scope nat_scope.

(* running context: what has been declared so far *)
Record vctx := {
  c_last : nat;                (* rank of the last non-custom section seen (0: none) *)
  c_nt : nat;                  (* declared types *)
  c_nimp : nat;                (* imported functions *)
  c_nloc : nat;                (* declared local functions *)
  c_tabs : list bool;          (* tables: table64 flag *)
  c_mems : list bool;          (* memories: memory64 flag *)
  c_globs : list valty;        (* globals: value type *)
  c_dc : option nat;           (* data count section *)
  c_ndata : nat;               (* data segments known to walrus so far *)
  c_nbodies : nat }.           (* code entries *)
Definition c_nf (c : vctx) : nat := c_nimp c + c_nloc c.
Definition ctx0 : vctx :=
  {| c_last := 0; c_nt := 0; c_nimp := 0; c_nloc := 0; c_tabs := []; c_mems := []; c_globs := [];
     c_dc := None; c_ndata := 0; c_nbodies := 0 |}.

Definition ltb_N (i : N) (n : nat) : bool := N.to_nat i <? n.

(* standard section order: strictly increasing ranks, custom sections anywhere *)
Definition rank (s : wsec) : option nat :=
  match s with
  | S_Types _ => Some 1 | S_Imports _ => Some 2 | S_Funcs _ => Some 3 | S_Tables _ => Some 4 | S_Mems _ => Some 5
  | S_Globals _ => Some 6 | S_Exports _ => Some 7 | S_Start _ => Some 8 | S_Elems _ => Some 9
  | S_DataCount _ => Some 10 | S_Code _ => Some 11 | S_Data _ => Some 12 | S_Custom _ => None
  end.
Definition order_ok (c : vctx) (s : wsec) : bool :=
  match rank s with Some r => c_last c <? r | None => true end.

(* constant expressions: the supported forms, indices in range *)
Definition const_ok (nf : nat) (globs : list valty) (k : wconst) : bool :=
  match k with
  | WC_GlobalGet i => ltb_N i (length globs)
  | WC_RefFunc i => ltb_N i nf
  | WC_Other => false
  | _ => true
  end.
(* segment offsets: an i32 (resp. i64 for a 64-bit table/memory) constant or global *)
Definition offset_valid (globs : list valty) (is64 : bool) (k : wconst) : bool :=
  match k with
  | WC_I32 _ => negb is64
  | WC_I64 _ => is64
  | WC_GlobalGet i => match nth_error globs (N.to_nat i) with
                      | Some VT_I32 => negb is64 | Some VT_I64 => is64 | _ => false end
  | _ => false
  end.

Definition import_ok (c : vctx) (i : wimport) : bool :=
  match wi_kind i with WI_Func ty => ltb_N ty (c_nt c) | _ => true end.
Definition export_ok (c : vctx) (e : wexport) : bool :=
  ltb_N (we_index e) (match we_kind e with
                      | EK_Func => c_nf c | EK_Table => length (c_tabs c)
                      | EK_Mem => length (c_mems c) | EK_Global => length (c_globs c) end).
Definition elem_ok (c : vctx) (e : welem) : bool :=
  match wel_items e with
  | WEI_Funcs fs => forallb (fun f => ltb_N f (c_nf c)) fs
  | WEI_Exprs _ es => forallb (const_ok (c_nf c) (c_globs c)) es
  end &&
  match wel_kind e with
  | WEK_Active tbl off =>
      match nth_error (c_tabs c) (N.to_nat (match tbl with Some t => t | None => 0%N end)) with
      | Some is64 => offset_valid (c_globs c) is64 off
      | None => false
      end
  | _ => true
  end.
Definition data_ok (c : vctx) (d : wdata) : bool :=
  match wd_kind d with
  | WDK_Passive => true
  | WDK_Active mi off => match nth_error (c_mems c) (N.to_nat mi) with
                         | Some is64 => offset_valid (c_globs c) is64 off
                         | None => false end
  end.
(* globals: an initializer sees the globals declared before it *)
Fixpoint globals_ok (nf : nat) (globs : list valty) (l : list (wglobalty * wconst)) : bool :=
  match l with
  | [] => true
  | (g, k) :: r => const_ok nf globs k && globals_ok nf (globs ++ [wg_ty g]) r
  end.

(* function bodies: a well-bracketed operator sequence with a final `end`; branch depths below the
   nesting depth, every operator one that walrus decodes, block types declared *)
Definition sbt_ok (nt : nat) (bt : blockty) : Prop :=
  match bt with BT_Func i => N.to_nat i < nt | _ => True end.
Fixpoint swf (nt : nat) (k : nat) (t : rt) : Prop :=
  let wl := fix wl (k : nat) (l : list rt) : Prop := match l with [] => True | x :: l' => swf nt k x /\ wl k l' end in
  match t with
  | RPlain o _ => forall f, decode_plain f o <> None
  | RNop _ => True
  | RBr d _ | RBrIf d _ => N.to_nat d < k
  | RBrTable ds d _ => N.to_nat d < k /\ Forall (fun x => N.to_nat x < k) ds
  | RBlock bt b _ _ | RLoop bt b _ _ => sbt_ok nt bt /\ wl (S k) b
  | RIf bt th el _ _ => sbt_ok nt bt /\ wl (S k) th /\ match el with Some (_, e) => wl (S k) e | None => True end
  end.
Fixpoint swfl (nt : nat) (k : nat) (l : list rt) : Prop :=
  match l with [] => True | x :: l' => swf nt k x /\ swfl nt k l' end.
Definition body_valid (nt : nat) (b : wbody) : Prop :=
  exists l eloc, wb_ops b = flat_list l ++ [(WEnd, eloc)] /\ swfl nt 1 l.

Definition valid_sec_b (c : vctx) (s : wsec) : bool :=
  order_ok c s &&
  match s with
  | S_Imports l => forallb (import_ok c) l
  | S_Funcs l => forallb (fun ty => ltb_N ty (c_nt c)) l
  | S_Globals l => globals_ok (c_nf c) (c_globs c) l
  | S_Exports l => forallb (export_ok c) l
  | S_Start f => ltb_N f (c_nf c)
  | S_Elems l => forallb (elem_ok c) l
  | S_Data l => forallb (data_ok c) l && match c_dc c with Some n => length l =? n | None => true end
  | _ => true
  end.
Definition valid_sec (c : vctx) (s : wsec) : Prop :=
  valid_sec_b c s = true /\ match s with S_Code bs => Forall (body_valid (c_nt c)) bs | _ => True end.

(* context after a payload *)
Definition cimp (c : vctx) (i : wimport) : vctx :=
  match wi_kind i with
  | WI_Func _ => {| c_last := c_last c; c_nt := c_nt c; c_nimp := S (c_nimp c); c_nloc := c_nloc c; c_tabs := c_tabs c;
                    c_mems := c_mems c; c_globs := c_globs c; c_dc := c_dc c; c_ndata := c_ndata c; c_nbodies := c_nbodies c |}
  | WI_Table t => {| c_last := c_last c; c_nt := c_nt c; c_nimp := c_nimp c; c_nloc := c_nloc c; c_tabs := c_tabs c ++ [wt_64 t];
                    c_mems := c_mems c; c_globs := c_globs c; c_dc := c_dc c; c_ndata := c_ndata c; c_nbodies := c_nbodies c |}
  | WI_Mem m => {| c_last := c_last c; c_nt := c_nt c; c_nimp := c_nimp c; c_nloc := c_nloc c; c_tabs := c_tabs c;
                    c_mems := c_mems c ++ [wm_64 m]; c_globs := c_globs c; c_dc := c_dc c; c_ndata := c_ndata c; c_nbodies := c_nbodies c |}
  | WI_Global g => {| c_last := c_last c; c_nt := c_nt c; c_nimp := c_nimp c; c_nloc := c_nloc c; c_tabs := c_tabs c;
                    c_mems := c_mems c; c_globs := c_globs c ++ [wg_ty g]; c_dc := c_dc c; c_ndata := c_ndata c; c_nbodies := c_nbodies c |}
  end.
Definition set_last (c : vctx) (s : wsec) : vctx :=
  {| c_last := match rank s with Some r => r | None => c_last c end;
     c_nt := c_nt c; c_nimp := c_nimp c; c_nloc := c_nloc c; c_tabs := c_tabs c; c_mems := c_mems c;
     c_globs := c_globs c; c_dc := c_dc c; c_ndata := c_ndata c; c_nbodies := c_nbodies c |}.
Definition cstep0 (c : vctx) (s : wsec) : vctx :=
  match s with
  | S_Types ts => {| c_last := c_last c; c_nt := c_nt c + length ts; c_nimp := c_nimp c; c_nloc := c_nloc c; c_tabs := c_tabs c;
                     c_mems := c_mems c; c_globs := c_globs c; c_dc := c_dc c; c_ndata := c_ndata c; c_nbodies := c_nbodies c |}
  | S_Imports l => fold_left cimp l c
  | S_Funcs l => {| c_last := c_last c; c_nt := c_nt c; c_nimp := c_nimp c; c_nloc := c_nloc c + length l; c_tabs := c_tabs c;
                     c_mems := c_mems c; c_globs := c_globs c; c_dc := c_dc c; c_ndata := c_ndata c; c_nbodies := c_nbodies c |}
  | S_Tables l => {| c_last := c_last c; c_nt := c_nt c; c_nimp := c_nimp c; c_nloc := c_nloc c; c_tabs := c_tabs c ++ map wt_64 l;
                     c_mems := c_mems c; c_globs := c_globs c; c_dc := c_dc c; c_ndata := c_ndata c; c_nbodies := c_nbodies c |}
  | S_Mems l => {| c_last := c_last c; c_nt := c_nt c; c_nimp := c_nimp c; c_nloc := c_nloc c; c_tabs := c_tabs c;
                     c_mems := c_mems c ++ map wm_64 l; c_globs := c_globs c; c_dc := c_dc c; c_ndata := c_ndata c; c_nbodies := c_nbodies c |}
  | S_Globals l => {| c_last := c_last c; c_nt := c_nt c; c_nimp := c_nimp c; c_nloc := c_nloc c; c_tabs := c_tabs c;
                     c_mems := c_mems c; c_globs := c_globs c ++ map (fun gc_sweep => wg_ty (fst gc_sweep)) l; c_dc := c_dc c;
                     c_ndata := c_ndata c; c_nbodies := c_nbodies c |}
  | S_DataCount n => {| c_last := c_last c; c_nt := c_nt c; c_nimp := c_nimp c; c_nloc := c_nloc c; c_tabs := c_tabs c;
                     c_mems := c_mems c; c_globs := c_globs c; c_dc := Some (N.to_nat n); c_ndata := c_ndata c + N.to_nat n;
                     c_nbodies := c_nbodies c |}
  | S_Code bs => {| c_last := c_last c; c_nt := c_nt c; c_nimp := c_nimp c; c_nloc := c_nloc c; c_tabs := c_tabs c;
                     c_mems := c_mems c; c_globs := c_globs c; c_dc := c_dc c; c_ndata := c_ndata c;
                     c_nbodies := c_nbodies c + length bs |}
  | S_Data l => {| c_last := c_last c; c_nt := c_nt c; c_nimp := c_nimp c; c_nloc := c_nloc c; c_tabs := c_tabs c;
                     c_mems := c_mems c; c_globs := c_globs c; c_dc := c_dc c;
                     c_ndata := (if c_ndata c =? 0 then length l else c_ndata c); c_nbodies := c_nbodies c |}
  | _ => c
  end.
Definition cstep (c : vctx) (s : wsec) : vctx := set_last (cstep0 c s) s.

Fixpoint valid_from (c : vctx) (w : wmod) : Prop :=
  match w with
  | [] => c_nbodies c = c_nloc c              (* as many code entries as declared functions *)
  | s :: r => valid_sec c s /\ valid_from (cstep c s) r
  end.
Definition valid_stream (w : wmod) : Prop := valid_from ctx0 w.

(* the part of [valid_stream] other than the bodies is a boolean *)
Fixpoint valid_from_b (c : vctx) (w : wmod) : bool :=
  match w with
  | [] => c_nbodies c =? c_nloc c
  | s :: r => valid_sec_b c s && valid_from_b (cstep c s) r
  end.
Definition no_code (w : wmod) : Prop := forall bs, ~ In (S_Code bs) w.
Fixpoint code_valid (c : vctx) (w : wmod) : Prop :=
  match w with
  | [] => True
  | s :: r => match s with S_Code bs => Forall (body_valid (c_nt c)) bs | _ => True end /\ code_valid (cstep c s) r
  end.
Lemma valid_from_split : forall w c, valid_from_b c w = true -> code_valid c w -> valid_from c w.
Proof.
  induction w as [|s r IH]; intros c H Hc; cbn [valid_from valid_from_b code_valid] in *.
  - apply Nat.eqb_eq. exact H.
  - apply andb_true_iff in H. destruct H as [H1 H2]. destruct Hc as [Hc1 Hc2].
    split; [split; assumption|apply IH; assumption].
Qed.
Lemma valid_no_code_b : forall w c, (forall bs, ~ In (S_Code bs) w) -> valid_from_b c w = true -> valid_from c w.
Proof.
  intros w c Hn H. apply valid_from_split; [exact H|]. clear H. revert c.
  induction w as [|s r IH]; intros c; cbn [code_valid]; [exact I|]. split.
  - destruct s; try exact I. destruct (Hn bs). left. reflexivity.
  - apply IH. intros bs Hin. apply (Hn bs). right. exact Hin.
Qed.

Lemma nth_N_lt {A} (l : list A) i : N.to_nat i < length l -> exists x, nth_N l i = Some x.
Proof.
  intros H. unfold nth_N. destruct (nth_error l (N.to_nat i)) eqn:E; eauto. apply nth_error_None in E. lia.
Qed.
Lemma nth_N_iota_lt n i : N.to_nat i < n -> nth_N (iota n) i = Some i.
Proof. intros H. unfold nth_N. rewrite iota_nth by exact H. rewrite N2Nat.id. reflexivity. Qed.
Lemma ltb_N_lt i n : ltb_N i n = true -> N.to_nat i < n.
Proof. unfold ltb_N. apply Nat.ltb_lt. Qed.
Lemma repeat_snoc {A} (a : A) n : repeat a n ++ [a] = repeat a (S n).
Proof. induction n as [|n IH]; [reflexivity|]. cbn [repeat app]. rewrite IH. reflexivity. Qed.
Lemma nth_error_map_inv {A B} (f : A -> B) l n b : nth_error (map f l) n = Some b -> exists a, nth_error l n = Some a /\ f a = b.
Proof.
  rewrite nth_error_map. destruct (nth_error l n) as [a|]; cbn [option_map]; [|discriminate].
  intros H. inversion H. eauto.
Qed.

(* what the context abstracts of the module under construction *)
Definition fcls (f : mfunc) : nat := match fn_kind f with FK_Import _ _ => 0 | FK_Uninit _ => 1 | FK_Local _ => 2 end.
Definition Abs (nt ni nl : nat) (tb me : list bool) (gl : list valty) (nd : nat) (m : wir) (ids : i2ids) : Prop :=
  length (ii_types ids) = nt /\ map fcls (items (m_funcs m)) = repeat 0 ni ++ repeat 1 nl /\
  map tb_64 (items (m_tables m)) = tb /\ map me_64 (items (m_memories m)) = me /\
  map gl_ty (items (m_globals m)) = gl /\ length (items (m_data m)) = nd.
Definition AbsC (c : vctx) (m : wir) (ids : i2ids) : Prop :=
  Abs (c_nt c) (c_nimp c) (c_nloc c) (c_tabs c) (c_mems c) (c_globs c) (c_ndata c) m ids.

Lemma abs_nf nt ni nl tb me gl nd m ids : ids_consistent m ids -> Abs nt ni nl tb me gl nd m ids ->
  length (ii_funcs ids) = ni + nl.
Proof.
  intros Hid (_ & A2 & _). unfold ids_consistent in Hid. destruct Hid as (H & _). rewrite H, iota_length.
  rewrite <- (map_length fcls), A2, app_length, !repeat_length. reflexivity.
Qed.

Lemma abs_ng nt ni nl tb me gl nd m ids : ids_consistent m ids -> Abs nt ni nl tb me gl nd m ids ->
  length (ii_globals ids) = length gl.
Proof. intros (_ & _ & _ & H & _) (_ & _ & _ & _ & A5 & _). rewrite H, iota_length, <- A5, map_length. reflexivity. Qed.

Lemma parse_types_abs : forall ts m ids m' ids' nt ni nl tb me gl nd,
  Abs nt ni nl tb me gl nd m ids -> parse_types m ids ts = (m', ids') -> Abs (nt + length ts) ni nl tb me gl nd m' ids'.
Proof.
  induction ts as [|[ps rs] r IH]; intros m ids m' ids' nt ni nl tb me gl nd A E; cbn [parse_types] in E.
  - inversion E; subst. rewrite Nat.add_0_r. exact A.
  - destruct (types_insert m _) as [m1 id] eqn:Et. apply IH with (nt := S nt) (ni := ni) (nl := nl) (tb := tb) (me := me) (gl := gl) (nd := nd) in E.
    + cbn [length]. replace (nt + S (length r)) with (S nt + length r) by lia. exact E.
    + apply types_insert_dead in Et. destruct Et as [Et _]. rewrite Et. destruct A as (A1 & A2 & A3 & A4 & A5 & A6).
      unfold Abs. wcbn. rewrite app_length. cbn [length]. repeat split; try assumption. lia.
Qed.

Lemma cimp_nt c i : c_nt (cimp c i) = c_nt c. Proof. unfold cimp. destruct (wi_kind i); reflexivity. Qed.
Lemma cimp_nloc c i : c_nloc (cimp c i) = c_nloc c. Proof. unfold cimp. destruct (wi_kind i); reflexivity. Qed.
Lemma parse_import_abs m ids i c : AbsC c m ids -> c_nloc c = 0 -> import_ok c i = true ->
  exists m' ids', parse_import m ids i = POk (m', ids') /\ AbsC (cimp c i) m' ids'.
Proof.
  intros A Hl Hok. unfold parse_import, import_ok, cimp in *. destruct A as (A1 & A2 & A3 & A4 & A5 & A6).
  destruct (wi_kind i) as [ty|t|mm|g].
  - apply ltb_N_lt in Hok. rewrite <- A1 in Hok. destruct (nth_N_lt _ _ Hok) as [x Hx]. rewrite Hx. cbn [of_opt_err pbind]. wcbn.
    eexists _, _. split; [reflexivity|]. unfold AbsC, Abs. wcbn.
    cbn [c_nt c_nimp c_nloc c_tabs c_mems c_globs c_ndata]. rewrite map_app, A2, Hl. cbn [repeat map fcls fn_kind].
    rewrite !app_nil_r, repeat_snoc. repeat split; assumption.
  - wcbn. eexists _, _. split; [reflexivity|]. unfold AbsC, Abs. wcbn.
    cbn [c_nt c_nimp c_nloc c_tabs c_mems c_globs c_ndata]. rewrite map_app, A3. repeat split; assumption.
  - wcbn. eexists _, _. split; [reflexivity|]. unfold AbsC, Abs. wcbn.
    cbn [c_nt c_nimp c_nloc c_tabs c_mems c_globs c_ndata]. rewrite map_app, A4. repeat split; assumption.
  - wcbn. eexists _, _. split; [reflexivity|]. unfold AbsC, Abs. wcbn.
    cbn [c_nt c_nimp c_nloc c_tabs c_mems c_globs c_ndata]. rewrite map_app, A5. repeat split; assumption.
Qed.
Lemma parse_imports_abs : forall l m ids c c0, AbsC c m ids -> c_nloc c = 0 -> c_nt c = c_nt c0 ->
  forallb (import_ok c0) l = true ->
  exists m' ids', parse_imports m ids l = POk (m', ids') /\ AbsC (fold_left cimp l c) m' ids'.
Proof.
  induction l as [|i r IH]; intros m ids c c0 A Hl Hnt Hok; cbn [parse_imports fold_left forallb] in *.
  - eexists _, _. split; [reflexivity|exact A].
  - apply andb_true_iff in Hok. destruct Hok as [H1 H2].
    assert (H1' : import_ok c i = true) by (unfold import_ok in *; rewrite Hnt; exact H1).
    destruct (parse_import_abs m ids i c A Hl H1') as (m1 & ids1 & E1 & A1). rewrite E1. cbn [pbind fst snd].
    apply IH with (c0 := c0); [exact A1|rewrite cimp_nloc; exact Hl|rewrite cimp_nt; exact Hnt|exact H2].
Qed.

Lemma parse_funcs_abs : forall l m ids nt ni nl tb me gl nd,
  Abs nt ni nl tb me gl nd m ids -> forallb (fun ty => ltb_N ty nt) l = true ->
  exists m' ids', parse_funcs m ids l = POk (m', ids') /\ Abs nt ni (nl + length l) tb me gl nd m' ids'.
Proof.
  induction l as [|ty r IH]; intros m ids nt ni nl tb me gl nd A Hok; cbn [parse_funcs forallb length] in *.
  - eexists _, _. split; [reflexivity|]. rewrite Nat.add_0_r. exact A.
  - apply andb_true_iff in Hok. destruct Hok as [H1 H2]. destruct A as (A1 & A2 & A3 & A4 & A5 & A6).
    apply ltb_N_lt in H1. rewrite <- A1 in H1. destruct (nth_N_lt _ _ H1) as [x Hx]. rewrite Hx. cbn [of_opt_err pbind]. wcbn.
    replace (nl + S (length r)) with (S nl + length r) by lia.
    apply IH; [|exact H2]. unfold Abs. wcbn. repeat split; try assumption.
    transitivity (map fcls (items (m_funcs m) ++ [{| fn_kind := FK_Uninit x; fn_name := None |}])).
    + destruct (synth _ _ _); wcbn; [|reflexivity]. apply upd_map. intros f. reflexivity.
    + rewrite map_app, A2, <- app_assoc. cbn [map fcls fn_kind]. rewrite repeat_snoc. reflexivity.
Qed.

Lemma parse_tables_abs : forall l m ids m' ids' nt ni nl tb me gl nd,
  Abs nt ni nl tb me gl nd m ids -> parse_tables m ids l = (m', ids') -> Abs nt ni nl (tb ++ map wt_64 l) me gl nd m' ids'.
Proof.
  induction l as [|t r IH]; intros m ids m' ids' nt ni nl tb me gl nd A E; cbn [parse_tables map] in *.
  - inversion E; subst. rewrite app_nil_r. exact A.
  - wcbn. eapply IH with (tb := tb ++ [wt_64 t]) in E.
    + rewrite <- app_assoc in E. exact E.
    + destruct A as (A1 & A2 & A3 & A4 & A5 & A6). unfold Abs. wcbn. rewrite map_app, A3. repeat split; assumption.
Qed.
Lemma parse_mems_abs : forall l m ids m' ids' nt ni nl tb me gl nd,
  Abs nt ni nl tb me gl nd m ids -> parse_mems m ids l = (m', ids') -> Abs nt ni nl tb (me ++ map wm_64 l) gl nd m' ids'.
Proof.
  induction l as [|t r IH]; intros m ids m' ids' nt ni nl tb me gl nd A E; cbn [parse_mems map] in *.
  - inversion E; subst. rewrite app_nil_r. exact A.
  - wcbn. eapply IH with (me := me ++ [wm_64 t]) in E.
    + rewrite <- app_assoc in E. exact E.
    + destruct A as (A1 & A2 & A3 & A4 & A5 & A6). unfold Abs. wcbn. rewrite map_app, A4. repeat split; assumption.
Qed.

Lemma eval_const_total ids nf gl k : length (ii_funcs ids) = nf -> length (ii_globals ids) = length gl ->
  const_ok nf gl k = true -> exists mc, eval_const ids k = POk mc.
Proof.
  intros Hf Hg Hok. destruct k; cbn [eval_const const_ok] in *; eauto; try discriminate.
  - apply ltb_N_lt in Hok. rewrite <- Hg in Hok. destruct (nth_N_lt _ _ Hok) as [x Hx]. rewrite Hx. cbn. eauto.
  - apply ltb_N_lt in Hok. rewrite <- Hf in Hok. destruct (nth_N_lt _ _ Hok) as [x Hx]. rewrite Hx. cbn. eauto.
Qed.
Lemma parse_globals_abs : forall l m ids nt ni nl tb me gl nd nf,
  Abs nt ni nl tb me gl nd m ids -> length (ii_funcs ids) = nf -> length (ii_globals ids) = length gl ->
  globals_ok nf gl l = true ->
  exists m' ids', parse_globals m ids l = POk (m', ids') /\
                  Abs nt ni nl tb me (gl ++ map (fun gc_sweep => wg_ty (fst gc_sweep)) l) nd m' ids'.
Proof.
  induction l as [|[g k] r IH]; intros m ids nt ni nl tb me gl nd nf A Hf Hg Hok; cbn [parse_globals globals_ok map] in *.
  - eexists _, _. split; [reflexivity|]. rewrite app_nil_r. exact A.
  - apply andb_true_iff in Hok. destruct Hok as [H1 H2].
    destruct (eval_const_total ids nf gl k Hf Hg H1) as [mc Emc]. rewrite Emc. cbn [pbind]. wcbn.
    cbn [fst]. replace (gl ++ wg_ty g :: map (fun gc_sweep => wg_ty (fst gc_sweep)) r) with ((gl ++ [wg_ty g]) ++ map (fun gc_sweep => wg_ty (fst gc_sweep)) r)
      by (rewrite <- app_assoc; reflexivity).
    eapply IH; [| |  |exact H2].
    + destruct A as (A1 & A2 & A3 & A4 & A5 & A6). unfold Abs. wcbn. rewrite map_app, A5. repeat split; assumption.
    + wcbn. exact Hf.
    + wcbn. rewrite !app_length, Hg. reflexivity.
Qed.

Lemma parse_exports_total : forall l m ids nt ni nl tb me gl nd,
  ids_consistent m ids -> Abs nt ni nl tb me gl nd m ids ->
  forallb (fun e => ltb_N (we_index e) (match we_kind e with EK_Func => ni + nl | EK_Table => length tb
                                                          | EK_Mem => length me | EK_Global => length gl end)) l = true ->
  exists m', parse_exports m ids l = POk m' /\ Abs nt ni nl tb me gl nd m' ids.
Proof.
  induction l as [|e r IH]; intros m ids nt ni nl tb me gl nd Hid A Hok; cbn [parse_exports forallb] in *.
  - eexists. split; [reflexivity|exact A].
  - apply andb_true_iff in Hok. destruct Hok as [H1 H2]. apply ltb_N_lt in H1.
    assert (Hlen : N.to_nat (we_index e) < length (ids_of_kind ids (we_kind e))).
    { pose proof (abs_nf _ _ _ _ _ _ _ _ _ Hid A) as Hnf. destruct A as (A1 & A2 & A3 & A4 & A5 & A6).
      unfold ids_consistent in Hid. destruct Hid as (_ & I2 & I3 & I4 & _).
      destruct (we_kind e); cbn [ids_of_kind].
      - rewrite Hnf. exact H1.
      - rewrite I2, iota_length, <- (map_length tb_64), A3. exact H1.
      - rewrite I3, iota_length, <- (map_length me_64), A4. exact H1.
      - rewrite I4, iota_length, <- (map_length gl_ty), A5. exact H1. }
    destruct (nth_N_lt _ _ Hlen) as [x Hx]. rewrite Hx. cbn [of_opt_err pbind]. wcbn.
    apply IH; [| |exact H2].
    + clear - Hid. idc_solve.
    + destruct A as (A1 & A2 & A3 & A4 & A5 & A6). unfold Abs. wcbn. repeat split; assumption.
Qed.

Lemma offset_total m ids gl is64 k : ids_consistent m ids -> map gl_ty (items (m_globals m)) = gl ->
  offset_valid gl is64 k = true ->
  exists o, eval_const ids k = POk o /\ forall m1, m_globals m1 = m_globals m -> offset_ok m1 is64 o = POk true.
Proof.
  intros Hid Hg Hok. destruct k; cbn [offset_valid eval_const] in *; try discriminate.
  - eexists; split; [reflexivity|]. intros m1 _. cbn [offset_ok]. rewrite Hok. reflexivity.
  - eexists; split; [reflexivity|]. intros m1 _. cbn [offset_ok]. rewrite Hok. reflexivity.
  - destruct (nth_error gl (N.to_nat i)) as [t|] eqn:En; [|discriminate].
    rewrite <- Hg in En. apply nth_error_map_inv in En. destruct En as [g [Eg Et]].
    assert (Hlt : N.to_nat i < length (items (m_globals m))) by (apply nth_error_Some; congruence).
    unfold ids_consistent in Hid. decompose [and] Hid. clear Hid.
    match goal with H : ii_globals ids = _ |- _ => rewrite H end.
    rewrite nth_N_iota_lt by exact Hlt. cbn [of_opt_err pbind]. eexists; split; [reflexivity|].
    intros m1 Hm1. cbn [offset_ok]. unfold global_ty. rewrite Hm1, Totality.aget_nodead by assumption.
    rewrite Eg. cbn [option_map of_opt_panic pbind]. rewrite Et.
    destruct t; try discriminate; rewrite Hok; reflexivity.
Qed.

Lemma map_pres_total {A B} (f : A -> pres B) : forall l, (forall x, In x l -> exists y, f x = POk y) ->
  exists ys, map_pres f l = POk ys.
Proof.
  induction l as [|x r IH]; intros H; cbn [map_pres]; [eauto|].
  destruct (H x (or_introl eq_refl)) as [y Ey]. rewrite Ey. cbn [pbind].
  destruct IH as [ys Eys]; [intros z Hz; apply H; right; exact Hz|]. rewrite Eys. cbn [pbind]. eauto.
Qed.

Lemma parse_elem_total m ids e c : ids_consistent m ids -> AbsC c m ids -> elem_ok c e = true ->
  exists m' ids', parse_elem m ids e = POk (m', ids') /\ AbsC c m' ids'.
Proof.
  intros Hid A Hok. unfold elem_ok in Hok. apply andb_true_iff in Hok. destruct Hok as [Hit Hk].
  pose proof (abs_nf _ _ _ _ _ _ _ _ _ Hid A) as Hnf. fold (c_nf c) in Hnf.
  unfold parse_elem.
  match goal with |- context [pbind ?X ?K] => assert (HX : exists its, X = POk its) end.
  { destruct (wel_items e) as [fs|t es].
    - destruct (map_pres_total (fun f => of_opt_err (nth_N (ii_funcs ids) f)) fs) as [fl Efl].
      + intros f Hf. rewrite forallb_forall in Hit. apply Hit in Hf. apply ltb_N_lt in Hf. rewrite <- Hnf in Hf.
        destruct (nth_N_lt _ _ Hf) as [x Hx]. rewrite Hx. cbn. eauto.
      + rewrite Efl. cbn [pbind]. eauto.
    - destruct (map_pres_total (eval_const ids) es) as [el Eel].
      + intros k Hk'. rewrite forallb_forall in Hit. apply Hit in Hk'.
        eapply eval_const_total; [exact Hnf|eapply abs_ng; eauto|exact Hk'].
      + rewrite Eel. cbn [pbind]. eauto. }
  destruct HX as [its EX]. rewrite EX. cbn [pbind]. clear EX Hit.
  destruct A as (A1 & A2 & A3 & A4 & A5 & A6).
  destruct (wel_kind e) as [| |tbl off].
  - cbn [pbind]. wcbn. eexists _, _. split; [reflexivity|]. unfold AbsC, Abs. wcbn. repeat split; assumption.
  - cbn [pbind]. wcbn. eexists _, _. split; [reflexivity|]. unfold AbsC, Abs. wcbn. repeat split; assumption.
  - set (ti := match tbl with Some t => t | None => 0%N end) in *.
    destruct (nth_error (c_tabs c) (N.to_nat ti)) as [is64|] eqn:En; [|discriminate].
    rewrite <- A3 in En. apply nth_error_map_inv in En. destruct En as [tb [Etb E64]].
    assert (Hlt : N.to_nat ti < length (items (m_tables m))) by (apply nth_error_Some; congruence).
    destruct (offset_total m ids (c_globs c) is64 off Hid A5 Hk) as [o [Eo Hoff]].
    unfold ids_consistent in Hid. decompose [and] Hid. clear Hid.
    match goal with H : ii_tables ids = _ |- _ => rewrite H end.
    rewrite nth_N_iota_lt by exact Hlt. cbn [of_opt_err pbind].
    rewrite Totality.aget_nodead by assumption. rewrite Etb. cbn [of_opt_panic pbind].
    rewrite Eo. cbn [pbind]. rewrite E64, Hoff by reflexivity. cbn [pbind]. wcbn.
    eexists _, _. split; [reflexivity|]. unfold AbsC, Abs. wcbn. repeat split; try assumption.
    rewrite upd_map; [exact A3|]. intros x. reflexivity.
Qed.
Lemma parse_elems_total : forall l m ids c, ids_consistent m ids -> AbsC c m ids -> forallb (elem_ok c) l = true ->
  exists m' ids', parse_elems m ids l = POk (m', ids') /\ AbsC c m' ids'.
Proof.
  induction l as [|e r IH]; intros m ids c Hid A Hok; cbn [parse_elems forallb] in *.
  - eexists _, _. split; [reflexivity|exact A].
  - apply andb_true_iff in Hok. destruct Hok as [H1 H2].
    destruct (parse_elem_total m ids e c Hid A H1) as (m1 & ids1 & E1 & A1). rewrite E1. cbn [pbind fst snd].
    apply IH; [eapply parse_elem_idc; eauto|exact A1|exact H2].
Qed.

Lemma reserve_data_abs : forall n m ids m' ids' nt ni nl tb me gl nd,
  Abs nt ni nl tb me gl nd m ids -> reserve_data m ids n = (m', ids') -> Abs nt ni nl tb me gl (nd + n) m' ids'.
Proof.
  induction n as [|n IH]; intros m ids m' ids' nt ni nl tb me gl nd A E; cbn [reserve_data] in E.
  - inversion E; subst. rewrite Nat.add_0_r. exact A.
  - wcbn. eapply IH with (nd := S nd) in E.
    + replace (nd + S n) with (S nd + n) by lia. exact E.
    + destruct A as (A1 & A2 & A3 & A4 & A5 & A6). unfold Abs. wcbn. rewrite app_length. cbn [length].
      repeat split; try assumption. lia.
Qed.

Lemma parse_data_from_total : forall l m ids pre i c nd,
  ids_consistent m ids -> Abs (c_nt c) (c_nimp c) (c_nloc c) (c_tabs c) (c_mems c) (c_globs c) nd m ids ->
  forallb (data_ok c) l = true -> (pre = true -> N.to_nat i + length l <= nd) ->
  exists m' ids', parse_data_from m ids pre i l = POk (m', ids') /\
    Abs (c_nt c) (c_nimp c) (c_nloc c) (c_tabs c) (c_mems c) (c_globs c) (if pre then nd else nd + length l) m' ids'.
Proof.
  induction l as [|d r IH]; intros m ids pre i c nd Hid A Hok Hpre; cbn [parse_data_from forallb length] in *.
  - eexists _, _. split; [reflexivity|]. destruct pre; [|rewrite Nat.add_0_r]; exact A.
  - apply andb_true_iff in Hok. destruct Hok as [H1 H2].
    match goal with |- context [pbind ?X ?K] =>
      assert (HX : exists m1 ids1 id, X = POk (m1, ids1, id) /\ ids_consistent m1 ids1 /\
                   Abs (c_nt c) (c_nimp c) (c_nloc c) (c_tabs c) (c_mems c) (c_globs c) (if pre then nd else S nd) m1 ids1 /\
                   N.to_nat id < (if pre then nd else S nd)) end.
    { destruct pre.
      - specialize (Hpre eq_refl). destruct A as (A1 & A2 & A3 & A4 & A5 & A6).
        pose proof Hid as Hid'. unfold ids_consistent in Hid'. decompose [and] Hid'. clear Hid'.
        match goal with H : ii_data ids = _ |- _ => rewrite H end. rewrite A6.
        rewrite nth_N_iota_lt by lia. cbn [of_opt_err pbind]. eexists _, _, _. split; [reflexivity|].
        split; [exact Hid|]. split; [unfold Abs; repeat split; assumption|lia].
      - wcbn. eexists _, _, _. split; [reflexivity|]. split; [clear - Hid; idc_solve|].
        destruct A as (A1 & A2 & A3 & A4 & A5 & A6). split.
        + unfold Abs. wcbn. rewrite app_length. cbn [length]. repeat split; try assumption. lia.
        + unfold anext, next_id. rewrite Nat2N.id. lia. }
    destruct HX as (m1 & ids1 & id & EX & Hid1 & A1 & Hlt). rewrite EX. cbn [pbind]. clear EX.
    match goal with |- context [pbind ?X ?K] =>
      assert (HY : exists m2 kind, X = POk (m2, kind) /\ ids_consistent m2 ids1 /\
                   Abs (c_nt c) (c_nimp c) (c_nloc c) (c_tabs c) (c_mems c) (c_globs c) (if pre then nd else S nd) m2 ids1) end.
    { unfold data_ok in H1. destruct (wd_kind d) as [|mi off].
      - eexists _, _. split; [reflexivity|]. split; assumption.
      - destruct (nth_error (c_mems c) (N.to_nat mi)) as [is64|] eqn:En; [|discriminate].
        destruct A1 as (B1 & B2 & B3 & B4 & B5 & B6).
        rewrite <- B4 in En. apply nth_error_map_inv in En. destruct En as [mm [Emm E64]].
        assert (Hl : N.to_nat mi < length (items (m_memories m1))) by (apply nth_error_Some; congruence).
        destruct (offset_total m1 ids1 (c_globs c) is64 off Hid1 B5 H1) as [o [Eo Hoff]].
        pose proof Hid1 as Hid'. unfold ids_consistent in Hid'. decompose [and] Hid'. clear Hid'.
        match goal with H : ii_memories ids1 = _ |- _ => rewrite H end.
        rewrite nth_N_iota_lt by exact Hl. cbn [of_opt_err pbind].
        rewrite Totality.aget_nodead by assumption. rewrite Emm. cbn [of_opt_panic pbind].
        rewrite Eo. cbn [pbind]. rewrite E64, Hoff by reflexivity. cbn [pbind].
        eexists _, _. split; [reflexivity|]. split; [clear - Hid1; idc_solve|].
        unfold Abs. wcbn. repeat split; try assumption.
        rewrite upd_map; [exact B4|]. intros x. reflexivity. }
    destruct HY as (m2 & kind & EY & Hid2 & A2). rewrite EY. cbn [pbind]. clear EY.
    assert (Hg : exists dd, aget (m_data m2) id = Some dd).
    { pose proof Hid2 as Hid'. unfold ids_consistent in Hid'. decompose [and] Hid'. clear Hid'.
      rewrite Totality.aget_nodead by assumption. destruct A2 as (B1 & B2 & B3 & B4 & B5 & B6).
      destruct (nth_error (items (m_data m2)) (N.to_nat id)) eqn:En; [eauto|]. apply nth_error_None in En. lia. }
    destruct Hg as [dd Edd]. rewrite Edd. cbn [of_opt_panic pbind].
    edestruct (IH (set_data m2 (aset_at (m_data m2) id (fun t => {| da_kind := kind; da_value := wd_bytes d; da_name := da_name t |})))
                  ids1 pre (i + 1)%N c (if pre then nd else S nd)) as (m' & ids' & E' & A').
    + clear - Hid2. idc_solve.
    + destruct A2 as (B1 & B2 & B3 & B4 & B5 & B6). unfold Abs. wcbn. rewrite WV.Proofs.Arena.upd_length. repeat split; assumption.
    + exact H2.
    + intros ->. specialize (Hpre eq_refl). rewrite N2Nat.inj_add. change (N.to_nat 1) with 1. lia.
    + eexists _, _. split; [exact E'|]. destruct pre; [exact A'|].
      replace (nd + S (length r)) with (S nd + length r) by lia. exact A'.
Qed.

Lemma iter_len {A} (a : tarena A) : dead a = [] -> length (iter a) = length (items a).
Proof.
  intros D. rewrite <- (aiter_nodead_snd a D), map_length. unfold aiter. rewrite map_length. reflexivity.
Qed.

Record Inv (c : vctx) (s : pst) : Prop := {
  iv_pi : PI (ps_m s) (ps_ids s);
  iv_abs : AbsC c (ps_m s) (ps_ids s);
  iv_nb : length (ps_bodies s) = c_nbodies c;
  iv_bv : Forall (body_valid (c_nt c)) (ps_bodies s);
  iv_o3 : c_last c < 3 -> c_nloc c = 0;
  iv_o11 : c_last c < 11 -> ps_bodies s = [];
  iv_o12 : c_last c < 12 -> c_ndata c = match c_dc c with Some n => n | None => 0 end;
  iv_o10 : c_last c < 10 -> c_dc c = None }.

Lemma parse_sec_run c s sec : Inv c s -> valid_sec c sec ->
  exists s', parse_sec s sec = POk s' /\ AbsC (cstep0 c sec) (ps_m s') (ps_ids s') /\
             ps_bodies s' = ps_bodies s ++ match sec with S_Code bs => bs | _ => [] end.
Proof.
  intros [Hpi A Hnb Hbv H3 H11 H12 H10] [Hv Hb]. pose proof (pi_idc _ _ Hpi) as Hid.
  unfold valid_sec_b in Hv. apply andb_true_iff in Hv. destruct Hv as [Ho Hv].
  unfold order_ok in Ho. unfold parse_sec. destruct sec; cbn [cstep0 rank] in *; try apply Nat.ltb_lt in Ho.
  - destruct (parse_types _ _ _) as [m1 i1] eqn:Ep. eexists. split; [reflexivity|]. wcbn.
    split; [|rewrite app_nil_r; reflexivity]. eapply parse_types_abs in Ep; [exact Ep|exact A].
  - destruct (parse_imports_abs is_ (ps_m s) (ps_ids s) c c A) as (m1 & i1 & E1 & A1); [apply H3; lia|reflexivity|exact Hv|].
    rewrite E1. cbn [pbind fst snd]. eexists. split; [reflexivity|]. wcbn. split; [exact A1|rewrite app_nil_r; reflexivity].
  - destruct (parse_funcs_abs tys (ps_m s) (ps_ids s) _ _ _ _ _ _ _ A Hv) as (m1 & i1 & E1 & A1).
    rewrite E1. cbn [pbind fst snd]. eexists. split; [reflexivity|]. wcbn. split; [exact A1|rewrite app_nil_r; reflexivity].
  - destruct (parse_tables _ _ _) as [m1 i1] eqn:Ep. eexists. split; [reflexivity|]. wcbn.
    split; [|rewrite app_nil_r; reflexivity]. eapply parse_tables_abs in Ep; [exact Ep|exact A].
  - destruct (parse_mems _ _ _) as [m1 i1] eqn:Ep. eexists. split; [reflexivity|]. wcbn.
    split; [|rewrite app_nil_r; reflexivity]. eapply parse_mems_abs in Ep; [exact Ep|exact A].
  - destruct (parse_globals_abs gs (ps_m s) (ps_ids s) _ _ _ _ _ _ _ (c_nf c) A) as (m1 & i1 & E1 & A1).
    + eapply abs_nf; eauto.
    + eapply abs_ng; eauto.
    + exact Hv.
    + rewrite E1. cbn [pbind fst snd]. eexists. split; [reflexivity|]. wcbn. split; [exact A1|rewrite app_nil_r; reflexivity].
  - destruct (parse_exports_total es (ps_m s) (ps_ids s) _ _ _ _ _ _ _ Hid A) as (m1 & E1 & A1).
    + exact Hv.
    + rewrite E1. cbn [pbind]. eexists. split; [reflexivity|]. wcbn. split; [exact A1|rewrite app_nil_r; reflexivity].
  - apply ltb_N_lt in Hv. pose proof (abs_nf _ _ _ _ _ _ _ _ _ Hid A) as Hnf. fold (c_nf c) in Hnf. rewrite <- Hnf in Hv.
    destruct (nth_N_lt _ _ Hv) as [x Hx]. rewrite Hx. cbn [of_opt_err pbind]. eexists. split; [reflexivity|]. wcbn.
    split; [|rewrite app_nil_r; reflexivity]. destruct A as (A1 & A2 & A3 & A4 & A5 & A6). unfold AbsC, Abs. wcbn. repeat split; assumption.
  - destruct (parse_elems_total es (ps_m s) (ps_ids s) c Hid A Hv) as (m1 & i1 & E1 & A1).
    rewrite E1. cbn [pbind fst snd]. eexists. split; [reflexivity|]. wcbn. split; [exact A1|rewrite app_nil_r; reflexivity].
  - destruct (reserve_data _ _ _) as [m1 i1] eqn:Ep. eexists. split; [reflexivity|]. wcbn.
    split; [|rewrite app_nil_r; reflexivity]. eapply reserve_data_abs in Ep; [exact Ep|exact A].
  - eexists. split; [reflexivity|]. wcbn. split; [exact A|reflexivity].
  - apply andb_true_iff in Hv. destruct Hv as [Hv Hdc]. unfold parse_data.
    assert (Hlen : length (iter (m_data (ps_m s))) = c_ndata c).
    { destruct A as (A1 & A2 & A3 & A4 & A5 & A6). rewrite <- A6. apply iter_len.
      unfold ids_consistent in Hid. decompose [and] Hid. assumption. }
    rewrite Hlen. specialize (H12 Ho).
    destruct (parse_data_from_total ds (ps_m s) (ps_ids s) (negb (c_ndata c =? 0)) 0%N c (c_ndata c) Hid A Hv) as (m1 & i1 & E1 & A1).
    + intros Hp. destruct (c_ndata c =? 0) eqn:En; [discriminate|]. apply Nat.eqb_neq in En.
      destruct (c_dc c) as [n|]; [|lia]. apply Nat.eqb_eq in Hdc. cbn. lia.
    + rewrite E1. cbn [pbind fst snd]. eexists. split; [reflexivity|]. wcbn. split; [|rewrite app_nil_r; reflexivity].
      unfold AbsC. cbn [c_nt c_nimp c_nloc c_tabs c_mems c_globs c_ndata].
      destruct (c_ndata c =? 0) eqn:En; cbn [negb] in A1; [|exact A1].
      apply Nat.eqb_eq in En. rewrite En in A1. exact A1.
  - eexists. split; [reflexivity|]. split; [|rewrite app_nil_r; unfold parse_custom; destruct c0 as [n d|n d|[n|]|[p|]]; reflexivity].
    destruct A as (A1 & A2 & A3 & A4 & A5 & A6). unfold parse_custom, AbsC, Abs.
    destruct c0 as [n d|n d|[n|]|[p|]]; wcbn; repeat split; assumption.
Qed.

Lemma fold_cimp_frame : forall l c,
  c_last (fold_left cimp l c) = c_last c /\ c_nt (fold_left cimp l c) = c_nt c /\
  c_nloc (fold_left cimp l c) = c_nloc c /\ c_dc (fold_left cimp l c) = c_dc c /\
  c_ndata (fold_left cimp l c) = c_ndata c /\ c_nbodies (fold_left cimp l c) = c_nbodies c.
Proof.
  induction l as [|i r IH]; intros c; cbn [fold_left]; [auto 10|].
  destruct (IH (cimp c i)) as (I1 & I2 & I3 & I4 & I5 & I6). rewrite I1, I2, I3, I4, I5, I6.
  unfold cimp. destruct (wi_kind i); cbn; auto 10.
Qed.

Lemma parse_sec_total c s sec : Inv c s -> valid_sec c sec ->
  exists s', parse_sec s sec = POk s' /\ Inv (cstep c sec) s'.
Proof.
  intros I V. destruct (parse_sec_run c s sec I V) as (s' & E & A' & Hb'). exists s'. split; [exact E|].
  destruct I as [Hpi A Hnb Hbv H3 H11 H12 H10]. destruct V as [Hv Hb].
  unfold valid_sec_b in Hv. apply andb_true_iff in Hv. destruct Hv as [Ho _]. unfold order_ok in Ho.
  assert (F := fun l => fold_cimp_frame l c).
  constructor.
  - eapply parse_sec_PI; eauto.
  - exact A'.
  - rewrite Hb', app_length, Hnb. destruct sec; cbn [cstep set_last cstep0 c_nbodies length]; try lia.
    destruct (F is_) as (_ & _ & _ & _ & _ & ->). lia.
  - rewrite Hb'. destruct sec; cbn [cstep set_last cstep0 c_nt rank] in *; try apply Nat.ltb_lt in Ho;
      rewrite ?app_nil_r; try exact Hbv.
    + rewrite H11 by lia. constructor.
    + destruct (F is_) as (_ & -> & _). exact Hbv.
    + apply Forall_app. split; assumption.
  - destruct sec; cbn [cstep set_last cstep0 c_last c_nloc rank] in *; try apply Nat.ltb_lt in Ho;
      try (destruct (F is_) as (F1 & F2 & F3 & F4 & F5 & F6); rewrite ?F1, ?F2, ?F3, ?F4, ?F5, ?F6);
      intros; try lia; auto.
  - rewrite Hb'. destruct sec; cbn [cstep set_last cstep0 c_last rank] in *; try apply Nat.ltb_lt in Ho;
      try (destruct (F is_) as (F1 & F2 & F3 & F4 & F5 & F6); rewrite ?F1, ?F2, ?F3, ?F4, ?F5, ?F6);
      intros; try lia; rewrite app_nil_r; apply H11; try lia; auto.
  - destruct sec; cbn [cstep set_last cstep0 c_last c_ndata c_dc rank] in *; try apply Nat.ltb_lt in Ho;
      try (destruct (F is_) as (F1 & F2 & F3 & F4 & F5 & F6); rewrite ?F1, ?F2, ?F3, ?F4, ?F5, ?F6);
      intros; try lia; try (apply H12; lia); auto.
    rewrite H12 by lia. rewrite H10 by lia. reflexivity.
  - destruct sec; cbn [cstep set_last cstep0 c_last c_dc rank] in *; try apply Nat.ltb_lt in Ho;
      try (destruct (F is_) as (F1 & F2 & F3 & F4 & F5 & F6); rewrite ?F1, ?F2, ?F3, ?F4, ?F5, ?F6);
      intros; try lia; try (apply H10; lia); auto.
Qed.

Lemma parse_secs_total : forall w c s, Inv c s -> valid_from c w ->
  exists s' c', parse_secs s w = POk s' /\ Inv c' s' /\ c_nbodies c' = c_nloc c'.
Proof.
  induction w as [|x r IH]; intros c s I V; cbn [parse_secs valid_from] in *.
  - eexists _, _. split; [reflexivity|]. split; [exact I|exact V].
  - destruct V as [V1 V2]. destruct (parse_sec_total c s x I V1) as (s1 & E1 & I1). rewrite E1. cbn [pbind].
    apply IH with (c := cstep c x); assumption.
Qed.

Definition pst_init (cf : config) : pst :=
  {| ps_m := empty_wir cf; ps_ids := empty_i2ids; ps_bodies := []; ps_names := []; ps_calls_on_parse := 0 |}.
Lemma Inv_init cf : Inv ctx0 (pst_init cf).
Proof.
  constructor; cbn [pst_init ps_m ps_ids ps_bodies ctx0 c_last c_nloc c_ndata c_dc c_nbodies c_nt]; auto.
  - apply PI_empty.
  - unfold AbsC, Abs. cbn. auto 10.
Qed.

(* stream-level body validity implies [wf] in the parser's context *)
Definition swl_inner (nt : nat) :=
  fix wl (k : nat) (l : list rt) : Prop := match l with [] => True | x :: l' => swf nt k x /\ wl k l' end.
Lemma swl_inner_eq nt k l : swl_inner nt k l = swfl nt k l.
Proof. induction l as [|t l IH]; [reflexivity|]. cbn [swl_inner swfl]. fold (swl_inner nt). now rewrite IH. Qed.
Lemma swf_block nt k bt b l e : swf nt k (RBlock bt b l e) = (sbt_ok nt bt /\ swfl nt (S k) b).
Proof. rewrite <- swl_inner_eq. reflexivity. Qed.
Lemma swf_loop nt k bt b l e : swf nt k (RLoop bt b l e) = (sbt_ok nt bt /\ swfl nt (S k) b).
Proof. rewrite <- swl_inner_eq. reflexivity. Qed.
Lemma swf_if nt k bt th el l e : swf nt k (RIf bt th el l e) =
  (sbt_ok nt bt /\ swfl nt (S k) th /\ match el with Some (_, eb) => swfl nt (S k) eb | None => True end).
Proof. rewrite <- swl_inner_eq. destruct el as [[le eb]|]; [rewrite <- swl_inner_eq|]; reflexivity. Qed.

Lemma Forall_swfl cx nt l : Forall (fun t => forall k, swf nt k t -> wf cx k t) l -> forall k, swfl nt k l -> wfl cx k l.
Proof.
  induction 1 as [|t l Ht _ IH]; intros k H; cbn [swfl wfl] in *; [exact I|].
  destruct H as [H1 H2]. split; [apply Ht; exact H1|apply IH; exact H2].
Qed.
Lemma swf_wf cx nt : (forall bt, sbt_ok nt bt -> bt_ok cx bt) -> forall t k, swf nt k t -> wf cx k t.
Proof.
  intros Hbt. apply (rt_ind' (fun t => forall k, swf nt k t -> wf cx k t)).
  - intros o l k H. cbn [swf wf] in *. apply H.
  - intros l k H. exact I.
  - intros d l k H. exact H.
  - intros d l k H. exact H.
  - intros ds d l k H. exact H.
  - intros bt b l e F k H. rewrite wf_block. rewrite swf_block in H. destruct H as [H1 H2].
    split; [apply Hbt; exact H1|eapply Forall_swfl; eauto].
  - intros bt b l e F k H. rewrite wf_loop. rewrite swf_loop in H. destruct H as [H1 H2].
    split; [apply Hbt; exact H1|eapply Forall_swfl; eauto].
  - intros bt th el l e F Fe k H. rewrite wf_if. rewrite swf_if in H. destruct H as (H1 & H2 & H3).
    split; [apply Hbt; exact H1|]. split; [eapply Forall_swfl; eauto|].
    destruct el as [[le eb]|]; [|exact I]. unfold optP in Fe. cbn [snd] in Fe. eapply Forall_swfl; eauto.
Qed.
Lemma swfl_wfl cx nt : (forall bt, sbt_ok nt bt -> bt_ok cx bt) -> forall l k, swfl nt k l -> wfl cx k l.
Proof.
  intros Hbt l. apply Forall_swfl. apply Forall_forall. intros t _. apply swf_wf. exact Hbt.
Qed.

Definition TInv (m : wir) (ids : i2ids) (nt : nat) : Prop :=
  dead (Arena.arena (m_types m)) = [] /\ length (ii_types ids) = nt /\ forall id, In id (ii_types ids) -> ty_ok m id.

Lemma vlist_eqb_refl : forall l, vlist_eqb l l = true.
Proof. induction l as [|x l IH]; [reflexivity|]. cbn [vlist_eqb]. unfold valty_eqb. rewrite N.eqb_refl, IH. reflexivity. Qed.
Lemma find_type_from_some : forall l n k ps rs, nth_error l k = Some (ps, rs, false) -> find_type_from n l ps rs <> None.
Proof.
  induction l as [|[[p r] en] l IH]; intros n k ps rs Hk; destruct k; cbn [nth_error] in Hk; try discriminate;
    cbn [find_type_from].
  - inversion Hk; subst. rewrite !vlist_eqb_refl. cbn. discriminate.
  - destruct (negb en && vlist_eqb p ps && vlist_eqb r rs); [discriminate|]. eapply IH; eauto.
Qed.

Lemma sbt_bt_ok m ids fid nt bt : TInv m ids nt -> sbt_ok nt bt ->
  bt_ok {| px_i2id := i2id_fun ids fid; px_types := types_list m |} bt.
Proof.
  intros (D & L & T) H. unfold bt_ok. destruct bt as [|t|i]; cbn [bt_tys]; try (cbn; discriminate).
  cbn [sbt_ok] in H. cbn [px_i2id px_types i2id_fun]. rewrite <- L in H.
  pose proof (nth_In (ii_types ids) 4294967295%N H) as Hin. apply T in Hin. destruct Hin as (t & Ht & He).
  set (id := nth (N.to_nat i) (ii_types ids) 4294967295%N) in *.
  unfold types_get in Ht. rewrite aset_index_nodead in Ht by exact D.
  assert (Hn : nth_N (types_list m) id = Some (ty_params t, ty_results t, false)).
  { unfold nth_N, types_list. rewrite nth_error_map, Ht. cbn [option_map]. rewrite He. reflexivity. }
  change (i2id_fun ids fid S_type i) with id. rewrite Hn.
  assert (Hft : find_type {| px_i2id := i2id_fun ids fid; px_types := types_list m |} (ty_params t) (ty_results t) <> None).
  { unfold find_type. cbn [px_types]. eapply find_type_from_some. exact Hn. }
  unfold existing. destruct (ty_params t) as [|p ps']; [destruct (ty_results t) as [|r [|r' rs']]|];
    try discriminate;
    (destruct (find_type _ _ _); [cbn; discriminate|congruence]).
Qed.

Definition tyitems (m : wir) : list mtype := items (Arena.arena (m_types m)).
Definition HE (m : wir) (rs : list valty) : Prop :=
  exists k t, nth_error (tyitems m) k = Some t /\ ty_entry t = true /\ ty_params t = [] /\ ty_results t = rs.
Definition TyMono (m m' : wir) : Prop := forall i x, nth_error (tyitems m) i = Some x -> nth_error (tyitems m') i = Some x.

Lemma find_entry_from_some : forall l n k t rs, nth_error l k = Some t -> ty_entry t = true -> ty_params t = [] ->
  ty_results t = rs -> find_entry_from n l [] rs <> None.
Proof.
  induction l as [|a l IH]; intros n k t rs Hk He Hp Hr; destruct k; cbn [nth_error] in Hk; try discriminate;
    cbn [find_entry_from existsb negb andb].
  - inversion Hk; subst a. rewrite He, Hp, Hr. cbn [vl_eqb andb]. rewrite (proj2 (vl_eqb_eq rs rs) eq_refl). discriminate.
  - destruct (ty_entry a && vl_eqb (ty_params a) [] && vl_eqb (ty_results a) rs); [discriminate|]. eapply IH; eauto.
Qed.
Lemma HE_find m rs : dead (Arena.arena (m_types m)) = [] -> HE m rs -> find_entry m rs <> None.
Proof.
  intros D (k & t & Hk & He & Hp & Hr). unfold find_entry. rewrite D. eapply find_entry_from_some; eauto.
Qed.
Lemma HE_mono m m' rs : TyMono m m' -> HE m rs -> HE m' rs.
Proof. intros M (k & t & Hk & H). exists k, t. split; [apply M; exact Hk|exact H]. Qed.
Lemma TG_mono m m' ty t : dead (Arena.arena (m_types m)) = [] -> dead (Arena.arena (m_types m')) = [] ->
  TyMono m m' -> types_get m ty = Some t -> types_get m' ty = Some t.
Proof. intros D D' M. unfold types_get. rewrite !aset_index_nodead by assumption. apply M. Qed.

Definition prep_ok (m : wir) (nt : nat) (p : prepared) : Prop :=
  (exists t, types_get m (pr_ty p) = Some t /\ HE m (ty_results t)) /\ body_valid nt (pr_body p).

Lemma parse_one_body_total m ids p nt : TInv m ids nt -> prep_ok m nt p -> exists lf, parse_one_body m ids p = POk lf.
Proof.
  intros T ((t & Ht & He) & (l & eloc & Eops & Hw)). unfold parse_one_body. rewrite Ht. cbn [of_opt_panic pbind].
  destruct (find_entry m (ty_results t)) as [ety|] eqn:Ef; [|exfalso; eapply HE_find; eauto; apply T].
  cbn [of_opt_panic pbind]. rewrite Eops, parse_body_arena; [eauto|].
  eapply swfl_wfl; [|exact Hw]. intros bt Hbt. eapply sbt_bt_ok; eauto.
Qed.

Lemma install_bodies_total : forall ps m ids nt, TInv m ids nt -> Forall (prep_ok m nt) ps ->
  exists m', install_bodies m ids ps = POk m'.
Proof.
  induction ps as [|p r IH]; intros m ids nt T F; cbn [install_bodies]; [eauto|].
  inversion F as [|? ? Fp Fr]; subst.
  destruct (parse_one_body_total m ids p nt T Fp) as [lf E]. rewrite E. cbn [pbind].
  apply IH with (nt := nt); [exact T|exact Fr].
Qed.

Lemma TyMono_refl m : TyMono m m. Proof. intros i x H. exact H. Qed.
Lemma TyMono_trans a b c : TyMono a b -> TyMono b c -> TyMono a c.
Proof. intros H1 H2 i x H. apply H2, H1, H. Qed.
Lemma TyMono_eq m m' : m_types m' = m_types m -> TyMono m m'.
Proof. intros E i x H. unfold tyitems. rewrite E. exact H. Qed.

Lemma prepare_bodies_total : forall bs m ids ni i nt,
  PI m ids -> length (ii_types ids) = nt ->
  (forall j, j < length bs -> exists f ty, nth_error (items (m_funcs m)) (N.to_nat ni + N.to_nat i + j) = Some f /\
                                           fn_kind f = FK_Uninit ty) ->
  Forall (body_valid nt) bs ->
  exists m' ids' ps, prepare_bodies m ids ni i bs = POk (m', ids', ps) /\
     PI m' ids' /\ ii_types ids' = ii_types ids /\ TyMono m m' /\ Forall (prep_ok m' nt) ps.
Proof.
  induction bs as [|b r IH]; intros m ids ni i nt P L Hf Hb; cbn [prepare_bodies].
  - eexists _, _, _. split; [reflexivity|]. split; [exact P|]. split; [reflexivity|]. split; [apply TyMono_refl|constructor].
  - destruct (Hf 0) as (f & ty & Hn & Hk); [cbn; lia|]. rewrite Nat.add_0_r, <- N2Nat.inj_add in Hn.
    assert (Hlt : N.to_nat (ni + i) < length (items (m_funcs m))) by (apply nth_error_Some; congruence).
    pose proof (pi_idc _ _ P) as Hid. pose proof Hid as Hid'. unfold ids_consistent in Hid'. decompose [and] Hid'. clear Hid'.
    match goal with H : ii_funcs ids = _ |- _ => rewrite H end.
    rewrite nth_N_iota_lt by exact Hlt. cbn [of_opt_err pbind].
    assert (Hg : aget (m_funcs m) (ni + i) = Some f) by (rewrite Totality.aget_nodead by assumption; exact Hn).
    rewrite Hg. cbn [of_opt_panic pbind]. rewrite Hk.
    destruct (cl_func_ty m (pi_closed _ _ P) _ f Hg) as (t & Ht & Hte). unfold WV.Model.EmitM.func_ty in Ht. rewrite Hk in Ht.
    rewrite Ht. cbn [of_opt_panic pbind].
    destruct (add_locals m ids (ni + i) (ty_params t) _) as [[m1 ids1] args] eqn:E1.
    destruct (types_insert m1 _) as [m2 tid] eqn:E2.
    destruct (add_locals m2 ids1 (ni + i) _ _) as [[m3 ids3] ls] eqn:E3.
    destruct (add_locals_same _ _ _ _ _ _ _ _ E1) as [S1 T1].
    assert (P1 : PI m1 ids1) by (eapply PI_same; eauto; eapply add_locals_idc; [apply P|exact E1]).
    destruct (types_insert_PI _ _ _ _ _ P1 E2) as [P2 _].
    destruct (types_insert_spec _ _ _ _ (pi_twf _ _ P1) E2) as (_ & K2 & ty' & Hty' & Heq').
    destruct (types_insert_dead _ _ _ _ E2) as [Em2 _].
    destruct (add_locals_same _ _ _ _ _ _ _ _ E3) as [S3 T3].
    assert (P3 : PI m3 ids3) by (eapply PI_same; eauto; eapply add_locals_idc; [apply P2|exact E3]).
    assert (M1 : TyMono m m1) by (apply TyMono_eq; apply S1).
    assert (M2 : TyMono m1 m2) by exact K2.
    assert (M3 : TyMono m2 m3) by (apply TyMono_eq; apply S3).
    assert (M03 : TyMono m m3) by (eapply TyMono_trans; [exact M1|]; eapply TyMono_trans; eauto).
    assert (Fu : m_funcs m3 = m_funcs m).
    { destruct S1 as (_ & _ & _ & F1 & _). destruct S3 as (_ & _ & _ & F3 & _). rewrite F3, Em2. wcbn. exact F1. }
    inversion Hb as [|? ? Hb1 Hb2]; subst.
    destruct (IH m3 ids3 ni (i + 1)%N (length (ii_types ids))) as (m4 & ids4 & rest & E4 & P4 & T4 & M4 & F4).
    + exact P3.
    + rewrite T3, T1. reflexivity.
    + intros j Hj. destruct (Hf (S j)) as (f' & ty'' & Hn' & Hk'); [cbn [length]; lia|]. exists f', ty''. split; [|exact Hk'].
      rewrite Fu, N2Nat.inj_add. change (N.to_nat 1) with 1.
      replace (N.to_nat ni + (N.to_nat i + 1) + j) with (N.to_nat ni + N.to_nat i + S j) by lia. exact Hn'.
    + exact Hb2.
    + rewrite E4. cbn [pbind]. eexists _, _, _. split; [reflexivity|]. split; [exact P4|].
      split; [rewrite T4, T3, T1; reflexivity|]. split; [eapply TyMono_trans; eauto|].
      constructor; [|exact F4]. split; cbn [pr_ty pr_body]; [|exact Hb1].
      exists t. split.
      * eapply TG_mono; [| |eapply TyMono_trans; [exact M03|exact M4]|exact Ht]; [apply (pi_twf _ _ P)|apply (pi_twf _ _ P4)].
      * eapply HE_mono; [eapply TyMono_trans; [exact M3|exact M4]|].
        apply mtype_eqb_spec in Heq'. cbn [ty_params ty_results ty_entry] in Heq'. destruct Heq' as (Q1 & Q2 & Q3).
        exists (N.to_nat tid), ty'. unfold tyitems. split; [exact Hty'|]. split; [congruence|]. split; congruence.
Qed.

(* the stages of a parse of a valid stream *)
Lemma parse_valid_shape cf ver w : valid_stream w ->
  exists s s1 c m1 ps m2,
    parseM cf ver w = POk s /\
    parse_secs (pst_init cf) w = POk s1 /\ Inv c s1 /\ c_nbodies c = c_nloc c /\
    prepare_bodies (ps_m s1) (ps_ids s1) (N.of_nat (c_nimp c)) 0%N (ps_bodies s1) = POk (m1, ps_ids s, ps) /\
    PI m1 (ps_ids s) /\ length (ii_types (ps_ids s)) = c_nt c /\ Forall (prep_ok m1 (c_nt c)) ps /\
    install_bodies m1 (ps_ids s) ps = POk m2 /\
    m_funcs (ps_m s) = m_funcs (fold_left (fun m n => parse_names m (ps_ids s) n) (ps_names s1) m2).
Proof.
  intros V. destruct (parse_secs_total w ctx0 (pst_init cf) (Inv_init cf) V) as (s1 & c & E1 & I & Hcnt).
  pose proof I as [Hpi A Hnb Hbv _ _ _ _]. pose proof (pi_idc _ _ Hpi) as Hid.
  assert (Hnf : length (iter (m_funcs (ps_m s1))) = c_nimp c + c_nloc c).
  { rewrite iter_len by (unfold ids_consistent in Hid; decompose [and] Hid; assumption).
    destruct A as (_ & A2 & _). rewrite <- (map_length fcls), A2, app_length, !repeat_length. reflexivity. }
  destruct (prepare_bodies_total (ps_bodies s1) (ps_m s1) (ps_ids s1) (N.of_nat (c_nimp c)) 0%N (c_nt c) Hpi)
    as (m1 & ids1 & ps & E2 & P2 & T2 & M2 & F2).
  - apply A.
  - intros j Hj. rewrite Hnb, Hcnt in Hj. destruct A as (_ & A2 & _).
    rewrite Nat2N.id. change (N.to_nat 0) with 0. rewrite Nat.add_0_r.
    assert (Hn : nth_error (map fcls (items (m_funcs (ps_m s1)))) (c_nimp c + j) = Some 1).
    { rewrite A2, nth_error_app2 by (rewrite repeat_length; lia). rewrite repeat_length.
      replace (c_nimp c + j - c_nimp c) with j by lia.
      clear - Hj. revert j Hj. induction (c_nloc c) as [|n IHn]; intros j Hj; [lia|].
      destruct j; cbn [repeat nth_error]; [reflexivity|apply IHn; lia]. }
    apply nth_error_map_inv in Hn. destruct Hn as (f & Hf & Hc). unfold fcls in Hc.
    destruct (fn_kind f) as [? ?|?|ty] eqn:Ek; try discriminate. eauto.
  - exact Hbv.
  - destruct (install_bodies_total ps m1 ids1 (c_nt c)) as (m2 & E3).
    + split; [apply (pi_twf _ _ P2)|]. split; [rewrite T2; apply A|apply (pi_ity _ _ P2)].
    + exact F2.
    + eexists _, s1, c, m1, ps, m2. split.
      { unfold parseM. fold (pst_init cf). rewrite E1. cbn [pbind]. unfold len_N. rewrite Hnf, Hnb, Hcnt.
        replace (N.of_nat (c_nimp c + c_nloc c) <? N.of_nat (c_nloc c))%N with false by (symmetry; apply N.ltb_ge; lia).
        replace (N.of_nat (c_nimp c + c_nloc c) - N.of_nat (c_nloc c))%N with (N.of_nat (c_nimp c)) by lia.
        rewrite E2. cbn [pbind]. rewrite E3. reflexivity. }
      cbn [ps_ids ps_m set_producers m_funcs]. split; [exact E1|]. split; [exact I|]. split; [exact Hcnt|].
      split; [exact E2|]. split; [exact P2|]. split; [rewrite T2; apply A|]. split; [exact F2|]. split; [exact E3|reflexivity].
Qed.

Theorem parse_total cf ver w : valid_stream w -> exists s, parseM cf ver w = POk s.
Proof. intros V. destruct (parse_valid_shape cf ver w V) as (s & _ & _ & _ & _ & _ & E & _). eauto. Qed.

Corollary parse_no_panic cf ver w : valid_stream w -> parseM cf ver w <> PPanic.
Proof. intros V. destruct (parse_total cf ver w V) as [s E]. rewrite E. discriminate. Qed.
Corollary parse_no_err cf ver w : valid_stream w -> parseM cf ver w <> PErr.
Proof. intros V. destruct (parse_total cf ver w V) as [s E]. rewrite E. discriminate. Qed.

Corollary parse_total_no_code cf ver w : no_code w -> valid_from_b ctx0 w = true -> exists s, parseM cf ver w = POk s.
Proof. intros Hn Hv. apply parse_total. apply valid_no_code_b; assumption. Qed.

Definition ex_b1 : list rt :=
  [RBlock (BT_Val VT_I32)
     [RPlain (W_LocalGet 0) 11;
      RIf (BT_Val VT_I32) [RPlain (W_I32Const 1) 13] (Some (14%N, [RPlain (W_I32Const 2) 15])) 12 16] 10 17].
Definition ex_b2 : list rt :=
  [RPlain (W_Call 0) 21;
   RBlock BT_Empty [RPlain (W_I32Const 0) 23; RBrIf 0 24; RNop 25] 22 26;
   RIf (BT_Func 1) [RPlain (W_Call 2) 28] None 27 29].
Definition ex_mod : wmod :=
  [ S_Types [([VT_I32], [VT_I32]); ([], [])];
    S_Imports [{| wi_module := [101%N]; wi_name := [102%N]; wi_kind := WI_Func 1 |}];
    S_Funcs [0%N; 1%N];
    S_Tables [{| wt_elem := RT_Funcref; wt_64 := false; wt_init := 2; wt_max := None |}];
    S_Mems [{| wm_64 := false; wm_shared := false; wm_init := 1; wm_max := None; wm_page := None |}];
    S_Globals [({| wg_ty := VT_I32; wg_mut := false; wg_shared := false |}, WC_I32 42)];
    S_Exports [{| we_name := [109%N]; we_kind := EK_Func; we_index := 1 |};
               {| we_name := [110%N]; we_kind := EK_Mem; we_index := 0 |}];
    S_Start 2;
    S_Elems [{| wel_kind := WEK_Active None (WC_GlobalGet 0); wel_items := WEI_Funcs [1%N; 2%N] |}];
    S_DataCount 1;
    S_Code [{| wb_locals := [(1%N, VT_I64)]; wb_ops := flat_list ex_b1 ++ [(WEnd, 18%N)] |};
            {| wb_locals := []; wb_ops := flat_list ex_b2 ++ [(WEnd, 30%N)] |}];
    S_Data [{| wd_kind := WDK_Active 0 (WC_I32 8); wd_bytes := [1%N; 2%N; 3%N] |}];
    S_Custom (CS_Raw [120%N] [0%N]) ].

Example ex_valid : valid_stream ex_mod.
Proof.
  apply valid_from_split; [vm_compute; reflexivity|]. cbn [code_valid ex_mod].
  repeat match goal with |- _ /\ _ => split end; try exact I.
  cbn [cstep cstep0 set_last c_nt fold_left cimp wi_kind rank ctx0 length Nat.add].
  repeat constructor; (eexists; eexists; split; [reflexivity|]);
    cbn [swfl swf ex_b1 ex_b2 sbt_ok]; repeat split; try (cbn; lia); try (intros f H; vm_compute in H; discriminate H).
Qed.
Example ex_parses : exists s, parseM default_config [49%N] ex_mod = POk s.
Proof. vm_compute. eexists. reflexivity. Qed.

Corollary ex_parses_by_theorem : exists s, parseM default_config [49%N] ex_mod = POk s.
Proof. apply parse_total, ex_valid. Qed.

(* What remains reachable: the two places where [valid_stream] is narrower than a feature-complete validator *)

(* a constant expression outside walrus's ConstExpr (e.g. extended-const `i32.add`): walrus returns an error *)
Definition other_const_mod : wmod :=
  [ S_Globals [({| wg_ty := VT_I32; wg_mut := false; wg_shared := false |}, WC_Other)] ].
Theorem const_other_refuted : parseM default_config [49%N] other_const_mod = PErr.
Proof. vm_compute. reflexivity. Qed.
(* the only clause of [valid_stream] it fails is the supported-form clause of [const_ok]: with any supported
   initializer in its place the stream is valid *)
Example const_other_only_form :
  valid_stream [ S_Globals [({| wg_ty := VT_I32; wg_mut := false; wg_shared := false |}, WC_I32 0)] ].
Proof. apply valid_no_code_b; [intros bs [H|[]]; discriminate|reflexivity]. Qed.

(* an operator [decode_plain] has no image for: `ref.null` of a heap type other than func/extern
   (typed function references / GC): the body parser panics *)
Definition ref_null_mod : wmod :=
  [ S_Types [([], [])]; S_Funcs [0%N];
    S_Code [{| wb_locals := []; wb_ops := [(WOp (W_RefNull (HT_Other 0)), 1%N); (WOp W_Drop, 2%N); (WEnd, 3%N)] |}] ].
Theorem ref_null_other_refuted : parseM default_config [49%N] ref_null_mod = PPanic.
Proof. vm_compute. reflexivity. Qed.

(* the order and count clauses are load-bearing: on streams the validator rejects, the panic paths are live *)
Definition misordered_mod : wmod :=
  [ S_Types [([], [])]; S_Funcs [0%N];
    S_Imports [{| wi_module := [101%N]; wi_name := [102%N]; wi_kind := WI_Func 0 |}];
    S_Code [{| wb_locals := []; wb_ops := [(WEnd, 3%N)] |}] ].
Theorem order_needed : parseM default_config [49%N] misordered_mod = PPanic.
Proof. vm_compute. reflexivity. Qed.
Definition extra_body_mod : wmod :=
  [ S_Types [([], [])]; S_Code [{| wb_locals := []; wb_ops := [(WEnd, 3%N)] |}] ].
Theorem count_needed : parseM default_config [49%N] extra_body_mod = PPanic.
Proof. vm_compute. reflexivity. Qed.

Print Assumptions parse_total.
Print Assumptions parse_no_panic.
Print Assumptions parse_no_err.
Print Assumptions parse_total_no_code.
Print Assumptions ex_valid.
Print Assumptions ex_parses.
Print Assumptions const_other_refuted.
Print Assumptions ref_null_other_refuted.
