(* Discharging the body-level premises of the emission-totality theorems (C02):
   a body built by the parser denotes a tree; its traversal log exists within the fuel the
   emitter gives it; the Emit visitor does not panic on it; every entity the log mentions was
   resolved through the parse-time vectors, hence is live, hence has an index in the final maps. *)
From Coq Require Import List NArith ZArith Bool Arith Lia Sorted.
Import ListNotations.
From WV Require Import Gen.Ops Model.Common Model.IR Model.Arena Model.Traversal Model.EmitFn Model.EmitSpec Model.Locals
                       Model.ParseFn Model.ParseSpec Model.ModuleM Model.ParseM Model.EmitM Model.GC Gen.Attrs.
From WV Require Import Proofs.Arena Proofs.Order Proofs.IndexMaps Proofs.ParseFn Proofs.Totality Proofs.ParseTotal.
From WV Require Proofs.Traversal Proofs.EmitFn Proofs.Body Proofs.Codec.
Module TR := WV.Proofs.Traversal.
Module EF := WV.Proofs.EmitFn.
Local Open Scope nat_scope.

(* the emitter's fuel covers a parsed body *)
Lemma items_size_app a b : TR.items_size (a ++ b) = TR.items_size a + TR.items_size b.
Proof. induction a as [|x a IH]; [reflexivity|]. cbn [app]. rewrite !TR.items_size_cons, IH. lia. Qed.

Section SizeBound.
  Variable cx : pctx.
  Definition SzR (n : N) (r : list (item * N) * N * bool) : Prop :=
    let '(items, n', _) := r in
    N.to_nat n <= N.to_nat n' /\ TR.items_size items <= 2 * (N.to_nat n' - N.to_nat n).
  Definition Zt (t : rt) := forall env n u, SzR n (tbuild cx env n u t).
  Definition Zl (l : list rt) := forall env n u, SzR n (tbuild_list cx env n u l).

  Lemma Zl_of_Forall l : Forall Zt l -> Zl l.
  Proof.
    induction 1 as [|t l Ht Hl IH]; intros env n u.
    - cbn [tbuild_list SzR]. split; [lia|cbn; lia].
    - cbn [tbuild_list]. specialize (Ht env n u). destruct (tbuild cx env n u t) as [[i1 n1] u1].
      specialize (IH env n1 u1). destruct (tbuild_list cx env n1 u1 l) as [[i2 n2] u2].
      cbn [SzR] in *. rewrite items_size_app. lia.
  Qed.

  Lemma SzR_keep n n' u it l :
    N.to_nat n <= N.to_nat n' -> isize it <= 2 * (N.to_nat n' - N.to_nat n) -> SzR n (keep u it l, n', u).
  Proof.
    intros M R. cbn [SzR]. split; [exact M|]. destruct u; cbn [keep]; [cbn; lia|].
    rewrite TR.items_size_cons. cbn [fst]. change (TR.items_size []) with 0. lia.
  Qed.

  Lemma size_item : forall t, Zt t.
  Proof.
    induction t as [o l|l|d l|d l|ds d l|bt body l e HF|bt body l e HF|bt th el l e HFt HFe] using rt_ind';
      intros env n u.
    - cbn [tbuild]. apply (SzR_keep n n u); [lia|cbn; lia].
    - cbn [tbuild SzR]. split; [lia|cbn; lia].
    - cbn [tbuild SzR]. split; [lia|]. destruct u; cbn; lia.
    - cbn [tbuild]. apply (SzR_keep n n u); [lia|cbn; lia].
    - cbn [tbuild SzR]. split; [lia|]. destruct u; cbn; lia.
    - apply Zl_of_Forall in HF. rewrite tbuild_block. specialize (HF (n :: env) (n + 1)%N false).
      destruct (tbuild_list cx (n :: env) (n + 1)%N false body) as [[its n1] u1]. destruct HF as (M & R).
      apply SzR_keep; [lia|]. cbn [isize]. rewrite TR.size_T. lia.
    - apply Zl_of_Forall in HF. rewrite tbuild_loop. specialize (HF (n :: env) (n + 1)%N false).
      destruct (tbuild_list cx (n :: env) (n + 1)%N false body) as [[its n1] u1]. destruct HF as (M & R).
      apply SzR_keep; [lia|]. cbn [isize]. rewrite TR.size_T. lia.
    - apply Zl_of_Forall in HFt. rewrite tbuild_if. cbv zeta. specialize (HFt (n :: env) (n + 1)%N false).
      destruct (tbuild_list cx (n :: env) (n + 1)%N false th) as [[ic a] uc]. destruct HFt as (Mc & Rc).
      destruct el as [[le eb]|].
      + cbn [optP snd] in HFe. apply Zl_of_Forall in HFe. specialize (HFe (a :: env) (a + 1)%N false).
        destruct (tbuild_list cx (a :: env) (a + 1)%N false eb) as [[ia n2] ua]. destruct HFe as (Me & Re).
        apply SzR_keep; [lia|]. cbn [isize]. rewrite !TR.size_T. lia.
      + apply SzR_keep; [lia|]. cbn [isize]. rewrite !TR.size_T. change (TR.items_size []) with 0. lia.
  Qed.

  Lemma size_list : forall l, Zl l.
  Proof. intros l. apply Zl_of_Forall, Forall_forall. intros t _. apply size_item. Qed.
End SizeBound.

Lemma parsed_fuel cx ety l eloc :
  S (size (parsed_tree cx ety l eloc)) <= S (length (parsed_arena cx ety l eloc) + length (parsed_arena cx ety l eloc)).
Proof.
  unfold parsed_tree, parsed_arena.
  pose proof (build_tree_list cx l [0%N] 1%N false) as R. pose proof (size_list cx l [0%N] 1%N false) as Z.
  destruct (build_list cx [0%N] 1%N false l) as [[its news] u1].
  destruct (tbuild_list cx [0%N] 1%N false l) as [[items n1] v1].
  destruct R as (_ & En & _ & _). destruct Z as (M & Z). subst n1.
  rewrite TR.size_T. cbn [length]. rewrite N2Nat.inj_add, to_nat_len_N in Z. change (N.to_nat 1) with 1 in Z. lia.
Qed.

(* what it is for a local function to be the parse of a body in a context *)
Definition parsed_lf (cx : pctx) (lf : mlocalfunc) (ops : list (wins * N)) : Prop :=
  exists ety l eloc, ops = flat_list l ++ [(WEnd, eloc)] /\ wfl cx 1 l /\
                     lf_arena lf = parsed_arena cx ety l eloc /\ lf_entry lf = 0%N.

Definition lf_tree (cx : pctx) (ety : N) (l : list rt) (eloc : N) : tree := parsed_tree cx ety l eloc.

Lemma parsed_den cx lf ety l eloc : wfl cx 1 l -> lf_arena lf = parsed_arena cx ety l eloc ->
  Den (lf_arena lf) (parsed_tree cx ety l eloc).
Proof. intros Hw ->. apply parsed_arena_den, Hw. Qed.

Lemma parsed_log cx lf ety l eloc : wfl cx 1 l -> lf_arena lf = parsed_arena cx ety l eloc -> lf_entry lf = 0%N ->
  lf_log lf = Ok (events false (parsed_tree cx ety l eloc)).
Proof.
  intros Hw Ea Ee. unfold lf_log, lf_fuel. rewrite Ee, <- (WV.Proofs.Body.parsed_tree_tsid cx ety l eloc).
  apply TR.dfs_in_order_fuel.
  - rewrite Ea. apply parsed_arena_den, Hw.
  - rewrite Ea. apply parsed_fuel.
Qed.

(* the Emit visitor does not panic, whatever the index maps are *)
Lemma parsed_emit_body cx lf ety l eloc ecx : wfl cx 1 l -> lf_arena lf = parsed_arena cx ety l eloc -> lf_entry lf = 0%N ->
  exists st, emit_body ecx (lf_fuel lf) (lf_arena lf) (lf_entry lf) 0%N = Ok st.
Proof.
  intros Hw Ea Ee. pose proof (parsed_log cx lf ety l eloc Hw Ea Ee) as Hl. unfold lf_log in Hl.
  set (t := parsed_tree cx ety l eloc) in *.
  assert (Hs : scoped (ex_id2i ecx) [] t).
  { apply parsed_tree_scoped; [exact Hw|]. intros o _. apply WV.Proofs.Codec.encode_total. }
  destruct (EF.flt_ok ecx [] t KEntry Hs) as [tg Htg].
  assert (Ht : tsid t = 0%N) by apply WV.Proofs.Body.parsed_tree_tsid.
  rewrite Ee in *. rewrite <- Ht in Hl.
  assert (HD : Den (lf_arena lf) t) by (rewrite Ea; apply parsed_arena_den, Hw).
  destruct (EF.emit_body_spec ecx (lf_arena lf) t tg 0%N (lf_fuel lf) HD Hl Htg) as (st & Hst & _).
  rewrite Ht in Hst. eauto.
Qed.

(* the entity references of the log come from the operators of the body *)
(* the instruction list of an item list, in traversal order *)
Definition ip (items : list (item * N)) : list (instr * N) :=
  flat_map (fun x => TR.item_instr x :: TR.item_nested (fst x)) items.
Lemma ip_app a b : ip (a ++ b) = ip a ++ ip b.
Proof. apply flat_map_app. Qed.

Section Plains.
  Variable cx : pctx.
  Variable P : plain -> Prop.
  Definition Qf (x : wins * N) : Prop := match fst x with WOp o => P (dec cx o) | _ => True end.
  Definition allP (items : list (item * N)) : Prop := forall p loc, In (IPlain p, loc) (ip items) -> P p.
  Definition Pt (t : rt) := forall env n u, Forall Qf (flat t) -> allP (fst (fst (tbuild cx env n u t))).
  Definition Pl (l : list rt) := forall env n u, Forall Qf (flat_list l) -> allP (fst (fst (tbuild_list cx env n u l))).

  Lemma allP_keep u it l : (forall p loc, In (IPlain p, loc) ((shallow it, l) :: TR.item_nested it) -> P p) ->
    allP (keep u it l).
  Proof.
    intros H. destruct u; cbn [keep]; intros p loc Hin; [destruct Hin|].
    unfold ip in Hin. cbn [flat_map] in Hin. rewrite app_nil_r in Hin. eapply H. exact Hin.
  Qed.

  Lemma Forall_mid {A} (Q : A -> Prop) x (m : list A) y : Forall Q (x :: m ++ [y]) -> Forall Q m.
  Proof. intros H. inversion H as [|? ? _ H']; subst. apply Forall_app in H'. apply H'. Qed.

  Lemma plains_list : forall l, Pl l.
  Proof.
    apply (rt_list_ind Pt Pl).
    - intros env n u _ p loc [].
    - intros t l Ht IH env n u HQ.
      unfold flat_list in HQ. cbn [flat_map] in HQ. apply Forall_app in HQ. destruct HQ as [HQ1 HQ2].
      cbn [tbuild_list]. specialize (Ht env n u HQ1). destruct (tbuild cx env n u t) as [[i1 n1] u1].
      specialize (IH env n1 u1 HQ2). destruct (tbuild_list cx env n1 u1 l) as [[i2 n2] u2].
      cbn [fst] in *. intros p loc Hin. rewrite ip_app in Hin. apply in_app_or in Hin. destruct Hin; eauto.
    - intros o l env n u HQ. cbn [tbuild fst]. apply allP_keep. cbn [shallow TR.item_nested].
      intros p loc [E|[]]. injection E as <- _. exact (Forall_inv HQ).
    - intros l env n u _ p loc [].
    - intros d l env n u _. cbn [tbuild fst]. apply allP_keep. cbn [shallow TR.item_nested]. intros p loc [E|[]]. discriminate.
    - intros d l env n u _. cbn [tbuild fst]. apply allP_keep. cbn [shallow TR.item_nested]. intros p loc [E|[]]. discriminate.
    - intros ds d l env n u _. cbn [tbuild fst]. apply allP_keep. cbn [shallow TR.item_nested]. intros p loc [E|[]]. discriminate.
    - intros bt body l e HF env n u HQ. cbn [flat] in HQ. apply Forall_mid in HQ. rewrite tbuild_block.
      specialize (HF (n :: env) (n + 1)%N false HQ).
      destruct (tbuild_list cx (n :: env) (n + 1)%N false body) as [[its n1] u1]. cbn [fst] in *.
      apply allP_keep. cbn [shallow TR.item_nested]. rewrite TR.instrs_T. intros p loc [E|Hin]; [discriminate|].
      eapply HF. exact Hin.
    - intros bt body l e HF env n u HQ. cbn [flat] in HQ. apply Forall_mid in HQ. rewrite tbuild_loop.
      specialize (HF (n :: env) (n + 1)%N false HQ).
      destruct (tbuild_list cx (n :: env) (n + 1)%N false body) as [[its n1] u1]. cbn [fst] in *.
      apply allP_keep. cbn [shallow TR.item_nested]. rewrite TR.instrs_T. intros p loc [E|Hin]; [discriminate|].
      eapply HF. exact Hin.
    - intros bt th l e HFt env n u HQ. rewrite tbuild_if. cbv zeta. cbn [flat] in HQ. apply Forall_mid in HQ.
      specialize (HFt (n :: env) (n + 1)%N false HQ).
      destruct (tbuild_list cx (n :: env) (n + 1)%N false th) as [[ic a] uc]. cbn [fst] in *.
      apply allP_keep. cbn [shallow TR.item_nested]. rewrite !TR.instrs_T. intros p loc [E|Hin]; [discriminate|].
      apply in_app_or in Hin. destruct Hin as [Hin|[]]. eapply HFt. exact Hin.
    - intros bt th le eb l e HFt HFe env n u HQ. rewrite tbuild_if. cbv zeta. cbn [flat] in HQ.
      inversion HQ as [|? ? _ HQ']; subst. apply Forall_app in HQ'. destruct HQ' as [HQt HQ'].
      apply Forall_mid in HQ'. rename HQ' into HQe.
      specialize (HFt (n :: env) (n + 1)%N false HQt).
      destruct (tbuild_list cx (n :: env) (n + 1)%N false th) as [[ic a] uc]. cbn [fst] in HFt.
      specialize (HFe (a :: env) (a + 1)%N false HQe).
      destruct (tbuild_list cx (a :: env) (a + 1)%N false eb) as [[ia n2] ua]. cbn [fst] in *.
      apply allP_keep. cbn [shallow TR.item_nested]. rewrite !TR.instrs_T. intros p loc [E|Hin]; [discriminate|].
      apply in_app_or in Hin. destruct Hin as [Hin|Hin]; [eapply HFt|eapply HFe]; exact Hin.
  Qed.
End Plains.

Lemma parsed_tree_plains cx ety l eloc p loc :
  In (IPlain p, loc) (TR.instrs_in_order (parsed_tree cx ety l eloc)) ->
  exists o loc', In (WOp o, loc') (flat_list l) /\ p = dec cx o.
Proof.
  unfold parsed_tree.
  pose proof (plains_list cx (fun p => exists o loc', In (WOp o, loc') (flat_list l) /\ p = dec cx o) l [0%N] 1%N false) as R.
  destruct (tbuild_list cx [0%N] 1%N false l) as [[items n1] u1]. cbn [fst] in R. rewrite TR.instrs_T.
  apply R. apply Forall_forall. intros [w lc] Hin. unfold Qf. cbn [fst]. destruct w; try exact I. eauto.
Qed.

(* every reference event of the log is a visited reference of some decoded operator of the body *)
Lemma log_refs_from_ops cx ety l eloc sp id :
  In (ERef sp id) (events false (parsed_tree cx ety l eloc)) ->
  exists o loc, In (WOp o, loc) (flat_list l) /\ In (sp, id) (visited_refs (dec cx o)).
Proof.
  intros Hin.
  assert (H : In (sp, id) (flat_map TR.pR (events false (parsed_tree cx ety l eloc)))).
  { apply in_flat_map. exists (ERef sp id). split; [exact Hin|left; reflexivity]. }
  change (flat_map TR.pR (events false (parsed_tree cx ety l eloc)))
    with (flat_map (fun e => match e with ERef sp id => [(sp, id)] | _ => [] end) (events false (parsed_tree cx ety l eloc))) in H.
  rewrite TR.in_order_refs in H. apply in_flat_map in H. destruct H as [[i loc] [Hi Hr]].
  cbn [fst] in Hr. unfold TR.ref_count in Hr. cbn in Hr. rewrite app_nil_r in Hr || idtac.
  destruct i as [p| | | | | |]; cbn [TR.instr_refs] in Hr; try destruct Hr.
  destruct (parsed_tree_plains cx ety l eloc p loc Hi) as (o & loc' & Ho & ->). eauto.
Qed.

(* a visited reference of a decoded operator is the parse-time id of one of its indices *)
Lemma decode_refs i2id o p : decode_plain i2id o = Some p ->
  forall sp id, In (sp, id) (visited_refs p) -> exists i, In (sp, i) (wop_refs o) /\ id = i2id sp i.
Proof.
  intros E sp id H. apply WV.Proofs.Codec.in_mapr_inv, (WV.Proofs.Codec.decode_refs_iff _ _ _ E), H.
Qed.

Lemma dec_refs cx o sp id : In (sp, id) (visited_refs (dec cx o)) ->
  exists i, In (sp, i) (wop_refs o) /\ id = px_i2id cx sp i.
Proof.
  unfold dec. destruct (decode_plain (px_i2id cx) o) as [p|] eqn:E; [apply (decode_refs _ _ _ E)|intros []].
Qed.

(* step 3 at the level of one body: every entity the log reports was resolved from an operator's index *)
Theorem parsed_log_refs cx ety l eloc sp id :
  In (ERef sp id) (events false (parsed_tree cx ety l eloc)) ->
  exists o loc i, In (WOp o, loc) (flat_list l) /\ In (sp, i) (wop_refs o) /\ id = px_i2id cx sp i.
Proof.
  intros H. destruct (log_refs_from_ops _ _ _ _ _ _ H) as (o & loc & Ho & Hr).
  destruct (dec_refs _ _ _ _ Hr) as (i & Hi & ->). eauto 7.
Qed.

(* the code entries the parser collects are those of the stream's code sections *)
Lemma parse_sec_bodies s sec s' : parse_sec s sec = POk s' ->
  ps_bodies s' = ps_bodies s ++ match sec with S_Code bs => bs | _ => [] end.
Proof.
  unfold parse_sec. destruct sec as [ts|l|l|l|l|l|l|f|l|n|bs|l|c]; intros E;
    repeat match type of E with context [match ?x with (_, _) => _ end] => destruct x end;
    try (apply pbind_ok in E; destruct E as [a [Ea E]]);
    try (injection E as <-); wcbn; rewrite ?app_nil_r; try reflexivity.
  destruct c as [? ?|? ?|[?|]|[?|]]; cbn [parse_custom]; wcbn; reflexivity.
Qed.

Lemma parse_secs_bodies : forall w s s', parse_secs s w = POk s' ->
  forall b, In b (ps_bodies s') -> In b (ps_bodies s) \/ exists bs, In (S_Code bs) w /\ In b bs.
Proof.
  induction w as [|sec r IH]; intros s s' E b Hb; cbn [parse_secs] in E.
  - injection E as <-. left. exact Hb.
  - pinv E as s1 E1. destruct (IH _ _ E b Hb) as [H|(bs & Hin & Hb')].
    + rewrite (parse_sec_bodies _ _ _ E1) in H. apply in_app_or in H. destruct H as [H|H]; [left; exact H|].
      destruct sec; try destruct H. right. exists bs. split; [left; reflexivity|exact H].
    + right. exists bs. split; [right; exact Hin|exact Hb'].
Qed.

(* which functions receive a body, and which body *)
Lemma nth_N_iota n k x : nth_N (iota n) k = Some x -> x = k.
Proof.
  unfold nth_N. intros H.
  assert (Hlt : N.to_nat k < n) by (rewrite <- (iota_length n); apply nth_error_Some; congruence).
  rewrite (iota_nth n _ Hlt) in H. injection H as <-. apply N2Nat.id.
Qed.

Lemma prepare_bodies_facts : forall bs m ids ni i m' ids' ps,
  PI m ids -> prepare_bodies m ids ni i bs = POk (m', ids', ps) ->
  m_funcs m' = m_funcs m /\
  (forall j, j < length bs -> In (ni + i + N.of_nat j)%N (map pr_fid ps)) /\
  (forall p, In p ps -> In (pr_body p) bs).
Proof.
  induction bs as [|b r IH]; intros m ids ni i m' ids' ps P E; cbn [prepare_bodies] in E.
  - inversion E; subst. split; [reflexivity|]. split; [intros j Hj; cbn in Hj; lia|intros p []].
  - pinv E as fid Efid. pinv E as f Ef. destruct (fn_kind f) as [? ?|?|ty] eqn:Ek; try discriminate.
    pinv E as t Et.
    destruct (add_locals m ids fid (ty_params t) _) as [[m1 ids1] args] eqn:E1.
    destruct (types_insert m1 _) as [m2 tid] eqn:E2.
    destruct (add_locals m2 ids1 fid _ _) as [[m3 ids3] ls] eqn:E3.
    pinv E as x Ex. destruct x as [[m4 ids4] rest]. inversion E; subst; clear E.
    destruct (add_locals_same _ _ _ _ _ _ _ _ E1) as [S1 T1].
    assert (P1 : PI m1 ids1) by (eapply PI_same; eauto; eapply add_locals_idc; [apply P|exact E1]).
    destruct (types_insert_PI _ _ _ _ _ P1 E2) as [P2 _].
    destruct (types_insert_dead _ _ _ _ E2) as [Em2 _].
    destruct (add_locals_same _ _ _ _ _ _ _ _ E3) as [S3 T3].
    assert (P3 : PI m3 ids3) by (eapply PI_same; eauto; eapply add_locals_idc; [apply P2|exact E3]).
    assert (Fu : m_funcs m3 = m_funcs m).
    { destruct S1 as (_ & _ & _ & F1 & _). destruct S3 as (_ & _ & _ & F3 & _). rewrite F3, Em2. wcbn. exact F1. }
    destruct (IH _ _ _ _ _ _ _ P3 Ex) as (F4 & J4 & B4).
    assert (Hfid : fid = (ni + i)%N).
    { apply of_opt_err_ok in Efid. pose proof (pi_idc _ _ P) as Hid. unfold ids_consistent in Hid.
      destruct Hid as (Hf & _). rewrite Hf in Efid. eapply nth_N_iota; eauto. }
    split; [rewrite F4; exact Fu|]. split.
    + intros j Hj. cbn [map pr_fid]. destruct j as [|j].
      * left. rewrite Hfid. cbn. lia.
      * right. cbn [length] in Hj. specialize (J4 j ltac:(lia)).
        replace (ni + i + N.of_nat (S j))%N with (ni + (i + 1) + N.of_nat j)%N by lia. exact J4.
    + intros p [<-|Hp]; [left; reflexivity|right; apply B4; exact Hp].
Qed.

Lemma aget_upd_at {A} (l : list A) d id f i x :
  aget {| items := WV.Model.Arena.upd l (N.to_nat id) f; dead := d |} i = Some x ->
  (i = id /\ exists x0, aget {| items := l; dead := d |} i = Some x0 /\ x = f x0) \/
  (i <> id /\ aget {| items := l; dead := d |} i = Some x).
Proof.
  unfold aget, index, get, is_dead. cbn [items dead]. destruct (existsb _ d); [discriminate|].
  rewrite upd_nth. destruct (Nat.eqb_spec (N.to_nat id) (N.to_nat i)) as [e|ne].
  - apply N2Nat.inj in e. subst id. destruct (nth_error l (N.to_nat i)); cbn [option_map]; [|discriminate].
    intros [= <-]. left. eauto.
  - intros H. right. split; [intros ->; apply ne; reflexivity|exact H].
Qed.

(* after install_bodies a function is either one of the prepared ones, now local with the parse of its
   body, or untouched *)
Lemma install_kinds : forall ps m ids m', install_bodies m ids ps = POk m' ->
  forall id fn', aget (m_funcs m') id = Some fn' ->
   (exists lf p m0, fn_kind fn' = FK_Local lf /\ In p ps /\ pr_fid p = id /\ m_types m0 = m_types m /\
                    parse_one_body m0 ids p = POk lf) \/
   (~ In id (map pr_fid ps) /\ exists fn, aget (m_funcs m) id = Some fn /\ fn_kind fn' = fn_kind fn).
Proof.
  induction ps as [|p r IH]; intros m ids m' E id fn' Hg; cbn [install_bodies] in E.
  - inversion E; subst. right. split; [intros []|eauto].
  - pinv E as lf Elf. destruct (IH _ _ _ E id fn' Hg) as [(lf' & p' & m0 & Hk & Hin & Hf & Ht & Hp)|(Hn & fn & Hg1 & Hk)].
    + left. exists lf', p', m0. split; [exact Hk|]. split; [right; exact Hin|]. split; [exact Hf|]. split; [|exact Hp].
      rewrite Ht. reflexivity.
    + cbn [set_funcs m_funcs] in Hg1. unfold aset_at in Hg1. apply aget_upd_at in Hg1.
      destruct Hg1 as [(-> & x0 & Hx0 & ->)|(Hne & Hg1)].
      * left. exists lf, p, m. cbn [fn_kind] in Hk. split; [exact Hk|]. split; [left; reflexivity|]. auto.
      * right. split.
        -- cbn [map]. intros [e|h]; [apply Hne; symmetry; exact e|apply Hn; exact h].
        -- exists fn. rewrite aget_eta in Hg1. auto.
Qed.

(* the name section does not change what kind of function an id is *)
Lemma apply_local_names_funcs : forall l m ids m', apply_local_names m ids l = Some m' -> m_funcs m' = m_funcs m.
Proof.
  induction l as [|[fi names] r IH]; intros m ids m' E; cbn [apply_local_names] in E.
  - inversion E; reflexivity.
  - destruct (nth_N (ii_funcs ids) fi); [|apply IH in E; exact E]. apply IH in E. rewrite E. reflexivity.
Qed.

Definition same_kind (m : wir) (id : N) (fn' : mfunc) : Prop :=
  exists fn, aget (m_funcs m) id = Some fn /\ fn_kind fn' = fn_kind fn.

Lemma parse_names_kinds m ids n id fn' :
  aget (m_funcs (parse_names m ids n)) id = Some fn' -> same_kind m id fn'.
Proof.
  unfold parse_names.
  set (m1 := match wn_module n with Some s => set_name m (Some s) | None => m end).
  assert (H1 : m_funcs m1 = m_funcs m) by (subst m1; destruct (wn_module n); reflexivity).
  clearbody m1. cbv zeta.
  match goal with |- context [apply_local_names ?mm _ _] => set (m2 := mm) end.
  assert (H2 : forall id fn', aget (m_funcs m2) id = Some fn' -> same_kind m id fn').
  { subst m2. cbn [set_funcs m_funcs]. rewrite H1.
    apply (apply_names_inv (fun f s => {| fn_kind := fn_kind f; fn_name := Some s |}) (ii_funcs ids) (same_kind m)).
    - intros i x nm (fn & Hg & Hk). exists fn. split; [exact Hg|exact Hk].
    - intros i x Hx. exists x. auto. }
  clearbody m2.
  destruct (apply_local_names m2 ids (wn_locals n)) as [m3|] eqn:E3; [|apply H2].
  apply apply_local_names_funcs in E3. wcbn. rewrite E3. apply H2.
Qed.

Lemma fold_names_kinds ids id fn' : forall l m,
  aget (m_funcs (fold_left (fun m n => parse_names m ids n) l m)) id = Some fn' -> same_kind m id fn'.
Proof.
  induction l as [|n r IH]; intros m H; cbn [fold_left] in H.
  - exists fn'. auto.
  - apply IH in H. destruct H as (fn1 & Hg1 & Hk1). apply parse_names_kinds in Hg1.
    destruct Hg1 as (fn & Hg & Hk). exists fn. split; [exact Hg|congruence].
Qed.

(* every function of a parsed module is an import or the parse of a body of the stream *)
Lemma nth_repeat_app {A} (a : A) ni (b : A) nl k v : nth_error (repeat a ni ++ repeat b nl) k = Some v ->
  (k < ni /\ v = a) \/ (ni <= k < ni + nl /\ v = b).
Proof.
  intros H. destruct (Nat.lt_ge_cases k ni) as [Hlt|Hge].
  - rewrite nth_error_app1 in H by (rewrite repeat_length; exact Hlt). left. split; [exact Hlt|].
    apply nth_error_In in H. eapply repeat_spec; eauto.
  - rewrite nth_error_app2 in H by (rewrite repeat_length; exact Hge). rewrite repeat_length in H. right.
    assert (Hl : k - ni < nl) by (rewrite <- (repeat_length b nl); apply nth_error_Some; congruence).
    split; [lia|]. apply nth_error_In in H. eapply repeat_spec; eauto.
Qed.

Definition from_stream (w : wmod) (b : wbody) : Prop := exists bs, In (S_Code bs) w /\ In b bs.

Definition func_parsed (w : wmod) (ids : i2ids) (id : N) (fn : mfunc) : Prop :=
  match fn_kind fn with
  | FK_Import _ _ => True
  | FK_Uninit _ => False
  | FK_Local lf => exists tys b, from_stream w b /\
                     parsed_lf {| px_i2id := i2id_fun ids id; px_types := tys |} lf (wb_ops b)
  end.

Lemma TInv_types m m0 ids nt : m_types m0 = m_types m -> TInv m ids nt -> TInv m0 ids nt.
Proof.
  intros E (D & L & T). unfold TInv. rewrite E. split; [exact D|]. split; [exact L|].
  intros id Hid. eapply ty_ok_congr; [exact E|apply T; exact Hid].
Qed.

Lemma parse_one_body_parsed m ids p nt lf : TInv m ids nt -> body_valid nt (pr_body p) ->
  parse_one_body m ids p = POk lf ->
  parsed_lf {| px_i2id := i2id_fun ids (pr_fid p); px_types := types_list m |} lf (wb_ops (pr_body p)).
Proof.
  intros T (l & eloc & Eops & Hw) E. unfold parse_one_body in E. pinv E as t Et. pinv E as ety Eety.
  set (cx := {| px_i2id := i2id_fun ids (pr_fid p); px_types := types_list m |}) in *.
  assert (Hwf : wfl cx 1 l).
  { eapply swfl_wfl; [|exact Hw]. intros bt Hbt. eapply sbt_bt_ok; eauto. }
  rewrite Eops in E. rewrite (parse_body_arena cx ety (ty_results t) l eloc Hwf) in E.
  injection E as <-. exists ety, l, eloc. cbn [lf_arena lf_entry]. auto.
Qed.

Theorem parsed_funcs cf ver w s : valid_stream w -> parseM cf ver w = POk s ->
  forall id fn, aget (m_funcs (ps_m s)) id = Some fn -> func_parsed w (ps_ids s) id fn.
Proof.
  intros V E id fn Hg.
  destruct (parse_valid_shape cf ver w V) as (s' & s1 & c & m1 & ps & m2 & E' & E1 & I & Hcnt & E2 & P2 & T2 & F2 & E3 & Ef).
  rewrite E in E'. injection E' as <-.
  destruct I as [Hpi A Hnb Hbv _ _ _ _].
  rewrite Ef in Hg. apply fold_names_kinds in Hg. destruct Hg as (fn2 & Hg2 & Hk2).
  unfold func_parsed. rewrite Hk2. clear Hk2 fn.
  destruct (prepare_bodies_facts _ _ _ _ _ _ _ _ Hpi E2) as (Fu & J & B).
  assert (TI1 : TInv m1 (ps_ids s) (c_nt c)).
  { split; [apply (pi_twf _ _ P2)|]. split; [exact T2|apply (pi_ity _ _ P2)]. }
  destruct (install_kinds _ _ _ _ E3 id fn2 Hg2) as [(lf & p & m0 & Hk & Hin & Hf & Ht & Hp)|(Hn & fn1 & Hg1 & Hk)].
  - rewrite Hk. exists (types_list m0), (pr_body p). split.
    + specialize (B p Hin). destruct (parse_secs_bodies _ _ _ E1 _ B) as [[]|H]. exact H.
    + rewrite <- Hf. eapply parse_one_body_parsed; [| |exact Hp].
      * eapply TInv_types; [exact Ht|exact TI1].
      * rewrite Forall_forall in F2. apply (F2 p Hin).
  - rewrite Hk. rewrite Fu in Hg1.
    pose proof (pi_idc _ _ Hpi) as Hid. unfold ids_consistent in Hid. decompose [and] Hid. clear Hid.
    rewrite Totality.aget_nodead in Hg1 by assumption.
    destruct A as (_ & A2 & _).
    assert (Hc : nth_error (map fcls (items (m_funcs (ps_m s1)))) (N.to_nat id) = Some (fcls fn1))
      by (rewrite nth_error_map, Hg1; reflexivity).
    rewrite A2 in Hc. apply nth_repeat_app in Hc. destruct Hc as [(_ & Hc)|(Hr & Hc)].
    + unfold fcls in Hc. destruct (fn_kind fn1); try discriminate. exact I.
    + exfalso. apply Hn. specialize (J (N.to_nat id - c_nimp c)).
      replace (N.of_nat (c_nimp c) + 0 + N.of_nat (N.to_nat id - c_nimp c))%N with id in J by lia.
      apply J. rewrite Hnb, Hcnt. lia.
Qed.

Theorem parsed_bodies_den cf ver w s : valid_stream w -> parseM cf ver w = POk s ->
  forall id fn lf, aget (m_funcs (ps_m s)) id = Some fn -> fn_kind fn = FK_Local lf ->
  exists cx ety l eloc,
    lf_arena lf = parsed_arena cx ety l eloc /\ wfl cx 1 l /\ lf_entry lf = 0%N /\
    Den (lf_arena lf) (parsed_tree cx ety l eloc) /\ tsid (parsed_tree cx ety l eloc) = lf_entry lf.
Proof.
  intros V E id fn lf Hg Hk. pose proof (parsed_funcs cf ver w s V E id fn Hg) as H. unfold func_parsed in H.
  rewrite Hk in H. destruct H as (tys & b & _ & ety & l & eloc & _ & Hw & Ea & Ee).
  eexists _, ety, l, eloc. split; [exact Ea|]. split; [exact Hw|]. split; [exact Ee|]. split.
  - rewrite Ea. apply parsed_arena_den, Hw.
  - rewrite Ee. apply WV.Proofs.Body.parsed_tree_tsid.
Qed.

(* the logs exist and no function is left uninitialised *)
Lemma used_local_functions_total m :
  (forall id fn, aget (m_funcs m) id = Some fn ->
     match fn_kind fn with FK_Local lf => exists evs, lf_log lf = Ok evs | FK_Import _ _ => True | FK_Uninit _ => False end) ->
  exists fs, used_local_functions m = Ok fs.
Proof.
  intros H. unfold used_local_functions.
  match goal with |- context [rmapM ?f ?l] => destruct (rmapM_total f l) as [bs Ebs] end.
  - intros [id fn] Hin. apply aiter_aget in Hin. specialize (H id fn Hin). cbn [fst snd].
    destruct (fn_kind fn) as [? ?|lf|?]; [eauto| |destruct H].
    destruct H as [evs Hl]. unfold lf_size. rewrite Hl. cbn [rmap rbind]. eauto.
  - rewrite Ebs. cbn [rbind]. eauto.
Qed.

Theorem parsed_lf_log cf ver w s : valid_stream w -> parseM cf ver w = POk s ->
  (forall id fn lf, aget (m_funcs (ps_m s)) id = Some fn -> fn_kind fn = FK_Local lf ->
     exists cx ety l eloc, lf_arena lf = parsed_arena cx ety l eloc /\
                           lf_log lf = Ok (events false (parsed_tree cx ety l eloc))) /\
  exists fs, used_local_functions (ps_m s) = Ok fs.
Proof.
  intros V E. split.
  - intros id fn lf Hg Hk. pose proof (parsed_funcs cf ver w s V E id fn Hg) as H. unfold func_parsed in H.
    rewrite Hk in H. destruct H as (tys & b & _ & ety & l & eloc & _ & Hw & Ea & Ee).
    eexists _, ety, l, eloc. split; [exact Ea|]. apply parsed_log; assumption.
  - apply used_local_functions_total. intros id fn Hg.
    pose proof (parsed_funcs cf ver w s V E id fn Hg) as H. unfold func_parsed in H.
    destruct (fn_kind fn) as [? ?|lf|?]; [exact I| |exact H].
    destruct H as (tys & b & _ & ety & l & eloc & _ & Hw & Ea & Ee).
    eexists. eapply (parsed_log _ lf ety l eloc); eassumption.
Qed.

(* every entity of the log has an index in the final maps *)
(* the types named by the parse-time type vector are live non-entry types of the parsed module *)
Theorem parseM_ity cf ver w s : parseM cf ver w = POk s -> forall id, In id (ii_types (ps_ids s)) -> ty_ok (ps_m s) id.
Proof. intros E. exact (proj2 (proj2 (parseM_end cf ver w s E))). Qed.

Definition space_ids (ids : i2ids) (sp : space) : list N :=
  match sp with
  | S_func => ii_funcs ids | S_type => ii_types ids | S_table => ii_tables ids | S_memory => ii_memories ids
  | S_global => ii_globals ids | S_data => ii_data ids | S_elem => ii_elements ids | S_local => []
  end.

Lemma i2id_fun_In ids fid sp i : sp <> S_local -> N.to_nat i < length (space_ids ids sp) ->
  In (i2id_fun ids fid sp i) (space_ids ids sp).
Proof. intros Hs Hi. destruct sp; try (exfalso; apply Hs; reflexivity); cbn [i2id_fun space_ids] in *; apply nth_In, Hi. Qed.

Lemma In_nth_N {A} (l : list A) x : In x l -> exists i, nth_N l i = Some x.
Proof. intros H. apply In_nth_error in H. destruct H as [n H]. exists (N.of_nat n). unfold nth_N. rewrite Nat2N.id. exact H. Qed.

Lemma iota_live {A} (a : tarena A) l id : l = iota (length (items a)) -> dead a = [] -> In id l ->
  In id (map fst (aiter a)).
Proof.
  intros -> D Hin. apply iota_In in Hin. destruct (lt_live a id D Hin) as [v Hv].
  apply in_map_iff. exists (id, v). split; [reflexivity|apply aiter_aget; exact Hv].
Qed.

(* liveness of an entity of a space *)
Definition ent_live (m : wir) (sp : space) (id : N) : Prop :=
  match sp with
  | S_func => liveF m id | S_type => ty_ok m id | S_table => liveT m id | S_memory => liveM m id | S_global => liveG m id
  | S_data => exists v, aget (m_data m) id = Some v | S_elem => exists v, aget (m_elements m) id = Some v
  | S_local => False
  end.

Lemma iota_lives {A} (a : tarena A) l id : l = iota (length (items a)) -> dead a = [] -> In id l ->
  exists v, aget a id = Some v.
Proof. intros -> D Hin. apply iota_In in Hin. exact (lt_live a id D Hin). Qed.

(* an id of a parse-time vector is a live entity *)
Lemma ids_live m ids : ids_consistent m ids -> (forall id, In id (ii_types ids) -> ty_ok m id) ->
  forall sp id, In id (space_ids ids sp) -> ent_live m sp id.
Proof.
  intros IC IT sp id Hin. destruct sp; cbn [space_ids ent_live] in *.
  - apply In_nth_N in Hin. destruct Hin as [i Hi]. eapply idc_funcs; eauto.
  - apply IT, Hin.
  - apply In_nth_N in Hin. destruct Hin as [i Hi]. eapply idc_tables; eauto.
  - apply In_nth_N in Hin. destruct Hin as [i Hi]. eapply idc_mems; eauto.
  - apply In_nth_N in Hin. destruct Hin as [i Hi]. eapply idc_globals; eauto.
  - unfold ids_consistent in IC. decompose [and] IC. eapply iota_lives; eauto.
  - unfold ids_consistent in IC. decompose [and] IC. eapply iota_lives; eauto.
  - destruct Hin.
Qed.

(* a live entity has an index in the final maps *)
Lemma live_indexed m fs x : closed m -> used_local_functions m = Ok fs -> final_maps m fs x ->
  forall sp id, ent_live m sp id -> In id (map fst (space_map x sp)).
Proof.
  intros C Hfs (Fty & Ffn & Ftb & Fme & Fgl & Fel & Fda) sp id Hl.
  destruct sp; cbn [ent_live space_map] in *.
  - rewrite Ffn, number_fst. eapply func_indexed; eauto.
  - rewrite Fty, number_fst. destruct Hl as (t & Ht & He). eapply emitted_types_In; eauto.
  - rewrite Ftb, number_fst. apply table_indexed; assumption.
  - rewrite Fme, number_fst. apply mem_indexed; assumption.
  - rewrite Fgl, number_fst. apply global_indexed; assumption.
  - rewrite Fda, number_fst. destruct Hl as [v Hv]. apply in_map_iff. exists (id, v). split; [reflexivity|apply aiter_aget; exact Hv].
  - rewrite Fel, number_fst. destruct Hl as [v Hv]. apply in_map_iff. exists (id, v). split; [reflexivity|apply aiter_aget; exact Hv].
  - destruct Hl.
Qed.

Lemma existsb_of_In (l : list (N * N)) id : In id (map fst l) -> existsb (fun p => N.eqb (fst p) id) l = true.
Proof.
  intros H. apply in_map_iff in H. destruct H as [p [<- Hp]]. apply existsb_exists. exists p. split; [exact Hp|apply N.eqb_refl].
Qed.

(* steps 3 and 4 for one parsed body, on maps that index the non-local entities of its log: the locals
   always have a slot, the Emit visitor never panics *)
Lemma parsed_body_ok_gen m x ilen cx lf ety l eloc :
  wfl cx 1 l -> lf_arena lf = parsed_arena cx ety l eloc -> lf_entry lf = 0%N ->
  (forall sp rid, sp <> S_local -> In (ERef sp rid) (events false (parsed_tree cx ety l eloc)) ->
                  In rid (map fst (space_map x sp))) ->
  body_ok m x ilen lf.
Proof.
  intros Hw Ea Ee Hidx. unfold body_ok. exists (events false (parsed_tree cx ety l eloc)).
  split; [apply parsed_log; assumption|]. cbv zeta. split; [|apply (parsed_emit_body cx lf ety l eloc); assumption].
  destruct (emit_locals (local_ty_fn m) (lf_args lf) (used_of_log (events false (parsed_tree cx ety l eloc))))
    as [decls lmap] eqn:EL. cbn [snd].
  unfold refs_ok. apply forallb_forall. intros e He. destruct e as [| | | |sp rid| |]; try reflexivity.
  destruct sp; try (apply existsb_of_In, Hidx; [discriminate|exact He]).
  apply existsb_of_In. eapply locals_cover_used; [exact EL|].
  unfold used_of_log. apply in_flat_map. exists (ERef S_local rid). split; [exact He|left; reflexivity].
Qed.

(* what validation guarantees about the entity indices of the operators of a body, and [valid_stream]
   does not say: they are below the number of entities of their space *)
Definition op_in_range (ids : i2ids) (o : wop) : Prop :=
  forall sp i, In (sp, i) (wop_refs o) -> sp <> S_local -> N.to_nat i < length (space_ids ids sp).
Definition refs_in_range (w : wmod) (ids : i2ids) : Prop :=
  forall bs b o loc, In (S_Code bs) w -> In b bs -> In (WOp o, loc) (wb_ops b) -> op_in_range ids o.

(* step 3: the non-local entities in the log of a function of the parsed module are live entities of it *)
Theorem parsed_refs_ok cf ver w s id fn lf :
  valid_stream w -> parseM cf ver w = POk s -> refs_in_range w (ps_ids s) ->
  aget (m_funcs (ps_m s)) id = Some fn -> fn_kind fn = FK_Local lf ->
  exists evs, lf_log lf = Ok evs /\
    forall sp rid, sp <> S_local -> In (ERef sp rid) evs -> In rid (space_ids (ps_ids s) sp) /\ ent_live (ps_m s) sp rid.
Proof.
  intros V E RR Hg Hk.
  pose proof (parsed_funcs cf ver w s V E id fn Hg) as H. unfold func_parsed in H. rewrite Hk in H.
  destruct H as (tys & b & (bs & Hbs & Hb) & ety & l & eloc & Eops & Hw & Ea & Ee).
  set (cx := {| px_i2id := i2id_fun (ps_ids s) id; px_types := tys |}) in *.
  exists (events false (parsed_tree cx ety l eloc)). split; [apply parsed_log; assumption|].
  intros sp rid Hs He.
  destruct (parsed_log_refs cx ety l eloc sp rid He) as (o & loc & i & Ho & Hi & ->).
  assert (Hin : In (px_i2id cx sp i) (space_ids (ps_ids s) sp)).
  { cbn [px_i2id cx]. apply i2id_fun_In; [exact Hs|].
    eapply (RR bs b o loc Hbs Hb); [|exact Hi|exact Hs]. rewrite Eops. apply in_or_app. left. exact Ho. }
  split; [exact Hin|]. eapply ids_live; [eapply parseM_ids; eauto|eapply parseM_ity; eauto|exact Hin].
Qed.

(* step 4 proper: the Emit visitor does not panic on any function of the parsed module, whatever the
   index maps are (no premise on the entity indices: a missing id is detected by [refs_ok], not here) *)
Theorem parsed_emit_no_panic cf ver w s id fn lf ecx :
  valid_stream w -> parseM cf ver w = POk s ->
  aget (m_funcs (ps_m s)) id = Some fn -> fn_kind fn = FK_Local lf ->
  exists st, emit_body ecx (lf_fuel lf) (lf_arena lf) (lf_entry lf) 0%N = Ok st.
Proof.
  intros V E Hg Hk.
  pose proof (parsed_funcs cf ver w s V E id fn Hg) as H. unfold func_parsed in H. rewrite Hk in H.
  destruct H as (tys & b & _ & ety & l & eloc & _ & Hw & Ea & Ee).
  eapply parsed_emit_body; eassumption.
Qed.

(* steps 3 and 4 for one function of the parsed module, on the final maps *)
Theorem parsed_emit_body_ok cf ver w s ilen fs x id lf :
  valid_stream w -> parseM cf ver w = POk s -> refs_in_range w (ps_ids s) ->
  used_local_functions (ps_m s) = Ok fs -> final_maps (ps_m s) fs x -> In (id, lf) fs ->
  body_ok (ps_m s) x ilen lf.
Proof.
  intros V E RR Hfs FM Hin.
  destruct (used_local_functions_entries _ _ Hfs id lf Hin) as (fn & Hg & Hk).
  destruct (parsed_refs_ok cf ver w s id fn lf V E RR Hg Hk) as (evs & Hl & Hr).
  pose proof (parsed_funcs cf ver w s V E id fn Hg) as H. unfold func_parsed in H. rewrite Hk in H.
  destruct H as (tys & b & _ & ety & l & eloc & Eops & Hw & Ea & Ee).
  eapply parsed_body_ok_gen; try eassumption.
  intros sp rid Hs He. rewrite (parsed_log _ lf ety l eloc Hw Ea Ee) in Hl. injection Hl as <-.
  eapply live_indexed; eauto; [eapply parseM_closed; eauto|]. apply (Hr sp rid Hs He).
Qed.

(* step 5, with the one premise [valid_stream] lacks *)
Theorem emit_total_after_parse_final_partial cf ver w s ilen dw :
  valid_stream w -> parseM cf ver w = POk s -> refs_in_range w (ps_ids s) ->
  exists e, emitM (ps_m s) ilen dw = Ok e.
Proof.
  intros V E RR. destruct (parsed_lf_log cf ver w s V E) as [_ [fs Hfs]].
  eapply emit_total_after_parse_bodies; [exact E|exact Hfs|].
  intros x FM id lf Hin. eapply parsed_emit_body_ok; eauto.
Qed.

Corollary emit_total_after_parse_final_partial' cf ver w ilen dw :
  valid_stream w -> (forall s, parseM cf ver w = POk s -> refs_in_range w (ps_ids s)) ->
  exists s e, parseM cf ver w = POk s /\ emitM (ps_m s) ilen dw = Ok e.
Proof.
  intros V RR. destruct (parse_total cf ver w V) as [s E].
  destruct (emit_total_after_parse_final_partial cf ver w s ilen dw V E (RR s E)) as [e He]. eauto.
Qed.

(* [valid_stream] alone does not suffice: it bounds branch depths and block types but not the entity
   indices of the operators (the model's parse-time lookup yields the default id on an index out of range,
   where walrus's IndicesToIds::get_* returns an error) *)
Definition bad_call_mod : wmod :=
  [ S_Types [([], [])]; S_Funcs [0%N];
    S_Code [{| wb_locals := []; wb_ops := flat_list [RPlain (W_Call 7) 1%N] ++ [(WEnd, 2%N)] |}] ].

Lemma bad_call_valid : valid_stream bad_call_mod.
Proof.
  apply valid_from_split; [vm_compute; reflexivity|]. cbn [code_valid bad_call_mod].
  repeat match goal with |- _ /\ _ => split end; try exact I.
  cbn [cstep cstep0 set_last c_nt fold_left cimp wi_kind rank ctx0 length Nat.add].
  repeat constructor. eexists. eexists. split; [reflexivity|].
  cbn [swfl swf sbt_ok]. repeat split. intros f H. vm_compute in H. discriminate H.
Qed.

Theorem emit_total_after_parse_final_refuted :
  exists w, valid_stream w /\
    exists s, parseM default_config [49%N] w = POk s /\ emitM (ps_m s) (fun _ => 1%N) [] = Panic.
Proof.
  exists bad_call_mod. split; [exact bad_call_valid|].
  eexists. split; [vm_compute; reflexivity|vm_compute; reflexivity].
Qed.

(* the witness violates exactly the added premise *)
Lemma bad_call_not_in_range s : parseM default_config [49%N] bad_call_mod = POk s -> ~ refs_in_range bad_call_mod (ps_ids s).
Proof.
  intros E RR. assert (E' := E). vm_compute in E'. injection E' as <-.
  specialize (RR _ _ (W_Call 7) 1%N (or_intror (or_intror (or_introl eq_refl))) (or_introl eq_refl) (or_introl eq_refl)
                 S_func 7%N (or_introl eq_refl) ltac:(discriminate)).
  vm_compute in RR. lia.
Qed.

(* the added premise as a boolean, and a module on which every premise holds *)
Definition op_in_range_b (ids : i2ids) (o : wop) : bool :=
  forallb (fun r => match fst r with S_local => true | sp => N.to_nat (snd r) <? length (space_ids ids sp) end) (wop_refs o).
Definition refs_in_range_b (w : wmod) (ids : i2ids) : bool :=
  forallb (fun sec => match sec with
                      | S_Code bs => forallb (fun b => forallb (fun x => match fst x with WOp o => op_in_range_b ids o | _ => true end)
                                                               (wb_ops b)) bs
                      | _ => true end) w.
Lemma refs_in_range_b_ok w ids : refs_in_range_b w ids = true -> refs_in_range w ids.
Proof.
  intros H bs b o loc Hbs Hb Ho sp i Hi Hs. unfold refs_in_range_b in H. rewrite forallb_forall in H.
  specialize (H _ Hbs). cbn beta iota in H. rewrite forallb_forall in H. specialize (H _ Hb).
  rewrite forallb_forall in H. specialize (H _ Ho). cbn [fst] in H. unfold op_in_range_b in H.
  rewrite forallb_forall in H. specialize (H _ Hi). cbn [fst snd] in H.
  destruct sp; try (exfalso; apply Hs; reflexivity); apply Nat.ltb_lt in H; exact H.
Qed.

Example ex_emits_by_theorem :
  exists s e, parseM default_config [49%N] ex_mod = POk s /\ emitM (ps_m s) (fun _ => 1%N) [] = Ok e.
Proof.
  apply emit_total_after_parse_final_partial'; [exact ex_valid|].
  intros s E. apply refs_in_range_b_ok. vm_compute in E. injection E as <-. vm_compute. reflexivity.
Qed.

Lemma gc_live m m' u : gc_rel m m' u -> forall sp id, ent_live m sp id -> In (sp, id) u -> ent_live m' sp id.
Proof.
  intros R sp id Hl Hu. destruct sp; cbn [ent_live] in *.
  - destruct Hl as [v Hv]. exists v. apply (gr_funcs _ _ _ R). auto.
  - destruct Hl as (t & Ht & He). exists t. split; [eapply gr_types; eauto|exact He].
  - destruct Hl as [v Hv]. exists v. apply (gr_tables _ _ _ R). auto.
  - destruct Hl as [v Hv]. exists v. apply (gr_memories _ _ _ R). auto.
  - destruct Hl as [v Hv]. exists v. apply (gr_globals _ _ _ R). auto.
  - destruct Hl as [v Hv]. exists v. apply (gr_data _ _ _ R). auto.
  - destruct Hl as [v Hv]. exists v. apply (gr_elements _ _ _ R). auto.
  - exact Hl.
Qed.

(* a kept function's log mentions kept entities only: the traversal log is what [succ] follows *)
Lemma kept_refs m u id fn lf evs : used m = Ok u -> In (S_func, id) u ->
  aget (m_funcs m) id = Some fn -> fn_kind fn = FK_Local lf -> lf_log lf = Ok evs ->
  forall sp rid, sp <> S_local -> In (ERef sp rid) evs -> In (sp, rid) u.
Proof.
  intros Hu Hin Hg Hk Hl sp rid Hs He.
  destruct (used_closed' _ _ Hu) as (rs & _ & _ & K).
  destruct (K (S_func, id) Hin ltac:(cbn; discriminate) ltac:(cbn; discriminate)) as (ys & Hys & Hinc).
  apply Hinc. unfold succ in Hys. cbn [fst snd] in Hys. rewrite Hg, Hk, Hl in Hys. cbn [rmap] in Hys.
  injection Hys as <-. right. apply in_flat_map. exists (ERef sp rid). split; [exact He|].
  destruct sp; try (left; reflexivity). exfalso. apply Hs. reflexivity.
Qed.

Theorem emit_total_after_gc_final_partial cf ver w s m' ilen dw :
  valid_stream w -> parseM cf ver w = POk s -> refs_in_range w (ps_ids s) -> gc_sweep (ps_m s) = Ok m' ->
  exists e, emitM m' ilen dw = Ok e.
Proof.
  intros V E RR Hgc. destruct (gc_shape _ _ Hgc) as (u & Hu & R).
  assert (Hfun : forall id fn, aget (m_funcs m') id = Some fn ->
                               aget (m_funcs (ps_m s)) id = Some fn /\ In (S_func, id) u)
    by (intros id fn Hg; apply (gr_funcs _ _ _ R); exact Hg).
  destruct (used_local_functions_total m') as [fs Hfs].
  { intros id fn Hg. destruct (Hfun _ _ Hg) as [Hg0 _].
    pose proof (parsed_funcs cf ver w s V E id fn Hg0) as H. unfold func_parsed in H.
    destruct (fn_kind fn) as [? ?|lf|?]; [exact I| |exact H].
    destruct H as (tys & b & _ & ety & l & eloc & _ & Hw & Ea & Ee).
    eexists. eapply (parsed_log _ lf ety l eloc); eassumption. }
  eapply emit_total_after_gc_bodies; [exact E|exact Hgc|exact Hfs|].
  intros x FM id lf Hin.
  destruct (used_local_functions_entries _ _ Hfs id lf Hin) as (fn & Hg & Hk).
  destruct (Hfun _ _ Hg) as [Hg0 Hu0].
  destruct (parsed_refs_ok cf ver w s id fn lf V E RR Hg0 Hk) as (evs & Hl & Hr).
  pose proof (parsed_funcs cf ver w s V E id fn Hg0) as H. unfold func_parsed in H. rewrite Hk in H.
  destruct H as (tys & b & _ & ety & l & eloc & Eops & Hw & Ea & Ee).
  eapply parsed_body_ok_gen; try eassumption.
  intros sp rid Hs He.
  pose proof (kept_refs _ _ _ _ _ _ Hu Hu0 Hg0 Hk Hl sp rid Hs) as Hkept.
  rewrite (parsed_log _ lf ety l eloc Hw Ea Ee) in Hl. injection Hl as <-.
  destruct (gc_closed_after_parse _ _ _ _ _ E Hgc) as [C' _].
  eapply live_indexed; eauto. eapply gc_live; [exact R|apply (Hr sp rid Hs He)|apply Hkept, He].
Qed.

Print Assumptions parsed_bodies_den.
Print Assumptions parsed_lf_log.
Print Assumptions parsed_refs_ok.
Print Assumptions parsed_emit_no_panic.
Print Assumptions parsed_emit_body_ok.
Print Assumptions emit_total_after_parse_final_partial.
Print Assumptions emit_total_after_parse_final_partial'.
Print Assumptions emit_total_after_parse_final_refuted.
Print Assumptions bad_call_not_in_range.
Print Assumptions ex_emits_by_theorem.
Print Assumptions emit_total_after_gc_final_partial.
