(* C08, module level fixpoint: the offset-type clause of the validator for the element and data segments of an
   emitted stream.  The sections from the element section on declare no global, table or memory, so the context
   before them already has the content ModFix27 describes; there an offset that passed the parser's check
   ([offset_ok]) passes the validator's. *)
From Coq Require Import List NArith ZArith Bool Arith Lia.
Import ListNotations.
From WV Require Import Gen.Ops Model.Common Model.IR Model.Arena Model.Traversal Model.EmitFn Model.Locals
                       Model.ParseFn Model.ModuleM Model.ParseM Model.EmitM Gen.Attrs.
From WV Require Import Proofs.Arena Proofs.Order Proofs.IndexMaps Proofs.CustomsCfg Proofs.Structure Proofs.Structure2
                       Proofs.Totality Proofs.Renumbering Proofs.ParseTotal Proofs.ModFix Proofs.ModFix4 Proofs.ModFix2 Proofs.ModFix16
                       Proofs.ModFix23 Proofs.ModFix26 Proofs.ModFix27.
Local Open Scope nat_scope.

Theorem prefix_content_ok m ilen e pre s post : emitM m ilen [] = Ok e -> em_secs e = pre ++ s :: post ->
  sec_tag s = Some 8 \/ sec_tag s = Some 11 ->
  flat_map sec_globs pre = flat_map sec_globs (em_secs e) /\ flat_map sec_tabs pre = flat_map sec_tabs (em_secs e) /\
  flat_map sec_mems64 pre = flat_map sec_mems64 (em_secs e).
Proof.
  intros He E Ht. pose proof (emitted_order_ok _ _ _ He) as Ho. rewrite E in Ho.
  destruct (order_b_suffix _ _ _ _ Ho) as [l' Ho']. cbn [order_b] in Ho'.
  assert (Hr : exists r, rank s = Some r /\ 9 <= r).
  { destruct Ht as [Ht|Ht]; destruct s; try discriminate Ht; eexists; (split; [reflexivity|lia]). }
  destruct Hr as (r & Hr & Hr9). rewrite Hr in Ho'. apply andb_true_iff in Ho'. destruct Ho' as [_ Ho'].
  pose proof (order_b_after _ _ Ho') as Hafter.
  assert (Hs : sec_globs s = [] /\ sec_tabs s = [] /\ sec_mems64 s = []).
  { destruct Ht as [Ht|Ht]; destruct s; try discriminate Ht; repeat split. }
  destruct Hs as (S1 & S2 & S3).
  assert (Hp : forall s', In s' post -> sec_globs s' = [] /\ sec_tabs s' = [] /\ sec_mems64 s' = []).
  { intros s' Hin. destruct s'; try (repeat split; fail); pose proof (Hafter _ _ Hin eq_refl); lia. }
  rewrite E, !flat_map_app; cbn [flat_map]; rewrite S1, S2, S3; cbn [app].
  rewrite (flat_map_nil sec_globs post), (flat_map_nil sec_tabs post), (flat_map_nil sec_mems64 post) by (intros s' Hin; apply (Hp s' Hin)).
  rewrite !app_nil_r. repeat split.
Qed.

(* an offset constant that passed the parser's check passes the validator's once emitted: in the context, at the emitted
   index of a global sits its value type ([x] is the map the constant is emitted with) *)
Lemma offset_emitted m ilen e pre x is64 off o : emitM m ilen [] = Ok e -> wf_map (space_map (em_x2i e) S_global) ->
  flat_map sec_globs pre = flat_map sec_globs (em_secs e) ->
  (forall g, get_idx x S_global g = get_idx (em_x2i e) S_global g) ->
  offset_ok m is64 off = POk true -> emit_const x off = Ok o -> offset_valid (c_globs (ctx_after pre)) is64 o = true.
Proof.
  intros HE W PG Hx Hok Eo. destruct off as [v|g|t|f]; cbn [offset_ok emit_const] in *; try discriminate Hok.
  - destruct v; inversion Eo; subst o; cbn [offset_valid]; inversion Hok; try reflexivity; try discriminate.
  - rewrite Hx in Eo.
    destruct (get_idx (em_x2i e) S_global g) as [j| |] eqn:Ej; cbn [rmap] in Eo; inversion Eo; subst o. cbn [offset_valid].
    unfold global_ty in Hok. destruct (aget (m_globals m) g) as [gl|] eqn:Eg; cbn [option_map of_opt_panic pbind] in Hok; [|discriminate Hok].
    rewrite (prefix_glob_type_gen _ _ _ _ _ _ _ HE W PG Ej Eg). inversion Hok as [Hb]. destruct (gl_ty gl); try discriminate Hb; reflexivity.
Qed.

(* the offset-type clause of data segments, for ANY module with the parse-side invariant and well-formed maps *)
Theorem data_offsets_gen : forall m ilen e, emitM m ilen [] = Ok e -> offsets_ok m ->
  (forall S, S <> S_local -> wf_map (space_map (em_x2i e) S)) ->
  forall pre l post d, em_secs e = pre ++ S_Data l :: post -> In d l -> data_off (ctx_after pre) d.
Proof.
  intros m ilen e1 HE [_ HO] WF pre l post d E Hd.
  destruct (prefix_content_ok _ _ _ _ _ _ HE E (or_intror eq_refl)) as (PG & _ & PM).
  pose proof HE as HE'. emitM_kinds HE'.
  assert (Hin : In (S_Data l) (filter (has_tag 11) (em_secs e1))) by (apply filter_In; split; [rewrite E; apply in_elt|reflexivity]).
  rewrite Ekind in Hin. cbn [nth] in Hin.
  unfold emit_data in Eda. destruct (aiter (m_data m)) as [|p0 ps] eqn:El; [inversion Eda; subst; destruct Hin|].
  rewrite <- El in *. rinv Eda as ds Eds. inversion Eda; subst s_da; clear Eda. destruct Hin as [Hin|[]]. inversion Hin; subst ds; clear Hin.
  destruct (rmapM_in _ _ _ Eds _ Hd) as ([id da] & Hp & Hf). cbn [snd] in Hf. unfold data_off.
  destruct (da_kind da) as [|mem off] eqn:Ek; [inversion Hf; subst; exact I|].
  rinv Hf as mi Emi. rinv Hf as o Eo. inversion Hf; subst d; clear Hf. cbn [wd_kind]. intros is64 Hn.
  destruct (HO id da mem off Hp Ek) as (me & Hme & Hok).
  rewrite (prefix_mem_flag_gen _ _ _ _ _ _ _ HE (WF S_memory ltac:(discriminate)) PM Emi Hme) in Hn. inversion Hn; subst is64; clear Hn.
  exact (offset_emitted _ _ _ _ _ _ _ _ HE (WF S_global ltac:(discriminate)) PG (fun _ => eq_refl) Hok Eo).
Qed.
Theorem data_offsets_holds : forall cf ver w s1 ilen e1, parseM cf ver w = POk s1 -> emitM (ps_m s1) ilen [] = Ok e1 ->
  ModFix26.offsets_ok (ps_m s1) ->
  forall pre l post d, em_secs e1 = pre ++ S_Data l :: post -> In d l -> ModFix23.data_off (ModFix16.ctx_after pre) d.
Proof. intros cf ver w s1 ilen e1 HP HE HO. exact (data_offsets_gen _ _ _ HE HO (fun S => parsed_wf_space _ _ _ _ _ _ _ S HP HE)). Qed.

Print Assumptions data_offsets_holds.
Theorem elem_offsets_gen : forall m ilen e, emitM m ilen [] = Ok e -> offsets_ok m ->
  (forall S, S <> S_local -> wf_map (space_map (em_x2i e) S)) ->
  forall pre l post we, em_secs e = pre ++ S_Elems l :: post -> In we l -> elem_off (ctx_after pre) we.
Proof.
  intros m ilen e1 HE [HO _] WF pre l post we E Hw.
  destruct (prefix_content_ok _ _ _ _ _ _ HE E (or_introl eq_refl)) as (PG & PT & _).
  pose proof HE as HE'. emitM_kinds HE'.
  pose proof (emitM_late_maps _ _ _ _ _ _ _ _ _ _ Eel Edc Eco) as Hlate.
  assert (Hin : In (S_Elems l) (filter (has_tag 8) (em_secs e1))) by (apply filter_In; split; [rewrite E; apply in_elt|reflexivity]).
  rewrite Ekind in Hin. cbn [nth] in Hin. clear Ekind.
  rewrite emit_elements_unfold in Eel. destruct (aiter (m_elements m)) as [|p0 ps] eqn:El; [inversion Eel; subst; destruct Hin|].
  rewrite <- El in *. rinv Eel as r Er. inversion Eel; subst s_el x9; clear Eel. destruct Hin as [Hin|[]]. inversion Hin; subst l; clear Hin.
  pose proof (elems_go_x _ _ _ Er) as X9. apply elems_go_entries' in Er. destruct Er as [_ F].
  assert (Hx : forall S id, S <> S_elem -> S <> S_data -> get_idx (snd r) S id = get_idx (em_x2i e1) S id).
  { intros S id H1 H2. unfold get_idx. rewrite X9, push_all_other by congruence. rewrite Hlate by assumption. reflexivity. }
  assert (exists p, In p (aiter (m_elements m)) /\ emit_elem (snd r) (snd p) = Ok we) as ([id el] & Hp & Hf).
  { clear - F Hw. induction F as [|a b la lb Hab _ IH]; [destruct Hw|]. destruct Hw as [<-|Hw].
    - exists a. split; [left; reflexivity|exact Hab].
    - destruct (IH Hw) as (p & Hp & Hf). exists p. split; [right; exact Hp|exact Hf]. }
  cbn [snd] in Hf. unfold emit_elem in Hf. rinv Hf as its Eits. rinv Hf as kind Ekind. inversion Hf; subst we; clear Hf. unfold elem_off. cbn [wel_kind].
  destruct (el_kind el) as [| |t off] eqn:Ek; try (inversion Ekind; subst kind; exact I).
  rinv Ekind as ti Eti. rinv Ekind as o Eo. inversion Ekind; subst kind; clear Ekind.
  assert (Etb : tbl0 (if N.eqb ti 0 then None else Some ti) = ti) by (destruct (N.eqb_spec ti 0%N) as [->|]; reflexivity).
  rewrite Etb. intros is64 Hn.
  destruct (HO id el t off Hp Ek) as (tb & Htb & Hok).
  rewrite Hx in Eti by discriminate.
  rewrite (prefix_tab_flag_gen _ _ _ _ _ _ _ HE (WF S_table ltac:(discriminate)) PT Eti Htb) in Hn. inversion Hn; subst is64; clear Hn.
  exact (offset_emitted _ _ _ _ _ _ _ _ HE (WF S_global ltac:(discriminate)) PG (fun g => Hx S_global g ltac:(discriminate) ltac:(discriminate)) Hok Eo).
Qed.
Theorem elem_offsets_holds : forall cf ver w s1 ilen e1, parseM cf ver w = POk s1 -> emitM (ps_m s1) ilen [] = Ok e1 ->
  ModFix26.offsets_ok (ps_m s1) ->
  forall pre l post we, em_secs e1 = pre ++ S_Elems l :: post -> In we l -> ModFix23.elem_off (ModFix16.ctx_after pre) we.
Proof. intros cf ver w s1 ilen e1 HP HE HO. exact (elem_offsets_gen _ _ _ HE HO (fun S => parsed_wf_space _ _ _ _ _ _ _ S HP HE)). Qed.

Print Assumptions elem_offsets_holds.
Theorem emitted_valid_b_from_offsets : forall cf ver w s1 ilen e1, parseM cf ver w = POk s1 -> emitM (ps_m s1) ilen [] = Ok e1 ->
  ModFix26.offsets_ok (ps_m s1) -> valid_from_b ctx0 (em_secs e1) = true.
Proof.
  intros cf ver w s1 ilen e1 HP HE HO. apply (emitted_valid_b_full _ _ _ _ _ _ HP HE).
  - exact (elem_offsets_holds _ _ _ _ _ _ HP HE HO).
  - exact (data_offsets_holds _ _ _ _ _ _ HP HE HO).
Qed.

Print Assumptions emitted_valid_b_from_offsets.
Print Assumptions prefix_content_ok.
