(* Framing theorems for Model/Frame.v: the bytes below the abstract section stream (C12 / C08 / C11).
   Every reader step meets  enc_u (lenN p) ++ p ++ tl : dec_enc_u reads the size, and the bounds test, takeN and dropN
   on  p ++ tl  give false, p and tl.  The offsets of a code entry are read off entry_starts_nth. *)
From Coq Require Import List NArith ZArith Bool Lia. Import ListNotations.
From WV Require Import Model.Leb Model.CodeMap Model.Frame Proofs.Leb.
Local Open Scope N_scope.

Definition small {A} (l : list A) : Prop := lenN l < 2 ^ 126.
Definition small_sec (s : N * list N) : Prop := small (snd s).

Lemma lenN_app {A} (a b : list A) : lenN (a ++ b) = lenN a + lenN b.
Proof. unfold lenN. rewrite app_length, Nat2N.inj_add. reflexivity. Qed.

Lemma lenN_cons {A} (x : A) (l : list A) : lenN (x :: l) = 1 + lenN l.
Proof. unfold lenN. cbn [length]. rewrite Nat2N.inj_succ. lia. Qed.

Lemma takeN_lenN_app {A} (a b : list A) : takeN (lenN a) (a ++ b) = a.
Proof.
  unfold takeN, lenN. rewrite Nat2N.id, firstn_app, Nat.sub_diag, firstn_all.
  cbn [firstn]. apply app_nil_r.
Qed.

Lemma dropN_lenN_app {A} (a b : list A) : dropN (lenN a) (a ++ b) = b.
Proof.
  unfold dropN, lenN. rewrite Nat2N.id, skipn_app, Nat.sub_diag, skipn_all.
  reflexivity.
Qed.

Lemma dropN_add {A} a b (l : list A) : dropN (a + b) l = dropN b (dropN a l).
Proof.
  unfold dropN. rewrite N2Nat.inj_add. generalize (N.to_nat b) as m. revert l.
  induction (N.to_nat a) as [|n IH]; intros l m; [reflexivity|].
  destruct l; [destruct m; reflexivity|apply IH].
Qed.

Lemma lenN_ltb_app {A} (a b : list A) : (lenN (a ++ b) <? lenN a) = false.
Proof. apply N.ltb_ge. rewrite lenN_app. lia. Qed.

Lemma skipn_length_app {A} (a b : list A) : skipn (length a) (a ++ b) = b.
Proof. induction a as [|x a IH]; [reflexivity|]. cbn [length app skipn]. exact IH. Qed.

Lemma lenN_enc_u n : n < 2 ^ 64 -> lenN (enc_u n) = leb_len n.
Proof. intros H. unfold lenN. apply enc_u_len. exact H. Qed.

Theorem unframe_frame_sections : forall secs, Forall small_sec secs ->
  forall fuel, (length (flat_map frame_section secs) <= fuel)%nat ->
  unframe_sections fuel (flat_map frame_section secs) = Some secs.
Proof.
  induction 1 as [|s secs Hs Hall IH]; intros fuel Hf.
  - destruct fuel; reflexivity.
  - destruct s as [id p]. unfold small_sec, small in Hs. cbn [snd] in Hs.
    cbn [flat_map frame_section fst snd app] in Hf |- *.
    destruct fuel as [|fuel]; [cbn [length] in Hf; lia|].
    cbn [unframe_sections]. rewrite <- app_assoc.
    rewrite (dec_enc_u _ _ Hs).
    rewrite lenN_ltb_app, dropN_lenN_app, takeN_lenN_app.
    rewrite IH; [reflexivity|].
    cbn [length] in Hf. rewrite !app_length in Hf. lia.
Qed.

Lemma firstn8_magic x : firstn 8 (magic_version ++ x) = magic_version.
Proof. reflexivity. Qed.
Lemma skipn8_magic x : skipn 8 (magic_version ++ x) = x.
Proof. reflexivity. Qed.
Lemma magic_eqb : nlist_eqb magic_version magic_version = true.
Proof. reflexivity. Qed.

Theorem unframe_frame_module : forall secs, Forall small_sec secs ->
  unframe_module (frame_module secs) = Some secs.
Proof.
  intros secs H. unfold unframe_module, frame_module.
  rewrite firstn8_magic, skipn8_magic, magic_eqb.
  apply unframe_frame_sections; [exact H|]. rewrite app_length. lia.
Qed.

Lemma read_back_inj {A B} (f : A -> B) (g : B -> option A) a b :
  g (f a) = Some a -> g (f b) = Some b -> f a = f b -> a = b.
Proof. intros Ha Hb E. rewrite E, Hb in Ha. injection Ha as ->. reflexivity. Qed.

Theorem frame_module_inj : forall a b, Forall small_sec a -> Forall small_sec b ->
  frame_module a = frame_module b -> a = b.
Proof.
  intros a b Ha Hb. apply (read_back_inj frame_module unframe_module); apply unframe_frame_module; assumption.
Qed.

Theorem frame_module_iff : forall a b, Forall small_sec a -> Forall small_sec b ->
  (frame_module a = frame_module b <-> a = b).
Proof. intros a b Ha Hb. split; [apply frame_module_inj; assumption | intros ->; reflexivity]. Qed.

Theorem frame_sections_inj : forall a b, Forall small_sec a -> Forall small_sec b ->
  flat_map frame_section a = flat_map frame_section b -> a = b.
Proof.
  intros a b Ha Hb E. apply frame_module_inj; try assumption.
  unfold frame_module. rewrite E. reflexivity.
Qed.

Theorem split_custom_any : forall lb name data,
  dec_u (lb ++ name ++ data) = Some (lenN name, name ++ data) ->
  split_custom (lb ++ name ++ data) = Some (name, data).
Proof.
  intros lb name data H. unfold split_custom. rewrite H.
  rewrite lenN_ltb_app, takeN_lenN_app, dropN_lenN_app. reflexivity.
Qed.

Theorem split_custom_payload : forall name data, lenN name < 2 ^ 126 ->
  split_custom (custom_payload name data) = Some (name, data).
Proof.
  intros name data H. unfold custom_payload. apply split_custom_any.
  apply dec_enc_u. exact H.
Qed.

(* a padded (non-minimal) length field: [130; 0] = 2 *)
Example split_custom_padded :
  split_custom ([130; 0] ++ [104; 105] ++ [1; 2; 3]) = Some ([104; 105], [1; 2; 3]).
Proof. vm_compute. reflexivity. Qed.

Example split_custom_padded_any :
  dec_u ([130; 0] ++ [104; 105] ++ [1; 2; 3]) = Some (lenN [104; 105], [104; 105] ++ [1; 2; 3]).
Proof. vm_compute. reflexivity. Qed.

(* the padded and the minimal payload are different bytes with the same reading *)
Example split_custom_padded_same :
  split_custom ([130; 0] ++ [104; 105] ++ [1; 2; 3]) = split_custom (custom_payload [104; 105] [1; 2; 3])
  /\ [130; 0] ++ [104; 105] ++ [1; 2; 3] <> custom_payload [104; 105] [1; 2; 3].
Proof. split; [vm_compute; reflexivity | vm_compute; discriminate]. Qed.

Lemma enc_u_one_byte n : n < 128 -> enc_u n = [n].
Proof.
  intros H. apply N.ltb_lt in H. unfold enc_u. cbn [enc_u_fuel]. rewrite H. reflexivity.
Qed.

Theorem one_byte_len_ok : forall name data, lenN name < 128 ->
  skipn (1 + length name) (custom_payload name data) = data.
Proof.
  intros name data H. unfold custom_payload. rewrite (enc_u_one_byte _ H).
  cbn [app Nat.add skipn]. apply skipn_length_app.
Qed.

Theorem naive_split_refuted : exists name data,
  skipn (1 + length name) (custom_payload name data) <> data.
Proof. exists (repeat 65 128%nat), [7]. vm_compute. discriminate. Qed.

(* what the naive extraction yields in general: it is off by (length of the size field - 1) bytes *)
Theorem naive_split_general : forall name data,
  skipn (length (enc_u (lenN name)) + length name) (custom_payload name data) = data.
Proof.
  intros name data. unfold custom_payload.
  rewrite app_assoc, <- app_length. apply skipn_length_app.
Qed.

Lemma unframe_frame_entries : forall bodies tl, Forall small bodies ->
  unframe_entries (length bodies) (flat_map frame_entry bodies ++ tl) = Some (bodies, tl).
Proof.
  intros bodies tl H. induction H as [|b r Hb Hr IH]; [reflexivity|].
  cbn [length flat_map unframe_entries]. unfold frame_entry at 1.
  rewrite <- !app_assoc. rewrite (dec_enc_u _ _ Hb).
  rewrite lenN_ltb_app, dropN_lenN_app, takeN_lenN_app, IH. reflexivity.
Qed.

Theorem split_code_payload : forall bodies, Forall small bodies -> lenN bodies < 2 ^ 126 ->
  split_code (code_payload bodies) = Some bodies.
Proof.
  intros bodies H Hn. unfold split_code, code_payload.
  rewrite (dec_enc_u _ _ Hn). unfold lenN at 1. rewrite Nat2N.id.
  rewrite <- (app_nil_r (flat_map frame_entry bodies)).
  rewrite (unframe_frame_entries bodies [] H). reflexivity.
Qed.

Theorem code_payload_inj : forall a b, Forall small a -> Forall small b ->
  lenN a < 2 ^ 126 -> lenN b < 2 ^ 126 -> code_payload a = code_payload b -> a = b.
Proof.
  intros a b Ha Hb Na Nb. apply (read_back_inj code_payload split_code); apply split_code_payload; assumption.
Qed.

Lemma entry_starts_length : forall bodies cur, length (entry_starts cur bodies) = length bodies.
Proof. induction bodies as [|b r IH]; intros cur; [reflexivity|]. cbn [entry_starts length]. rewrite IH. reflexivity. Qed.

Lemma entry_starts_first : forall bodies cur s t,
  nth_error (entry_starts cur bodies) 0 = Some (s, t) -> s = cur.
Proof. intros [|b r] cur s t H; [discriminate|]. cbn [entry_starts nth_error] in H. inversion H. reflexivity. Qed.

Lemma entry_starts_next : forall bodies cur k s t b s' t',
  nth_error (entry_starts cur bodies) k = Some (s, t) -> nth_error bodies k = Some b ->
  nth_error (entry_starts cur bodies) (S k) = Some (s', t') ->
  s' = t + lenN b.
Proof.
  induction bodies as [|b0 r IH]; intros cur k s t b s' t' Hs Hb Hn; [destruct k; discriminate|].
  destruct k as [|k]; cbn [nth_error entry_starts] in Hs, Hb, Hn.
  - inversion Hs; inversion Hb; subst. apply entry_starts_first in Hn. exact Hn.
  - eapply IH; eassumption.
Qed.

Lemma entry_starts_app : forall a cur b,
  entry_starts cur (a ++ b) = entry_starts cur a ++ entry_starts (cur + lenN (flat_map frame_entry a)) b.
Proof.
  induction a as [|x a IH]; intros cur b; cbn [app entry_starts flat_map].
  - rewrite N.add_0_r. reflexivity.
  - rewrite IH. unfold frame_entry at 2. rewrite !lenN_app, !N.add_assoc. reflexivity.
Qed.

(* the k-th entry: the framed entries before it lie between cur and its size field, its body follows the size field *)
Lemma entry_starts_nth bodies cur k s t b :
  nth_error (entry_starts cur bodies) k = Some (s, t) -> nth_error bodies k = Some b ->
  exists pre post, bodies = pre ++ b :: post /\ length pre = k /\
    s = cur + lenN (flat_map frame_entry pre) /\ t = s + lenN (enc_u (lenN b)).
Proof.
  intros Hs Hb. destruct (nth_error_split _ _ Hb) as (pre & post & -> & <-). exists pre, post.
  rewrite entry_starts_app, nth_error_app2, entry_starts_length, Nat.sub_diag in Hs
    by (rewrite entry_starts_length; reflexivity).
  cbn [entry_starts nth_error] in Hs. injection Hs as <- <-. repeat split; reflexivity.
Qed.

Lemma entry_field_at : forall bodies pre tl k s t b,
  nth_error (entry_starts (lenN pre) bodies) k = Some (s, t) -> nth_error bodies k = Some b ->
  exists rest, dropN s (pre ++ flat_map frame_entry bodies ++ tl) = enc_u (lenN b) ++ b ++ rest.
Proof.
  intros bodies pre tl k s t b Hs Hb.
  destruct (entry_starts_nth _ _ _ _ _ _ Hs Hb) as (p & q & -> & _ & -> & _).
  exists (flat_map frame_entry q ++ tl). rewrite <- lenN_app, flat_map_app, <- app_assoc, app_assoc.
  rewrite dropN_lenN_app. cbn [flat_map]. unfold frame_entry at 1. rewrite <- !app_assoc. reflexivity.
Qed.

Lemma entry_body_at : forall bodies pre tl k s t b,
  nth_error (entry_starts (lenN pre) bodies) k = Some (s, t) -> nth_error bodies k = Some b ->
  takeN (lenN b) (dropN t (pre ++ flat_map frame_entry bodies ++ tl)) = b.
Proof.
  intros bodies pre tl k s t b Hs Hb. destruct (entry_field_at _ pre tl _ _ _ _ Hs Hb) as [rest E].
  destruct (entry_starts_nth _ _ _ _ _ _ Hs Hb) as (_ & _ & _ & _ & _ & ->).
  rewrite dropN_add, E, dropN_lenN_app. apply takeN_lenN_app.
Qed.

Theorem code_entry_body : forall bodies k s t b,
  nth_error (code_entry_offsets bodies) k = Some (s, t) -> nth_error bodies k = Some b ->
  takeN (lenN b) (dropN t (code_payload bodies)) = b.
Proof.
  intros bodies k s t b Hs Hb. unfold code_entry_offsets in Hs. unfold code_payload.
  pose proof (entry_body_at bodies (enc_u (lenN bodies)) [] k s t b Hs Hb) as E.
  rewrite app_nil_r in E. exact E.
Qed.

Theorem code_entry_field_dec : forall bodies k s t b, small b ->
  nth_error (code_entry_offsets bodies) k = Some (s, t) -> nth_error bodies k = Some b ->
  exists rest, dec_u (dropN s (code_payload bodies)) = Some (lenN b, b ++ rest).
Proof.
  intros bodies k s t b Hsm Hs Hb.
  destruct (entry_field_at bodies (enc_u (lenN bodies)) [] k s t b Hs Hb) as [rest E].
  rewrite app_nil_r in E. exists rest. unfold code_payload. rewrite E. apply dec_enc_u. exact Hsm.
Qed.

Theorem code_entry_t : forall bodies k s t b, lenN b < 2 ^ 64 ->
  nth_error (code_entry_offsets bodies) k = Some (s, t) -> nth_error bodies k = Some b ->
  t = s + leb_len (lenN b).
Proof.
  intros bodies k s t b H64 Hs Hb.
  destruct (entry_starts_nth _ _ _ _ _ _ Hs Hb) as (_ & _ & _ & _ & _ & ->).
  rewrite (lenN_enc_u _ H64). reflexivity.
Qed.

Theorem code_entry_next : forall bodies k s t b s' t',
  nth_error (code_entry_offsets bodies) k = Some (s, t) -> nth_error bodies k = Some b ->
  nth_error (code_entry_offsets bodies) (S k) = Some (s', t') ->
  s' = t + lenN b.
Proof. intros bodies k s t b s' t'. unfold code_entry_offsets. apply entry_starts_next. Qed.

Theorem code_entry_first : forall bodies s t, lenN bodies < 2 ^ 64 ->
  nth_error (code_entry_offsets bodies) 0 = Some (s, t) -> s = leb_len (lenN bodies).
Proof.
  intros bodies s t H64 H. unfold code_entry_offsets in H. apply entry_starts_first in H.
  rewrite H. apply lenN_enc_u. exact H64.
Qed.

Theorem code_entry_offsets_length : forall bodies, length (code_entry_offsets bodies) = length bodies.
Proof. intros. apply entry_starts_length. Qed.

Theorem code_entry_last : forall bodies k s t b, S k = length bodies ->
  nth_error (code_entry_offsets bodies) k = Some (s, t) -> nth_error bodies k = Some b ->
  t + lenN b = lenN (code_payload bodies).
Proof.
  intros bodies k s t b Hk Hs Hb. unfold code_payload.
  destruct (entry_starts_nth _ _ _ _ _ _ Hs Hb) as (p & q & -> & <- & -> & ->).
  rewrite app_length in Hk. destruct q; [|cbn [length] in Hk; lia].
  rewrite flat_map_app. cbn [flat_map]. change (frame_entry b) with (enc_u (lenN b) ++ b).
  rewrite app_nil_r, !lenN_app. lia.
Qed.

(* link with Model/CodeMap.v: ranges_from uses exactly this layout (start = start of the size field,
   end = start of the next entry = body start + body length) *)
Definition entry_ranges (cur : N) (bodies : list (list N)) : list (N * N) :=
  map (fun p => (fst (snd p), snd (snd p) + lenN (fst p))) (combine bodies (entry_starts cur bodies)).

Theorem entry_starts_ranges : forall bodies ids cur, Forall (fun b => lenN b < 2 ^ 64) bodies ->
  ranges_from cur (combine ids (map lenN bodies)) = combine ids (entry_ranges cur bodies).
Proof.
  induction bodies as [|b r IH]; intros ids cur H.
  - destruct ids; reflexivity.
  - inversion H as [|b' r' Hb Hr]; subst. destruct ids as [|i ids]; [reflexivity|].
    unfold entry_ranges. cbn [map combine ranges_from entry_starts fst snd].
    rewrite (lenN_enc_u _ Hb).
    f_equal. apply IH. exact Hr.
Qed.

Corollary entry_starts_ranges_starts : forall bodies ids cur, Forall (fun b => lenN b < 2 ^ 64) bodies ->
  length ids = length bodies ->
  map (fun x => fst (snd x)) (ranges_from cur (combine ids (map lenN bodies))) = map fst (entry_starts cur bodies).
Proof.
  induction bodies as [|b r IH]; intros ids cur H Hl.
  - destruct ids; reflexivity.
  - inversion H as [|b' r' Hb Hr]; subst. destruct ids as [|i ids]; [discriminate|].
    cbn [map combine ranges_from entry_starts fst snd].
    f_equal. cbn [length] in Hl. injection Hl as Hl.
    rewrite <- (IH ids _ Hr Hl). rewrite (lenN_enc_u _ Hb). reflexivity.
Qed.

(* the code-relative origin: the first entry starts leb_len(count) after the start of the section contents *)
Theorem code_section_start_link : forall base bodies, lenN bodies < 2 ^ 64 ->
  forall s t, nth_error (entry_starts (base + lenN (enc_u (lenN bodies))) bodies) 0 = Some (s, t) ->
  ct_code_section_start s (lenN bodies) = base.
Proof.
  intros base bodies H64 s t H. apply entry_starts_first in H. subst s.
  unfold ct_code_section_start. rewrite (lenN_enc_u _ H64). lia.
Qed.

Example ex_module :
  let secs := [(1, [1; 96; 0; 0]); (0, custom_payload [104; 105] [9; 9]); (10, code_payload [[0; 11]])] in
  unframe_module (frame_module secs) = Some secs
  /\ frame_module secs =
     [0; 97; 115; 109; 1; 0; 0; 0;  1; 4; 1; 96; 0; 0;  0; 5; 2; 104; 105; 9; 9;  10; 4; 1; 2; 0; 11].
Proof. vm_compute. split; reflexivity. Qed.

Example ex_code :
  let bodies := [[0; 11]; [1; 1; 127; 65; 0; 26; 11]] in
  code_payload bodies = [2; 2; 0; 11; 7; 1; 1; 127; 65; 0; 26; 11]
  /\ split_code (code_payload bodies) = Some bodies
  /\ code_entry_offsets bodies = [(1, 2); (4, 5)].
Proof. vm_compute. repeat split; reflexivity. Qed.

(* a body of 128 bytes has a two-byte size field *)
Example ex_offsets_long :
  code_entry_offsets [repeat 0 128%nat; [11]] = [(1, 3); (131, 132)].
Proof. vm_compute. reflexivity. Qed.

Example ex_truncated : unframe_module (firstn 12 (frame_module [(1, [1; 96; 0; 0])])) = None.
Proof. vm_compute. reflexivity. Qed.

Print Assumptions unframe_frame_sections.
Print Assumptions unframe_frame_module.
Print Assumptions frame_module_inj.
Print Assumptions frame_module_iff.
Print Assumptions split_custom_payload.
Print Assumptions split_custom_any.
Print Assumptions one_byte_len_ok.
Print Assumptions naive_split_refuted.
Print Assumptions naive_split_general.
Print Assumptions split_code_payload.
Print Assumptions code_payload_inj.
Print Assumptions code_entry_body.
Print Assumptions code_entry_field_dec.
Print Assumptions code_entry_t.
Print Assumptions code_entry_next.
Print Assumptions code_entry_first.
Print Assumptions code_entry_last.
Print Assumptions entry_starts_ranges.
Print Assumptions entry_starts_ranges_starts.
Print Assumptions code_section_start_link.
Print Assumptions ex_module.
Print Assumptions ex_code.
