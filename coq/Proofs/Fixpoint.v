(* C08, body half of the round-trip fixpoint: a function body that is already in normal form is
   reproduced exactly by parse-then-emit.  A normal form ([is_nf]) is a fixed point of [nf_rt]; an
   operator or block type whose indices the emit-time maps send back is fixed by [nf_op] / [nf_bt];
   the flat output of a normal form is its flattening with each instruction renamed ([flat'_renw]). *)
From Coq Require Import List NArith Bool Lia. Import ListNotations.
From WV Require Import Gen.Ops Model.Common Model.IR Model.ParseFn Model.ParseSpec Model.EmitFn
  Model.BodySpec Model.Sem.
From WV Require Import Proofs.ParseFn Proofs.Codec Proofs.Body Proofs.Sem Proofs.Escalation.
Local Open Scope nat_scope.

(* the trees after which [nf_rt] cuts the sequence *)
Definition terminal (t : rt) : bool :=
  match t with
  | RBr _ _ | RBrTable _ _ _ => true
  | RPlain o _ => marks_unreachable o
  | _ => false
  end.

(* no nop; nothing follows a terminal tree within a sequence; every `if` has an `else` *)
Fixpoint is_nf_t (t : rt) {struct t} : Prop :=
  let nfl := fix nfl (l : list rt) {struct l} : Prop :=
      match l with
      | [] => True
      | x :: l' => is_nf_t x /\ (terminal x = true -> l' = []) /\ nfl l'
      end in
  match t with
  | RNop _ => False
  | RBlock _ b _ _ | RLoop _ b _ _ => nfl b
  | RIf _ th (Some (_, el)) _ _ => nfl th /\ nfl el
  | RIf _ _ None _ _ => False
  | _ => True
  end.
Fixpoint is_nf (l : list rt) : Prop :=
  match l with
  | [] => True
  | x :: l' => is_nf_t x /\ (terminal x = true -> l' = []) /\ is_nf l'
  end.

Definition is_nf_inner :=
  fix nfl (l : list rt) {struct l} : Prop :=
    match l with
    | [] => True
    | x :: l' => is_nf_t x /\ (terminal x = true -> l' = []) /\ nfl l'
    end.
Lemma is_nf_inner_eq l : is_nf_inner l = is_nf l.
Proof. induction l as [|t l IH]; [reflexivity|]. cbn [is_nf_inner is_nf]. fold is_nf_inner. now rewrite IH. Qed.

Lemma is_nf_block bt b l e : is_nf_t (RBlock bt b l e) = is_nf b.
Proof. rewrite <- is_nf_inner_eq. reflexivity. Qed.
Lemma is_nf_loop bt b l e : is_nf_t (RLoop bt b l e) = is_nf b.
Proof. rewrite <- is_nf_inner_eq. reflexivity. Qed.
Lemma is_nf_if_some bt th le el l e : is_nf_t (RIf bt th (Some (le, el)) l e) = (is_nf th /\ is_nf el).
Proof. rewrite <- !is_nf_inner_eq. reflexivity. Qed.
Lemma is_nf_if_none bt th l e : is_nf_t (RIf bt th None l e) = False.
Proof. reflexivity. Qed.

(* the characterisation in the words of the task *)
Lemma is_nf_no_nop l loc : is_nf l -> ~ In (RNop loc) l.
Proof.
  induction l as [|t l IH]; intros H HI; [exact HI|].
  destruct H as (Ht & _ & Hl). destruct HI as [->|HI]; [exact Ht|exact (IH Hl HI)].
Qed.
Lemma is_nf_nothing_after_terminal a t b : is_nf (a ++ t :: b) -> terminal t = true -> b = [].
Proof.
  induction a as [|x a IH]; cbn [app]; intros (Hx & Hc & Hl) Ht; [exact (Hc Ht)|exact (IH Hl Ht)].
Qed.
Lemma is_nf_if_has_else l bt th el lo e : is_nf l -> In (RIf bt th el lo e) l -> el <> None.
Proof.
  induction l as [|t l IH]; intros H HI; [elim HI|].
  destruct H as (Ht & _ & Hl). destruct HI as [->|HI]; [|exact (IH Hl HI)].
  destruct el as [[le eb]|]; [discriminate|elim Ht].
Qed.

Definition Nt (t : rt) : Prop :=
  nf_rt false t = ([], false) \/ exists t', nf_rt false t = ([t'], terminal t') /\ is_nf_t t'.
Definition Nl (l : list rt) : Prop := forall u, is_nf (fst (nf_rt_list u l)).

Lemma nf_rt_nf_both : (forall t, Nt t) /\ (forall l, Nl l).
Proof.
  apply rt_list_ind.
  - intros u. exact I.
  - intros t l Ht IH u. destruct u; [rewrite nf_rt_list_dead; exact I|].
    rewrite nf_rt_list_cons. cbn [fst]. destruct Ht as [E|(t' & E & Hn)]; rewrite E; cbn [fst snd app].
    + apply IH.
    + split; [exact Hn|]. split; [|apply IH].
      intros Ht. rewrite Ht, nf_rt_list_dead. reflexivity.
  - intros o l. right. exists (RPlain o l). split; [reflexivity|exact I].
  - intros l. left. reflexivity.
  - intros d l. right. exists (RBr d l). split; [reflexivity|exact I].
  - intros d l. right. exists (RBrIf d l). split; [reflexivity|exact I].
  - intros ds d l. right. exists (RBrTable ds d l). split; [reflexivity|exact I].
  - intros bt body l e HF. right. rewrite nf_rt_block. exists (RBlock bt (fst (nf_rt_list false body)) l e).
    split; [reflexivity|]. rewrite is_nf_block. apply HF.
  - intros bt body l e HF. right. rewrite nf_rt_loop. exists (RLoop bt (fst (nf_rt_list false body)) l e).
    split; [reflexivity|]. rewrite is_nf_loop. apply HF.
  - intros bt th l e HFt. right. rewrite nf_rt_if_none.
    exists (RIf bt (fst (nf_rt_list false th)) (Some (default_loc, [])) l e).
    split; [reflexivity|]. rewrite is_nf_if_some. split; [apply HFt|exact I].
  - intros bt th le eb l e HFt HFe. right. rewrite nf_rt_if_some.
    exists (RIf bt (fst (nf_rt_list false th)) (Some (le, fst (nf_rt_list false eb))) l e).
    split; [reflexivity|]. rewrite is_nf_if_some. split; [apply HFt|apply HFe].
Qed.

Theorem nf_rt_is_nf : forall u l, is_nf (fst (nf_rt_list u l)).
Proof. intros u l. apply (proj2 nf_rt_nf_both). Qed.

Definition Xt (t : rt) : Prop := is_nf_t t -> nf_rt false t = ([t], terminal t).
Definition Xl (l : list rt) : Prop := is_nf l -> nf_rt_list false l = (l, existsb terminal l).

Lemma nf_rt_fixed_both : (forall t, Xt t) /\ (forall l, Xl l).
Proof.
  apply rt_list_ind.
  - intros _. reflexivity.
  - intros t l Ht IH (Hnt & Hc & Hnl). rewrite nf_rt_list_cons, (Ht Hnt). cbn [fst snd app existsb].
    destruct (terminal t) eqn:E.
    + rewrite (Hc eq_refl). reflexivity.
    + rewrite (IH Hnl). reflexivity.
  - intros o l _. reflexivity.
  - intros l [].
  - intros d l _. reflexivity.
  - intros d l _. reflexivity.
  - intros ds d l _. reflexivity.
  - intros bt body l e HF Hn. rewrite is_nf_block in Hn. rewrite nf_rt_block, (HF Hn). reflexivity.
  - intros bt body l e HF Hn. rewrite is_nf_loop in Hn. rewrite nf_rt_loop, (HF Hn). reflexivity.
  - intros bt th l e _ [].
  - intros bt th le eb l e HFt HFe Hn. rewrite is_nf_if_some in Hn. destruct Hn as [H1 H2].
    rewrite nf_rt_if_some, (HFt H1), (HFe H2). reflexivity.
Qed.

Theorem nf_rt_fixed_full : forall l, is_nf l -> nf_rt_list false l = (l, existsb terminal l).
Proof. exact (proj2 nf_rt_fixed_both). Qed.

Theorem nf_rt_fixed : forall l, is_nf l -> fst (nf_rt_list false l) = l.
Proof. intros l H. now rewrite nf_rt_fixed_full. Qed.

(* conversely a fixed point is a normal form: [is_nf] is EXACTLY the set of fixed points *)
Theorem nf_rt_normal : forall l, is_nf l <-> fst (nf_rt_list false l) = l.
Proof.
  intros l. split; [apply nf_rt_fixed|].
  intros H. rewrite <- H. apply nf_rt_is_nf.
Qed.

(* the flag of a sequence is "a terminal tree was kept" *)
Lemma nf_rt_flag l : forall u, snd (nf_rt_list u l) = u || existsb terminal (fst (nf_rt_list u l)).
Proof.
  induction l as [|t l IH]; intros u; [cbn; now rewrite orb_false_r|].
  destruct u; [now rewrite nf_rt_list_dead|].
  rewrite nf_rt_list_cons. cbn [fst snd orb].
  destruct (proj1 nf_rt_nf_both t) as [E|(t' & E & _)]; rewrite E; cbn [fst snd app existsb].
  - apply IH.
  - rewrite IH. reflexivity.
Qed.

Theorem nf_rt_idem : forall l,
  fst (nf_rt_list false (fst (nf_rt_list false l))) = fst (nf_rt_list false l).
Proof. intros l. apply nf_rt_fixed, nf_rt_is_nf. Qed.

Theorem nf_rt_idem_flag : forall l,
  snd (nf_rt_list false (fst (nf_rt_list false l))) = snd (nf_rt_list false l).
Proof.
  intros l. rewrite (nf_rt_fixed_full _ (nf_rt_is_nf false l)). cbn [snd].
  rewrite (nf_rt_flag l false). reflexivity.
Qed.

Corollary nf_rt_idem_pair : forall l,
  nf_rt_list false (fst (nf_rt_list false l)) = nf_rt_list false l.
Proof.
  intros l. rewrite (surjective_pairing (nf_rt_list false (fst (nf_rt_list false l)))).
  rewrite nf_rt_idem, nf_rt_idem_flag. symmetry. apply surjective_pairing.
Qed.

(* the flag part fails for a dead start: nothing is kept, so the second pass is live *)
Lemma nf_rt_idem_flag_dead_refuted :
  exists l, snd (nf_rt_list false (fst (nf_rt_list true l))) <> snd (nf_rt_list true l).
Proof. exists []. cbn. discriminate. Qed.

(* a renaming that fixes the indices an operator mentions fixes the operator *)
Lemma map_memarg_fixed g m : g S_memory (wa_memory m) = wa_memory m -> map_memarg g m = m.
Proof. intros H. destruct m. unfold map_memarg. cbn in *. now rewrite H. Qed.
Lemma map_idx_fix g o : (forall s i, In (s, i) (wop_refs o) -> g s i = i) -> map_idx g o = o.
Proof.
  destruct o; intros H; try reflexivity; cbn [wop_refs map_idx] in *;
    f_equal; try apply map_memarg_fixed; apply H; cbn [In]; auto.
Qed.

Lemma map_idx_id o : map_idx (fun _ i => i) o = o.
Proof. apply map_idx_fix. reflexivity. Qed.

(* pointwise: the operator's own index immediates are fixed by emit-after-parse *)
Theorem nf_op_fixed_at : forall cx ecx o, imm_ok o -> ~ known_big_offset o ->
  map_idx (fun s i => ex_id2i ecx s (px_i2id cx s i)) o = o -> nf_op cx ecx o = WOp o.
Proof.
  intros cx ecx o Hi Hb Hm.
  rewrite (nf_op_codec (px_i2id cx) (ex_id2i ecx) (fun s i => ex_id2i ecx s (px_i2id cx s i))
             (fun _ _ => eq_refl) cx ecx o eq_refl eq_refl Hi Hb).
  now rewrite Hm.
Qed.
(* ... and only then *)
Theorem nf_op_fixed_at_iff : forall cx ecx o, imm_ok o -> ~ known_big_offset o ->
  (nf_op cx ecx o = WOp o <-> map_idx (fun s i => ex_id2i ecx s (px_i2id cx s i)) o = o).
Proof.
  intros cx ecx o Hi Hb. split; [|apply nf_op_fixed_at; assumption].
  rewrite (nf_op_codec (px_i2id cx) (ex_id2i ecx) (fun s i => ex_id2i ecx s (px_i2id cx s i))
             (fun _ _ => eq_refl) cx ecx o eq_refl eq_refl Hi Hb).
  intros H. now injection H.
Qed.

(* the emit-time map undoes the parse-time map *)
Definition maps_id (cx : pctx) (ecx : ectx) : Prop := forall s i, ex_id2i ecx s (px_i2id cx s i) = i.

Theorem nf_op_fixed : forall cx ecx o, maps_id cx ecx -> imm_ok o -> ~ known_big_offset o ->
  nf_op cx ecx o = WOp o.
Proof.
  intros cx ecx o Hid Hi Hb.
  rewrite (nf_op_codec (px_i2id cx) (ex_id2i ecx) (fun _ i => i) Hid cx ecx o eq_refl eq_refl Hi Hb).
  now rewrite map_idx_id.
Qed.

(* the excluded class (memarg offset >= 2^32) is NOT a fixed point, even under identity maps *)
Lemma nf_op_fixed_refuted :
  exists cx ecx o, maps_id cx ecx /\ imm_ok o /\ nf_op cx ecx o <> WOp o.
Proof.
  exists {| px_i2id := fun _ i => i; px_types := [] |}, {| ex_id2i := fun _ i => i; ex_ilen := fun _ => 1%N |},
         (W_I32Load {| wa_align := 2; wa_offset := 2^32 + 1; wa_memory := 0 |}).
  split; [intros s i; reflexivity|]. split; [split; [vm_compute; reflexivity|exact I]|].
  vm_compute. discriminate.
Qed.

(* the output operator is in the class of the round trip again, with the "ends the sequence" class of the input *)
Lemma nf_op_image cx ecx o w : decode_plain (px_i2id cx) o <> None -> nf_op cx ecx o = WOp w -> codec_img o w.
Proof.
  intros Hd E. unfold nf_op, dec in E.
  destruct (decode_plain (px_i2id cx) o) as [p|] eqn:Ed; [|now elim Hd].
  destruct (encode_plain (ex_id2i ecx) p) eqn:Ee; [|discriminate E]. injection E as <-.
  exact (codec_image _ _ _ _ _ Ed Ee).
Qed.

(* inline block types are always fixed ([nf_bt_empty], [nf_bt_val]); a type-index block type is
   fixed exactly when the parse-time type table sends it to a Multi sequence type whose emit-time
   index is the index we started from *)
Theorem nf_bt_fixed_func : forall cx ecx i ps rs b ty,
  nth_N (px_types cx) (px_i2id cx S_type i) = Some (ps, rs, b) ->
  existing cx ps rs = Some (ST_Multi ty) -> ex_id2i ecx S_type ty = i ->
  nf_bt cx ecx (BT_Func i) = BT_Func i.
Proof.
  intros cx ecx i ps rs b ty Hn He Hi. unfold nf_bt, bt_seqty. cbn [bt_tys]. rewrite Hn, He.
  cbn [block_type]. now rewrite Hi.
Qed.

Theorem nf_bt_fixed_func_iff : forall cx ecx i,
  nf_bt cx ecx (BT_Func i) = BT_Func i <->
  exists ps rs b ty, nth_N (px_types cx) (px_i2id cx S_type i) = Some (ps, rs, b) /\
                     existing cx ps rs = Some (ST_Multi ty) /\ ex_id2i ecx S_type ty = i.
Proof.
  intros cx ecx i. split.
  - unfold nf_bt, bt_seqty. cbn [bt_tys].
    destruct (nth_N (px_types cx) (px_i2id cx S_type i)) as [[[ps rs] b]|]; [|discriminate].
    destruct (existing cx ps rs) as [[[t|]|ty]|] eqn:Ee; cbn [block_type]; try discriminate.
    intros H. exists ps, rs, b, ty. split; [reflexivity|]. split; [exact Ee|]. now injection H.
  - intros (ps & rs & b & ty & Hn & He & Hi). eapply nf_bt_fixed_func; eassumption.
Qed.

(* [existing] answers Multi exactly for the shapes that have no inline form *)
Lemma existing_multi cx ps rs ty :
  existing cx ps rs = Some (ST_Multi ty) <->
  find_type cx ps rs = Some ty /\ (ps <> [] \/ (2 <= length rs)).
Proof.
  unfold existing. destruct ps as [|p ps].
  - destruct rs as [|r [|r' rs]].
    + split; [discriminate|]. intros [_ [H|H]]; [now elim H|cbn in H; lia].
    + split; [discriminate|]. intros [_ [H|H]]; [now elim H|cbn in H; lia].
    + destruct (find_type cx [] (r :: r' :: rs)) as [k|]; cbn [option_map].
      * split; [intros H; injection H as ->; split; [reflexivity|right; cbn; lia]|].
        intros [H _]. injection H as ->. reflexivity.
      * split; [discriminate|]. intros [H _]. discriminate H.
  - destruct (find_type cx (p :: ps) rs) as [k|]; cbn [option_map].
    + split; [intros H; injection H as ->; split; [reflexivity|left; discriminate]|].
      intros [H _]. injection H as ->. reflexivity.
    + split; [discriminate|]. intros [H _]. discriminate H.
Qed.

(* idempotence across two round trips: (cx, ecx) are the maps of the first parse / emit and
   (cx', ecx') those of the second.  The only premise concerns Multi sequence types: the index
   the first emit wrote must, in the second parse's type table, again resolve to a Multi type
   that the second emit writes at the same index. *)
Definition bt_stable (cx : pctx) (ecx : ectx) (cx' : pctx) (ecx' : ectx) (bt : blockty) : Prop :=
  forall ty, bt_seqty cx bt = ST_Multi ty ->
  exists ty', bt_seqty cx' (BT_Func (ex_id2i ecx S_type ty)) = ST_Multi ty' /\
              ex_id2i ecx' S_type ty' = ex_id2i ecx S_type ty.

Theorem nf_bt_idem : forall cx ecx cx' ecx' bt, bt_stable cx ecx cx' ecx' bt ->
  nf_bt cx' ecx' (nf_bt cx ecx bt) = nf_bt cx ecx bt.
Proof.
  intros cx ecx cx' ecx' bt H. unfold nf_bt at 2 3. unfold bt_stable in H.
  destruct (bt_seqty cx bt) as [[t|]|ty]; cbn [block_type].
  - apply nf_bt_val.
  - apply nf_bt_empty.
  - destruct (H ty eq_refl) as (ty' & H1 & H2). unfold nf_bt. rewrite H1. cbn [block_type]. now rewrite H2.
Qed.
(* the premise is exactly what is needed *)
Theorem nf_bt_idem_iff : forall cx ecx cx' ecx' bt,
  nf_bt cx' ecx' (nf_bt cx ecx bt) = nf_bt cx ecx bt <-> bt_stable cx ecx cx' ecx' bt.
Proof.
  intros cx ecx cx' ecx' bt. split; [|apply nf_bt_idem].
  intros H ty Hty. unfold nf_bt at 2 3 in H. rewrite Hty in H. cbn [block_type] in H.
  unfold nf_bt in H. destruct (bt_seqty cx' (BT_Func (ex_id2i ecx S_type ty))) as [[t|]|ty'];
    cbn [block_type] in H; try discriminate H.
  exists ty'. split; [reflexivity|]. now injection H.
Qed.
(* without it the second pass may change the block type: e.g. the second type table lacks the type *)
Lemma nf_bt_idem_refuted :
  exists cx ecx cx' ecx' bt, nf_bt cx' ecx' (nf_bt cx ecx bt) <> nf_bt cx ecx bt.
Proof.
  exists {| px_i2id := fun _ i => i; px_types := [([VT_I32], [], false)] |},
         {| ex_id2i := fun _ i => i; ex_ilen := fun _ => 1%N |},
         {| px_i2id := fun _ i => i; px_types := [] |},
         {| ex_id2i := fun _ i => i; ex_ilen := fun _ => 1%N |}, (BT_Func 0).
  vm_compute. discriminate.
Qed.

Section BodyFix.
  Variable cx : pctx.
  Variable ecx : ectx.

  (* an instruction of the stream that the renaming leaves alone *)
  Definition ins_fixed (w : wins) : Prop :=
    match w with
    | WOp o => nf_op cx ecx o = WOp o
    | WBlock bt | WLoop bt | WIf bt => nf_bt cx ecx bt = bt
    | _ => True
    end.
  Definition insf (p : wins * N) : Prop := ins_fixed (fst p).

  Definition renp (p : wins * N) : wins * N := (renw cx ecx (fst p), snd p).

  Lemma ins_fixed_renw w : ins_fixed w -> renw cx ecx w = w.
  Proof. destruct w; cbn [ins_fixed renw]; intros H; rewrite ?H; reflexivity. Qed.

  Definition Pf (t : rt) : Prop := is_nf_t t -> flat' cx ecx t = map renp (flat t).
  Definition Pfl (l : list rt) : Prop := is_nf l -> flat_list' cx ecx l = map renp (flat_list l).

  Lemma flat'_renw_both : (forall t, Pf t) /\ (forall l, Pfl l).
  Proof.
    apply rt_list_ind.
    - intros _. reflexivity.
    - intros t l Ht IH (Hnt & _ & Hnl).
      change (flat_list (t :: l)) with (flat t ++ flat_list l).
      change (flat_list' cx ecx (t :: l)) with (flat' cx ecx t ++ flat_list' cx ecx l).
      rewrite map_app, (Ht Hnt), (IH Hnl). reflexivity.
    - intros o l _. reflexivity.
    - intros l [].
    - intros d l _. reflexivity.
    - intros d l _. reflexivity.
    - intros ds d l _. reflexivity.
    - intros bt body l e HF Hn. rewrite is_nf_block in Hn. cbn [flat' flat].
      fold (flat_list' cx ecx body). fold (flat_list body). cbn [map]. rewrite map_app, (HF Hn). reflexivity.
    - intros bt body l e HF Hn. rewrite is_nf_loop in Hn. cbn [flat' flat].
      fold (flat_list' cx ecx body). fold (flat_list body). cbn [map]. rewrite map_app, (HF Hn). reflexivity.
    - intros bt th l e _ [].
    - intros bt th le eb l e HFt HFe Hn. rewrite is_nf_if_some in Hn. destruct Hn as [Hn1 Hn2]. cbn [flat' flat].
      fold (flat_list' cx ecx th). fold (flat_list' cx ecx eb). fold (flat_list th). fold (flat_list eb).
      cbn [map]. rewrite map_app. cbn [map]. rewrite map_app, (HFt Hn1), (HFe Hn2). reflexivity.
  Qed.

  (* the output flattening of a normal form: the same locations, each instruction renamed *)
  Theorem flat'_renw : forall l, is_nf l -> flat_list' cx ecx l = map renp (flat_list l).
  Proof. exact (proj2 flat'_renw_both). Qed.

  (* on a normal form whose instructions are fixed, the output flattening is the input flattening *)
  Theorem flat'_fixed : forall l, is_nf l -> Forall insf (flat_list l) -> flat_list' cx ecx l = flat_list l.
  Proof.
    intros l Hn Hf. rewrite (flat'_renw l Hn). rewrite <- (map_id (flat_list l)) at 2.
    apply map_ext_Forall. revert Hf. apply Forall_impl. intros [w loc] H.
    unfold renp. cbn [fst snd]. now rewrite (ins_fixed_renw w H).
  Qed.

  (* THE BODY FIXPOINT: the tagged flat normal form of a normal form is its own flattening,
     locations included *)
  Theorem body_fixpoint : forall l, is_nf l -> Forall insf (flat_list l) ->
    map (fun p => (snd p, fst p)) (fst (nf_list cx ecx false l)) = flat_list l.
  Proof.
    intros l Hn Hf. rewrite flat_nf_rt, (nf_rt_fixed _ Hn). apply flat'_fixed; assumption.
  Qed.
  Theorem body_fixpoint_flag : forall l, is_nf l -> snd (nf_list cx ecx false l) = existsb terminal l.
  Proof. intros l Hn. rewrite flag_nf_rt, (nf_rt_fixed_full _ Hn). reflexivity. Qed.

  (* with the premises of Parts 2 and 3 spelled out *)
  Definition ins_ok (w : wins) : Prop :=
    match w with
    | WOp o => imm_ok o /\ ~ known_big_offset o
    | WBlock bt | WLoop bt | WIf bt => nf_bt cx ecx bt = bt
    | _ => True
    end.
  Corollary body_fixpoint_id : forall l, maps_id cx ecx -> is_nf l ->
    Forall (fun p => ins_ok (fst p)) (flat_list l) ->
    map (fun p => (snd p, fst p)) (fst (nf_list cx ecx false l)) = flat_list l.
  Proof.
    intros l Hid Hn Hf. apply body_fixpoint; [exact Hn|].
    eapply Forall_impl; [|exact Hf]. intros [w loc]. unfold insf. cbn [fst].
    destruct w; cbn [ins_ok ins_fixed]; auto. intros [Hi Hb]. now apply nf_op_fixed.
  Qed.

  (* the second round trip of a body: whatever [l0] was, its normal form is reproduced exactly
     provided the renaming leaves its instructions alone *)
  Corollary body_fixpoint_second : forall l0,
    Forall insf (flat_list (fst (nf_rt_list false l0))) ->
    map (fun p => (snd p, fst p)) (fst (nf_list cx ecx false (fst (nf_rt_list false l0))))
    = flat_list (fst (nf_rt_list false l0)).
  Proof. intros l0. apply body_fixpoint, nf_rt_is_nf. Qed.

  (* end to end: parsing the stream of a normal form and emitting it yields the very same stream *)
  Theorem body_fixpoint_emitted : forall ety rs l eloc p0,
    wfl cx 1 l ->
    (forall o, decode_plain (px_i2id cx) o <> None -> encode_plain (ex_id2i ecx) (dec cx o) <> None) ->
    is_nf l -> Forall insf (flat_list l) ->
    exists ar st fuel,
      parse_body cx ety rs (flat_list l ++ [(WEnd, eloc)]) = Ok ar /\
      emit_body ecx fuel ar 0 p0 = Ok st /\
      out st = map fst (flat_list l ++ [(WEnd, eloc)]).
  Proof.
    intros ety rs l eloc p0 Hw Henc Hn Hf.
    destruct (roundtrip_body_sem cx ecx ety rs l eloc p0 Hw Henc) as (ar & st & fuel & Hp & He & Ho).
    exists ar, st, fuel. split; [exact Hp|]. split; [exact He|].
    rewrite Ho, (nf_rt_fixed _ Hn), (flat'_fixed _ Hn Hf), map_app. reflexivity.
  Qed.
End BodyFix.

(* when the second parse sees the same type table and its index map undoes the emit-time map on
   type ids, [nf_bt] is idempotent outright: [find_type] answers the FIRST non-entry type of the
   given shape, and looking that one up again finds itself *)
Lemma valty_eqb_congr x y : valty_eqb x y = true -> forall z, valty_eqb z x = valty_eqb z y.
Proof. unfold valty_eqb. intros H z. apply N.eqb_eq in H. now rewrite H. Qed.
Lemma vlist_eqb_congr a : forall b, vlist_eqb a b = true -> forall c, vlist_eqb c a = vlist_eqb c b.
Proof.
  induction a as [|x a IH]; intros [|y b] H c; cbn [vlist_eqb] in H; try discriminate H; [reflexivity|].
  apply andb_true_iff in H. destruct H as [H1 H2]. destruct c as [|z c]; [reflexivity|].
  cbn [vlist_eqb]. now rewrite (valty_eqb_congr _ _ H1 z), (IH _ H2 c).
Qed.
Lemma vlist_eqb_length a : forall b, vlist_eqb a b = true -> length a = length b.
Proof.
  induction a as [|x a IH]; intros [|y b] H; cbn [vlist_eqb] in H; try discriminate H; [reflexivity|].
  apply andb_true_iff in H. cbn [length]. now rewrite (IH _ (proj2 H)).
Qed.
Lemma find_type_from_congr l a b a' b' :
  (forall c, vlist_eqb c a = vlist_eqb c a') -> (forall c, vlist_eqb c b = vlist_eqb c b') ->
  forall n, find_type_from n l a b = find_type_from n l a' b'.
Proof.
  intros Ha Hb. induction l as [|[[p r] en] l IH]; intros n; [reflexivity|].
  cbn [find_type_from]. now rewrite Ha, Hb, IH.
Qed.
Lemma find_type_from_hit l ps rs k : forall n, find_type_from n l ps rs = Some k ->
  exists p r, nth_error l (N.to_nat (k - n)) = Some (p, r, false) /\ (n <= k)%N /\
              vlist_eqb p ps = true /\ vlist_eqb r rs = true.
Proof.
  induction l as [|[[p r] en] l IH]; intros n H; [discriminate H|].
  cbn [find_type_from] in H.
  destruct (negb en && vlist_eqb p ps && vlist_eqb r rs) eqn:E.
  - injection H as <-. apply andb_true_iff in E. destruct E as [E E3].
    apply andb_true_iff in E. destruct E as [E1 E2]. destruct en; [discriminate E1|].
    exists p, r. rewrite N.sub_diag. split; [reflexivity|]. split; [lia|]. split; assumption.
  - destruct (IH _ H) as (p' & r' & Hn & Hle & Hp & Hr). exists p', r'.
    replace (N.to_nat (k - n)) with (S (N.to_nat (k - (n + 1)))) by lia.
    split; [exact Hn|]. split; [lia|]. split; assumption.
Qed.

(* a type that [existing] answers is a non-entry type of the table that [existing] finds as itself *)
Lemma existing_multi_self cx ps rs ty : existing cx ps rs = Some (ST_Multi ty) ->
  exists p r, nth_N (px_types cx) ty = Some (p, r, false) /\ existing cx p r = Some (ST_Multi ty) /\
              (p <> [] \/ 2 <= length r).
Proof.
  intros Ee. apply existing_multi in Ee. destruct Ee as [Hft Hshape]. unfold find_type in Hft.
  destruct (find_type_from_hit _ _ _ _ _ Hft) as (p & r & Hn & _ & Hp & Hr). rewrite N.sub_0_r in Hn.
  pose proof (vlist_eqb_length _ _ Hp) as Lp. pose proof (vlist_eqb_length _ _ Hr) as Lr.
  assert (Hsh : p <> [] \/ 2 <= length r).
  { destruct Hshape as [Hs|Hs]; [left|right; lia]. intros ->. destruct ps; [now elim Hs|discriminate Lp]. }
  exists p, r. split; [exact Hn|]. split; [|exact Hsh]. apply existing_multi. split; [|exact Hsh].
  unfold find_type. rewrite <- Hft. apply find_type_from_congr; apply vlist_eqb_congr; assumption.
Qed.

Theorem nf_bt_idem_same : forall cx ecx bt,
  (forall ty, px_i2id cx S_type (ex_id2i ecx S_type ty) = ty) ->
  nf_bt cx ecx (nf_bt cx ecx bt) = nf_bt cx ecx bt.
Proof.
  intros cx ecx bt Hid. apply nf_bt_idem. intros ty Hty. exists ty. split; [|reflexivity].
  unfold bt_seqty in Hty. destruct (bt_tys cx bt) as [[ps rs]|]; [|discriminate Hty].
  destruct (existing cx ps rs) as [s|] eqn:Ee; [|discriminate Hty]. subst s.
  destruct (existing_multi_self _ _ _ _ Ee) as (p & r & Hn & He & _).
  unfold bt_seqty. cbn [bt_tys]. rewrite Hid, Hn, He. reflexivity.
Qed.

(* the premises are needed, and satisfiable *)
(* a body that is not a normal form is not reproduced: the nop goes *)
Lemma body_fixpoint_needs_nf :
  exists cx ecx l, Forall (insf cx ecx) (flat_list l) /\
    map (fun p => (snd p, fst p)) (fst (nf_list cx ecx false l)) <> flat_list l.
Proof.
  exists {| px_i2id := fun _ i => i; px_types := [] |}, {| ex_id2i := fun _ i => i; ex_ilen := fun _ => 1%N |},
         [RNop 7%N].
  split; [repeat constructor|]. vm_compute. discriminate.
Qed.

(* non-vacuity: the normal form of the toy program of Proofs/Sem.v, under identity maps *)
Example body_fixpoint_toy :
  let cx := {| px_i2id := fun _ i => i; px_types := [] |} in
  let ecx := {| ex_id2i := fun _ i => i; ex_ilen := fun _ => 1%N |} in
  let l := fst (nf_rt_list false Toy.prog) in
  is_nf l /\ Forall (insf cx ecx) (flat_list l) /\
  map (fun p => (snd p, fst p)) (fst (nf_list cx ecx false l)) = flat_list l.
Proof.
  intros cx ecx l. assert (Hn : is_nf l) by apply nf_rt_is_nf.
  assert (Hf : Forall (insf cx ecx) (flat_list l)).
  { repeat (constructor; [lazy; try reflexivity; exact I|]). constructor. }
  split; [exact Hn|]. split; [exact Hf|]. apply body_fixpoint; assumption.
Qed.

Print Assumptions nf_rt_idem.
Print Assumptions nf_rt_idem_flag.
Print Assumptions nf_rt_is_nf.
Print Assumptions nf_rt_fixed.
Print Assumptions nf_rt_normal.
Print Assumptions map_idx_id.
Print Assumptions nf_op_fixed.
Print Assumptions nf_op_fixed_at_iff.
Print Assumptions nf_op_fixed_refuted.
Print Assumptions nf_bt_idem_iff.
Print Assumptions nf_bt_idem_refuted.
Print Assumptions nf_bt_fixed_func_iff.
Print Assumptions nf_bt_idem_same.
Print Assumptions body_fixpoint.
Print Assumptions body_fixpoint_flag.
Print Assumptions body_fixpoint_id.
Print Assumptions body_fixpoint_second.
Print Assumptions body_fixpoint_emitted.
Print Assumptions body_fixpoint_needs_nf.
Print Assumptions body_fixpoint_toy.
