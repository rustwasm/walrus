(* C02 / C05 / C20: the validator of Model/TypeCore.v against the declarative typing of Model/Typing.v: it decides that typing, given
   that the block types exist ([check_body_iff]), and accepts the emitted body of every body it accepts ([check_body_nf]).  A
   checker state is read as the set [gam] of the concrete stacks it stands for; soundness goes backwards from the final state. *)
From Coq Require Import List NArith ZArith Bool Lia. Import ListNotations.
From WV Require Import Gen.Ops Model.Common Model.IR Model.ParseFn Model.ParseSpec Model.EmitFn
  Model.BodySpec Model.Sem Model.Typing Model.TypeCore.
From WV Require Import Proofs.ParseFn Proofs.Sem Proofs.TypingNf.
Local Open Scope nat_scope.

Lemma valty_eqb_eq a b : valty_eqb a b = true <-> a = b.
Proof. destruct a, b; vm_compute; split; congruence. Qed.
Lemma valty_eqb_refl a : valty_eqb a a = true.
Proof. now apply valty_eqb_eq. Qed.
Lemma vlist_eqb_eq a : forall b, vlist_eqb a b = true <-> a = b.
Proof.
  induction a as [|x a IH]; intros [|y b]; cbn [vlist_eqb]; try (split; [discriminate|discriminate]); [tauto|].
  rewrite andb_true_iff, valty_eqb_eq, IH. split; [intros [-> ->]; reflexivity|intros [= -> ->]; auto].
Qed.
Lemma vlist_eqb_refl a : vlist_eqb a a = true.
Proof. now apply vlist_eqb_eq. Qed.

Lemma nthN_opt_nth {A} (l : list A) : forall i, nthN_opt l i = nth_error l (N.to_nat i).
Proof.
  induction l as [|x l IH]; intros i.
  - cbn [nthN_opt]. destruct (N.to_nat i); reflexivity.
  - cbn [nthN_opt]. destruct (N.eqb_spec i 0%N) as [->|Hne]; [reflexivity|].
    rewrite IH. replace (N.to_nat i) with (S (N.to_nat (i - 1)%N)) by lia. reflexivity.
Qed.

(* an entry of the checker's stack and a type it may stand for *)
Definition rfo (o : option valty) (t : valty) : Prop :=
  match o with Some t' => t' = t | None => is_int t = true end.
Definition rf : list (option valty) -> list valty -> Prop := Forall2 rfo.
(* the concrete stacks (bottom-to-top) a state stands for: an instance of the known part; when the flag is set,
   anything below it *)
Definition gam (st : cstate) (c : list valty) : Prop :=
  exists f k, c = f ++ rev k /\ rf (cs_stk st) k /\ (cs_unr st = false -> f = []).

Lemma matcho_rfo o t : matcho o t = true <-> rfo o t.
Proof. destruct o as [t'|]; cbn [matcho rfo]; [apply valty_eqb_eq|tauto]. Qed.

Lemma rf_ex s : exists k, rf s k.
Proof.
  induction s as [|o s [k IH]]; [exists []; constructor|].
  destruct o as [t|]; [exists (t :: k)|exists (VT_I32 :: k)]; constructor; auto; reflexivity.
Qed.
Lemma gam_ex st : exists c, gam st c.
Proof. destruct (rf_ex (cs_stk st)) as [k Hk]. exists ([] ++ rev k), [], k. auto. Qed.
Lemma gam_unr c : gam unr_st c.
Proof. exists c, []. cbn. rewrite app_nil_r. repeat split; [constructor|discriminate]. Qed.
Lemma gam_nil_false c : gam (CS [] false) c <-> c = [].
Proof.
  split.
  - intros (f & k & -> & Hk & Hf). cbn in Hk, Hf. inversion Hk; subst. now rewrite Hf.
  - intros ->. exists [], []. cbn. repeat split; constructor.
Qed.
Lemma gam_nil_inv st : gam st [] -> cs_stk st = [].
Proof.
  intros (f & k & E & Hk & _). symmetry in E. apply app_eq_nil in E. destruct E as [_ E].
  destruct k as [|x k]; [inversion Hk; reflexivity|]. cbn [rev] in E. now apply app_eq_nil in E.
Qed.

Lemma pop_any_sound st o st1 c t :
  pop_any st = Some (o, st1) -> gam st1 c -> (cs_stk st <> [] -> rfo o t) -> gam st (c ++ [t]).
Proof.
  unfold pop_any. destruct st as [[|o' s] u]; cbn [cs_stk cs_unr].
  - destruct u; [|discriminate]. intros [= <- <-] (f & k & -> & Hk & Hf) _. cbn [cs_stk] in Hk. inversion Hk; subst.
    exists ((f ++ rev []) ++ [t]), []. cbn [rev cs_stk cs_unr]. rewrite !app_nil_r.
    repeat split; [constructor|discriminate].
  - intros [= <- <-] (f & k & -> & Hk & Hf) Ho. cbn [cs_stk cs_unr] in *.
    exists f, (t :: k). cbn [rev]. rewrite app_assoc. repeat split; [constructor; [apply Ho; discriminate|assumption]|exact Hf].
Qed.
Lemma pop_exp_any t st st1 : pop_exp t st = Some st1 -> exists o, pop_any st = Some (o, st1) /\ (cs_stk st <> [] -> rfo o t).
Proof.
  unfold pop_exp, pop_any. destruct st as [[|o' s] u]; cbn [cs_stk cs_unr].
  - destruct u; [|discriminate]. intros [= <-]. exists None. split; [reflexivity|congruence].
  - destruct (matcho o' t) eqn:M; [|discriminate]. intros [= <-]. exists o'. split; [reflexivity|]. intros _. now apply matcho_rfo.
Qed.
Lemma pop_exp_sound t st st1 c : pop_exp t st = Some st1 -> gam st1 c -> gam st (c ++ [t]).
Proof. intros H G. destruct (pop_exp_any _ _ _ H) as (o & P & Ho). exact (pop_any_sound _ _ _ _ _ P G Ho). Qed.
Lemma pops_top_sound r : forall st st1 c, pops_top r st = Some st1 -> gam st1 c -> gam st (c ++ rev r).
Proof.
  induction r as [|t r IH]; intros st st1 c H G; cbn [pops_top] in H.
  - injection H as <-. cbn [rev]. now rewrite app_nil_r.
  - destruct (pop_exp t st) as [st'|] eqn:E; [|discriminate]. cbn [rev]. rewrite app_assoc.
    eapply pop_exp_sound; [exact E|]. eapply IH; eassumption.
Qed.
Lemma pops_sound ts st st1 c : pops ts st = Some st1 -> gam st1 c -> gam st (c ++ ts).
Proof. unfold pops. intros H G. rewrite <- (rev_involutive ts). eapply pops_top_sound; eassumption. Qed.

Lemma push_stk_inv ts : forall s k, rf (push_stk ts s) k -> exists k1, k = rev ts ++ k1 /\ rf s k1.
Proof.
  induction ts as [|t ts IH]; intros s k H; cbn [push_stk fold_left] in H.
  - exists k. auto.
  - apply IH in H. destruct H as (k1 & -> & H). inversion H as [|o x s' k2 Ho Hs]; subst. cbn [rfo] in Ho. subst x.
    exists k2. cbn [rev]. rewrite <- app_assoc. auto.
Qed.
Lemma push_stk_rf ts : forall s k, rf s k -> rf (push_stk ts s) (rev ts ++ k).
Proof.
  induction ts as [|t ts IH]; intros s k H; cbn [push_stk fold_left rev app]; [exact H|].
  rewrite <- app_assoc. apply IH. constructor; [reflexivity|exact H].
Qed.
Lemma push_inv ts st c : gam (push ts st) c -> exists c1, c = c1 ++ ts /\ gam st c1.
Proof.
  intros (f & k & -> & Hk & Hf). cbn [push cs_stk cs_unr] in *. apply push_stk_inv in Hk.
  destruct Hk as (k1 & -> & Hk). exists (f ++ rev k1). rewrite rev_app_distr, rev_involutive, app_assoc.
  split; [reflexivity|]. exists f, k1. auto.
Qed.
Lemma push_gam ts st c : gam st c -> gam (push ts st) (c ++ ts).
Proof.
  intros (f & k & -> & Hk & Hf). exists f, (rev ts ++ k). cbn [push cs_stk cs_unr].
  rewrite rev_app_distr, rev_involutive, app_assoc. repeat split; [now apply push_stk_rf|exact Hf].
Qed.
Lemma push1_inv z st c : gam (CS (z :: cs_stk st) (cs_unr st)) c -> exists c1 t, c = c1 ++ [t] /\ rfo z t /\ gam st c1.
Proof.
  intros (f & k & -> & Hk & Hf). cbn [cs_stk cs_unr] in *. inversion Hk as [|o t s k1 Ho Hs]; subst.
  exists (f ++ rev k1), t. cbn [rev]. rewrite app_assoc. repeat split; [exact Ho|]. exists f, k1. auto.
Qed.
Lemma push1_gam z st c t : gam st c -> rfo z t -> gam (CS (z :: cs_stk st) (cs_unr st)) (c ++ [t]).
Proof.
  intros (f & k & -> & Hk & Hf) Ho. exists f, (t :: k). cbn [cs_stk cs_unr rev]. rewrite app_assoc.
  repeat split; [constructor; assumption|exact Hf].
Qed.
Lemma gam_init ps c : gam (init_st ps) c <-> c = ps.
Proof.
  unfold init_st. split.
  - intros H. apply push_inv in H. destruct H as (c1 & -> & H). apply gam_nil_false in H. now subst.
  - intros ->. change ps with ([] ++ ps). apply push_gam. now apply gam_nil_false.
Qed.

Lemma pop_any_complete st f t :
  gam st (f ++ [t]) -> exists o st1, pop_any st = Some (o, st1) /\ gam st1 f /\ (forall t', o = Some t' -> t' = t).
Proof.
  intros (f0 & k & E & Hk & Hf). unfold pop_any. destruct st as [[|o s] u]; cbn [cs_stk cs_unr] in *.
  - inversion Hk; subst. cbn [rev] in E. rewrite app_nil_r in E. destruct u.
    + exists None, (CS [] true). repeat split; [|discriminate]. exists f, []. cbn. rewrite app_nil_r. repeat split; [constructor|discriminate].
    + rewrite Hf in E by reflexivity. symmetry in E. now apply app_cons_not_nil in E.
  - inversion Hk as [|o' t0 s' k1 Ho Hs]; subst. cbn [rev] in E. rewrite app_assoc in E. apply app_inj_tail in E.
    destruct E as [-> ->]. exists o, (CS s u). repeat split.
    + exists f0, k1. auto.
    + intros t' ->. exact Ho.
Qed.
Lemma pop_exp_complete st f t : gam st (f ++ [t]) -> exists st1, pop_exp t st = Some st1 /\ gam st1 f.
Proof.
  intros (f0 & k & E & Hk & Hf). unfold pop_exp. destruct st as [[|o s] u]; cbn [cs_stk cs_unr] in *.
  - inversion Hk; subst. cbn [rev] in E. rewrite app_nil_r in E. destruct u.
    + exists (CS [] true). split; [reflexivity|]. exists f, []. cbn. rewrite app_nil_r. repeat split; [constructor|discriminate].
    + rewrite Hf in E by reflexivity. symmetry in E. now apply app_cons_not_nil in E.
  - inversion Hk as [|o' t0 s' k1 Ho Hs]; subst. cbn [rev] in E. rewrite app_assoc in E. apply app_inj_tail in E.
    destruct E as [-> ->]. apply matcho_rfo in Ho. rewrite Ho. exists (CS s u). split; [reflexivity|].
    exists f0, k1. auto.
Qed.
Lemma pops_top_complete r : forall st f, gam st (f ++ rev r) -> exists st1, pops_top r st = Some st1 /\ gam st1 f.
Proof.
  induction r as [|t r IH]; intros st f G; cbn [pops_top rev] in *.
  - rewrite app_nil_r in G. eauto.
  - rewrite app_assoc in G. apply pop_exp_complete in G. destruct G as (st' & -> & G). now apply IH.
Qed.
Lemma pops_complete ts st f : gam st (f ++ ts) -> exists st1, pops ts st = Some st1 /\ gam st1 f.
Proof. unfold pops. intros G. apply pops_top_complete. now rewrite rev_involutive. Qed.
Lemma end_ok_complete rs st : gam st rs -> end_ok rs st = true.
Proof.
  intros G. unfold end_ok. destruct (pops_complete rs st []) as (st1 & -> & G1); [exact G|].
  apply gam_nil_inv in G1. now rewrite G1.
Qed.
Lemma end_ok_sound rs st : end_ok rs st = true -> gam st rs.
Proof.
  unfold end_ok. destruct (pops rs st) as [st1|] eqn:E; [|discriminate].
  destruct (cs_stk st1) eqn:E1; [|discriminate]. intros _.
  change rs with ([] ++ rs). eapply pops_sound; [exact E|].
  exists [], []. rewrite E1. cbn. repeat split; constructor.
Qed.

Definition arm (e : tenv) (L : list (list valty)) (b : list rt) (ps rs : list valty) : bool :=
  arm_res (chk e L b (init_st ps)) rs.

(* what the checker does on the four structured instructions, their arms apart: the block type exists, the condition
   ([cond]: if) and the parameters are popped, the arms were accepted ([arms]), the results are pushed *)
Definition chk_struct (e : tenv) (bt : blockty) (cond arms : bool) (st : cstate) : option cstate :=
  if bt_ok e bt then
    match (if cond then pop_exp VT_I32 st else Some st) with
    | Some st0 =>
        match pops (bt_params e bt) st0 with
        | Some st1 => if arms then Some (push (bt_results e bt) st1) else None
        | None => None
        end
    | None => None
    end
  else None.
Definition cond_ty (cond : bool) : list valty := if cond then [VT_I32] else [].

Lemma chk_struct_some e bt cond arms st st' : chk_struct e bt cond arms st = Some st' -> bt_ok e bt = true /\ arms = true.
Proof.
  unfold chk_struct. destruct (bt_ok e bt); [|discriminate].
  destruct (if cond then pop_exp VT_I32 st else Some st) as [st0|]; [|discriminate].
  destruct (pops (bt_params e bt) st0); [|discriminate]. destruct arms; [auto|discriminate].
Qed.
Lemma chk_struct_sound e bt cond arms st st' c' : chk_struct e bt cond arms st = Some st' -> gam st' c' ->
  exists c1, c' = c1 ++ bt_results e bt /\ gam st ((c1 ++ bt_params e bt) ++ cond_ty cond).
Proof.
  unfold chk_struct. destruct (bt_ok e bt); [|discriminate].
  destruct (if cond then pop_exp VT_I32 st else Some st) as [st0|] eqn:P0; [|discriminate].
  destruct (pops (bt_params e bt) st0) as [st1|] eqn:P; [|discriminate]. destruct arms; [|discriminate].
  intros [= <-] G. apply push_inv in G. destruct G as (c1 & -> & G1). exists c1. split; [reflexivity|].
  pose proof (pops_sound _ _ _ _ P G1) as G0. destruct cond; cbn [cond_ty].
  - eapply pop_exp_sound; eassumption.
  - injection P0 as <-. now rewrite app_nil_r.
Qed.
Lemma chk_struct_complete e bt cond arms st f : bt_ok e bt = true -> arms = true ->
  gam st ((f ++ bt_params e bt) ++ cond_ty cond) ->
  exists st', chk_struct e bt cond arms st = Some st' /\ gam st' (f ++ bt_results e bt).
Proof.
  intros B -> G. unfold chk_struct. rewrite B.
  assert (exists st0, (if cond then pop_exp VT_I32 st else Some st) = Some st0 /\ gam st0 (f ++ bt_params e bt)) as (st0 & -> & G0).
  { destruct cond; cbn [cond_ty] in G; [now apply pop_exp_complete|]. rewrite app_nil_r in G. eauto. }
  apply pops_complete in G0. destruct G0 as (st1 & -> & G1).
  exists (push (bt_results e bt) st1). split; [reflexivity|now apply push_gam].
Qed.

Section Unfold.
  Variable e : tenv.
  Definition chkl_inner :=
    fix chkl (L : list (list valty)) (l : list rt) (st : cstate) {struct l} : option cstate :=
      match l with
      | [] => Some st
      | t :: l' => match chk1 e L t st with Some st' => chkl L l' st' | None => None end
      end.
  Lemma chkl_inner_eq l : forall L st, chkl_inner L l st = chk e L l st.
  Proof.
    induction l as [|t l IH]; intros L st; [reflexivity|].
    cbn [chkl_inner chk]. destruct (chk1 e L t st); [apply IH|reflexivity].
  Qed.

  Lemma chk1_plain L o loc st : chk1 e L (RPlain o loc) st = chk_plain e o st.
  Proof. reflexivity. Qed.
  Lemma chk1_nop L loc st : chk1 e L (RNop loc) st = Some st.
  Proof. reflexivity. Qed.
  Lemma chk1_br L d loc st :
    chk1 e L (RBr d loc) st =
    match nthN_opt L d with
    | Some ts => match pops ts st with Some _ => Some unr_st | None => None end
    | None => None
    end.
  Proof. reflexivity. Qed.
  Lemma chk1_br_if L d loc st :
    chk1 e L (RBrIf d loc) st =
    match nthN_opt L d with
    | Some ts =>
        match pop_exp VT_I32 st with
        | Some st1 => match pops ts st1 with Some st2 => Some (push ts st2) | None => None end
        | None => None
        end
    | None => None
    end.
  Proof. reflexivity. Qed.
  Lemma chk1_br_table L ds d loc st :
    chk1 e L (RBrTable ds d loc) st =
    match nthN_opt L d with
    | Some ts =>
        if forallb (label_is L ts) ds then
          match pop_exp VT_I32 st with
          | Some st1 => match pops ts st1 with Some _ => Some unr_st | None => None end
          | None => None
          end
        else None
    | None => None
    end.
  Proof. reflexivity. Qed.
  Lemma chk1_block L bt b loc lend st :
    chk1 e L (RBlock bt b loc lend) st =
    chk_struct e bt false (arm e (bt_results e bt :: L) b (bt_params e bt) (bt_results e bt)) st.
  Proof. unfold arm, chk_struct. rewrite <- chkl_inner_eq. reflexivity. Qed.
  Lemma chk1_loop L bt b loc lend st :
    chk1 e L (RLoop bt b loc lend) st =
    chk_struct e bt false (arm e (bt_params e bt :: L) b (bt_params e bt) (bt_results e bt)) st.
  Proof. unfold arm, chk_struct. rewrite <- chkl_inner_eq. reflexivity. Qed.
  Lemma chk1_if_some L bt th le eb loc lend st :
    chk1 e L (RIf bt th (Some (le, eb)) loc lend) st =
    chk_struct e bt true (arm e (bt_results e bt :: L) th (bt_params e bt) (bt_results e bt)
                          && arm e (bt_results e bt :: L) eb (bt_params e bt) (bt_results e bt)) st.
  Proof. unfold arm, chk_struct. rewrite <- !chkl_inner_eq. reflexivity. Qed.
  Lemma chk1_if_none L bt th loc lend st :
    chk1 e L (RIf bt th None loc lend) st =
    chk_struct e bt true (arm e (bt_results e bt :: L) th (bt_params e bt) (bt_results e bt)
                          && vlist_eqb (bt_params e bt) (bt_results e bt)) st.
  Proof. unfold arm, chk_struct. rewrite <- chkl_inner_eq. reflexivity. Qed.
End Unfold.

Lemma check_body_arm e body : check_body e body = arm e [te_results e] body [] (te_results e).
Proof. reflexivity. Qed.

Notation cht e := (ht valty VT_I32 (core_optype e) (core_opdead e) (bt_params e) (bt_results e)).
Notation cht1 e := (ht1 valty VT_I32 (core_optype e) (core_opdead e) (bt_params e) (bt_results e)).
Notation chl e := (hl valty VT_I32 (core_optype e) (core_opdead e) (bt_params e) (bt_results e)).
Notation chl1 e := (hl1 valty VT_I32 (core_optype e) (core_opdead e) (bt_params e) (bt_results e)).

Lemma ht1_plain_eq e L o loc f i r c c' :
  marks_unreachable o = false -> core_optype e (WOp o) i r -> c = f ++ i -> c' = f ++ r -> cht1 e L (RPlain o loc) c c'.
Proof. intros; subst; now constructor. Qed.
Lemma ht1_dead_eq e L o loc f i c c' :
  marks_unreachable o = true -> core_opdead e (WOp o) i -> c = f ++ i -> cht1 e L (RPlain o loc) c c'.
Proof. intros; subst; now constructor. Qed.

Lemma rfo_ex x : exists t, rfo x t.
Proof. destruct x as [t|]; [exists t|exists VT_I32]; reflexivity. Qed.

Lemma join_sound x y z t : join x y = Some z -> rfo z t -> rfo x t /\ rfo y t /\ is_int t = true.
Proof.
  destruct x as [a|], y as [b|]; cbn [join].
  - destruct (is_int a) eqn:I; cbn [andb]; [|discriminate]. destruct (valty_eqb a b) eqn:V; [|discriminate].
    apply valty_eqb_eq in V. subst b. intros [= <-] Hz. cbn [rfo] in *. subst t. auto.
  - destruct (is_int a) eqn:I; [|discriminate]. intros [= <-] Hz. cbn [rfo] in *. subst t. auto.
  - destruct (is_int b) eqn:I; [|discriminate]. intros [= <-] Hz. cbn [rfo] in *. subst t. auto.
  - intros [= <-] Hz. cbn [rfo] in *. auto.
Qed.

Lemma chk_plain_sound e L o loc st st' :
  chk_plain e o st = Some st' -> forall c', gam st' c' -> exists c, gam st c /\ cht1 e L (RPlain o loc) c c'.
Proof.
  unfold chk_plain. destruct (op_class o) as [E|E|E|E|E].
  - (* drop *) subst o. destruct (pop_any st) as [[x st1]|] eqn:P; [|discriminate]. intros [= <-] c' G.
    destruct (rfo_ex x) as [t Ht]. exists (c' ++ [t]). split; [eapply pop_any_sound; [exact P|exact G|intros _; exact Ht]|].
    eapply ht1_plain_eq with (f := c') (i := [t]) (r := []); [reflexivity| |reflexivity|now rewrite app_nil_r].
    right; left. split; [reflexivity|]. exists t. auto.
  - (* select *) subst o.
    destruct (pop_exp VT_I32 st) as [st1|] eqn:P1; [|discriminate].
    destruct (pop_any st1) as [[x st2]|] eqn:P2; [|discriminate].
    destruct (pop_any st2) as [[y st3]|] eqn:P3; [|discriminate].
    destruct (join x y) as [z|] eqn:J; [|discriminate]. intros [= <-] c' G.
    apply push1_inv in G. destruct G as (c3 & t & -> & Hz & G3).
    destruct (join_sound _ _ _ _ J Hz) as (Hx & Hy & Hi).
    exists (((c3 ++ [t]) ++ [t]) ++ [VT_I32]). split.
    + eapply pop_exp_sound; [exact P1|]. eapply pop_any_sound; [exact P2| |intros _; exact Hx].
      eapply pop_any_sound; [exact P3|exact G3|intros _; exact Hy].
    + eapply ht1_plain_eq with (f := c3) (i := [t; t; VT_I32]) (r := [t]);
        [reflexivity| |now rewrite <- !app_assoc|reflexivity].
      right; right. split; [reflexivity|]. exists t. auto.
  - (* return *) subst o. destruct (pops (te_results e) st) as [st1|] eqn:P; [|discriminate]. intros [= <-] c' _.
    destruct (gam_ex st1) as [c1 G1]. exists (c1 ++ te_results e). split; [eapply pops_sound; eassumption|].
    apply HT_dead; [reflexivity|]. right. auto.
  - (* unreachable *) subst o. intros [= <-] c' _. destruct (gam_ex st) as [c G]. exists c. split; [exact G|].
    eapply ht1_dead_eq with (f := c) (i := []); [reflexivity| |now rewrite app_nil_r]. left. auto.
  - (* a core operator with a signature *)
    destruct (core_sig e o) as [[i r]|] eqn:S; [|discriminate].
    destruct (pops i st) as [st1|] eqn:P; [|discriminate]. intros [= <-] c' G.
    apply push_inv in G. destruct G as (c1 & -> & G1). exists (c1 ++ i). split; [eapply pops_sound; eassumption|].
    apply HT_plain; [exact E|]. left. exists o. auto.
Qed.

Definition snd1 (e : tenv) (t : rt) : Prop :=
  forall L st st', chk1 e L t st = Some st' -> forall c', gam st' c' -> exists c, gam st c /\ cht1 e L t c c'.

Lemma sound_list e l : Forall (snd1 e) l ->
  forall L st st', chk e L l st = Some st' -> forall c', gam st' c' -> exists c, gam st c /\ cht e L l c c'.
Proof.
  induction 1 as [|t l Ht Hl IH]; intros L st st' H c' G; cbn [chk] in H.
  - injection H as <-. exists c'. split; [exact G|apply HT_nil].
  - destruct (chk1 e L t st) as [st1|] eqn:E; [|discriminate].
    destruct (IH _ _ _ H _ G) as (c1 & G1 & H1). destruct (Ht _ _ _ E _ G1) as (c & G0 & H0).
    exists c. split; [exact G0|]. eapply HT_cons; eassumption.
Qed.
Lemma arm_sound e l : Forall (snd1 e) l -> forall L ps rs, arm e L l ps rs = true -> cht e L l ps rs.
Proof.
  intros HF L ps rs. unfold arm, arm_res. destruct (chk e L l (init_st ps)) as [st'|] eqn:C; [|discriminate].
  intros H. apply end_ok_sound in H. destruct (sound_list e l HF _ _ _ C _ H) as (c & Gc & Hc).
  apply gam_init in Gc. subst c. exact Hc.
Qed.

Lemma chk1_sound e t : snd1 e t.
Proof.
  induction t as [o l|l|d l|d l|ds d l|bt body l en HF|bt body l en HF|bt th el l en HFt HFe] using rt_ind';
    intros L st st' H c' G.
  - rewrite chk1_plain in H. eapply chk_plain_sound; eassumption.
  - rewrite chk1_nop in H. injection H as <-. exists c'. split; [exact G|apply HT_nop].
  - rewrite chk1_br in H. destruct (nthN_opt L d) as [ts|] eqn:EL; [|discriminate].
    destruct (pops ts st) as [st1|] eqn:P; [|discriminate]. injection H as <-.
    destruct (gam_ex st1) as [c1 G1]. exists (c1 ++ ts). split; [eapply pops_sound; eassumption|].
    apply HT_br. rewrite <- nthN_opt_nth. exact EL.
  - rewrite chk1_br_if in H. destruct (nthN_opt L d) as [ts|] eqn:EL; [|discriminate].
    destruct (pop_exp VT_I32 st) as [st1|] eqn:P1; [|discriminate].
    destruct (pops ts st1) as [st2|] eqn:P2; [|discriminate]. injection H as <-.
    apply push_inv in G. destruct G as (c2 & -> & G2). exists ((c2 ++ ts) ++ [VT_I32]). split.
    + eapply pop_exp_sound; [exact P1|]. eapply pops_sound; eassumption.
    + rewrite <- app_assoc. apply HT_br_if. rewrite <- nthN_opt_nth. exact EL.
  - rewrite chk1_br_table in H. destruct (nthN_opt L d) as [ts|] eqn:EL; [|discriminate].
    destruct (forallb (label_is L ts) ds) eqn:F; [|discriminate].
    destruct (pop_exp VT_I32 st) as [st1|] eqn:P1; [|discriminate].
    destruct (pops ts st1) as [st2|] eqn:P2; [|discriminate]. injection H as <-.
    destruct (gam_ex st2) as [c2 G2]. exists ((c2 ++ ts) ++ [VT_I32]). split.
    + eapply pop_exp_sound; [exact P1|]. eapply pops_sound; eassumption.
    + rewrite <- app_assoc. apply HT_br_table; [rewrite <- nthN_opt_nth; exact EL|].
      apply Forall_forall. intros x Hx. rewrite forallb_forall in F. specialize (F x Hx).
      unfold label_is in F. rewrite nthN_opt_nth in F. destruct (nth_error L (N.to_nat x)) as [ts'|]; [|discriminate].
      apply vlist_eqb_eq in F. now subst.
  - rewrite chk1_block in H. destruct (chk_struct_some _ _ _ _ _ _ H) as [_ A].
    destruct (chk_struct_sound _ _ _ _ _ _ _ H G) as (c1 & -> & G1). exists (c1 ++ bt_params e bt).
    rewrite app_nil_r in G1. split; [exact G1|]. apply HT_block. eapply arm_sound; eassumption.
  - rewrite chk1_loop in H. destruct (chk_struct_some _ _ _ _ _ _ H) as [_ A].
    destruct (chk_struct_sound _ _ _ _ _ _ _ H G) as (c1 & -> & G1). exists (c1 ++ bt_params e bt).
    rewrite app_nil_r in G1. split; [exact G1|]. apply HT_loop. eapply arm_sound; eassumption.
  - destruct el as [[le eb]|];
      [rewrite chk1_if_some in H|rewrite chk1_if_none in H];
      destruct (chk_struct_some _ _ _ _ _ _ H) as [_ A]; apply andb_prop in A; destruct A as [A1 A2];
      destruct (chk_struct_sound _ _ _ _ _ _ _ H G) as (c1 & -> & G1);
      exists ((c1 ++ bt_params e bt) ++ [VT_I32]); (split; [exact G1|]); rewrite <- app_assoc.
    + apply HT_if_else; eapply arm_sound; eassumption.
    + apply HT_if; [eapply arm_sound; eassumption|]. now apply vlist_eqb_eq.
Qed.

(* the general form: a successful run of [chk] types the sequence, backwards from ANY instance of the final state,
   from SOME instance of the initial state (unique when the initial state has no unknown and the flag is clear) *)
Theorem chk_sound e L l st st' :
  chk e L l st = Some st' -> forall c', gam st' c' -> exists c, gam st c /\ cht e L l c c'.
Proof. apply sound_list. apply Forall_forall. intros t _. apply chk1_sound. Qed.

(* from a fully known stack [a] (flag clear) the start is [a] itself: EVERY instance of the final state is a result type *)
Corollary chk_sound_known e L l a st' :
  chk e L l (init_st a) = Some st' -> forall c', gam st' c' -> cht e L l a c'.
Proof.
  intros H c' G. destruct (chk_sound e L l _ _ H c' G) as (c & Gc & Hc). apply gam_init in Gc. now subst.
Qed.

Theorem arm_typed e L l ps rs : arm e L l ps rs = true -> cht e L l ps rs.
Proof. apply arm_sound. apply Forall_forall. intros t _. apply chk1_sound. Qed.

Theorem check_body_sound e body :
  check_body e body = true -> cht e [te_results e] body [] (te_results e).
Proof. rewrite check_body_arm. apply arm_typed. Qed.

(* a body the validator accepts is emitted as a well-typed body *)
Theorem check_body_nf_typed e body :
  check_body e body = true -> cht e [te_results e] (fst (nf_rt_list false body)) [] (te_results e).
Proof. intros H. apply nf_preserves_typing, check_body_sound, H. Qed.

(* the checker rejects a block type with an absent type index, for which [bt_params] / [bt_results] are [] / [] *)
Inductive bts1 (e : tenv) : rt -> Prop :=
  | BO_plain : forall o l, bts1 e (RPlain o l)
  | BO_nop : forall l, bts1 e (RNop l)
  | BO_br : forall d l, bts1 e (RBr d l)
  | BO_br_if : forall d l, bts1 e (RBrIf d l)
  | BO_br_table : forall ds d l, bts1 e (RBrTable ds d l)
  | BO_block : forall bt b l en, bt_ok e bt = true -> Forall (bts1 e) b -> bts1 e (RBlock bt b l en)
  | BO_loop : forall bt b l en, bt_ok e bt = true -> Forall (bts1 e) b -> bts1 e (RLoop bt b l en)
  | BO_if_some : forall bt th le eb l en,
      bt_ok e bt = true -> Forall (bts1 e) th -> Forall (bts1 e) eb -> bts1 e (RIf bt th (Some (le, eb)) l en)
  | BO_if_none : forall bt th l en, bt_ok e bt = true -> Forall (bts1 e) th -> bts1 e (RIf bt th None l en).
(* every block type of the body (dead code included) names a type that exists *)
Definition bts (e : tenv) (l : list rt) : Prop := Forall (bts1 e) l.

Lemma core_sig_drop e : core_sig e W_Drop = None. Proof. reflexivity. Qed.
Lemma core_sig_select e : core_sig e W_Select = None. Proof. reflexivity. Qed.
Lemma chk_plain_drop e st :
  chk_plain e W_Drop st = match pop_any st with Some (_, st1) => Some st1 | None => None end.
Proof. reflexivity. Qed.
Lemma chk_plain_select e st :
  chk_plain e W_Select st =
  match pop_exp VT_I32 st with
  | Some st1 =>
      match pop_any st1 with
      | Some (x, st2) =>
          match pop_any st2 with
          | Some (y, st3) =>
              match join x y with
              | Some z => Some (CS (z :: cs_stk st3) (cs_unr st3))
              | None => None
              end
          | None => None
          end
      | None => None
      end
  | None => None
  end.
Proof. reflexivity. Qed.
Lemma chk_plain_return e st :
  chk_plain e W_Return st = match pops (te_results e) st with Some _ => Some unr_st | None => None end.
Proof. reflexivity. Qed.
Lemma chk_plain_unreach e st : chk_plain e W_Unreachable st = Some unr_st.
Proof. reflexivity. Qed.

Lemma join_complete x y t :
  is_int t = true -> (forall t', x = Some t' -> t' = t) -> (forall t', y = Some t' -> t' = t) ->
  exists z, join x y = Some z /\ rfo z t.
Proof.
  intros Hi Hx Hy. destruct x as [a|], y as [b|]; cbn [join].
  - rewrite (Hx a eq_refl), (Hy b eq_refl), Hi, valty_eqb_refl. cbn [andb]. exists (Some t). split; reflexivity.
  - rewrite (Hx a eq_refl), Hi. exists (Some t). split; reflexivity.
  - rewrite (Hy b eq_refl), Hi. exists (Some t). split; reflexivity.
  - exists None. split; [reflexivity|exact Hi].
Qed.

Lemma chk_plain_complete e o f i r st :
  marks_unreachable o = false -> core_optype e (WOp o) i r -> gam st (f ++ i) ->
  exists st', chk_plain e o st = Some st' /\ gam st' (f ++ r).
Proof.
  intros Hm Ho G. destruct Ho as [(o' & Eo & S)|[(Eo & t & -> & ->)|(Eo & t & Hi & -> & ->)]].
  - injection Eo as <-. unfold chk_plain. destruct (op_class o) as [E|E|E|E|E].
    + subst o. rewrite core_sig_drop in S. discriminate S.
    + subst o. rewrite core_sig_select in S. discriminate S.
    + subst o. discriminate Hm.
    + subst o. discriminate Hm.
    + rewrite S. apply pops_complete in G. destruct G as (st1 & -> & G1).
      exists (push r st1). split; [reflexivity|now apply push_gam].
  - injection Eo as ->. rewrite chk_plain_drop. apply pop_any_complete in G. destruct G as (x & st1 & -> & G1 & _).
    exists st1. rewrite app_nil_r. auto.
  - injection Eo as ->. rewrite chk_plain_select.
    change (f ++ [t; t; VT_I32]) with (f ++ [t] ++ [t] ++ [VT_I32]) in G. rewrite !app_assoc in G.
    apply pop_exp_complete in G. destruct G as (st1 & -> & G).
    apply pop_any_complete in G. destruct G as (x & st2 & -> & G & Hx).
    apply pop_any_complete in G. destruct G as (y & st3 & -> & G & Hy).
    destruct (join_complete x y t Hi Hx Hy) as (z & -> & Hz).
    eexists. split; [reflexivity|]. now apply push1_gam.
Qed.

Lemma arm_complete e L b ps rs :
  (forall st, gam st ps -> exists st', chk e L b st = Some st' /\ gam st' rs) -> arm e L b ps rs = true.
Proof.
  intros H. destruct (H (init_st ps)) as (st' & C & G); [now apply gam_init|].
  unfold arm, arm_res. rewrite C. now apply end_ok_complete.
Qed.

Lemma complete_both e :
  (forall L l a c, cht e L l a c -> bts e l ->
     forall st, gam st a -> exists st', chk e L l st = Some st' /\ gam st' c) /\
  (forall L t a c, cht1 e L t a c -> bts1 e t ->
     forall st, gam st a -> exists st', chk1 e L t st = Some st' /\ gam st' c).
Proof.
  apply ht_ht1_ind.
  - (* nil *) intros L a _ st G. exists st. auto.
  - (* cons *) intros L t l a b c _ IH1 _ IH2 HB st G. inversion HB as [|x y HB1 HB2]; subst.
    destruct (IH1 HB1 st G) as (st1 & E1 & G1). destruct (IH2 HB2 st1 G1) as (st2 & E2 & G2).
    exists st2. cbn [chk]. rewrite E1. auto.
  - (* plain *) intros L o loc f i r Hm Ho _ st G. rewrite chk1_plain. eapply chk_plain_complete; eassumption.
  - (* dead *) intros L o loc f i b Hm Hd _ st G. rewrite chk1_plain.
    destruct Hd as [(Eo & ->)|(Eo & ->)]; injection Eo as ->.
    + rewrite chk_plain_unreach. exists unr_st. split; [reflexivity|apply gam_unr].
    + rewrite chk_plain_return. apply pops_complete in G. destruct G as (st1 & -> & _).
      exists unr_st. split; [reflexivity|apply gam_unr].
  - (* nop *) intros L loc a _ st G. exists st. auto.
  - (* br *) intros L d loc f ts b E _ st G. rewrite chk1_br, nthN_opt_nth, E.
    apply pops_complete in G. destruct G as (st1 & -> & _). exists unr_st. split; [reflexivity|apply gam_unr].
  - (* br_if *) intros L d loc f ts E _ st G. rewrite chk1_br_if, nthN_opt_nth, E. rewrite app_assoc in G.
    apply pop_exp_complete in G. destruct G as (st1 & -> & G). apply pops_complete in G. destruct G as (st2 & -> & G).
    exists (push ts st2). split; [reflexivity|now apply push_gam].
  - (* br_table *) intros L ds d loc f ts b E HF _ st G. rewrite chk1_br_table, nthN_opt_nth, E.
    assert (F : forallb (label_is L ts) ds = true).
    { apply forallb_forall. intros x Hx. rewrite Forall_forall in HF. unfold label_is.
      rewrite nthN_opt_nth, (HF x Hx). apply vlist_eqb_refl. }
    rewrite F. rewrite app_assoc in G.
    apply pop_exp_complete in G. destruct G as (st1 & -> & G). apply pops_complete in G. destruct G as (st2 & -> & _).
    exists unr_st. split; [reflexivity|apply gam_unr].
  - (* block *) intros L bt body loc lend f _ IH HB st G.
    inversion HB as [| | | | |bt' b' l' en' Hbt Hb| | |]; subst.
    rewrite chk1_block. apply chk_struct_complete; [exact Hbt|apply arm_complete, IH, Hb|now rewrite app_nil_r].
  - (* loop *) intros L bt body loc lend f _ IH HB st G.
    inversion HB as [| | | | | |bt' b' l' en' Hbt Hb| |]; subst.
    rewrite chk1_loop. apply chk_struct_complete; [exact Hbt|apply arm_complete, IH, Hb|now rewrite app_nil_r].
  - (* if / else *) intros L bt th le el loc lend f _ IH1 _ IH2 HB st G.
    inversion HB as [| | | | | | |bt' th' le' eb' l' en' Hbt Hth Hel|]; subst.
    rewrite chk1_if_some. apply chk_struct_complete; [exact Hbt| |now rewrite <- app_assoc].
    rewrite (arm_complete e _ _ _ _ (IH1 Hth)). apply arm_complete, IH2, Hel.
  - (* if *) intros L bt th loc lend f _ IH1 Epr HB st G.
    inversion HB as [| | | | | | | |bt' th' l' en' Hbt Hth]; subst.
    rewrite chk1_if_none. apply chk_struct_complete; [exact Hbt| |now rewrite <- app_assoc].
    rewrite (arm_complete e _ _ _ _ (IH1 Hth)). apply vlist_eqb_eq, Epr.
Qed.

(* the general form: from any state one of whose instances is [a], the checker succeeds on a sequence typed
   [a -> c], and [c] is an instance of the final state *)
Theorem chk_complete e L l a c st :
  cht e L l a c -> bts e l -> gam st a -> exists st', chk e L l st = Some st' /\ gam st' c.
Proof. intros H HB G. exact (proj1 (complete_both e) L l a c H HB st G). Qed.

Theorem arm_of_typed e L l ps rs : bts e l -> cht e L l ps rs -> arm e L l ps rs = true.
Proof. intros HB H. apply arm_complete. intros st G. eapply chk_complete; eassumption. Qed.

(* COMPLETENESS for the declarative typing (dead code included) *)
Theorem check_body_complete e body :
  bts e body -> cht e [te_results e] body [] (te_results e) -> check_body e body = true.
Proof. rewrite check_body_arm. apply arm_of_typed. Qed.

Definition btsP (e : tenv) (t : rt) : Prop := forall L st st', chk1 e L t st = Some st' -> bts1 e t.
Lemma bts_list e l : Forall (btsP e) l -> forall L st st', chk e L l st = Some st' -> bts e l.
Proof.
  induction 1 as [|t l Ht Hl IH]; intros L st st' H; cbn [chk] in H; [constructor|].
  destruct (chk1 e L t st) as [st1|] eqn:E; [|discriminate]. constructor; [eapply Ht, E|eapply IH, H].
Qed.
Lemma arm_bts e l : Forall (btsP e) l -> forall L ps rs, arm e L l ps rs = true -> bts e l.
Proof.
  intros HF L ps rs. unfold arm, arm_res. destruct (chk e L l (init_st ps)) as [st'|] eqn:C; [|discriminate].
  intros _. eapply bts_list; eassumption.
Qed.
Lemma chk1_bts e t : btsP e t.
Proof.
  induction t as [o l|l|d l|d l|ds d l|bt body l en HF|bt body l en HF|bt th el l en HFt HFe] using rt_ind';
    intros L st st' H; try (constructor; fail).
  - rewrite chk1_block in H. destruct (chk_struct_some _ _ _ _ _ _ H) as [B A].
    constructor; [exact B|eapply arm_bts; eassumption].
  - rewrite chk1_loop in H. destruct (chk_struct_some _ _ _ _ _ _ H) as [B A].
    constructor; [exact B|eapply arm_bts; eassumption].
  - destruct el as [[le eb]|];
      [rewrite chk1_if_some in H|rewrite chk1_if_none in H];
      destruct (chk_struct_some _ _ _ _ _ _ H) as [B A]; apply andb_prop in A; destruct A as [A1 A2];
      constructor; first [exact B|eapply arm_bts; eassumption].
Qed.
Theorem check_body_bts e body : check_body e body = true -> bts e body.
Proof. rewrite check_body_arm. apply arm_bts. apply Forall_forall. intros t _. apply chk1_bts. Qed.

(* THE VALIDATOR DECIDES THE DECLARATIVE TYPING (given that the block types exist) *)
Theorem check_body_iff e body :
  check_body e body = true <-> bts e body /\ cht e [te_results e] body [] (te_results e).
Proof.
  split.
  - intros H. split; [apply check_body_bts, H|apply check_body_sound, H].
  - intros [HB H]. now apply check_body_complete.
Qed.

Lemma nf_bts_list e l :
  Forall (fun t => bts1 e t -> forall u, bts e (fst (nf_rt u t))) l -> bts e l -> forall u, bts e (fst (nf_rt_list u l)).
Proof.
  induction 1 as [|t l Ht Hl IH]; intros HB u; [constructor|].
  inversion HB as [|x y HB1 HB2]; subst. rewrite nf_rt_list_cons. cbn [fst]. apply Forall_app. split; [now apply Ht|now apply IH].
Qed.
Lemma nf_bts1 e t : bts1 e t -> forall u, bts e (fst (nf_rt u t)).
Proof.
  induction t as [o l|l|d l|d l|ds d l|bt body l en HF|bt body l en HF|bt th el l en HFt HFe] using rt_ind';
    intros HB u.
  - destruct u; cbn [nf_rt fst]; repeat constructor.
  - cbn [nf_rt fst]. constructor.
  - destruct u; cbn [nf_rt fst]; repeat constructor.
  - destruct u; cbn [nf_rt fst]; repeat constructor.
  - destruct u; cbn [nf_rt fst]; repeat constructor.
  - inversion HB as [| | | | |bt' b' l' en' Hbt Hb| | |]; subst. rewrite nf_rt_block. cbn [fst]. unfold keepr.
    destruct u; [constructor|]. constructor; [|constructor]. constructor; [exact Hbt|now apply nf_bts_list].
  - inversion HB as [| | | | | |bt' b' l' en' Hbt Hb| |]; subst. rewrite nf_rt_loop. cbn [fst]. unfold keepr.
    destruct u; [constructor|]. constructor; [|constructor]. constructor; [exact Hbt|now apply nf_bts_list].
  - destruct el as [[le eb]|].
    + inversion HB as [| | | | | | |bt' th' le' eb' l' en' Hbt Hth Hel|]; subst. rewrite nf_rt_if_some. cbn [fst]. unfold keepr.
      destruct u; [constructor|]. constructor; [|constructor].
      constructor; [exact Hbt|now apply nf_bts_list|now apply nf_bts_list].
    + inversion HB as [| | | | | | | |bt' th' l' en' Hbt Hth]; subst. rewrite nf_rt_if_none. cbn [fst]. unfold keepr.
      destruct u; [constructor|]. constructor; [|constructor].
      constructor; [exact Hbt|now apply nf_bts_list|constructor].
Qed.
Lemma nf_bts e l u : bts e l -> bts e (fst (nf_rt_list u l)).
Proof. intros H. apply nf_bts_list; [|exact H]. apply Forall_forall. intros t _. apply nf_bts1. Qed.

(* THE VALIDATOR ACCEPTS THE EMITTED BODY of every body it accepts (dead code or not) *)
Theorem check_body_nf e body :
  check_body e body = true -> check_body e (fst (nf_rt_list false body)) = true.
Proof.
  intros H. apply check_body_complete; [apply nf_bts, check_body_bts, H|apply check_body_nf_typed, H].
Qed.

(* nothing follows an instruction that never falls through, in any sequence *)
Inductive no_dead : list rt -> Prop :=
  | ND_nil : no_dead []
  | ND_cons : forall t l, no_dead1 t -> (never_falls t = true -> l = []) -> no_dead l -> no_dead (t :: l)
with no_dead1 : rt -> Prop :=
  | ND_plain : forall o l, no_dead1 (RPlain o l)
  | ND_nop : forall l, no_dead1 (RNop l)
  | ND_br : forall d l, no_dead1 (RBr d l)
  | ND_br_if : forall d l, no_dead1 (RBrIf d l)
  | ND_br_table : forall ds d l, no_dead1 (RBrTable ds d l)
  | ND_block : forall bt b l en, no_dead b -> no_dead1 (RBlock bt b l en)
  | ND_loop : forall bt b l en, no_dead b -> no_dead1 (RLoop bt b l en)
  | ND_if_some : forall bt th le eb l en, no_dead th -> no_dead eb -> no_dead1 (RIf bt th (Some (le, eb)) l en)
  | ND_if_none : forall bt th l en, no_dead th -> no_dead1 (RIf bt th None l en).

Section NoDead.
  Variable T : Type.
  Variable t_i32 : T.
  Variable optype : wins -> list T -> list T -> Prop.
  Variable opdead : wins -> list T -> Prop.
  Variable params results : blockty -> list T.
  Notation ht := (ht T t_i32 optype opdead params results).
  Notation ht1 := (ht1 T t_i32 optype opdead params results).
  Notation hl := (hl T t_i32 optype opdead params results).
  Notation hl1 := (hl1 T t_i32 optype opdead params results).

  Lemma hl_no_dead_both :
    (forall L l a b, hl L l a b -> no_dead l -> ht L l a b) /\
    (forall L t a b, hl1 L t a b -> no_dead1 t ->
       ht1 L t a b /\ (never_falls t = true -> forall c, ht1 L t a c)).
  Proof.
    apply hl_hl1_ind.
    - intros L a _. apply HT_nil.
    - intros L t l a b c E _ IH1 _ IH2 HN. inversion HN as [|t' l' H1 H2 H3]; subst.
      eapply HT_cons; [apply (proj1 (IH1 H1))|apply IH2, H3].
    - intros L t l a b c E _ IH1 HN. inversion HN as [|t' l' H1 H2 H3]; subst. rewrite (H2 E).
      eapply HT_cons; [apply (proj2 (IH1 H1) E c)|apply HT_nil].
    - intros L o loc f i r E Ho _. split; [now apply HT_plain|]. intros E'. cbn [never_falls] in E'. congruence.
    - intros L o loc f i b E Ho _. split; [|intros _ c]; apply HT_dead; assumption.
    - intros L loc a _. split; [apply HT_nop|nofalls].
    - intros L d loc f ts b E _. split; [|intros _ c]; apply HT_br; assumption.
    - intros L d loc f ts E _. split; [now apply HT_br_if|nofalls].
    - intros L ds d loc f ts b E EF _. split; [|intros _ c]; apply HT_br_table; assumption.
    - intros L bt body loc lend f _ IH HN. inversion HN; subst. split; [|nofalls]. apply HT_block, IH. assumption.
    - intros L bt body loc lend f _ IH HN. inversion HN; subst. split; [|nofalls]. apply HT_loop, IH. assumption.
    - intros L bt th le el loc lend f _ IH1 _ IH2 HN. inversion HN; subst. split; [|nofalls].
      apply HT_if_else; [apply IH1|apply IH2]; assumption.
    - intros L bt th loc lend f _ IH1 E HN. inversion HN; subst. split; [|nofalls].
      apply HT_if; [apply IH1; assumption|exact E].
  Qed.
  (* without dead code the two typings coincide *)
  Theorem hl_no_dead L l a b : no_dead l -> hl L l a b -> ht L l a b.
  Proof. intros HN H. now apply hl_no_dead_both. Qed.
End NoDead.

(* COMPLETENESS on kept code, for bodies without dead code *)
Theorem check_body_complete_hl e body :
  no_dead body -> bts e body -> chl e [te_results e] body [] (te_results e) -> check_body e body = true.
Proof. intros HN HB H. apply check_body_complete; [exact HB|]. now apply hl_no_dead. Qed.

(* the alignment bound of [mem_ok] is the natural-alignment bound 2^align <= width = 2^lg *)
Lemma mem_align_pow a lg : (a <=? lg)%N = (2 ^ a <=? 2 ^ lg)%N.
Proof.
  apply eq_true_iff_eq. rewrite !N.leb_le. apply N.pow_le_mono_r_iff. reflexivity.
Qed.

Module Needed.
  Definition env0 : tenv :=
    {| te_locals := []; te_globals := []; te_tys := []; te_results := []; te_has_mem := false |}.
  (* [no_dead] is needed: [hl] ignores dead code, a validator does not: unreachable; i32.const 0  leaves a value too many *)
  Definition dead_body : list rt := [RPlain W_Unreachable 0; RPlain (W_I32Const 0) 1].
  Lemma dead_body_hl : chl env0 [te_results env0] dead_body [] (te_results env0).
  Proof.
    unfold dead_body. eapply HL_cut with (b := []); [reflexivity|].
    eapply (HL_dead valty VT_I32 (core_optype env0) (core_opdead env0) (bt_params env0) (bt_results env0)
              _ W_Unreachable 0%N [] [] []); [reflexivity|]. left. auto.
  Qed.
  Theorem check_body_complete_hl_refuted :
    exists e body, bts e body /\ chl e [te_results e] body [] (te_results e) /\ check_body e body = false.
  Proof.
    exists env0, dead_body. split; [repeat constructor|]. split; [exact dead_body_hl|]. vm_compute. reflexivity.
  Qed.
  (* [bts] is needed: a block type with an absent type index is typed [] -> [] by [bt_params] / [bt_results]; the checker rejects it *)
  Definition bad_bt_body : list rt := [RBlock (BT_Func 7) [] 0 1].
  Lemma bad_bt_ht : cht env0 [te_results env0] bad_bt_body [] (te_results env0).
  Proof.
    unfold bad_bt_body. eapply HT_cons; [|apply HT_nil].
    apply (HT_block valty VT_I32 (core_optype env0) (core_opdead env0) (bt_params env0) (bt_results env0)
             _ (BT_Func 7) [] 0%N 1%N []). apply HT_nil.
  Qed.
  Theorem check_body_complete_nobts_refuted :
    exists e body, no_dead body /\ cht e [te_results e] body [] (te_results e) /\ check_body e body = false.
  Proof.
    exists env0, bad_bt_body. split; [repeat constructor; discriminate|]. split; [exact bad_bt_ht|]. vm_compute. reflexivity.
  Qed.
End Needed.

Module Examples.
  Definition P (o : wop) : rt := RPlain o 0.
  Definition ma (a : N) : w_memarg := {| wa_align := a; wa_offset := 16; wa_memory := 0 |}.
  Definition env : tenv :=
    {| te_locals := [VT_I32; VT_I64];
       te_globals := [(VT_I32, true); (VT_I64, false)];
       te_tys := [([VT_I32; VT_I32], [VT_I32; VT_I32]); ([], [])];
       te_results := [VT_I32];
       te_has_mem := true |}.
  Definition env_nomem : tenv :=
    {| te_locals := te_locals env; te_globals := te_globals env; te_tys := te_tys env; te_results := te_results env;
       te_has_mem := false |}.
  Definition env_f32 : tenv :=
    {| te_locals := [VT_F32]; te_globals := []; te_tys := []; te_results := [VT_F32]; te_has_mem := false |}.

  (* loop (local.get 0; br_if 0) end; i32.const 1 *)
  Example ok_loop_br_if :
    check_body env [RLoop BT_Empty [P (W_LocalGet 0); RBrIf 0 0] 0 0; P (W_I32Const 1)] = true.
  Proof. vm_compute. reflexivity. Qed.
  (* a loop with parameters: a branch to it consumes the PARAMETERS *)
  Example ok_loop_params :
    check_body env [P (W_I32Const 1); P (W_I32Const 2);
                    RLoop (BT_Func 0) [P (W_LocalGet 0); RBrIf 0 0] 0 0; P W_I32Add] = true.
  Proof. vm_compute. reflexivity. Qed.
  (* i32.const 1; i32.const 2; block (i32 i32) -> (i32 i32)  i32.add; local.get 0  end; i32.add *)
  Example ok_multi_value :
    check_body env [P (W_I32Const 1); P (W_I32Const 2);
                    RBlock (BT_Func 0) [P W_I32Add; P (W_LocalGet 0)] 0 0; P W_I32Add] = true.
  Proof. vm_compute. reflexivity. Qed.
  Example ok_br_table :
    check_body env [RBlock BT_Empty [RBlock BT_Empty [P (W_LocalGet 0); RBrTable [0%N; 1%N] 1 0] 0 0] 0 0;
                    P (W_I32Const 0)] = true.
  Proof. vm_compute. reflexivity. Qed.
  (* dead code after br: an i32.add without operands (polymorphic stack) *)
  Example ok_dead_after_br :
    check_body env [RBlock (BT_Val VT_I32) [P (W_I32Const 1); RBr 0 0; P W_I32Add] 0 0] = true.
  Proof. vm_compute. reflexivity. Qed.
  (* dead select on unknown operands, then used as an i64 and as an i32 *)
  Example ok_dead_select :
    check_body env [P W_Unreachable; P W_Select; P (W_LocalSet 1); P W_Select] = true.
  Proof. vm_compute. reflexivity. Qed.
  Example ok_memory :
    check_body env [P (W_I32Const 0); P (W_I32Load (ma 2)); P (W_I32Const 0); P (W_I64Const 1); P (W_I64Store8 (ma 0));
                    P (W_MemorySize 0); P (W_MemoryGrow 0); P W_Drop] = true.
  Proof. vm_compute. reflexivity. Qed.
  Example ok_if_else :
    check_body env [P (W_LocalGet 0); RIf (BT_Val VT_I32) [P (W_I32Const 1)] (Some (0%N, [P (W_I32Const 2)])) 0 0] = true.
  Proof. vm_compute. reflexivity. Qed.
  Example ok_global_set : check_body env [P (W_I32Const 0); P (W_GlobalSet 0); P (W_I32Const 0)] = true.
  Proof. vm_compute. reflexivity. Qed.
  Example ok_return : check_body env [P (W_I32Const 0); P W_Return; P W_I64Add; P W_Drop] = true.
  Proof. vm_compute. reflexivity. Qed.
  (* a huge index is not expanded *)
  Example rej_huge_index : check_body env [P (W_LocalGet 4294967295)] = false.
  Proof. vm_compute. reflexivity. Qed.

  Example rej_add_i32_i64 : check_body env [P (W_I32Const 1); P (W_I64Const 2); P W_I32Add] = false.
  Proof. vm_compute. reflexivity. Qed.
  Example rej_missing_operand : check_body env [P (W_I32Const 1); P W_I32Add] = false.
  Proof. vm_compute. reflexivity. Qed.
  Example rej_if_result_no_else :
    check_body env [P (W_I32Const 1); RIf (BT_Val VT_I32) [P (W_I32Const 2)] None 0 0] = false.
  Proof. vm_compute. reflexivity. Qed.
  Example rej_br_wrong_type : check_body env [RBlock (BT_Val VT_I32) [P (W_I64Const 1); RBr 0 0] 0 0] = false.
  Proof. vm_compute. reflexivity. Qed.
  Example rej_local_range : check_body env [P (W_LocalGet 2)] = false.
  Proof. vm_compute. reflexivity. Qed.
  Example rej_global_immutable : check_body env [P (W_I64Const 0); P (W_GlobalSet 1); P (W_I32Const 0)] = false.
  Proof. vm_compute. reflexivity. Qed.
  Example rej_load_no_memory : check_body env_nomem [P (W_I32Const 0); P (W_I32Load (ma 2))] = false.
  Proof. vm_compute. reflexivity. Qed.
  Example ok_load_memory : check_body env [P (W_I32Const 0); P (W_I32Load (ma 2))] = true.
  Proof. vm_compute. reflexivity. Qed.
  Example rej_over_aligned : check_body env [P (W_I32Const 0); P (W_I32Load (ma 3))] = false.
  Proof. vm_compute. reflexivity. Qed.
  Example rej_memory_index :
    check_body env [P (W_I32Const 0); P (W_I32Load {| wa_align := 0; wa_offset := 0; wa_memory := 1 |})] = false.
  Proof. vm_compute. reflexivity. Qed.
  Example rej_dead_value_left : check_body env [P (W_I32Const 0); P W_Return; P (W_I32Const 0); P (W_I32Const 0)] = false.
  Proof. vm_compute. reflexivity. Qed.
  Example rej_dead_type_error : check_body env [P W_Unreachable; P (W_I64Const 1); P W_I32Eqz] = false.
  Proof. vm_compute. reflexivity. Qed.
  Example rej_br_table_labels :
    check_body env [RBlock (BT_Val VT_I32) [P (W_I32Const 0); P (W_I32Const 0); RBrTable [0%N] 1 0] 0 0] = true /\
    check_body env [RBlock (BT_Val VT_I32) [RBlock BT_Empty [P (W_I32Const 0); RBrTable [0%N] 1 0] 0 0; P (W_I32Const 0)] 0 0] = false.
  Proof. vm_compute. auto. Qed.
  Example rej_absent_block_type : check_body env [RBlock (BT_Func 2) [] 0 0; P (W_I32Const 0)] = false.
  Proof. vm_compute. reflexivity. Qed.
  Example rej_non_core : check_body env [P (W_F32Const 0); P W_Drop; P (W_I32Const 0)] = false.
  Proof. vm_compute. reflexivity. Qed.

  (* where the checker is STRICTER than a real validator (the core has no select on f32; an unknown left by a dead
     select is known to be i32 or i64): both are accepted by wasmparser *)
  Example strict_select_f32 : check_body env_f32 [P (W_LocalGet 0); P (W_LocalGet 0); P (W_I32Const 0); P W_Select] = false.
  Proof. vm_compute. reflexivity. Qed.
  Example strict_dead_select_f32 : check_body env_f32 [P W_Unreachable; P W_Select] = false.
  Proof. vm_compute. reflexivity. Qed.
  (* br_table in dead code whose targets have different types: accepted by wasmparser (each target is checked against
     the polymorphic stack), rejected here and by the declarative rule *)
  Example strict_dead_br_table :
    check_body env [RBlock BT_Empty [P W_Unreachable; RBrTable [0%N] 1 0] 0 0; P (W_I32Const 0)] = false.
  Proof. vm_compute. reflexivity. Qed.

  (* the accepted examples are declaratively typed, and so is what the round trip emits for them *)
  Example ok_dead_after_br_typed :
    cht env [te_results env] (fst (nf_rt_list false [RBlock (BT_Val VT_I32) [P (W_I32Const 1); RBr 0 0; P W_I32Add] 0 0]))
        [] (te_results env).
  Proof. apply check_body_nf_typed. vm_compute. reflexivity. Qed.
End Examples.

Print Assumptions chk_sound.
Print Assumptions chk_sound_known.
Print Assumptions check_body_sound.
Print Assumptions check_body_nf_typed.
Print Assumptions chk_complete.
Print Assumptions check_body_complete.
Print Assumptions check_body_bts.
Print Assumptions check_body_iff.
Print Assumptions check_body_nf.
Print Assumptions hl_no_dead.
Print Assumptions check_body_complete_hl.
Print Assumptions mem_align_pow.
Print Assumptions Needed.check_body_complete_hl_refuted.
Print Assumptions Needed.check_body_complete_nobts_refuted.
Print Assumptions Examples.ok_dead_after_br_typed.
