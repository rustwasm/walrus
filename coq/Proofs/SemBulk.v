(* C01 / C06, bulk memory: on the machine of Model/SemBulk.v (the module machine plus memory.fill / copy / init, data.drop and the
   data index space) the output module - renumbered as in Proofs/SemMod.v, data segments renumbered, unused passive ones deleted - behaves
   as the input, also through instantiation ([instantiate_b]).  Only the four operators have a renaming lemma ([bulk_op_renamed]) and
   specifications ([mem_copy_spec]: as if the source had been read first); calls and locals come from Proofs/SemMod.v through [lens_b]. *)
From Coq Require Import List NArith ZArith Bool Lia. Import ListNotations.
From WV Require Import Gen.Ops Model.Common Model.IR Model.ParseFn Model.ParseSpec Model.EmitFn
  Model.BodySpec Model.Sem Model.SemCore Model.SemMod Model.Inst Model.SemBulk.
From WV Require Import Proofs.ParseFn Proofs.Sem Proofs.Fixpoint Proofs.ModFix10 Proofs.SemCore Proofs.SemMod Proofs.Inst.

Definition is_bulk_w (w : wins) : bool := match w with WOp o => is_bulk o | _ => false end.
Definition data_index_of (o : wop) : option N := match o with W_MemoryInit d _ | W_DataDrop d => Some d | _ => None end.
Definition bulk_mems_of (o : wop) : list N :=
  match o with W_MemoryInit _ m => [m] | W_MemoryCopy a b => [a; b] | W_MemoryFill m => [m] | _ => [] end.
Definition datas_used (l : list rt) : list N :=
  flat_map (fun o => match data_index_of o with Some d => [d] | None => [] end) (ops_of l).
Definition bulk_mems_used (l : list rt) : list N := flat_map bulk_mems_of (ops_of l).
Lemma bulk_mems_used_in l o m : In o (ops_of l) -> In m (bulk_mems_of o) -> In m (bulk_mems_used l).
Proof. intros Ho Hm. unfold bulk_mems_used. apply in_flat_map. exists o. split; assumption. Qed.

Lemma is_bulk_inv o : is_bulk o = true ->
  (exists d m, o = W_MemoryInit d m) \/ (exists d, o = W_DataDrop d) \/ (exists a b, o = W_MemoryCopy a b) \/ (exists m, o = W_MemoryFill m).
Proof. destruct o; try discriminate; intros _; [left|right; left|right; right; left|right; right; right]; eauto. Qed.

(* the four are the constructors number 147 to 150: the generated codec keeps "being one of the four" ([codec_tag]) *)
Lemma is_bulk_tag o : is_bulk o = ((146 <? WV.Proofs.Codec.op_tag o) && (WV.Proofs.Codec.op_tag o <? 151))%N.
Proof. destruct o; reflexivity. Qed.
Lemma bulk_codec : forall i2id id2i o p w, decode_plain i2id o = Some p -> encode_plain id2i p = Some w ->
  is_bulk w = is_bulk o.
Proof. intros i2id id2i o p w H H0. rewrite !is_bulk_tag, (WV.Proofs.Codec.codec_tag _ _ _ _ _ H H0). reflexivity. Qed.

Section RenBulk.
  Variable cx : pctx.
  Variable ecx : ectx.
  (* the renumbering of the data segments induced by decode-then-encode *)
  Definition rd (i : N) : N := ex_id2i ecx S_data (px_i2id cx S_data i).

  Lemma nf_op_memory_init d m : nf_op cx ecx (W_MemoryInit d m) = WOp (W_MemoryInit (rd d) (rm cx ecx m)).
  Proof. reflexivity. Qed.
  Lemma nf_op_data_drop d : nf_op cx ecx (W_DataDrop d) = WOp (W_DataDrop (rd d)).
  Proof. reflexivity. Qed.
  Lemma nf_op_memory_copy a b : nf_op cx ecx (W_MemoryCopy a b) = WOp (W_MemoryCopy (rm cx ecx a) (rm cx ecx b)).
  Proof. reflexivity. Qed.
  Lemma nf_op_memory_fill m : nf_op cx ecx (W_MemoryFill m) = WOp (W_MemoryFill (rm cx ecx m)).
  Proof. reflexivity. Qed.

  Lemma nf_op_nonbulk o : is_bulk o = false -> is_bulk_w (nf_op cx ecx o) = false.
  Proof.
    intros H. unfold nf_op, dec. destruct (decode_plain (px_i2id cx) o) as [p|] eqn:Hd.
    - destruct (encode_plain (ex_id2i ecx) p) as [w|] eqn:He; [|reflexivity].
      cbn [is_bulk_w]. rewrite (bulk_codec _ _ _ _ _ Hd He). exact H.
    - reflexivity.
  Qed.

  (* THE OPERATOR-LEVEL HYPOTHESIS of the abstract theorem ([nf_equiv_renamed_on], first premise) for the four operators: the
     slot maps compensate the renumberings of the indices the operator mentions, and the identity it reaches names the same bytes *)
  Theorem bulk_op_renamed : forall (E E' : benv) rb rb' cur o s, is_bulk o = true ->
    (forall d, data_index_of o = Some d -> be_dslot E' (rd d) = be_dslot E d) ->
    (forall d, data_index_of o = Some d -> be_datas E' (be_dslot E d) = be_datas E (be_dslot E d)) ->
    (forall m, In m (bulk_mems_of o) -> me_mslot (be_menv E') (rm cx ecx m) = me_mslot (be_menv E) m) ->
    bulk_sem E' rb' cur (nf_op cx ecx o) s = bulk_sem E rb cur (WOp o) s.
  Proof.
    intros E E' rb rb' cur o s Hb Hd Hbs Hm. destruct (is_bulk_inv o Hb) as [(d & m & ->)|[(d & ->)|[(a & b & ->)|(m & ->)]]].
    - rewrite nf_op_memory_init. cbn [bulk_sem bulk_op]. rewrite (Hd _ eq_refl), (Hbs _ eq_refl), (Hm m); [reflexivity|cbn; auto].
    - rewrite nf_op_data_drop. cbn [bulk_sem bulk_op]. rewrite (Hd _ eq_refl), (Hbs _ eq_refl). reflexivity.
    - rewrite nf_op_memory_copy. cbn [bulk_sem bulk_op]. rewrite (Hm a), (Hm b); [reflexivity|cbn; auto|cbn; auto].
    - rewrite nf_op_memory_fill. cbn [bulk_sem bulk_op]. rewrite (Hm m); [reflexivity|cbn; auto].
  Qed.
End RenBulk.

Lemma mget_mod a : forall m, (mget a m mod 256 = mget a m)%N.
Proof.
  induction m as [|[a0 b0] m IH]; cbn [mget]; [reflexivity|].
  destruct (a =? a0)%N; [apply N.mod_mod; discriminate|exact IH].
Qed.
Lemma mget_mset a b x : forall m, mget x (mset a b m) = if (x =? a)%N then (b mod 256)%N else mget x m.
Proof.
  induction m as [|[a0 b0] m IH]; cbn [mset mget].
  - destruct (x =? a)%N; reflexivity.
  - destruct (N.eqb_spec a a0) as [->|Hne]; cbn [mget].
    + destruct (N.eqb_spec x a0); reflexivity.
    + rewrite IH. destruct (N.eqb_spec x a0) as [->|_]; [|reflexivity].
      destruct (N.eqb_spec a0 a); [congruence|reflexivity].
Qed.
Definition within (d n x : N) : bool := ((d <=? x) && (x <? d + n))%N.

Lemma fill_bytes_spec v : forall n a m x,
  mget x (fill_bytes n a v m) = if within a (N.of_nat n) x then (v mod 256)%N else mget x m.
Proof.
  unfold within. induction n as [|n IH]; intros a m x; cbn [fill_bytes].
  - destruct (N.leb_spec a x), (N.ltb_spec x (a + N.of_nat 0)); cbn [andb]; try reflexivity; lia.
  - rewrite IH, mget_mset.
    destruct (N.leb_spec (a + 1) x), (N.ltb_spec x (a + 1 + N.of_nat n)), (N.leb_spec a x), (N.ltb_spec x (a + N.of_nat (S n))), (N.eqb_spec x a);
      cbn [andb]; try reflexivity; lia.
Qed.
Lemma write_bytes_spec : forall l a m x,
  mget x (write_bytes a l m) = if within a (N.of_nat (length l)) x then (nth (N.to_nat (x - a)) l 0 mod 256)%N else mget x m.
Proof.
  unfold within. induction l as [|b l IH]; intros a m x; cbn [write_bytes length].
  - destruct (N.leb_spec a x), (N.ltb_spec x (a + N.of_nat 0)); cbn [andb]; try reflexivity; lia.
  - rewrite IH, mget_mset.
    destruct (N.leb_spec (a + 1) x), (N.ltb_spec x (a + 1 + N.of_nat (length l))), (N.leb_spec a x), (N.ltb_spec x (a + N.of_nat (S (length l)))), (N.eqb_spec x a);
      cbn [andb]; try reflexivity; try lia.
    + replace (N.to_nat (x - a)) with (S (N.to_nat (x - (a + 1)))) by lia. reflexivity.
    + subst x. rewrite N.sub_diag. cbn [N.to_nat nth]. apply N.mod_mod. discriminate.
Qed.
(* memory.copy, low-to-high, when the destination is not above the source: AS IF THE SOURCE HAD BEEN READ COMPLETELY FIRST *)
Lemma copy_fwd_spec : forall n d s m x, (d <= s)%N ->
  mget x (copy_fwd n d s m) = if within d (N.of_nat n) x then mget (s + (x - d)) m else mget x m.
Proof.
  unfold within. induction n as [|n IH]; intros d s m x Hds; cbn [copy_fwd].
  - destruct (N.leb_spec d x), (N.ltb_spec x (d + N.of_nat 0)); cbn [andb]; try reflexivity; lia.
  - rewrite IH by lia. rewrite !mget_mset.
    destruct (N.leb_spec (d + 1) x), (N.ltb_spec x (d + 1 + N.of_nat n)), (N.leb_spec d x), (N.ltb_spec x (d + N.of_nat (S n))), (N.eqb_spec x d);
      cbn [andb]; try reflexivity; try lia.
    + destruct (N.eqb_spec (s + 1 + (x - (d + 1))) d); [lia|]. f_equal. lia.
    + subst x. rewrite N.sub_diag, N.add_0_r. apply mget_mod.
Qed.
(* ... and high-to-low, when the destination is not below the source *)
Lemma copy_bwd_spec : forall n d s m x, (s <= d)%N ->
  mget x (copy_bwd n d s m) = if within d (N.of_nat n) x then mget (s + (x - d)) m else mget x m.
Proof.
  unfold within. induction n as [|n IH]; intros d s m x Hsd; cbn [copy_bwd].
  - destruct (N.leb_spec d x), (N.ltb_spec x (d + N.of_nat 0)); cbn [andb]; try reflexivity; lia.
  - rewrite IH by lia. rewrite !mget_mset.
    destruct (N.leb_spec d x), (N.ltb_spec x (d + N.of_nat n)), (N.ltb_spec x (d + N.of_nat (S n))), (N.eqb_spec x (d + N.of_nat n));
      cbn [andb]; try reflexivity; try lia.
    + destruct (N.eqb_spec (s + (x - d)) (d + N.of_nat n)); [lia|]. reflexivity.
    + subst x. rewrite mget_mod. f_equal. lia.
Qed.

(* THE SPECIFICATION of memory.copy, whatever the overlap: in bounds, the three operands are popped and every byte of the destination
   range holds what the corresponding byte of the source range held BEFORE; nothing else changes; out of bounds it traps with the
   state untouched *)
Theorem mem_copy_spec : forall c n s d k, stk c = VI32 n :: VI32 s :: VI32 d :: k ->
  if ((s + n <=? mem_len c) && (d + n <=? mem_len c))%N then
    exists c', mem_copy 0 0 c = Next c' /\ stk c' = k /\ pages c' = pages c /\ globs c' = globs c /\ locs c' = locs c /\
      forall x, mget x (mem c') = if within d n x then mget (s + (x - d)) (mem c) else mget x (mem c)
  else mem_copy 0 0 c = Halt Trap c.
Proof.
  intros c n s d k Hk. unfold mem_copy. cbn [N.eqb andb]. rewrite Hk.
  destruct ((s + n <=? mem_len c) && (d + n <=? mem_len c))%N; [|reflexivity].
  eexists. split; [reflexivity|]. destruct c as [k0 lo gl la me pg mx]. cbn [with_mem stk pages globs locs mem].
  repeat split. intros x. destruct (N.leb_spec d s) as [Hle|Hgt].
  - rewrite copy_fwd_spec by exact Hle. rewrite Nnat.N2Nat.id. reflexivity.
  - rewrite copy_bwd_spec by lia. rewrite Nnat.N2Nat.id. reflexivity.
Qed.
Theorem mem_fill_spec : forall c n v d k, stk c = VI32 n :: VI32 v :: VI32 d :: k ->
  if (d + n <=? mem_len c)%N then
    exists c', mem_fill 0 c = Next c' /\ stk c' = k /\ pages c' = pages c /\
      forall x, mget x (mem c') = if within d n x then (v mod 256)%N else mget x (mem c)
  else mem_fill 0 c = Halt Trap c.
Proof.
  intros c n v d k Hk. unfold mem_fill. cbn [N.eqb]. rewrite Hk.
  destruct (d + n <=? mem_len c)%N; [|reflexivity].
  eexists. split; [reflexivity|]. destruct c as [k0 lo gl la me pg mx]. cbn [with_mem stk pages mem].
  repeat split. intros x. rewrite fill_bytes_spec, Nnat.N2Nat.id, N.mod_mod by discriminate. reflexivity.
Qed.
Lemma nth_firstn_lt {A} (d0 : A) : forall n l i, (i < n)%nat -> nth i (firstn n l) d0 = nth i l d0.
Proof. induction n as [|n IH]; intros [|y l] [|i] H; cbn [firstn nth]; try reflexivity; try lia. apply IH. lia. Qed.
Lemma nth_skipn_add {A} (d0 : A) : forall s l i, nth i (skipn s l) d0 = nth (s + i) l d0.
Proof. induction s as [|s IH]; intros [|y l] i; cbn [skipn nth plus]; try reflexivity; [destruct i; reflexivity|apply IH]. Qed.
Theorem mem_init_spec : forall c bs n s d k, stk c = VI32 n :: VI32 s :: VI32 d :: k ->
  if ((s + n <=? N.of_nat (length bs)) && (d + n <=? mem_len c))%N then
    exists c', mem_init 0 bs c = Next c' /\ stk c' = k /\ pages c' = pages c /\
      forall x, mget x (mem c') = if within d n x then (nth (N.to_nat (s + (x - d))) bs 0 mod 256)%N else mget x (mem c)
  else mem_init 0 bs c = Halt Trap c.
Proof.
  intros c bs n s d k Hk. unfold mem_init. cbn [N.eqb]. rewrite Hk.
  destruct (N.leb_spec (s + n) (N.of_nat (length bs))) as [Hs|Hs]; cbn [andb]; [|reflexivity].
  destruct (d + n <=? mem_len c)%N; [|reflexivity].
  eexists. split; [reflexivity|]. destruct c as [k0 lo gl la me pg mx]. cbn [with_mem stk pages mem].
  repeat split. intros x. rewrite write_bytes_spec.
  assert (Hl : length (firstn (N.to_nat n) (skipn (N.to_nat s) bs)) = N.to_nat n) by (rewrite firstn_length, skipn_length; lia).
  rewrite Hl, Nnat.N2Nat.id. unfold within. destruct (N.leb_spec d x), (N.ltb_spec x (d + n)); cbn [andb]; try reflexivity.
  f_equal. rewrite nth_firstn_lt by lia. rewrite nth_skipn_add. f_equal. lia.
Qed.

Definition stuck_rb : N -> list rt -> mst -> res mst halt := fun _ _ _ => Stuck.

(* outside the four operators and the calls the machine IS the module machine (and therefore the core machine), lifted *)
Lemma bulk_sem_other : forall E rb cur w s, is_call_w w = false -> is_bulk_w w = false ->
  bulk_sem E rb cur w s = lift_step_b (snd s) (op_sem (be_menv E) stuck_rb cur w (fst s)).
Proof.
  intros E rb cur w s Hc Hb. destruct w as [o| | | | | | | | |]; try reflexivity.
  destruct o; try reflexivity; try discriminate Hc; discriminate Hb.
Qed.

Lemma bulk_sem_never_falls : forall E rb cur o s, marks_unreachable o = true ->
  exists h s', bulk_sem E rb cur (WOp o) s = Halt h s'.
Proof. intros E rb cur o s H. destruct (marks_unreachable_inv o H) as [->| ->]; eexists _, _; reflexivity. Qed.

Lemma run_body_b_live : forall E fuel k id body s, run_body_b E fuel k id (live body) s = run_body_b E fuel k id body s.
Proof.
  intros E fuel k id body s. destruct k as [|k]; [reflexivity|]. cbn [run_body_b]. unfold live.
  apply nf_equiv; try reflexivity. intros o s0 Hu. apply bulk_sem_never_falls, Hu.
Qed.

(* the bulk machine is the instance [lens_b] of the machines of Proofs/SemMod.v *)
Definition lens_b : lens bst :=
  {| core := fun s => fst (fst s); put := fun s c => ((c, snd (fst s)), snd s); exhaust := fun s => ((fst (fst s), true), snd s);
     core_put := fun _ _ => eq_refl; put_put := fun _ _ _ => eq_refl;
     put_core := fun s => match s with ((c, b), d) => eq_refl end;
     core_exhaust := fun _ => eq_refl; exhaust_put := fun _ _ => eq_refl |}.

Lemma call_fn_b_g E rb id s : call_fn_b E rb id s = gcall_fn bst lens_b (be_menv E) rb id s.
Proof.
  destruct s as [[c0 b0] d0]. unfold call_fn_b, gcall_fn. cbn [core put lens_b fst snd].
  destruct (me_funcs (be_menv E) id) as [[[ti ls] body]|]; [|reflexivity].
  destruct (me_tys (be_menv E) ti) as [[ps rs]|]; [|reflexivity].
  cbv zeta. destruct (all_ty ps _); [|reflexivity].
  destruct (rb id body _) as [[[c b] d]|[|j] [[c b] d]|[| |] [[c b] d]| |]; try reflexivity;
    unfold gafter, gfinish, finish_b, finish; cbn [core put lens_b fst snd]; destruct (all_ty rs _); reflexivity.
Qed.
Lemma call_ind_b_g E rb ti tb s : call_ind_b E rb ti tb s = gcall_ind bst lens_b (be_menv E) rb ti tb s.
Proof.
  destruct s as [[c0 b0] d0]. unfold call_ind_b, gcall_ind, ind_target. cbn [core put lens_b fst snd].
  destruct (me_tslot (be_menv E) tb =? 0)%N; [|reflexivity].
  destruct (stk c0) as [|[i|i] k]; try reflexivity.
  destruct (nth_optN i (me_tbl (be_menv E))) as [[id|]|]; try reflexivity.
  destruct (me_funcs (be_menv E) id) as [[[tj ls] body]|]; [|reflexivity].
  destruct (me_tys (be_menv E) ti) as [[ps rs]|]; [|reflexivity].
  destruct (me_tys (be_menv E) tj) as [[ps' rs']|]; [|reflexivity].
  destruct (vlist_eqb ps ps' && vlist_eqb rs rs'); [|reflexivity].
  apply call_fn_b_g.
Qed.
Lemma lift_steps_in s (r : step st halt) : lift_step_b (snd s) (lift_step (snd (fst s)) r) = lift_step_in bst lens_b s r.
Proof. destruct r; reflexivity. Qed.
Lemma lift_pop_b_in {A} (f : st -> option (A * st)) s : lift_pop_b (lift_pop f) s = lift_pop_in bst lens_b f s.
Proof. destruct s as [[c0 b0] d0]. unfold lift_pop_b, lift_pop, lift_pop_in. cbn [core put lens_b fst snd]. destruct (f c0) as [[a c]|]; reflexivity. Qed.
Lemma bulk_sem_core E rb cur o s : is_call o = false -> is_bulk o = false ->
  bulk_sem E rb cur (WOp o) s =
  lift_step_in bst lens_b s (core_op (me_lslot (be_menv E) cur) (me_gslot (be_menv E)) (me_mslot (be_menv E)) o (fst (fst s))).
Proof. intros Hc Hb. rewrite (bulk_sem_other E rb cur (WOp o) s Hc Hb), (op_sem_noncall _ _ _ (WOp o) _ Hc). apply lift_steps_in. Qed.
Lemma bulk_sem_bulk E rb cur o : is_bulk o = true -> bulk_sem E rb cur (WOp o) = bulk_op E o.
Proof. intros Hb. destruct (is_bulk_inv o Hb) as [(d & m & ->)|[(d & ->)|[(a & b & ->)|(m & ->)]]]; reflexivity. Qed.

Lemma mem_fill_blind mi L G : blind L G (mem_fill mi). Proof. unfold mem_fill, mem_len. blind. Qed.
Lemma mem_copy_blind md ms L G : blind L G (mem_copy md ms). Proof. unfold mem_copy, mem_len. blind. Qed.
Lemma mem_init_blind mi bs L G : blind L G (mem_init mi bs). Proof. unfold mem_init, mem_len. blind. Qed.

Lemma bulk_op_blind E o : is_bulk o = true -> blind_in bst lens_b (bulk_op E o).
Proof.
  intros H L s.
  destruct (is_bulk_inv o H) as [(di & m & ->)|[(di & ->)|[(a & b0 & ->)|(m & ->)]]]; cbn [bulk_op];
    try (destruct (be_datas E (be_dslot E di)) as [bs|]; [|reflexivity]); try reflexivity;
    change (snd (relocs_in bst lens_b L s)) with (snd s); change (snd (fst (relocs_in bst lens_b L s))) with (snd (fst s));
    rewrite !lift_steps_in.
  - apply (lift_step_blind bst lens_b (mem_init _ _)). intros L0. exact (mem_init_blind _ _ (Some L0) None).
  - apply (lift_step_blind bst lens_b (mem_copy _ _)). intros L0. exact (mem_copy_blind _ _ (Some L0) None).
  - apply (lift_step_blind bst lens_b (mem_fill _)). intros L0. exact (mem_fill_blind _ (Some L0) None).
Qed.

(* same dropped list, same exhaustion flag, same state but for the locals, which agree on [U] *)
Definition Rb (U : list N) : bst -> bst -> Prop := Rs bst lens_b U.

Lemma bulk_sem_rel E rb U : forall cur o s t, (forall i, local_index_of o = Some i -> In (me_lslot (be_menv E) cur i) U) -> Rb U s t ->
  step_rel bst halt (Rb U) (bulk_sem E rb cur (WOp o) s) (bulk_sem E rb cur (WOp o) t).
Proof.
  intros cur o s t HU HR. destruct (is_call o) eqn:Hc; [|destruct (is_bulk o) eqn:Hb].
  - destruct (is_call_inv o Hc) as [[f ->]|(ti & tb & ->)]; cbn [bulk_sem]; revert s t HR; apply blind_rel; intros L s.
    + rewrite !call_fn_b_g. apply gcall_fn_blind.
    + rewrite !call_ind_b_g. apply gcall_ind_blind.
  - rewrite (bulk_sem_bulk E rb cur o Hb). revert s t HR. apply blind_rel, bulk_op_blind, Hb.
  - rewrite !bulk_sem_core by assumption.
    apply (lift_step_rel bst lens_b U (core_op (me_lslot (be_menv E) cur) (me_gslot (be_menv E)) (me_mslot (be_menv E)) o)); [|exact HR].
    intros c1 c2. apply core_op_rel, HU.
Qed.

(* THE FRAME LEMMA of the bulk machine: a body run on two frames that agree on the slots of the locals it mentions gives
   related results (same dropped list) *)
Theorem run_body_b_frames : forall E fuel k id body U c F1 F2 b d,
  (forall i, In i (locals_used body) -> In (me_lslot (be_menv E) id i) U) -> agree U F1 F2 ->
  res_rel bst halt (Rb U) (run_body_b E fuel k id body ((callee_st c F1, b), d)) (run_body_b E fuel k id body ((callee_st c F2, b), d)).
Proof.
  intros E fuel k id body U c F1 F2 b d HU Ha. destruct k as [|k]; [exact I|].
  cbn [run_body_b].
  apply (eval_rel bst halt pop_cond_b pop_index_b unwind_b (enter_b (me_tys (be_menv E))) leave_b
           (bulk_sem E (run_body_b E fuel k) id) (arity (me_tys (be_menv E))) (loop_arity (me_tys (be_menv E))) (Rb U)
           (fun o => forall i, local_index_of o = Some i -> In (me_lslot (be_menv E) id i) U)).
  - intros s t HR. unfold pop_cond_b, pop_cond_m. rewrite !lift_pop_b_in.
    revert s t HR. apply (lift_pop_rel_in bst lens_b U pop_cond). intros L. apply (pop_cond_restore (Some L) None).
  - intros s t HR. unfold pop_index_b, pop_index_m. rewrite !lift_pop_b_in.
    revert s t HR. apply (lift_pop_rel_in bst lens_b U pop_index). intros L. apply (pop_index_restore (Some L) None).
  - intros n. apply (lift_rel_in bst lens_b U (unwind n)). intros L. apply (unwind_restore (Some L) None).
  - intros bt. apply (lift_rel_in bst lens_b U (enter (me_tys (be_menv E)) bt)). reflexivity.
  - apply (lift_rel_in bst lens_b U leave). reflexivity.
  - intros o Ho s t HR. apply bulk_sem_rel; assumption.
  - intros o Ho i Hi. apply HU. exact (used_in local_index_of body o i Ho Hi).
  - exists F2. split; [reflexivity|exact Ha].
Qed.

Section RoundtripB.
  Variable E E' : benv.                  (* the input / the output module *)
  Variable cxo : N -> pctx.              (* the parse / emit context of each function (by identity) *)
  Variable ecxo : N -> ectx.
  Notation M := (be_menv E).
  Notation M' := (be_menv E').

  (* what is asked, beyond [fn_ok] of Proofs/SemMod.v, of a function [id] with body [body]: about the data indices and the
     memory indices of the bulk operators that OCCUR in the live part of the body *)
  Record data_ok (id : N) (body : list rt) : Prop := {
    (* the data slot map compensates the renumbering of the data segments ... *)
    ok_dslot : forall d, In d (datas_used (live body)) -> be_dslot E' (rd (cxo id) (ecxo id) d) = be_dslot E d;
    (* ... the identity names the same bytes in both modules (a segment nothing mentions may be missing from the output) ... *)
    ok_datas : forall d, In d (datas_used (live body)) -> be_datas E' (be_dslot E d) = be_datas E (be_dslot E d);
    (* ... and the memory slot map compensates the renumbering of the memories *)
    ok_bmslot : forall m, In m (bulk_mems_used (live body)) -> me_mslot M' (rm (cxo id) (ecxo id) m) = me_mslot M m
  }.

  Hypothesis H_funcs : funcs_ok M M' cxo ecxo.
  Hypothesis H_tbl : me_tbl M' = me_tbl M.
  Hypothesis H_data : forall id ti ls body, me_funcs M id = Some (ti, ls, body) -> data_ok id body.

  Section DepthB.
    Variable rb rb' : N -> list rt -> bst -> res bst halt.
    Hypothesis H_rb : forall id ti ls body s, me_funcs M id = Some (ti, ls, body) ->
      rb' id (out_body (cxo id) (ecxo id) body) s = rb id body s.
    Hypothesis H_live : forall id body s, rb id (live body) s = rb id body s.
    Hypothesis H_fr : forall id body U c F1 F2 b d,
      (forall i, In i (locals_used body) -> In (me_lslot M id i) U) -> agree U F1 F2 ->
      res_rel bst halt (Rb U) (rb id body ((callee_st c F1, b), d)) (rb id body ((callee_st c F2, b), d)).

    (* THE RENAMING LEMMA of the bulk machine.  Calls: [gcall_fn_equiv] / [gcall_ind_equiv] of Proofs/SemMod.v.  The four
       operators: [bulk_op_renamed].  EVERY OTHER OPERATOR: [op_sem_renamed_noncall] of Proofs/SemMod.v, as it stands *)
    Lemma bulk_sem_renamed : forall id body o s, fn_ok M M' cxo ecxo id body -> data_ok id body -> In o (ops_of (live body)) ->
      bulk_sem E' rb' id (nf_op (cxo id) (ecxo id) o) s = bulk_sem E rb id (WOp o) s.
    Proof.
      intros id body o s Hok Hdk Ho.
      assert (Hfr : forall id body U s c F1 F2,
                (forall i, In i (locals_used body) -> In (me_lslot M id i) U) -> agree U F1 F2 ->
                res_rel bst halt (Rs bst lens_b U) (rb id body (put lens_b s (callee_st c F1))) (rb id body (put lens_b s (callee_st c F2))))
        by (intros id0 body0 U s1 c F1 F2; apply H_fr).
      destruct (is_call o) eqn:Hc; [|destruct (is_bulk o) eqn:Hb].
      - destruct (is_call_inv o Hc) as [[f ->]|(ti & tb & ->)].
        + rewrite nf_op_call. cbn [bulk_sem]. rewrite (ok_fslot _ _ _ _ _ _ Hok _ Ho), !call_fn_b_g.
          apply (gcall_fn_equiv M M' cxo ecxo H_funcs bst lens_b rb rb' H_rb H_live Hfr).
        + rewrite nf_op_call_indirect. cbn [bulk_sem]. rewrite !call_ind_b_g.
          apply (gcall_ind_equiv M M' cxo ecxo H_funcs H_tbl bst lens_b rb rb' H_rb H_live Hfr id body); assumption.
      - apply bulk_op_renamed; [exact Hb| | |].
        + intros d Hd. apply (ok_dslot _ _ Hdk). exact (used_in data_index_of _ o d Ho Hd).
        + intros d Hd. apply (ok_datas _ _ Hdk). exact (used_in data_index_of _ o d Ho Hd).
        + intros m Hm. apply (ok_bmslot _ _ Hdk). exact (bulk_mems_used_in _ o m Ho Hm).
      - rewrite (bulk_sem_other E' rb' id _ s (nf_op_noncall _ _ o Hc) (nf_op_nonbulk _ _ o Hb)).
        rewrite (bulk_sem_other E rb id (WOp o) s Hc Hb). f_equal.
        apply (op_sem_renamed_noncall M M' cxo ecxo stuck_rb stuck_rb id body); assumption.
    Qed.
  End DepthB.

  Lemma enter_b_nf_bt : forall id body bt s, fn_ok M M' cxo ecxo id body ->
    enter_b (me_tys M') (nf_bt (cxo id) (ecxo id) bt) s = enter_b (me_tys M) bt s.
  Proof.
    intros id body bt s Hok. unfold enter_b, lift_b. f_equal. apply (enter_m_nf_bt M M' cxo ecxo id body bt (fst s) Hok).
  Qed.

  Lemma run_body_b_equiv : forall fuel k id ti ls body s, me_funcs M id = Some (ti, ls, body) ->
    run_body_b E' fuel k id (out_body (cxo id) (ecxo id) body) s = run_body_b E fuel k id body s.
  Proof.
    intros fuel k. induction k as [|k IH]; intros id ti ls body s Ef; [reflexivity|].
    pose proof (H_funcs id) as Hf. rewrite Ef in Hf. destruct Hf as (Hok & _).
    pose proof (H_data id ti ls body Ef) as Hdk.
    rewrite <- (run_body_b_live E fuel (S k) id body s).
    cbn [run_body_b]. unfold out_body. rewrite eval_ren_t. rewrite <- (nf_rt_idem body). fold (live body).
    apply (nf_equiv_renamed_on bst halt pop_cond_b pop_index_b unwind_b leave_b (cxo id) (ecxo id)
             (bulk_sem E (run_body_b E fuel k) id) (bulk_sem E' (run_body_b E' fuel k) id)
             (enter_b (me_tys M)) (enter_b (me_tys M'))
             (arity (me_tys M)) (arity (me_tys M')) (loop_arity (me_tys M)) (loop_arity (me_tys M'))).
    - intros o Ho s0. apply (bulk_sem_renamed _ _ IH (run_body_b_live E fuel k) (run_body_b_frames E fuel k) id body o s0 Hok Hdk Ho).
    - intros bt s0. apply (enter_b_nf_bt id body bt s0 Hok).
    - intros bt. apply (arities_nf_bt (cxo id) (ecxo id) (me_tys M) (me_tys M') (ok_tys _ _ _ _ _ _ Hok) (ok_existing _ _ _ _ _ _ Hok) (ok_tys' _ _ _ _ _ _ Hok)).
    - intros bt. apply (arities_nf_bt (cxo id) (ecxo id) (me_tys M) (me_tys M') (ok_tys _ _ _ _ _ _ Hok) (ok_existing _ _ _ _ _ _ Hok) (ok_tys' _ _ _ _ _ _ Hok)).
    - intros o _ Hu s0. apply bulk_sem_never_falls, Hu.
  Qed.

  Theorem bulk_mod_sem_renamed : forall fuel k id ti ls body o s, me_funcs M id = Some (ti, ls, body) -> In o (ops_of (live body)) ->
    bulk_mod_sem E' fuel k id (nf_op (cxo id) (ecxo id) o) s = bulk_mod_sem E fuel k id (WOp o) s.
  Proof.
    intros fuel k id ti ls body o s Ef Ho. unfold bulk_mod_sem.
    pose proof (H_funcs id) as Hf. rewrite Ef in Hf. destruct Hf as (Hok & _).
    apply (bulk_sem_renamed _ _ (run_body_b_equiv fuel k) (run_body_b_live E fuel k) (run_body_b_frames E fuel k) id body o s Hok (H_data id ti ls body Ef) Ho).
  Qed.

  (* THE THEOREM: every call of every function, with every depth and fuel, from every state and every dropped list: the same results,
     globals, memory, dropped segments, trap / wrong / exhaustion verdict *)
  Theorem bulk_roundtrip_equiv_env : forall k fuel f args s0 dr,
    run_mod_b E' k fuel f args s0 dr = run_mod_b E k fuel f args s0 dr.
  Proof.
    intros k fuel f args s0 dr. unfold run_mod_b. rewrite !call_fn_b_g.
    rewrite (gcall_fn_equiv M M' cxo ecxo H_funcs bst lens_b _ _ (run_body_b_equiv fuel k) (run_body_b_live E fuel k)); [reflexivity|].
    intros id body U s c F1 F2. apply run_body_b_frames.
  Qed.
End RoundtripB.

(* the environment of a module and its data segments ([benv_of] of Model/SemBulk.v is the instance for [cmod_of im tbl]) *)
Definition benv_of_cmod (m : cmod) (ds : list dseg) (lslot : N -> N -> N) (fslot gslot mslot tslot dslot : N -> N) : benv :=
  {| be_menv := env_of m lslot fslot gslot mslot tslot; be_dslot := dslot; be_datas := find_data ds dslot |}.
Lemma benv_of_eq im tbl lslot fslot gslot mslot tslot dslot :
  benv_of im tbl lslot fslot gslot mslot tslot dslot = benv_of_cmod (cmod_of im tbl) (im_datas im) lslot fslot gslot mslot tslot dslot.
Proof. reflexivity. Qed.

(* under an injective slot map the identity of index [d] names segment number [d] *)
Lemma find_data_inj ds dslot : (forall i j, dslot i = dslot j -> i = j) ->
  forall d, find_data ds dslot (dslot d) = option_map seg_bytes (nth_optN d ds).
Proof.
  intros Hinj d. unfold find_data.
  destruct (find (fun p => (dslot (fst p) =? dslot d)%N) (numbered 0 ds)) as [[j sg]|] eqn:Ef.
  - destruct (find_numbered_some (fun i => (dslot i =? dslot d)%N) _ _ _ _ Ef) as (_ & Hn & Hf).
    rewrite N.sub_0_r in Hn. apply N.eqb_eq, Hinj in Hf. subst j. rewrite Hn. reflexivity.
  - destruct (nth_optN d ds) as [sg|] eqn:En; [|reflexivity]. exfalso.
    pose proof (find_numbered_none (fun i => (dslot i =? dslot d)%N) _ _ Ef d sg En) as Hf. cbn beta in Hf.
    rewrite N.add_0_l, N.eqb_refl in Hf. discriminate Hf.
Qed.

(* THE THEOREM ON MODULES: function index [i] of the input module is function index [rf i] of the output module (as in
   [mod_roundtrip_equiv_cmod]); the data segments of the output are numbered differently - data index [d] of a body of function [id]
   has become [rd (cxo id) (ecxo id) d] - and segments nothing mentions may have been deleted *)
Section CmodRoundtripB.
  Variable m m' : cmod.
  Variable ds ds' : list dseg.
  Variable lslot lslot' : N -> N -> N.
  Variable fslot gslot mslot tslot dslot fslot' gslot' mslot' tslot' dslot' : N -> N.
  Variable cxo : N -> pctx.
  Variable ecxo : N -> ectx.
  Variable rf : N -> N.
  Notation E := (benv_of_cmod m ds lslot fslot gslot mslot tslot dslot).
  Notation E' := (benv_of_cmod m' ds' lslot' fslot' gslot' mslot' tslot' dslot').
  Notation M := (env_of m lslot fslot gslot mslot tslot).
  Notation M' := (env_of m' lslot' fslot' gslot' mslot' tslot').

  (* functions: exactly the premises of [mod_roundtrip_equiv_cmod] *)
  Hypothesis H_fslot : forall i, fslot' (rf i) = fslot i.
  Hypothesis H_inj : forall i i2 d d2, nth_optN i (cm_funcs m) = Some d -> nth_optN i2 (cm_funcs m) = Some d2 ->
    fslot i = fslot i2 -> i = i2.
  Hypothesis H_surj : forall j d', nth_optN j (cm_funcs m') = Some d' -> exists i d, nth_optN i (cm_funcs m) = Some d /\ rf i = j.
  Hypothesis H_fn : forall i ti ls body, nth_optN i (cm_funcs m) = Some (ti, ls, body) ->
    fn_ok M M' cxo ecxo (fslot i) body /\
    exists ti' ls', nth_optN (rf i) (cm_funcs m') = Some (ti', ls', out_body (cxo (fslot i)) (ecxo (fslot i)) body) /\
                    nth_optN ti' (cm_tys m') = nth_optN ti (cm_tys m) /\
                    frames_agree M M' (fslot i) ti ls ls' body.
  Hypothesis H_tbl : cm_table m' = map (option_map rf) (cm_table m).
  (* data segments: distinct indices have distinct identities, in both modules (so the renumbering is INJECTIVE on what it is
     asked about); function by function, for the data indices the live part mentions: the slot map of the output compensates the
     renumbering, and the renumbered index names a segment with the same bytes *)
  Hypothesis H_dinj : forall i j, dslot i = dslot j -> i = j.
  Hypothesis H_dinj' : forall i j, dslot' i = dslot' j -> i = j.
  Hypothesis H_dfn : forall i ti ls body, nth_optN i (cm_funcs m) = Some (ti, ls, body) ->
    (forall d, In d (datas_used (live body)) ->
       dslot' (rd (cxo (fslot i)) (ecxo (fslot i)) d) = dslot d /\
       option_map seg_bytes (nth_optN (rd (cxo (fslot i)) (ecxo (fslot i)) d) ds') = option_map seg_bytes (nth_optN d ds)) /\
    (forall mi, In mi (bulk_mems_used (live body)) -> mslot' (rm (cxo (fslot i)) (ecxo (fslot i)) mi) = mslot mi).

  Lemma rd_injective_on_used : forall i ti ls body d1 d2, nth_optN i (cm_funcs m) = Some (ti, ls, body) ->
    In d1 (datas_used (live body)) -> In d2 (datas_used (live body)) ->
    rd (cxo (fslot i)) (ecxo (fslot i)) d1 = rd (cxo (fslot i)) (ecxo (fslot i)) d2 -> d1 = d2.
  Proof.
    intros i ti ls body d1 d2 Hi H1 H2 He. destruct (H_dfn i ti ls body Hi) as (Hd & _).
    apply H_dinj. rewrite <- (proj1 (Hd d1 H1)), <- (proj1 (Hd d2 H2)), He. reflexivity.
  Qed.

  Lemma cmod_data_ok : forall id ti ls body, me_funcs M id = Some (ti, ls, body) -> data_ok E E' cxo ecxo id body.
  Proof.
    intros id ti ls body Ef. cbn [me_funcs env_of] in Ef.
    destruct (find_func_some _ _ _ _ Ef) as (i & Hn & Hi). subst id.
    destruct (H_dfn i ti ls body Hn) as (Hd & Hm).
    constructor; cbn [benv_of_cmod be_dslot be_datas be_menv env_of me_mslot].
    - intros d Hu. apply (Hd d Hu).
    - intros d Hu. destruct (Hd d Hu) as (Hs & Hb).
      rewrite (find_data_inj ds dslot H_dinj d), <- Hs, (find_data_inj ds' dslot' H_dinj'). exact Hb.
    - exact Hm.
  Qed.

  Theorem bulk_roundtrip_equiv : forall k fuel f args s0 dr,
    run_mod_b E' k fuel f args s0 dr = run_mod_b E k fuel f args s0 dr.
  Proof.
    apply (bulk_roundtrip_equiv_env E E' cxo ecxo).
    - exact (cmod_funcs_ok m m' lslot lslot' fslot gslot mslot tslot fslot' gslot' mslot' tslot' cxo ecxo rf H_fslot H_inj H_surj H_fn).
    - cbn [benv_of_cmod be_menv me_tbl env_of]. rewrite H_tbl, map_map. apply map_ext. intros [j|]; [|reflexivity].
      cbn [option_map]. rewrite H_fslot. reflexivity.
    - exact cmod_data_ok.
  Qed.
End CmodRoundtripB.

(* two environments that differ only in the bytes of identities NO LIVE PART MENTIONS behave the same *)
Section DatasExt.
  Variable M : menv.
  Variable dslot : N -> N.
  Variable datas datas' : N -> option (list N).
  Notation E := {| be_menv := M; be_dslot := dslot; be_datas := datas |}.
  Notation E' := {| be_menv := M; be_dslot := dslot; be_datas := datas' |}.
  Hypothesis H_datas : forall id ti ls body d, me_funcs M id = Some (ti, ls, body) -> In d (datas_used (live body)) ->
    datas' (dslot d) = datas (dslot d).

  Section Depth.
    Variable rb rb' : N -> list rt -> bst -> res bst halt.
    Hypothesis H_rb : forall id ti ls body s, me_funcs M id = Some (ti, ls, body) -> rb' id body s = rb id body s.

    Lemma bulk_sem_ext : forall id ti ls body o s, me_funcs M id = Some (ti, ls, body) -> In o (ops_of (live body)) ->
      bulk_sem E' rb' id (WOp o) s = bulk_sem E rb id (WOp o) s.
    Proof.
      intros id ti ls body o s Ef Ho. destruct (is_call o) eqn:Hc; [|destruct (is_bulk o) eqn:Hb].
      - destruct (is_call_inv o Hc) as [[f ->]|(tj & tb & ->)]; cbn [bulk_sem be_menv].
        + rewrite !call_fn_b_g. apply gcall_fn_ext, H_rb.
        + rewrite !call_ind_b_g. apply gcall_ind_ext, H_rb.
      - destruct (is_bulk_inv o Hb) as [(d & m & ->)|[(d & ->)|[(a & b & ->)|(m & ->)]]];
          cbn [bulk_sem bulk_op be_menv be_dslot be_datas]; try reflexivity;
          rewrite (H_datas id ti ls body _ Ef (used_in data_index_of _ _ _ Ho eq_refl)); reflexivity.
      - rewrite !(bulk_sem_other _ _ id (WOp o) s Hc Hb). reflexivity.
    Qed.
  End Depth.

  Lemma run_body_b_ext : forall fuel k id ti ls body s, me_funcs M id = Some (ti, ls, body) ->
    run_body_b E' fuel k id body s = run_body_b E fuel k id body s.
  Proof.
    intros fuel k. induction k as [|k IH]; intros id ti ls body s Ef; [reflexivity|].
    rewrite <- (run_body_b_live E' fuel (S k) id body s), <- (run_body_b_live E fuel (S k) id body s).
    cbn [run_body_b be_menv]. unfold live at 1. rewrite <- (nf_rt_idem body). fold (live body).
    apply (nf_equiv_on bst halt pop_cond_b pop_index_b unwind_b leave_b); try reflexivity.
    - intros o Ho s0. apply (bulk_sem_ext _ _ IH id ti ls body o s0 Ef Ho).
    - intros o _ Hu s0. apply bulk_sem_never_falls, Hu.
  Qed.

  Theorem run_mod_b_datas_ext : forall k fuel f args s0 dr, run_mod_b E' k fuel f args s0 dr = run_mod_b E k fuel f args s0 dr.
  Proof.
    intros k fuel f args s0 dr. unfold run_mod_b. rewrite !call_fn_b_g.
    rewrite (gcall_fn_ext bst lens_b M _ _ (run_body_b_ext fuel k)). reflexivity.
  Qed.
End DatasExt.

(* THE GC THEOREM: if no live part of any function of the module mentions the data identity [q], removing that segment from the
   environment changes no result of any call *)
Definition without_data (E : benv) (q : N) : benv :=
  {| be_menv := be_menv E; be_dslot := be_dslot E; be_datas := fun x => if (x =? q)%N then None else be_datas E x |}.
Theorem dropping_unused_data_is_invisible : forall (E : benv) (q : N),
  (forall id ti ls body, me_funcs (be_menv E) id = Some (ti, ls, body) -> ~ In q (map (be_dslot E) (datas_used (live body)))) ->
  forall k fuel f args s0 dr, run_mod_b (without_data E q) k fuel f args s0 dr = run_mod_b E k fuel f args s0 dr.
Proof.
  intros [M dslot datas] q Hq k fuel f args s0 dr. unfold without_data. cbn [be_menv be_dslot be_datas] in *.
  apply (run_mod_b_datas_ext M dslot datas (fun x => if (x =? q)%N then None else datas x)).
  intros id ti ls body d Ef Hd. destruct (N.eqb_spec (dslot d) q) as [He|_]; [|reflexivity].
  exfalso. apply (Hq id ti ls body Ef). rewrite <- He. apply in_map, Hd.
Qed.

(* COROLLARY of [bulk_roundtrip_equiv] for the identity renumbering of everything but the data segments, same order of
   functions: only the normal form and the renumbering [rdm] of the data indices, function by function *)
Definition ecx_data (r : N -> N) : ectx :=
  {| ex_id2i := fun sp i => match sp with S_data => r i | _ => i end; ex_ilen := fun _ => 1%N |}.

Theorem bulk_roundtrip_equiv_datas : forall (m m' : cmod) (ds ds' : list dseg) (lslot : N -> N -> N)
    (fslot gslot mslot tslot dslot dslot' : N -> N) (rdm : N -> N),
  cm_tys m' = cm_tys m -> cm_table m' = cm_table m ->
  (forall j d', nth_optN j (cm_funcs m') = Some d' -> exists d, nth_optN j (cm_funcs m) = Some d) ->
  (forall i j, fslot i = fslot j -> i = j) ->
  (forall i j, dslot i = dslot j -> i = j) -> (forall i j, dslot' i = dslot' j -> i = j) ->
  (forall i ti ls body, nth_optN i (cm_funcs m) = Some (ti, ls, body) ->
     nth_optN i (cm_funcs m') = Some (ti, ls, out_body (cx_std (cm_tys m)) (ecx_data rdm) body) /\
     forallb offset_ok (ops_of (live body)) = true /\
     forallb (decodable (cx_std (cm_tys m))) (ops_of (live body)) = true /\
     (forall d, In d (datas_used (live body)) ->
        dslot' (rdm d) = dslot d /\ option_map seg_bytes (nth_optN (rdm d) ds') = option_map seg_bytes (nth_optN d ds))) ->
  forall k fuel f args s0 dr,
    run_mod_b (benv_of_cmod m' ds' lslot fslot gslot mslot tslot dslot') k fuel f args s0 dr =
    run_mod_b (benv_of_cmod m ds lslot fslot gslot mslot tslot dslot) k fuel f args s0 dr.
Proof.
  intros m m' ds ds' lslot fslot gslot mslot tslot dslot dslot' rdm Hty Htb Hsurj Hfinj Hdinj Hdinj' Hfn.
  apply (bulk_roundtrip_equiv m m' ds ds' lslot lslot fslot gslot mslot tslot dslot fslot gslot mslot tslot dslot'
           (fun _ => cx_std (cm_tys m)) (fun _ => ecx_data rdm) idN).
  - reflexivity.
  - intros i i2 d d2 _ _ H. apply Hfinj, H.
  - intros j d' Hj. destruct (Hsurj j d' Hj) as (d & Hd). exists j, d. split; [exact Hd|reflexivity].
  - intros i ti ls body Hi. destruct (Hfn i ti ls body Hi) as (Hi' & Ho & Hd & _).
    split.
    + apply fn_ok_std; try reflexivity; try assumption.
      intros j. cbn [ecx_data ex_id2i]. rewrite Hty. reflexivity.
    + exists ti, ls. split; [exact Hi'|]. split; [rewrite Hty; reflexivity|].
      apply same_frames_agree. reflexivity.
  - rewrite Htb. symmetry. erewrite map_ext; [apply map_id|]. intros [j|]; reflexivity.
  - exact Hdinj.
  - exact Hdinj'.
  - intros i ti ls body Hi. destruct (Hfn i ti ls body Hi) as (_ & _ & _ & Hdu). split; [exact Hdu|].
    intros mi _. reflexivity.
Qed.

Module ExB.
  Local Open Scope N_scope.
  Definition P (o : wop) : rt := RPlain o 0.
  Definition I (z : Z) : rt := P (W_I32Const z).
  (* operands: destination, source / value, length - the length on top *)
  Definition init (seg : N) (d s n : Z) : list rt := [I d; I s; I n; P (W_MemoryInit seg 0)].
  Definition copy (d s n : Z) : list rt := [I d; I s; I n; P (W_MemoryCopy 0 0)].
  Definition fill (d v n : Z) : list rt := [I d; I v; I n; P (W_MemoryFill 0)].
  (* ONE passive segment (number 0) and one active segment (number 1, written at 40 by instantiation) *)
  Definition seg0 : list N := [1; 2; 3; 4; 5; 6; 7; 8].
  (* 0: the passive segment copied twice: all of it to 16, bytes 2..5 of it to 100 *)
  Definition twice : list rt := init 0 16 0 8 ++ init 0 100 2 4.
  (* 1: ... then data.drop, then a third memory.init of ONE byte: traps; the memory.fill after it does not run *)
  Definition drop_then_init : list rt := twice ++ [P (W_DataDrop 0)] ++ init 0 200 0 1 ++ fill 300 9 1.
  (* 2: data.drop twice (idempotent), then memory.init of ZERO bytes at offset 0: fine; the memory.fill runs *)
  Definition drop_then_init0 : list rt := [P (W_DataDrop 0); P (W_DataDrop 0)] ++ init 0 200 0 0 ++ fill 300 9 1.
  (* 3: 1..8 at 16, then memory.copy of 6 bytes from 16 to 18: the destination ABOVE the source (copied high-to-low) *)
  Definition overlap_up : list rt := init 0 16 0 8 ++ copy 18 16 6.
  (* 4: ... then 6 bytes from 17 to 16: the destination BELOW the source (copied low-to-high) *)
  Definition overlap_both : list rt := overlap_up ++ copy 16 17 6.
  (* 5: memory.fill of the LAST byte (the value 427 is taken modulo 256), then of zero bytes AT the end *)
  Definition fill_last : list rt := fill 65535 427 1 ++ fill 65536 7 0.
  (* 6: ... then of two bytes from the last byte: traps, NOTHING written (the last byte keeps 171) *)
  Definition fill_past : list rt := fill_last ++ fill 65535 5 2.
  (* 7: zero bytes ONE PAST the end: traps;  8: memory.init of the ACTIVE segment: one byte traps;  9: zero bytes of it: fine *)
  Definition fill_zero_past : list rt := fill 65537 7 0.
  Definition init_active : list rt := init 1 0 0 1.
  Definition init_active0 : list rt := init 1 0 0 0 ++ [P (W_DataDrop 1)] ++ fill 300 9 1.
  Definition im : imod :=
    {| im_tys := [([], [])];
       im_funcs := [ (0, [], twice); (0, [], drop_then_init); (0, [], drop_then_init0); (0, [], overlap_up); (0, [], overlap_both);
                     (0, [], fill_last); (0, [], fill_past); (0, [], fill_zero_past); (0, [], init_active); (0, [], init_active0) ];
       im_globals := []; im_mem := Some (1, Some 1); im_table := None; im_elems := [];
       im_datas := [ DPassive seg0; DActive 0 (CI32 40) [77; 78] ]; im_start := None |}.
  (* the final memory (bindings in the order of their first write) and the identities of the dropped segments *)
  Inductive obs := ORet (m : list (N * N)) (dr : list N) | OTrap (m : list (N * N)) (dr : list N) | OOther.
  Definition run (f : N) : obs :=
    match call_after_b (instantiate_b 0 4 im (fun _ => idN) idN idN idN idN idN) 4 0 f [] with
    | CRanB (Some (Fall (s, d))) => ORet (mem s) d
    | CRanB (Some (Stop Trap (s, d))) => OTrap (mem s) d
    | _ => OOther
    end.
  Definition at40 : list (N * N) := [(40, 77); (41, 78)].     (* the active segment; its identity 1 is dropped by instantiation *)

  Example twice_ok : run 0 =
    ORet (at40 ++ [(16, 1); (17, 2); (18, 3); (19, 4); (20, 5); (21, 6); (22, 7); (23, 8); (100, 3); (101, 4); (102, 5); (103, 6)]) [1].
  Proof. vm_compute. reflexivity. Qed.
  Example third_init_traps : run 1 =
    OTrap (at40 ++ [(16, 1); (17, 2); (18, 3); (19, 4); (20, 5); (21, 6); (22, 7); (23, 8); (100, 3); (101, 4); (102, 5); (103, 6)]) [0; 1].
  Proof. vm_compute. reflexivity. Qed.
  Example zero_init_after_drop_ok : run 2 = ORet (at40 ++ [(300, 9)]) [0; 1].
  Proof. vm_compute. reflexivity. Qed.
  Example overlap_destination_above : run 3 = ORet (at40 ++ [(16, 1); (17, 2); (18, 1); (19, 2); (20, 3); (21, 4); (22, 5); (23, 6)]) [1].
  Proof. vm_compute. reflexivity. Qed.
  Example overlap_destination_below : run 4 = ORet (at40 ++ [(16, 2); (17, 1); (18, 2); (19, 3); (20, 4); (21, 5); (22, 5); (23, 6)]) [1].
  Proof. vm_compute. reflexivity. Qed.
  Example fill_last_byte : run 5 = ORet (at40 ++ [(65535, 171)]) [1].
  Proof. vm_compute. reflexivity. Qed.
  Example fill_past_end_writes_nothing : run 6 = OTrap (at40 ++ [(65535, 171)]) [1].
  Proof. vm_compute. reflexivity. Qed.
  Example fill_zero_one_past_traps : run 7 = OTrap at40 [1].
  Proof. vm_compute. reflexivity. Qed.
  Example init_of_active_traps : run 8 = OTrap at40 [1].
  Proof. vm_compute. reflexivity. Qed.
  Example init_zero_of_active_ok : run 9 = ORet (at40 ++ [(300, 9)]) [1].
  Proof. vm_compute. reflexivity. Qed.
  (* a machine that always copies low-to-high smears the first two bytes over the destination *)
  Example forward_only_copy_is_wrong :
    copy_fwd 6 18 16 [(16, 1); (17, 2); (18, 3); (19, 4); (20, 5); (21, 6); (22, 7); (23, 8)] =
    [(16, 1); (17, 2); (18, 1); (19, 2); (20, 1); (21, 2); (22, 1); (23, 2)].
  Proof. vm_compute. reflexivity. Qed.
End ExB.

(* the theorem instantiated: three passive segments A B C; function 0 reads C (index 2), function 1 reads B (index 1) and
   drops it; walrus's GC deletes A, so B and C become 0 and 1 and the operators are renamed *)
Module RTB.
  Local Open Scope N_scope.
  Import ExB.
  Definition ma0 : w_memarg := {| wa_align := 0; wa_offset := 0; wa_memory := 0 |}.
  Definition readC : list rt := init 2 0 0 2 ++ [I 0; P (W_I32Load16U ma0)].
  Definition readB : list rt := init 1 8 1 1 ++ [P (W_DataDrop 1); I 8; P (W_I32Load8U ma0)].
  Definition m1 : cmod := {| cm_tys := [([], [VT_I32])]; cm_funcs := [ (0, [], readC); (0, [], readB) ]; cm_table := [] |}.
  Definition ds1 : list dseg := [ DPassive [9; 9; 9]; DPassive [11; 12]; DPassive [21; 22] ].
  (* the output: A deleted; data index i has become i - 1; the slot map of the output undoes it *)
  Definition rdm1 (i : N) : N := i - 1.
  Definition ds1' : list dseg := [ DPassive [11; 12]; DPassive [21; 22] ].
  Definition m1' : cmod :=
    {| cm_tys := cm_tys m1;
       cm_funcs := [ (0, [], out_body (cx_std (cm_tys m1)) (ecx_data rdm1) readC); (0, [], out_body (cx_std (cm_tys m1)) (ecx_data rdm1) readB) ];
       cm_table := [] |}.
  Example readB_out : out_body (cx_std (cm_tys m1)) (ecx_data rdm1) readB = init 0 8 1 1 ++ [P (W_DataDrop 0); I 8; P (W_I32Load8U ma0)].
  Proof. vm_compute. reflexivity. Qed.
  Definition E1 : benv := benv_of_cmod m1 ds1 (fun _ => idN) idN idN idN idN idN.
  Definition E1' : benv := benv_of_cmod m1' ds1' (fun _ => idN) idN idN idN idN (fun j => j + 1).

  (* THE THEOREM, instantiated: the hypotheses are satisfiable with a segment deleted and the others renumbered *)
  Theorem rtb_equiv : forall k fuel f args s0 dr, run_mod_b E1' k fuel f args s0 dr = run_mod_b E1 k fuel f args s0 dr.
  Proof.
    unfold E1, E1'. apply (bulk_roundtrip_equiv_datas m1 m1' ds1 ds1' _ _ _ _ _ _ _ rdm1); try reflexivity.
    - intros j d' Hj. destruct (nth_optN_2 _ _ j d' Hj) as [[-> _]|[-> _]]; eexists; reflexivity.
    - intros i j H. exact H.
    - intros i j H. exact H.
    - intros i j H. lia.
    - intros i ti ls body Hi. destruct (nth_optN_2 _ _ i _ Hi) as [[-> H]|[-> H]]; injection H as -> -> ->.
      + split; [reflexivity|]. split; [vm_compute; reflexivity|]. split; [vm_compute; reflexivity|].
        intros d Hd. vm_compute in Hd. destruct Hd as [<-|[]]. split; reflexivity.
      + split; [reflexivity|]. split; [vm_compute; reflexivity|]. split; [vm_compute; reflexivity|].
        intros d Hd. vm_compute in Hd. destruct Hd as [<-|[<-|[]]]; split; reflexivity.
  Qed.

  Definition s1 : st := {| stk := []; locs := []; globs := []; labs := []; mem := []; pages := 1; max_pages := 1 |}.
  Definition result (r : option (res (st * list N) halt)) : option (list val * list N) :=
    match r with Some (Fall (s, d)) => Some (stk s, d) | _ => None end.
  (* function 1 returns B[1] = 12 and drops identity 1: the input module, and the output module by computation and by the theorem *)
  Example rtb_in : result (run_mod_b E1 2 0 1 [] s1 []) = Some ([VI32 12], [1]).
  Proof. vm_compute. reflexivity. Qed.
  Example rtb_out : result (run_mod_b E1' 2 0 1 [] s1 []) = Some ([VI32 12], [1]).
  Proof. vm_compute. reflexivity. Qed.
  Example rtb_out_thm : run_mod_b E1' 2 0 1 [] s1 [] = run_mod_b E1 2 0 1 [] s1 [].
  Proof. apply rtb_equiv. Qed.
  (* function 0 returns C[0] + 256 * C[1] *)
  Example rtb_in0 : result (run_mod_b E1 2 0 0 [] s1 []) = Some ([VI32 5653], []).
  Proof. vm_compute. reflexivity. Qed.
End RTB.

(* NON-VACUITY: renumbering the data segments WITHOUT renaming the operators changes behaviour.  The module of [RTB], its segment A
   deleted and B, C renumbered 0, 1 - but the bodies left alone (still `memory.init 1`) and the slot maps the identity: function 1
   then reads C instead of B (both modules are valid; neither traps) *)
Theorem renumbering_without_renaming_differs :
  exists (m : cmod) (ds ds' : list dseg) (f : N) (s0 : st),
    RTB.result (run_mod_b (benv_of_cmod m ds (fun _ => idN) idN idN idN idN idN) 2 0 f [] s0 []) = Some ([VI32 12], [1%N]) /\
    RTB.result (run_mod_b (benv_of_cmod m ds' (fun _ => idN) idN idN idN idN idN) 2 0 f [] s0 []) = Some ([VI32 22], [1%N]).
Proof. exists RTB.m1, RTB.ds1, RTB.ds1', 1%N, RTB.s1. split; vm_compute; reflexivity. Qed.

(* one passive segment - number [p] - is deleted; the segments after it move down by one *)
Definition skip (p i : N) : N := if (i <? p)%N then i else (i - 1)%N.      (* input data index -> output data index *)
Definition unskip (p j : N) : N := if (j <? p)%N then j else (j + 1)%N.    (* output data index -> input data index *)
Lemma unskip_skip p d : d <> p -> unskip p (skip p d) = d.
Proof.
  intros H. unfold skip, unskip. destruct (N.ltb_spec d p) as [Hl|Hl].
  - destruct (N.ltb_spec d p); [reflexivity|lia].
  - destruct (N.ltb_spec (d - 1) p); lia.
Qed.
Lemma unskip_inj p i j : unskip p i = unskip p j -> i = j.
Proof. unfold unskip. destruct (N.ltb_spec i p), (N.ltb_spec j p); lia. Qed.
Lemma nth_optN_skip {A} (pre post : list A) x d : d <> N.of_nat (length pre) ->
  nth_optN (skip (N.of_nat (length pre)) d) (pre ++ post) = nth_optN d (pre ++ x :: post).
Proof.
  intros H. rewrite !nth_optN_app. unfold skip. destruct (N.ltb_spec d (N.of_nat (length pre))) as [Hl|Hl].
  - destruct (N.ltb_spec d (N.of_nat (length pre))); [reflexivity|lia].
  - destruct (N.ltb_spec (d - 1) (N.of_nat (length pre))); [lia|].
    cbn [nth_optN]. destruct (N.eqb_spec (d - N.of_nat (length pre)) 0); [lia|]. f_equal. lia.
Qed.

Lemma dropped_refl {A} (passive : A -> bool) : forall l, dropped passive l l.
Proof. induction l as [|x l IH]; [constructor|apply dr_keep, IH]. Qed.
Lemma dropped_mid pre bs post : dropped d_passive (pre ++ DPassive bs :: post) (pre ++ post).
Proof. induction pre as [|x pre IH]; cbn [app]; [apply dr_drop; [reflexivity|apply dropped_refl]|apply dr_keep, IH]. Qed.

(* [active_ids] with the numbering starting at [k], for the inductions *)
Definition act_from (dslot : N -> N) (k : N) (ds : list dseg) : list N :=
  flat_map (fun p => match snd p with DActive _ _ _ => [dslot (fst p)] | DPassive _ => [] end) (numbered k ds).
Lemma numbered_app {A} (a b : list A) : forall k, numbered k (a ++ b) = numbered k a ++ numbered (k + N.of_nat (length a)) b.
Proof.
  induction a as [|x a IH]; intros k; cbn [app numbered length]; [rewrite N.add_0_r; reflexivity|].
  rewrite IH. do 3 f_equal. lia.
Qed.
Lemma act_from_app dslot a b k : act_from dslot k (a ++ b) = act_from dslot k a ++ act_from dslot (k + N.of_nat (length a)) b.
Proof. unfold act_from. rewrite numbered_app, flat_map_app. reflexivity. Qed.
Lemma act_from_ext dslot dslot' : forall ds k, (forall j, (k <= j < k + N.of_nat (length ds))%N -> dslot' j = dslot j) ->
  act_from dslot' k ds = act_from dslot k ds.
Proof.
  induction ds as [|x ds IH]; intros k H; [reflexivity|]. unfold act_from in *. cbn [numbered flat_map fst snd].
  rewrite (IH (k + 1)%N) by (intros j Hj; apply H; cbn [length]; lia).
  rewrite (H k) by (cbn [length]; lia). reflexivity.
Qed.
Lemma act_from_shift dslot dslot' : forall ds k, (forall j, (k <= j)%N -> dslot' j = dslot (j + 1)%N) ->
  act_from dslot' k ds = act_from dslot (k + 1) ds.
Proof.
  induction ds as [|x ds IH]; intros k H; [reflexivity|]. unfold act_from in *. cbn [numbered flat_map fst snd].
  rewrite (IH (k + 1)%N) by (intros j Hj; apply H; lia).
  rewrite (H k) by lia. reflexivity.
Qed.
Lemma active_ids_skip dslot pre bs post :
  active_ids (fun j => dslot (unskip (N.of_nat (length pre)) j)) (pre ++ post) = active_ids dslot (pre ++ DPassive bs :: post).
Proof.
  change (act_from (fun j => dslot (unskip (N.of_nat (length pre)) j)) 0 (pre ++ post) = act_from dslot 0 (pre ++ DPassive bs :: post)).
  rewrite !act_from_app, N.add_0_l. f_equal.
  - apply act_from_ext. intros j Hj. unfold unskip. destruct (N.ltb_spec j (N.of_nat (length pre))); [reflexivity|lia].
  - change (DPassive bs :: post) with ([DPassive bs] ++ post). rewrite act_from_app. cbn [length].
    change (act_from dslot (N.of_nat (length pre)) [DPassive bs]) with (@nil N). cbn [app].
    apply act_from_shift. intros j Hj. unfold unskip. destruct (N.ltb_spec j (N.of_nat (length pre))); [lia|reflexivity].
Qed.

Definition inst_equiv_b (r r' : inst_result_b) : Prop :=
  match r, r' with
  | IOkB E s0 dr, IOkB E' s0' dr' =>
      s0' = s0 /\ dr' = dr /\ forall k fuel f args s d, run_mod_b E' k fuel f args s d = run_mod_b E k fuel f args s d
  | ITrapB, ITrapB | IWrongB, IWrongB | IExhaustedB, IExhaustedB => True
  | _, _ => False
  end.

(* equivalent instances answer every call alike; the start function keeps instances equivalent *)
Lemma inst_equiv_b_call r r' : inst_equiv_b r r' ->
  forall k fuel f args, call_after_b r' k fuel f args = call_after_b r k fuel f args.
Proof.
  intros H k fuel f args. destruct r as [E s0 dr| | |], r' as [E' s0' dr'| | |]; cbn [inst_equiv_b] in H; try contradiction; try reflexivity.
  destruct H as (-> & -> & Hr). cbn [call_after_b]. f_equal. apply Hr.
Qed.
Lemma after_start_b_equiv E E' r :
  (forall k fuel f args s d, run_mod_b E' k fuel f args s d = run_mod_b E k fuel f args s d) ->
  inst_equiv_b (after_start_b E r) (after_start_b E' r).
Proof.
  intros H. destruct r as [[[s d]|j [s d]|[| |] [s d]| |]|]; cbn [after_start_b inst_equiv_b]; try exact I.
  destruct (stk s); cbn [inst_equiv_b]; [|exact I]. split; [reflexivity|]. split; [reflexivity|]. exact H.
Qed.

Section InstGcData.
  Variable im im' : imod.
  Variable lslot : N -> N -> N.
  Variable fslot gslot mslot tslot dslot : N -> N.
  Variable pre post : list dseg.
  Variable bs : list N.
  Notation p := (N.of_nat (length pre)).
  Notation dslot' := (fun j => dslot (unskip p j)).

  (* the output module: the passive segment number [p] deleted, nothing else changed but the bodies, whose data indices are renamed *)
  Hypothesis H_datas : im_datas im = pre ++ DPassive bs :: post.
  Hypothesis H_datas' : im_datas im' = pre ++ post.
  Hypothesis H_tys : im_tys im' = im_tys im.
  Hypothesis H_globals : im_globals im' = im_globals im.
  Hypothesis H_mem : im_mem im' = im_mem im.
  Hypothesis H_table : im_table im' = im_table im.
  Hypothesis H_elems : im_elems im' = im_elems im.
  Hypothesis H_start : im_start im' = im_start im.
  Hypothesis H_finj : forall i j, fslot i = fslot j -> i = j.
  Hypothesis H_dinj : forall i j, dslot i = dslot j -> i = j.
  Hypothesis H_surj : forall j d', nth_optN j (im_funcs im') = Some d' -> exists d, nth_optN j (im_funcs im) = Some d.
  (* function by function: the output body; NO LIVE PART MENTIONS THE DELETED SEGMENT *)
  Hypothesis H_fn : forall i ti ls body, nth_optN i (im_funcs im) = Some (ti, ls, body) ->
    nth_optN i (im_funcs im') = Some (ti, ls, out_body (cx_std (im_tys im)) (ecx_data (skip p)) body) /\
    forallb offset_ok (ops_of (live body)) = true /\
    forallb (decodable (cx_std (im_tys im))) (ops_of (live body)) = true /\
    ~ In p (datas_used (live body)).

  Lemma inst_pre_gc : inst_pre im' gslot mslot tslot = inst_pre im gslot mslot tslot.
  Proof.
    unfold inst_pre, tbl0, pages0, maxp0. rewrite H_globals, H_mem, H_table, H_elems, H_datas, H_datas'.
    destruct (inst_globals gslot 0 (im_globals im) []) as [gl|]; [|reflexivity].
    rewrite (inst_datas_dropped gslot mslot gl _ _ _ (dropped_mid pre bs post)). reflexivity.
  Qed.

  Lemma inst_run_gc tbl : forall k fuel f args s d,
    run_mod_b (benv_of im' tbl lslot fslot gslot mslot tslot dslot') k fuel f args s d =
    run_mod_b (benv_of im tbl lslot fslot gslot mslot tslot dslot) k fuel f args s d.
  Proof.
    rewrite !benv_of_eq.
    apply (bulk_roundtrip_equiv_datas (cmod_of im tbl) (cmod_of im' tbl) (im_datas im) (im_datas im') lslot fslot gslot mslot tslot
             dslot dslot' (skip p)).
    - exact H_tys.
    - reflexivity.
    - exact H_surj.
    - exact H_finj.
    - exact H_dinj.
    - intros i j H. apply H_dinj in H. apply (unskip_inj _ _ _ H).
    - intros i ti ls body Hi. destruct (H_fn i ti ls body Hi) as (Hi' & Ho & Hd & Hp).
      split; [exact Hi'|]. split; [exact Ho|]. split; [exact Hd|].
      intros d Hu. assert (Hne : d <> p) by (intros ->; exact (Hp Hu)).
      split; [cbn beta; rewrite (unskip_skip _ _ Hne); reflexivity|].
      rewrite H_datas, H_datas'. rewrite (nth_optN_skip pre post (DPassive bs) d Hne). reflexivity.
  Qed.

  Theorem inst_dropping_unused_data : forall fuel k,
    inst_equiv_b (instantiate_b fuel k im lslot fslot gslot mslot tslot dslot)
                 (instantiate_b fuel k im' lslot fslot gslot mslot tslot dslot').
  Proof.
    intros fuel k. unfold instantiate_b. rewrite inst_pre_gc.
    destruct (inst_pre im gslot mslot tslot) as [[tbl s0]| |]; cbn [inst_equiv_b]; try exact I.
    rewrite H_start, H_datas, H_datas', (active_ids_skip dslot pre bs post), <- H_datas.
    destruct (im_start im) as [f|].
    - rewrite inst_run_gc. apply after_start_b_equiv, inst_run_gc.
    - cbn [inst_equiv_b]. split; [reflexivity|]. split; [reflexivity|]. apply inst_run_gc.
  Qed.

  Theorem inst_then_call_dropping_unused_data : forall fuel k k2 fuel2 f args,
    call_after_b (instantiate_b fuel k im' lslot fslot gslot mslot tslot dslot') k2 fuel2 f args =
    call_after_b (instantiate_b fuel k im lslot fslot gslot mslot tslot dslot) k2 fuel2 f args.
  Proof.
    intros fuel k. exact (inst_equiv_b_call _ _ (inst_dropping_unused_data fuel k)).
  Qed.
End InstGcData.

(* the analogue of [inst_roundtrip] / [inst_then_call_roundtrip] of Proofs/Inst.v for [instantiate_b]: initialisers, element segments
   and start renamed, functions reordered, bodies re-encoded - and the data segments of the output ANY list that (a) writes the same
   bytes at instantiation, (b) gives the active segments the same identities, (c) holds, at the renumbered index, the bytes of every
   segment a live part mentions.  (a) and (b) are discharged by [inst_datas_kept] when the segments are kept in order, by
   [dropped_mid] and [active_ids_skip] when one unused passive segment is deleted *)
Section InstRoundtripB.
  Variable im im' : imod.
  Variable lslot lslot' : N -> N -> N.
  Variable fslot gslot mslot tslot dslot fslot' gslot' mslot' tslot' dslot' : N -> N.
  Variable cxo : N -> pctx.
  Variable ecxo : N -> ectx.
  Variable rf rg rtb rm : N -> N.
  Notation Mof tbl := (env_of (cmod_of im tbl) lslot fslot gslot mslot tslot).
  Notation Mof' tbl := (env_of (cmod_of im' (map (option_map rf) tbl)) lslot' fslot' gslot' mslot' tslot').
  Notation Eof tbl := (benv_of im tbl lslot fslot gslot mslot tslot dslot).
  Notation Eof' tbl := (benv_of im' (map (option_map rf) tbl) lslot' fslot' gslot' mslot' tslot' dslot').

  (* initialisers, element segments, start: renamed; the slot maps compensate (as [renamed] of Proofs/Inst.v, but for the data) *)
  Hypothesis H_globals : im_globals im' = map (ren_glob rg) (im_globals im).
  Hypothesis H_mem : im_mem im' = im_mem im.
  Hypothesis H_table : im_table im' = im_table im.
  Hypothesis H_elems : im_elems im' = map (ren_eseg rf rg rtb) (im_elems im).
  Hypothesis H_start : im_start im' = option_map rf (im_start im).
  Hypothesis H_gslot : forall g, gslot' (rg g) = gslot g.
  Hypothesis H_gpos : forall k, (k < N.of_nat (length (im_globals im)))%N -> gslot' k = gslot k.
  Hypothesis H_tslot : forall tb, tslot' (rtb tb) = tslot tb.
  Hypothesis H_mslot : forall mi, mslot' (rm mi) = mslot mi.
  (* (a) and (b) *)
  Hypothesis H_idatas : forall gl pgs m, inst_datas gslot' mslot' gl pgs (im_datas im') m = inst_datas gslot mslot gl pgs (im_datas im) m.
  Hypothesis H_active : active_ids dslot' (im_datas im') = active_ids dslot (im_datas im).
  (* the premises of [bulk_roundtrip_equiv], for whatever table instantiation builds *)
  Hypothesis H_fslot : forall i, fslot' (rf i) = fslot i.
  Hypothesis H_inj : forall i i2 d d2, nth_optN i (im_funcs im) = Some d -> nth_optN i2 (im_funcs im) = Some d2 ->
    fslot i = fslot i2 -> i = i2.
  Hypothesis H_surj : forall j d', nth_optN j (im_funcs im') = Some d' -> exists i d, nth_optN i (im_funcs im) = Some d /\ rf i = j.
  Hypothesis H_fn : forall tbl i ti ls body, nth_optN i (im_funcs im) = Some (ti, ls, body) ->
    fn_ok (Mof tbl) (Mof' tbl) cxo ecxo (fslot i) body /\
    exists ti' ls', nth_optN (rf i) (im_funcs im') = Some (ti', ls', out_body (cxo (fslot i)) (ecxo (fslot i)) body) /\
                    nth_optN ti' (im_tys im') = nth_optN ti (im_tys im) /\
                    frames_agree (Mof tbl) (Mof' tbl) (fslot i) ti ls ls' body.
  Hypothesis H_dinj : forall i j, dslot i = dslot j -> i = j.
  Hypothesis H_dinj' : forall i j, dslot' i = dslot' j -> i = j.
  (* (c) *)
  Hypothesis H_dfn : forall i ti ls body, nth_optN i (im_funcs im) = Some (ti, ls, body) ->
    (forall d, In d (datas_used (live body)) ->
       dslot' (rd (cxo (fslot i)) (ecxo (fslot i)) d) = dslot d /\
       option_map seg_bytes (nth_optN (rd (cxo (fslot i)) (ecxo (fslot i)) d) (im_datas im')) = option_map seg_bytes (nth_optN d (im_datas im))) /\
    (forall mi, In mi (bulk_mems_used (live body)) -> mslot' (Proofs.SemCore.rm (cxo (fslot i)) (ecxo (fslot i)) mi) = mslot mi).

  Lemma inst_run_b tbl : forall k fuel f args s d,
    run_mod_b (Eof' tbl) k fuel f args s d = run_mod_b (Eof tbl) k fuel f args s d.
  Proof.
    rewrite !benv_of_eq.
    exact (bulk_roundtrip_equiv (cmod_of im tbl) (cmod_of im' (map (option_map rf) tbl)) (im_datas im) (im_datas im') lslot lslot'
             fslot gslot mslot tslot dslot fslot' gslot' mslot' tslot' dslot' cxo ecxo rf H_fslot H_inj H_surj (H_fn tbl) eq_refl
             H_dinj H_dinj' H_dfn).
  Qed.

  Theorem inst_b_roundtrip : forall fuel k,
    inst_equiv_b (instantiate_b fuel k im lslot fslot gslot mslot tslot dslot)
                 (instantiate_b fuel k im' lslot' fslot' gslot' mslot' tslot' dslot').
  Proof.
    intros fuel k. unfold instantiate_b.
    rewrite (inst_pre_ren rf rg rtb gslot mslot tslot gslot' mslot' tslot' H_gslot H_tslot im im' H_globals H_mem H_table H_elems H_idatas H_gpos).
    destruct (inst_pre im gslot mslot tslot) as [[tbl s0]| |]; cbn [pres_map fst snd inst_equiv_b]; try exact I.
    rewrite H_start, H_active.
    destruct (im_start im) as [f|]; cbn [option_map].
    - rewrite H_fslot, inst_run_b. apply after_start_b_equiv, inst_run_b.
    - cbn [inst_equiv_b]. split; [reflexivity|]. split; [reflexivity|]. apply inst_run_b.
  Qed.

  Theorem inst_b_then_call_roundtrip : forall fuel k k2 fuel2 f args,
    call_after_b (instantiate_b fuel k im' lslot' fslot' gslot' mslot' tslot' dslot') k2 fuel2 f args =
    call_after_b (instantiate_b fuel k im lslot fslot gslot mslot tslot dslot) k2 fuel2 f args.
  Proof.
    intros fuel k. exact (inst_equiv_b_call _ _ (inst_b_roundtrip fuel k)).
  Qed.
End InstRoundtripB.

(* discharging (a) and (b) when walrus keeps every data segment, in order (no GC): the segments renamed like the other items,
   positions keeping their identities *)
Lemma act_from_ren rg rm dslot : forall ds k, act_from dslot k (map (ren_dseg rg rm) ds) = act_from dslot k ds.
Proof.
  induction ds as [|[mi off bs|bs] ds IH]; intros k; [reflexivity| |]; unfold act_from in *; cbn [map ren_dseg numbered flat_map fst snd];
    rewrite IH; reflexivity.
Qed.
Lemma inst_datas_kept rg rm gslot mslot gslot' mslot' dslot dslot' ds :
  (forall g, gslot' (rg g) = gslot g) -> (forall mi, mslot' (rm mi) = mslot mi) ->
  (forall k, (k < N.of_nat (length ds))%N -> dslot' k = dslot k) ->
  (forall gl pgs m, inst_datas gslot' mslot' gl pgs (map (ren_dseg rg rm) ds) m = inst_datas gslot mslot gl pgs ds m) /\
  active_ids dslot' (map (ren_dseg rg rm) ds) = active_ids dslot ds /\
  (forall d, option_map seg_bytes (nth_optN d (map (ren_dseg rg rm) ds)) = option_map seg_bytes (nth_optN d ds)).
Proof.
  intros Hg Hm Hpos. split; [|split].
  - intros gl pgs m. apply (inst_datas_ren rg rm gslot mslot gslot' mslot' Hg Hm).
  - change (act_from dslot' 0 (map (ren_dseg rg rm) ds) = act_from dslot 0 ds). rewrite act_from_ren.
    apply act_from_ext. intros j Hj. apply Hpos. lia.
  - intros d. rewrite nth_optN_map. destruct (nth_optN d ds) as [[mi off bs|bs]|]; reflexivity.
Qed.

Print Assumptions bulk_op_renamed.
Print Assumptions mem_copy_spec.
Print Assumptions mem_fill_spec.
Print Assumptions mem_init_spec.
Print Assumptions run_body_b_frames.
Print Assumptions bulk_mod_sem_renamed.
Print Assumptions bulk_roundtrip_equiv_env.
Print Assumptions bulk_roundtrip_equiv.
Print Assumptions bulk_roundtrip_equiv_datas.
Print Assumptions run_mod_b_datas_ext.
Print Assumptions dropping_unused_data_is_invisible.
Print Assumptions inst_dropping_unused_data.
Print Assumptions inst_then_call_dropping_unused_data.
Print Assumptions inst_b_roundtrip.
Print Assumptions inst_b_then_call_roundtrip.
Print Assumptions inst_datas_kept.
Print Assumptions renumbering_without_renaming_differs.
Print Assumptions RTB.rtb_equiv.
Print Assumptions ExB.third_init_traps.
