(* The row loop of the DWARF line-program rewriter (Model/LineProg.v) is safe and row-preserving.
   walrus keeps its own copy of the state of gimli's writer (is a sequence open, its base address, the last offset).
   One case analysis of the step ([lstep_sim]) shows that the copy stays in agreement with the writer, that no
   assertion of the writer fires, and which rows a reader of the written program sees; the four theorems of the file
   follow from it by composing steps along the shape of a well-formed program. *)
From Coq Require Import List NArith Bool Lia.
Import ListNotations.
From WV Require Import Model.LineProg.
Local Open Scope N_scope.

Lemma writer_ok_false_prev : forall p q evs, writer_ok false p evs = writer_ok false q evs.
Proof. intros p q [|[b|off ln|off] r]; reflexivity. Qed.

(* is a sequence open after the calls [evs], when [inseq] held before? *)
Fixpoint wopen (inseq : bool) (evs : list lev) : bool :=
  match evs with
  | [] => inseq
  | EvBegin _ :: r => wopen true r
  | EvRow _ _ :: r => wopen inseq r
  | EvEnd _ :: r => wopen false r
  end.

(* the end rows the reader sees, each paired with the address the reader was at just before it:
   the address of the previous row of the same sequence, or the sequence's base if it has no row yet *)
Fixpoint ends_of (b prev : N) (evs : list lev) : list (N * N) :=
  match evs with
  | [] => []
  | EvBegin x :: r => ends_of x x r
  | EvRow off _ :: r => ends_of b (b + off) r
  | EvEnd off :: r => (b + off, prev) :: ends_of b prev r
  end.

(* [ends_of] lists the addresses of exactly the end rows of [rows_of] *)
Lemma ends_of_rows : forall evs b p,
  map fst (ends_of b p evs) = map (fun r => fst (fst r)) (filter (fun r => snd r) (rows_of b evs)).
Proof.
  induction evs as [|[x|off ln|off] r IH]; intros b p; cbn [ends_of rows_of filter snd map fst]; auto.
  f_equal; auto.
Qed.

(* What gimli's writer, and a reader of the written program, carry from one call to the next:
   whether a sequence is open, its base address, the last address offset in it. *)
Record wst := { w_in : bool; w_base : N; w_last : N }.
Definition wstep (r : wst) (e : lev) : wst :=
  match e with
  | EvBegin x => {| w_in := true; w_base := x; w_last := 0 |}
  | EvRow off _ => {| w_in := w_in r; w_base := w_base r; w_last := off |}
  | EvEnd _ => {| w_in := false; w_base := w_base r; w_last := w_last r |}
  end.
Fixpoint wrun (r : wst) (evs : list lev) : wst :=
  match evs with [] => r | e :: k => wrun (wstep r e) k end.

Definition wok (r : wst) := writer_ok (w_in r) (w_last r).
Definition rows (r : wst) := rows_of (w_base r).
Definition ends (r : wst) := ends_of (w_base r) (w_base r + w_last r).

Lemma wopen_wrun : forall a r, wopen (w_in r) a = w_in (wrun r a).
Proof.
  induction a as [|e a IH]; intros r; cbn [wrun]; [reflexivity|]. rewrite <- IH. destruct e; reflexivity.
Qed.

Lemma wrun_app : forall a r k, wrun r (a ++ k) = wrun (wrun r a) k.
Proof. induction a as [|e a IH]; intros r k; [reflexivity|apply IH]. Qed.

Lemma wok_app : forall a r k, wok r (a ++ k) = wok r a && wok (wrun r a) k.
Proof.
  unfold wok. induction a as [|e a IH]; intros r k; [reflexivity|].
  specialize (IH (wstep r e) k). destruct e as [x|off ln|off]; cbn [app writer_ok wrun wstep w_in w_last] in *.
  - rewrite IH. apply andb_assoc.
  - destruct (w_in r); [|reflexivity]. rewrite IH. apply andb_assoc.
  - rewrite 2 (writer_ok_false_prev 0 (w_last r)), IH. apply andb_assoc.
Qed.

Lemma rows_app : forall a r k, rows r (a ++ k) = rows r a ++ rows (wrun r a) k.
Proof.
  unfold rows. induction a as [|e a IH]; intros r k; [reflexivity|].
  specialize (IH (wstep r e) k). destruct e; cbn [app rows_of wrun wstep w_base] in *; rewrite IH; reflexivity.
Qed.

Lemma ends_app : forall a r k, ends r (a ++ k) = ends r a ++ ends (wrun r a) k.
Proof.
  unfold ends. induction a as [|e a IH]; intros r k; [reflexivity|].
  specialize (IH (wstep r e) k). destruct e as [x|off ln|off]; cbn [app ends_of wrun wstep w_base w_last] in *.
  - rewrite N.add_0_r in IH. exact IH.
  - exact IH.
  - rewrite IH. reflexivity.
Qed.

Lemma leb_andb : forall a b c, a <= b -> c = true -> (a <=? b) && c = true.
Proof. intros a b c H ->. rewrite andb_true_r. apply N.leb_le, H. Qed.

Section conv.
Variable cv : N -> bool -> option N.

(* "inside a sequence, current_sequence_base_address is Some" *)
Definition linv (s : lst) : Prop := l_in s = true -> exists b, l_cur s = Some b.

(* walrus's copy of the writer's state agrees with the writer while a sequence is open *)
Definition sim (s : lst) (r : wst) : Prop :=
  l_in s = w_in r /\ (l_in s = true -> l_cur s = Some (w_base r) /\ l_last s = w_last r).

(* the reader's base [bb] is the walrus-side base whenever a sequence is open *)
Definition rrel (s : lst) (bb : N) : Prop := l_in s = true -> l_cur s = Some bb.

Lemma rrel_linv : forall s bb, rrel s bb -> linv s.
Proof. intros s bb H Hin. exists bb. exact (H Hin). Qed.

Definition nonend (r : N * N * bool) : bool := negb (snd r).
(* what one input instruction contributes when the last set_address value is [fb] *)
Definition rowimg (fb : N) (i : lin) : list (N * N * bool) :=
  match i with
  | LRow a false ln => match cv (a + fb) true with Some x => [(x, ln, false)] | None => [] end
  | _ => []
  end.
Definition endimg (fb : N) (i : lin) : list N :=
  match i with
  | LRow a true ln => match cv (a + fb) true with Some x => [x] | None => [] end
  | _ => []
  end.
(* an end row is one past the reader's previous position, or the image of an input end row *)
Definition ends_ok (imgs : list N) (l : list (N * N)) : Prop :=
  Forall (fun xq => fst xq = snd xq + 1 \/ In (fst xq) imgs) l.

(* after the calls [evs], made with the writer in state [r], walrus is in state [s'] and agrees with the writer; no
   assertion of the writer fired; the rows that do not end a sequence are [rimgs]; every row that does is one past
   the row before it, or is one of [eimgs] *)
Definition tracks (r : wst) (s' : lst) (evs : list lev) (rimgs : list (N * N * bool)) (eimgs : list N) : Prop :=
  sim s' (wrun r evs) /\ wok r evs = true /\
  filter nonend (rows r evs) = rimgs /\ ends_ok eimgs (ends r evs).

Lemma tracks_app : forall r s1 e1 R1 E1 s2 e2 R2 E2,
  tracks r s1 e1 R1 E1 -> tracks (wrun r e1) s2 e2 R2 E2 -> tracks r s2 (e1 ++ e2) (R1 ++ R2) (E1 ++ E2).
Proof.
  intros r s1 e1 R1 E1 s2 e2 R2 E2 (_ & W1 & <- & H1) (S2 & W2 & <- & H2). unfold tracks.
  rewrite wrun_app, wok_app, rows_app, ends_app, filter_app, W1, W2.
  split; [exact S2|split; [reflexivity|split; [reflexivity|]]].
  apply Forall_app; split; [revert H1|revert H2]; apply Forall_impl; intros xq [H|H]; auto using in_or_app.
Qed.

Lemma lstep_sim : forall s i s' ev r,
  sim s r -> lstep cv s i = Some (s', ev) -> tracks r s' ev (rowimg (l_fbase s) i) (endimg (l_fbase s) i).
Proof.
  intros [sin scur sf sl] [v|a e ln] s' ev [ri rb rl] [Hi Hc] H; cbn [l_in l_cur l_last w_in w_base w_last] in Hi, Hc; subst ri;
    unfold tracks; unfold lstep in H; cbn [l_in l_cur l_fbase l_last] in H |- *.
  - destruct sin; [discriminate H|]. injection H as <- <-. repeat split; try discriminate. constructor.
  - unfold rowimg, endimg.
    destruct sin; [destruct (Hc eq_refl) as [-> ->]|clear Hc; destruct (cv sf false) as [b|]];
      cbn [l_in l_cur l_fbase l_last] in H; destruct (cv (a + sf) true) as [x|], e; cbn [l_in l_cur l_fbase l_last] in H.
    (* in each case, with the backwards test decided, the calls are a concrete list of at most three events:
       the four claims about it are computed, and what is left is arithmetic on the offsets *)
    all: try match type of H with context [?u <? ?v] => destruct (N.ltb_spec u v) end.
    all: injection H as <- <-; unfold sim, wok, rows, ends, ends_ok; cbn.
    all: (split; [now split|split; [repeat (apply leb_andb; [lia|]); reflexivity|split; [repeat f_equal; lia|]]]).
    all: repeat (apply Forall_cons; [cbn; lia|]); apply Forall_nil.
Qed.

Lemma lrun_app : forall a s b,
  lrun cv s (a ++ b) =
  match lrun cv s a with
  | None => None
  | Some (s1, e1) => match lrun cv s1 b with
                     | None => None
                     | Some (s2, e2) => Some (s2, e1 ++ e2)
                     end
  end.
Proof.
  induction a as [|i a IH]; intros s b; cbn [lrun app].
  - destruct (lrun cv s b) as [[s2 e2]|]; reflexivity.
  - destruct (lstep cv s i) as [[s1 e1]|]; [|reflexivity].
    rewrite IH. destruct (lrun cv s1 a) as [[s2 e2]|]; [|reflexivity].
    destruct (lrun cv s2 b) as [[s3 e3]|]; [|reflexivity].
    rewrite app_assoc; reflexivity.
Qed.

Lemma tracks_nil : forall s r, sim s r -> tracks r s [] [] [].
Proof. intros s r H. split; [exact H|repeat split; constructor]. Qed.

Lemma lrun_tracks : forall is s r s' evs,
  sim s r -> lrun cv s is = Some (s', evs) -> exists R E, tracks r s' evs R E.
Proof.
  induction is as [|i is IH]; intros s r s' evs Hs H.
  - injection H as <- <-. eauto using tracks_nil.
  - cbn [lrun] in H. destruct (lstep cv s i) as [[s1 e1]|] eqn:H1; [|discriminate H].
    destruct (lrun cv s1 is) as [[s2 e2]|] eqn:H2; [|discriminate H]. injection H as <- <-.
    pose proof (lstep_sim _ _ _ _ _ Hs H1) as T1.
    destruct (IH _ _ _ _ (proj1 T1) H2) as (R & E & T2). eauto using tracks_app.
Qed.

Definition wst0 : wst := {| w_in := false; w_base := 0; w_last := 0 |}.

Lemma sim_closed : forall s r, l_in s = false -> w_in r = false -> sim s r.
Proof. intros s r Hs Hr. split; [congruence|]. rewrite Hs. discriminate. Qed.

Lemma sim_linv : forall s r, sim s r -> linv s.
Proof. intros s r [_ H] Hin. exists (w_base r). apply H, Hin. Qed.

Definition view (s : lst) : wst :=
  {| w_in := l_in s; w_base := match l_cur s with Some b => b | None => 0 end; w_last := l_last s |}.
Lemma linv_sim : forall s, linv s -> sim s (view s).
Proof. intros s H. split; [reflexivity|]. intros Hin. unfold view. destruct (H Hin) as [b ->]. split; reflexivity. Qed.

(* [wopen (l_in s) evs] is "a sequence is open after the calls evs". *)
Theorem lrun_writer_ok : forall is s s' evs,
  (l_in s = true -> exists b, l_cur s = Some b) ->
  lrun cv s is = Some (s', evs) ->
  writer_ok (l_in s) (l_last s) evs = true /\
  l_in s' = wopen (l_in s) evs /\
  (l_in s' = true -> exists b, l_cur s' = Some b).
Proof.
  intros is s s' evs Hinv H.
  destruct (lrun_tracks _ _ _ _ _ (linv_sim s Hinv) H) as (R & E & S & W & _).
  split; [exact W|split; [|exact (sim_linv _ _ S)]].
  rewrite (proj1 S). symmetry. apply (wopen_wrun evs (view s)).
Qed.

Corollary lrun_writer_ok0 : forall is s' evs,
  lrun cv lst0 is = Some (s', evs) ->
  writer_ok false 0 evs = true /\ l_in s' = wopen false evs.
Proof.
  intros is s' evs H. assert (Hinv : linv lst0) by (intro Hc; discriminate Hc).
  destruct (lrun_writer_ok _ _ _ _ Hinv H) as (H1 & H2 & _). auto.
Qed.

Definition nonend_row (i : lin) : Prop := exists a' ln', i = LRow a' false ln'.

Definition seq_ok (rows : list lin) : Prop :=
  exists body a ln, rows = body ++ [LRow a true ln] /\ Forall nonend_row body.

Definition prog_of (seqs : list (N * list lin)) : list lin :=
  flat_map (fun p => LSetAddr (fst p) :: snd p) seqs.

Definition wf (seqs : list (N * list lin)) : Prop := Forall (fun p => seq_ok (snd p)) seqs.

(* a row never fails; a row that ends a sequence leaves none open, any other keeps the last set_address value *)
Lemma lstep_row : forall s a e ln, linv s ->
  exists s' ev, lstep cv s (LRow a e ln) = Some (s', ev) /\ if e then l_in s' = false else l_fbase s' = l_fbase s.
Proof.
  intros [sin scur sf sl] a e ln Hinv. unfold linv in Hinv. unfold lstep. cbn [l_in l_cur l_fbase l_last] in *.
  destruct sin; [destruct (Hinv eq_refl) as [b ->]|destruct (cv sf false) as [b|]]; cbn [l_in l_cur l_fbase l_last];
    destruct (cv (a + sf) true) as [x|], e; cbn [l_in l_cur l_fbase l_last];
    try destruct (_ <? _); do 2 eexists; split; reflexivity.
Qed.

Lemma lrun_body : forall body, Forall nonend_row body -> forall s r, sim s r ->
  exists s' ev, lrun cv s body = Some (s', ev) /\ l_fbase s' = l_fbase s /\
    tracks r s' ev (flat_map (rowimg (l_fbase s)) body) (flat_map (endimg (l_fbase s)) body).
Proof.
  induction 1 as [|i body (a & ln & ->) _ IH]; intros s r Hs.
  - exists s, []. split; [reflexivity|split; [reflexivity|apply tracks_nil, Hs]].
  - destruct (lstep_row s a false ln (sim_linv _ _ Hs)) as (s1 & e1 & H1 & F1).
    pose proof (lstep_sim _ _ _ _ _ Hs H1) as T1.
    destruct (IH s1 _ (proj1 T1)) as (s2 & e2 & H2 & F2 & T2). rewrite F1 in *.
    exists s2, (e1 ++ e2). cbn [lrun flat_map]. rewrite H1, H2.
    split; [reflexivity|split; [exact F2|exact (tracks_app _ _ _ _ _ _ _ _ _ T1 T2)]].
Qed.

Lemma lrun_seq : forall v rows s r, seq_ok rows -> sim s r -> l_in s = false ->
  exists s' ev, lrun cv s (LSetAddr v :: rows) = Some (s', ev) /\ l_in s' = false /\
    tracks r s' ev (flat_map (rowimg v) rows) (flat_map (endimg v) rows).
Proof.
  intros v rows s r (body & a & ln & -> & Hbody) Hs Hin.
  set (s0 := {| l_in := false; l_cur := l_cur s; l_fbase := v; l_last := l_last s |}).
  assert (Hs0 : sim s0 r) by (apply sim_closed; [reflexivity|rewrite <- (proj1 Hs); exact Hin]).
  destruct (lrun_body body Hbody s0 r Hs0) as (s1 & e1 & H1 & F1 & T1).
  destruct (lstep_row s1 a true ln (sim_linv _ _ (proj1 T1))) as (s2 & e2 & H2 & Hin2).
  pose proof (lstep_sim _ _ _ _ _ (proj1 T1) H2) as T2. rewrite F1 in T2.
  exists s2, (e1 ++ e2). cbn [lrun lstep]. rewrite Hin. fold s0. rewrite lrun_app, H1. cbn [lrun]. rewrite H2, app_nil_r.
  split; [reflexivity|split; [exact Hin2|]].
  rewrite !flat_map_app. cbn [flat_map]. rewrite (app_nil_r (rowimg _ _)), (app_nil_r (endimg _ _)). exact (tracks_app _ _ _ _ _ _ _ _ _ T1 T2).
Qed.

Lemma lrun_prog : forall seqs, wf seqs -> forall s r, sim s r -> l_in s = false ->
  exists s' evs, lrun cv s (prog_of seqs) = Some (s', evs) /\ l_in s' = false /\
    tracks r s' evs (flat_map (fun p => flat_map (rowimg (fst p)) (snd p)) seqs)
                    (flat_map (fun p => flat_map (endimg (fst p)) (snd p)) seqs).
Proof.
  induction 1 as [|p seqs Hp _ IH]; intros s r Hs Hin.
  - exists s, []. split; [reflexivity|split; [exact Hin|apply tracks_nil, Hs]].
  - destruct (lrun_seq (fst p) (snd p) s r Hp Hs Hin) as (s1 & e1 & H1 & Hin1 & T1).
    destruct (IH s1 _ (proj1 T1) Hin1) as (s2 & e2 & H2 & Hin2 & T2).
    exists s2, (e1 ++ e2). change (prog_of (p :: seqs)) with ((LSetAddr (fst p) :: snd p) ++ prog_of seqs).
    rewrite lrun_app, H1, H2. split; [reflexivity|split; [exact Hin2|exact (tracks_app _ _ _ _ _ _ _ _ _ T1 T2)]].
Qed.

Lemma lrun_lst0 : forall seqs s' evs, wf seqs -> lrun cv lst0 (prog_of seqs) = Some (s', evs) ->
  l_in s' = false /\
  tracks wst0 s' evs (flat_map (fun p => flat_map (rowimg (fst p)) (snd p)) seqs)
                     (flat_map (fun p => flat_map (endimg (fst p)) (snd p)) seqs).
Proof.
  intros seqs s' evs Hwf H.
  destruct (lrun_prog seqs Hwf lst0 wst0 (sim_closed lst0 wst0 eq_refl eq_refl) eq_refl) as (s2 & e2 & H2 & R).
  rewrite H in H2. injection H2 as <- <-. exact R.
Qed.

(* the conversion of a well-formed program never fails (walrus does not panic) and leaves no sequence open. *)
Theorem lrun_wf_total : forall seqs,
  Forall (fun p => seq_ok (snd p)) seqs ->
  exists s' evs, lrun cv lst0 (prog_of seqs) = Some (s', evs) /\ l_in s' = false.
Proof.
  intros seqs Hwf.
  destruct (lrun_prog seqs Hwf lst0 wst0 (sim_closed lst0 wst0 eq_refl eq_refl) eq_refl) as (s' & evs & H & Hin & _). eauto.
Qed.

(* the rows that do not end a sequence are the images of the mapped input rows, one for one and in order. *)
Theorem lrun_rows_exact : forall seqs s' evs,
  Forall (fun p => seq_ok (snd p)) seqs ->
  lrun cv lst0 (prog_of seqs) = Some (s', evs) ->
  filter (fun r => negb (snd r)) (rows_of 0 evs) =
  flat_map (fun p => flat_map (fun i =>
      match i with
      | LRow a false ln => match cv (a + fst p) true with Some x => [(x, ln, false)] | None => [] end
      | _ => []
      end) (snd p)) seqs.
Proof. intros seqs s' evs Hwf H. destruct (lrun_lst0 _ _ _ Hwf H) as (_ & _ & _ & R & _). exact R. Qed.

Definition end_images (seqs : list (N * list lin)) : list N :=
  flat_map (fun p => flat_map (fun i =>
      match i with
      | LRow a true ln => match cv (a + fst p) true with Some x => [x] | None => [] end
      | _ => []
      end) (snd p)) seqs.

(* every end row the reader sees (first component; see [ends_of_rows]) is one past the
   reader's previous position (second component: previous row of the sequence, or its base if the
   sequence has no row yet) -- the two fallbacks, backwards address and unmapped end -- or it is the
   image [cv (a + v) true] of an end row [LRow a true _] of a sequence with set_address value [v]. *)
Theorem lrun_end_rows : forall seqs s' evs,
  Forall (fun p => seq_ok (snd p)) seqs ->
  lrun cv lst0 (prog_of seqs) = Some (s', evs) ->
  Forall (fun xq => fst xq = snd xq + 1 \/ In (fst xq) (end_images seqs)) (ends_of 0 0 evs).
Proof. intros seqs s' evs Hwf H. destruct (lrun_lst0 _ _ _ Hwf H) as (_ & _ & _ & _ & E). exact E. Qed.

End conv.


(* [10,20) -> [110,120), [20,30) -> [5,15) (moved in front), everything else removed *)
Definition cvx (a : N) (incl : bool) : option N :=
  if a <? 10 then None else if a <? 20 then Some (a + 100) else if a <? 30 then Some (a - 15) else None.

(* sequence 1: base 5 not mapped, first row not mapped, a backwards jump (22 -> 7 after 12 -> 112),
   end 35 not mapped; sequence 2: everything mapped *)
Definition progx : list (N * list lin) :=
  [ (5, [LRow 0 false 1; LRow 7 false 2; LRow 17 false 3; LRow 20 false 4; LRow 30 true 0]);
    (10, [LRow 0 false 5; LRow 5 false 6; LRow 9 true 0]) ].

(* [seq_ok] and [wf] by their shape: a list of rows ends a sequence at its first end row *)
Lemma seq_ok_end : forall a ln, seq_ok [LRow a true ln].
Proof. intros a ln. exists [], a, ln. split; [reflexivity|constructor]. Qed.
Lemma seq_ok_cons : forall a ln rows, seq_ok rows -> seq_ok (LRow a false ln :: rows).
Proof.
  intros a ln rows (body & a' & ln' & -> & H). exists (LRow a false ln :: body), a', ln'.
  split; [reflexivity|]. constructor; [now exists a, ln|exact H].
Qed.
Lemma wf_cons : forall (v : N) rows seqs, seq_ok rows -> Forall (fun p => seq_ok (snd p)) seqs ->
  Forall (fun p => seq_ok (snd p)) ((v, rows) :: seqs).
Proof. intros v rows seqs H1 H2. constructor; assumption. Qed.
#[local] Hint Resolve seq_ok_end seq_ok_cons wf_cons Forall_nil : seq_ok.

Lemma progx_wf : wf progx.
Proof. unfold wf, progx. auto 8 with seq_ok. Qed.

Example lrun_example :
  lrun cvx lst0 (prog_of progx) =
  Some ({| l_in := false; l_cur := Some 110; l_fbase := 19; l_last := 5 |},
        [EvBegin 112; EvRow 0 2; EvEnd 1;            (* begun at the first mapped row; unmapped end... *)
         EvBegin 7; EvRow 0 3; EvRow 3 4; EvEnd 4;   (* ...here by the backwards split; unmapped end 35 *)
         EvBegin 110; EvRow 0 5; EvRow 5 6; EvEnd 9]).
Proof. vm_compute. reflexivity. Qed.

Example lrun_example_rows :
  option_map (fun r => rows_of 0 (snd r)) (lrun cvx lst0 (prog_of progx)) =
  Some [(112, 2, false); (113, 0, true); (7, 3, false); (10, 4, false); (11, 0, true);
        (110, 5, false); (115, 6, false); (119, 0, true)].
Proof. vm_compute. reflexivity. Qed.

Example lrun_example_writer_ok :
  option_map (fun r => writer_ok false 0 (snd r)) (lrun cvx lst0 (prog_of progx)) = Some true.
Proof. vm_compute. reflexivity. Qed.

(* the row loop as it was before the repair 10ea4f7 *)
Section old.
Variable cv : N -> bool -> option N.

(* no begin at the first mapped row when the base is not mapped (the row is skipped),
   nothing emitted for an unmapped end row (the sequence stays open) *)
Definition lstep_old (s : lst) (i : lin) : option (lst * list lev) :=
  match i with
  | LSetAddr v =>
      if l_in s then None
      else Some ({| l_in := false; l_cur := l_cur s; l_fbase := v; l_last := l_last s |}, [])
  | LRow a e ln =>
      let '(s1, ev1) :=
        if l_in s then (s, [])
        else match cv (l_fbase s) false with
             | Some b => ({| l_in := true; l_cur := Some b; l_fbase := l_fbase s; l_last := 0 |}, [EvBegin b])
             | None => ({| l_in := false; l_cur := None; l_fbase := l_fbase s; l_last := l_last s |}, [])
             end in
      let fra := a + l_fbase s in
      match l_cur s1 with
      | None => Some (s1, ev1)
      | Some base =>
          match cv fra true with
          | Some address =>
              let '(base', evs, last') :=
                if address <? base + l_last s1 then (address, [EvEnd (l_last s1 + 1); EvBegin address], 0)
                else (base, [], l_last s1) in
              let off := address - base' in
              if e then Some ({| l_in := false; l_cur := Some base'; l_fbase := fra; l_last := last' |},
                              ev1 ++ evs ++ [EvEnd off])
              else Some ({| l_in := true; l_cur := Some base'; l_fbase := l_fbase s1; l_last := off |},
                         ev1 ++ evs ++ [EvRow off ln])
          | None => Some (s1, ev1)
          end
      end
  end.

Fixpoint lrun_old (s : lst) (is : list lin) : option (lst * list lev) :=
  match is with
  | [] => Some (s, [])
  | i :: r => match lstep_old s i with
              | None => None
              | Some (s', ev) => match lrun_old s' r with
                                 | None => None
                                 | Some (s'', ev') => Some (s'', ev ++ ev')
                                 end
              end
  end.
End old.

(* the end of the first sequence (40) is not mapped: the old code leaves the output sequence open ... *)
Definition prog_open1 : list (N * list lin) := [ (10, [LRow 0 false 1; LRow 30 true 0]) ].
(* ... and the set_address of the next sequence then aborts the conversion *)
Definition prog_open2 : list (N * list lin) :=
  [ (10, [LRow 0 false 1; LRow 30 true 0]); (12, [LRow 0 false 2; LRow 1 true 0]) ].
(* the base (5) is not mapped but the row at 12 is: the old code drops it *)
Definition prog_drop : list (N * list lin) := [ (5, [LRow 7 false 1; LRow 10 true 0]) ].

Theorem old_code_refuted :
  (* statement 2 is false of the old code: the conversion fails (walrus panics) ... *)
  (exists cv seqs, Forall (fun p => seq_ok (snd p)) seqs /\ lrun_old cv lst0 (prog_of seqs) = None) /\
  (* ... or succeeds with the last sequence left open *)
  (exists cv seqs s' evs, Forall (fun p => seq_ok (snd p)) seqs /\
     lrun_old cv lst0 (prog_of seqs) = Some (s', evs) /\ l_in s' = true) /\
  (* statement 3 is false of the old code: a mapped row is lost *)
  (exists cv seqs s' evs, Forall (fun p => seq_ok (snd p)) seqs /\
     lrun_old cv lst0 (prog_of seqs) = Some (s', evs) /\
     filter (fun r => negb (snd r)) (rows_of 0 evs) <>
     flat_map (fun p => flat_map (fun i =>
        match i with
        | LRow a false ln => match cv (a + fst p) true with Some x => [(x, ln, false)] | None => [] end
        | _ => []
        end) (snd p)) seqs).
Proof.
  split; [|split].
  - exists cvx, prog_open2. split; [unfold prog_open2; auto with seq_ok|vm_compute; reflexivity].
  - exists cvx, prog_open1. do 2 eexists.
    split; [unfold prog_open1; auto with seq_ok|split; [vm_compute; reflexivity|reflexivity]].
  - exists cvx, prog_drop. do 2 eexists.
    split; [unfold prog_drop; auto with seq_ok|split; [vm_compute; reflexivity|vm_compute; discriminate]].
Qed.

(* the repaired code on the same inputs *)
Example new_code_on_old_witnesses :
  lrun cvx lst0 (prog_of prog_open2) =
    Some ({| l_in := false; l_cur := Some 112; l_fbase := 13; l_last := 0 |},
          [EvBegin 110; EvRow 0 1; EvEnd 1; EvBegin 112; EvRow 0 2; EvEnd 1]) /\
  lrun cvx lst0 (prog_of prog_drop) =
    Some ({| l_in := false; l_cur := Some 112; l_fbase := 15; l_last := 0 |},
          [EvBegin 112; EvRow 0 1; EvEnd 3]).
Proof. split; vm_compute; reflexivity. Qed.

Print Assumptions lrun_writer_ok.
Print Assumptions lrun_writer_ok0.
Print Assumptions lrun_wf_total.
Print Assumptions lrun_rows_exact.
Print Assumptions lrun_end_rows.
Print Assumptions ends_of_rows.
Print Assumptions lrun_example.
Print Assumptions lrun_example_rows.
Print Assumptions old_code_refuted.
Print Assumptions new_code_on_old_witnesses.
