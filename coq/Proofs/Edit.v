(* Proofs about Model/Edit.v : Module::replace_imported_func / Module::replace_exported_func_core. *)
From Coq Require Import List NArith ZArith Bool Arith Lia Sorted.
Import ListNotations.
From WV Require Import Gen.Ops Model.Common Model.IR Model.Arena Model.Builder Model.ModuleM Model.ParseM Model.Edit.
From WV Require Proofs.Arena Proofs.ArenaSet Proofs.IndexMaps.
From WV Require Import Proofs.ArenaN.
Local Open Scope nat_scope.

Lemma set_locals_twice m a b : set_locals (set_locals m a) b = set_locals m b.
Proof. reflexivity. Qed.
Lemma set_types_twice m a b : set_types (set_types m a) b = set_types m b.
Proof. reflexivity. Qed.

Lemma aget_alloc_old {A} (a : tarena A) v g :
  N.to_nat g < length (items a) -> aget (fst (aalloc a v)) g = aget a g.
Proof. apply aget_snoc_old. Qed.

(* Well-formed ModuleTypes.
   The HashMap [already] only holds ids of live arena items with an equal key, and no id beyond the
   arena is tombstoned.  Weaker than ArenaSet.SInv (it survives the renaming done by the name section,
   which changes [ty_name] in the arena but not in the map).  The key equality [mtype_eqb] compares
   parameters, results and the entry flag (Proofs.IndexMaps.mtype_eqb_spec). *)
Definition types_wf (s : aset mtype) : Prop :=
  Forall (fun d => d < length (items (arena s))) (dead (arena s)) /\
  (forall k id, In (k, id) (already s) ->
     exists k', index (arena s) id = Some k' /\ mtype_eqb k k' = true).

Lemma mtype_eqb_refl a : mtype_eqb a a = true.
Proof. apply Proofs.IndexMaps.mtype_eqb_spec. auto. Qed.

Lemma SInv_types_wf s : Proofs.ArenaSet.SInv mtype mtype_eqb s -> types_wf s.
Proof.
  intros [[_ Hb] [H2 _]]. split; [exact Hb|].
  intros k id Hin. exists k. split; [apply H2; exact Hin|apply mtype_eqb_refl].
Qed.

Lemma types_wf_empty : types_wf aset_empty.
Proof. split; [constructor|]. intros k id []. Qed.

(* insert never modifies (or kills) existing items -- no well-formedness needed *)
Lemma insert_keeps (s s' : aset mtype) v id :
  insert mtype_eqb s v = (s', id) ->
  forall i x, index (arena s) i = Some x -> index (arena s') i = Some x.
Proof.
  unfold insert. destruct (lookup mtype_eqb (already s) v).
  - intros H; inversion H; subst. auto.
  - intros H; inversion H; subst; clear H. cbn [arena]. intros i x Hi. rewrite <- Hi.
    apply (Proofs.Arena.index_alloc_old mtype (arena s) v), (Proofs.Arena.index_lt _ _ _ _ Hi).
Qed.

Lemma insert_spec (s s' : aset mtype) v id :
  types_wf s -> insert mtype_eqb s v = (s', id) ->
  types_wf s' /\ exists v', index (arena s') id = Some v' /\ mtype_eqb v' v = true.
Proof.
  intros [Hb Hal] H. pose proof (insert_keeps _ _ _ _ H) as Hkeep. revert H.
  unfold insert. destruct (lookup mtype_eqb (already s) v) as [i|] eqn:El.
  - intros H; inversion H; subst. split; [split; assumption|].
    destruct (Proofs.ArenaSet.lookup_In _ _ _ _ _ El) as [k [Hin He]].
    destruct (Hal _ _ Hin) as [k' [Hi Hk]]. exists k'. split; [exact Hi|].
    apply Proofs.IndexMaps.mtype_eqb_spec in Hk, He. apply Proofs.IndexMaps.mtype_eqb_spec. intuition congruence.
  - intros H; inversion H; subst; clear H. cbn [arena already] in *.
    pose proof (Proofs.Arena.index_alloc_new mtype (arena s) v Hb) as Hnew.
    split; [split|].
    + apply (Proofs.Arena.alloc_bound mtype (arena s) v Hb).
    + intros k i [Hin|Hin].
      * injection Hin as <- <-. exists v. split; [exact Hnew|apply mtype_eqb_refl].
      * destruct (Hal _ _ Hin) as [k' [Hi Hk]]. exists k'. split; [apply Hkeep, Hi|exact Hk].
    + exists v. split; [exact Hnew|apply mtype_eqb_refl].
Qed.

Lemma types_insert_shape m t m1 id :
  types_insert m t = (m1, id) ->
  m1 = set_types m (m_types m1) /\
  insert mtype_eqb (m_types m) t = (m_types m1, N.to_nat id).
Proof.
  unfold types_insert. destruct (insert mtype_eqb (m_types m) t) as [s' n] eqn:E.
  intros H; inversion H; subst; clear H. rewrite Nat2N.id. split; reflexivity.
Qed.

(* FunctionBuilder::new only touches the types: old ids keep their items; under [types_wf] the two ids
   it returns hold the function type and the entry type it asked for *)
Lemma builder_new_spec m ps rs m2 ty ety :
  builder_new m ps rs = (m2, ty, ety) ->
  m2 = set_types m (m_types m2) /\
  (forall i x, types_get m i = Some x -> types_get m2 i = Some x) /\
  (types_wf (m_types m) ->
   types_wf (m_types m2) /\
   (exists t', types_get m2 ty = Some t' /\ ty_params t' = ps /\ ty_results t' = rs /\ ty_entry t' = false) /\
   (exists e', types_get m2 ety = Some e' /\ ty_params e' = [] /\ ty_results e' = rs /\ ty_entry e' = true)).
Proof.
  unfold builder_new.
  destruct (types_insert m _) as [m1 ty1] eqn:E1.
  destruct (types_insert m1 _) as [m2' ety1] eqn:E2.
  intros H; inversion H; subst; clear H.
  apply types_insert_shape in E1. destruct E1 as [S1 I1].
  apply types_insert_shape in E2. destruct E2 as [S2 I2].
  split; [rewrite S2, S1; reflexivity|]. split.
  - intros i x Hx. exact (insert_keeps _ _ _ _ I2 _ _ (insert_keeps _ _ _ _ I1 _ _ Hx)).
  - intros Hwf.
    destruct (insert_spec _ _ _ _ Hwf I1) as [Hwf1 [t1 [Hi1 He1]]].
    destruct (insert_spec _ _ _ _ Hwf1 I2) as [Hwf2 [t2 [Hi2 He2]]].
    apply Proofs.IndexMaps.mtype_eqb_spec in He1, He2. cbn [ty_params ty_results ty_entry] in He1, He2.
    split; [exact Hwf2|]. split.
    + exists t1. split; [exact (insert_keeps _ _ _ _ I2 _ _ Hi1)|tauto].
    + exists t2. split; [exact Hi2|tauto].
Qed.

Definition mk_arg_local (t : valty) : mlocal := {| lo_ty := t; lo_name := None |}.
Definition arg_locals_arena (a : tarena mlocal) (tys : list valty) : tarena mlocal :=
  {| items := items a ++ map mk_arg_local tys; dead := dead a |}.
Definition arg_ids (a : tarena mlocal) (tys : list valty) : list N :=
  map N.of_nat (seq (length (items a)) (length tys)).

Lemma add_arg_locals_spec tys : forall m,
  add_arg_locals m tys = (set_locals m (arg_locals_arena (m_locals m) tys), arg_ids (m_locals m) tys).
Proof.
  induction tys as [|t r IH]; intros m.
  - cbn [add_arg_locals]. unfold arg_locals_arena, arg_ids. cbn [map length seq]. rewrite app_nil_r.
    destruct m as [? ? ? ? ? l]; destruct l; reflexivity.
  - cbn [add_arg_locals]. rewrite aalloc_eq. cbv beta iota zeta. rewrite IH. cbv beta iota zeta.
    rewrite set_locals_twice.
    change (m_locals (set_locals m ?x)) with x.
    unfold arg_locals_arena, arg_ids. cbn [items dead map length seq].
    rewrite <- app_assoc. cbn [app]. rewrite app_length. cbn [length]. rewrite Nat.add_1_r.
    reflexivity.
Qed.

Definition new_local_func (ty : N) (args : list N) (ar : IR.arena) : mlocalfunc :=
  {| lf_ty := ty; lf_args := args; lf_arena := ar; lf_entry := 0%N; lf_orig_range := None; lf_instr_mapping := [] |}.

(* What a successful run computed, and the result as one equation per field (the setter tower is unfolded
   here and nowhere else). *)
Set Implicit Arguments.
Record imported_run (m : wir) (fid : N) (body : list N -> list bop) (m' : wir)
       (iid : N) (f : mfunc) (imp tid : N) (t : mtype) (ty ety : N) (ar : IR.arena) : Prop := {
  ir_import : imported_func_import m fid = Some iid;
  ir_func : aget (m_funcs m) fid = Some f;
  ir_kind : fn_kind f = FK_Import imp tid;
  ir_type : types_get m tid = Some t;
  ir_builder : builder_new (set_locals m (arg_locals_arena (m_locals m) (ty_params t))) (ty_params t) (ty_results t)
               = (set_types (set_locals m (arg_locals_arena (m_locals m) (ty_params t))) (m_types m'), ty, ety);
  ir_body : run_builder ety (body (arg_ids (m_locals m) (ty_params t))) = Ok ar;
  ir_delete : adelete (m_imports m) iid = Some (m_imports m');
  ir_funcs : m_funcs m' = aset_at (m_funcs m) fid
               (fun f0 => {| fn_kind := FK_Local (new_local_func ty (arg_ids (m_locals m) (ty_params t)) ar);
                             fn_name := fn_name f0 |});
  ir_locals : m_locals m' = arg_locals_arena (m_locals m) (ty_params t);
  ir_tables : m_tables m' = m_tables m;
  ir_memories : m_memories m' = m_memories m;
  ir_globals : m_globals m' = m_globals m;
  ir_exports : m_exports m' = m_exports m;
  ir_elements : m_elements m' = m_elements m;
  ir_data : m_data m' = m_data m;
  ir_start : m_start m' = m_start m;
  ir_customs : m_customs m' = m_customs m;
  ir_producers : m_producers m' = m_producers m;
  ir_name : m_name m' = m_name m;
  ir_config : m_config m' = m_config m;
  ir_debug : m_debug m' = m_debug m;
  ir_cso : m_code_section_offset m' = m_code_section_offset m }.
Unset Implicit Arguments.

Lemma replace_imported_run m fid body m' :
  replace_imported_func m fid body = POk m' ->
  exists iid f imp tid t ty ety ar, imported_run m fid body m' iid f imp tid t ty ety ar.
Proof.
  unfold replace_imported_func.
  destruct (imported_func_import m fid) as [iid|] eqn:Ei; cbn [of_opt_err pbind]; [|discriminate].
  destruct (aget (m_funcs m) fid) as [f|] eqn:Ef; cbn [of_opt_panic pbind]; [|discriminate].
  destruct (fn_kind f) as [imp tid|lf0|ty0] eqn:Ek; try discriminate.
  destruct (types_get m tid) as [t|] eqn:Et; cbn [of_opt_panic pbind]; [|discriminate].
  rewrite add_arg_locals_spec.
  set (L := arg_locals_arena (m_locals m) (ty_params t)).
  set (args := arg_ids (m_locals m) (ty_params t)).
  destruct (builder_new (set_locals m L) (ty_params t) (ty_results t)) as [[m2 ty] ety] eqn:EB.
  destruct (run_builder ety (body args)) as [ar| |] eqn:ER; try discriminate.
  pose proof (builder_new_spec _ _ _ _ _ _ EB) as [S _].
  remember (m_types m2) as T eqn:HT. clear HT. subst m2.
  change (m_imports (set_funcs ?a ?b)) with (m_imports a).
  change (m_imports (set_types ?a ?b)) with (m_imports a).
  change (m_imports (set_locals ?a ?b)) with (m_imports a).
  change (m_funcs (set_types ?a ?b)) with (m_funcs a).
  change (m_funcs (set_locals ?a ?b)) with (m_funcs a).
  destruct (adelete (m_imports m) iid) as [ia|] eqn:Ed; cbn [of_opt_panic pbind]; [|discriminate].
  intros H; injection H as <-.
  exists iid, f, imp, tid, t, ty, ety, ar. constructor; try assumption; reflexivity.
Qed.

(* imports.get_imported_func: the first live import of fid *)
Lemma imported_func_import_spec m fid iid :
  imported_func_import m fid = Some iid ->
  exists imp, aget (m_imports m) iid = Some imp /\ im_kind imp = MI_Func fid /\
    forall j x, aget (m_imports m) j = Some x -> (j < iid)%N -> im_kind x <> MI_Func fid.
Proof.
  unfold imported_func_import.
  destruct (find _ (aiter (m_imports m))) as [p|] eqn:Efind; [|discriminate].
  intros H; inversion H; subst iid. apply aiter_find_first in Efind. destruct Efind as [Hg [Hp Hfirst]].
  exists (snd p). split; [exact Hg|]. split.
  - destruct (im_kind (snd p)) as [fx| | |]; try discriminate.
    apply N.eqb_eq in Hp. subst fx. reflexivity.
  - intros j x Hj Hlt E. specialize (Hfirst j x Hj Hlt). cbn [snd] in Hfirst.
    rewrite E, N.eqb_refl in Hfirst. discriminate.
Qed.

Lemma arg_local_nth (its : list mlocal) tys k ty : nth_error tys k = Some ty ->
  nth_error (its ++ map mk_arg_local tys) (length its + k) = Some (mk_arg_local ty).
Proof.
  intros H. rewrite nth_error_app2 by lia. replace (length its + k - length its) with k by lia.
  rewrite nth_error_map, H. reflexivity.
Qed.

(* a relation between the fresh ids and the types, from its instances at each position *)
Lemma arg_ids_Forall2 (P : N -> valty -> Prop) tys : forall n,
  (forall k ty, nth_error tys k = Some ty -> P (N.of_nat (n + k)) ty) ->
  Forall2 P (map N.of_nat (seq n (length tys))) tys.
Proof.
  induction tys as [|t r IH]; intros n H; cbn [length seq map]; constructor.
  - rewrite <- (Nat.add_0_r n). exact (H 0 t eq_refl).
  - apply IH. intros k ty Hk. rewrite Nat.add_succ_comm. exact (H (S k) ty Hk).
Qed.

Lemma arg_ids_fresh (a : tarena mlocal) tys x :
  In x (arg_ids a tys) -> length (items a) <= N.to_nat x < length (items a) + length tys.
Proof.
  unfold arg_ids. rewrite in_map_iff. intros [n [<- Hin]]. rewrite Nat2N.id. apply in_seq in Hin. lia.
Qed.

Lemma arg_ids_NoDup (a : tarena mlocal) tys : NoDup (arg_ids a tys).
Proof.
  unfold arg_ids. apply FinFun.Injective_map_NoDup; [|apply seq_NoDup].
  intros x y E. apply Nat2N.inj. exact E.
Qed.

Section Imported.
  Variables (m : wir) (fid : N) (body : list N -> list bop) (m' : wir).
  Hypothesis Hrun : replace_imported_func m fid body = POk m'.

  (* the run, for a caller who names the function before and after the edit *)
  Lemma imported_run_of f imp tid t f' lf :
    aget (m_funcs m) fid = Some f -> fn_kind f = FK_Import imp tid -> types_get m tid = Some t ->
    aget (m_funcs m') fid = Some f' -> fn_kind f' = FK_Local lf ->
    exists iid ty ety ar, imported_run m fid body m' iid f imp tid t ty ety ar /\
      lf = new_local_func ty (arg_ids (m_locals m) (ty_params t)) ar.
  Proof.
    intros Hf Hk Ht Hf' Hk'.
    destruct (replace_imported_run _ _ _ _ Hrun) as (iid & f0 & imp0 & tid0 & t0 & ty & ety & ar & R).
    rewrite (ir_func R) in Hf. inversion Hf; subst f0.
    rewrite (ir_kind R) in Hk. inversion Hk; subst imp0 tid0.
    rewrite (ir_type R) in Ht. inversion Ht; subst t0.
    rewrite (ir_funcs R), (aget_aset_at_eq _ _ _ _ (ir_func R)) in Hf'.
    inversion Hf'; subst f'. inversion Hk'. eauto 6.
  Qed.

  (* I1: same identifier, now a local function, same name *)
  Theorem imported_I1 f :
    aget (m_funcs m) fid = Some f ->
    exists lf f', aget (m_funcs m') fid = Some f' /\ fn_kind f' = FK_Local lf /\ fn_name f' = fn_name f.
  Proof.
    intros Hf. destruct (replace_imported_run _ _ _ _ Hrun) as (iid & f0 & imp & tid & t & ty & ety & ar & R).
    rewrite (ir_funcs R), (aget_aset_at_eq _ _ _ _ Hf).
    do 2 eexists. split; [reflexivity|split; reflexivity].
  Qed.

  (* I2 (under well-formed ModuleTypes, see [imported_I2_refuted] below): signature preserved *)
  Theorem imported_I2_partial f imp tid t f' lf :
    types_wf (m_types m) ->
    aget (m_funcs m) fid = Some f -> fn_kind f = FK_Import imp tid -> types_get m tid = Some t ->
    aget (m_funcs m') fid = Some f' -> fn_kind f' = FK_Local lf ->
    exists t', types_get m' (lf_ty lf) = Some t' /\
               ty_params t' = ty_params t /\ ty_results t' = ty_results t /\ ty_entry t' = false.
  Proof.
    intros Hwf Hf Hk Ht Hf' Hk'.
    destruct (imported_run_of _ _ _ _ _ _ Hf Hk Ht Hf' Hk') as (iid & ty & ety & ar & R & ->).
    destruct (builder_new_spec _ _ _ _ _ _ (ir_builder R)) as (_ & _ & W). exact (proj1 (proj2 (W Hwf))).
  Qed.

  (* well-formedness of ModuleTypes is preserved, so edits can be chained *)
  Theorem imported_types_wf : types_wf (m_types m) -> types_wf (m_types m').
  Proof.
    intros Hwf. destruct (replace_imported_run _ _ _ _ Hrun) as (iid & f0 & imp0 & tid0 & t0 & ty & ety & ar & R).
    destruct (builder_new_spec _ _ _ _ _ _ (ir_builder R)) as (_ & _ & W). exact (proj1 (W Hwf)).
  Qed.

  (* existing types keep their ids and contents (no well-formedness needed) *)
  Theorem imported_types_kept i x : types_get m i = Some x -> types_get m' i = Some x.
  Proof.
    intros Hx. destruct (replace_imported_run _ _ _ _ Hrun) as (iid & f0 & imp0 & tid0 & t0 & ty & ety & ar & R).
    destruct (builder_new_spec _ _ _ _ _ _ (ir_builder R)) as (_ & K & _). exact (K i x Hx).
  Qed.

  (* I3: every other function untouched; none added or deleted *)
  Theorem imported_I3 :
    (forall g, g <> fid -> aget (m_funcs m') g = aget (m_funcs m) g) /\
    length (items (m_funcs m')) = length (items (m_funcs m)) /\
    dead (m_funcs m') = dead (m_funcs m).
  Proof.
    destruct (replace_imported_run _ _ _ _ Hrun) as (iid & f0 & imp0 & tid0 & t0 & ty & ety & ar & R).
    rewrite (ir_funcs R). split; [|split].
    - intros g Hg. apply aget_aset_at_ne. exact Hg.
    - apply aset_at_length.
    - reflexivity.
  Qed.

  (* I4: exactly the (first) import of that function is removed *)
  Theorem imported_I4 :
    exists iid, imported_func_import m fid = Some iid /\
      (forall i, i <> iid -> aget (m_imports m') i = aget (m_imports m) i) /\
      aget (m_imports m') iid = None /\
      (forall imp, aget (m_imports m) iid = Some imp -> im_kind imp = MI_Func fid).
  Proof.
    destruct (replace_imported_run _ _ _ _ Hrun) as (iid & f0 & imp0 & tid0 & t0 & ty & ety & ar & R).
    exists iid. split; [exact (ir_import R)|]. split; [|split].
    - intros i Hi. exact (adelete_other _ _ _ _ (ir_delete R) Hi).
    - exact (adelete_gone _ _ _ (ir_delete R)).
    - intros imp Himp. destruct (imported_func_import_spec _ _ _ (ir_import R)) as (imp1 & Hg & Hk & _). congruence.
  Qed.

  (* I4, in full: the deleted import was live, imports fid, and no earlier live import does;
     the arena only gained a tombstone *)
  Theorem imported_I4_first :
    exists iid imp, imported_func_import m fid = Some iid /\
      aget (m_imports m) iid = Some imp /\ im_kind imp = MI_Func fid /\
      (forall j x, aget (m_imports m) j = Some x -> (j < iid)%N -> im_kind x <> MI_Func fid) /\
      length (items (m_imports m')) = length (items (m_imports m)) /\
      dead (m_imports m') = N.to_nat iid :: dead (m_imports m).
  Proof.
    destruct (replace_imported_run _ _ _ _ Hrun) as (iid & f0 & imp0 & tid0 & t0 & ty & ety & ar & R).
    destruct (imported_func_import_spec _ _ _ (ir_import R)) as (imp & Hg & Hk & Hfirst).
    exists iid, imp. split; [exact (ir_import R)|]. split; [exact Hg|]. split; [exact Hk|]. split; [exact Hfirst|].
    exact (adelete_shape _ _ _ (ir_delete R)).
  Qed.

  (* I5: frame *)
  Theorem imported_I5 :
    m_tables m' = m_tables m /\ m_memories m' = m_memories m /\ m_globals m' = m_globals m /\
    m_exports m' = m_exports m /\ m_elements m' = m_elements m /\ m_data m' = m_data m /\
    m_start m' = m_start m /\ m_customs m' = m_customs m /\ m_producers m' = m_producers m /\
    m_name m' = m_name m /\ m_config m' = m_config m.
  Proof.
    destruct (replace_imported_run _ _ _ _ Hrun) as (iid & f0 & imp0 & tid0 & t0 & ty & ety & ar & R).
    destruct R. repeat split; assumption.
  Qed.

  Theorem imported_I5_extra :
    m_debug m' = m_debug m /\ m_code_section_offset m' = m_code_section_offset m.
  Proof.
    destruct (replace_imported_run _ _ _ _ Hrun) as (iid & f0 & imp0 & tid0 & t0 & ty & ety & ar & R).
    destruct R. split; assumption.
  Qed.

  (* I6: locals *)
  Theorem imported_I6 f imp tid t f' lf :
    aget (m_funcs m) fid = Some f -> fn_kind f = FK_Import imp tid -> types_get m tid = Some t ->
    aget (m_funcs m') fid = Some f' -> fn_kind f' = FK_Local lf ->
    (forall l, l < length (items (m_locals m)) ->
               nth_error (items (m_locals m')) l = nth_error (items (m_locals m)) l) /\
    dead (m_locals m') = dead (m_locals m) /\
    length (items (m_locals m')) = length (items (m_locals m)) + length (ty_params t) /\
    lf_args lf = map N.of_nat (seq (length (items (m_locals m))) (length (ty_params t))) /\
    length (lf_args lf) = length (ty_params t) /\
    NoDup (lf_args lf) /\
    Forall (fun a => aget (m_locals m) a = None) (lf_args lf) /\
    Forall2 (fun a ty => nth_error (items (m_locals m')) (N.to_nat a) = Some {| lo_ty := ty; lo_name := None |})
            (lf_args lf) (ty_params t) /\
    (Forall (fun d => d < length (items (m_locals m))) (dead (m_locals m)) ->
     Forall2 (fun a ty => aget (m_locals m') a = Some {| lo_ty := ty; lo_name := None |})
             (lf_args lf) (ty_params t)).
  Proof.
    intros Hf Hk Ht Hf' Hk'.
    destruct (imported_run_of _ _ _ _ _ _ Hf Hk Ht Hf' Hk') as (iid & ty & ety & ar & R & ->).
    cbn [lf_args new_local_func].
    rewrite (ir_locals R). unfold arg_locals_arena. cbn [items dead].
    split; [intros l Hl; apply nth_error_app1; exact Hl|].
    split; [reflexivity|].
    split; [rewrite app_length, map_length; reflexivity|].
    split; [reflexivity|].
    split; [unfold arg_ids; rewrite map_length, seq_length; reflexivity|].
    split; [apply arg_ids_NoDup|].
    split.
    { apply Forall_forall. intros a Ha. apply arg_ids_fresh in Ha.
      unfold aget, index, get. destruct (is_dead _ _); [reflexivity|].
      apply nth_error_None. lia. }
    split.
    { apply arg_ids_Forall2. intros k ty0 Hn. rewrite Nat2N.id. exact (arg_local_nth _ _ _ _ Hn). }
    intros Hb. apply arg_ids_Forall2. intros k ty0 Hn.
    unfold aget, index, get. rewrite Nat2N.id, (Proofs.Arena.is_dead_above _ _ (length (items (m_locals m)))); [|exact Hb|lia].
    exact (arg_local_nth _ _ _ _ Hn).
  Qed.

  (* I7: the body is what the builder built, from the model's entry type and argument locals *)
  Theorem imported_I7 f imp tid t f' lf :
    aget (m_funcs m) fid = Some f -> fn_kind f = FK_Import imp tid -> types_get m tid = Some t ->
    aget (m_funcs m') fid = Some f' -> fn_kind f' = FK_Local lf ->
    exists m1 args m2 ty ety ar,
      add_arg_locals m (ty_params t) = (m1, args) /\
      builder_new m1 (ty_params t) (ty_results t) = (m2, ty, ety) /\
      run_builder ety (body args) = Ok ar /\
      lf = {| lf_ty := ty; lf_args := args; lf_arena := ar; lf_entry := 0%N;
              lf_orig_range := None; lf_instr_mapping := [] |}.
  Proof.
    intros Hf Hk Ht Hf' Hk'.
    destruct (imported_run_of _ _ _ _ _ _ Hf Hk Ht Hf' Hk') as (iid & ty & ety & ar & R & ->).
    do 6 eexists. split; [apply add_arg_locals_spec|].
    split; [exact (ir_builder R)|]. split; [exact (ir_body R)|reflexivity].
  Qed.
End Imported.

(* I8: failure modes (an error is returned; there is no new module, so nothing changed) *)
Lemma imported_func_import_none m fid :
  (forall i imp, aget (m_imports m) i = Some imp -> im_kind imp <> MI_Func fid) ->
  imported_func_import m fid = None.
Proof.
  intros Hno. destruct (imported_func_import m fid) as [iid|] eqn:E; [|reflexivity]. exfalso.
  destruct (imported_func_import_spec _ _ _ E) as (imp & Hg & Hk & _). exact (Hno _ _ Hg Hk).
Qed.

Theorem imported_I8_not_imported m fid body :
  (forall i imp, aget (m_imports m) i = Some imp -> im_kind imp <> MI_Func fid) ->
  replace_imported_func m fid body = PErr.
Proof.
  intros Hno. unfold replace_imported_func. rewrite (imported_func_import_none _ _ Hno). reflexivity.
Qed.

Theorem imported_I8_not_import_kind m fid body iid f :
  imported_func_import m fid = Some iid -> aget (m_funcs m) fid = Some f ->
  (forall imp tid, fn_kind f <> FK_Import imp tid) ->
  replace_imported_func m fid body = PErr.
Proof.
  intros Hi Hf Hk. unfold replace_imported_func. rewrite Hi, Hf. cbn [of_opt_err of_opt_panic pbind].
  destruct (fn_kind f) as [imp tid| |]; [exfalso; eapply Hk; reflexivity|reflexivity|reflexivity].
Qed.

Theorem replace_imported_spec m fid body m' :
  types_wf (m_types m) ->
  replace_imported_func m fid body = POk m' ->
  exists iid f imp tid t lf,
    imported_func_import m fid = Some iid /\ aget (m_funcs m) fid = Some f /\
    fn_kind f = FK_Import imp tid /\ types_get m tid = Some t /\
    (* I1 *) aget (m_funcs m') fid = Some {| fn_kind := FK_Local lf; fn_name := fn_name f |} /\
    (* I2 *) (exists t', types_get m' (lf_ty lf) = Some t' /\
                ty_params t' = ty_params t /\ ty_results t' = ty_results t /\ ty_entry t' = false) /\
    (* I3 *) ((forall g, g <> fid -> aget (m_funcs m') g = aget (m_funcs m) g) /\
              length (items (m_funcs m')) = length (items (m_funcs m)) /\
              dead (m_funcs m') = dead (m_funcs m)) /\
    (* I4 *) ((forall i, i <> iid -> aget (m_imports m') i = aget (m_imports m) i) /\
              aget (m_imports m') iid = None /\
              (forall imp0, aget (m_imports m) iid = Some imp0 -> im_kind imp0 = MI_Func fid)) /\
    (* I5 *) (m_tables m' = m_tables m /\ m_memories m' = m_memories m /\ m_globals m' = m_globals m /\
              m_exports m' = m_exports m /\ m_elements m' = m_elements m /\ m_data m' = m_data m /\
              m_start m' = m_start m /\ m_customs m' = m_customs m /\ m_producers m' = m_producers m /\
              m_name m' = m_name m /\ m_config m' = m_config m) /\
    (* I6 *) ((forall l, l < length (items (m_locals m)) ->
                 nth_error (items (m_locals m')) l = nth_error (items (m_locals m)) l) /\
              lf_args lf = map N.of_nat (seq (length (items (m_locals m))) (length (ty_params t))) /\
              Forall2 (fun a ty => nth_error (items (m_locals m')) (N.to_nat a) = Some {| lo_ty := ty; lo_name := None |})
                      (lf_args lf) (ty_params t)) /\
    (* I7 *) (exists m1 args m2 ty ety ar,
                add_arg_locals m (ty_params t) = (m1, args) /\
                builder_new m1 (ty_params t) (ty_results t) = (m2, ty, ety) /\
                run_builder ety (body args) = Ok ar /\ lf_arena lf = ar /\ lf_args lf = args /\ lf_ty lf = ty) /\
    types_wf (m_types m').
Proof.
  intros Hwf H.
  destruct (replace_imported_run _ _ _ _ H) as (iid & f & imp & tid & t & ty & ety & ar & R).
  pose proof (ir_func R) as Hf. pose proof (ir_kind R) as Hk. pose proof (ir_type R) as Ht.
  destruct (imported_I1 _ _ _ _ H f Hf) as (lf & f' & Hf' & Hk' & Hn).
  exists iid, f, imp, tid, t, lf.
  split; [exact (ir_import R)|]. repeat (split; [assumption|]).
  split. { rewrite Hf'. destruct f' as [k n]. cbn [fn_kind fn_name] in *. subst. reflexivity. }
  split. { eapply imported_I2_partial; eauto. }
  split. { eapply imported_I3; eauto. }
  split. { destruct (imported_I4 _ _ _ _ H) as (iid' & Hi' & H4). rewrite (ir_import R) in Hi'. inversion Hi'; subst iid'. exact H4. }
  split. { eapply imported_I5; eauto. }
  split. { destruct (imported_I6 _ _ _ _ H f imp tid t f' lf Hf Hk Ht Hf' Hk') as (A1 & _ & _ & A4 & _ & _ & _ & A8 & _). auto. }
  split. { destruct (imported_I7 _ _ _ _ H f imp tid t f' lf Hf Hk Ht Hf' Hk') as (m1 & args & m2 & ty1 & ety1 & ar1 & B1 & B2 & B3 & B4).
           exists m1, args, m2, ty1, ety1, ar1. subst lf. cbn [lf_arena lf_args lf_ty]. auto 10. }
  eapply imported_types_wf; eauto.
Qed.

Definition retarget (nid : N) (e : mexport) : mexport :=
  {| ex_name := ex_name e; ex_kind := ex_kind e; ex_item := nid |}.

Set Implicit Arguments.
Record exported_run (m : wir) (fid : N) (body : list N -> list bop) (m' : wir) (nid : N)
       (eid : N) (f : mfunc) (lf0 : mlocalfunc) (t : mtype) (ty ety : N) (ar : IR.arena) (e : mexport) : Prop := {
  er_export : exported_func_export m fid = Some eid;
  er_func : aget (m_funcs m) fid = Some f;
  er_kind : fn_kind f = FK_Local lf0;
  er_type : types_get m (lf_ty lf0) = Some t;
  er_builder : builder_new m (ty_params t) (ty_results t) = (set_types m (m_types m'), ty, ety);
  er_body : run_builder ety (body (lf_args lf0)) = Ok ar;
  er_exp : aget (m_exports m) eid = Some e;
  er_nid : nid = N.of_nat (length (items (m_funcs m)));
  er_funcs : m_funcs m' = {| items := items (m_funcs m) ++
                               [{| fn_kind := FK_Local (new_local_func ty (lf_args lf0) ar); fn_name := None |}];
                             dead := dead (m_funcs m) |};
  er_exports : m_exports m' = aset_at (m_exports m) eid (retarget nid);
  er_imports : m_imports m' = m_imports m;
  er_tables : m_tables m' = m_tables m;
  er_memories : m_memories m' = m_memories m;
  er_globals : m_globals m' = m_globals m;
  er_elements : m_elements m' = m_elements m;
  er_data : m_data m' = m_data m;
  er_start : m_start m' = m_start m;
  er_customs : m_customs m' = m_customs m;
  er_locals : m_locals m' = m_locals m;
  er_producers : m_producers m' = m_producers m;
  er_name : m_name m' = m_name m;
  er_config : m_config m' = m_config m;
  er_debug : m_debug m' = m_debug m;
  er_cso : m_code_section_offset m' = m_code_section_offset m }.
Unset Implicit Arguments.

Lemma replace_exported_run m fid body m' nid :
  replace_exported_func_core m fid body = POk (m', nid) ->
  exists eid f lf0 t ty ety ar e, exported_run m fid body m' nid eid f lf0 t ty ety ar e.
Proof.
  unfold replace_exported_func_core.
  destruct (exported_func_export m fid) as [eid|] eqn:Ee; cbn [of_opt_err pbind]; [|discriminate].
  destruct (aget (m_funcs m) fid) as [f|] eqn:Ef; cbn [of_opt_panic pbind]; [|discriminate].
  destruct (fn_kind f) as [imp tid|lf0|ty0] eqn:Ek; try discriminate.
  destruct (types_get m (lf_ty lf0)) as [t|] eqn:Et; cbn [of_opt_panic pbind]; [|discriminate].
  destruct (builder_new m (ty_params t) (ty_results t)) as [[m2 ty] ety] eqn:EB.
  destruct (run_builder ety (body (lf_args lf0))) as [ar| |] eqn:ER; try discriminate.
  pose proof (builder_new_spec _ _ _ _ _ _ EB) as [S _].
  remember (m_types m2) as T eqn:HT. clear HT. subst m2.
  rewrite aalloc_eq. cbv beta iota zeta.
  change (m_exports (set_funcs ?a ?b)) with (m_exports a).
  change (m_exports (set_types ?a ?b)) with (m_exports a).
  change (m_funcs (set_types ?a ?b)) with (m_funcs a).
  destruct (aget (m_exports m) eid) as [e|] eqn:Eg; cbn [of_opt_panic pbind]; [|discriminate].
  intros H; injection H as <- <-.
  exists eid, f, lf0, t, ty, ety, ar, e. constructor; try assumption; reflexivity.
Qed.

(* the functions after the edit: the old ones, and the new one at [nid] *)
Lemma er_funcs_inv {m fid body m' nid eid f lf0 t ty ety ar e}
      (R : exported_run m fid body m' nid eid f lf0 t ty ety ar e) id fn :
  aget (m_funcs m') id = Some fn ->
  aget (m_funcs m) id = Some fn \/
  (id = nid /\ fn = {| fn_kind := FK_Local (new_local_func ty (lf_args lf0) ar); fn_name := None |}).
Proof. rewrite (er_funcs R), (er_nid R). apply aget_snoc_inv. Qed.

(* exports.get_exported_func: the first live function export of fid *)
Lemma exported_func_export_spec m fid eid :
  exported_func_export m fid = Some eid ->
  exists e, aget (m_exports m) eid = Some e /\ ex_kind e = EK_Func /\ ex_item e = fid /\
    forall j x, aget (m_exports m) j = Some x -> (j < eid)%N -> ~ (ex_kind x = EK_Func /\ ex_item x = fid).
Proof.
  unfold exported_func_export.
  destruct (find _ (aiter (m_exports m))) as [p|] eqn:Efind; [|discriminate].
  intros H; inversion H; subst eid. apply aiter_find_first in Efind. destruct Efind as [Hg [Hp Hfirst]].
  exists (snd p). split; [exact Hg|].
  destruct (ex_kind (snd p)) eqn:Ek; try discriminate. apply N.eqb_eq in Hp.
  split; [reflexivity|]. split; [exact Hp|].
  intros j x Hj Hlt [E1 E2]. specialize (Hfirst j x Hj Hlt). cbn [snd] in Hfirst.
  rewrite E1, E2, N.eqb_refl in Hfirst. discriminate.
Qed.

Lemma exported_func_export_none m fid :
  (forall i e, aget (m_exports m) i = Some e -> ~ (ex_kind e = EK_Func /\ ex_item e = fid)) ->
  exported_func_export m fid = None.
Proof.
  intros Hno. destruct (exported_func_export m fid) as [eid|] eqn:E; [|reflexivity]. exfalso.
  destruct (exported_func_export_spec _ _ _ E) as (e & Hg & Hk & Hi & _).
  apply (Hno _ _ Hg). auto.
Qed.

Section Exported.
  Variables (m : wir) (fid : N) (body : list N -> list bop) (m' : wir) (nid : N).
  Hypothesis Hrun : replace_exported_func_core m fid body = POk (m', nid).


  Lemma exported_run_of f lf0 t :
    aget (m_funcs m) fid = Some f -> fn_kind f = FK_Local lf0 -> types_get m (lf_ty lf0) = Some t ->
    exists eid ty ety ar e, exported_run m fid body m' nid eid f lf0 t ty ety ar e.
  Proof.
    intros Hf Hk Ht.
    destruct (replace_exported_run _ _ _ _ _ Hrun) as (eid & f0 & lf1 & t0 & ty & ety & ar & e & R).
    rewrite (er_func R) in Hf. inversion Hf; subst f0.
    rewrite (er_kind R) in Hk. inversion Hk; subst lf1.
    rewrite (er_type R) in Ht. inversion Ht; subst t0. eauto 6.
  Qed.

  (* E1, the part that needs no hypothesis: the id is the arena's next id and the new item sits there *)
  Theorem exported_E1_id :
    nid = N.of_nat (length (items (m_funcs m))) /\
    exists lf, nth_error (items (m_funcs m')) (N.to_nat nid) = Some {| fn_kind := FK_Local lf; fn_name := None |} /\
               length (items (m_funcs m')) = S (length (items (m_funcs m))) /\
               dead (m_funcs m') = dead (m_funcs m).
  Proof.
    destruct (replace_exported_run _ _ _ _ _ Hrun) as (eid & f & lf0 & t & ty & ety & ar & e & R).
    split; [exact (er_nid R)|].
    rewrite (er_funcs R), (er_nid R), Nat2N.id.
    eexists. cbn [items dead]. split; [|split; [|reflexivity]].
    - rewrite nth_error_app2, Nat.sub_diag by lia. reflexivity.
    - rewrite app_length, Nat.add_1_r. reflexivity.
  Qed.

  (* E1 (under: no id beyond the function arena is tombstoned; ModuleTypes well-formed) *)
  Theorem exported_E1_partial f lf0 t :
    Forall (fun d => d < length (items (m_funcs m))) (dead (m_funcs m)) ->
    types_wf (m_types m) ->
    aget (m_funcs m) fid = Some f -> fn_kind f = FK_Local lf0 -> types_get m (lf_ty lf0) = Some t ->
    nid = N.of_nat (length (items (m_funcs m))) /\
    exists lf, aget (m_funcs m') nid = Some {| fn_kind := FK_Local lf; fn_name := None |} /\
      (exists t', types_get m' (lf_ty lf) = Some t' /\
                  ty_params t' = ty_params t /\ ty_results t' = ty_results t /\ ty_entry t' = false) /\
      lf_args lf = lf_args lf0.
  Proof.
    intros Hb Hwf Hf Hk Ht.
    destruct (exported_run_of _ _ _ Hf Hk Ht) as (eid & ty & ety & ar & e & R).
    split; [exact (er_nid R)|].
    exists (new_local_func ty (lf_args lf0) ar). split; [|split; [|reflexivity]].
    - rewrite (er_funcs R), (er_nid R). apply aget_snoc_new, Hb.
    - destruct (builder_new_spec _ _ _ _ _ _ (er_builder R)) as (_ & _ & W). exact (proj1 (proj2 (W Hwf))).
  Qed.

  (* the new body is what the builder built *)
  Theorem exported_body f lf0 t :
    aget (m_funcs m) fid = Some f -> fn_kind f = FK_Local lf0 -> types_get m (lf_ty lf0) = Some t ->
    exists m2 ty ety ar,
      builder_new m (ty_params t) (ty_results t) = (m2, ty, ety) /\
      run_builder ety (body (lf_args lf0)) = Ok ar /\
      nth_error (items (m_funcs m')) (N.to_nat nid) =
        Some {| fn_kind := FK_Local {| lf_ty := ty; lf_args := lf_args lf0; lf_arena := ar; lf_entry := 0%N;
                                       lf_orig_range := None; lf_instr_mapping := [] |};
                fn_name := None |}.
  Proof.
    intros Hf Hk Ht.
    destruct (exported_run_of _ _ _ Hf Hk Ht) as (eid & ty & ety & ar & e & R).
    do 4 eexists. split; [exact (er_builder R)|]. split; [exact (er_body R)|].
    rewrite (er_funcs R), (er_nid R), Nat2N.id.
    cbn [items]. rewrite nth_error_app2, Nat.sub_diag by lia. reflexivity.
  Qed.

  Theorem exported_types_wf : types_wf (m_types m) -> types_wf (m_types m').
  Proof.
    intros Hwf. destruct (replace_exported_run _ _ _ _ _ Hrun) as (eid & f0 & lf1 & t0 & ty & ety & ar & e & R).
    destruct (builder_new_spec _ _ _ _ _ _ (er_builder R)) as (_ & _ & W). exact (proj1 (W Hwf)).
  Qed.

  Theorem exported_types_kept i x : types_get m i = Some x -> types_get m' i = Some x.
  Proof.
    intros Hx. destruct (replace_exported_run _ _ _ _ _ Hrun) as (eid & f0 & lf1 & t0 & ty & ety & ar & e & R).
    destruct (builder_new_spec _ _ _ _ _ _ (er_builder R)) as (_ & K & _). exact (K i x Hx).
  Qed.

  (* E2: every existing function, the original included, is untouched *)
  Theorem exported_E2 :
    forall g, N.to_nat g < length (items (m_funcs m)) -> aget (m_funcs m') g = aget (m_funcs m) g.
  Proof.
    intros g Hg. destruct (replace_exported_run _ _ _ _ _ Hrun) as (eid & f0 & lf1 & t0 & ty & ety & ar & e & R).
    rewrite (er_funcs R). apply aget_snoc_old, Hg.
  Qed.

  Corollary exported_E2_orig f : aget (m_funcs m) fid = Some f -> aget (m_funcs m') fid = Some f.
  Proof. intros Hf. rewrite exported_E2; [exact Hf|]. eapply aget_lt; exact Hf. Qed.

  (* E3: only that export is retargeted *)
  Theorem exported_E3 :
    exists eid e, exported_func_export m fid = Some eid /\
      aget (m_exports m) eid = Some e /\ ex_kind e = EK_Func /\ ex_item e = fid /\
      aget (m_exports m') eid = Some {| ex_name := ex_name e; ex_kind := ex_kind e; ex_item := nid |} /\
      (forall x, x <> eid -> aget (m_exports m') x = aget (m_exports m) x) /\
      length (items (m_exports m')) = length (items (m_exports m)) /\
      dead (m_exports m') = dead (m_exports m).
  Proof.
    destruct (replace_exported_run _ _ _ _ _ Hrun) as (eid & f0 & lf1 & t0 & ty & ety & ar & e & R).
    exists eid, e. pose proof (er_exp R) as Hg.
    destruct (exported_func_export_spec _ _ _ (er_export R)) as (e' & Hg' & Hk & Hi & _).
    rewrite Hg in Hg'. inversion Hg'; subst e'.
    rewrite (er_exports R).
    split; [exact (er_export R)|]. split; [exact Hg|]. split; [exact Hk|]. split; [exact Hi|].
    split; [exact (aget_aset_at_eq _ _ (retarget nid) _ Hg)|].
    split; [intros x Hx; apply aget_aset_at_ne; exact Hx|].
    split; [apply aset_at_length|reflexivity].
  Qed.

  (* E4: frame *)
  Theorem exported_E4 :
    m_imports m' = m_imports m /\ m_tables m' = m_tables m /\ m_memories m' = m_memories m /\
    m_globals m' = m_globals m /\ m_elements m' = m_elements m /\ m_data m' = m_data m /\
    m_start m' = m_start m /\ m_customs m' = m_customs m /\ m_locals m' = m_locals m /\
    m_producers m' = m_producers m /\ m_name m' = m_name m /\ m_config m' = m_config m.
  Proof.
    destruct (replace_exported_run _ _ _ _ _ Hrun) as (eid & f0 & lf1 & t0 & ty & ety & ar & e & R).
    destruct R. repeat split; assumption.
  Qed.

  Theorem exported_E4_extra :
    m_debug m' = m_debug m /\ m_code_section_offset m' = m_code_section_offset m.
  Proof.
    destruct (replace_exported_run _ _ _ _ _ Hrun) as (eid & f0 & lf1 & t0 & ty & ety & ar & e & R).
    destruct R. split; assumption.
  Qed.
End Exported.

(* E5: failure modes *)
Theorem exported_E5_not_exported m fid body :
  (forall i e, aget (m_exports m) i = Some e -> ~ (ex_kind e = EK_Func /\ ex_item e = fid)) ->
  replace_exported_func_core m fid body = PErr.
Proof.
  intros Hno. unfold replace_exported_func_core. rewrite (exported_func_export_none _ _ Hno). reflexivity.
Qed.

Theorem exported_E5_not_local m fid body eid f :
  exported_func_export m fid = Some eid -> aget (m_funcs m) fid = Some f ->
  (forall lf, fn_kind f <> FK_Local lf) ->
  replace_exported_func_core m fid body = PErr.
Proof.
  intros He Hf Hk. unfold replace_exported_func_core. rewrite He, Hf. cbn [of_opt_err of_opt_panic pbind].
  destruct (fn_kind f) as [imp tid|lf|ty]; [reflexivity|exfalso; eapply Hk; reflexivity|reflexivity].
Qed.

Theorem replace_exported_spec m fid body m' nid :
  Forall (fun d => d < length (items (m_funcs m))) (dead (m_funcs m)) ->
  types_wf (m_types m) ->
  replace_exported_func_core m fid body = POk (m', nid) ->
  exists eid e f lf0 t lf,
    exported_func_export m fid = Some eid /\ aget (m_exports m) eid = Some e /\
    ex_kind e = EK_Func /\ ex_item e = fid /\
    aget (m_funcs m) fid = Some f /\ fn_kind f = FK_Local lf0 /\ types_get m (lf_ty lf0) = Some t /\
    (* E1 *) (nid = N.of_nat (length (items (m_funcs m))) /\
              aget (m_funcs m') nid = Some {| fn_kind := FK_Local lf; fn_name := None |} /\
              (exists t', types_get m' (lf_ty lf) = Some t' /\
                 ty_params t' = ty_params t /\ ty_results t' = ty_results t /\ ty_entry t' = false) /\
              lf_args lf = lf_args lf0) /\
    (* E2 *) (forall g, N.to_nat g < length (items (m_funcs m)) -> aget (m_funcs m') g = aget (m_funcs m) g) /\
    (* E3 *) (aget (m_exports m') eid = Some {| ex_name := ex_name e; ex_kind := ex_kind e; ex_item := nid |} /\
              (forall x, x <> eid -> aget (m_exports m') x = aget (m_exports m) x) /\
              length (items (m_exports m')) = length (items (m_exports m)) /\
              dead (m_exports m') = dead (m_exports m)) /\
    (* E4 *) (m_imports m' = m_imports m /\ m_tables m' = m_tables m /\ m_memories m' = m_memories m /\
              m_globals m' = m_globals m /\ m_elements m' = m_elements m /\ m_data m' = m_data m /\
              m_start m' = m_start m /\ m_customs m' = m_customs m /\ m_locals m' = m_locals m /\
              m_producers m' = m_producers m /\ m_name m' = m_name m /\ m_config m' = m_config m) /\
    (* body *) (exists m2 ty ety ar, builder_new m (ty_params t) (ty_results t) = (m2, ty, ety) /\
                  run_builder ety (body (lf_args lf0)) = Ok ar /\ lf_arena lf = ar /\ lf_ty lf = ty) /\
    types_wf (m_types m') /\
    Forall (fun d => d < length (items (m_funcs m'))) (dead (m_funcs m')).
Proof.
  intros Hb Hwf H.
  destruct (replace_exported_run _ _ _ _ _ H) as (eid & f & lf0 & t & ty & ety & ar & e0 & R).
  pose proof (er_func R) as Hf. pose proof (er_kind R) as Hk. pose proof (er_type R) as Ht.
  destruct (exported_E3 _ _ _ _ _ H) as (eid' & e & He' & Hg & Hek & Hei & H3).
  rewrite (er_export R) in He'. inversion He'; subst eid'.
  destruct (exported_E1_partial _ _ _ _ _ H f lf0 t Hb Hwf Hf Hk Ht) as (Hn & lf & Hnew & Hsig & Hargs).
  exists eid, e, f, lf0, t, lf.
  split; [exact (er_export R)|]. repeat (split; [assumption|]).
  split. { auto. }
  split. { apply (exported_E2 _ _ _ _ _ H). }
  split. { exact H3. }
  split. { apply (exported_E4 _ _ _ _ _ H). }
  split.
  { destruct (exported_body _ _ _ _ _ H f lf0 t Hf Hk Ht) as (m2 & ty1 & ety1 & ar1 & B1 & B2 & B3).
    exists m2, ty1, ety1, ar1. split; [exact B1|]. split; [exact B2|].
    apply aget_nth in Hnew. destruct Hnew as [Hnth _]. rewrite Hnth in B3.
    inversion B3; subst lf. split; reflexivity. }
  split. { apply (exported_types_wf _ _ _ _ _ H Hwf). }
  rewrite (er_funcs R). apply (Proofs.Arena.alloc_bound _ (m_funcs m) _ Hb).
Qed.

Definition t_unit : mtype := {| ty_params := []; ty_results := []; ty_entry := false; ty_name := None |}.

(* I2 without [types_wf]: a HashMap entry that points outside the arena makes FunctionBuilder::new
   hand back a dangling type id *)
Definition bad_types_module : wir :=
  set_types
    (set_funcs
       (set_imports (empty_wir default_config)
          {| items := [{| im_module := []; im_name := []; im_kind := MI_Func 0 |}]; dead := [] |})
       {| items := [{| fn_kind := FK_Import 0 0; fn_name := None |}]; dead := [] |})
    {| arena := {| items := [t_unit]; dead := [] |}; already := [(t_unit, 7)] |}.

Theorem imported_I2_refuted :
  exists m fid body m' f imp tid t f' lf,
    replace_imported_func m fid body = POk m' /\
    aget (m_funcs m) fid = Some f /\ fn_kind f = FK_Import imp tid /\ types_get m tid = Some t /\
    aget (m_funcs m') fid = Some f' /\ fn_kind f' = FK_Local lf /\
    types_get m' (lf_ty lf) = None.
Proof.
  exists bad_types_module, 0%N, (fun _ => []).
  do 7 eexists. repeat split; vm_compute; reflexivity.
Qed.

(* E1 without the arena invariant: a tombstone beyond the arena hides the freshly added function *)
Definition bad_funcs_module : wir :=
  set_types
    (set_funcs
       (set_exports (empty_wir default_config)
          {| items := [{| ex_name := []; ex_kind := EK_Func; ex_item := 0 |}]; dead := [] |})
       {| items := [{| fn_kind := FK_Local (new_local_func 0 [] []); fn_name := None |}]; dead := [1] |})
    {| arena := {| items := [t_unit]; dead := [] |}; already := [(t_unit, 0)] |}.

Lemma t_unit_types_wf : types_wf {| arena := {| items := [t_unit]; dead := [] |}; already := [(t_unit, 0)] |}.
Proof.
  split; [constructor|]. intros k id [Hin|[]]. injection Hin as <- <-.
  exists t_unit. split; reflexivity.
Qed.

Theorem exported_E1_refuted :
  exists m fid body m' nid,
    types_wf (m_types m) /\
    replace_exported_func_core m fid body = POk (m', nid) /\
    aget (m_funcs m') nid = None.
Proof.
  exists bad_funcs_module, 0%N, (fun _ => []).
  eexists. eexists.
  split; [exact t_unit_types_wf|].
  split; vm_compute; reflexivity.
Qed.

Print Assumptions imported_I1.
Print Assumptions imported_I2_partial.
Print Assumptions imported_I3.
Print Assumptions imported_I4.
Print Assumptions imported_I4_first.
Print Assumptions imported_I5.
Print Assumptions imported_I6.
Print Assumptions imported_I7.
Print Assumptions imported_I8_not_imported.
Print Assumptions imported_I8_not_import_kind.
Print Assumptions replace_imported_spec.
Print Assumptions imported_I2_refuted.
Print Assumptions exported_E1_id.
Print Assumptions exported_E1_partial.
Print Assumptions exported_E2.
Print Assumptions exported_E3.
Print Assumptions exported_E4.
Print Assumptions exported_E5_not_exported.
Print Assumptions exported_E5_not_local.
Print Assumptions replace_exported_spec.
Print Assumptions exported_E1_refuted.
