(* C19: the parse-time local map.  add_locals / prepare_bodies push, per function, first its parameters
   then its declared locals (expanded run by run) into ii_locals. *)
From Coq Require Import List NArith Arith Lia Bool.
Import ListNotations.
From WV Require Import Gen.Ops Model.Common Model.IR Model.Arena Model.ModuleM Model.ParseM.
From WV Require Import Proofs.Arena Proofs.IndexMaps Proofs.ParsedWf.
From WV Require Proofs.Names.
Local Open Scope nat_scope.

Definition lfind (l : list (N * list N)) (f : N) : option (N * list N) := find (fun p => N.eqb (fst p) f) l.
Definition lvec (l : list (N * list N)) (f : N) : list N := match lfind l f with Some p => snd p | None => [] end.

Lemma locals_of_lfind ids f : locals_of ids f = match lfind (ii_locals ids) f with Some p => Some (snd p) | None => None end.
Proof. reflexivity. Qed.

Lemma lfind_push_same l f x : lfind (assoc_push l f x) f = Some (f, lvec l f ++ [x]).
Proof.
  unfold lvec, lfind. induction l as [|[k v] r IH]; cbn [assoc_push find fst snd].
  - rewrite N.eqb_refl. reflexivity.
  - destruct (N.eqb_spec k f) as [->|Hne]; cbn [find fst snd].
    + rewrite N.eqb_refl. reflexivity.
    + destruct (N.eqb_spec k f); [contradiction|]. exact IH.
Qed.
Lemma lfind_push_other l f x f' : f' <> f -> lfind (assoc_push l f x) f' = lfind l f'.
Proof.
  intros Hne. unfold lfind. induction l as [|[k v] r IH]; cbn [assoc_push find fst snd].
  - destruct (N.eqb_spec f f'); [congruence|reflexivity].
  - destruct (N.eqb_spec k f) as [->|Hkf]; cbn [find fst snd].
    + destruct (N.eqb_spec f f'); [congruence|reflexivity].
    + destruct (N.eqb_spec k f'); [reflexivity|exact IH].
Qed.
Lemma lvec_push_same l f x : lvec (assoc_push l f x) f = lvec l f ++ [x].
Proof. unfold lvec at 1. rewrite lfind_push_same. reflexivity. Qed.
Lemma lvec_push_other l f x f' : f' <> f -> lvec (assoc_push l f x) f' = lvec l f'.
Proof. intros H. unfold lvec. now rewrite lfind_push_other. Qed.

Lemma map_lo_ty_upd (l : list mlocal) n (f : mlocal -> mlocal) :
  (forall x, lo_ty (f x) = lo_ty x) -> map lo_ty (upd l n f) = map lo_ty l.
Proof.
  intros Hf. revert n. induction l as [|x l IH]; intros [|n]; cbn [upd map]; auto.
  - now rewrite Hf.
  - now rewrite IH.
Qed.

Lemma add_locals_spec : forall tys m ids fid pre m' ids' l,
  add_locals m ids fid tys pre = (m', ids', l) ->
  l = map N.of_nat (seq (length (items (m_locals m))) (length tys)) /\
  map lo_ty (items (m_locals m')) = map lo_ty (items (m_locals m)) ++ tys /\
  dead (m_locals m') = dead (m_locals m) /\
  ii_funcs ids' = ii_funcs ids /\
  lvec (ii_locals ids') fid = lvec (ii_locals ids) fid ++ l /\
  (forall f', f' <> fid -> lfind (ii_locals ids') f' = lfind (ii_locals ids) f') /\
  (tys <> [] \/ lfind (ii_locals ids) fid <> None -> lfind (ii_locals ids') fid <> None) /\
  (tys = [] -> ids' = ids).
Proof.
  induction tys as [|t r IH]; intros m ids fid pre m' ids' l E; cbn [add_locals] in E.
  - inversion E; subst; clear E. cbn [length seq map]. rewrite !app_nil_r.
    repeat split; auto. intros [H|H]; [congruence|exact H].
  - wcbn. destruct (add_locals _ _ fid r pre) as [[m1 ids1] rest] eqn:Ea.
    inversion E; subst; clear E.
    match type of Ea with add_locals (set_locals m ?la) _ _ _ _ = _ => set (LA := la) in * end.
    assert (HL : length (items LA) = S (length (items (m_locals m))) /\
                 map lo_ty (items LA) = map lo_ty (items (m_locals m)) ++ [t] /\
                 dead LA = dead (m_locals m)).
    { subst LA. destruct (synth _ _ _); wcbn.
      - rewrite upd_length, app_length, map_lo_ty_upd by reflexivity. rewrite map_app. cbn. repeat split; lia.
      - rewrite app_length, map_app. cbn. repeat split; lia. }
    clearbody LA. apply IH in Ea. clear IH.
    destruct Ea as (H1 & H2 & H3 & H4 & H5 & H6 & H7 & _). wcbn.
    destruct HL as (L1 & L2 & L3).
    rewrite L1 in H1. rewrite L2 in H2. rewrite L3 in H3. wcbn.
    rewrite lvec_push_same in H5.
    repeat split.
    + cbn [length seq map]. now rewrite H1.
    + rewrite H2, <- app_assoc. reflexivity.
    + exact H3.
    + exact H4.
    + rewrite H5, <- app_assoc. reflexivity.
    + intros f' Hf. rewrite (H6 f' Hf). now apply lfind_push_other.
    + intros _. apply H7. right. rewrite lfind_push_same. discriminate.
    + discriminate.
Qed.

Lemma types_insert_locals m t m1 id : types_insert m t = (m1, id) -> m_locals m1 = m_locals m.
Proof.
  unfold types_insert. destruct (insert mtype_eqb (m_types m) t) as [s' i]. intros E; inversion E; subst. reflexivity.
Qed.
Lemma types_insert_get_mono m t m1 id ty x : types_insert m t = (m1, id) -> types_get m ty = Some x -> types_get m1 ty = Some x.
Proof.
  unfold types_insert, insert, types_get, aset_index, index, get, is_dead.
  destruct (lookup mtype_eqb (already (m_types m)) t) as [i|].
  - intros E; inversion E; subst; clear E. wcbn. auto.
  - wcbn. intros E; inversion E; subst; clear E. wcbn.
    destruct (existsb _ _); [discriminate|]. intros H. rewrite nth_error_app1; [exact H|].
    apply nth_error_Some. congruence.
Qed.
(* a type index that is in use stays in use, with the same type, while the locals are prepared *)
Lemma prepare_bodies_get_mono : forall bs m ids ni i m' ids' ps ty x,
  prepare_bodies m ids ni i bs = POk (m', ids', ps) -> types_get m ty = Some x -> types_get m' ty = Some x.
Proof.
  intros bs m ids ni i m' ids' ps ty x E G. destruct (prepare_bodies_steps _ _ _ _ _ _ _ _ E) as (l & Hl & R).
  refine (run_steps_inv_on prepare_step (fun m _ => types_get m ty = Some x) _ l Hl _ _ _ _ G R).
  intros [] m0 ids0 m1 ids1 [] H E1.
  - unfold types_get. rewrite (step_keeps m_types _ _ _ _ _ E1 (fun _ _ => eq_refl)). exact H.
  - cbn [do_step] in E1. destruct (types_insert m0 _) as [m2 tid] eqn:E2. injection E1 as <- _.
    exact (types_insert_get_mono _ _ _ _ _ _ E2 H).
Qed.

Lemma nth_N_NoDup {A} (l : list A) (a b : N) x : NoDup l -> nth_N l a = Some x -> nth_N l b = Some x -> a = b.
Proof.
  unfold nth_N. intros ND Ha Hb. apply N2Nat.inj. apply (proj1 (NoDup_nth_error l) ND).
  - apply nth_error_Some. congruence.
  - congruence.
Qed.

Lemma firstn_skipn_mid {A} (a b c : list A) n k : n = length a -> k = length b -> firstn k (skipn n (a ++ b ++ c)) = b.
Proof.
  intros -> ->. rewrite skipn_app, skipn_all, Nat.sub_diag. cbn [skipn app].
  rewrite firstn_app, firstn_all, Nat.sub_diag. cbn [firstn]. now rewrite app_nil_r.
Qed.

Definition fid_at (ids : i2ids) (ni i : N) (k : nat) : option N := nth_N (ii_funcs ids) (ni + i + N.of_nat k)%N.

(* one function: its parameters, the type of its entry block, its declared locals *)
Lemma prepare_one m ids fid t b m1 ids1 args m2 tid m3 ids3 ls :
  add_locals m ids fid (ty_params t) [97; 114; 103]%N = (m1, ids1, args) ->
  types_insert m1 {| ty_params := []; ty_results := ty_results t; ty_entry := true; ty_name := None |} = (m2, tid) ->
  add_locals m2 ids1 fid (expand_locals (wb_locals b)) [108]%N = (m3, ids3, ls) ->
  lfind (ii_locals ids) fid = None ->
  ii_funcs ids3 = ii_funcs ids /\
  map lo_ty (items (m_locals m3)) = map lo_ty (items (m_locals m)) ++ ty_params t ++ expand_locals (wb_locals b) /\
  dead (m_locals m3) = dead (m_locals m) /\
  (forall f', f' <> fid -> lfind (ii_locals ids3) f' = lfind (ii_locals ids) f') /\
  lvec (ii_locals ids3) fid =
    map N.of_nat (seq (length (items (m_locals m))) (length (ty_params t) + length (expand_locals (wb_locals b)))) /\
  args = map N.of_nat (seq (length (items (m_locals m))) (length (ty_params t))) /\
  (length (ty_params t) + length (expand_locals (wb_locals b)) <> 0 -> lfind (ii_locals ids3) fid <> None) /\
  (length (ty_params t) + length (expand_locals (wb_locals b)) = 0 -> lfind (ii_locals ids3) fid = None).
Proof.
  intros E1 E2 E3 L0.
  destruct (add_locals_spec _ _ _ _ _ _ _ _ E1) as (A1 & A2 & A3 & A4 & A5 & A6 & A7 & A8).
  destruct (add_locals_spec _ _ _ _ _ _ _ _ E3) as (B1 & B2 & B3 & B4 & B5 & B6 & B7 & B8).
  rewrite (types_insert_locals _ _ _ _ E2) in B1, B2, B3.
  assert (Len1 : length (items (m_locals m1)) = length (items (m_locals m)) + length (ty_params t)).
  { rewrite <- (map_length lo_ty (items (m_locals m1))), A2, app_length, map_length. reflexivity. }
  split; [rewrite B4; exact A4|]. split; [rewrite B2, A2, <- app_assoc; reflexivity|]. split; [rewrite B3; exact A3|].
  split; [intros f' Hf; rewrite (B6 f' Hf); exact (A6 f' Hf)|].
  split; [rewrite B5, A5, B1, A1, Len1; unfold lvec; rewrite L0, seq_app, map_app; reflexivity|]. split; [exact A1|]. split.
  - intros Hn. apply B7. destruct (ty_params t); [left; destruct (expand_locals _); [contradiction|discriminate]|].
    right. apply A7. left. discriminate.
  - intros Hn. destruct (ty_params t); [|discriminate]. destruct (expand_locals _); [|discriminate].
    rewrite (B8 eq_refl), (A8 eq_refl). exact L0.
Qed.

Lemma prepare_bodies_locals : forall bs m ids ni i m' ids' ps,
  prepare_bodies m ids ni i bs = POk (m', ids', ps) ->
  NoDup (ii_funcs ids) ->
  (forall k fid, k < length bs -> fid_at ids ni i k = Some fid -> lfind (ii_locals ids) fid = None) ->
  ii_funcs ids' = ii_funcs ids /\
  (exists tl, map lo_ty (items (m_locals m')) = map lo_ty (items (m_locals m)) ++ tl) /\
  dead (m_locals m') = dead (m_locals m) /\
  (forall f, (forall k, k < length bs -> fid_at ids ni i k <> Some f) -> lfind (ii_locals ids') f = lfind (ii_locals ids) f) /\
  forall k b, nth_error bs k = Some b ->
    exists p t base,
      nth_error ps k = Some p /\ pr_body p = b /\ fid_at ids ni i k = Some (pr_fid p) /\
      types_get m' (pr_ty p) = Some t /\
      lvec (ii_locals ids') (pr_fid p) =
        map N.of_nat (seq base (length (ty_params t) + length (expand_locals (wb_locals b)))) /\
      pr_args p = map N.of_nat (seq base (length (ty_params t))) /\
      (length (ty_params t) + length (expand_locals (wb_locals b)) <> 0 -> lfind (ii_locals ids') (pr_fid p) <> None) /\
      (length (ty_params t) + length (expand_locals (wb_locals b)) = 0 -> lfind (ii_locals ids') (pr_fid p) = None) /\
      length (items (m_locals m)) <= base /\
      firstn (length (ty_params t) + length (expand_locals (wb_locals b))) (skipn base (map lo_ty (items (m_locals m')))) =
        ty_params t ++ expand_locals (wb_locals b) /\
      exists f, aget (m_funcs m) (pr_fid p) = Some f /\ fn_kind f = FK_Uninit (pr_ty p).
Proof.
  induction bs as [|b r IH]; intros m ids ni i m' ids' ps E ND Hnone;
    pose proof (fun ty x => prepare_bodies_get_mono _ _ _ _ _ _ _ _ ty x E) as Mono; cbn [prepare_bodies] in E.
  - injection E as <- <- <-. repeat split; auto.
    + exists []. now rewrite app_nil_r.
    + intros [|k] b Hk; discriminate.
  - pinv E as fid Efid. pinv E as f Ef. destruct (fn_kind f) as [? ?| |ty] eqn:Efk; try discriminate.
    pinv E as t Et. apply of_opt_err_ok in Efid. apply of_opt_panic_ok in Ef. apply of_opt_panic_ok in Et.
    destruct (add_locals m ids fid (ty_params t) _) as [[m1 ids1] args] eqn:E1.
    destruct (types_insert m1 _) as [m2 tid] eqn:E2.
    destruct (add_locals m2 ids1 fid _ _) as [[m3 ids3] ls] eqn:E3.
    pinv E as y Ex. destruct y as [[m4 ids4] rest]. injection E as -> -> <-.
    assert (Hfid0 : fid_at ids ni i 0 = Some fid) by (unfold fid_at; cbn [N.of_nat]; rewrite N.add_0_r; exact Efid).
    destruct (prepare_one _ _ _ _ _ _ _ _ _ _ _ _ _ E1 E2 E3 (Hnone 0 fid (Nat.lt_0_succ _) Hfid0))
      as (O1 & O2 & O3 & O4 & O5 & O6 & O7 & O8).
    assert (Hshift : forall k, fid_at ids3 ni (i + 1) k = fid_at ids ni i (S k)).
    { intros k. unfold fid_at. rewrite O1. f_equal. lia. }
    (* the functions are pairwise distinct, so the later bodies leave the entry of this one alone *)
    assert (Hne : forall k, fid_at ids ni i (S k) <> Some fid).
    { intros k Hk. unfold fid_at in Hfid0, Hk. pose proof (nth_N_NoDup _ _ _ _ ND Hfid0 Hk). lia. }
    destruct (IH _ _ _ _ _ _ _ Ex) as (I1 & (tl & I2) & I3 & I4 & I5).
    { rewrite O1. exact ND. }
    { intros k fid' Hk Hf. rewrite Hshift in Hf. rewrite O4 by (intros ->; exact (Hne k Hf)).
      apply (Hnone (S k) fid'); [cbn; lia|exact Hf]. }
    assert (Hlater : lfind (ii_locals ids') fid = lfind (ii_locals ids3) fid).
    { apply I4. intros k _. rewrite Hshift. apply Hne. }
    split; [rewrite I1; exact O1|].
    split; [exists (ty_params t ++ expand_locals (wb_locals b) ++ tl); rewrite I2, O2, <- !app_assoc; reflexivity|].
    split; [rewrite I3; exact O3|]. split.
    + intros f' Hf'. rewrite I4, O4; [reflexivity|intros ->; exact (Hf' 0 (Nat.lt_0_succ _) Hfid0)|].
      intros k Hk. rewrite Hshift. apply Hf'. cbn; lia.
    + intros [|k] b' Hk; cbn [nth_error] in Hk.
      * injection Hk as <-.
        exists {| pr_fid := fid; pr_ty := ty; pr_args := args; pr_body := b |}, t, (length (items (m_locals m))).
        cbn [nth_error pr_fid pr_ty pr_args pr_body].
        split; [reflexivity|]. split; [reflexivity|]. split; [exact Hfid0|]. split; [exact (Mono _ _ Et)|].
        split; [unfold lvec; rewrite Hlater; exact O5|]. split; [exact O6|].
        split; [rewrite Hlater; exact O7|]. split; [rewrite Hlater; exact O8|]. split; [apply le_n|]. split.
        { rewrite I2, O2, <- !app_assoc. rewrite (app_assoc (ty_params t)). apply firstn_skipn_mid.
          - now rewrite map_length.
          - now rewrite app_length. }
        exists f. split; [exact Ef|exact Efk].
      * destruct (I5 _ _ Hk) as (p & t' & base & P1 & P2 & P3 & P4 & P5 & P6 & P7 & P8 & P9 & P10 & P11).
        exists p, t', base. rewrite Hshift in P3. repeat split; auto.
        -- rewrite <- (map_length lo_ty (items (m_locals m))). apply (f_equal (@length _)) in O2. rewrite !app_length in O2.
           rewrite <- (map_length lo_ty (items (m_locals m3))) in P9. lia.
        -- rewrite (Proofs.Names.add_locals_funcs _ _ _ _ _ _ _ _ E3), (Proofs.Names.types_insert_funcs _ _ _ _ E2),
                   (Proofs.Names.add_locals_funcs _ _ _ _ _ _ _ _ E1) in P11. exact P11.
Qed.

Lemma parse_secs_il : forall w s s', parse_secs s w = POk s' -> ii_locals (ps_ids s') = ii_locals (ps_ids s).
Proof.
  intros w s s' E. refine (reach_by_ids ii_locals _ _ _ _ (parse_secs_by _ _ _ E)).
  intros st ids id Hq. pose proof (pushes_ii_locals st ids id) as K. destruct st; try discriminate Hq; exact K.
Qed.

Lemma install_bodies_locals : forall ps m ids m', install_bodies m ids ps = POk m' -> m_locals m' = m_locals m.
Proof. intros ps m ids m'. apply (install_bodies_keeps m_locals). intros p m0 m1. reflexivity. Qed.

Definition same_tys (a b : tarena mlocal) : Prop := map lo_ty (items a) = map lo_ty (items b) /\ dead a = dead b.

Lemma fold_names_same_tys (c : bool) (ls : list N) : forall (names : namemap) (a : tarena mlocal),
  same_tys (fold_left (fun a p => if c && str_empty (snd p) then a
                                  else match nth_N ls (fst p) with
                                       | Some lid => aset_at a lid (fun x => {| lo_ty := lo_ty x; lo_name := Some (snd p) |})
                                       | None => a end) names a) a.
Proof.
  induction names as [|p r IH]; intros a; cbn [fold_left]; [split; reflexivity|].
  destruct (c && str_empty (snd p)); [apply IH|]. destruct (nth_N ls (fst p)) as [lid|]; [|apply IH].
  destruct (IH (aset_at a lid (fun x => {| lo_ty := lo_ty x; lo_name := Some (snd p) |}))) as [H1 H2].
  split; [rewrite H1|rewrite H2]; wcbn; [|reflexivity]. apply map_lo_ty_upd. reflexivity.
Qed.

Lemma apply_local_names_same_tys : forall l m ids m',
  apply_local_names m ids l = Some m' -> same_tys (m_locals m') (m_locals m).
Proof.
  induction l as [|[fi names] r IH]; intros m ids m' E; cbn [apply_local_names] in E.
  - inversion E; split; reflexivity.
  - destruct (nth_N (ii_funcs ids) fi); [|apply IH in E; exact E]. apply IH in E. wcbn.
    destruct E as [H1 H2].
    destruct (fold_names_same_tys (cf_synthetic_names (m_config m))
                (match locals_of ids n with Some v => v | None => [] end) names (m_locals m)) as [G1 G2].
    split; congruence.
Qed.

Lemma parse_names_same_tys m ids n : same_tys (m_locals (parse_names m ids n)) (m_locals m).
Proof.
  unfold parse_names.
  set (m1 := match wn_module n with Some s => set_name m (Some s) | None => m end).
  assert (H1 : m_locals m1 = m_locals m) by (subst m1; destruct (wn_module n); reflexivity).
  clearbody m1. cbv zeta.
  match goal with |- context [apply_local_names ?mm _ _] => set (m2 := mm) end.
  assert (H2 : m_locals m2 = m_locals m) by (subst m2; wcbn; exact H1).
  clearbody m2. clear H1.
  destruct (apply_local_names m2 ids (wn_locals n)) as [m3|] eqn:E3; [|rewrite H2; split; reflexivity].
  apply apply_local_names_same_tys in E3. wcbn. rewrite H2 in E3. exact E3.
Qed.

Lemma fold_parse_names_same_tys ids : forall l m,
  same_tys (m_locals (fold_left (fun m n => parse_names m ids n) l m)) (m_locals m).
Proof.
  induction l as [|n r IH]; intros m; cbn [fold_left]; [split; reflexivity|].
  destruct (IH (parse_names m ids n)) as [H1 H2]. destruct (parse_names_same_tys m ids n) as [G1 G2].
  split; congruence.
Qed.

(* types: renamed in place, the key (params, results, entry) is kept *)
Lemma parse_names_types_get m ids n ty t : types_get m ty = Some t ->
  exists t', types_get (parse_names m ids n) ty = Some t' /\ mtype_eqb t t' = true.
Proof.
  intros G. unfold parse_names.
  set (m1 := match wn_module n with Some s => set_name m (Some s) | None => m end).
  assert (H1 : m_types m1 = m_types m) by (subst m1; destruct (wn_module n); reflexivity).
  clearbody m1. cbv zeta.
  match goal with |- context [apply_local_names ?mm _ _] => set (m2 := mm) end.
  assert (H2 : m_types m2 = m_types m) by (subst m2; wcbn; exact H1).
  clearbody m2. clear H1.
  destruct (apply_local_names m2 ids (wn_locals n)) as [m3|] eqn:E3.
  2:{ exists t. split; [unfold types_get; rewrite H2; exact G|apply mtype_eqb_refl']. }
  apply apply_local_names_types in E3.
  destruct (apply_names_types_eqv (ii_types ids) (wn_types n) (Arena.arena (m_types m3))) as [D Q].
  unfold types_get, aset_index, index, get, is_dead in *. wcbn.
  rewrite E3 in D, Q |- *. rewrite H2 in D, Q |- *. rewrite D.
  destruct (existsb _ _); [discriminate|].
  destruct (Q _ _ G) as (t' & Ht' & He). exists t'. split; assumption.
Qed.

Lemma fold_parse_names_types_get ids : forall l m ty t, types_get m ty = Some t ->
  exists t', types_get (fold_left (fun m n => parse_names m ids n) l m) ty = Some t' /\ mtype_eqb t t' = true.
Proof.
  induction l as [|n r IH]; intros m ty t G; cbn [fold_left].
  - exists t. split; [exact G|apply mtype_eqb_refl'].
  - destruct (parse_names_types_get m ids n ty t G) as (t1 & G1 & E1).
    destruct (IH _ _ _ G1) as (t2 & G2 & E2). exists t2. split; [exact G2|eapply mtype_eqb_trans; eauto].
Qed.

Lemma iota_NoDup n : NoDup (iota n).
Proof. unfold iota. apply Proofs.Order.NoDup_map_inj; [apply Nat2N.inj|apply seq_NoDup]. Qed.

Lemma nth_error_firstn_some {A} (l : list A) : forall n j x, nth_error (firstn n l) j = Some x -> nth_error l j = Some x.
Proof.
  induction l as [|a l IH]; intros [|n] [|j] x H; cbn in *; try discriminate; auto. eapply IH; eauto.
Qed.
Lemma nth_error_skipn' {A} (l : list A) : forall n j, nth_error (skipn n l) j = nth_error l (n + j).
Proof.
  induction l as [|a l IH]; intros [|n] j; cbn [skipn plus]; auto.
  - destruct j; reflexivity.
  - cbn [nth_error]. apply IH.
Qed.

(* the k-th code entry, body [b]: its function [fid] (declared with type index [ty]) gets
   #params + #declared locals with fresh consecutive arena ids, parameters first, typed position by position *)
Theorem parseM_local_map : forall cf ver w s,
  parseM cf ver w = POk s ->
  exists s1,
    parse_secs {| ps_m := empty_wir cf; ps_ids := empty_i2ids; ps_bodies := []; ps_names := []; ps_calls_on_parse := 0 |} w = POk s1 /\
    forall k b, nth_error (ps_bodies s1) k = Some b ->
    exists fid f ty t base,
      nth_N (ii_funcs (ps_ids s)) (len_N (iter (m_funcs (ps_m s1))) - len_N (ps_bodies s1) + N.of_nat k)%N = Some fid /\
      aget (m_funcs (ps_m s1)) fid = Some f /\ fn_kind f = FK_Uninit ty /\
      types_get (ps_m s) ty = Some t /\
      let tys := ty_params t ++ expand_locals (wb_locals b) in
      let ls := map N.of_nat (seq base (length tys)) in
      Proofs.Names.locals_vec (ps_ids s) fid = ls /\
      (tys <> [] -> locals_of (ps_ids s) fid = Some ls) /\
      (tys = [] -> locals_of (ps_ids s) fid = None) /\
      length (items (m_locals (ps_m s1))) <= base /\
      dead (m_locals (ps_m s)) = dead (m_locals (ps_m s1)) /\
      forall j tyj, nth_error tys j = Some tyj ->
        exists lo, nth_error (items (m_locals (ps_m s))) (base + j) = Some lo /\ lo_ty lo = tyj.
Proof.
  intros cf ver w s E. unfold parseM in E. pinv E as s1 E1. exists s1. split; [exact E1|].
  assert (IDC : ids_consistent (ps_m s1) (ps_ids s1)) by (eapply parse_secs_ids; [|exact E1]; apply idc_empty).
  pose proof (parse_secs_il _ _ _ E1) as IL. cbn in IL.
  destruct (_ <? _)%N; [discriminate|].
  pinv E as x Ex. destruct x as [[m1 ids1] prepared]. pinv E as m2 E2. inversion E; subst; clear E. wcbn.
  destruct (prepare_bodies_locals _ _ _ _ _ _ _ _ Ex) as (P1 & _ & P3 & _ & P5).
  { destruct IDC as (-> & _). apply iota_NoDup. }
  { intros k fid _ _. rewrite IL. reflexivity. }
  intros k b Hk. destruct (P5 _ _ Hk) as (p & t & base & Q1 & Q2 & Q3 & Q4 & Q5 & Q6 & Q7 & Q8 & Q9 & Q10 & (f & Q11 & Q12)).
  apply install_bodies_types in E2 as E2t. apply install_bodies_locals in E2 as E2l.
  assert (Q4' : types_get m2 (pr_ty p) = Some t) by (unfold types_get in *; rewrite E2t; exact Q4).
  destruct (fold_parse_names_types_get ids1 (ps_names s1) m2 _ _ Q4') as (t' & G' & Et').
  apply mtype_eqb_spec in Et'. destruct Et' as (Ep & _ & _).
  destruct (fold_parse_names_same_tys ids1 (ps_names s1) m2) as [S1 S2]. rewrite E2l in S1, S2.
  exists (pr_fid p), f, (pr_ty p), t', base. rewrite <- Ep.
  unfold fid_at in Q3. rewrite N.add_0_r in Q3. rewrite P1.
  assert (Hlen : length (ty_params t ++ expand_locals (wb_locals b)) =
                 length (ty_params t) + length (expand_locals (wb_locals b))) by apply app_length.
  cbv zeta. rewrite Hlen. unfold Proofs.Names.locals_vec. rewrite locals_of_lfind. fold (lvec (ii_locals ids1) (pr_fid p)).
  repeat split; auto.
  - unfold lvec in *. destruct (lfind (ii_locals ids1) (pr_fid p)); [exact Q5|exact Q5].
  - intros Hne. assert (Hn : length (ty_params t) + length (expand_locals (wb_locals b)) <> 0).
    { rewrite <- Hlen. destruct (ty_params t ++ expand_locals (wb_locals b)); [congruence|discriminate]. }
    specialize (Q7 Hn). unfold lvec in Q5. destruct (lfind (ii_locals ids1) (pr_fid p)); [now rewrite Q5|congruence].
  - intros He. rewrite He in Hlen. cbn in Hlen. rewrite (Q8 (eq_sym Hlen)). reflexivity.
  - rewrite S2. exact P3.
  - intros j tyj Hj. rewrite <- Q10 in Hj. apply nth_error_firstn_some in Hj. rewrite nth_error_skipn' in Hj.
    rewrite <- S1, nth_error_map in Hj.
    destruct (nth_error (items (m_locals (fold_left (fun m n => parse_names m ids1 n) (ps_names s1) m2))) (base + j)) as [lo|];
      [|discriminate].
    exists lo. split; [reflexivity|]. cbn in Hj. congruence.
Qed.

(* The statement "locals_of (ps_ids s) fid = Some ls with length ls = #params + #declared" is false for a
   function with no parameter and no declared local: nothing is ever pushed for it, the map has no entry
   (every reader of the map uses `match locals_of .. with Some v => v | None => [] end`, i.e. locals_vec). *)
Theorem parseM_local_map_some_refuted :
  exists w s fid, parseM default_config [48%N] w = POk s /\
    nth_N (ii_funcs (ps_ids s)) 0%N = Some fid /\ locals_of (ps_ids s) fid = None.
Proof.
  exists [S_Types [([], [])]; S_Funcs [0%N]; S_Code [{| wb_locals := []; wb_ops := [(WEnd, 1%N)] |}]].
  eexists. eexists. split; [vm_compute; reflexivity|]. split; vm_compute; reflexivity.
Qed.

Print Assumptions add_locals_spec.
Print Assumptions prepare_bodies_locals.
Print Assumptions parse_secs_il.
Print Assumptions parseM_local_map.
Print Assumptions parseM_local_map_some_refuted.
