(* C08, module level fixpoint: every non-local index immediate of an emitted operator is in range of the second parse's index spaces. *)
From Coq Require Import List NArith Bool Lia. Import ListNotations.
From WV Require Import Gen.Ops Model.Common Model.IR Model.ModuleM Model.ParseFn Model.ParseSpec Model.EmitFn
  Model.Traversal Model.ParseM Model.EmitM.
From WV Require Import Proofs.IndexMaps Proofs.Structure Proofs.Structure2 Proofs.Totality Proofs.ParseTotal Proofs.TotalityBodies
  Proofs.ModFix Proofs.ModFix7 Proofs.ModFix10 Proofs.ModFix12 Proofs.ModFix14 Proofs.ModFix15 Proofs.ModFix22 Proofs.ModFix13.
Local Open Scope nat_scope.

(* the counts are one named premise (ModFix7.counts_kept; ModFix13.counts_kept_holds proves it from two_trips) *)
Theorem emitted_refs_in_range : forall cf ver w s1 ilen e1 s2,
  valid_stream w -> parseM cf ver w = POk s1 -> emitM (ps_m s1) ilen [] = Ok e1 ->
  counts_kept e1 s2 ->
  refs_in_range (em_secs e1) (ps_ids s2).
Proof.
  intros cf ver w s1 ilen e1 s2 V P1 E1 CK bs b o loc Hbs Hb Ho sp i Hi Hs.
  destruct (emitM_x2i _ _ _ _ E1) as (fs & Hfs & _).
  destruct (emit_code_payload _ _ _ _ E1 Hfs) as (Hco & F & _ & _).
  assert (Hin : In b (flat_map code_of (em_secs e1))).
  { apply in_flat_map. exists (S_Code bs). split; [exact Hbs|exact Hb]. }
  rewrite Hco in Hin. apply in_map_iff in Hin. destruct Hin as (ef & <- & Hef).
  destruct (Forall2_In_r _ _ _ F ef Hef) as ([id lf] & Hp & Hemit). cbn [fst snd] in Hemit.
  destruct (ulf_in _ _ _ _ Hfs Hp) as (f1 & Hinf & Hk). apply aiter_aget in Hinf.
  destruct (first_trip_function cf ver w s1 ilen e1 id f1 lf ef V P1 Hinf Hk Hemit)
    as (t & ety & l & eloc & evs & decls & lmap & st & _ & Hw & Hpb & Hen & Hlog & _ & Hrok & Heb & Hbody & _).
  rewrite Hbody in Ho. cbn [wb_ops] in Ho.
  destruct (emitted_ops_structured _ _ _ _ _ _ _ _ _ _ Hw (enc_ok_all _ _) Hpb Heb) as (_ & _ & _ & _ & _ & Hfst & _ & _).
  assert (Hout : In (WOp o) (out st)).
  { rewrite <- Hfst. apply in_map_iff. exists (WOp o, loc). split; [reflexivity|exact Ho]. }
  unfold lf_log in Hlog. rewrite Hen in Hlog.
  destruct (emitted_refs _ _ _ _ _ _ _ _ _ _ _ _ o Hw Hpb Heb Hlog Hout sp i Hi) as (rid & Hev & ->).
  cbn [ecx_of ex_id2i]. pose proof (refs_ok_get _ _ _ _ _ Hrok Hev Hs) as Hg.
  apply (x2i_positions _ _ _ _ (Renumbering.parsed_wf_space _ _ _ _ _ _ _ sp P1 E1 Hs)) in Hg.
  assert (Hlt : N.to_nat (id2i_fun (em_x2i e1) lmap sp rid) < length (map fst (space_map (em_x2i e1) sp)))
    by (apply nth_error_Some; congruence).
  rewrite map_length in Hlt. specialize (CK sp). rewrite <- Renumbering.ids_space_eq. lia.
Qed.

Print Assumptions emitted_refs_in_range.

(* with both trips available the premise is ModFix13.counts_kept_holds *)
Corollary emitted_refs_in_range_tt : forall cf ver w ilen s1 e1 s2 e2,
  valid_stream w -> two_trips cf ver w ilen s1 e1 s2 e2 -> refs_in_range (em_secs e1) (ps_ids s2).
Proof.
  intros cf ver w ilen s1 e1 s2 e2 V TT. pose proof TT as (P1 & E1 & _ & _).
  eapply emitted_refs_in_range; try eassumption. eapply counts_kept_holds; exact TT.
Qed.
Print Assumptions emitted_refs_in_range_tt.
