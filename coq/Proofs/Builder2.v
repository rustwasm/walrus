(* Builder programs with dangling sequences attached later (C15): sequences created with [BDangling] and attached
   afterwards by a hand-made [IBlock id] / [ILoop id] / [IIfElse c a] instruction, possibly inside a sequence that
   was created after the dangling one (ids are then not monotone along the nesting).  The denotation [bspec2] threads
   a forest: the dangling trees built so far, looked up by id and consumed when attached; a program is
   [well_attached] when every attachment finds its tree there and none is left at the end.  The machine is the
   one of Proofs/Builder.v ([RunR]), with the forest in the predicates; on the structured fragment the two
   denotations agree (bspec2_conservative). *)
From Coq Require Import List NArith Arith Lia Bool Permutation. Import ListNotations.
From WV Require Import Gen.Ops Model.Common Model.IR Model.Traversal Model.EmitFn Model.EmitSpec Model.Builder.
From WV Require Proofs.Traversal Proofs.EmitFn.
From WV Require Import Proofs.SeqArena Proofs.Builder.
Open Scope N_scope.

(* the forest: the dangling trees, keyed by their own id; [take] finds and removes one *)
Fixpoint take (id : N) (F : list tree) : option (tree * list tree) :=
  match F with
  | [] => None
  | t :: r => if N.eqb (tsid t) id then Some (t, r)
              else match take id r with Some (u, r') => Some (u, t :: r') | None => None end
  end.

(* the item an instruction stands for, and the forest left: attaching consumes *)
Definition attach_of (i : instr) (F : list tree) : option (item * list tree) :=
  match i with
  | IBlock s => match take s F with Some (t, F') => Some (ItB t, F') | None => None end
  | ILoop s => match take s F with Some (t, F') => Some (ItL t, F') | None => None end
  | IIfElse c a =>
      match take c F with
      | Some (tc, F') => match take a F' with Some (ta, F'') => Some (ItI tc ta, F'') | None => None end
      | None => None
      end
  | _ => match item_of_instr i with Some it => Some (it, F) | None => None end
  end.

Definition bstate := (list (item * N) * N * list tree)%type.

(* [bspec2_op o n items F] : items of the current sequence, next free id, forest, after call [o] *)
Fixpoint bspec2_op (o : bop) (n : N) (items : list (item * N)) (F : list tree) {struct o} : option bstate :=
  let bl := fix bl (l : list bop) (n : N) (items : list (item * N)) (F : list tree) {struct l} : option bstate :=
      match l with
      | [] => Some (items, n, F)
      | x :: r => match bspec2_op x n items F with Some (i', n', F') => bl r n' i' F' | None => None end
      end in
  let leaf (pos : option N) (i : instr) : option bstate :=
      match attach_of i F with
      | Some (it, F') => option_map (fun l => (l, n, F')) (put pos it items)
      | None => None
      end in
  let nest1 (pos : option N) (mk : tree -> item) (ty : seqty) (b : list bop) : option bstate :=
      match bl b (n + 1) [] F with
      | Some (its, n1, F1) => option_map (fun l => (l, n1, F1)) (put pos (mk (T n ty its default_loc)) items)
      | None => None
      end in
  let nest2 (pos : option N) (ty : seqty) (c a : list bop) : option bstate :=
      match bl c (n + 1) [] F with
      | Some (ic, n1, F1) =>
          match bl a (n1 + 1) [] F1 with
          | Some (ia, n2, F2) =>
              option_map (fun l => (l, n2, F2)) (put pos (ItI (T n ty ic default_loc) (T n1 ty ia default_loc)) items)
          | None => None
          end
      | None => None
      end in
  match o with
  | BInstr i => leaf None i
  | BInstrAt p i => leaf (Some p) i
  | BBlock ty b => nest1 None ItB ty b
  | BBlockAt p ty b => nest1 (Some p) ItB ty b
  | BLoop ty b => nest1 None ItL ty b
  | BLoopAt p ty b => nest1 (Some p) ItL ty b
  | BIfElse ty c a => nest2 None ty c a
  | BIfElseAt p ty c a => nest2 (Some p) ty c a
  | BDangling ty b =>
      match bl b (n + 1) [] F with
      | Some (its, n1, F1) => Some (items, n1, T n ty its default_loc :: F1)
      | None => None
      end
  end.
Fixpoint bspec2 (l : list bop) (n : N) (items : list (item * N)) (F : list tree) : option bstate :=
  match l with
  | [] => Some (items, n, F)
  | x :: r => match bspec2_op x n items F with Some (i', n', F') => bspec2 r n' i' F' | None => None end
  end.

(* the function denotes a tree only when nothing is left dangling *)
Definition tree_of2 (entry_ty : N) (prog : list bop) : option tree :=
  match bspec2 prog 1 [] [] with
  | Some (items, _, []) => Some (T 0 (ST_Multi entry_ty) items default_loc)
  | _ => None
  end.
Definition well_attached (prog : list bop) : bool :=
  match bspec2 prog 1 [] [] with Some (_, _, []) => true | _ => false end.

Lemma well_attached_tree_of2 ety prog : well_attached prog = true <-> exists t, tree_of2 ety prog = Some t.
Proof.
  unfold well_attached, tree_of2. destruct (bspec2 prog 1 [] []) as [[[items n] [|t F]]|]; split;
    try discriminate; try (intros [t' H]; discriminate); eauto.
Qed.

Definition leaf_spec2 (pos : option N) (i : instr) (n : N) (items : list (item * N)) (F : list tree) : option bstate :=
  match attach_of i F with
  | Some (it, F') => option_map (fun l => (l, n, F')) (put pos it items)
  | None => None
  end.
Definition nest1_spec2 (pos : option N) (mk : tree -> item) (ty : seqty) (b : list bop) n items F : option bstate :=
  match bspec2 b (n + 1) [] F with
  | Some (its, n1, F1) => option_map (fun l => (l, n1, F1)) (put pos (mk (T n ty its default_loc)) items)
  | None => None
  end.
Definition nest2_spec2 (pos : option N) (ty : seqty) (c a : list bop) n items F : option bstate :=
  match bspec2 c (n + 1) [] F with
  | Some (ic, n1, F1) =>
      match bspec2 a (n1 + 1) [] F1 with
      | Some (ia, n2, F2) =>
          option_map (fun l => (l, n2, F2)) (put pos (ItI (T n ty ic default_loc) (T n1 ty ia default_loc)) items)
      | None => None
      end
  | None => None
  end.
Definition dangling_spec2 (ty : seqty) (b : list bop) n (items : list (item * N)) F : option bstate :=
  match bspec2 b (n + 1) [] F with
  | Some (its, n1, F1) => Some (items, n1, T n ty its default_loc :: F1)
  | None => None
  end.

Lemma bspec2_op_eq o n items F : bspec2_op o n items F =
  match shape o with
  | SLeaf pos i => leaf_spec2 pos i n items F
  | SNest1 pos lp ty b => nest1_spec2 pos (nest_item lp) ty b n items F
  | SNest2 pos ty c a => nest2_spec2 pos ty c a n items F
  | SDangling ty b => dangling_spec2 ty b n items F
  end.
Proof. destruct o; reflexivity. Qed.

Definition forest_ids (F : list tree) : list N := flat_map tree_ids F.
Definition FDen (ar : arena) (F : list tree) : Prop := Forall (Den ar) F.

Lemma take_spec id F t F' : take id F = Some (t, F') ->
  tsid t = id /\ exists F1 F2, F = F1 ++ t :: F2 /\ F' = F1 ++ F2.
Proof.
  revert t F'. induction F as [|u r IH]; intros t F' H; cbn [take] in H; [discriminate|].
  destruct (N.eqb (tsid u) id) eqn:E.
  - injection H as <- <-. apply N.eqb_eq in E. split; [exact E|]. exists [], r. auto.
  - destruct (take id r) as [[v r']|] eqn:Et; [|discriminate]. injection H as <- <-.
    destruct (IH _ _ eq_refl) as (Hid & F1 & F2 & -> & ->). split; [exact Hid|].
    exists (u :: F1), F2. auto.
Qed.
Lemma forest_ids_perm F G : Permutation F G -> Permutation (forest_ids F) (forest_ids G).
Proof. apply Permutation_flat_map. Qed.
Lemma FDen_perm ar F G : Permutation F G -> FDen ar F -> FDen ar G.
Proof. intros P H. unfold FDen in *. eapply Permutation_Forall; eassumption. Qed.

(* taking a tree out of the forest: its ids and its denotation go with it *)
Lemma take_ok id F t F' : take id F = Some (t, F') ->
  tsid t = id /\ Permutation (forest_ids F) (tree_ids t ++ forest_ids F') /\
  forall ar, FDen ar F -> Den ar t /\ FDen ar F'.
Proof.
  intros H. destruct (take_spec _ _ _ _ H) as (Hid & F1 & F2 & -> & ->).
  assert (P : Permutation (F1 ++ t :: F2) (t :: F1 ++ F2)) by (symmetry; apply Permutation_middle).
  split; [exact Hid|split; [exact (forest_ids_perm _ _ P)|]].
  intros ar HF. apply (FDen_perm _ _ _ P) in HF. inversion HF; auto.
Qed.

Lemma attach_of_spec i F it F' : attach_of i F = Some (it, F') ->
  i = shallow it /\
  Permutation (forest_ids F) (item_ids it ++ forest_ids F') /\
  (forall ar, FDen ar F -> IDen ar it /\ FDen ar F').
Proof.
  destruct i as [p|s|s|c a|s|s|ss d]; cbn [attach_of item_of_instr]; intros H;
    try (injection H as <- <-; cbn [shallow item_ids IDen app]; auto).
  - destruct (take s F) as [[t G]|] eqn:Et; [|discriminate]. injection H as <- <-.
    destruct (take_ok _ _ _ _ Et) as (<- & P & D). auto.
  - destruct (take s F) as [[t G]|] eqn:Et; [|discriminate]. injection H as <- <-.
    destruct (take_ok _ _ _ _ Et) as (<- & P & D). auto.
  - destruct (take c F) as [[tc G]|] eqn:Ec; [|discriminate].
    destruct (take a G) as [[ta G']|] eqn:Ea; [|discriminate]. injection H as <- <-.
    destruct (take_ok _ _ _ _ Ec) as (<- & Pc & Dc). destruct (take_ok _ _ _ _ Ea) as (<- & Pa & Da).
    cbn [shallow item_ids IDen]. split; [reflexivity|split].
    + rewrite Pc, Pa. now rewrite app_assoc.
    + intros ar HF. destruct (Dc ar HF) as [Hc HG]. destruct (Da ar HG). auto.
Qed.

Definition sids (items : list (item * N)) (F : list tree) : list N := items_ids items ++ forest_ids F.

Definition IdsR2 (n : N) (items : list (item * N)) (F : list tree) (items1 : list (item * N)) (n1 : N) (F1 : list tree) : Prop :=
  IdsP n (sids items F) (sids items1 F1) n1.
Definition Iop2 (o : bop) : Prop := forall n items F items1 n1 F1,
  bspec2_op o n items F = Some (items1, n1, F1) -> IdsR2 n items F items1 n1 F1.
Definition Il2 (ops : list bop) : Prop := forall n items F items1 n1 F1,
  bspec2 ops n items F = Some (items1, n1, F1) -> IdsR2 n items F items1 n1 F1.

(* the ids of a freshly built nested tree, together with the forest its body leaves *)
Lemma nested_ids2 ty b n F its nb F1 : Il2 b -> bspec2 b (n + 1) [] F = Some (its, nb, F1) ->
  n < nb /\ Permutation (tree_ids (T n ty its default_loc) ++ forest_ids F1) (forest_ids F ++ nrange n nb).
Proof. intros HI Hs. exact (IdsP_nest _ _ _ _ (HI _ _ _ _ _ _ Hs)). Qed.

Lemma leaf_ids2 pos i n items F items1 n1 F1 :
  leaf_spec2 pos i n items F = Some (items1, n1, F1) -> IdsR2 n items F items1 n1 F1.
Proof.
  unfold leaf_spec2. destruct (attach_of i F) as [[it F']|] eqn:Ea; [|discriminate].
  destruct (put pos it items) as [l|] eqn:Ep; [|discriminate]. cbn [option_map]. intros H. injection H as <- <- <-.
  destruct (attach_of_spec _ _ _ _ Ea) as (_ & P & _).
  split; [lia|]. rewrite nrange_nil, app_nil_r. unfold sids.
  rewrite (items_ids_put _ _ _ _ Ep), P. now rewrite app_assoc.
Qed.

Lemma block_like_ids2 lp pos ty b n items F items1 n1 F1 :
  Il2 b -> nest1_spec2 pos (nest_item lp) ty b n items F = Some (items1, n1, F1) -> IdsR2 n items F items1 n1 F1.
Proof.
  intros HI. unfold nest1_spec2. destruct (bspec2 b (n + 1) [] F) as [[[its nb] Fb]|] eqn:Eb; [|discriminate].
  destruct (put pos (nest_item lp (T n ty its default_loc)) items) as [l|] eqn:Ep; [|discriminate].
  cbn [option_map]. intros H. injection H as <- <- <-.
  destruct (nested_ids2 ty b n F its nb Fb HI Eb) as (M & P). split; [lia|]. unfold sids.
  rewrite (items_ids_put _ _ _ _ Ep), nest_item_ids, <- !app_assoc. apply Permutation_app_head. exact P.
Qed.

Lemma dangling_ids2 ty b n items F items1 n1 F1 :
  Il2 b -> dangling_spec2 ty b n items F = Some (items1, n1, F1) -> IdsR2 n items F items1 n1 F1.
Proof.
  intros HI. unfold dangling_spec2. destruct (bspec2 b (n + 1) [] F) as [[[its nb] Fb]|] eqn:Eb; [|discriminate].
  intros H. injection H as <- <- <-.
  destruct (nested_ids2 ty b n F its nb Fb HI Eb) as (M & P). split; [lia|]. unfold sids.
  change (forest_ids (T n ty its default_loc :: Fb)) with (tree_ids (T n ty its default_loc) ++ forest_ids Fb).
  rewrite <- !app_assoc. apply Permutation_app_head. exact P.
Qed.

Lemma ifelse_like_ids2 pos ty c al n items F items1 n1 F1 :
  Il2 c -> Il2 al -> nest2_spec2 pos ty c al n items F = Some (items1, n1, F1) -> IdsR2 n items F items1 n1 F1.
Proof.
  intros HIc HIa. unfold nest2_spec2. destruct (bspec2 c (n + 1) [] F) as [[[ic nc] Fc]|] eqn:Ec; [|discriminate].
  destruct (bspec2 al (nc + 1) [] Fc) as [[[ia na] Fa]|] eqn:Ea; [|discriminate].
  destruct (put pos (ItI (T n ty ic default_loc) (T nc ty ia default_loc)) items) as [l|] eqn:Ep; [|discriminate].
  cbn [option_map]. intros H. injection H as <- <- <-.
  destruct (nested_ids2 ty c n F ic nc Fc HIc Ec) as (Mc & Pc).
  destruct (nested_ids2 ty al nc Fc ia na Fa HIa Ea) as (Ma & Pa). split; [lia|]. unfold sids.
  rewrite (items_ids_put _ _ _ _ Ep). cbn [item_ids]. rewrite <- !app_assoc. apply Permutation_app_head.
  rewrite Pa. rewrite (nrange_app n nc na) by lia. rewrite !app_assoc. apply Permutation_app_tail. exact Pc.
Qed.

Theorem ids_op_ops2 : (forall o, Iop2 o) /\ (forall ops, Il2 ops).
Proof.
  apply bop_list_ind.
  - intros n items F items1 n1 F1 Hs. injection Hs as <- <- <-. apply IdsP_refl.
  - intros o r Ho IH n items F items1 n1 F1 Hs. cbn [bspec2] in Hs.
    destruct (bspec2_op o n items F) as [[[i' n'] F']|] eqn:Eo; [|discriminate].
    exact (IdsP_trans _ _ _ _ _ _ (Ho _ _ _ _ _ _ Eo) (IH _ _ _ _ _ _ Hs)).
  - intros o H n items F items1 n1 F1 Hs. rewrite bspec2_op_eq in Hs. unfold sub_ok in H.
    destruct (shape o) as [pos i|pos lp ty b|pos ty c a|ty b].
    + apply (leaf_ids2 pos i), Hs.
    + apply (block_like_ids2 lp pos ty b); auto.
    + destruct H. apply (ifelse_like_ids2 pos ty c a); auto.
    + apply (dangling_ids2 ty b); auto.
Qed.
Theorem ids_ops2 : forall ops, Il2 ops.
Proof. apply ids_op_ops2. Qed.

(* [RunR] of Proofs/Builder.v with the forest in the predicates: the dangling trees sit in the arena
   before the call, those still dangling after it do so afterwards.  A dangling tree is finished when
   it enters the forest, and the machine only writes to open sequences and appends: this is why it is
   enough to look at the arena that the whole run leaves. *)
Definition DenR2 (n : N) (items : list (item * N)) (F : list tree) (items1 : list (item * N)) (n1 : N) (F1 : list tree)
    (run : nat -> arena -> N -> res arena) (bound : nat) : Prop :=
  RunR n items items1 n1 run bound (fun ar => ItemsDen ar items /\ FDen ar F) (fun ar => ItemsDen ar items1 /\ FDen ar F1).

Definition Pop2 (o : bop) : Prop := forall n items F items1 n1 F1,
  bspec2_op o n items F = Some (items1, n1, F1) ->
  DenR2 n items F items1 n1 F1 (fun f a cur => step_op f a cur o) (bsize o).
Definition Pl2 (ops : list bop) : Prop := forall n items F items1 n1 F1,
  bspec2 ops n items F = Some (items1, n1, F1) ->
  DenR2 n items F items1 n1 F1 (fun f a cur => run_ops f a cur ops) (S (bsize_list ops)).

Lemma leaf2_ok pos i n items F items1 n1 F1 :
  leaf_spec2 pos i n items F = Some (items1, n1, F1) ->
  DenR2 n items F items1 n1 F1 (fun _ a cur => place a cur pos i) 1.
Proof.
  unfold leaf_spec2. destruct (attach_of i F) as [[it F']|] eqn:Ea; [|discriminate].
  destruct (put pos it items) as [l|] eqn:Ep; [|discriminate]. cbn [option_map]. intros H. injection H as <- <- <-.
  destruct (attach_of_spec _ _ _ _ Ea) as (-> & _ & HD).
  apply (run_leaf _ _ _ _ _ _ _ Ep). intros ar [Hd HF]. destruct (HD ar HF) as [Hit HF'].
  split; [eapply ItemsDen_put; eassumption|exact HF'].
Qed.

Lemma block_like2_ok lp pos ty b n items F items1 n1 F1 :
  Pl2 b -> nest1_spec2 pos (nest_item lp) ty b n items F = Some (items1, n1, F1) ->
  DenR2 n items F items1 n1 F1
    (fun f a cur => rbind (nested_run f ty b a) (fun r => place (fst r) cur pos (nest_instr lp (snd r))))
    (S (S (bsize_list b))).
Proof.
  intros HP. unfold nest1_spec2. destruct (bspec2 b (n + 1) [] F) as [[[its nb] Fb]|] eqn:Eb; [|discriminate].
  destruct (put pos (nest_item lp (T n ty its default_loc)) items) as [l|] eqn:Ep; [|discriminate].
  cbn [option_map]. intros H. injection H as <- <- <-.
  apply (run_block (nest_instr lp) _ ty _ _ _ _ _ _ _ _ _ _ _ (HP _ _ _ _ _ _ Eb) Ep (nest_item_shallow lp _)).
  intros ar Hn [Hd HF]. split; [split; [constructor|exact HF]|]. intros [Hits HFb]. split; [|exact HFb].
  eapply ItemsDen_put; [exact Ep| |exact Hd]. apply nest_item_den, Den_T. split; assumption.
Qed.

(* the sequence is built like a nested one, then left in the forest instead of being referred to *)
Lemma dangling2_ok ty b n items F items1 n1 F1 :
  Pl2 b -> dangling_spec2 ty b n items F = Some (items1, n1, F1) ->
  DenR2 n items F items1 n1 F1 (fun f a cur => rmap fst (nested_run f ty b a)) (S (S (bsize_list b))).
Proof.
  intros HP. unfold dangling_spec2. destruct (bspec2 b (n + 1) [] F) as [[[its nb] Fb]|] eqn:Eb; [|discriminate].
  intros H. injection H as <- <- <-.
  destruct (run_nested n ty b its nb _ _ (HP _ _ _ _ _ _ Eb)) as (X & -> & R & D).
  exists X. split; [reflexivity|split].
  - intros f a cur ty0 e Hf Ha Hc. rewrite (R f a) by (try lia; assumption). cbn [rmap fst].
    now rewrite (upd_same _ _ _ Hc).
  - intros pre post Hp [Hd HF]. destruct (D pre post Hp) as [Hn D'].
    destruct (D' (conj (Forall_nil _) HF)) as [Hits HFb].
    split; [exact Hd|]. constructor; [apply Den_T; split; assumption|exact HFb].
Qed.

Lemma ifelse_like2_ok pos ty c al n items F items1 n1 F1 :
  Pl2 c -> Pl2 al -> nest2_spec2 pos ty c al n items F = Some (items1, n1, F1) ->
  DenR2 n items F items1 n1 F1
    (fun f a cur => rbind (nested_run f ty c a) (fun r1 => rbind (nested_run f ty al (fst r1)) (fun r2 =>
                    place (fst r2) cur pos (IIfElse (snd r1) (snd r2)))))
    (S (S (S (bsize_list c + bsize_list al)))).
Proof.
  intros HPc HPa. unfold nest2_spec2. destruct (bspec2 c (n + 1) [] F) as [[[ic nc] Fc]|] eqn:Ec; [|discriminate].
  destruct (bspec2 al (nc + 1) [] Fc) as [[[ia na] Fa]|] eqn:Ea; [|discriminate].
  destruct (put pos (ItI (T n ty ic default_loc) (T nc ty ia default_loc)) items) as [l|] eqn:Ep; [|discriminate].
  cbn [option_map]. intros H. injection H as <- <- <-.
  apply (run_ifelse _ ty _ _ _ _ _ _ _ _ _ _ _ _ _ _ _ _ (HPc _ _ _ _ _ _ Ec) (HPa _ _ _ _ _ _ Ea) Ep eq_refl).
  intros ar Hnc Hna [Hd HF]. split; [split; [constructor|exact HF]|]. intros [Hic HFc].
  split; [split; [constructor|exact HFc]|]. intros [Hia HFa]. split; [|exact HFa].
  eapply ItemsDen_put; [exact Ep| |exact Hd]. split; apply Den_T; split; assumption.
Qed.

Theorem builder2_op_ops : (forall o, Pop2 o) /\ (forall ops, Pl2 ops).
Proof.
  apply bop_list_ind.
  - intros n items F items1 n1 F1 Hs. injection Hs as <- <- <-. apply run_nil.
  - intros o r Ho IH n items F items1 n1 F1 Hs. cbn [bspec2] in Hs.
    destruct (bspec2_op o n items F) as [[[i' n'] F']|] eqn:Eo; [|discriminate].
    exact (run_cons _ _ _ _ _ _ _ _ _ _ _ (Ho _ _ _ _ _ _ Eo) (IH _ _ _ _ _ _ Hs)).
  - intros o H n items F items1 n1 F1 Hs. rewrite bspec2_op_eq in Hs. rewrite bsize_eq. unfold step_op, sub_ok in *.
    destruct (shape o) as [pos i|pos lp ty b|pos ty c a|ty b].
    + apply leaf2_ok, Hs.
    + apply block_like2_ok; auto.
    + destruct H. apply ifelse_like2_ok; auto.
    + apply dangling2_ok; auto.
Qed.
Theorem builder2_ops : forall ops, Pl2 ops.
Proof. apply builder2_op_ops. Qed.

Lemma tree_of2_inv ety prog t : tree_of2 ety prog = Some t ->
  exists items n1, bspec2 prog 1 [] [] = Some (items, n1, []) /\ t = T 0 (ST_Multi ety) items default_loc.
Proof.
  unfold tree_of2. destruct (bspec2 prog 1 [] []) as [[[items n1] [|u F]]|]; try discriminate.
  intros [= <-]. eauto.
Qed.
Lemma tree_of2_tsid ety prog t : tree_of2 ety prog = Some t -> tsid t = 0.
Proof. intros H. destruct (tree_of2_inv _ _ _ H) as (items & n1 & _ & ->). reflexivity. Qed.

(* well-attached programs run without panic; the arena denotes the tree; the tree uses each id
   0 .. len-1 exactly once (pairwise distinct, nothing left dangling), in any nesting order *)
Theorem builder2_den : forall entry_ty prog t,
  tree_of2 entry_ty prog = Some t ->
  exists ar, run_builder entry_ty prog = Ok ar /\ Den ar t /\
    Permutation (tree_ids t) (nrange 0 (len_N ar)) /\ NoDup (tree_ids t).
Proof.
  intros ety prog t Ht. destruct (tree_of2_inv _ _ _ Ht) as (items & n1 & Es & ->).
  destruct (builder2_ops prog _ _ _ _ _ _ Es) as (news & En & R & D).
  specialize (R _ [empty_seq (ST_Multi ety)] 0 (ST_Multi ety) default_loc (le_n _) eq_refl eq_refl).
  cbn [N.to_nat upd app] in R. eexists. split; [exact R|].
  assert (P' : Permutation (tree_ids (T 0 (ST_Multi ety) items default_loc)) (nrange 0 n1)).
  { destruct (ids_ops2 prog _ _ _ _ _ _ Es) as (M & P). unfold sids in P.
    cbn [items_ids forest_ids flat_map app] in P. rewrite app_nil_r in P.
    rewrite tree_ids_T, nrange_cons by lia. constructor. exact P. }
  rewrite len_N_cons, <- En. split; [|split; [exact P'|]].
  - apply Den_T. split; [reflexivity|].
    destruct (D [mkseq (ST_Multi ety) (map sh items) default_loc] [] eq_refl) as [HD _];
      [split; constructor|]. rewrite app_nil_r in HD. exact HD.
  - apply (Permutation_NoDup (Permutation_sym P')), NoDup_nrange.
Qed.

Corollary builder2_den_wa : forall entry_ty prog, well_attached prog = true ->
  exists t ar, tree_of2 entry_ty prog = Some t /\ run_builder entry_ty prog = Ok ar /\ Den ar t /\ NoDup (tree_ids t).
Proof.
  intros ety prog H. apply (well_attached_tree_of2 ety) in H as [t Ht].
  destruct (builder2_den _ _ _ Ht) as (ar & R & D & _ & ND). eauto 6.
Qed.

(* [dfs_in_order_spec] and [emit_body_spec] ask for [Den ar t] only (and the emitter for the
   flattening [flt_tree] to succeed, i.e. branch targets in scope and plain operators encodable);
   neither mentions the order of the ids, so the corollary goes through unchanged *)
Corollary builder2_emit : forall entry_ty prog t cx tg p0,
  tree_of2 entry_ty prog = Some t ->
  flt_tree cx [] t KEntry = Ok tg ->
  exists ar st, run_builder entry_ty prog = Ok ar /\
    emit_body cx (S (size t)) ar 0 p0 = Ok st /\ out st = map snd tg /\ imap st = tag_positions cx p0 tg.
Proof.
  intros entry_ty prog t cx tg p0 Ht Hf.
  destruct (builder2_den _ _ _ Ht) as (ar & Hr & HD & _).
  pose proof (WV.Proofs.Traversal.dfs_in_order_spec false ar t HD) as Hdfs.
  destruct (WV.Proofs.EmitFn.emit_body_spec cx ar t tg p0 _ HD Hdfs Hf) as (st & He & Ho & Hi).
  rewrite (tree_of2_tsid _ _ _ Ht) in He. exists ar, st. auto.
Qed.

Lemma attach_of_item i it F : item_of_instr i = Some it -> attach_of i F = Some (it, F).
Proof. destruct i; cbn [item_of_instr attach_of]; intros H; try discriminate; injection H as <-; reflexivity. Qed.

Definition Cop (o : bop) : Prop := forall n items i' n' F,
  bspec_op o n items = Some (i', n') -> bspec2_op o n items F = Some (i', n', F).
Definition Cl (ops : list bop) : Prop := forall n items i' n' F,
  bspec ops n items = Some (i', n') -> bspec2 ops n items F = Some (i', n', F).
Lemma leaf_cons pos i n items i' n' F :
  leaf_spec pos i n items = Some (i', n') -> leaf_spec2 pos i n items F = Some (i', n', F).
Proof.
  unfold leaf_spec, leaf_spec2. destruct (item_of_instr i) as [it|] eqn:Ei; [|discriminate].
  rewrite (attach_of_item _ _ F Ei). destruct (put pos it items); [|discriminate].
  cbn [option_map]. now intros [= <- <-].
Qed.
Lemma nest1_cons pos mk ty b n items i' n' F : Cl b ->
  nest1_spec pos mk ty b n items = Some (i', n') -> nest1_spec2 pos mk ty b n items F = Some (i', n', F).
Proof.
  intros HC. unfold nest1_spec, nest1_spec2. destruct (bspec b (n + 1) []) as [[its nb]|] eqn:Eb; [|discriminate].
  rewrite (HC _ _ _ _ F Eb). destruct (put pos _ items); [|discriminate]. cbn [option_map]. now intros [= <- <-].
Qed.
Lemma nest2_cons pos ty c a n items i' n' F : Cl c -> Cl a ->
  nest2_spec pos ty c a n items = Some (i', n') -> nest2_spec2 pos ty c a n items F = Some (i', n', F).
Proof.
  intros HCc HCa. unfold nest2_spec, nest2_spec2. destruct (bspec c (n + 1) []) as [[ic nc]|] eqn:Ec; [|discriminate].
  rewrite (HCc _ _ _ _ F Ec). destruct (bspec a (nc + 1) []) as [[ia na]|] eqn:Ea; [|discriminate].
  rewrite (HCa _ _ _ _ F Ea). destruct (put pos _ items); [|discriminate]. cbn [option_map]. now intros [= <- <-].
Qed.
(* on the structured fragment [bspec2] agrees with [bspec] and leaves the forest untouched *)
Theorem bspec2_conservative_op_ops : (forall o, Cop o) /\ (forall ops, Cl ops).
Proof.
  apply bop_list_ind.
  - intros n items i' n' F Hs. now injection Hs as <- <-.
  - intros o r Ho IH n items i' n' F Hs. cbn [bspec bspec2] in *.
    destruct (bspec_op o n items) as [[i1 m1]|] eqn:Eo; [|discriminate].
    rewrite (Ho _ _ _ _ F Eo). apply IH, Hs.
  - intros o H n items i' n' F Hs. rewrite bspec_op_eq in Hs. rewrite bspec2_op_eq. unfold sub_ok in H.
    destruct (shape o) as [pos i|pos lp ty b|pos ty c a|ty b].
    + now apply leaf_cons.
    + now apply nest1_cons.
    + destruct H. now apply nest2_cons.
    + discriminate.
Qed.
Theorem bspec2_conservative : forall ops n items i' n' F,
  bspec ops n items = Some (i', n') -> bspec2 ops n items F = Some (i', n', F).
Proof. apply bspec2_conservative_op_ops. Qed.
Corollary tree_of2_conservative : forall ety prog t, tree_of ety prog = Some t -> tree_of2 ety prog = Some t.
Proof.
  intros ety prog t. unfold tree_of, tree_of2. destruct (bspec prog 1 []) as [[items n]|] eqn:E; [|discriminate].
  now rewrite (bspec2_conservative _ _ _ _ _ [] E).
Qed.
Corollary structured_well_attached : forall ety prog t, tree_of ety prog = Some t -> well_attached prog = true.
Proof. intros ety prog t H. apply (well_attached_tree_of2 ety). exists t. now apply tree_of2_conservative. Qed.

Definition tyE : seqty := ST_Simple None.
Definition cx0 : ectx := {| ex_id2i := fun _ n => n; ex_ilen := fun _ => 1 |}.

(* the loop body is created first, dangling (id 1): it branches to itself, to the block that will
   exist later (id 2) and to the function (id 0); then the block is created and the loop is
   attached inside it: nesting 0 > 2 > 1, ids not monotone *)
Definition late_prog : list bop :=
  [ BDangling tyE [BInstr (IBr 1); BInstr (IBr 2); BInstr (IBr 0)];
    BBlock tyE [BInstr (ILoop 1)] ].
Definition late_tree : tree :=
  T 0 (ST_Multi 7)
    [(ItB (T 2 tyE
        [(ItL (T 1 tyE [(ItBr 1, default_loc); (ItBr 2, default_loc); (ItBr 0, default_loc)] default_loc), default_loc)]
        default_loc), default_loc)]
    default_loc.

Example late_well_attached : well_attached late_prog = true.
Proof. vm_compute. reflexivity. Qed.
Example late_tree_of2 : tree_of2 7 late_prog = Some late_tree.
Proof. vm_compute. reflexivity. Qed.
Example late_not_structured : tree_of 7 late_prog = None.
Proof. vm_compute. reflexivity. Qed.
Example late_emit :
  rbind (run_builder 7 late_prog) (fun ar => rmap out (emit_body cx0 (S (size late_tree)) ar 0 0))
  = Ok [WBlock BT_Empty; WLoop BT_Empty; WBr 0; WBr 1; WBr 2; WEnd; WEnd; WEnd].
Proof. vm_compute. reflexivity. Qed.
(* the same through the theorems *)
Example late_emit_thm : exists ar st, run_builder 7 late_prog = Ok ar /\
  emit_body cx0 (S (size late_tree)) ar 0 0 = Ok st /\
  out st = [WBlock BT_Empty; WLoop BT_Empty; WBr 0; WBr 1; WBr 2; WEnd; WEnd; WEnd].
Proof.
  destruct (builder2_emit 7 late_prog late_tree cx0 _ 0 late_tree_of2 (eq_refl : flt_tree cx0 [] late_tree KEntry = Ok _))
    as (ar & st & R & E & O & _).
  exists ar, st. split; [exact R|split; [exact E|exact O]].
Qed.

(* an if/else assembled from two dangling sequences, the consequent being the younger one,
   inserted by position in front of what the current sequence already holds *)
Definition late_prog2 : list bop :=
  [ BDangling tyE [BInstr (IBr 0)]; BDangling tyE [BInstr (IBr 2)]; BInstr (IBr 0); BInstrAt 0 (IIfElse 2 1) ].
Example late2_tree : tree_of2 0 late_prog2 =
  Some (T 0 (ST_Multi 0)
          [(ItI (T 2 tyE [(ItBr 2, default_loc)] default_loc) (T 1 tyE [(ItBr 0, default_loc)] default_loc), default_loc);
           (ItBr 0, default_loc)] default_loc).
Proof. vm_compute. reflexivity. Qed.

(* programs that are NOT well attached: attached twice; inside itself; before its creation;
   never; an enclosing (open) sequence or the function entry *)
Example twice_not : well_attached [BDangling tyE []; BInstr (IBlock 1); BInstr (IBlock 1)] = false.
Proof. reflexivity. Qed.
Example inside_itself_not : well_attached [BDangling tyE [BInstr (IBlock 1)]] = false.
Proof. reflexivity. Qed.
Example before_creation_not : well_attached [BInstr (IBlock 1); BDangling tyE []] = false.
Proof. reflexivity. Qed.
Example never_not : well_attached [BDangling tyE []] = false.
Proof. reflexivity. Qed.
Example enclosing_not : well_attached [BBlock tyE [BInstr (ILoop 1)]] = false.
Proof. reflexivity. Qed.
Example entry_not : well_attached [BBlock tyE [BInstr (ILoop 0)]] = false.
Proof. reflexivity. Qed.
Example same_twice_in_ifelse_not : well_attached [BDangling tyE []; BInstr (IIfElse 1 1)] = false.
Proof. reflexivity. Qed.

(* the machine itself polices none of this: it runs all of these programs without panic.
   Attached inside itself, the arena is cyclic and the traversal does not terminate (fuel runs out
   whatever the fuel); attached twice, the arena is a DAG and the sequence is emitted twice *)
Example inside_itself_runs :
  rbind (run_builder 0 [BDangling tyE [BInstr (IBlock 1)]; BInstr (IBlock 1)])
        (fun ar => rmap out (emit_body cx0 1000 ar 0 0)) = OutOfFuel.
Proof. vm_compute. reflexivity. Qed.
Example twice_runs :
  rbind (run_builder 0 [BDangling tyE []; BInstr (IBlock 1); BInstr (IBlock 1)])
        (fun ar => rmap out (emit_body cx0 1000 ar 0 0)) = Ok [WBlock BT_Empty; WEnd; WBlock BT_Empty; WEnd; WEnd].
Proof. vm_compute. reflexivity. Qed.
Example never_runs : run_builder 0 [BDangling tyE []] = Ok [empty_seq (ST_Multi 0); empty_seq tyE].
Proof. vm_compute. reflexivity. Qed.

Print Assumptions builder2_den.
Print Assumptions builder2_den_wa.
Print Assumptions builder2_emit.
Print Assumptions ids_ops2.
Print Assumptions bspec2_conservative.
Print Assumptions tree_of2_conservative.
Print Assumptions late_well_attached.
Print Assumptions late_emit.
Print Assumptions late_emit_thm.
