(* C02 / C06: after the GC pass the emitted stream still has every guarantee the model asks of a validator-accepted stream
   ([ParseTotal.valid_stream]); hence the GC output parses again in the model. *)
From Coq Require Import List NArith ZArith Bool Arith Lia.
Import ListNotations.
From WV Require Import Gen.Ops Model.Common Model.IR Model.Arena Model.Traversal Model.EmitFn Model.EmitSpec Model.Locals
                       Model.ParseFn Model.ParseSpec Model.ModuleM Model.ParseM Model.EmitM Model.GC Gen.Attrs.
From WV Require Import Proofs.Arena Proofs.Order Proofs.IndexMaps Proofs.CustomsCfg Proofs.Structure Proofs.Structure2
                       Proofs.Totality Proofs.TotalityBodies Proofs.Renumbering Proofs.ParseTotal Proofs.ModFix Proofs.ModFix4 Proofs.ModFix2
                       Proofs.ModFix12 Proofs.ModFix15 Proofs.ModFix16 Proofs.ModFix23 Proofs.ModFix26 Proofs.ModFix27 Proofs.ModFix30
                       Proofs.GcDeclare.
From WV Require Proofs.ModFix22 Proofs.ModFix14 Proofs.ModFix32 Proofs.EmitFn Proofs.Traversal Proofs.ModFix3 Proofs.ModFix10 Proofs.Body Proofs.ParseFn Proofs.ParsedWf.
Local Open Scope nat_scope.

(* A. generic in the module: content of the validator context, given well-formed maps *)
(* boolean (non-body) validity of the emitted stream of ANY module with: no self-referring global, the offset invariant,
   well-formed maps *)
Theorem emitted_valid_b_gen : forall m ilen e, emitM m ilen [] = Ok e -> no_self_ref m -> offsets_ok m ->
  (forall S, S <> S_local -> wf_map (space_map (em_x2i e) S)) ->
  valid_from_b ctx0 (em_secs e) = true.
Proof.
  intros m ilen e HE NS HO WF. apply (emitted_valid_b_partial4 _ _ _ HE NS).
  - intros pre l post E. assert (Hin : In (S_Elems l) (em_secs e)) by (rewrite E, in_app_iff; right; left; reflexivity).
    pose proof (emitted_elems_idx _ _ _ _ _ HE (prefix_sizes_ok _ _ _ _ _ _ HE E (or_introl eq_refl)) Hin) as HI. rewrite forallb_forall in HI.
    apply forallb_forall. intros we Hwe. apply elem_ok_split; [exact (HI _ Hwe)|exact (elem_offsets_gen _ _ _ HE HO WF _ _ _ _ E Hwe)].
  - intros pre l post E. assert (Hin : In (S_Data l) (em_secs e)) by (rewrite E, in_app_iff; right; left; reflexivity).
    pose proof (emitted_data_idx _ _ _ _ _ HE (prefix_sizes_ok _ _ _ _ _ _ HE E (or_intror eq_refl)) Hin) as HI. rewrite forallb_forall in HI.
    apply forallb_forall. intros d Hd. apply data_ok_split; [exact (HI _ Hd)|exact (data_offsets_gen _ _ _ HE HO WF _ _ _ _ E Hd)].
Qed.

(* B. the two module-side premises survive the GC pass *)
Theorem gc_no_self_ref : forall m m', no_self_ref m -> gc m = Ok m' -> no_self_ref m'.
Proof.
  intros m m' NS HG id g g' Hin. destruct (local_globals_In _ _ _ _ Hin) as [Hg Hk].
  destruct (gc_kept_unchanged_full _ _ HG) as (_ & _ & K3 & _). apply K3 in Hg.
  apply (NS id g g'). unfold local_globals. apply in_flat_map. exists (id, g). split; [apply aiter_aget; exact Hg|].
  cbn [fst snd]. rewrite Hk. left. reflexivity.
Qed.

Theorem gc_offsets_ok : forall m m', closed m' -> offsets_ok m -> gc m = Ok m' -> offsets_ok m'.
Proof.
  intros m m' C [HE HD] HG.
  destruct (gc_kept_unchanged_full _ _ HG) as (_ & K2 & K3 & K4 & K5 & K6 & _).
  destruct (closed_elim _ C) as (_ & _ & _ & _ & _ & _ & _ & CE & CD).
  assert (OO : forall b off, cref_live m' off -> offset_ok m' b off = offset_ok m b off).
  { intros b off Hl. unfold offset_ok. destruct off as [v|g|t|f]; try reflexivity. cbn [cref_live] in Hl. destruct Hl as [gl Hgl].
    unfold global_ty. rewrite Hgl, (K3 _ _ Hgl). reflexivity. }
  split.
  - intros id e t off Hin Hk. apply aiter_aget in Hin. pose proof (CE _ _ Hin) as [_ Hok]. rewrite Hk in Hok. destruct Hok as [[tb Htb] Hoff].
    destruct (K6 _ _ Hin) as [Hin0|(_ & fs & _ & -> & _)]; [|discriminate Hk].
    apply aiter_aget in Hin0. destruct (HE id e t off Hin0 Hk) as (tb0 & Htb0 & Ho0).
    exists tb. split; [exact Htb|]. rewrite (OO _ _ Hoff). apply K2 in Htb. rewrite Htb in Htb0. inversion Htb0; subst tb0. exact Ho0.
  - intros id d mem off Hin Hk. apply aiter_aget in Hin. pose proof (CD _ _ Hin) as Hok. unfold okD in Hok. rewrite Hk in Hok. destruct Hok as [[me Hme] Hoff].
    pose proof (K5 _ _ Hin) as Hin0.
    apply aiter_aget in Hin0. destruct (HD id d mem off Hin0 Hk) as (me0 & Hme0 & Ho0).
    exists me. split; [exact Hme|]. rewrite (OO _ _ Hoff). apply K4 in Hme. rewrite Hme in Hme0. inversion Hme0; subst me0. exact Ho0.
Qed.

(* V1 after GC: everything of [valid_stream] except the bodies *)
Theorem emitted_valid_b_after_gc : forall cf ver w s m' ilen e,
  parseM cf ver w = POk s -> gc (ps_m s) = Ok m' -> emitM m' ilen [] = Ok e ->
  valid_from_b ctx0 (em_secs e) = true.
Proof.
  intros cf ver w s m' ilen e HP HG HE.
  destruct (gc_closed_after_parse_full _ _ _ _ _ HP HG) as [C _].
  apply (emitted_valid_b_gen _ _ _ HE).
  - exact (gc_no_self_ref _ _ (parsed_no_self_ref _ _ _ _ HP) HG).
  - exact (gc_offsets_ok _ _ C (ModFix32.parsed_offsets_ok_any _ _ _ _ HP) HG).
  - intros S HS. exact (gc_wf_space_full cf ver w s ilen [] m' e HP HG HE S HS).
Qed.

Print Assumptions emitted_valid_b_after_gc.

(* C. where the block types of an emitted body come from *)
Module PE := WV.Proofs.EmitFn.

Definition is_bt (w : wins) (b : blockty) : Prop := w = WBlock b \/ w = WLoop b \/ w = WIf b.

Section BtIn.
  Variables cx1 cx2 : ectx.
  (* a block type written under [cx1] is the block type of a sequence type [sty] of the tree; the same sequence type is written
     under any other context [cx2]; a multi-value [sty] is visited by the traversal *)
  Definition bt_src (b : blockty) (tg2 : list (N * wins)) (evs : list ev) : Prop :=
    exists sty, b = block_type cx1 sty /\ (exists w2, In w2 (map snd tg2) /\ is_bt w2 (block_type cx2 sty)) /\
                (forall ty, sty = ST_Multi ty -> In (ESeqType ty) evs).
  Lemma bt_src_mono b tg2 tg2' evs evs' : bt_src b tg2 evs -> incl (map snd tg2) (map snd tg2') -> incl evs evs' -> bt_src b tg2' evs'.
  Proof.
    intros (sty & Hb & (w2 & Hw2 & Hi2) & Hev) I1 I2. exists sty. split; [exact Hb|]. split.
    - exists w2. split; [apply I1; exact Hw2|exact Hi2].
    - intros ty Hty. apply I2, Hev, Hty.
  Qed.
  Lemma is_bt_fun w b b' : is_bt w b -> is_bt w b' -> b = b'.
  Proof. intros [ -> | [ -> | -> ] ] [E|[E|E]]; congruence. Qed.

  (* the head instruction of a block, loop or if: its block type is that of the tree's sequence type *)
  Lemma head_src t w b w2 tg2 evs : is_bt w b -> is_bt w (block_type cx1 (PE.tty t)) ->
    is_bt w2 (block_type cx2 (PE.tty t)) -> In w2 (map snd tg2) -> incl (events false t) evs -> bt_src b tg2 evs.
  Proof.
    intros Hb Hw Hi2 Hw2 Hev. exists (PE.tty t). split; [exact (is_bt_fun w _ _ Hb Hw)|]. split; [exists w2; split; assumption|].
    intros ty Hty. apply Hev. destruct t as [s sty items e]. cbn [PE.tty] in Hty. subst sty.
    rewrite PE.events_T. right. unfold PE.tail_events. apply in_or_app. left. cbn. left. reflexivity.
  Qed.

  Lemma flt_bt :
    (forall t env k tg1, flt_tree cx1 env t k = Ok tg1 -> forall tg2 w b, flt_tree cx2 env t k = Ok tg2 ->
       In w (map snd tg1) -> is_bt w b -> bt_src b tg2 (events false t)) /\
    (forall it env loc tg1, flt_item cx1 env it loc = Ok tg1 -> forall tg2 w b, flt_item cx2 env it loc = Ok tg2 ->
       In w (map snd tg1) -> is_bt w b -> bt_src b tg2 (item_events false it loc)).
  Proof.
    apply PE.flt_ind with (PL := fun env items tg1 => forall tg2 w b, PE.flt_items cx2 env items = Ok tg2 ->
      In w (map snd tg1) -> is_bt w b -> bt_src b tg2 (PE.items_events items)).
    - intros env tg2 w b _ [].
    - intros env x l a1 b1 Hx IH tg2 w b H2 Hin Hb. cbn [PE.flt_items] in H2.
      apply PE.rbind_ok in H2 as (a2 & Ha2 & H2). apply PE.rmap_ok in H2 as (b2 & Hb2 & ->).
      rewrite map_app in Hin. apply in_app_or in Hin. unfold PE.items_events. cbn [flat_map]. destruct Hin as [Hin|Hin].
      + eapply bt_src_mono; [exact (Hx _ _ _ Ha2 Hin Hb)| |].
        * rewrite map_app. apply incl_appl, incl_refl.
        * apply incl_appl, incl_refl.
      + eapply bt_src_mono; [exact (IH _ _ _ Hb2 Hin Hb)| |].
        * rewrite map_app. apply incl_appr, incl_refl.
        * apply incl_appr, incl_refl.
    - intros env [s ty items e] k b1 HQ tg2 w b H2 Hin Hb. rewrite PE.flt_tree_T in H2.
      apply PE.rmap_ok in H2 as (b2 & Hb2 & ->).
      rewrite map_app in Hin. apply in_app_or in Hin. destruct Hin as [Hin|Hin].
      + eapply bt_src_mono; [exact (HQ _ _ _ Hb2 Hin Hb)| |].
        * rewrite map_app. apply incl_appl, incl_refl.
        * rewrite PE.events_T. apply incl_tl. unfold PE.tail_events. apply incl_appr, incl_appl, incl_refl.
      + exfalso. cbn in Hin. destruct Hin as [<-|[]]. destruct k; destruct Hb as [Hb|[Hb|Hb]]; discriminate Hb.
    - intros env p loc w' _ tg2 w b _ [<-|[]] [Hb|[Hb|Hb]]; discriminate Hb.
    - intros env s loc d _ tg2 w b _ [<-|[]] [Hb|[Hb|Hb]]; discriminate Hb.
    - intros env s loc d _ tg2 w b _ [<-|[]] [Hb|[Hb|Hb]]; discriminate Hb.
    - intros env ss s loc ds d _ _ tg2 w b _ [<-|[]] [Hb|[Hb|Hb]]; discriminate Hb.
    - intros env t loc t1 Pt tg2 w b H2 Hin Hb. rewrite PE.flt_item_B in H2.
      apply PE.rmap_ok in H2 as (t2 & H2 & ->).
      rewrite PE.item_events_eq. cbn [map snd In] in Hin. destruct Hin as [Hin|Hin].
      + subst w. apply (head_src t _ b (WBlock (block_type cx2 (PE.tty t))) _ _ Hb);
          [left; reflexivity|left; reflexivity|left; reflexivity|apply incl_appr, incl_refl].
      + eapply bt_src_mono; [exact (Pt _ _ _ H2 Hin Hb)| |].
        * cbn [map]. apply incl_tl, incl_refl.
        * apply incl_appr, incl_refl.
    - intros env t loc t1 Pt tg2 w b H2 Hin Hb. rewrite PE.flt_item_L in H2.
      apply PE.rmap_ok in H2 as (t2 & H2 & ->).
      rewrite PE.item_events_eq. cbn [map snd In] in Hin. destruct Hin as [Hin|Hin].
      + subst w. apply (head_src t _ b (WLoop (block_type cx2 (PE.tty t))) _ _ Hb);
          [right; left; reflexivity|right; left; reflexivity|left; reflexivity|apply incl_appr, incl_refl].
      + eapply bt_src_mono; [exact (Pt _ _ _ H2 Hin Hb)| |].
        * cbn [map]. apply incl_tl, incl_refl.
        * apply incl_appr, incl_refl.
    - intros env c a loc x1 y1 Pc Pa tg2 w b H2 Hin Hb. rewrite PE.flt_item_I in H2.
      apply PE.rbind_ok in H2 as (x2 & Hx2 & H2). apply PE.rmap_ok in H2 as (y2 & Hy2 & ->).
      rewrite PE.item_events_eq. cbn [map snd In] in Hin. destruct Hin as [Hin|Hin].
      + subst w. apply (head_src c _ b (WIf (block_type cx2 (PE.tty c))) _ _ Hb);
          [right; right; reflexivity|right; right; reflexivity|left; reflexivity|apply incl_appr, incl_appl, incl_refl].
      + rewrite map_app in Hin. apply in_app_or in Hin. destruct Hin as [Hin|Hin].
        * eapply bt_src_mono; [exact (Pc _ _ _ Hx2 Hin Hb)| |].
          -- cbn [map]. apply incl_tl. rewrite map_app. apply incl_appl, incl_refl.
          -- apply incl_appr, incl_appl, incl_refl.
        * eapply bt_src_mono; [exact (Pa _ _ _ Hy2 Hin Hb)| |].
          -- cbn [map]. apply incl_tl. rewrite map_app. apply incl_appr, incl_refl.
          -- apply incl_appr, incl_appr, incl_refl.
  Qed.
End BtIn.

Definition ecx_id (ilen : wins -> N) : ectx := {| ex_id2i := fun _ id => id; ex_ilen := ilen |}.

(* a multi-value block type of an emitted body is the emit-time index of a type that (i) the traversal of the body visits as a
   sequence type and (ii) is a non-entry type of the parse-time type table *)
Theorem emitted_bt_origin : forall cx ecx ety rs l eloc p0 ar1 st1 fuel1 f1 evs1 w i,
  wfl cx 1 l -> parse_body cx ety rs (flat_list l ++ [(WEnd, eloc)]) = Ok ar1 ->
  emit_body ecx fuel1 ar1 0 p0 = Ok st1 -> dfs_in_order false f1 ar1 0 = Ok evs1 ->
  In w (out st1) -> is_bt w (BT_Func i) ->
  exists ty ps' rs', i = ex_id2i ecx S_type ty /\ In (ESeqType ty) evs1 /\ nth_N (px_types cx) ty = Some (ps', rs', false).
Proof.
  intros cx ecx ety rs l eloc p0 ar1 st1 fuel1 f1 evs1 w i Hw Hp He Hd Hin Hb.
  pose proof Hp as Hp0.
  rewrite (Proofs.ParseFn.parse_body_arena cx ety rs l eloc Hw) in Hp. injection Hp as <-.
  pose proof (Proofs.ParseFn.parsed_arena_den cx ety l eloc Hw) as HD.
  pose proof (Proofs.Body.flt_parsed_tree cx ecx ety l eloc Hw (ModFix10.enc_ok_all _ _)) as Hf1.
  pose proof (Proofs.Body.flt_parsed_tree cx (ecx_id (ex_ilen ecx)) ety l eloc Hw (ModFix10.enc_ok_all _ _)) as Hf2.
  pose proof (Proofs.Traversal.dfs_in_order_spec false _ _ HD) as Hs.
  pose proof (Proofs.Body.parsed_tree_tsid cx ety l eloc) as Ht0.
  rewrite <- Ht0 in He, Hd.
  rewrite (ModFix10.dfs_det _ _ _ _ _ _ _ Hd Hs).
  destruct (PE.emit_body_spec ecx _ _ _ p0 _ HD Hs Hf1) as (st' & He' & Ho & _).
  rewrite (ModFix10.emit_body_det _ _ _ _ _ _ _ _ He He'), Ho in Hin.
  destruct (PE.emit_body_spec (ecx_id (ex_ilen ecx)) _ _ _ p0 _ HD Hs Hf2) as (st2 & He2 & Ho2 & _).
  destruct (proj1 (flt_bt ecx (ecx_id (ex_ilen ecx))) _ [] KEntry _ Hf1 _ w _ Hf2 Hin Hb) as (sty & Hsty & (w2 & Hw2 & Hi2) & Hev).
  destruct sty as [o|ty]; [destruct o; discriminate Hsty|]. cbn [block_type] in Hsty, Hi2. injection Hsty as ->.
  rewrite <- Ho2 in Hw2. rewrite Ht0 in He2.
  pose proof (ModFix14.emitted_bts cx (ecx_id (ex_ilen ecx)) ety rs l eloc p0 _ st2 _ Hw Hp0 He2) as HB.
  rewrite Forall_forall in HB. specialize (HB _ Hw2).
  assert (HS : ModFix14.bt_shape cx (ecx_id (ex_ilen ecx)) (BT_Func ty)).
  { destruct Hi2 as [ -> | [ -> | -> ] ]; exact HB. }
  destruct HS as [HS|[(v & HS)|(ty' & ps' & rs' & HS & Hn & _)]]; try discriminate HS.
  cbn [ecx_id ex_id2i] in HS. injection HS as <-.
  exists ty, ps', rs'. split; [reflexivity|]. split; [apply Hev; reflexivity|exact Hn].
Qed.
Print Assumptions emitted_bt_origin.

(* D. the bodies emitted after GC are validator-valid *)
Theorem emitted_bodies_valid_after_gc : forall cf ver w s m' ilen e,
  valid_stream w -> parseM cf ver w = POk s -> gc (ps_m s) = Ok m' -> emitM m' ilen [] = Ok e ->
  Forall (body_valid (length (flat_map types_of (em_secs e)))) (flat_map code_of (em_secs e)).
Proof.
  intros cf ver w s m' ilen e V P1 HG HE.
  destruct (emitM_x2i _ _ _ _ HE) as (fs & Hfs & Xt & _).
  destruct (emit_code_payload _ _ _ _ HE Hfs) as (Hco & F & _ & _).
  rewrite Hco. apply Forall_map. apply Forall_forall. intros ef Hin.
  destruct (ModFix22.Forall2_In_r _ _ _ F ef Hin) as ([id lf] & Hp & Hemit). cbn [fst snd] in Hemit.
  destruct (ulf_in _ _ _ _ Hfs Hp) as (f1 & Hinf & Hk). apply aiter_aget in Hinf.
  destruct (gc_inv_full _ _ HG) as [m1 [Hsw Hd]].
  destruct (gc_shape _ _ Hsw) as (u & Hu & R).
  rewrite (declare_funcs _ _ Hd) in Hinf. apply (gr_funcs _ _ _ R) in Hinf. destruct Hinf as [Hg Hu0].
  destruct (local_function_body _ _ _ _ _ _ _ P1 Hg Hk) as (s0 & k & b & t & ety & _ & _ & Hb & _ & _ & Ht & _ & Hen & Hpb & _).
  destruct (valid_bodies_structured _ _ _ _ b id V P1 (nth_error_In _ _ Hb)) as (l & eloc & Eops & _ & Hw).
  destruct (emit_function_inv _ _ _ _ _ _ Hemit) as (evs & decls & lmap & st & A1 & A2 & A3 & A4 & A5 & _).
  rewrite Hen in A4. rewrite Eops in Hpb. rewrite A5.
  eapply ModFix22.emitted_body_valid; [exact Hw|exact Hpb|exact A4|].
  apply Forall_forall. intros w0 Hw0.
  assert (HB : forall bt, is_bt w0 bt -> sbt_ok (length (flat_map types_of (em_secs e))) bt).
  { intros bt Hbt. destruct bt as [| v | i]; cbn [sbt_ok]; try exact I.
    pose proof A1 as A1'. unfold lf_log in A1'. rewrite Hen in A1'.
    destruct (emitted_bt_origin _ _ _ _ _ _ _ _ _ _ _ _ _ _ Hw Hpb A4 A1' Hw0 Hbt) as (ty & ps' & rs' & -> & Hev & Hn).
    cbn [px_types] in Hn. unfold types_list, nth_N in Hn. rewrite nth_error_map in Hn.
    destruct (nth_error (WV.Model.Arena.items (WV.Model.Arena.arena (m_types (ps_m s)))) (N.to_nat ty)) as [t0|] eqn:Et; [|discriminate Hn].
    cbn [option_map] in Hn. injection Hn as _ _ Hent.
    assert (G : types_get (ps_m s) ty = Some t0).
    { unfold types_get. rewrite aset_index_nodead; [exact Et|]. apply (WV.Proofs.ParsedWf.parseM_types_wf _ _ _ _ P1). }
    pose proof (kept_log_ents _ _ _ _ _ _ Hu Hu0 Hg Hk A1 (ESeqType ty) _ Hev (or_introl eq_refl)) as Hkept.
    pose proof (gr_types _ _ _ R ty t0 G Hkept) as G1.
    assert (G' : types_get m' ty = Some t0) by (unfold types_get in *; rewrite (declare_types _ _ Hd); exact G1).
    pose proof (WV.Proofs.Totality.emitted_types_In _ _ _ G' Hent) as Hi.
    destruct (ModFix22.find_number_bound _ _ Hi) as (p & Hf & Hbd).
    cbn [ex_id2i]. unfold id2i_fun. cbn [space_map]. rewrite Xt, Hf.
    rewrite (ModFix3.out_types_keys _ _ _ HE), !map_length in *. exact Hbd. }
  destruct w0; cbn [ModFix22.bts_below]; try exact I; apply HB; [left|right; left|right; right]; reflexivity.
Qed.
Print Assumptions emitted_bodies_valid_after_gc.

(* E. assembly *)
Theorem emitted_bodies_valid_sections_after_gc : forall cf ver w s m' ilen e,
  valid_stream w -> parseM cf ver w = POk s -> gc (ps_m s) = Ok m' -> emitM m' ilen [] = Ok e ->
  forall pre bs post, em_secs e = pre ++ S_Code bs :: post ->
  Forall (body_valid (length (flat_map types_of pre))) bs.
Proof.
  intros cf ver w s m' ilen e V P1 HG E1 pre bs post Es.
  pose proof (emitted_bodies_valid_after_gc cf ver w s m' ilen e V P1 HG E1) as HB.
  assert (Hpost : flat_map types_of post = []).
  { destruct (ModFix3.emitted_types_front _ _ _ E1) as (tail & NT & [Et|Et]); rewrite Es in Et.
    - apply ModFix22.no_types_nil. intros ts Hin. apply (NT ts). rewrite <- Et. apply in_or_app. right. right. exact Hin.
    - destruct pre as [|p pre]; [discriminate Et|]. cbn [app] in Et. injection Et as _ Et.
      apply ModFix22.no_types_nil. intros ts Hin. apply (NT ts). rewrite <- Et. apply in_or_app. right. right. exact Hin. }
  rewrite Es in HB. rewrite !flat_map_app in HB. cbn [flat_map] in HB. rewrite Hpost in HB.
  cbn [types_of] in HB.
  rewrite ?app_nil_r in HB. cbn [code_of] in HB.
  apply Forall_app in HB. destruct HB as [_ HB]. apply Forall_app in HB. destruct HB as [HB _]. exact HB.
Qed.

(* MAIN: the stream emitted after the GC pass has every guarantee of [valid_stream] - no clause is lost *)
Theorem emitted_stream_valid_after_gc : forall cf ver w s m' ilen e,
  valid_stream w -> parseM cf ver w = POk s -> gc (ps_m s) = Ok m' -> emitM m' ilen [] = Ok e ->
  valid_stream (em_secs e).
Proof.
  intros cf ver w s m' ilen e V P1 HG HE.
  apply (emitted_valid_stream _ _ _ HE).
  - exact (emitted_valid_b_after_gc _ _ _ _ _ _ _ P1 HG HE).
  - exact (emitted_bodies_valid_sections_after_gc _ _ _ _ _ _ _ V P1 HG HE).
Qed.

(* the GC output can be parsed again by the model (under any configuration / producers version) *)
Theorem gc_output_reparses : forall cf ver w s m' ilen e cf2 ver2,
  valid_stream w -> parseM cf ver w = POk s -> gc (ps_m s) = Ok m' -> emitM m' ilen [] = Ok e ->
  exists s2, parseM cf2 ver2 (em_secs e) = POk s2.
Proof.
  intros cf ver w s m' ilen e cf2 ver2 V P1 HG HE. apply parse_total.
  exact (emitted_stream_valid_after_gc _ _ _ _ _ _ _ V P1 HG HE).
Qed.

(* with the reference-range premise of the totality theorem the emission itself exists: parse; gc; emit; parse is total *)
Theorem gc_trip_total : forall cf ver w s m' ilen,
  valid_stream w -> parseM cf ver w = POk s -> refs_in_range w (ps_ids s) -> gc (ps_m s) = Ok m' ->
  exists e s2, emitM m' ilen [] = Ok e /\ valid_stream (em_secs e) /\ parseM cf ver (em_secs e) = POk s2.
Proof.
  intros cf ver w s m' ilen V P1 RR HG.
  destruct (emit_total_after_gc_final_partial_full cf ver w s m' ilen [] V P1 RR HG) as [e HE].
  destruct (gc_output_reparses _ _ _ _ _ _ _ cf ver V P1 HG HE) as [s2 P2].
  exists e, s2. split; [exact HE|]. split; [|exact P2]. exact (emitted_stream_valid_after_gc _ _ _ _ _ _ _ V P1 HG HE).
Qed.

Print Assumptions emitted_stream_valid_after_gc.
Print Assumptions gc_output_reparses.
Print Assumptions gc_trip_total.
