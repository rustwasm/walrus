(* C17, the tombstone arena (Model/Arena.v).  Items are never moved and the dead ids are a duplicate-free list of
   positions ([Inv]); the invariants hold along every history of operations ([run]). *)
From Coq Require Import List NArith Bool Arith Lia Sorted Permutation.
Import ListNotations.
From WV Require Import Model.Arena.

Section ArenaProofs.
  Variable A : Type.
  Variable on_delete : A -> A.
  Variable eqA : A -> A -> bool.

  Notation tarena := (tarena A).
  Notation step := (step on_delete eqA).
  Notation run := (run on_delete eqA).

  Implicit Types a : tarena.

  Definition Inv (a : tarena) : Prop :=
    NoDup (dead a) /\ Forall (fun d => d < length (items a)) (dead a).

  Lemma inv_empty : Inv (@empty A).
  Proof. split; constructor. Qed.

  Lemma is_dead_In a id : is_dead a id = true <-> In id (dead a).
  Proof.
    unfold is_dead. rewrite existsb_exists. split.
    - intros [x [Hin Hx]]. apply Nat.eqb_eq in Hx. subst. exact Hin.
    - intros H. exists id. split; [exact H|apply Nat.eqb_refl].
  Qed.

  Lemma is_dead_false a id : is_dead a id = false <-> ~ In id (dead a).
  Proof.
    rewrite <- is_dead_In. destruct (is_dead a id); split; intros H; congruence.
  Qed.

  Lemma upd_length (l : list A) n f : length (upd l n f) = length l.
  Proof. revert n; induction l as [|x r IH]; intros [|n]; cbn; auto. Qed.

  Lemma upd_nth_ne (l : list A) n m f : n <> m -> nth_error (upd l n f) m = nth_error l m.
  Proof.
    revert n m; induction l as [|x r IH]; intros [|n] [|m] H; cbn; auto; try congruence.
  Qed.

  Lemma upd_nth_eq (l : list A) n f v :
    nth_error l n = Some v -> nth_error (upd l n f) n = Some (f v).
  Proof.
    revert n; induction l as [|x r IH]; intros [|n]; cbn; try discriminate.
    - intros H; inversion H; reflexivity.
    - apply IH.
  Qed.

  Lemma contains_spec a id :
    contains a id = true <-> id < length (items a) /\ ~ In id (dead a).
  Proof.
    unfold contains. destruct (nth_error (items a) id) eqn:E.
    - assert (id < length (items a)) by (apply nth_error_Some; congruence).
      rewrite negb_true_iff, is_dead_false. tauto.
    - apply nth_error_None in E. split; [congruence|lia].
  Qed.

  Lemma delete_inv a id a' : Inv a -> delete on_delete a id = Some a' -> Inv a'.
  Proof.
    intros [Hnd Hb] H. unfold delete in H.
    destruct (contains a id) eqn:C; [|discriminate]. inversion H; subst; clear H.
    apply contains_spec in C. destruct C as [Hlt Hni].
    split; cbn.
    - constructor; assumption.
    - rewrite upd_length. constructor; [exact Hlt|exact Hb].
  Qed.

  Lemma alloc_bound a v :
    Forall (fun d => d < length (items a)) (dead a) ->
    Forall (fun d => d < length (items (fst (alloc a v)))) (dead (fst (alloc a v))).
  Proof.
    intros Hb. cbn. rewrite app_length; cbn. eapply Forall_impl; [|exact Hb]. cbn; intros; lia.
  Qed.

  Lemma alloc_inv a v : Inv a -> Inv (fst (alloc a v)).
  Proof. intros [Hnd Hb]. split; [exact Hnd|apply alloc_bound, Hb]. Qed.

  Lemma step_inv a o : Inv a -> Inv (fst (step a o)).
  Proof.
    intros H. destruct o as [v|id|id|id| | |w| ]; cbn; try exact H.
    - apply alloc_inv; exact H.
    - destruct (delete on_delete a id) eqn:E; cbn; [eapply delete_inv; eauto|exact H].
  Qed.

  Lemma run_cons a o r :
    run a (o :: r) = (fst (run (fst (step a o)) r), snd (step a o) :: snd (run (fst (step a o)) r)).
  Proof.
    cbn [Arena.run]. destruct (step a o) as [a' x]. cbn [fst snd].
    destruct (Arena.run on_delete eqA a' r) as [a'' xs]. reflexivity.
  Qed.

  Lemma run_inv ops : forall a, Inv a -> Inv (fst (run a ops)).
  Proof.
    induction ops as [|o r IH]; intros a H; [exact H|].
    rewrite run_cons. cbn [fst]. apply IH, step_inv, H.
  Qed.

  (* identifiers: fresh, strictly increasing, never recycled *)
  Definition ids_of (outs : list (out A)) : list nat :=
    flat_map (fun x => match x with RId id => [id] | _ => [] end) outs.
  Definition n_allocs (ops : list (op A)) : nat :=
    length (filter (fun o => match o with OAlloc _ => true | _ => false end) ops).

  Lemma step_next_id a o :
    next_id (fst (step a o)) = next_id a + (match o with OAlloc _ => 1 | _ => 0 end).
  Proof.
    unfold next_id. destruct o as [v|id|id|id| | |w| ]; cbn; try lia.
    - rewrite app_length; cbn; lia.
    - unfold delete. destruct (contains a id); cbn; [rewrite upd_length|]; lia.
  Qed.

  Lemma step_ids a o :
    ids_of [snd (step a o)] = match o with OAlloc _ => [next_id a] | _ => [] end.
  Proof.
    destruct o as [v|id|id|id| | |w| ]; cbn; try reflexivity.
    - destruct (delete on_delete a id); reflexivity.
    - destruct (index a id); reflexivity.
    - destruct (len a); reflexivity.
  Qed.

  Lemma ids_of_cons x xs : ids_of (x :: xs) = ids_of [x] ++ ids_of xs.
  Proof. unfold ids_of. cbn. rewrite app_nil_r. reflexivity. Qed.

  Theorem ids_fresh ops : forall a,
    ids_of (snd (run a ops)) = seq (next_id a) (n_allocs ops).
  Proof.
    induction ops as [|o r IH]; intros a; [reflexivity|].
    rewrite run_cons. cbn [snd].
    rewrite ids_of_cons, IH, step_ids, step_next_id. unfold n_allocs.
    destruct o; cbn [filter length seq app]; rewrite ?Nat.add_0_r, ?Nat.add_1_r; reflexivity.
  Qed.

  Corollary ids_nodup a ops : NoDup (ids_of (snd (run a ops))).
  Proof. rewrite ids_fresh. apply seq_NoDup. Qed.

  Corollary ids_not_recycled a ops id :
    In id (ids_of (snd (run a ops))) -> next_id a <= id.
  Proof. rewrite ids_fresh, in_seq. lia. Qed.

  (* stability: an id denotes its item until that id is deleted *)
  Lemma index_lt a id v : index a id = Some v -> id < length (items a).
  Proof.
    unfold index, get. destruct (is_dead a id); [discriminate|].
    intros H. apply nth_error_Some. congruence.
  Qed.

  Lemma step_stable a o id v :
    index a id = Some v -> o <> ODelete id -> index (fst (step a o)) id = Some v.
  Proof.
    intros H Hne. pose proof (index_lt _ _ _ H) as Hlt.
    destruct o as [w|d|d|d| | |w'| ]; cbn; try exact H.
    - unfold index, get, is_dead in *; cbn. destruct (existsb _ _); [discriminate|].
      rewrite nth_error_app1; assumption.
    - unfold delete. destruct (contains a d) eqn:C; cbn; [|exact H].
      assert (d <> id) as Hd by congruence.
      unfold index, get, is_dead in *; cbn.
      destruct (Nat.eqb_spec id d); [congruence|]. cbn.
      destruct (existsb _ _); [discriminate|]. rewrite upd_nth_ne; auto.
  Qed.

  Theorem run_stable ops : forall a id v,
    index a id = Some v -> ~ In (ODelete id) ops -> index (fst (run a ops)) id = Some v.
  Proof.
    induction ops as [|o r IH]; intros a id v H Hn; [exact H|].
    rewrite run_cons. cbn [fst]. apply IH.
    - apply step_stable; [exact H|]. intros ->. apply Hn. left; reflexivity.
    - intros Hin. apply Hn. right; exact Hin.
  Qed.

  (* deletion: dead forever, isolated *)
  Lemma delete_dead a id a' : delete on_delete a id = Some a' -> is_dead a' id = true.
  Proof.
    unfold delete. destruct (contains a id); [|discriminate]. intros H; inversion H.
    unfold is_dead; cbn. rewrite Nat.eqb_refl. reflexivity.
  Qed.

  Lemma delete_isolated a id a' id' :
    delete on_delete a id = Some a' -> id' <> id -> index a' id' = index a id'.
  Proof.
    unfold delete. destruct (contains a id); [|discriminate]. intros H Hne; inversion H.
    unfold index, get, is_dead; cbn.
    destruct (Nat.eqb_spec id' id); [congruence|]. cbn.
    rewrite upd_nth_ne; auto.
  Qed.

  Lemma step_dead a o id : is_dead a id = true -> is_dead (fst (step a o)) id = true.
  Proof.
    intros H. destruct o as [w|d|d|d| | |w'| ]; cbn; try exact H.
    - unfold delete. destruct (contains a d); cbn; [|exact H].
      unfold is_dead in *; cbn. rewrite H. apply orb_true_r.
  Qed.

  Theorem run_dead ops : forall a id,
    is_dead a id = true -> is_dead (fst (run a ops)) id = true.
  Proof.
    induction ops as [|o r IH]; intros a id H; [exact H|].
    rewrite run_cons. cbn [fst]. apply IH, step_dead, H.
  Qed.

  Corollary dead_absent a id :
    is_dead a id = true -> index a id = None /\ contains a id = false.
  Proof.
    intros H. unfold index, get, contains. rewrite H.
    split; [reflexivity|]. destruct (nth_error _ _); reflexivity.
  Qed.

  Lemma delete_gone a id a' : delete on_delete a id = Some a' -> index a' id = None.
  Proof. intros H. apply dead_absent, (delete_dead _ _ _ H). Qed.

  Lemma is_dead_above a n id : Forall (fun d => d < n) (dead a) -> n <= id -> is_dead a id = false.
  Proof.
    intros Hb Hle. apply is_dead_false. intros Hin.
    rewrite Forall_forall in Hb. apply Hb in Hin. lia.
  Qed.

  Lemma index_alloc_old a v id :
    id < length (items a) -> index (fst (alloc a v)) id = index a id.
  Proof.
    intros H. unfold index, get, is_dead; cbn. destruct (existsb _ _); [reflexivity|].
    apply nth_error_app1; exact H.
  Qed.

  Lemma index_alloc_new a v :
    Forall (fun d => d < length (items a)) (dead a) -> index (fst (alloc a v)) (next_id a) = Some v.
  Proof.
    intros Hb. unfold index, get, next_id.
    change (is_dead (fst (alloc a v))) with (is_dead a). rewrite (is_dead_above a _ _ Hb (le_n _)).
    cbn. rewrite nth_error_app2, Nat.sub_diag by lia. reflexivity.
  Qed.

  Lemma index_alloc_inv a v id w :
    index (fst (alloc a v)) id = Some w ->
    (id < length (items a) /\ index a id = Some w) \/ (id = length (items a) /\ w = v).
  Proof.
    intros H. pose proof (index_lt _ _ _ H) as Hlt. cbn in Hlt.
    rewrite app_length in Hlt; cbn in Hlt.
    destruct (Nat.eq_dec id (length (items a))) as [->|Hne].
    - right. split; [reflexivity|]. unfold index, get in H.
      destruct (is_dead _ _); [discriminate|]. cbn in H.
      rewrite nth_error_app2, Nat.sub_diag in H by lia. cbn in H. congruence.
    - left. assert (id < length (items a)) by lia. split; [assumption|].
      rewrite index_alloc_old in H; assumption.
  Qed.

  (* iteration: exactly the live items, in creation order *)
  Lemma iter_from_spec (l : list A) d n id v :
    In (id, v) (iter_from n l d) <->
    (n <= id /\ nth_error l (id - n) = Some v /\ existsb (Nat.eqb id) d = false).
  Proof.
    revert n; induction l as [|x r IH]; intros n; cbn [iter_from].
    - split; [intros []|]. intros [_ [H _]]. destruct (id - n); discriminate.
    - destruct (existsb (Nat.eqb n) d) eqn:E.
      + rewrite IH. split.
        * intros [Hle [Hn Hd]]. split; [lia|]. split; [|exact Hd].
          replace (id - n) with (S (id - S n)) by lia. exact Hn.
        * intros [Hle [Hn Hd]].
          destruct (Nat.eq_dec id n) as [->|Hne]; [congruence|].
          split; [lia|]. split; [|exact Hd].
          replace (id - n) with (S (id - S n)) in Hn by lia. exact Hn.
      + cbn [In]. rewrite IH. split.
        * intros [H|[Hle [Hn Hd]]].
          -- inversion H; subst. rewrite Nat.sub_diag. auto.
          -- split; [lia|]. split; [|exact Hd].
             replace (id - n) with (S (id - S n)) by lia. exact Hn.
        * intros [Hle [Hn Hd]].
          destruct (Nat.eq_dec id n) as [->|Hne].
          -- rewrite Nat.sub_diag in Hn. cbn in Hn. left. congruence.
          -- right. split; [lia|]. split; [|exact Hd].
             replace (id - n) with (S (id - S n)) in Hn by lia. exact Hn.
  Qed.

  Lemma iter_from_app (l1 l2 : list A) d : forall n,
    iter_from n (l1 ++ l2) d = iter_from n l1 d ++ iter_from (n + length l1) l2 d.
  Proof.
    induction l1 as [|x r IH]; intros n; cbn [app iter_from length]; [rewrite Nat.add_0_r; reflexivity|].
    rewrite IH, <- Nat.add_succ_comm. destruct (existsb (Nat.eqb n) d); reflexivity.
  Qed.

  Theorem iter_live a id v : In (id, v) (iter a) <-> index a id = Some v.
  Proof.
    unfold iter. rewrite iter_from_spec, Nat.sub_0_r.
    unfold index, get, is_dead. destruct (existsb (Nat.eqb id) (dead a)).
    - split; [intros [_ [_ H]]; discriminate|discriminate].
    - split; [tauto|]. intros H. split; [lia|auto].
  Qed.

  Lemma iter_from_sorted (l : list A) d : forall n,
    StronglySorted lt (map fst (iter_from n l d)) /\
    Forall (fun i => n <= i) (map fst (iter_from n l d)).
  Proof.
    induction l as [|x r IH]; intros n; cbn [iter_from].
    - split; constructor.
    - destruct (IH (S n)) as [Hs Hf].
      destruct (existsb (Nat.eqb n) d).
      + split; [exact Hs|]. eapply Forall_impl; [|exact Hf]. cbn; intros; lia.
      + cbn [map fst]. split.
        * constructor; [exact Hs|]. eapply Forall_impl; [|exact Hf]. cbn; intros; lia.
        * constructor; [lia|]. eapply Forall_impl; [|exact Hf]. cbn; intros; lia.
  Qed.

  Theorem iter_creation_order a : StronglySorted lt (map fst (iter a)).
  Proof. apply iter_from_sorted. Qed.

  Lemma iter_from_ids (l : list A) d : forall n,
    map fst (iter_from n l d) =
    filter (fun i => negb (existsb (Nat.eqb i) d)) (seq n (length l)).
  Proof.
    induction l as [|x r IH]; intros n; cbn [iter_from length seq filter]; [reflexivity|].
    destruct (existsb (Nat.eqb n) d); cbn [negb map fst]; rewrite IH; reflexivity.
  Qed.

  Lemma nodup_app (X : Type) (l1 l2 : list X) :
    NoDup l1 -> NoDup l2 -> (forall x, In x l1 -> ~ In x l2) -> NoDup (l1 ++ l2).
  Proof.
    induction l1 as [|x r IH]; intros H1 H2 Hd; [exact H2|].
    inversion H1; subst. cbn. constructor.
    - rewrite in_app_iff. intros [Hin|Hin]; [contradiction|].
      apply (Hd x); [left; reflexivity|exact Hin].
    - apply IH; auto. intros y Hy. apply Hd. right; exact Hy.
  Qed.

  Lemma live_count a : Inv a ->
    length (filter (fun i => negb (is_dead a i)) (seq 0 (length (items a)))) + length (dead a) = length (items a).
  Proof.
    intros [Hnd Hb]. rewrite Forall_forall in Hb.
    rewrite <- app_length. transitivity (length (seq 0 (length (items a)))); [|apply seq_length].
    apply Permutation.Permutation_length, Permutation.NoDup_Permutation.
    - apply nodup_app; [apply NoDup_filter, seq_NoDup|exact Hnd|].
      intros x Hx. apply filter_In in Hx. rewrite negb_true_iff, is_dead_false in Hx. tauto.
    - apply seq_NoDup.
    - intros x. rewrite in_app_iff, filter_In, in_seq, negb_true_iff, is_dead_false. split.
      + intros [[H _]|H]; [exact H|apply Hb in H; lia].
      + intros H. destruct (in_dec Nat.eq_dec x (dead a)); [right; assumption|left; tauto].
  Qed.

  Theorem len_live a : Inv a -> len a = Some (length (iter a)).
  Proof.
    intros HI. pose proof (live_count a HI) as H. unfold len.
    replace (length (iter a)) with (length (filter (fun i => negb (is_dead a i)) (seq 0 (length (items a)))))
      by (unfold iter, is_dead; rewrite <- iter_from_ids, map_length; reflexivity).
    destruct (Nat.leb_spec (length (dead a)) (length (items a))); [f_equal; lia|lia].
  Qed.

  (* find: the first live item (creation order) with an equal key *)
  Theorem find_sound a v id :
    find_id eqA v (iter a) = Some id -> exists v0, index a id = Some v0 /\ eqA v0 v = true.
  Proof.
    unfold find_id. destruct (find _ (iter a)) as [[i x]|] eqn:E; [|discriminate].
    intros H; inversion H; subst. apply find_some in E. destruct E as [Hin He].
    exists x. split; [apply iter_live; exact Hin|exact He].
  Qed.

  Theorem find_complete a v :
    find_id eqA v (iter a) = None -> forall id v0, index a id = Some v0 -> eqA v0 v = false.
  Proof.
    unfold find_id. destruct (find _ (iter a)) as [p|] eqn:E; [discriminate|].
    intros _ id v0 Hi. apply iter_live in Hi.
    apply (find_none _ _ E) in Hi. exact Hi.
  Qed.
End ArenaProofs.
