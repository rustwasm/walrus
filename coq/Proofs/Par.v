(* Schedule-independence of the parallel sites (Model/Par.v).  The fold that fills the slots is described slot by
   slot (slots_spec): a schedule that reaches every index leaves the serial list.  `any` is an [existsb] over the
   schedule. *)
From Coq Require Import List Arith Bool Lia Permutation. Import ListNotations.
From WV Require Import Model.Par.

Section P.
  Context {A B : Type}.
  Implicit Types (f : A -> B) (l : list A).

  Lemma set_slot_length (s : list (option B)) i v : length (set_slot s i v) = length s.
  Proof. revert i; induction s as [|x r IH]; intros [|i]; cbn; auto. Qed.

  Lemma nth_set_slot_eq (s : list (option B)) i v : i < length s -> nth_error (set_slot s i v) i = Some (Some v).
  Proof. revert i; induction s as [|x r IH]; intros [|i] H; cbn in *; try lia; auto. apply IH; lia. Qed.

  Lemma nth_set_slot_ne (s : list (option B)) i j v : i <> j -> nth_error (set_slot s i v) j = nth_error s j.
  Proof. revert i j; induction s as [|x r IH]; intros [|i] [|j] H; cbn; auto; try congruence. Qed.

  (* invariant of the fold: slot j holds f (l_j) if j was scheduled so far, else what it held before *)
  Lemma slots_spec f l : forall sched (s : list (option B)), length s = length l ->
    let s' := fold_left (fun slots i => match nth_error l i with Some a => set_slot slots i (f a) | None => slots end) sched s in
    length s' = length l /\
    forall j a, nth_error l j = Some a ->
      nth_error s' j = if existsb (Nat.eqb j) sched then Some (Some (f a)) else nth_error s j.
  Proof.
    induction sched as [|i r IH]; intros s Hl; cbn [fold_left existsb].
    - split; [exact Hl|]. intros j a _. reflexivity.
    - destruct (nth_error l i) as [ai|] eqn:Ei.
      + specialize (IH (set_slot s i (f ai))). rewrite set_slot_length in IH. specialize (IH Hl).
        destruct IH as [L IH]. split; [exact L|]. intros j a Hj. rewrite (IH j a Hj).
        destruct (Nat.eqb j i) eqn:Eji; cbn [orb].
        * apply Nat.eqb_eq in Eji; subst j. rewrite Ei in Hj; inversion Hj; subst.
          destruct (existsb (Nat.eqb i) r); [reflexivity|]. apply nth_set_slot_eq. rewrite Hl. apply nth_error_Some. congruence.
        * destruct (existsb (Nat.eqb j) r); [reflexivity|]. apply nth_set_slot_ne. apply Nat.eqb_neq in Eji. congruence.
      + specialize (IH s Hl). destruct IH as [L IH]. split; [exact L|]. intros j a Hj. rewrite (IH j a Hj).
        destruct (Nat.eqb j i) eqn:Eji; cbn [orb]; [|reflexivity].
        apply Nat.eqb_eq in Eji; subst j. congruence.
  Qed.

  Lemma nth_repeat_none n j : nth_error (repeat (@None B) n) j = if j <? n then Some None else None.
  Proof. revert j; induction n as [|n IH]; intros [|j]; cbn; auto. rewrite IH. reflexivity. Qed.

  Lemma all_some_map (l : list B) : all_some (map Some l) = Some l.
  Proof. induction l as [|x r IH]; cbn; [reflexivity|]. rewrite IH. reflexivity. Qed.

  Lemma list_eq_nth {X} (a b : list X) : (forall j, nth_error a j = nth_error b j) -> a = b.
  Proof.
    revert b; induction a as [|x r IH]; intros [|y s] H; try (specialize (H 0); discriminate); [reflexivity|].
    pose proof (H 0) as H0. inversion H0; subst. f_equal. apply IH. intros j. exact (H (S j)).
  Qed.

  Theorem par_map_collect_serial f l sched :
    (forall j, j < length l -> In j sched) -> par_map_collect sched f l = Some (map f l).
  Proof.
    intros Hall. unfold par_map_collect, par_map_slots.
    destruct (slots_spec f l sched (repeat None (length l)) (repeat_length _ _)) as [L S].
    cbv zeta in L, S.
    set (s' := fold_left _ sched _) in *.
    assert (E : s' = map Some (map f l)).
    { apply list_eq_nth. intros j.
      destruct (nth_error l j) as [a|] eqn:Ej.
      - rewrite (S j a Ej). rewrite !nth_error_map, Ej. cbn.
        assert (Hj : j < length l) by (apply nth_error_Some; congruence).
        assert (Hex : existsb (Nat.eqb j) sched = true).
        { apply existsb_exists. exists j. split; [apply Hall; exact Hj|apply Nat.eqb_refl]. }
        rewrite Hex. reflexivity.
      - rewrite !nth_error_map, Ej. cbn. apply nth_error_None. rewrite L. apply nth_error_None. exact Ej. }
    rewrite E. apply all_some_map.
  Qed.

  Corollary par_map_collect_perm f l sched : Permutation sched (seq 0 (length l)) -> par_map_collect sched f l = Some (map f l).
  Proof.
    intros P. apply par_map_collect_serial. intros j Hj. eapply Permutation_in; [apply Permutation_sym; exact P|].
    apply in_seq. lia.
  Qed.

  Corollary par_map_schedule_free f l s1 s2 :
    Permutation s1 (seq 0 (length l)) -> Permutation s2 (seq 0 (length l)) -> par_map_collect s1 f l = par_map_collect s2 f l.
  Proof. intros P1 P2. rewrite (par_map_collect_perm f l s1 P1), (par_map_collect_perm f l s2 P2). reflexivity. Qed.

  (* `any`: whatever the order, and although evaluation stops at the first hit *)
  Lemma par_any_existsb (p : A -> bool) l sched :
    par_any sched p l = existsb (fun i => match nth_error l i with Some a => p a | None => false end) sched.
  Proof.
    induction sched as [|i r IH]; [reflexivity|]. cbn [par_any existsb].
    destruct (nth_error l i) as [a|]; [destruct (p a); [reflexivity|]|]; exact IH.
  Qed.

  Theorem par_any_serial (p : A -> bool) l sched :
    (forall j, j < length l -> In j sched) -> par_any sched p l = existsb p l.
  Proof.
    intros Hall. rewrite par_any_existsb. apply eq_true_iff_eq. rewrite !existsb_exists. split.
    - intros (i & _ & Hi). destruct (nth_error l i) as [a|] eqn:E; [|discriminate].
      exists a. split; [exact (nth_error_In _ _ E)|exact Hi].
    - intros (a & Hin & Hp). apply In_nth_error in Hin as [j Hj]. exists j. split; [|now rewrite Hj].
      apply Hall, nth_error_Some. congruence.
  Qed.
End P.

(* parse: accept/reject and the reported error are those of the serial build *)
Theorem parse_decision_schedule_free {A E T} (f : A -> E + T) l sched :
  (forall j, j < length l -> In j sched) ->
  option_map first_err (par_map_collect sched f l) = Some (first_err (map f l)).
Proof. intros H. rewrite (par_map_collect_serial f l sched H). reflexivity. Qed.

Print Assumptions par_map_collect_serial.
Print Assumptions par_map_schedule_free.
Print Assumptions par_any_serial.
Print Assumptions parse_decision_schedule_free.
