(* C14: the switches of ModuleConfig are independent of each other and of the order in which they are set. *)
From Coq Require Import List Bool String. Import ListNotations.
From WV Require Import Model.Config Gen.ConfigEmit.

(* the source the model was written against (Gen/ConfigEmit.v is regenerated from it on every run) *)
Open Scope string_scope.
Definition expected_config_setters : list (string * list (string * string)) :=
  [("generate_dwarf", [("generate_dwarf", "generate"); ("preserve_code_transform", "generate||self.preserve_code_transform")]);
   ("generate_name_section", [("skip_name_section", "!generate")]);
   ("generate_synthetic_names_for_anonymous_items", [("generate_synthetic_names_for_anonymous_items", "generate")]);
   ("strict_validate", [("skip_strict_validate", "!strict")]);
   ("generate_producers_section", [("skip_producers_section", "!generate")]);
   ("only_stable_features", [("only_stable_features", "only")]);
   ("on_parse", [("on_parse", "Some(Box::new(f)as_)")]);
   ("on_instr_loc", [("on_instr_loc", "Some(Box::new(f)as_)")]);
   ("preserve_code_transform", [("preserve_code_transform", "preserve")])].
(* Module::emit_wasm: section order, the three switches, the custom-section loop (Model/EmitM.v [emitM] follows it) *)
Definition expected_emit_wasm_skeleton : list (string * string) :=
  [("", "take(&mutself.customs)"); ("", "types.emit"); ("", "imports.emit"); ("", "funcs.emit_func_section"); ("", "tables.emit"); ("", "memories.emit"); ("", "globals.emit"); ("", "exports.emit"); ("if letSome(start)=self.start", "section(StartSection)"); ("", "elements.emit"); ("", "data.emit_data_count"); ("", "funcs.emit"); ("", "data.emit"); ("if !self.config.skip_name_section", "emit_name_section"); ("if !self.config.skip_producers_section", "producers.emit"); ("if self.config.generate_dwarf", "debug.emit"); ("", "take(cx.indices)"); ("for (_id,section)incustoms.iter_mut() > if section.name().starts_with('.debug')", "continue"); ("for (_id,section)incustoms.iter_mut() > if self.config.preserve_code_transform", "section.apply_code_transform"); ("for (_id,section)incustoms.iter_mut()", "section(CustomSection)"); ("", "self.customs=customs")].
Lemma emit_wasm_skeleton_pinned : emit_wasm_skeleton = expected_emit_wasm_skeleton.
Proof. reflexivity. Qed.
Theorem config_source_pinned : config_setters = expected_config_setters /\ emit_wasm_skeleton = expected_emit_wasm_skeleton.
Proof. split; [reflexivity|exact emit_wasm_skeleton_pinned]. Qed.
Close Scope string_scope.

(* which calls can influence which switch *)
Definition own_dwarf (s : setter) := match s with SDwarf _ => true | _ => false end.
Definition own_names (s : setter) := match s with SNames _ => true | _ => false end.
Definition own_synth (s : setter) := match s with SSynth _ => true | _ => false end.
Definition own_strict (s : setter) := match s with SStrict _ => true | _ => false end.
Definition own_prod (s : setter) := match s with SProducers _ => true | _ => false end.
Definition own_stable (s : setter) := match s with SStable _ => true | _ => false end.
Definition own_preserve (s : setter) := match s with SPreserve _ | SDwarf _ => true | _ => false end.

Section field.
Variable get : mcfg -> bool.
Variable own : setter -> bool.
(* a call of a setter that does not own the switch leaves it alone; the effect of one that does depends on the switch only *)
Hypothesis get_apply : forall c c' s, get c = get c' ->
  get (apply_setter c s) = if own s then get (apply_setter c' s) else get c'.

Lemma run_field_filter_gen : forall l c c', get c = get c' -> get (run_setters c l) = get (run_setters c' (filter own l)).
Proof.
  induction l as [|s l IH]; intros c c' H; cbn [run_setters fold_left filter]; [exact H|].
  specialize (get_apply c c' s H). destruct (own s); cbn [fold_left]; apply IH; [exact get_apply|].
  rewrite get_apply. reflexivity.
Qed.
Lemma run_field_filter : forall l c, get (run_setters c l) = get (run_setters c (filter own l)).
Proof. intros; apply run_field_filter_gen; reflexivity. Qed.
End field.

(* the final value of a switch depends only on the calls of its own setter (for preserve_code_transform: also generate_dwarf) *)
Theorem switch_names_independent : forall l c, c_skip_names (run_setters c l) = c_skip_names (run_setters c (filter own_names l)).
Proof. apply run_field_filter. intros c c' [] E; cbn in *; congruence. Qed.
Theorem switch_producers_independent : forall l c, c_skip_prod (run_setters c l) = c_skip_prod (run_setters c (filter own_prod l)).
Proof. apply run_field_filter. intros c c' [] E; cbn in *; congruence. Qed.
Theorem switch_synth_independent : forall l c, c_synth (run_setters c l) = c_synth (run_setters c (filter own_synth l)).
Proof. apply run_field_filter. intros c c' [] E; cbn in *; congruence. Qed.
Theorem switch_strict_independent : forall l c, c_skip_strict (run_setters c l) = c_skip_strict (run_setters c (filter own_strict l)).
Proof. apply run_field_filter. intros c c' [] E; cbn in *; congruence. Qed.
Theorem switch_stable_independent : forall l c, c_stable (run_setters c l) = c_stable (run_setters c (filter own_stable l)).
Proof. apply run_field_filter. intros c c' [] E; cbn in *; congruence. Qed.
Theorem switch_dwarf_independent : forall l c, c_dwarf (run_setters c l) = c_dwarf (run_setters c (filter own_dwarf l)).
Proof. apply run_field_filter. intros c c' [] E; cbn in *; congruence. Qed.
Theorem switch_preserve_independent : forall l c, c_preserve (run_setters c l) = c_preserve (run_setters c (filter own_preserve l)).
Proof. apply run_field_filter. intros c c' [] E; cbn in *; congruence. Qed.

(* the last call of a setter decides: name section off iff the last generate_name_section call said false, etc. *)
Fixpoint last_arg (own : setter -> option bool) (l : list setter) (d : bool) : bool :=
  match l with [] => d | s :: r => last_arg own r (match own s with Some b => b | None => d end) end.
Definition arg_names s := match s with SNames b => Some (negb b) | _ => None end.
Definition arg_prod s := match s with SProducers b => Some (negb b) | _ => None end.
Definition arg_dwarf s := match s with SDwarf b => Some b | _ => None end.
Lemma run_last_arg (get : mcfg -> bool) (arg : setter -> option bool) :
  (forall c s, get (apply_setter c s) = match arg s with Some b => b | None => get c end) ->
  forall l c, get (run_setters c l) = last_arg arg l (get c).
Proof.
  intros H. induction l as [|s l IH]; intro c; cbn [run_setters fold_left last_arg]; [reflexivity|].
  fold (run_setters (apply_setter c s) l). rewrite IH, H. reflexivity.
Qed.
Theorem switch_names_last_call : forall l c, c_skip_names (run_setters c l) = last_arg arg_names l (c_skip_names c).
Proof. apply run_last_arg. intros c []; reflexivity. Qed.
Theorem switch_producers_last_call : forall l c, c_skip_prod (run_setters c l) = last_arg arg_prod l (c_skip_prod c).
Proof. apply run_last_arg. intros c []; reflexivity. Qed.
Theorem switch_dwarf_last_call : forall l c, c_dwarf (run_setters c l) = last_arg arg_dwarf l (c_dwarf c).
Proof. apply run_last_arg. intros c []; reflexivity. Qed.
(* DWARF generation needs the code transform: whenever generate_dwarf ends up on and preserve_code_transform was not
   switched off afterwards, the code transform is preserved *)
Theorem dwarf_implies_preserve : forall l c, c_dwarf (apply_setter (run_setters c l) (SDwarf true)) = true /\ c_preserve (apply_setter (run_setters c l) (SDwarf true)) = true.
Proof. intros; split; reflexivity. Qed.
(* Clone keeps every switch and drops the callbacks *)
Theorem clone_keeps_switches : forall c, firstn 7 (cfg_bits (apply_setter c SClone)) = firstn 7 (cfg_bits c) /\ c_on_parse (apply_setter c SClone) = false /\ c_on_instr_loc (apply_setter c SClone) = false.
Proof. intro c; repeat split; reflexivity. Qed.
Example config_example : cfg_bits (run_setters cfg0 [SNames false; SSynth true; SDwarf true; SPreserve false; SClone]) = [true; true; false; false; false; true; false; false; false].
Proof. reflexivity. Qed.
Print Assumptions switch_names_independent.
Print Assumptions switch_preserve_independent.
Print Assumptions config_source_pinned.
