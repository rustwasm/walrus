(* Towards totality of the second trip: the emitted body is [ParseTotal.body_valid]. *)
From Coq Require Import List NArith Bool Lia Setoid. Import ListNotations.
From WV Require Import Gen.Ops Model.Common Model.IR Model.ModuleM Model.ParseFn Model.ParseSpec Model.EmitFn
  Model.BodySpec Model.Sem Model.EmitSpec Model.Traversal.
From WV Require Import Proofs.ParseFn Proofs.Codec Proofs.Body Proofs.Sem Proofs.Escalation Proofs.Fixpoint
  Proofs.EmitFn Proofs.Traversal Proofs.ParseTotal Proofs.ModFix10 Proofs.ModFix14.
From WV Require Import Model.ParseM Model.EmitM Proofs.Structure2 Proofs.Totality Proofs.ModFix Proofs.ModFix12 Proofs.ModFix15 Proofs.IndexMaps Proofs.ParsedWf Proofs.ModFix3.
Local Open Scope nat_scope.

(* what body validity needs of one instruction *)
Definition sok (nt : nat) (w : wins) : Prop :=
  match w with
  | WOp o => forall f, decode_plain f o <> None
  | WBlock bt | WLoop bt | WIf bt => sbt_ok nt bt
  | _ => True
  end.
Definition sokp (nt : nat) (p : wins * N) : Prop := sok nt (fst p).

Definition SWt (nt : nat) (t : rt) : Prop := forall k ls, swf nt k (fst (reloc_t t ls)) <-> swf nt k t.
Definition SWl (nt : nat) (l : list rt) : Prop := forall k ls, swfl nt k (fst (reloc_l l ls)) <-> swfl nt k l.
Lemma swf_reloc_both nt : (forall t, SWt nt t) /\ (forall l, SWl nt l).
Proof.
  apply rt_list_ind.
  - intros k ls. reflexivity.
  - intros t l Ht IH k ls. cbn [reloc_l fst swfl]. rewrite (Ht k ls), (IH k (snd (reloc_t t ls))). reflexivity.
  - intros o l k ls. reflexivity.
  - intros l k ls. reflexivity.
  - intros d l k ls. reflexivity.
  - intros d l k ls. reflexivity.
  - intros ds d l k ls. reflexivity.
  - intros bt body l e HF k ls. rewrite reloc_block. cbn [fst]. rewrite !swf_block, (HF (S k) (tl ls)). reflexivity.
  - intros bt body l e HF k ls. rewrite reloc_loop. cbn [fst]. rewrite !swf_loop, (HF (S k) (tl ls)). reflexivity.
  - intros bt th l e HFt k ls. rewrite reloc_if_none. cbn [fst]. rewrite !swf_if, (HFt (S k) (tl ls)). reflexivity.
  - intros bt th le eb l e HFt HFe k ls. rewrite reloc_if_some. cbn [fst]. rewrite !swf_if.
    rewrite (HFt (S k) (tl ls)), (HFe (S k) (tl (snd (reloc_l th (tl ls))))). reflexivity.
Qed.
Theorem swfl_reloc : forall nt k L locs, swfl nt k (reloc L locs) <-> swfl nt k L.
Proof. intros nt k L locs. apply swf_reloc_both. Qed.

Section SwfRen.
  Variable cx : pctx.
  Variable ecx : ectx.
  Variable nt : nat.
  Definition St (t : rt) : Prop := forall k, wf cx k t -> Forall (sokp nt) (flat (ren_t cx ecx t)) ->
    swf nt k (ren_t cx ecx t).
  Definition Sl (l : list rt) : Prop := forall k, wfl cx k l -> Forall (sokp nt) (flat_list (map (ren_t cx ecx) l)) ->
    swfl nt k (map (ren_t cx ecx) l).
  Lemma swf_ren_both : (forall t, St t) /\ (forall l, Sl l).
  Proof.
    apply rt_list_ind.
    - intros k _ _. exact I.
    - intros t l Ht IH k [Hw1 Hw2] Hf. cbn [map] in *. rewrite flat_list_cons in Hf. apply Forall_app in Hf.
      split; [apply (Ht k Hw1 (proj1 Hf))|apply (IH k Hw2 (proj2 Hf))].
    - intros o l k _ Hf. cbn [ren_t] in *. unfold ren_leaf in *.
      destruct (nf_op cx ecx o) as [w| | | | | | | | |]; try exact I. apply Forall_inv in Hf. exact Hf.
    - intros l k _ _. exact I.
    - intros d l k Hw _. exact Hw.
    - intros d l k Hw _. exact Hw.
    - intros ds d l k Hw _. exact Hw.
    - intros bt body l e HF k Hw Hf. cbn [ren_t] in *. rewrite wf_block in Hw. rewrite swf_block.
      apply Forall_cons_iff in Hf. destruct Hf as [Hb Hf]. apply Forall_app in Hf.
      split; [exact Hb|apply (HF (S k) (proj2 Hw) (proj1 Hf))].
    - intros bt body l e HF k Hw Hf. cbn [ren_t] in *. rewrite wf_loop in Hw. rewrite swf_loop.
      apply Forall_cons_iff in Hf. destruct Hf as [Hb Hf]. apply Forall_app in Hf.
      split; [exact Hb|apply (HF (S k) (proj2 Hw) (proj1 Hf))].
    - intros bt th l e HFt k Hw Hf. cbn [ren_t] in *. rewrite wf_if in Hw. destruct Hw as (_ & Hw1 & _). rewrite swf_if.
      apply Forall_cons_iff in Hf. destruct Hf as [Hb Hf]. apply Forall_app in Hf.
      split; [exact Hb|]. split; [apply (HFt (S k) Hw1 (proj1 Hf))|exact I].
    - intros bt th le eb l e HFt HFe k Hw Hf. cbn [ren_t] in *. rewrite wf_if in Hw. destruct Hw as (_ & Hw1 & Hw2).
      rewrite swf_if.
      apply Forall_cons_iff in Hf. destruct Hf as [Hb Hf]. apply Forall_app in Hf. destruct Hf as [Hf1 Hf].
      apply Forall_cons_iff in Hf. destruct Hf as [_ Hf]. apply Forall_app in Hf.
      split; [exact Hb|]. split; [apply (HFt (S k) Hw1 Hf1)|apply (HFe (S k) Hw2 (proj1 Hf))].
  Qed.
  Theorem swfl_ren : forall k l, wfl cx k l -> Forall (sokp nt) (flat_list (map (ren_t cx ecx) l)) ->
    swfl nt k (map (ren_t cx ecx) l).
  Proof. intros k l. apply swf_ren_both. Qed.
End SwfRen.

(* block types of the emitted stream are declared *)
Definition bts_below (nt : nat) (w : wins) : Prop :=
  match w with WBlock bt | WLoop bt | WIf bt => sbt_ok nt bt | _ => True end.

(* Z1 *)
Theorem emitted_tree_swfl : forall cx ecx ety rs l eloc p0 ar1 st1 fuel1 nt,
  wfl cx 1 l -> parse_body cx ety rs (flat_list l ++ [(WEnd, eloc)]) = Ok ar1 ->
  emit_body ecx fuel1 ar1 0 p0 = Ok st1 ->
  Forall (bts_below nt) (out st1) ->
  swfl nt 1 (emitted_tree cx ecx l (map snd (imap st1))).
Proof.
  intros cx ecx ety rs l eloc p0 ar1 st1 fuel1 nt Hw Hp He HB.
  pose proof (emitted_ops_plain _ _ _ _ _ _ _ _ _ _ Hw Hp He) as HP.
  assert (HS : Forall (sok nt) (out st1)).
  { rewrite Forall_forall in *. intros w Hin. specialize (HB w Hin). specialize (HP w Hin).
    destruct w; cbn [sok bts_below] in *; auto. apply HP. }
  destruct (first_trip_facts _ _ _ _ _ _ _ _ _ _ Hw (enc_ok_all cx ecx) Hp He) as [Ho _].
  rewrite nf_body_ops, <- flat_ren in Ho. rewrite Ho in HS. apply Forall_app in HS. destruct HS as [HS _].
  unfold emitted_tree. apply swfl_reloc. apply swfl_ren.
  - apply wfl_nf_rt. exact Hw.
  - unfold sokp. apply (proj1 (Forall_map fst (sok nt) _)). exact HS.
Qed.

Theorem emitted_body_valid : forall cx ecx ety rs l eloc p0 ar1 st1 fuel1 nt decls,
  wfl cx 1 l -> parse_body cx ety rs (flat_list l ++ [(WEnd, eloc)]) = Ok ar1 ->
  emit_body ecx fuel1 ar1 0 p0 = Ok st1 ->
  Forall (bts_below nt) (out st1) ->
  body_valid nt {| wb_locals := decls; wb_ops := combine (out st1) (map snd (imap st1)) |}.
Proof.
  intros cx ecx ety rs l eloc p0 ar1 st1 fuel1 nt decls Hw Hp He HB.
  destruct (emitted_ops_structured _ _ _ _ _ _ _ _ _ _ Hw (enc_ok_all _ _) Hp He) as (eloc1 & Hops & _).
  exists (emitted_tree cx ecx l (map snd (imap st1))), eloc1. split; [exact Hops|].
  eapply emitted_tree_swfl; eassumption.
Qed.

(* the premise from X3: it is enough that every emitted type index of a Multi block type is in range *)
Lemma bts_below_of_shape cx ecx nt w : bt_shape_w cx ecx w ->
  (forall ty ps' rs', nth_N (px_types cx) ty = Some (ps', rs', false) -> existing cx ps' rs' = Some (ST_Multi ty) ->
     N.to_nat (ex_id2i ecx S_type ty) < nt) ->
  bts_below nt w.
Proof.
  intros Hs Hb. destruct w; cbn [bts_below bt_shape_w] in *; try exact I;
    (destruct Hs as [->|[(t & ->)|(ty & ps' & rs' & -> & Hn & He & _)]]; cbn [sbt_ok]; [exact I|exact I|eapply Hb; eassumption]).
Qed.

Corollary emitted_body_valid_types : forall cx ecx ety rs l eloc p0 ar1 st1 fuel1 nt decls,
  wfl cx 1 l -> parse_body cx ety rs (flat_list l ++ [(WEnd, eloc)]) = Ok ar1 ->
  emit_body ecx fuel1 ar1 0 p0 = Ok st1 ->
  (forall ty ps' rs', nth_N (px_types cx) ty = Some (ps', rs', false) -> existing cx ps' rs' = Some (ST_Multi ty) ->
     N.to_nat (ex_id2i ecx S_type ty) < nt) ->
  body_valid nt {| wb_locals := decls; wb_ops := combine (out st1) (map snd (imap st1)) |}.
Proof.
  intros cx ecx ety rs l eloc p0 ar1 st1 fuel1 nt decls Hw Hp He Hb.
  eapply emitted_body_valid; try eassumption.
  eapply Forall_impl; [|exact (emitted_bts _ _ _ _ _ _ _ _ _ _ Hw Hp He)].
  intros w Hs. eapply bts_below_of_shape; eassumption.
Qed.

Print Assumptions emitted_tree_swfl.
Print Assumptions emitted_body_valid.
Print Assumptions emitted_body_valid_types.

(* every type index the first emit writes for a non-entry type found as itself is below [nt] *)
Definition type_idx_bound (s1 : pst) (e1 : emitted) (ilen : wins -> N) (nt : nat) : Prop :=
  forall id lmap ty ps' rs',
    nth_N (px_types (cx_of s1 id)) ty = Some (ps', rs', false) ->
    existing (cx_of s1 id) ps' rs' = Some (ST_Multi ty) ->
    N.to_nat (ex_id2i (ecx_of e1 lmap ilen) S_type ty) < nt.

Lemma Forall2_In_r {A B} (R : A -> B -> Prop) l1 l2 : Forall2 R l1 l2 ->
  forall b, In b l2 -> exists a, In a l1 /\ R a b.
Proof.
  induction 1 as [|a b l1 l2 Hab _ IH]; intros b0 Hin; [elim Hin|].
  destruct Hin as [<-|Hin]; [exists a; split; [left; reflexivity|exact Hab]|].
  destruct (IH _ Hin) as (a' & Ha & Hr). exists a'. split; [right; exact Ha|exact Hr].
Qed.

Theorem emitted_bodies_valid_cond : forall cf ver w s1 ilen e1 fs nt,
  valid_stream w -> parseM cf ver w = POk s1 -> emitM (ps_m s1) ilen [] = Ok e1 ->
  used_local_functions (ps_m s1) = Ok fs ->
  type_idx_bound s1 e1 ilen nt ->
  Forall (body_valid nt) (flat_map code_of (em_secs e1)).
Proof.
  intros cf ver w s1 ilen e1 fs nt V P1 E1 Hfs Hty.
  destruct (emit_code_payload _ _ _ _ E1 Hfs) as (Hco & F & _ & _).
  rewrite Hco. apply Forall_map. apply Forall_forall. intros ef Hin.
  destruct (Forall2_In_r _ _ _ F ef Hin) as ([id lf] & Hp & Hemit). cbn [fst snd] in Hemit.
  destruct (ulf_in _ _ _ _ Hfs Hp) as (f1 & Hinf & Hk). apply aiter_aget in Hinf.
  destruct (first_trip_function cf ver w s1 ilen e1 id f1 lf ef V P1 Hinf Hk Hemit)
    as (t & ety & l & eloc & evs & decls & lmap & st & _ & Hw & Hpb & _ & _ & _ & _ & Heb & Hbody & _).
  rewrite Hbody.
  eapply emitted_body_valid_types; try eassumption.
  intros ty ps' rs' Hn He. eapply Hty; eassumption.
Qed.

Print Assumptions emitted_bodies_valid_cond.

Lemma In_combine_l {A B} (a : A) : forall (l : list A) (js : list B), In a l -> length js = length l ->
  exists k, In (a, k) (combine l js).
Proof.
  induction l as [|x l IH]; intros js Hin Hl; [elim Hin|].
  destruct js as [|j js]; [discriminate Hl|]. cbn [combine]. destruct Hin as [->|Hin].
  - exists j. left. reflexivity.
  - destruct (IH js Hin) as [k Hk]; [cbn in Hl; lia|]. exists k. right. exact Hk.
Qed.
Lemma find_number_bound ids id : In id ids ->
  exists p, find (fun p => N.eqb (fst p) id) (number ids) = Some p /\ N.to_nat (snd p) < length ids.
Proof.
  intros Hin. destruct (find (fun p => N.eqb (fst p) id) (number ids)) as [p|] eqn:E.
  - exists p. split; [reflexivity|]. apply find_some in E. destruct E as [Hp _].
    unfold number in Hp. destruct p as [a b]. apply in_combine_r in Hp. apply WV.Proofs.Totality.iota_In in Hp. exact Hp.
  - exfalso. destruct (In_combine_l id ids (iota (length ids)) Hin (iota_length _)) as [k Hk].
    pose proof (find_none _ _ E _ Hk) as Hn. cbn [fst] in Hn. rewrite N.eqb_refl in Hn. discriminate Hn.
Qed.

Theorem type_idx_bound_holds : forall cf ver w s1 ilen e1,
  parseM cf ver w = POk s1 -> emitM (ps_m s1) ilen [] = Ok e1 ->
  type_idx_bound s1 e1 ilen (length (flat_map types_of (em_secs e1))).
Proof.
  intros cf ver w s1 ilen e1 P1 E1 id lmap ty ps' rs' Hn _.
  cbn [cx_of px_types] in Hn. unfold types_list, nth_N in Hn. rewrite nth_error_map in Hn.
  destruct (nth_error (WV.Model.Arena.items (WV.Model.Arena.arena (m_types (ps_m s1)))) (N.to_nat ty)) as [t|] eqn:Et; [|discriminate Hn].
  cbn [option_map] in Hn. injection Hn as _ _ Hent.
  assert (G : types_get (ps_m s1) ty = Some t).
  { unfold types_get. rewrite aset_index_nodead; [exact Et|]. apply (parseM_types_wf _ _ _ _ P1). }
  pose proof (WV.Proofs.Totality.emitted_types_In _ _ _ G Hent) as Hi.
  destruct (emitM_x2i _ _ _ _ E1) as (fs & _ & Xt & _).
  destruct (find_number_bound _ _ Hi) as (p & Hf & Hb).
  cbn [ecx_of ex_id2i]. unfold id2i_fun. cbn [space_map]. rewrite Xt, Hf.
  rewrite (out_types_keys _ _ _ E1), !map_length in *. exact Hb.
Qed.

(* Z2 *)
Theorem emitted_bodies_valid : forall cf ver w s1 ilen e1,
  valid_stream w -> parseM cf ver w = POk s1 -> emitM (ps_m s1) ilen [] = Ok e1 ->
  Forall (body_valid (length (flat_map types_of (em_secs e1)))) (flat_map code_of (em_secs e1)).
Proof.
  intros cf ver w s1 ilen e1 V P1 E1.
  destruct (emitM_x2i _ _ _ _ E1) as (fs & Hfs & _).
  eapply emitted_bodies_valid_cond; try eassumption. eapply type_idx_bound_holds; eassumption.
Qed.

Print Assumptions type_idx_bound_holds.
Print Assumptions emitted_bodies_valid.

(* the premise of ModFix16.second_parse_total *)
Lemma no_types_nil tail : (forall ts, ~ In (S_Types ts) tail) -> flat_map types_of tail = [].
Proof.
  induction tail as [|s tail IH]; intros H; [reflexivity|]. cbn [flat_map].
  rewrite IH by (intros ts Hin; apply (H ts); right; exact Hin).
  destruct s; try reflexivity. exfalso. eapply H. left. reflexivity.
Qed.

Theorem emitted_bodies_valid_sections : forall cf ver w s1 ilen e1,
  valid_stream w -> parseM cf ver w = POk s1 -> emitM (ps_m s1) ilen [] = Ok e1 ->
  forall pre bs post, em_secs e1 = pre ++ S_Code bs :: post ->
  Forall (body_valid (length (flat_map types_of pre))) bs.
Proof.
  intros cf ver w s1 ilen e1 V P1 E1 pre bs post Es.
  pose proof (emitted_bodies_valid cf ver w s1 ilen e1 V P1 E1) as HB.
  assert (Hpost : flat_map types_of post = []).
  { destruct (emitted_types_front _ _ _ E1) as (tail & NT & [Et|Et]); rewrite Es in Et.
    - apply no_types_nil. intros ts Hin. apply (NT ts). rewrite <- Et. apply in_or_app. right. right. exact Hin.
    - destruct pre as [|p pre]; [discriminate Et|]. cbn [app] in Et. injection Et as _ Et.
      apply no_types_nil. intros ts Hin. apply (NT ts). rewrite <- Et. apply in_or_app. right. right. exact Hin. }
  rewrite Es in HB. rewrite !flat_map_app in HB. cbn [flat_map] in HB. rewrite Hpost in HB.
  change (types_of (S_Code bs)) with (@nil (list valty * list valty)) in HB || cbn [types_of] in HB.
  rewrite ?app_nil_r in HB. cbn [code_of] in HB.
  apply Forall_app in HB. destruct HB as [_ HB]. apply Forall_app in HB. destruct HB as [HB _]. exact HB.
Qed.

Print Assumptions emitted_bodies_valid_sections.
