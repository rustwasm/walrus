(* Module::replace_exported_func with its last step (passes::gc::declare_referenced_funcs):
     replace_exported_func m fid body = replace_exported_func_core m fid body ;; declare_referenced_funcs.
   The declare step touches the element arena only, so the theorems of Proofs/Edit.v and Proofs/ParsedWf.v about the
   core edit lift to the whole function (under the name <name>_full) with the element clause adjusted; after the edit
   everything `ref.func`-ed by a live body is declared, which the core edit alone does not give; on a parsed module the
   declare step panics only if the replacement body cannot be traversed. *)
From Coq Require Import List NArith ZArith Bool Arith Lia.
Import ListNotations.
From WV Require Import Gen.Ops Model.Common Model.IR Model.Arena Model.Builder Model.ModuleM Model.ParseM Model.EmitM
                       Model.GC Model.Edit.
From WV Require Import Proofs.Arena Proofs.IndexMaps Proofs.Totality Proofs.GcDeclare Proofs.ArenaN.
From WV Require Model.ParseSpec Proofs.Edit Proofs.ParsedWf Proofs.ParseTotal Proofs.TotalityBodies.
Local Open Scope nat_scope.

Lemma replace_exported_full_inv m fid body m' nid :
  replace_exported_func m fid body = POk (m', nid) ->
  exists m1, replace_exported_func_core m fid body = POk (m1, nid) /\ declare_referenced_funcs m1 = Ok m'.
Proof.
  unfold replace_exported_func. destruct (replace_exported_func_core m fid body) as [[m1 n1]| |]; try discriminate.
  destruct (declare_referenced_funcs m1) as [m2| |] eqn:Ed; try discriminate.
  intros H; inversion H; subst. exists m1. split; [reflexivity|exact Ed].
Qed.

Lemma replace_exported_full_ok m fid body m1 m' nid :
  replace_exported_func_core m fid body = POk (m1, nid) -> declare_referenced_funcs m1 = Ok m' ->
  replace_exported_func m fid body = POk (m', nid).
Proof. unfold replace_exported_func. intros -> ->. reflexivity. Qed.

Lemma replace_exported_full_err m fid body :
  replace_exported_func_core m fid body = PErr -> replace_exported_func m fid body = PErr.
Proof. unfold replace_exported_func. intros ->. reflexivity. Qed.

Lemma core_elements m fid body m1 nid :
  replace_exported_func_core m fid body = POk (m1, nid) -> m_elements m1 = m_elements m.
Proof.
  intros H. destruct (Proofs.Edit.replace_exported_run _ _ _ _ _ H) as (eid & f & lf0 & t & ty & ety & ar & e & R).
  exact (Proofs.Edit.er_elements R).
Qed.

(* the declare step only touches the element arena: it adds nothing, or one declared segment *)
Lemma declare_shape m m' : declare_referenced_funcs m = Ok m' ->
  exists els, m' = set_elements m els /\
    (els = m_elements m \/ exists fs, fs <> [] /\ els = fst (aalloc (m_elements m) (decl_seg fs))).
Proof.
  intros H. destruct (declare_inv m m' H) as [fs [_ [[_ ->]|[Hne ->]]]].
  - exists (m_elements m). split; [destruct m; reflexivity|left; reflexivity].
  - eexists. split; [reflexivity|right; exists fs; split; [exact Hne|reflexivity]].
Qed.

(* Same statement as [Proofs.Edit.replace_exported_spec] except the element clause of E4: every old segment is
   unchanged (same id, same content) and the arena is the old one or has exactly one more segment, a declared
   one listing a non-empty set of functions (the undeclared functions of the core result). *)
Theorem replace_exported_spec_full m fid body m' nid :
  Forall (fun d => d < length (items (m_funcs m))) (dead (m_funcs m)) ->
  Proofs.Edit.types_wf (m_types m) ->
  replace_exported_func m fid body = POk (m', nid) ->
  exists eid e f lf0 t lf,
    exported_func_export m fid = Some eid /\ aget (m_exports m) eid = Some e /\
    ex_kind e = EK_Func /\ ex_item e = fid /\
    aget (m_funcs m) fid = Some f /\ fn_kind f = FK_Local lf0 /\ types_get m (lf_ty lf0) = Some t /\
    (* E1 *) (nid = N.of_nat (length (items (m_funcs m))) /\
              aget (m_funcs m') nid = Some {| fn_kind := FK_Local lf; fn_name := None |} /\
              (exists t', types_get m' (lf_ty lf) = Some t' /\
                 ty_params t' = ty_params t /\ ty_results t' = ty_results t /\ ty_entry t' = false) /\
              lf_args lf = lf_args lf0) /\
    (* E2 *) (forall g, N.to_nat g < length (items (m_funcs m)) -> aget (m_funcs m') g = aget (m_funcs m) g) /\
    (* E3 *) (aget (m_exports m') eid = Some {| ex_name := ex_name e; ex_kind := ex_kind e; ex_item := nid |} /\
              (forall x, x <> eid -> aget (m_exports m') x = aget (m_exports m) x) /\
              length (items (m_exports m')) = length (items (m_exports m)) /\
              dead (m_exports m') = dead (m_exports m)) /\
    (* E4 *) (m_imports m' = m_imports m /\ m_tables m' = m_tables m /\ m_memories m' = m_memories m /\
              m_globals m' = m_globals m /\
              ((forall id x, aget (m_elements m) id = Some x -> aget (m_elements m') id = Some x) /\
               (m_elements m' = m_elements m \/
                exists fs, fs <> [] /\
                  items (m_elements m') =
                    items (m_elements m) ++ [{| el_kind := ELK_Declared; el_items := ELI_Funcs fs; el_name := None |}] /\
                  dead (m_elements m') = dead (m_elements m))) /\
              m_data m' = m_data m /\
              m_start m' = m_start m /\ m_customs m' = m_customs m /\ m_locals m' = m_locals m /\
              m_producers m' = m_producers m /\ m_name m' = m_name m /\ m_config m' = m_config m) /\
    (* body *) (exists m2 ty ety ar, builder_new m (ty_params t) (ty_results t) = (m2, ty, ety) /\
                  run_builder ety (body (lf_args lf0)) = Ok ar /\ lf_arena lf = ar /\ lf_ty lf = ty) /\
    Proofs.Edit.types_wf (m_types m') /\
    Forall (fun d => d < length (items (m_funcs m'))) (dead (m_funcs m')).
Proof.
  intros Hb Hwf H. destruct (replace_exported_full_inv _ _ _ _ _ H) as [m1 [Hc Hd]].
  destruct (Proofs.Edit.replace_exported_spec m fid body m1 nid Hb Hwf Hc)
    as (eid & e & f & lf0 & t & lf & A1 & A2 & A3 & A4 & A5 & A6 & A7 & E1 & E2 & E3 & E4 & Bd & Tw & Fd).
  destruct E4 as (G1 & G2 & G3 & G4 & G5 & G6).
  destruct (declare_shape m1 m' Hd) as (els & -> & Hels).
  exists eid, e, f, lf0, t, lf.
  (* every clause but the one about the elements is that of [m1], which [set_elements] leaves alone *)
  repeat (split; [assumption|]).
  split; [|split; [assumption|split; assumption]].
  repeat (split; [assumption|]).
  split; [|assumption].
  cbn [m_elements set_elements]. rewrite <- G5.
  destruct Hels as [->|(fs & Hne & ->)].
  - split; [auto|left; reflexivity].
  - split; [intros id x; apply aget_snoc_some|right; exists fs; split; [exact Hne|split; reflexivity]].
Qed.

(* the extra frame facts of the core edit (debug data, code section offset), verbatim *)
Theorem exported_E4_extra_full m fid body m' nid :
  replace_exported_func m fid body = POk (m', nid) ->
  m_debug m' = m_debug m /\ m_code_section_offset m' = m_code_section_offset m.
Proof.
  intros H. destruct (replace_exported_full_inv _ _ _ _ _ H) as [m1 [Hc Hd]].
  destruct (declare_shape m1 m' Hd) as (els & -> & _). exact (Proofs.Edit.exported_E4_extra _ _ _ _ _ Hc).
Qed.

(* what the one new segment lists: the undeclared functions of the core result *)
Theorem replace_exported_new_segment m fid body m' nid :
  replace_exported_func m fid body = POk (m', nid) ->
  exists m1 fs, replace_exported_func_core m fid body = POk (m1, nid) /\ undeclared_funcs m1 = Ok fs /\
    ((fs = [] /\ m_elements m' = m_elements m) \/
     (fs <> [] /\ m_elements m' = fst (aalloc (m_elements m) (decl_seg fs)))).
Proof.
  intros H. destruct (replace_exported_full_inv _ _ _ _ _ H) as [m1 [Hc Hd]].
  destruct (declare_frame m1 m' Hd) as [_ (fs & Hu & Hel)]. rewrite (core_elements _ _ _ _ _ Hc) in Hel.
  exists m1, fs. auto.
Qed.

Theorem exported_E5_not_exported_full m fid body :
  (forall i e, aget (m_exports m) i = Some e -> ~ (ex_kind e = EK_Func /\ ex_item e = fid)) ->
  replace_exported_func m fid body = PErr.
Proof. intros Hno. apply replace_exported_full_err, Proofs.Edit.exported_E5_not_exported, Hno. Qed.

Theorem exported_E5_not_local_full m fid body eid f :
  exported_func_export m fid = Some eid -> aget (m_funcs m) fid = Some f ->
  (forall lf, fn_kind f <> FK_Local lf) ->
  replace_exported_func m fid body = PErr.
Proof. intros He Hf Hk. apply replace_exported_full_err. eapply Proofs.Edit.exported_E5_not_local; eauto. Qed.

(* The arena premise of E1 is needed for the whole edit too.  [Proofs.Edit.bad_funcs_module] itself does not witness it:
   its one function has an EMPTY sequence arena (no entry
   sequence), which the core edit never looks at but the declare step traverses - the whole edit panics on it *)
Example bad_funcs_module_now_panics :
  exists m1 nid, replace_exported_func_core Proofs.Edit.bad_funcs_module 0%N (fun _ => []) = POk (m1, nid) /\
                 replace_exported_func Proofs.Edit.bad_funcs_module 0%N (fun _ => []) = PPanic.
Proof. eexists. eexists. split; vm_compute; reflexivity. Qed.

(* the same module with a well-formed (empty) body *)
Definition bad_funcs_module' : wir :=
  set_types
    (set_funcs
       (set_exports (empty_wir default_config)
          {| items := [{| ex_name := []; ex_kind := EK_Func; ex_item := 0%N |}]; dead := [] |})
       {| items := [{| fn_kind := FK_Local (w_lf []); fn_name := None |}]; dead := [1] |})
    {| arena := {| items := [Proofs.Edit.t_unit]; dead := [] |}; already := [(Proofs.Edit.t_unit, 0)] |}.

Theorem exported_E1_refuted_full :
  exists m fid body m' nid,
    Proofs.Edit.types_wf (m_types m) /\
    replace_exported_func m fid body = POk (m', nid) /\
    aget (m_funcs m') nid = None.
Proof.
  exists bad_funcs_module', 0%N, (fun _ => []).
  eexists. eexists.
  split; [exact Proofs.Edit.t_unit_types_wf|].
  split; vm_compute; reflexivity.
Qed.

Theorem parse_then_replace_exported_full : forall cf ver w s fid body m' nid,
  parseM cf ver w = POk s ->
  let m := ps_m s in
  replace_exported_func m fid body = POk (m', nid) ->
  exists eid e f lf0 t lf,
    exported_func_export m fid = Some eid /\ aget (m_exports m) eid = Some e /\
    ex_kind e = EK_Func /\ ex_item e = fid /\
    aget (m_funcs m) fid = Some f /\ fn_kind f = FK_Local lf0 /\ types_get m (lf_ty lf0) = Some t /\
    (* E1 *) (nid = N.of_nat (length (items (m_funcs m))) /\
              aget (m_funcs m') nid = Some {| fn_kind := FK_Local lf; fn_name := None |} /\
              (exists t', types_get m' (lf_ty lf) = Some t' /\
                 ty_params t' = ty_params t /\ ty_results t' = ty_results t /\ ty_entry t' = false) /\
              lf_args lf = lf_args lf0) /\
    (* E2 *) (forall g, N.to_nat g < length (items (m_funcs m)) -> aget (m_funcs m') g = aget (m_funcs m) g) /\
    (* E3 *) (aget (m_exports m') eid = Some {| ex_name := ex_name e; ex_kind := ex_kind e; ex_item := nid |} /\
              (forall x, x <> eid -> aget (m_exports m') x = aget (m_exports m) x) /\
              length (items (m_exports m')) = length (items (m_exports m)) /\
              dead (m_exports m') = dead (m_exports m)) /\
    (* E4 *) (m_imports m' = m_imports m /\ m_tables m' = m_tables m /\ m_memories m' = m_memories m /\
              m_globals m' = m_globals m /\
              ((forall id x, aget (m_elements m) id = Some x -> aget (m_elements m') id = Some x) /\
               (m_elements m' = m_elements m \/
                exists fs, fs <> [] /\
                  items (m_elements m') =
                    items (m_elements m) ++ [{| el_kind := ELK_Declared; el_items := ELI_Funcs fs; el_name := None |}] /\
                  dead (m_elements m') = dead (m_elements m))) /\
              m_data m' = m_data m /\
              m_start m' = m_start m /\ m_customs m' = m_customs m /\ m_locals m' = m_locals m /\
              m_producers m' = m_producers m /\ m_name m' = m_name m /\ m_config m' = m_config m) /\
    (* body *) (exists m2 ty ety ar, builder_new m (ty_params t) (ty_results t) = (m2, ty, ety) /\
                  run_builder ety (body (lf_args lf0)) = Ok ar /\ lf_arena lf = ar /\ lf_ty lf = ty) /\
    Proofs.Edit.types_wf (m_types m') /\
    Forall (fun d => d < length (items (m_funcs m'))) (dead (m_funcs m')).
Proof.
  intros cf ver w s fid body m' nid E m H.
  destruct (Proofs.ParsedWf.parsed_ready_for_replace_exported _ _ _ _ E) as [Hb Hwf].
  apply (replace_exported_spec_full m fid body m' nid Hb Hwf H).
Qed.


(* After the edit every `ref.func`-ed function of a live body is declared.  As for the GC pass ([gc_declares_all_referenced_partial]) the unconditional statement is false of the model for an
   ill-formed element arena (a tombstone on a not yet allocated id: the new segment is born dead), which no sequence of
   arena operations can build; see [replace_exported_declares_all_referenced_refuted]. *)
Theorem replace_exported_declares_all_referenced_partial m fid body m' nid :
  dead_in_range (m_elements m) ->
  replace_exported_func m fid body = POk (m', nid) -> undeclared_funcs m' = Ok [].
Proof.
  intros Hdr H. destruct (replace_exported_full_inv _ _ _ _ _ H) as [m1 [Hc Hd]].
  eapply declare_declares_all; [|exact Hd]. rewrite (core_elements _ _ _ _ _ Hc). exact Hdr.
Qed.

Theorem replace_exported_declares_all_referenced_after_parse cf ver w s fid body m' nid :
  parseM cf ver w = POk s ->
  replace_exported_func (ps_m s) fid body = POk (m', nid) -> undeclared_funcs m' = Ok [].
Proof.
  intros HP. exact (replace_exported_declares_all_referenced_partial _ _ _ _ _ (parsed_elements_dir _ _ _ _ HP)).
Qed.

(* and the edit keeps the premise, so it can be chained *)
Theorem replace_exported_dead_in_range m fid body m' nid :
  dead_in_range (m_elements m) ->
  replace_exported_func m fid body = POk (m', nid) -> dead_in_range (m_elements m').
Proof.
  intros Hdr H. destruct (replace_exported_new_segment _ _ _ _ _ H) as (m1 & fs & _ & _ & [[_ ->]|[_ ->]]);
    [exact Hdr|exact (alloc_bound _ _ _ Hdr)].
Qed.

(* function 0 (empty body), exported once as "f"; function 1, exported as "g", body `ref.func 0; drop`;
   no element segment.  [d] = the tombstones of the element arena ([] for a well-formed module). *)
Definition x_mod (d : list nat) : wir :=
  {| m_imports := empty; m_tables := empty;
     m_types := {| arena := {| items := [w_ty]; dead := [] |}; already := [(w_ty, 0)] |};
     m_funcs := {| items := [ {| fn_kind := FK_Local (w_lf []); fn_name := None |};
                              {| fn_kind := FK_Local (w_lf [(IPlain (P_RefFunc 0%N), 0%N); (IPlain P_Drop, 1%N)]); fn_name := None |} ];
                   dead := [] |};
     m_globals := empty; m_locals := empty;
     m_exports := {| items := [ {| ex_name := [102%N]; ex_kind := EK_Func; ex_item := 0%N |};
                                {| ex_name := [103%N]; ex_kind := EK_Func; ex_item := 1%N |} ]; dead := [] |};
     m_memories := empty; m_data := empty;
     m_elements := {| items := []; dead := d |};
     m_start := None; m_producers := []; m_customs := []; m_debug := []; m_name := None; m_config := default_config;
     m_code_section_offset := 0%N |}.
Definition pres_get {A} (d : A) (r : pres A) : A := match r with POk a => a | _ => d end.

Theorem replace_exported_declares_all_referenced_refuted :
  exists m fid body m' nid, replace_exported_func m fid body = POk (m', nid) /\ undeclared_funcs m' <> Ok [].
Proof.
  exists (x_mod [0]), 0%N, (fun _ => []),
         (fst (pres_get (x_mod [0], 0%N) (replace_exported_func (x_mod [0]) 0%N (fun _ => [])))), 2%N.
  split; [vm_compute; reflexivity|]. vm_compute. discriminate.
Qed.

(* the core edit alone leaves an undeclared function reference *)
Theorem core_leaves_undeclared_refuted :
  exists m fid body m1 nid,
    aiter (m_elements m) = [] /\ undeclared_funcs m = Ok [] /\
    replace_exported_func_core m fid body = POk (m1, nid) /\
    exists f fs, undeclared_funcs m1 = Ok (f :: fs).
Proof.
  exists (x_mod []), 0%N, (fun _ => []),
         (fst (pres_get (x_mod [], 0%N) (replace_exported_func_core (x_mod []) 0%N (fun _ => [])))), 2%N.
  split; [reflexivity|]. split; [vm_compute; reflexivity|]. split; [vm_compute; reflexivity|].
  exists 0%N, []. vm_compute. reflexivity.
Qed.
(* ... and the whole edit on the same module declares function 0 in one new segment *)
Example x_mod_full : exists m', replace_exported_func (x_mod []) 0%N (fun _ => []) = POk (m', 2%N) /\
  undeclared_funcs m' = Ok [] /\ aiter (m_elements m') = [(0%N, decl_seg [0%N])].
Proof.
  exists (fst (pres_get (x_mod [], 0%N) (replace_exported_func (x_mod []) 0%N (fun _ => [])))).
  split; [vm_compute; reflexivity|]. split; vm_compute; reflexivity.
Qed.

(* the same, from a parsed stream *)
Definition x_stream : wmod :=
  [ S_Types [([], [])];
    S_Funcs [0%N; 0%N];
    S_Exports [{| we_name := [102%N]; we_kind := EK_Func; we_index := 0 |};
               {| we_name := [103%N]; we_kind := EK_Func; we_index := 1 |}];
    S_Code [{| wb_locals := []; wb_ops := [(WEnd, 1%N)] |};
            {| wb_locals := []; wb_ops := [(WOp (W_RefFunc 0), 2%N); (WOp W_Drop, 3%N); (WEnd, 4%N)] |}] ].
Definition x_parsed : wir :=
  match parseM default_config [49%N] x_stream with POk s => ps_m s | _ => empty_wir default_config end.

Theorem core_leaves_undeclared_after_parse_refuted :
  exists w s fid body m1 nid,
    parseM default_config [49%N] w = POk s /\
    aiter (m_elements (ps_m s)) = [] /\ undeclared_funcs (ps_m s) = Ok [] /\
    replace_exported_func_core (ps_m s) fid body = POk (m1, nid) /\
    exists f fs, undeclared_funcs m1 = Ok (f :: fs).
Proof.
  exists x_stream. 
  destruct (parseM default_config [49%N] x_stream) as [s| |] eqn:E; [|vm_compute in E; discriminate E..].
  assert (Hm : ps_m s = x_parsed) by (unfold x_parsed; rewrite E; reflexivity).
  exists s, 0%N, (fun _ => []),
         (fst (pres_get (x_parsed, 0%N) (replace_exported_func_core x_parsed 0%N (fun _ => [])))), 2%N.
  rewrite Hm. split; [reflexivity|].
  split; [vm_compute; reflexivity|]. split; [vm_compute; reflexivity|]. split; [vm_compute; reflexivity|].
  exists 0%N, []. vm_compute. reflexivity.
Qed.

(* The declare step does not turn a successful core edit of a parsed module into a panic: *)
(* the declare step fails only when the traversal of some live local function does *)
Lemma declare_total m :
  (forall id fn lf, aget (m_funcs m) id = Some fn -> fn_kind fn = FK_Local lf -> exists evs, lf_log lf = Ok evs) ->
  exists m', declare_referenced_funcs m = Ok m'.
Proof.
  intros H. unfold declare_referenced_funcs, undeclared_funcs, referenced_funcs.
  match goal with |- context [rmapM ?f ?l] => destruct (rmapM_total f l) as [bs Ebs] end.
  - intros [id fn] Hin. apply aiter_In in Hin. cbn [snd].
    destruct (fn_kind fn) as [? ?|lf|?] eqn:Ek; [eauto| |eauto].
    destruct (H id fn lf Hin Ek) as [evs ->]. cbn [rmap]. eauto.
  - rewrite Ebs. cbn [rmap]. eauto.
Qed.
Lemma declare_total_conv m m' id fn lf :
  declare_referenced_funcs m = Ok m' -> aget (m_funcs m) id = Some fn -> fn_kind fn = FK_Local lf ->
  exists evs, lf_log lf = Ok evs.
Proof.
  intros Hd Hg Hk. destruct (declare_inv m m' Hd) as [fs [Hu _]].
  destruct (undeclared_funcs_inv m fs Hu) as [refd [Hr _]].
  destruct (referenced_funcs_inv m refd Hr) as [ls [El _]]. apply rmapM_ok_inv in El.
  apply aiter_In in Hg. destruct (Forall2_in_l _ _ _ El _ Hg) as [l0 [_ Hr0]].
  unfold refs_of_fn in Hr0. cbn [snd] in Hr0. rewrite Hk in Hr0.
  destruct (lf_log lf) as [evs| |]; cbn [rmap] in Hr0; try discriminate Hr0. eauto.
Qed.

(* PREMISE NEEDED: the replacement body itself can be traversed (its [lf_log] is defined), i.e. the builder program
   attaches only sequences it created (no dangling/foreign InstrSeqId, no sequence attached twice).  The traversal of
   every parsed function is defined ([parsed_lf_log]), so nothing else can make the step fail. *)
Theorem replace_exported_no_panic_from_declare cf ver w s fid body m1 nid :
  Proofs.ParseTotal.valid_stream w -> parseM cf ver w = POk s ->
  replace_exported_func_core (ps_m s) fid body = POk (m1, nid) ->
  (forall fn lf, aget (m_funcs m1) nid = Some fn -> fn_kind fn = FK_Local lf -> exists evs, lf_log lf = Ok evs) ->
  exists m', replace_exported_func (ps_m s) fid body = POk (m', nid).
Proof.
  intros V E Hc Hnew.
  destruct (Proofs.TotalityBodies.parsed_lf_log cf ver w s V E) as [Hlog _].
  destruct (declare_total m1) as [m' Hd].
  - intros id fn lf Hg Hk.
    destruct (Proofs.Edit.replace_exported_run _ _ _ _ _ Hc) as (eid & f & lf0 & t & ty & ety & ar & e & R).
    destruct (Proofs.Edit.er_funcs_inv R _ _ Hg) as [Hold|[-> _]].
    + destruct (Hlog id fn lf Hold Hk) as (cx & ety' & l & eloc & _ & Hl). eauto.
    + exact (Hnew fn lf Hg Hk).
  - exists m'. eapply replace_exported_full_ok; eauto.
Qed.

(* the premise in terms of the builder program: the arena it builds can be traversed from the entry sequence *)
Corollary replace_exported_no_panic_from_declare_builder cf ver w s fid body m1 nid :
  Proofs.ParseTotal.valid_stream w -> parseM cf ver w = POk s ->
  replace_exported_func_core (ps_m s) fid body = POk (m1, nid) ->
  (forall f lf0 t m2 ty ety ar, aget (m_funcs (ps_m s)) fid = Some f -> fn_kind f = FK_Local lf0 ->
     types_get (ps_m s) (lf_ty lf0) = Some t -> builder_new (ps_m s) (ty_params t) (ty_results t) = (m2, ty, ety) ->
     run_builder ety (body (lf_args lf0)) = Ok ar ->
     exists evs, lf_log (Proofs.Edit.new_local_func ty (lf_args lf0) ar) = Ok evs) ->
  exists m', replace_exported_func (ps_m s) fid body = POk (m', nid).
Proof.
  intros V E Hc Hb. eapply replace_exported_no_panic_from_declare; eauto.
  intros fn lf Hg Hk.
  destruct (Proofs.Edit.replace_exported_run _ _ _ _ _ Hc) as (eid & f & lf0 & t & ty & ety & ar & e & R).
  destruct (Proofs.Edit.er_funcs_inv R _ _ Hg) as [Hold|[_ ->]].
  - exfalso. apply aget_lt in Hold. rewrite (Proofs.Edit.er_nid R), Nat2N.id in Hold. lia.
  - cbn [fn_kind] in Hk. injection Hk as <-. destruct R. eapply Hb; eauto.
Qed.

(* the premise cannot be dropped: a replacement body that attaches a sequence id it did not create is accepted by
   the core edit (which never looks inside the body) and makes the declare step panic.  (Without that step the same body
   makes the next traversal - e.g. emit - panic instead.) *)
Example x_stream_valid : Proofs.ParseTotal.valid_stream x_stream.
Proof.
  apply Proofs.ParseTotal.valid_from_split; [vm_compute; reflexivity|]. cbn [Proofs.ParseTotal.code_valid x_stream].
  repeat match goal with |- _ /\ _ => split end; try exact I.
  cbn [Proofs.ParseTotal.cstep Proofs.ParseTotal.cstep0 Proofs.ParseTotal.set_last Proofs.ParseTotal.c_nt fold_left
       Proofs.ParseTotal.ctx0 length Nat.add].
  constructor; [exists [], 1%N; split; [reflexivity|exact I]|].
  constructor; [|constructor].
  exists [Model.ParseSpec.RPlain (W_RefFunc 0) 2%N; Model.ParseSpec.RPlain W_Drop 3%N], 4%N. split; [reflexivity|].
  cbn [Proofs.ParseTotal.swfl Proofs.ParseTotal.swf]. repeat split; try (cbn; lia); try (intros f H; vm_compute in H; discriminate H).
Qed.
Theorem replace_exported_no_panic_from_declare_refuted :
  exists w s fid body m1 nid,
    Proofs.ParseTotal.valid_stream w /\ parseM default_config [49%N] w = POk s /\
    replace_exported_func_core (ps_m s) fid body = POk (m1, nid) /\
    replace_exported_func (ps_m s) fid body = PPanic.
Proof.
  exists x_stream.
  destruct (parseM default_config [49%N] x_stream) as [s| |] eqn:E; [|vm_compute in E; discriminate E..].
  assert (Hm : ps_m s = x_parsed) by (unfold x_parsed; rewrite E; reflexivity).
  exists s, 0%N, (fun _ => [BInstr (IBlock 7%N)]),
         (fst (pres_get (x_parsed, 0%N) (replace_exported_func_core x_parsed 0%N (fun _ => [BInstr (IBlock 7%N)])))), 2%N.
  rewrite Hm. split; [exact x_stream_valid|]. split; [reflexivity|]. split; vm_compute; reflexivity.
Qed.

Print Assumptions replace_exported_spec_full.
Print Assumptions parse_then_replace_exported_full.
Print Assumptions replace_exported_declares_all_referenced_partial.
Print Assumptions replace_exported_declares_all_referenced_after_parse.
Print Assumptions replace_exported_declares_all_referenced_refuted.
Print Assumptions core_leaves_undeclared_refuted.
Print Assumptions core_leaves_undeclared_after_parse_refuted.
Print Assumptions replace_exported_no_panic_from_declare.
Print Assumptions replace_exported_no_panic_from_declare_builder.
Print Assumptions replace_exported_no_panic_from_declare_refuted.
