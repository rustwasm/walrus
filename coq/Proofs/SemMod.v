(* C01, whole modules: on the module machine of Model/SemMod.v (the core plus `call` / `call_indirect`) the OUTPUT module - bodies
   in normal form, re-encoded, every index space renumbered, functions reordered, unused locals dropped - behaves exactly as the input
   ([mod_roundtrip_equiv], by induction on the call depth).  The hypotheses speak of the LIVE part of the bodies only.  Frames may differ:
   an operator is blind to the stores it has no index into ([core_op_restore]), so a body ignores the locals it does not mention ([run_body_frames]). *)
From Coq Require Import List NArith ZArith Bool Lia. Import ListNotations.
From WV Require Import Gen.Ops Model.Common Model.IR Model.ParseFn Model.ParseSpec Model.EmitFn
  Model.BodySpec Model.Sem Model.SemCore Model.SemMod.
From WV Require Import Proofs.ParseFn Proofs.Sem Proofs.Fixpoint Proofs.ModFix10 Proofs.SemCore.

Definition is_call (o : wop) : bool := match o with W_Call _ | W_CallIndirect _ _ => true | _ => false end.
Definition is_call_w (w : wins) : bool := match w with WOp o => is_call o | _ => false end.
Definition local_index_of (o : wop) : option N :=
  match o with W_LocalGet i | W_LocalSet i | W_LocalTee i => Some i | _ => None end.
(* the local indices the operators of a body mention (dead code included) *)
Definition locals_used (l : list rt) : list N :=
  flat_map (fun o => match local_index_of o with Some i => [i] | None => [] end) (ops_of l).
(* the indices that a selector [f] finds in the operators of a body *)
Lemma used_in (f : wop -> option N) l o i : In o (ops_of l) -> f o = Some i ->
  In i (flat_map (fun o => match f o with Some i => [i] | None => [] end) (ops_of l)).
Proof. intros Ho Hi. apply in_flat_map. exists o. split; [exact Ho|]. rewrite Hi. left. reflexivity. Qed.
Lemma local_index_of_inv o i : local_index_of o = Some i -> o = W_LocalGet i \/ o = W_LocalSet i \/ o = W_LocalTee i.
Proof.
  intros H. assert (K : match local_index_of o with Some j => o = W_LocalGet j \/ o = W_LocalSet j \/ o = W_LocalTee j | None => True end)
    by (destruct o; try exact I; cbn; auto).
  rewrite H in K. exact K.
Qed.
Definition global_index_of (o : wop) : option N :=
  match o with W_GlobalGet i | W_GlobalSet i => Some i | _ => None end.
Lemma global_index_of_inv o i : global_index_of o = Some i -> o = W_GlobalGet i \/ o = W_GlobalSet i.
Proof.
  intros H. assert (K : match global_index_of o with Some j => o = W_GlobalGet j \/ o = W_GlobalSet j | None => True end)
    by (destruct o; try exact I; cbn; auto).
  rewrite H in K. exact K.
Qed.
Definition memory_index_of (o : wop) : option N :=
  match o with W_MemorySize i | W_MemoryGrow i => Some i | _ => option_map wa_memory (memarg_of o) end.
Definition globals_used (l : list rt) : list N :=
  flat_map (fun o => match global_index_of o with Some i => [i] | None => [] end) (ops_of l).
Definition memories_used (l : list rt) : list N :=
  flat_map (fun o => match memory_index_of o with Some i => [i] | None => [] end) (ops_of l).
(* THE LIVE PART of a body: its normal form (nops and dead code dropped); the hypotheses of the theorem are about the
   operators that occur THERE - what dead code mentions (dropped locals, collected functions, huge offsets) does not matter *)
Definition live (body : list rt) : list rt := fst (nf_rt_list false body).

Lemma is_call_inv o : is_call o = true -> (exists f, o = W_Call f) \/ (exists ti tb, o = W_CallIndirect ti tb).
Proof. destruct o; try discriminate; intros _; [left|right]; eauto. Qed.

(* the generated codec keeps the constructor number ([codec_tag] of Proofs/Codec.v), and with it every class of operators
   that is a set of constructors: being a call, being a bulk-memory operator, ... *)
Lemma is_call_tag o : is_call o = (WV.Proofs.Codec.op_tag o <? 2)%N.
Proof. destruct o; reflexivity. Qed.
Lemma call_codec : forall i2id id2i o p w, decode_plain i2id o = Some p -> encode_plain id2i p = Some w ->
  is_call w = is_call o.
Proof. intros i2id id2i o p w H H0. rewrite !is_call_tag, (WV.Proofs.Codec.codec_tag _ _ _ _ _ H H0). reflexivity. Qed.

Section RenCalls.
  Variable cx : pctx.
  Variable ecx : ectx.
  (* the renumbering of functions / types / tables induced by decode-then-encode *)
  Definition rfn (i : N) : N := ex_id2i ecx S_func (px_i2id cx S_func i).
  Definition rty (i : N) : N := ex_id2i ecx S_type (px_i2id cx S_type i).
  Definition rtb (i : N) : N := ex_id2i ecx S_table (px_i2id cx S_table i).

  (* per constructor, from the generated tables *)
  Lemma nf_op_call f : nf_op cx ecx (W_Call f) = WOp (W_Call (rfn f)).
  Proof. reflexivity. Qed.
  Lemma nf_op_call_indirect ti tb : nf_op cx ecx (W_CallIndirect ti tb) = WOp (W_CallIndirect (rty ti) (rtb tb)).
  Proof. reflexivity. Qed.

  (* an operator that is not a call is not re-encoded as a call *)
  Lemma nf_op_noncall o : is_call o = false -> is_call_w (nf_op cx ecx o) = false.
  Proof.
    intros H. unfold nf_op, dec. destruct (decode_plain (px_i2id cx) o) as [p|] eqn:Hd.
    - destruct (encode_plain (ex_id2i ecx) p) as [w|] eqn:He; [|reflexivity].
      cbn [is_call_w]. rewrite (call_codec _ _ _ _ _ Hd He). exact H.
    - reflexivity.
  Qed.
End RenCalls.

(* the core machine looks at the slot maps only at the indices of the operator *)
Lemma core_op_slots_ext : forall l1 l2 g1 g2 m1 m2 o s,
  (forall i, local_index_of o = Some i -> l1 i = l2 i) ->
  (forall i, global_index_of o = Some i -> g1 i = g2 i) ->
  (forall i, memory_index_of o = Some i -> m1 i = m2 i) ->
  core_op l1 g1 m1 o s = core_op l2 g2 m2 o s.
Proof.
  intros l1 l2 g1 g2 m1 m2 o s Hl Hg Hm.
  destruct o; try reflexivity; cbn [core_op];
    first [ rewrite (Hl _ eq_refl) | rewrite (Hg _ eq_refl) | rewrite (Hm _ eq_refl) ]; reflexivity.
Qed.

(* outside the calls the module machine IS the core machine, lifted *)
Lemma op_sem_noncall : forall E rb cur w s, is_call_w w = false ->
  op_sem E rb cur w s = lift_step (snd s) (core_sem (me_lslot E cur) (me_gslot E) (me_mslot E) w (fst s)).
Proof.
  intros E rb cur w s H. destruct w as [o| | | | | | | | |]; try reflexivity.
  destruct o; try reflexivity; discriminate H.
Qed.

Lemma op_sem_never_falls : forall E rb cur o s, marks_unreachable o = true ->
  exists h s', op_sem E rb cur (WOp o) s = Halt h s'.
Proof. intros E rb cur o s H. destruct (marks_unreachable_inv o H) as [->| ->]; eexists _, _; reflexivity. Qed.

Section RelEval.
  Variable S halt : Type.
  Variable pop_cond : S -> option (bool * S).
  Variable pop_index : S -> option (N * S).
  Variable unwind : N -> S -> S.
  Variable enter : blockty -> S -> S.
  Variable leave : S -> S.
  Variable sem : wins -> S -> step S halt.
  Variable arity loop_arity : blockty -> N.
  Variable R : S -> S -> Prop.
  Variable P : wop -> Prop.

  Definition step_rel (a b : step S halt) : Prop :=
    match a, b with Next s, Next t => R s t | Halt h s, Halt h' t => h = h' /\ R s t | _, _ => False end.
  Definition res_rel (a b : res S halt) : Prop :=
    match a, b with
    | Fall s, Fall t => R s t
    | Br d s, Br d' t => d = d' /\ R s t
    | Stop h s, Stop h' t => h = h' /\ R s t
    | Stuck, Stuck => True
    | Fuel, Fuel => True
    | _, _ => False
    end.
  Definition pop_rel {A} (a b : option (A * S)) : Prop :=
    match a, b with Some (x, s), Some (y, t) => x = y /\ R s t | None, None => True | _, _ => False end.

  Hypothesis H_pc : forall s t, R s t -> pop_rel (pop_cond s) (pop_cond t).
  Hypothesis H_pi : forall s t, R s t -> pop_rel (pop_index s) (pop_index t).
  Hypothesis H_unwind : forall n s t, R s t -> R (unwind n s) (unwind n t).
  Hypothesis H_enter : forall bt s t, R s t -> R (enter bt s) (enter bt t).
  Hypothesis H_leave : forall s t, R s t -> R (leave s) (leave t).
  Hypothesis H_sem : forall o, P o -> forall s t, R s t -> step_rel (sem (WOp o) s) (sem (WOp o) t).

  Notation evt := (evt S halt pop_cond pop_index unwind enter leave sem arity loop_arity).
  Notation evl := (evl S halt pop_cond pop_index unwind enter leave sem arity loop_arity).
  Notation close := (close S halt leave).

  Lemma close_rel r1 r2 f g : res_rel r1 r2 -> (forall s t, R s t -> res_rel (f s) (g t)) ->
    res_rel (close r1 f) (close r2 g).
  Proof.
    intros H Hf.
    destruct r1 as [s|[|d] s|h s| |], r2 as [t|[|d'] t|h' t| |]; cbn [Sem.close res_rel] in *; try contradiction; try exact H.
    - apply H_leave, H.
    - apply Hf, H.
    - destruct H as [H _]. discriminate H.
    - destruct H as [H _]. discriminate H.
    - destruct H as [H HR]. injection H as ->. split; [reflexivity|apply H_leave, HR].
  Qed.

  Section Rerun.
    Variable rr : rt -> S -> res S halt.
    Hypothesis H_rr : forall t s s', (forall o, In o (ops_of_t t) -> P o) -> R s s' -> res_rel (rr t s) (rr t s').

    Definition Qt (t : rt) : Prop := (forall o, In o (ops_of_t t) -> P o) -> forall s s', R s s' -> res_rel (evt rr t s) (evt rr t s').
    Definition Ql (l : list rt) : Prop := (forall o, In o (ops_of l) -> P o) -> forall s s', R s s' -> res_rel (evl rr l s) (evl rr l s').

    Lemma Ql_of_Forall l : Forall Qt l -> Ql l.
    Proof.
      induction 1 as [|t l Ht Hl IH]; intros HP s s' HR; [exact HR|].
      rewrite !evl_cons.
      assert (Hr : res_rel (evt rr t s) (evt rr t s')).
      { apply Ht; [|exact HR]. intros o Ho. apply HP. cbn [ops_of]. apply in_or_app. left. exact Ho. }
      destruct (evt rr t s), (evt rr t s'); cbn [res_rel] in Hr |- *; try contradiction; try exact Hr.
      apply IH; [|exact Hr]. intros o Ho. apply HP. cbn [ops_of]. apply in_or_app. right. exact Ho.
    Qed.

    Lemma Qt_all : forall t, Qt t.
    Proof.
      induction t as [o l|l|d l|d l|ds d l|bt body l e HF|bt body l e HF|bt th el l e HFt HFe] using rt_ind';
        intros HP s s' HR.
      - cbn [Sem.evt]. assert (Hs : step_rel (sem (WOp o) s) (sem (WOp o) s')).
        { apply H_sem; [|exact HR]. apply HP. cbn. auto. }
        destruct (sem (WOp o) s), (sem (WOp o) s'); cbn [step_rel res_rel] in *; try contradiction; exact Hs.
      - exact HR.
      - cbn [Sem.evt res_rel]. split; [reflexivity|exact HR].
      - cbn [Sem.evt]. pose proof (H_pc s s' HR) as Hp.
        destruct (pop_cond s) as [[b1 s1]|], (pop_cond s') as [[b2 s2]|]; cbn [pop_rel] in Hp; try contradiction; [|exact I].
        destruct Hp as [-> Hp]. destruct b2; cbn [res_rel]; [split; [reflexivity|exact Hp]|exact Hp].
      - cbn [Sem.evt]. pose proof (H_pi s s' HR) as Hp.
        destruct (pop_index s) as [[b1 s1]|], (pop_index s') as [[b2 s2]|]; cbn [pop_rel] in Hp; try contradiction; [|exact I].
        destruct Hp as [-> Hp]. cbn [res_rel]. split; [reflexivity|exact Hp].
      - rewrite ops_of_block in HP. rewrite !evt_block. apply close_rel.
        + apply (Ql_of_Forall _ HF HP). apply H_enter, HR.
        + intros s1 t1 H1. cbn [res_rel]. apply H_unwind, H1.
      - pose proof HP as HP'. rewrite ops_of_loop in HP. rewrite !evt_loop. apply close_rel.
        + apply (Ql_of_Forall _ HF HP). apply H_enter, HR.
        + intros s1 t1 H1. apply H_rr; [exact HP'|]. apply H_unwind, H1.
      - rewrite !evt_if. pose proof (H_pc s s' HR) as Hp.
        destruct (pop_cond s) as [[b1 s1]|], (pop_cond s') as [[b2 s2]|]; cbn [pop_rel] in Hp; try contradiction; [|exact I].
        destruct Hp as [-> Hp]. destruct el as [[le eb]|].
        + rewrite ops_of_if_some in HP.
          assert (HPt : forall o, In o (ops_of th) -> P o) by (intros o Ho; apply HP, in_or_app; auto).
          assert (HPe : forall o, In o (ops_of eb) -> P o) by (intros o Ho; apply HP, in_or_app; auto).
          cbn [optP snd] in HFe.
          destruct b2; apply close_rel;
            try (intros s3 t3 H3; cbn [res_rel]; apply H_unwind, H3).
          * apply (Ql_of_Forall _ HFt HPt). apply H_enter, Hp.
          * apply (Ql_of_Forall _ HFe HPe). apply H_enter, Hp.
        + rewrite ops_of_if_none in HP.
          destruct b2; apply close_rel;
            try (intros s3 t3 H3; cbn [res_rel]; apply H_unwind, H3).
          * apply (Ql_of_Forall _ HFt HP). apply H_enter, Hp.
          * cbn [res_rel]. apply H_enter, Hp.
    Qed.
    Lemma Ql_all l : Ql l.
    Proof. apply Ql_of_Forall, Forall_forall. intros t _. apply Qt_all. Qed.
  End Rerun.

  Notation rerun_of := (rerun_of S halt pop_cond pop_index unwind enter leave sem arity loop_arity).
  Lemma rerun_rel fuel : forall t s s', (forall o, In o (ops_of_t t) -> P o) -> R s s' -> res_rel (rerun_of fuel t s) (rerun_of fuel t s').
  Proof.
    induction fuel as [|f IH]; intros t s s' HP HR; [exact I|].
    cbn [Sem.rerun_of].
    replace (eval_t S halt pop_cond pop_index unwind enter leave sem arity loop_arity f t s) with (evt (rerun_of f) t s) by (destruct f; reflexivity).
    replace (eval_t S halt pop_cond pop_index unwind enter leave sem arity loop_arity f t s') with (evt (rerun_of f) t s') by (destruct f; reflexivity).
    apply (Qt_all _ IH t HP s s' HR).
  Qed.

  (* related states give related results *)
  Theorem eval_rel : forall fuel l s s', (forall o, In o (ops_of l) -> P o) -> R s s' ->
    res_rel (eval S halt pop_cond pop_index unwind enter leave sem arity loop_arity fuel l s)
            (eval S halt pop_cond pop_index unwind enter leave sem arity loop_arity fuel l s').
  Proof. intros fuel l s s' HP HR. unfold eval. apply (Ql_all _ (rerun_rel fuel) l HP s s' HR). Qed.
End RelEval.

Definition or_else {A} (o : option A) (d : A) : A := match o with Some x => x | None => d end.
(* [c] with its locals and / or its globals REPLACED by [L] / [G] *)
Definition restore (L G : option (list (N * val))) (c : st) : st :=
  {| stk := stk c; locs := or_else L (locs c); globs := or_else G (globs c);
     labs := labs c; mem := mem c; pages := pages c; max_pages := max_pages c |}.
Definition relocs (L : list (N * val)) (c : st) : st := with_locs c (stk c) L.
Definition step_map {S} (f : S -> S) (r : step S halt) : step S halt :=
  match r with Next c => Next (f c) | Halt h c => Halt h (f c) end.
Lemma relocs_self c : relocs (locs c) c = c.
Proof. destruct c; reflexivity. Qed.

(* a step function that neither looks at the replaced stores nor changes them *)
Definition blind (L G : option (list (N * val))) (f : st -> step st halt) : Prop :=
  forall c, f (restore L G c) = step_map (restore L G) (f c).
Definition locs_blind (f : st -> step st halt) : Prop := forall L c, f (relocs L c) = step_map (relocs L) (f c).
(* by cases on the shape of the operand stack *)
Ltac blind :=
  intros [k lo gl la me pg mx];
  unfold bin32, bin64, div32, div64, divs32_op, divs64_op, un32, un64, cmp64, mem_load, mem_store, mem_size, mem_grow,
    local_get, local_set, local_tee, global_get, global_set, push, trap, wrong, in_bounds, restore;
  cbn [stk locs globs labs mem pages max_pages with_stk with_locs with_globs with_mem with_pages step_map or_else];
  repeat match goal with |- context [match ?x with _ => _ end] => destruct x end; reflexivity.
Lemma push_blind v L G : blind L G (push v). Proof. blind. Qed.
Lemma bin32_blind f L G : blind L G (bin32 f). Proof. blind. Qed.
Lemma bin64_blind f L G : blind L G (bin64 f). Proof. blind. Qed.
Lemma un32_blind f L G : blind L G (un32 f). Proof. blind. Qed.
Lemma un64_blind f L G : blind L G (un64 f). Proof. blind. Qed.
Lemma div32_blind f L G : blind L G (div32 f). Proof. blind. Qed.
Lemma div64_blind f L G : blind L G (div64 f). Proof. blind. Qed.
Lemma divs32_blind L G : blind L G divs32_op. Proof. blind. Qed.
Lemma divs64_blind L G : blind L G divs64_op. Proof. blind. Qed.
Lemma cmp64_blind f L G : blind L G (cmp64 f). Proof. blind. Qed.
Lemma mem_load_blind mi off w post L G : blind L G (mem_load mi off w post). Proof. blind. Qed.
Lemma mem_store_blind mi off w is64 L G : blind L G (mem_store mi off w is64). Proof. blind. Qed.
Lemma mem_size_blind mi L G : blind L G (mem_size mi). Proof. blind. Qed.
Lemma mem_grow_blind mi L G : blind L G (mem_grow mi). Proof. blind. Qed.
(* the operators on one store are blind to the other *)
Lemma local_get_blind i G : blind None G (local_get i). Proof. blind. Qed.
Lemma local_set_blind i G : blind None G (local_set i). Proof. blind. Qed.
Lemma local_tee_blind i G : blind None G (local_tee i). Proof. blind. Qed.
Lemma global_get_blind i L : blind L None (global_get i). Proof. blind. Qed.
Lemma global_set_blind i L : blind L None (global_set i). Proof. blind. Qed.

(* THE FRAME PROPERTY of the core machine: an operator is blind to the stores it has no index into.  The 98 operators are
   instances of the shapes above (or an inline match on the stack); outside the core everything goes wrong *)
Lemma core_op_restore l g m o L G : local_index_of o = None \/ L = None -> global_index_of o = None \/ G = None ->
  blind L G (core_op l g m o).
Proof.
  destruct (is_core_shape o) eqn:Hc.
  - revert o Hc L G.
    apply (core_cases (fun o => forall L G, local_index_of o = None \/ L = None -> global_index_of o = None \/ G = None ->
                                 blind L G (core_op l g m o))).
    + intros z L G _ _. apply push_blind.
    + intros z L G _ _. apply push_blind.
    + intros i L G [H| ->] _; [discriminate H|apply local_get_blind].
    + intros i L G [H| ->] _; [discriminate H|apply local_set_blind].
    + intros i L G [H| ->] _; [discriminate H|apply local_tee_blind].
    + intros i L G _ [H| ->]; [discriminate H|apply global_get_blind].
    + intros i L G _ [H| ->]; [discriminate H|apply global_set_blind].
    + intros i L G _ _. apply mem_size_blind.
    + intros i L G _ _. apply mem_grow_blind.
    + each_core_op; intros a L G _ _; first [apply mem_load_blind | apply mem_store_blind].
    + each_core_op; intros L G _ _ c; cbn [core_op];
        first [ apply bin32_blind | apply bin64_blind | apply un32_blind | apply un64_blind | apply div32_blind | apply div64_blind
              | apply divs32_blind | apply divs64_blind | apply cmp64_blind | revert c; blind ].
  - intros _ _ c. pose proof (noncore_wrong l g m o) as Hw. cbn [core_sem] in Hw. rewrite !Hw by exact Hc. reflexivity.
Qed.

(* [relocs L c] is [restore (Some L) None c] by conversion: the [*_restore] lemmas, stated with [restore] and taken at
   [(Some L) None], close the goals stated with [relocs] ([locs_blind], the premises of [lift_*_rel_in]) *)
Lemma core_op_relocs l g m o : local_index_of o = None -> locs_blind (core_op l g m o).
Proof. intros H L. exact (core_op_restore l g m o (Some L) None (or_introl H) (or_intror eq_refl)). Qed.

Definition agree (U : list N) (L1 L2 : list (N * val)) : Prop := forall k, In k U -> alookup k L1 = alookup k L2.

Lemma aset_spec k v : forall L,
  match aset k v L with
  | Some L2 => (exists v0, alookup k L = Some v0 /\ same_ty v v0 = true) /\
               forall k', alookup k' L2 = if (k' =? k)%N then Some v else alookup k' L
  | None => match alookup k L with Some v0 => same_ty v v0 = false | None => True end
  end.
Proof.
  induction L as [|[k1 v1] L IH]; [exact I|].
  cbn [aset alookup]. destruct (N.eqb_spec k k1) as [->|Hne].
  - destruct (same_ty v v1) eqn:Et; [|reflexivity]. split; [exists v1; split; [reflexivity|exact Et]|].
    intros k'. cbn [alookup]. destruct (k' =? k1)%N; reflexivity.
  - destruct (aset k v L) as [L2|].
    + destruct IH as [Hex Hk]. split; [exact Hex|]. intros k'. cbn [alookup]. rewrite Hk.
      destruct (N.eqb_spec k' k1) as [->|Hne']; [|reflexivity].
      destruct (N.eqb_spec k1 k) as [E|_]; [congruence|reflexivity].
    + exact IH.
Qed.

(* on agreeing locals, setting an agreed slot succeeds on both sides or on neither, and the results agree *)
Lemma aset_agree U k v L1 L2 : agree U L1 L2 -> In k U ->
  match aset k v L1, aset k v L2 with
  | Some A1, Some A2 => agree U A1 A2
  | None, None => True
  | _, _ => False
  end.
Proof.
  intros Ha Hk. pose proof (aset_spec k v L1) as H1. pose proof (aset_spec k v L2) as H2.
  rewrite <- (Ha k Hk) in H2.
  destruct (aset k v L1) as [A1|], (aset k v L2) as [A2|].
  - intros k' Hk'. rewrite (proj2 H1 k'), (proj2 H2 k'), (Ha k' Hk'). reflexivity.
  - destruct H1 as [(v0 & E & Et) _]. rewrite E in H2. congruence.
  - destruct H2 as [(v0 & E & Et) _]. rewrite E in H1. congruence.
  - exact I.
Qed.

Section LocsRel.
  Variable U : list N.     (* the slots on which the two frames agree *)
  (* same state but for the locals, which agree on [U] *)
  Definition Rst (c1 c2 : st) : Prop := exists L, c2 = relocs L c1 /\ agree U (locs c1) L.

  Lemma Rst_refl c : Rst c c.
  Proof. exists (locs c). split; [symmetry; apply relocs_self|intros k _; reflexivity]. Qed.

  Lemma core_op_rel : forall l g m o c1 c2, (forall i, local_index_of o = Some i -> In (l i) U) -> Rst c1 c2 ->
    step_rel st halt Rst (core_op l g m o c1) (core_op l g m o c2).
  Proof.
    intros l g m o c1 c2 HU (L & -> & Ha). destruct (local_index_of o) as [i|] eqn:Ei.
    - specialize (HU i eq_refl).
      destruct (local_index_of_inv o i Ei) as [-> |[-> | ->]]; cbn [core_op]; destruct c1 as [k lo gl la me pg mx];
        unfold local_get, local_set, local_tee, relocs, push, wrong; cbn [stk locs with_locs with_stk] in *.
      { rewrite <- (Ha _ HU). destruct (alookup (l i) lo) as [v|]; cbn [step_rel].
        - eexists. split; [reflexivity|exact Ha].
        - split; [reflexivity|]. eexists. split; [reflexivity|exact Ha]. }
      (* local.set and local.tee alike *)
      all: destruct k as [|v k]; cbn [step_rel]; [split; [reflexivity|]; eexists; split; [reflexivity|exact Ha]|].
      all: pose proof (aset_agree U (l i) v lo L Ha HU) as Hs.
      all: destruct (aset (l i) v lo) as [A1|], (aset (l i) v L) as [A2|]; try contradiction; cbn [step_rel].
      1,3: exists A2; split; [reflexivity|exact Hs].
      all: split; [reflexivity|]; eexists; split; [reflexivity|exact Ha].
    - rewrite (core_op_relocs l g m o Ei L c1).
      pose proof (core_op_relocs l g m o Ei (locs c1) c1) as Hself. rewrite relocs_self in Hself.
      destruct (core_op l g m o c1) as [c'|h c']; cbn [step_map step_rel] in *.
      + exists L. split; [reflexivity|]. injection Hself as Hself. rewrite Hself. exact Ha.
      + split; [reflexivity|]. exists L. split; [reflexivity|]. injection Hself as Hself. rewrite Hself. exact Ha.
  Qed.
End LocsRel.

(* the hooks are blind to both stores ([enter] and [leave] by computation) *)
Lemma pop_cond_restore L G c : pop_cond (restore L G c) = match pop_cond c with Some (b, c') => Some (b, restore L G c') | None => None end.
Proof. destruct c as [k lo gl la me pg mx]. unfold pop_cond, restore. cbn [stk]. destruct k as [|[n|n] k]; reflexivity. Qed.
Lemma pop_index_restore L G c : pop_index (restore L G c) = match pop_index c with Some (b, c') => Some (b, restore L G c') | None => None end.
Proof. destruct c as [k lo gl la me pg mx]. unfold pop_index, restore. cbn [stk]. destruct k as [|[n|n] k]; reflexivity. Qed.
Lemma unwind_restore L G n c : unwind n (restore L G c) = restore L G (unwind n c).
Proof. destruct c as [k lo gl la me pg mx]. unfold unwind, restore. cbn [stk labs]. destruct la; reflexivity. Qed.

(* The module machine and the bulk-memory machine of Model/SemBulk.v run on a state that HOLDS a core state: [core] reads
   it, [put] replaces it, [exhaust] sets the flag "call depth or loop fuel ran out".  [gcall_fn] / [gcall_ind] are the calls
   of such a machine; what the theorem needs of calls and of the locals is proved here, once for both machines. *)

Record lens (S : Type) := {
  core : S -> st; put : S -> st -> S; exhaust : S -> S;
  core_put : forall s c, core (put s c) = c;
  put_put : forall s c c', put (put s c) c' = put s c';
  put_core : forall s, put s (core s) = s;
  core_exhaust : forall s, core (exhaust s) = core s;
  exhaust_put : forall s c, exhaust (put s c) = put (exhaust s) c }.
Arguments core {S}. Arguments put {S}. Arguments exhaust {S}.

Definition lens_m : lens mst :=
  {| core := fst; put := fun s c => (c, snd s); exhaust := fun s => (fst s, true);
     core_put := fun _ _ => eq_refl; put_put := fun _ _ _ => eq_refl;
     put_core := fun s => match s with (c, b) => eq_refl end;
     core_exhaust := fun _ => eq_refl; exhaust_put := fun _ _ => eq_refl |}.

(* what call_indirect resolves to on an operand stack: a halt, or the identity of the callee and the rest of the stack *)
Definition ind_target (E : menv) (ti tb : N) (stack : list val) : halt + N * list val :=
  if (me_tslot E tb =? 0)%N then
    match stack with
    | VI32 i :: k =>
        match nth_optN i (me_tbl E) with
        | Some (Some id) =>
            match me_funcs E id with
            | None => inl Wrong
            | Some (tj, _, _) =>
                match me_tys E ti, me_tys E tj with
                | Some (ps, rs), Some (ps', rs') => if vlist_eqb ps ps' && vlist_eqb rs rs' then inr (id, k) else inl Trap
                | _, _ => inl Wrong
                end
            end
        | _ => inl Trap
        end
    | _ => inl Wrong
    end
  else inl Wrong.

(* suffix [_in]: a notion about core states, carried to the states [S] of a machine through the lens [X];
   prefix [g] ([gcall_fn], [gcall_ind], [gfinish]): the [call_fn] / [call_ind] / [finish] of Model/SemMod.v, for any such machine *)
Section Machine.
  Variable S : Type.
  Variable X : lens S.
  Notation core := (core X). Notation put := (put X).

  Definition relocs_in (L : list (N * val)) (s : S) : S := put s (relocs L (core s)).
  Definition blind_in (f : S -> step S halt) : Prop := forall L s, f (relocs_in L s) = step_map (relocs_in L) (f s).
  Definition lift_in (f : st -> st) (s : S) : S := put s (f (core s)).
  Definition lift_pop_in {A} (f : st -> option (A * st)) (s : S) : option (A * S) :=
    match f (core s) with Some (a, c) => Some (a, put s c) | None => None end.
  Definition lift_step_in (s : S) (r : step st halt) : step S halt :=
    match r with Next c => Next (put s c) | Halt h c => Halt h (put s c) end.

  Lemma core_relocs_in L s : core (relocs_in L s) = relocs L (core s).
  Proof. apply core_put. Qed.
  Lemma put_relocs_in L s c : put (relocs_in L s) c = put s c.
  Proof. apply put_put. Qed.
  Lemma relocs_in_put L s c : relocs_in L (put s c) = put s (relocs L c).
  Proof. unfold relocs_in. rewrite core_put. apply put_put. Qed.
  Lemma relocs_in_self s : relocs_in (locs (core s)) s = s.
  Proof. unfold relocs_in. rewrite relocs_self. apply put_core. Qed.

  (* a step on the core state that is blind to the locals, lifted *)
  Lemma lift_step_blind g : locs_blind g -> blind_in (fun s => lift_step_in s (g (core s))).
  Proof.
    intros Hg L s. rewrite core_relocs_in, Hg. destruct (g (core s)) as [c|h c]; cbn [step_map lift_step_in step_map];
      rewrite put_relocs_in, relocs_in_put; reflexivity.
  Qed.

  Section GCall.
    Variable E : menv.
    Variable rb : N -> list rt -> S -> res S halt.
    Definition gfinish (s : S) (n : nat) (rs : list valty) (s' : S) : step S halt :=
      let res := firstn (length rs) (stk (core s')) in
      if all_ty rs (rev res) then Next (put s' (back (core s) (res ++ skipn n (stk (core s))) (core s'))) else Halt Wrong s.
    Definition gafter (s : S) (n : nat) (rs : list valty) (r : res S halt) : step S halt :=
      match r with
      | Fall s' => gfinish s n rs s'
      | Br O s' => gfinish s n rs s'
      | Stop Return s' => gfinish s n rs s'
      | Stop Trap s' => Halt Trap (put s' (back (core s) (stk (core s)) (core s')))
      | Fuel => Halt Trap (exhaust X s)
      | _ => Halt Wrong s
      end.
    Definition gcall_fn (id : N) (s : S) : step S halt :=
      match me_funcs E id with
      | None => Halt Wrong s
      | Some (ti, ls, body) =>
          match me_tys E ti with
          | None => Halt Wrong s
          | Some (ps, rs) =>
              let args := rev (firstn (length ps) (stk (core s))) in
              if all_ty ps args then
                gafter s (length ps) rs (rb id body (put s (callee_st (core s) (mk_frame (me_lslot E id) args ls))))
              else Halt Wrong s
          end
      end.
    Definition gcall_ind (ti tb : N) (s : S) : step S halt :=
      match ind_target E ti tb (stk (core s)) with
      | inl h => Halt h s
      | inr (id, k) => gcall_fn id (put s (with_stk (core s) k))
      end.

    Lemma gafter_blind s n rs r : forall L, gafter (relocs_in L s) n rs r = step_map (relocs_in L) (gafter s n rs r).
    Proof.
      intros L.
      assert (Hfin : forall s', gfinish (relocs_in L s) n rs s' = step_map (relocs_in L) (gfinish s n rs s')).
      { intros s'. unfold gfinish. rewrite core_relocs_in. cbv zeta. change (stk (relocs L (core s))) with (stk (core s)).
        destruct (all_ty rs _); cbn [step_map]; [rewrite relocs_in_put|]; reflexivity. }
      destruct r as [s'|[|d] s'|[| |] s'| |]; cbn [gafter step_map]; try apply Hfin; try reflexivity.
      - rewrite core_relocs_in, relocs_in_put. reflexivity.
      - unfold relocs_in at 2. rewrite core_exhaust, <- exhaust_put. reflexivity.
    Qed.

    Lemma gcall_fn_blind id : blind_in (gcall_fn id).
    Proof.
      intros L s. unfold gcall_fn. rewrite core_relocs_in. change (stk (relocs L (core s))) with (stk (core s)).
      destruct (me_funcs E id) as [[[ti ls] body]|]; [|reflexivity].
      destruct (me_tys E ti) as [[ps rs]|]; [|reflexivity].
      cbv zeta. destruct (all_ty ps _); [|reflexivity].
      rewrite put_relocs_in. apply gafter_blind.
    Qed.

    Lemma gcall_ind_blind ti tb : blind_in (gcall_ind ti tb).
    Proof.
      intros L s. unfold gcall_ind. rewrite core_relocs_in. change (stk (relocs L (core s))) with (stk (core s)).
      destruct (ind_target E ti tb (stk (core s))) as [h|[id k]]; [reflexivity|].
      rewrite put_relocs_in. change (with_stk (relocs L (core s)) k) with (relocs L (with_stk (core s) k)).
      rewrite <- relocs_in_put. apply gcall_fn_blind.
    Qed.
  End GCall.

  (* a call looks at the runner of the callees only on the functions of the environment *)
  Lemma gcall_fn_ext E rb rb' : (forall id ti ls body s, me_funcs E id = Some (ti, ls, body) -> rb' id body s = rb id body s) ->
    forall id s, gcall_fn E rb' id s = gcall_fn E rb id s.
  Proof.
    intros H id s. unfold gcall_fn. destruct (me_funcs E id) as [[[ti ls] body]|] eqn:Ef; [|reflexivity].
    destruct (me_tys E ti) as [[ps rs]|]; [|reflexivity]. rewrite (H id ti ls body _ Ef). reflexivity.
  Qed.
  Lemma gcall_ind_ext E rb rb' : (forall id ti ls body s, me_funcs E id = Some (ti, ls, body) -> rb' id body s = rb id body s) ->
    forall ti tb s, gcall_ind E rb' ti tb s = gcall_ind E rb ti tb s.
  Proof.
    intros H ti tb s. unfold gcall_ind. destruct (ind_target E ti tb (stk (core s))) as [h|[id k]]; [reflexivity|].
    apply (gcall_fn_ext E rb rb' H).
  Qed.

  Section Rel.
    Variable U : list N.
    (* [Rst] between the core states, the rest of the state the same; [Rm] is [Rs] on the module machine *)
    Definition Rs (s t : S) : Prop := exists L, t = relocs_in L s /\ agree U (locs (core s)) L.

    Lemma blind_rel f : blind_in f -> forall s t, Rs s t -> step_rel S halt Rs (f s) (f t).
    Proof.
      intros Hf s t (L & -> & Ha). rewrite Hf. pose proof (Hf (locs (core s)) s) as Hself. rewrite relocs_in_self in Hself.
      assert (Hk : forall s', s' = relocs_in (locs (core s)) s' -> Rs s' (relocs_in L s')).
      { intros s' H. exists L. split; [reflexivity|]. rewrite H, core_relocs_in. exact Ha. }
      destruct (f s) as [s'|h s']; cbn [step_map step_rel] in *; injection Hself as Hself; [|split; [reflexivity|]]; apply Hk, Hself.
    Qed.

    (* a function of the core state that commutes with replacing the locals keeps them *)
    Lemma lift_rel_in (f : st -> st) : (forall L c, f (relocs L c) = relocs L (f c)) ->
      forall s t, Rs s t -> Rs (lift_in f s) (lift_in f t).
    Proof.
      intros Hf s t (L & -> & Ha). exists L. unfold lift_in.
      pose proof (Hf (locs (core s)) (core s)) as Hk. rewrite relocs_self in Hk.
      rewrite core_relocs_in, put_relocs_in, Hf, relocs_in_put, core_put, Hk. split; [reflexivity|exact Ha].
    Qed.
    Lemma lift_pop_rel_in {A} (f : st -> option (A * st)) :
      (forall L c, f (relocs L c) = match f c with Some (a, c') => Some (a, relocs L c') | None => None end) ->
      forall s t, Rs s t -> pop_rel S Rs (lift_pop_in f s) (lift_pop_in f t).
    Proof.
      intros Hf s t (L & -> & Ha). unfold lift_pop_in. rewrite core_relocs_in, Hf.
      pose proof (Hf (locs (core s)) (core s)) as Hk. rewrite relocs_self in Hk.
      destruct (f (core s)) as [[a c']|]; cbn [pop_rel]; [|exact I]. injection Hk as Hk.
      split; [reflexivity|]. exists L. rewrite put_relocs_in, relocs_in_put, core_put, Hk. split; [reflexivity|exact Ha].
    Qed.
    (* a step on the core state that respects the relation of the core states, lifted *)
    Lemma lift_step_rel (g : st -> step st halt) :
      (forall c1 c2, Rst U c1 c2 -> step_rel st halt (Rst U) (g c1) (g c2)) ->
      forall s t, Rs s t -> step_rel S halt Rs (lift_step_in s (g (core s))) (lift_step_in t (g (core t))).
    Proof.
      intros Hg s t (L & -> & Ha). rewrite core_relocs_in.
      pose proof (Hg (core s) (relocs L (core s)) (ex_intro _ L (conj eq_refl Ha))) as Hs.
      destruct (g (core s)) as [c1|h1 c1], (g (relocs L (core s))) as [c2|h2 c2]; cbn [step_rel lift_step_in] in *; try contradiction.
      - destruct Hs as (L2 & -> & Ha2). exists L2. rewrite put_relocs_in, relocs_in_put, core_put. split; [reflexivity|exact Ha2].
      - destruct Hs as [-> (L2 & -> & Ha2)]. split; [reflexivity|]. exists L2. rewrite put_relocs_in, relocs_in_put, core_put. split; [reflexivity|exact Ha2].
    Qed.

    (* related results of a callee are indistinguishable for the caller *)
    Lemma gafter_rel s n rs r1 r2 : res_rel S halt Rs r1 r2 -> gafter s n rs r1 = gafter s n rs r2.
    Proof.
      intros H.
      assert (Hfin : forall s1 s2, Rs s1 s2 -> gfinish s n rs s1 = gfinish s n rs s2 /\
                       put s1 (back (core s) (stk (core s)) (core s1)) = put s2 (back (core s) (stk (core s)) (core s2))).
      { intros s1 s2 (L & -> & _). unfold gfinish. rewrite core_relocs_in, !put_relocs_in. split; reflexivity. }
      destruct r1 as [s1|d1 s1|h1 s1| |], r2 as [s2|d2 s2|h2 s2| |]; cbn [res_rel] in H; try contradiction; try reflexivity.
      - apply Hfin, H.
      - destruct H as [<- H]. destruct d1; cbn [gafter]; [apply Hfin, H|reflexivity].
      - destruct H as [<- H]. destruct h1; cbn [gafter]; try reflexivity.
        + rewrite (proj2 (Hfin _ _ H)). reflexivity.
        + apply Hfin, H.
    Qed.
  End Rel.
End Machine.

(* the module machine is the instance [lens_m] *)
Lemma call_fn_g E rb id s : call_fn E rb id s = gcall_fn mst lens_m E rb id s.
Proof.
  unfold call_fn, gcall_fn. cbn [core put lens_m].
  destruct (me_funcs E id) as [[[ti ls] body]|]; [|reflexivity].
  destruct (me_tys E ti) as [[ps rs]|]; [|reflexivity].
  cbv zeta. destruct (all_ty ps _); [|reflexivity].
  destruct (rb id body _) as [[c b]|[|d] [c b]|[| |] [c b]| |]; reflexivity.
Qed.
Lemma call_ind_g E rb ti tb s : call_ind E rb ti tb s = gcall_ind mst lens_m E rb ti tb s.
Proof.
  unfold call_ind, gcall_ind, ind_target. cbn [core put lens_m].
  destruct (me_tslot E tb =? 0)%N; [|reflexivity].
  destruct (stk (fst s)) as [|[i|i] k]; try reflexivity.
  destruct (nth_optN i (me_tbl E)) as [[id|]|]; try reflexivity.
  destruct (me_funcs E id) as [[[tj ls] body]|]; [|reflexivity].
  destruct (me_tys E ti) as [[ps rs]|]; [|reflexivity].
  destruct (me_tys E tj) as [[ps' rs']|]; [|reflexivity].
  destruct (vlist_eqb ps ps' && vlist_eqb rs rs'); [|reflexivity].
  apply call_fn_g.
Qed.
Definition Rm (U : list N) : mst -> mst -> Prop := Rs mst lens_m U.

Section ModRel.
  Variable E : menv.
  Variable rb : N -> list rt -> mst -> res mst halt.
  Variable U : list N.

  Lemma op_sem_rel : forall cur o s t, (forall i, local_index_of o = Some i -> In (me_lslot E cur i) U) -> Rm U s t ->
    step_rel mst halt (Rm U) (op_sem E rb cur (WOp o) s) (op_sem E rb cur (WOp o) t).
  Proof.
    intros cur o s t HU HR. destruct (is_call o) eqn:Hc.
    - destruct (is_call_inv o Hc) as [[f ->]|(ti & tb & ->)]; cbn [op_sem]; revert s t HR; apply blind_rel; intros L s.
      + rewrite !call_fn_g. apply gcall_fn_blind.
      + rewrite !call_ind_g. apply gcall_ind_blind.
    - rewrite !(op_sem_noncall E rb cur (WOp o)) by exact Hc.
      apply (lift_step_rel mst lens_m U (core_op (me_lslot E cur) (me_gslot E) (me_mslot E) o)); [|exact HR].
      intros c1 c2. apply core_op_rel, HU.
  Qed.
End ModRel.

(* THE FRAME LEMMA: a body run on two frames that agree on the slots of the locals it mentions gives related results *)
Theorem run_body_frames : forall E fuel k id body U c F1 F2 b,
  (forall i, In i (locals_used body) -> In (me_lslot E id i) U) -> agree U F1 F2 ->
  res_rel mst halt (Rm U) (run_body E fuel k id body (callee_st c F1, b)) (run_body E fuel k id body (callee_st c F2, b)).
Proof.
  intros E fuel k id body U c F1 F2 b HU Ha. destruct k as [|k]; [exact I|].
  cbn [run_body].
  apply (eval_rel mst halt pop_cond_m pop_index_m unwind_m (enter_m (me_tys E)) leave_m
           (op_sem E (run_body E fuel k) id) (arity (me_tys E)) (loop_arity (me_tys E)) (Rm U)
           (fun o => forall i, local_index_of o = Some i -> In (me_lslot E id i) U)).
  - apply (lift_pop_rel_in mst lens_m U pop_cond). intros L. apply (pop_cond_restore (Some L) None).
  - apply (lift_pop_rel_in mst lens_m U pop_index). intros L. apply (pop_index_restore (Some L) None).
  - intros n. apply (lift_rel_in mst lens_m U (unwind n)). intros L. apply (unwind_restore (Some L) None).
  - intros bt. apply (lift_rel_in mst lens_m U (enter (me_tys E) bt)). reflexivity.
  - apply (lift_rel_in mst lens_m U leave). reflexivity.
  - intros o Ho s t HR. apply op_sem_rel; assumption.
  - intros o Ho i Hi. apply HU. exact (used_in local_index_of body o i Ho Hi).
  - exists F2. split; [reflexivity|exact Ha].
Qed.

(* the output body of a function *)
Definition out_body (cx : pctx) (ecx : ectx) (body : list rt) : list rt :=
  map (ren_t cx ecx) (fst (nf_rt_list false body)).

(* a body and its live part do the same (in one environment: [nf_equiv] with the identity renaming) *)
Lemma run_body_live : forall E fuel k id body s, run_body E fuel k id (live body) s = run_body E fuel k id body s.
Proof.
  intros E fuel k id body s. destruct k as [|k]; [reflexivity|]. cbn [run_body]. unfold live.
  apply nf_equiv; try reflexivity. intros o s0 Hu. apply op_sem_never_falls, Hu.
Qed.

Section Roundtrip.
  Variable E E' : menv.                  (* the input / the output module *)
  Variable cxo : N -> pctx.              (* the parse / emit context of each function (by identity) *)
  Variable ecxo : N -> ectx.

  (* what is asked of a function [id] with body [body] of the input module: everything is about the indices and the
     operators that OCCUR in the live part of the body *)
  Record fn_ok (id : N) (body : list rt) : Prop := {
    (* the slot maps compensate the renumberings *)
    ok_lslot : forall i, In i (locals_used (live body)) -> me_lslot E' id (rl (cxo id) (ecxo id) i) = me_lslot E id i;
    ok_gslot : forall i, In i (globals_used (live body)) -> me_gslot E' (rg (cxo id) (ecxo id) i) = me_gslot E i;
    ok_mslot : forall i, In i (memories_used (live body)) -> me_mslot E' (rm (cxo id) (ecxo id) i) = me_mslot E i;
    ok_fslot : forall f, In (W_Call f) (ops_of (live body)) -> me_fslot E' (rfn (cxo id) (ecxo id) f) = me_fslot E f;
    (* call_indirect: the table slot; the signature at the type index is preserved structurally *)
    ok_tslot : forall ti tb, In (W_CallIndirect ti tb) (ops_of (live body)) -> me_tslot E' (rtb (cxo id) (ecxo id) tb) = me_tslot E tb;
    ok_rty : forall ti tb, In (W_CallIndirect ti tb) (ops_of (live body)) -> me_tys E' (rty (cxo id) (ecxo id) ti) = me_tys E ti;
    (* block types: the hypotheses of [core_roundtrip_equiv_tys] *)
    ok_tys : forall i, me_tys E i = bt_tys (cxo id) (BT_Func i);
    ok_existing : forall i ps rs, me_tys E i = Some (ps, rs) -> existing (cxo id) ps rs <> None;
    ok_tys' : forall ps rs ty, find_type (cxo id) ps rs = Some ty -> me_tys E' (ex_id2i (ecxo id) S_type ty) = Some (ps, rs);
    (* the memory immediates survive (32-bit offsets), the operators are decodable *)
    ok_offset : forall o, In o (ops_of (live body)) -> offset_ok o = true;
    ok_dec : forall o, In o (ops_of (live body)) -> decode_plain (px_i2id (cxo id)) o <> None
  }.

  (* THE FRAMES: for well-typed arguments, the frame the output module builds (its declared locals [ls'], its slot map)
     and the frame the input module builds agree ON THE SLOTS OF THE LOCALS THE LIVE PART OF THE INPUT BODY MENTIONS;
     locals the output drops or reorders are fine *)
  Definition frames_agree (id ti : N) (ls ls' : list valty) (body : list rt) : Prop :=
    forall ps rs args, me_tys E ti = Some (ps, rs) -> all_ty ps args = true ->
      agree (map (me_lslot E id) (locals_used (live body)))
            (mk_frame (me_lslot E' id) args ls') (mk_frame (me_lslot E id) args ls).

  (* the functions of the output module: same identities; body = the output body; a type index with the same
     signature; declared locals giving agreeing frames *)
  Definition funcs_ok : Prop := forall id,
    match me_funcs E id with
    | None => me_funcs E' id = None
    | Some (ti, ls, body) =>
        fn_ok id body /\
        exists ti' ls', me_funcs E' id = Some (ti', ls', out_body (cxo id) (ecxo id) body) /\
                        me_tys E' ti' = me_tys E ti /\
                        frames_agree id ti ls ls' body
    end.

  Hypothesis H_funcs : funcs_ok.
  Hypothesis H_tbl : me_tbl E' = me_tbl E.

  (* the output module's call_indirect resolves as the input module's *)
  Lemma ind_target_equiv : forall id body ti tb stack, fn_ok id body -> In (W_CallIndirect ti tb) (ops_of (live body)) ->
    ind_target E' (rty (cxo id) (ecxo id) ti) (rtb (cxo id) (ecxo id) tb) stack = ind_target E ti tb stack.
  Proof.
    intros id body ti tb stack Hok Ho. unfold ind_target.
    rewrite (ok_tslot _ _ Hok ti tb Ho), H_tbl, (ok_rty _ _ Hok ti tb Ho).
    destruct (me_tslot E tb =? 0)%N; [|reflexivity].
    destruct stack as [|[i|i] k]; try reflexivity.
    destruct (nth_optN i (me_tbl E)) as [[id2|]|]; try reflexivity.
    pose proof (H_funcs id2) as Hf.
    destruct (me_funcs E id2) as [[[tj ls] body2]|]; [|rewrite Hf; reflexivity].
    destruct Hf as (_ & ti' & ls' & -> & -> & _). reflexivity.
  Qed.

  (* one call level further down, on any machine: *)
  Section Depth.
    Variable S : Type.
    Variable X : lens S.
    Variable rb rb' : N -> list rt -> S -> res S halt.
    (* the output bodies do what the input bodies do, ... *)
    Hypothesis H_rb : forall id ti ls body s, me_funcs E id = Some (ti, ls, body) ->
      rb' id (out_body (cxo id) (ecxo id) body) s = rb id body s.
    (* ... the input bodies do what their live parts do, ... *)
    Hypothesis H_live : forall id body s, rb id (live body) s = rb id body s.
    (* ... and no body depends on the slots it does not mention *)
    Hypothesis H_fr : forall id body U s c F1 F2,
      (forall i, In i (locals_used body) -> In (me_lslot E id i) U) -> agree U F1 F2 ->
      res_rel S halt (Rs S X U) (rb id body (put X s (callee_st c F1))) (rb id body (put X s (callee_st c F2))).

    Lemma gcall_fn_equiv : forall id s, gcall_fn S X E' rb' id s = gcall_fn S X E rb id s.
    Proof.
      intros id s. unfold gcall_fn. pose proof (H_funcs id) as Hf.
      destruct (me_funcs E id) as [[[ti ls] body]|] eqn:Ef; [|rewrite Hf; reflexivity].
      destruct Hf as (_ & ti' & ls' & Ef' & Hty & Hfr). rewrite Ef', Hty.
      destruct (me_tys E ti) as [[ps rs]|] eqn:Ety; [|reflexivity].
      cbv zeta. destruct (all_ty ps (rev (firstn (length ps) (stk (core X s))))) eqn:Hargs; [|reflexivity].
      rewrite (H_rb id ti ls body _ Ef), <- !(H_live id body).
      apply (gafter_rel S X (map (me_lslot E id) (locals_used (live body)))). apply H_fr.
      - intros i Hi. apply in_map, Hi.
      - apply (Hfr ps rs); [exact Ety|exact Hargs].
    Qed.

    Lemma gcall_ind_equiv : forall id body ti tb s, fn_ok id body -> In (W_CallIndirect ti tb) (ops_of (live body)) ->
      gcall_ind S X E' rb' (rty (cxo id) (ecxo id) ti) (rtb (cxo id) (ecxo id) tb) s = gcall_ind S X E rb ti tb s.
    Proof.
      intros id body ti tb s Hok Ho. unfold gcall_ind. rewrite (ind_target_equiv id body ti tb _ Hok Ho).
      destruct (ind_target E ti tb (stk (core X s))) as [h|[id2 k]]; [reflexivity|apply gcall_fn_equiv].
    Qed.
  End Depth.

  (* THE RENAMING LEMMA of the module machine: inside function [id], the re-encoded operator in the output environment
     does what the original operator does in the input environment.  Outside the calls this is [core_sem_renamed] *)
  Lemma op_sem_renamed_noncall : forall rb rb' id body o s, fn_ok id body -> In o (ops_of (live body)) -> is_call o = false ->
    op_sem E' rb' id (nf_op (cxo id) (ecxo id) o) s = op_sem E rb id (WOp o) s.
  Proof.
    intros rb rb' id body o s Hok Ho Hc.
    rewrite (op_sem_noncall E' rb' id _ s (nf_op_noncall _ _ o Hc)), (op_sem_noncall E rb id (WOp o) s Hc).
    f_equal.
    rewrite (core_sem_renamed (cxo id) (ecxo id)
               (fun i => me_lslot E' id (rl (cxo id) (ecxo id) i)) (fun i => me_gslot E' (rg (cxo id) (ecxo id) i))
               (fun i => me_mslot E' (rm (cxo id) (ecxo id) i)) (me_lslot E' id) (me_gslot E') (me_mslot E')
               (fun i => eq_refl) (fun i => eq_refl) (fun i => eq_refl) o (fst s)
               (ok_offset _ _ Hok o Ho) (ok_dec _ _ Hok o Ho)).
    cbn [core_sem]. apply core_op_slots_ext; intros i Hi.
    - apply (ok_lslot _ _ Hok). exact (used_in local_index_of _ o i Ho Hi).
    - apply (ok_gslot _ _ Hok). exact (used_in global_index_of _ o i Ho Hi).
    - apply (ok_mslot _ _ Hok). exact (used_in memory_index_of _ o i Ho Hi).
  Qed.

  Section DepthM.
    Variable rb rb' : N -> list rt -> mst -> res mst halt.
    Hypothesis H_rb : forall id ti ls body s, me_funcs E id = Some (ti, ls, body) ->
      rb' id (out_body (cxo id) (ecxo id) body) s = rb id body s.
    Hypothesis H_live : forall id body s, rb id (live body) s = rb id body s.
    Hypothesis H_fr : forall id body U c F1 F2 b,
      (forall i, In i (locals_used body) -> In (me_lslot E id i) U) -> agree U F1 F2 ->
      res_rel mst halt (Rm U) (rb id body (callee_st c F1, b)) (rb id body (callee_st c F2, b)).

    Lemma call_fn_equiv : forall id s, call_fn E' rb' id s = call_fn E rb id s.
    Proof.
      intros id s. rewrite !call_fn_g. apply (gcall_fn_equiv mst lens_m rb rb' H_rb H_live).
      intros id0 body U s1 c F1 F2. apply H_fr.
    Qed.

    Lemma op_sem_renamed : forall id body o s, fn_ok id body -> In o (ops_of (live body)) ->
      op_sem E' rb' id (nf_op (cxo id) (ecxo id) o) s = op_sem E rb id (WOp o) s.
    Proof.
      intros id body o s Hok Ho. destruct (is_call o) eqn:Hc; [|apply (op_sem_renamed_noncall rb rb' id body); assumption].
      destruct (is_call_inv o Hc) as [[f ->]|(ti & tb & ->)].
      - rewrite nf_op_call. cbn [op_sem]. rewrite (ok_fslot _ _ Hok _ Ho). apply call_fn_equiv.
      - rewrite nf_op_call_indirect. cbn [op_sem]. rewrite !call_ind_g.
        apply (gcall_ind_equiv mst lens_m rb rb' H_rb H_live) with (body := body); [|exact Hok|exact Ho].
        intros id0 body0 U s1 c F1 F2. apply H_fr.
    Qed.
  End DepthM.

  Lemma enter_m_nf_bt : forall id body bt s, fn_ok id body ->
    enter_m (me_tys E') (nf_bt (cxo id) (ecxo id) bt) s = enter_m (me_tys E) bt s.
  Proof.
    intros id body bt s Hok. unfold enter_m, lift. f_equal. apply enter_nparams.
    apply (nparams_nf_bt (cxo id) (ecxo id) (me_tys E) (me_tys E') (ok_tys _ _ Hok) (ok_existing _ _ Hok) (ok_tys' _ _ Hok)).
  Qed.

  (* by induction on the call depth: the output body of every function does what the input body does.  The output body is
     the renaming of the live part, the live part is its own normal form ([nf_rt_idem]): [nf_equiv_renamed_on] is applied
     to the LIVE PART, so that only its operators are asked about; then the live part does what the body does *)
  Lemma run_body_equiv : forall fuel k id ti ls body s, me_funcs E id = Some (ti, ls, body) ->
    run_body E' fuel k id (out_body (cxo id) (ecxo id) body) s = run_body E fuel k id body s.
  Proof.
    intros fuel k. induction k as [|k IH]; intros id ti ls body s Ef; [reflexivity|].
    pose proof (H_funcs id) as Hf. rewrite Ef in Hf. destruct Hf as (Hok & _).
    rewrite <- (run_body_live E fuel (S k) id body s).
    cbn [run_body]. unfold out_body. rewrite eval_ren_t. rewrite <- (nf_rt_idem body). fold (live body).
    apply (nf_equiv_renamed_on mst halt pop_cond_m pop_index_m unwind_m leave_m (cxo id) (ecxo id)
             (op_sem E (run_body E fuel k) id) (op_sem E' (run_body E' fuel k) id)
             (enter_m (me_tys E)) (enter_m (me_tys E'))
             (arity (me_tys E)) (arity (me_tys E')) (loop_arity (me_tys E)) (loop_arity (me_tys E'))).
    - intros o Ho s0. apply (op_sem_renamed _ _ IH (run_body_live E fuel k) (run_body_frames E fuel k) id body o s0 Hok Ho).
    - intros bt s0. apply (enter_m_nf_bt id body bt s0 Hok).
    - intros bt. apply (arities_nf_bt (cxo id) (ecxo id) (me_tys E) (me_tys E') (ok_tys _ _ Hok) (ok_existing _ _ Hok) (ok_tys' _ _ Hok)).
    - intros bt. apply (arities_nf_bt (cxo id) (ecxo id) (me_tys E) (me_tys E') (ok_tys _ _ Hok) (ok_existing _ _ Hok) (ok_tys' _ _ Hok)).
    - intros o _ Hu s0. apply op_sem_never_falls, Hu.
  Qed.

  (* the step functions agree at every depth, on every operator of the live part ... *)
  Theorem mod_sem_renamed : forall fuel k id ti ls body o s, me_funcs E id = Some (ti, ls, body) -> In o (ops_of (live body)) ->
    mod_sem E' fuel k id (nf_op (cxo id) (ecxo id) o) s = mod_sem E fuel k id (WOp o) s.
  Proof.
    intros fuel k id ti ls body o s Ef Ho. unfold mod_sem.
    pose proof (H_funcs id) as Hf. rewrite Ef in Hf. destruct Hf as (Hok & _).
    apply (op_sem_renamed _ _ (run_body_equiv fuel k) (run_body_live E fuel k) (run_body_frames E fuel k) id body o s Hok Ho).
  Qed.

  (* ... and THE THEOREM: every call of every function, with every depth and fuel, from every state *)
  Theorem mod_roundtrip_equiv : forall k fuel f args s0,
    run_mod E' k fuel f args s0 = run_mod E k fuel f args s0.
  Proof.
    intros k fuel f args s0. unfold run_mod.
    rewrite (call_fn_equiv _ _ (run_body_equiv fuel k) (run_body_live E fuel k) (run_body_frames E fuel k)). reflexivity.
  Qed.
End Roundtrip.

(* the first local index in [base, base + n) bound at slot [s] *)
Fixpoint first_idx (lslot : N -> N) (s : N) (base : N) (n : nat) : option N :=
  match n with O => None | S n' => if (lslot base =? s)%N then Some base else first_idx lslot s (base + 1) n' end.
(* where the value a frame holds at slot [s] comes from: argument [i], or the zero of a declared local *)
Definition slot_src (lslot : N -> N) (np : nat) (ls : list valty) (s : N) : option (N + val) :=
  match first_idx lslot s 0 (np + length ls) with
  | None => None
  | Some i => if (i <? N.of_nat np)%N then Some (inl i) else option_map (fun t => inr (zero_val t)) (nth_optN (i - N.of_nat np) ls)
  end.
Definition val_eqb (a b : val) : bool :=
  match a, b with VI32 x, VI32 y => (x =? y)%N | VI64 x, VI64 y => (x =? y)%N | _, _ => false end.
Definition src_eqb (a b : option (N + val)) : bool :=
  match a, b with
  | None, None => true
  | Some (inl i), Some (inl j) => (i =? j)%N
  | Some (inr v), Some (inr w) => val_eqb v w
  | _, _ => false
  end.
Lemma src_eqb_eq a b : src_eqb a b = true -> a = b.
Proof.
  destruct a as [[i|v]|], b as [[j|w]|]; cbn [src_eqb]; intros H; try discriminate H; try reflexivity.
  - apply N.eqb_eq in H. now subst.
  - destruct v, w; cbn [val_eqb] in H; try discriminate H; apply N.eqb_eq in H; now subst.
Qed.
(* the two frames take the value of every slot of [U] from the same source *)
Definition frames_check (lslot lslot' : N -> N) (np : nat) (ls ls' : list valty) (U : list N) : bool :=
  forallb (fun s => src_eqb (slot_src lslot' np ls' s) (slot_src lslot np ls s)) U.

Lemma nth_optN_app {A} (a b : list A) : forall i,
  nth_optN i (a ++ b) = if (i <? N.of_nat (length a))%N then nth_optN i a else nth_optN (i - N.of_nat (length a)) b.
Proof.
  induction a as [|x a IH]; intros i.
  - cbn [app length N.of_nat]. rewrite N.sub_0_r. destruct (N.ltb_spec i 0); [lia|reflexivity].
  - cbn [app nth_optN]. destruct (N.eqb_spec i 0) as [->|Hi].
    + reflexivity.
    + rewrite IH. cbn [length]. rewrite Nnat.Nat2N.inj_succ.
      destruct (N.ltb_spec (i - 1) (N.of_nat (length a))), (N.ltb_spec i (N.succ (N.of_nat (length a)))); try lia; try reflexivity.
      f_equal. lia.
Qed.
Lemma nth_optN_map {A B} (g : A -> B) (l : list A) : forall i, nth_optN i (map g l) = option_map g (nth_optN i l).
Proof. induction l as [|x l IH]; intros i; [reflexivity|]. cbn [map nth_optN]. destruct (i =? 0)%N; [reflexivity|apply IH]. Qed.

Lemma alookup_numbered (lslot : N -> N) s : forall vs base,
  alookup s (map (fun p => (lslot (fst p), snd p)) (numbered base vs)) =
  match first_idx lslot s base (length vs) with Some i => nth_optN (i - base) vs | None => None end.
Proof.
  induction vs as [|v vs IH]; intros base; [reflexivity|].
  cbn [numbered map alookup fst snd length first_idx]. rewrite (N.eqb_sym s).
  destruct (lslot base =? s)%N.
  - rewrite N.sub_diag. reflexivity.
  - rewrite IH. destruct (first_idx lslot s (base + 1) (length vs)) as [i|] eqn:Ei; [|reflexivity].
    assert (Hb : (base + 1 <= i)%N).
    { clear -Ei. revert Ei. generalize (base + 1)%N. induction (length vs) as [|n IHn]; intros b0 H; [discriminate H|].
      cbn [first_idx] in H. destruct (lslot b0 =? s)%N; [injection H as <-; lia|]. specialize (IHn _ H). lia. }
    cbn [nth_optN]. destruct (N.eqb_spec (i - base) 0) as [E|_]; [lia|].
    f_equal. lia.
Qed.

Lemma all_ty_length : forall ts vs, all_ty ts vs = true -> length vs = length ts.
Proof.
  induction ts as [|t ts IH]; intros [|v vs] H; cbn [all_ty] in H; try discriminate H; [reflexivity|].
  apply andb_true_iff in H. cbn [length]. f_equal. apply IH, H.
Qed.

(* the value of a slot in a frame, by its source *)
Lemma alookup_frame lslot args ls s :
  alookup s (mk_frame lslot args ls) =
  match slot_src lslot (length args) ls s with
  | Some (inl i) => nth_optN i args
  | Some (inr v) => Some v
  | None => None
  end.
Proof.
  unfold mk_frame, slot_src. rewrite alookup_numbered, app_length, map_length.
  destruct (first_idx lslot s 0 (length args + length ls)) as [i|]; [|reflexivity].
  rewrite N.sub_0_r, nth_optN_app, nth_optN_map.
  destruct (i <? N.of_nat (length args))%N; [reflexivity|].
  destruct (nth_optN (i - N.of_nat (length args)) ls); reflexivity.
Qed.

Lemma frames_check_agree lslot lslot' ps ls ls' U args : frames_check lslot lslot' (length ps) ls ls' U = true ->
  all_ty ps args = true -> agree U (mk_frame lslot' args ls') (mk_frame lslot args ls).
Proof.
  intros Hc Ha s Hs. rewrite !alookup_frame, (all_ty_length _ _ Ha).
  unfold frames_check in Hc. rewrite forallb_forall in Hc. rewrite (src_eqb_eq _ _ (Hc s Hs)). reflexivity.
Qed.

Theorem frames_check_ok : forall E E' id ti ls ls' body,
  (forall ps rs, me_tys E ti = Some (ps, rs) ->
     frames_check (me_lslot E id) (me_lslot E' id) (length ps) ls ls' (map (me_lslot E id) (locals_used (live body))) = true) ->
  frames_agree E E' id ti ls ls' body.
Proof. intros E E' id ti ls ls' body H ps rs args Hty Ha. apply (frames_check_agree _ _ ps); [apply (H ps rs Hty)|exact Ha]. Qed.
(* in particular: literally the same frames *)
Theorem same_frames_agree : forall E E' id ti ls ls' body,
  (forall args, mk_frame (me_lslot E' id) args ls' = mk_frame (me_lslot E id) args ls) -> frames_agree E E' id ti ls ls' body.
Proof. intros E E' id ti ls ls' body H ps rs args _ _ s _. rewrite H. reflexivity. Qed.

Lemma nth_optN_nth_error {A} (l : list A) : forall i, nth_optN i l = nth_error l (N.to_nat i).
Proof.
  induction l as [|x l IH]; intros i; [destruct (N.to_nat i); reflexivity|].
  cbn [nth_optN]. destruct (N.eqb_spec i 0) as [->|H]; [reflexivity|].
  rewrite IH. replace (N.to_nat i) with (S (N.to_nat (i - 1))) by lia. reflexivity.
Qed.

Lemma nth_optN_2 {A} (a b : A) i d : nth_optN i [a; b] = Some d -> (i = 0 /\ d = a)%N \/ (i = 1 /\ d = b)%N.
Proof.
  cbn [nth_optN]. destruct (N.eqb_spec i 0) as [->|H0]; [intros [= <-]; auto|].
  destruct (N.eqb_spec (i - 1) 0) as [E|H1]; [intros [= <-]; right; split; [lia|reflexivity]|discriminate].
Qed.
Lemma nth_optN_3 {A} (a b c : A) i d : nth_optN i [a; b; c] = Some d ->
  (i = 0 /\ d = a)%N \/ (i = 1 /\ d = b)%N \/ (i = 2 /\ d = c)%N.
Proof.
  cbn [nth_optN]. destruct (N.eqb_spec i 0) as [->|H0]; [intros [= <-]; auto|].
  destruct (N.eqb_spec (i - 1) 0) as [E|H1]; [intros [= <-]; right; left; split; [lia|reflexivity]|].
  destruct (N.eqb_spec (i - 1 - 1) 0) as [E|H2]; [intros [= <-]; right; right; split; [lia|reflexivity]|discriminate].
Qed.

Section FindNumbered.
  Context {A : Type}.
  Variable f : N -> bool.
  Lemma find_numbered_some : forall (l : list A) k j d, find (fun p => f (fst p)) (numbered k l) = Some (j, d) ->
    (k <= j)%N /\ nth_optN (j - k) l = Some d /\ f j = true.
  Proof.
    induction l as [|x l IH]; intros k j d H; [discriminate H|].
    cbn [numbered find fst] in H. destruct (f k) eqn:Ek.
    - injection H as <- <-. rewrite N.sub_diag. split; [lia|]. split; [reflexivity|exact Ek].
    - destruct (IH _ _ _ H) as (Hle & Hn & Hf). split; [lia|]. split; [|exact Hf].
      cbn [nth_optN]. destruct (N.eqb_spec (j - k) 0) as [E|_]; [lia|].
      replace (j - k - 1)%N with (j - (k + 1))%N by lia. exact Hn.
  Qed.
  Lemma find_numbered_none : forall (l : list A) k, find (fun p => f (fst p)) (numbered k l) = None ->
    forall i d, nth_optN i l = Some d -> f (k + i)%N = false.
  Proof.
    induction l as [|x l IH]; intros k H i d Hn; [discriminate Hn|].
    cbn [numbered find fst] in H. destruct (f k) eqn:Ek; [discriminate H|].
    cbn [nth_optN] in Hn. destruct (N.eqb_spec i 0) as [->|Hi]; [rewrite N.add_0_r; exact Ek|].
    replace (k + i)%N with (k + 1 + (i - 1))%N by lia. exact (IH _ H _ _ Hn).
  Qed.
End FindNumbered.

Lemma find_func_some m fslot id d : find_func m fslot id = Some d ->
  exists i, nth_optN i (cm_funcs m) = Some d /\ fslot i = id.
Proof.
  unfold find_func. intros H.
  destruct (find (fun p => (fslot (fst p) =? id)%N) (numbered 0 (cm_funcs m))) as [[j d']|] eqn:Ef; [|discriminate H].
  injection H as ->. destruct (find_numbered_some (fun i => (fslot i =? id)%N) _ _ _ _ Ef) as (_ & Hn & Hf).
  rewrite N.sub_0_r in Hn. exists j. split; [exact Hn|]. apply N.eqb_eq, Hf.
Qed.
Lemma find_func_none m fslot id : find_func m fslot id = None ->
  forall i d, nth_optN i (cm_funcs m) = Some d -> fslot i <> id.
Proof.
  unfold find_func. intros H i d Hn.
  destruct (find (fun p => (fslot (fst p) =? id)%N) (numbered 0 (cm_funcs m))) as [[j d']|] eqn:Ef; [discriminate H|].
  pose proof (find_numbered_none (fun i => (fslot i =? id)%N) _ _ Ef i d Hn) as Hf. cbn beta in Hf.
  rewrite N.add_0_l in Hf. apply N.eqb_neq, Hf.
Qed.
(* the function at the only index of identity [id] is the one found *)
Lemma find_func_unique m fslot id j d : nth_optN j (cm_funcs m) = Some d -> fslot j = id ->
  (forall j2 d2, nth_optN j2 (cm_funcs m) = Some d2 -> fslot j2 = id -> j2 = j) -> find_func m fslot id = Some d.
Proof.
  intros Hn Hj Hu. destruct (find_func m fslot id) as [d2|] eqn:Ef.
  - destruct (find_func_some _ _ _ _ Ef) as (j2 & Hn2 & Hj2). rewrite (Hu _ _ Hn2 Hj2) in Hn2. congruence.
  - exfalso. exact (find_func_none _ _ _ Ef _ _ Hn Hj).
Qed.

Lemma valty_eqb_true x y : valty_eqb x y = true -> x = y.
Proof. destruct x, y; intros H; try reflexivity; discriminate H. Qed.
Lemma vlist_eqb_true : forall a b, vlist_eqb a b = true -> a = b.
Proof.
  induction a as [|x a IH]; intros [|y b] H; cbn [vlist_eqb] in H; try discriminate H; [reflexivity|].
  apply andb_true_iff in H. destruct H as [H1 H2]. rewrite (valty_eqb_true _ _ H1), (IH _ H2). reflexivity.
Qed.
Lemma vlist_eqb_same : forall l, vlist_eqb l l = true.
Proof. induction l as [|x l IH]; [reflexivity|]. cbn [vlist_eqb]. unfold valty_eqb. rewrite N.eqb_refl, IH. reflexivity. Qed.
Lemma find_type_from_found : forall l n k ps rs, nth_error l k = Some (ps, rs, false) -> find_type_from n l ps rs <> None.
Proof.
  induction l as [|[[p r] en] l IH]; intros n k ps rs Hk; destruct k; cbn [nth_error] in Hk; try discriminate;
    cbn [find_type_from].
  - inversion Hk; subst. rewrite !vlist_eqb_same. cbn. discriminate.
  - destruct (negb en && vlist_eqb p ps && vlist_eqb r rs); [discriminate|]. eapply IH; eauto.
Qed.

(* the STANDARD parse context of a function: the type table of the module, type ids = type indices; the three
   block-type hypotheses of [fn_ok] then follow from "signatures are preserved" *)
Definition std_types (tys : list (list valty * list valty)) : list (list valty * list valty * bool) :=
  map (fun p => (fst p, snd p, false)) tys.
Section StdTys.
  Variable tys : list (list valty * list valty).
  Variable tys' : N -> option (list valty * list valty).
  Variable cx : pctx.
  Variable ecx : ectx.
  Hypothesis H_types : px_types cx = std_types tys.
  Hypothesis H_tyid : forall i, px_i2id cx S_type i = i.
  Hypothesis H_rty : forall i, tys' (ex_id2i ecx S_type i) = nth_optN i tys.

  Lemma std_nth i : nth_N (px_types cx) i = option_map (fun p => (fst p, snd p, false)) (nth_optN i tys).
  Proof. rewrite H_types, nth_optN_nth_error. unfold nth_N, std_types. apply nth_error_map. Qed.
  Lemma std_ok_tys : forall i, nth_optN i tys = bt_tys cx (BT_Func i).
  Proof. intros i. cbn [bt_tys]. rewrite H_tyid, std_nth. destruct (nth_optN i tys) as [[ps rs]|]; reflexivity. Qed.
  Lemma std_ok_existing : forall i ps rs, nth_optN i tys = Some (ps, rs) -> existing cx ps rs <> None.
  Proof.
    intros i ps rs H.
    assert (Hft : find_type cx ps rs <> None).
    { unfold find_type. apply (find_type_from_found _ 0%N (N.to_nat i)).
      pose proof (std_nth i) as Hn. rewrite H in Hn. exact Hn. }
    unfold existing. destruct ps as [|p ps]; [destruct rs as [|r [|r' rs]]|]; try discriminate;
      destruct (find_type cx _ _); try discriminate; now elim Hft.
  Qed.
  Lemma std_ok_tys' : forall ps rs ty, find_type cx ps rs = Some ty -> tys' (ex_id2i ecx S_type ty) = Some (ps, rs).
  Proof.
    intros ps rs ty H. unfold find_type in H.
    destruct (find_type_from_hit _ _ _ _ _ H) as (p & r & Hn & _ & Hp & Hr).
    rewrite N.sub_0_r in Hn. apply vlist_eqb_true in Hp, Hr. subst p r.
    rewrite H_rty. pose proof (std_nth ty) as Hs. unfold nth_N in Hs. rewrite Hn in Hs.
    destruct (nth_optN ty tys) as [[ps' rs']|]; [|discriminate Hs]. cbn in Hs. congruence.
  Qed.
End StdTys.

(* THE THEOREM ON MODULES: function index [i] of the input module is function index [rf i] of the output module *)
Section CmodRoundtrip.
  Variable m m' : cmod.
  Variable lslot lslot' : N -> N -> N.
  Variable fslot gslot mslot tslot fslot' gslot' mslot' tslot' : N -> N.
  Variable cxo : N -> pctx.
  Variable ecxo : N -> ectx.
  Variable rf : N -> N.
  Notation E := (env_of m lslot fslot gslot mslot tslot).
  Notation E' := (env_of m' lslot' fslot' gslot' mslot' tslot').

  (* identities agree; distinct functions of the input have distinct identities; the output has no other functions *)
  Hypothesis H_fslot : forall i, fslot' (rf i) = fslot i.
  Hypothesis H_inj : forall i i2 d d2, nth_optN i (cm_funcs m) = Some d -> nth_optN i2 (cm_funcs m) = Some d2 ->
    fslot i = fslot i2 -> i = i2.
  Hypothesis H_surj : forall j d', nth_optN j (cm_funcs m') = Some d' -> exists i d, nth_optN i (cm_funcs m) = Some d /\ rf i = j.
  (* function by function *)
  Hypothesis H_fn : forall i ti ls body, nth_optN i (cm_funcs m) = Some (ti, ls, body) ->
    fn_ok E E' cxo ecxo (fslot i) body /\
    exists ti' ls', nth_optN (rf i) (cm_funcs m') = Some (ti', ls', out_body (cxo (fslot i)) (ecxo (fslot i)) body) /\
                    nth_optN ti' (cm_tys m') = nth_optN ti (cm_tys m) /\
                    frames_agree E E' (fslot i) ti ls ls' body.
  (* the table entries are renamed *)
  Hypothesis H_tbl : cm_table m' = map (option_map rf) (cm_table m).

  Lemma cmod_funcs_ok : funcs_ok E E' cxo ecxo.
  Proof.
    intros id. cbn [me_funcs env_of].
    destruct (find_func m fslot id) as [[[ti ls] body]|] eqn:Ef.
    - destruct (find_func_some _ _ _ _ Ef) as (i & Hn & Hi). subst id.
      destruct (H_fn i ti ls body Hn) as (Hok & ti' & ls' & Hn' & Hty & Hfr).
      split; [exact Hok|]. exists ti', ls'. split; [|split; [exact Hty|exact Hfr]].
      apply (find_func_unique m' fslot' (fslot i) (rf i)); [exact Hn'|apply H_fslot|].
      intros j2 d2 Hj2 Hs. destruct (H_surj j2 d2 Hj2) as (i2 & d & Hi2 & <-).
      rewrite H_fslot in Hs. f_equal. exact (H_inj _ _ _ _ Hi2 Hn Hs).
    - destruct (find_func m' fslot' id) as [d'|] eqn:Ef'; [|reflexivity]. exfalso.
      destruct (find_func_some _ _ _ _ Ef') as (j & Hj & Hs).
      destruct (H_surj j d' Hj) as (i & d & Hi & <-). rewrite H_fslot in Hs.
      exact (find_func_none _ _ _ Ef _ _ Hi Hs).
  Qed.

  Theorem mod_roundtrip_equiv_cmod : forall k fuel f args s0,
    run_mod E' k fuel f args s0 = run_mod E k fuel f args s0.
  Proof.
    apply (mod_roundtrip_equiv E E' cxo ecxo cmod_funcs_ok).
    cbn [me_tbl env_of]. rewrite H_tbl, map_map. apply map_ext. intros [j|]; [|reflexivity].
    cbn [option_map]. rewrite H_fslot. reflexivity.
  Qed.
End CmodRoundtrip.

(* [fn_ok] for the standard parse context, with the decidable premises as boolean checks *)
Lemma fn_ok_std : forall m m' lslot lslot' fslot gslot mslot tslot fslot' gslot' mslot' tslot' (cxo : N -> pctx) (ecxo : N -> ectx) id body,
  px_types (cxo id) = std_types (cm_tys m) ->
  (forall i, px_i2id (cxo id) S_type i = i) ->
  (forall i, In i (locals_used (live body)) -> lslot' id (rl (cxo id) (ecxo id) i) = lslot id i) ->
  (forall i, In i (globals_used (live body)) -> gslot' (rg (cxo id) (ecxo id) i) = gslot i) ->
  (forall i, In i (memories_used (live body)) -> mslot' (rm (cxo id) (ecxo id) i) = mslot i) ->
  (forall f, In (W_Call f) (ops_of (live body)) -> fslot' (rfn (cxo id) (ecxo id) f) = fslot f) ->
  (forall ti tb, In (W_CallIndirect ti tb) (ops_of (live body)) -> tslot' (rtb (cxo id) (ecxo id) tb) = tslot tb) ->
  (forall i, nth_optN (ex_id2i (ecxo id) S_type i) (cm_tys m') = nth_optN i (cm_tys m)) ->
  forallb offset_ok (ops_of (live body)) = true ->
  forallb (decodable (cxo id)) (ops_of (live body)) = true ->
  fn_ok (env_of m lslot fslot gslot mslot tslot) (env_of m' lslot' fslot' gslot' mslot' tslot') cxo ecxo id body.
Proof.
  intros m m' lslot lslot' fslot gslot mslot tslot fslot' gslot' mslot' tslot' cxo ecxo id body Hty Hid Hl Hg Hm Hf Ht Hr Ho Hd.
  constructor; cbn [env_of me_lslot me_gslot me_mslot me_fslot me_tslot me_tys]; try assumption.
  - intros ti tb _. unfold rty. rewrite Hid. apply Hr.
  - apply (std_ok_tys (cm_tys m) (cxo id) Hty Hid).
  - apply (std_ok_existing (cm_tys m) (cxo id) Hty).
  - apply (std_ok_tys' (cm_tys m) (fun i => nth_optN i (cm_tys m')) (cxo id) (ecxo id) Hty Hr).
  - apply forallb_forall, Ho.
  - apply decodable_forallb, Hd.
Qed.

(* COROLLARY for the identity renumbering of functions / types / globals / memories / tables, same order of functions:
   only the normal form and the renumbering of the locals, function by function *)
Definition cx_std (tys : list (list valty * list valty)) : pctx := {| px_i2id := fun _ i => i; px_types := std_types tys |}.
Definition ecx_locals (r : N -> N) : ectx :=
  {| ex_id2i := fun sp i => match sp with S_local => r i | _ => i end; ex_ilen := fun _ => 1%N |}.
Definition idN (i : N) : N := i.

Theorem mod_roundtrip_equiv_locals : forall (m m' : cmod) (lslot lslot' : N -> N -> N) (gslot mslot tslot : N -> N) (rlo : N -> N -> N),
  cm_tys m' = cm_tys m -> cm_table m' = cm_table m ->
  (forall j d', nth_optN j (cm_funcs m') = Some d' -> exists d, nth_optN j (cm_funcs m) = Some d) ->
  (forall i ti ls body, nth_optN i (cm_funcs m) = Some (ti, ls, body) ->
     exists ls', nth_optN i (cm_funcs m') = Some (ti, ls', out_body (cx_std (cm_tys m)) (ecx_locals (rlo i)) body) /\
       (forall j, In j (locals_used (live body)) -> lslot' i (rlo i j) = lslot i j) /\
       forallb offset_ok (ops_of (live body)) = true /\
       forallb (decodable (cx_std (cm_tys m))) (ops_of (live body)) = true /\
       frames_agree (env_of m lslot idN gslot mslot tslot) (env_of m' lslot' idN gslot mslot tslot) i ti ls ls' body) ->
  forall k fuel f args s0,
    run_mod (env_of m' lslot' idN gslot mslot tslot) k fuel f args s0 = run_mod (env_of m lslot idN gslot mslot tslot) k fuel f args s0.
Proof.
  intros m m' lslot lslot' gslot mslot tslot rlo Hty Htb Hsurj Hfn.
  apply (mod_roundtrip_equiv_cmod m m' lslot lslot' idN gslot mslot tslot idN gslot mslot tslot
           (fun _ => cx_std (cm_tys m)) (fun id => ecx_locals (rlo id)) idN).
  - reflexivity.
  - intros i i2 d d2 _ _ H. exact H.
  - intros j d' Hj. destruct (Hsurj j d' Hj) as (d & Hd). exists j, d. split; [exact Hd|reflexivity].
  - intros i ti ls body Hi. destruct (Hfn i ti ls body Hi) as (ls' & Hi' & Hl & Ho & Hd & Hfr).
    split.
    + apply fn_ok_std; try reflexivity; try assumption.
      intros j. cbn [ecx_locals ex_id2i]. rewrite Hty. reflexivity.
    + exists ti, ls'. split; [exact Hi'|]. split; [rewrite Hty; reflexivity|exact Hfr].
  - rewrite Htb. symmetry. erewrite map_ext; [apply map_id|]. intros [j|]; reflexivity.
Qed.

Module Ex.
  Local Open Scope N_scope.
  Definition P (o : wop) : rt := RPlain o 0.
  Definition I (z : Z) : rt := P (W_I32Const z).
  Definition L (z : Z) : rt := P (W_I64Const z).
  Definition ma (off : N) : w_memarg := {| wa_align := 0; wa_offset := off; wa_memory := 0 |}.
  Definition env0 (m : cmod) : menv := env_of m (fun _ => idN) idN idN idN idN.
  Definition g0 : list (N * val) := [(0, VI32 5); (1, VI64 6)].
  Definition s_init : st := {| stk := []; locs := []; globs := g0; labs := []; mem := []; pages := 1; max_pages := 2 |}.
  (* the observable part of a result: results (first one first), final globals, memory, pages; [None] = exhausted *)
  Inductive obs := ORet (vs : list val) (g : list (N * val)) (m : list (N * N)) (p : N) | OTrap (g : list (N * val)) (m : list (N * N)) | OWrong | OOther.
  Definition observe (r : option (res st halt)) : option obs :=
    match r with
    | None => None
    | Some (Fall s) => Some (ORet (rev (stk s)) (globs s) (mem s) (pages s))
    | Some (Stop Trap s) => Some (OTrap (globs s) (mem s))
    | Some (Stop Wrong _) => Some OWrong
    | Some _ => Some OOther
    end.
  Definition run (m : cmod) (k fuel : nat) (f : N) (args : list val) := observe (run_mod (env0 m) k fuel f args s_init).

  (* types: 0 = [i32] -> [i32]; 1 = [] -> []; 2 = [i32 i32] -> [i32]; 3 = [i64] -> [i32]; 4 = [i32] -> [i32 i32];
     5 = [i32] -> [i32] AGAIN (structurally equal to type 0) *)
  Definition tys0 : list (list valty * list valty) :=
    [([VT_I32], [VT_I32]); ([], []); ([VT_I32; VT_I32], [VT_I32]); ([VT_I64], [VT_I32]); ([VT_I32], [VT_I32; VT_I32]); ([VT_I32], [VT_I32])].
  (* 0: factorial, recursive *)
  Definition fact_body : list rt :=
    [ P (W_LocalGet 0); P W_I32Eqz;
      RIf (BT_Val VT_I32) [ I 1 ]
        (Some (0, [ P (W_LocalGet 0); P (W_LocalGet 0); I 1; P W_I32Sub; P (W_Call 0); P W_I32Mul ])) 0 0 ].
  (* 1 / 2: is_even / is_odd, mutually recursive *)
  Definition even_body : list rt :=
    [ P (W_LocalGet 0); P W_I32Eqz;
      RIf (BT_Val VT_I32) [ I 1 ] (Some (0, [ P (W_LocalGet 0); I 1; P W_I32Sub; P (W_Call 2) ])) 0 0 ].
  Definition odd_body : list rt :=
    [ P (W_LocalGet 0); P W_I32Eqz;
      RIf (BT_Val VT_I32) [ I 0 ] (Some (0, [ P (W_LocalGet 0); I 1; P W_I32Sub; P (W_Call 1) ])) 0 0 ].
  (* 3: sub (a, b) = a - b: the order of the arguments *)
  Definition sub_body : list rt := [ P (W_LocalGet 0); P (W_LocalGet 1); P W_I32Sub ].
  (* 4: [i64] -> [i32] *)
  Definition wrap_body : list rt := [ P (W_LocalGet 0); P W_I32WrapI64 ].
  (* 5: dispatch (x, slot) = call_indirect (type 0) slot, on x *)
  Definition disp_body : list rt := [ P (W_LocalGet 0); P (W_LocalGet 1); P (W_CallIndirect 0 0) ].
  (* 6: 100 / x: traps on 0 *)
  Definition div_body : list rt := [ I 100; P (W_LocalGet 0); P W_I32DivU ].
  (* 7: a LOOP calling 6 on n, n-1, ..., 0 - where the callee traps; local 1 = the sum; global 0 counts the rounds *)
  Definition loop_body : list rt :=
    [ RLoop BT_Empty
        [ P (W_GlobalGet 0); I 1; P W_I32Add; P (W_GlobalSet 0);
          P (W_LocalGet 1); P (W_LocalGet 0); P (W_Call 6); P W_I32Add; P (W_LocalSet 1);
          P (W_LocalGet 0); I 1; P W_I32Sub; P (W_LocalSet 0);
          RBr 0 0 ] 0 0;
      P (W_LocalGet 1) ].
  (* 8: [] -> []: writes memory, both globals, grows the memory *)
  Definition effect_body : list rt :=
    [ I 16; I 258; P (W_I32Store16 (ma 0)); I 77; P (W_GlobalSet 0); L (-1); P (W_GlobalSet 1); I 1; P (W_MemoryGrow 0); P W_Drop ].
  (* 9: calls 8, then reads what it wrote: memory, globals, the new size *)
  Definition caller_body : list rt :=
    [ P (W_Call 8); I 16; P (W_I32Load (ma 0)); P (W_GlobalGet 0); P W_I32Add; P (W_GlobalGet 1); P W_I32WrapI64; P W_I32Add;
      P (W_MemorySize 0); P W_I32Add; P (W_LocalGet 0); P W_I32Add ].
  (* 10: [i32] -> [i32 i32], leaving SURPLUS values below the results: by `return`, by a branch to the function label *)
  Definition surplus_body : list rt :=
    [ I 9; I 8; P (W_LocalGet 0);
      RIf BT_Empty [ I 1; I 2; P W_Return ] None 0 0;
      I 3; I 4; RBr 0 0 ].
  (* 11: the caller keeps its own stack below the arguments: 1000 + the two results of 10 *)
  Definition caller2_body : list rt := [ I 1000; P (W_LocalGet 0); P (W_Call 10); P W_I32Add; P W_I32Add ].
  (* 12: too few results;  13: x + 1, of type 5 *)
  Definition short_body : list rt := [ RNop 0 ].
  Definition inc_body : list rt := [ P (W_LocalGet 0); I 1; P W_I32Add ].
  Definition m0 : cmod :=
    {| cm_tys := tys0;
       cm_funcs := [ (0, [], fact_body); (0, [], even_body); (0, [], odd_body); (2, [], sub_body); (3, [], wrap_body);
                     (2, [], disp_body); (0, [], div_body); (0, [VT_I32], loop_body); (1, [], effect_body); (0, [], caller_body);
                     (4, [], surplus_body); (0, [], caller2_body); (0, [], short_body); (5, [], inc_body) ];
       cm_table := [ Some 0; Some 1; None; Some 4; Some 3; Some 13 ] |}.

  (* recursion through `call`: fact 5 needs six nested levels *)
  Example fact5 : run m0 6 0 0 [VI32 5] = Some (ORet [VI32 120] g0 [] 1).
  Proof. vm_compute. reflexivity. Qed.
  Example fact5_depth : run m0 5 0 0 [VI32 5] = None.
  Proof. vm_compute. reflexivity. Qed.
  Example even10 : run m0 11 0 1 [VI32 10] = Some (ORet [VI32 1] g0 [] 1).
  Proof. vm_compute. reflexivity. Qed.
  Example even7 : run m0 8 0 1 [VI32 7] = Some (ORet [VI32 0] g0 [] 1).
  Proof. vm_compute. reflexivity. Qed.
  Example even7_depth : run m0 7 0 1 [VI32 7] = None.
  Proof. vm_compute. reflexivity. Qed.
  (* depth 0: not even the entry function runs; exhaustion is NOT a trap and NOT going wrong *)
  Example depth0 : run m0 0 0 3 [VI32 10; VI32 3] = None.
  Proof. vm_compute. reflexivity. Qed.
  (* arguments in order; ill-typed / missing arguments, an unknown function: going wrong *)
  Example sub_order : run m0 1 0 3 [VI32 10; VI32 3] = Some (ORet [VI32 7] g0 [] 1).
  Proof. vm_compute. reflexivity. Qed.
  Example bad_arg_type : run m0 1 0 3 [VI32 10; VI64 3] = Some OWrong.
  Proof. vm_compute. reflexivity. Qed.
  Example bad_arg_count : run m0 1 0 3 [VI32 10] = Some OWrong.
  Proof. vm_compute. reflexivity. Qed.
  Example no_such_function : run m0 1 0 99 [] = Some OWrong.
  Proof. vm_compute. reflexivity. Qed.
  Example too_few_results : run m0 1 0 12 [VI32 0] = Some OWrong.
  Proof. vm_compute. reflexivity. Qed.
  (* call_indirect: hit (slot 0 = fact, slot 1 = is_even); a hit through a DIFFERENT type index of the same structure
     (slot 5 = function 13 of type 5, called at type 0); empty slot; signature mismatch ([i64] -> [i32], [i32 i32] -> [i32]);
     out of range, also with the largest index *)
  Example indirect_hit : (run m0 9 0 5 [VI32 4; VI32 0], run m0 9 0 5 [VI32 4; VI32 1]) = (Some (ORet [VI32 24] g0 [] 1), Some (ORet [VI32 1] g0 [] 1)).
  Proof. vm_compute. reflexivity. Qed.
  Example indirect_structural : run m0 9 0 5 [VI32 4; VI32 5] = Some (ORet [VI32 5] g0 [] 1).
  Proof. vm_compute. reflexivity. Qed.
  Example indirect_empty : run m0 9 0 5 [VI32 4; VI32 2] = Some (OTrap g0 []).
  Proof. vm_compute. reflexivity. Qed.
  Example indirect_mismatch : (run m0 9 0 5 [VI32 4; VI32 3], run m0 9 0 5 [VI32 4; VI32 4]) = (Some (OTrap g0 []), Some (OTrap g0 [])).
  Proof. vm_compute. reflexivity. Qed.
  Example indirect_out_of_range : (run m0 9 0 5 [VI32 4; VI32 6], run m0 9 0 5 [VI32 4; VI32 4294967295]) = (Some (OTrap g0 []), Some (OTrap g0 [])).
  Proof. vm_compute. reflexivity. Qed.
  (* a callee that traps inside a loop of the caller: 100/3, 100/2, 100/1, then 100/0; the four increments of global 0 stay *)
  Example trap_in_loop : run m0 2 10 7 [VI32 3] = Some (OTrap [(0, VI32 9); (1, VI64 6)] []).
  Proof. vm_compute. reflexivity. Qed.
  (* the loop fuel of a CALLEE runs out: exhausted, not trapped (function 7 called through the table is a mismatch, so directly) *)
  Example fuel_exhausted : run m0 2 2 7 [VI32 3] = None.
  Proof. vm_compute. reflexivity. Qed.
  (* the callee writes memory and globals and grows the memory: the caller sees all of it *)
  Example effects_seen : run m0 2 0 9 [VI32 1000] = Some (ORet [VI32 1336] [(0, VI32 77); (1, VI64 18446744073709551615)] [(16, 2); (17, 1)] 2).
  Proof. vm_compute. reflexivity. Qed.
  (* surplus values on the callee's stack are dropped: exactly the results come back, on top of the caller's stack *)
  Example surplus_return : run m0 1 0 10 [VI32 1] = Some (ORet [VI32 1; VI32 2] g0 [] 1).
  Proof. vm_compute. reflexivity. Qed.
  Example surplus_branch : run m0 1 0 10 [VI32 0] = Some (ORet [VI32 3; VI32 4] g0 [] 1).
  Proof. vm_compute. reflexivity. Qed.
  Example caller_stack_kept : (run m0 2 0 11 [VI32 1], run m0 2 0 11 [VI32 0]) = (Some (ORet [VI32 1003] g0 [] 1), Some (ORet [VI32 1007] g0 [] 1)).
  Proof. vm_compute. reflexivity. Qed.
  (* call depth exhausted two levels down, inside call_indirect *)
  Example indirect_depth : run m0 4 0 5 [VI32 4; VI32 0] = None.
  Proof. vm_compute. reflexivity. Qed.
End Ex.

(* the theorem instantiated on a concrete module, with every renumbering at once *)
Module RT.
  Local Open Scope N_scope.
  Definition P (o : wop) : rt := RPlain o 0.
  Definition I (z : Z) : rt := P (W_I32Const z).
  (* the input module.  Types: 0 = [i32] -> [i32], 1 = [i32 i32] -> [i32].
     0 = fact (locals: 1 = an i64 never used, 2 = an i32), recursive through `call 0`, multiplying through `call 1`,
         with a nop, a block typed by a function type, a `return` followed by dead code that mentions what does not survive;
     1 = mul;  2 = apply (x, slot) = call_indirect (type 0) slot on x, added to global 0, which it increments *)
  Definition tys1 : list (list valty * list valty) := [([VT_I32], [VT_I32]); ([VT_I32; VT_I32], [VT_I32])].
  Definition fact1 : list rt :=
    [ RNop 0; P (W_LocalGet 0); P W_I32Eqz;
      RIf (BT_Val VT_I32) [ I 1 ]
        (Some (0, [ P (W_LocalGet 0); P (W_LocalGet 0); I 1; P W_I32Sub; P (W_Call 0); RBlock (BT_Func 1) [ P (W_Call 1) ] 0 0 ])) 0 0;
      P (W_LocalSet 2); P (W_LocalGet 2); P W_Return;
      (* dead: the local that the output drops, a function that does not exist, an offset that does not survive *)
      P (W_LocalGet 1); P (W_Call 9); P (W_I32Load {| wa_align := 0; wa_offset := 4294967296; wa_memory := 3 |}); I 0; P W_I32DivU ].
  Definition mul1 : list rt := [ P (W_LocalGet 0); P (W_LocalGet 1); P W_I32Mul ].
  Definition apply1 : list rt :=
    [ P (W_LocalGet 0); P (W_LocalGet 1); P (W_CallIndirect 0 0);
      P (W_GlobalGet 0); P W_I32Add; P (W_GlobalGet 0); I 1; P W_I32Add; P (W_GlobalSet 0) ].
  Definition m1 : cmod :=
    {| cm_tys := tys1; cm_funcs := [ (0, [VT_I64; VT_I32], fact1); (1, [], mul1); (1, [], apply1) ];
       cm_table := [ Some 0; None; Some 1 ] |}.

  (* the renumbering: functions rotated (0 -> 2, 1 -> 0, 2 -> 1), the two types swapped, a global added in front,
     in `fact` the unused local dropped (local 2 becomes local 1; the emit-time map sends the dropped local 1 to 7) *)
  Definition rf (i : N) : N := if i =? 0 then 2 else if i =? 1 then 0 else if i =? 2 then 1 else i.
  Definition rfi (j : N) : N := if j =? 2 then 0 else if j =? 0 then 1 else if j =? 1 then 2 else j.
  Definition rt1 (i : N) : N := if i =? 0 then 1 else if i =? 1 then 0 else i.
  Definition rl0 (i : N) : N := if i =? 1 then 7 else if i =? 2 then 1 else i.
  Definition cx1 : pctx := cx_std tys1.
  Definition ecx1 (id : N) : ectx :=
    {| ex_id2i := fun sp i => match sp with
                              | S_func => rf i | S_type => rt1 i | S_global => i + 1
                              | S_local => if id =? 0 then rl0 i else i
                              | _ => i end;
       ex_ilen := fun _ => 1 |}.
  Definition m1' : cmod :=
    {| cm_tys := [([VT_I32; VT_I32], [VT_I32]); ([VT_I32], [VT_I32])];
       cm_funcs := [ (0, [], out_body cx1 (ecx1 1) mul1); (0, [], out_body cx1 (ecx1 2) apply1); (1, [VT_I32], out_body cx1 (ecx1 0) fact1) ];
       cm_table := [ Some 2; None; Some 0 ] |}.
  Example fact1_out : out_body cx1 (ecx1 0) fact1 =
    [ P (W_LocalGet 0); P W_I32Eqz;
      RIf (BT_Val VT_I32) [ I 1 ]
        (Some (0, [ P (W_LocalGet 0); P (W_LocalGet 0); I 1; P W_I32Sub; P (W_Call 2); RBlock (BT_Func 0) [ P (W_Call 0) ] 0 0 ])) 0 0;
      P (W_LocalSet 1); P (W_LocalGet 1); P W_Return ].
  Proof. vm_compute. reflexivity. Qed.
  Example apply1_out : out_body cx1 (ecx1 2) apply1 =
    [ P (W_LocalGet 0); P (W_LocalGet 1); P (W_CallIndirect 1 0);
      P (W_GlobalGet 1); P W_I32Add; P (W_GlobalGet 1); I 1; P W_I32Add; P (W_GlobalSet 1) ].
  Proof. vm_compute. reflexivity. Qed.

  (* the slot maps: the input ones are the identity; the output ones undo the renumbering *)
  Definition lslot1' (id : N) (j : N) : N := if id =? 0 then (if j =? 1 then 2 else j) else j.
  Definition E1 : menv := env_of m1 (fun _ => idN) idN idN idN idN.
  Definition E1' : menv := env_of m1' lslot1' rfi (fun i => i - 1) idN idN.

  Lemma rfi_rf i : rfi (rf i) = i.
  Proof.
    unfold rf, rfi. destruct (N.eqb_spec i 0) as [->|H0]; [reflexivity|].
    destruct (N.eqb_spec i 1) as [->|H1]; [reflexivity|]. destruct (N.eqb_spec i 2) as [->|H2]; [reflexivity|].
    destruct (N.eqb_spec i 2); [contradiction|]. destruct (N.eqb_spec i 0); [contradiction|].
    destruct (N.eqb_spec i 1); [contradiction|]. reflexivity.
  Qed.
  Lemma rt1_tys i : nth_optN (rt1 i) (cm_tys m1') = nth_optN i (cm_tys m1).
  Proof.
    unfold rt1. destruct (N.eqb_spec i 0) as [->|H0]; [reflexivity|]. destruct (N.eqb_spec i 1) as [->|H1]; [reflexivity|].
    cbn [m1 m1' cm_tys tys1 nth_optN]. destruct (N.eqb_spec i 0); [contradiction|].
    destruct (N.eqb_spec (i - 1) 0); [lia|]. reflexivity.
  Qed.

  Lemma fn_ok1 : forall id body, In (id, body) [(0, fact1); (1, mul1); (2, apply1)] -> fn_ok E1 E1' (fun _ => cx1) ecx1 id body.
  Proof.
    intros id body H. unfold E1, E1'. apply fn_ok_std; try reflexivity.
    - intros i Hi. cbn [In] in H.
      destruct H as [H|[H|[H|[]]]]; injection H as <- <-; vm_compute in Hi;
        repeat (destruct Hi as [<-|Hi]; [reflexivity|]); destruct Hi.
    - intros i _. unfold rg. cbn [cx1 cx_std ecx1 px_i2id ex_id2i]. apply N.add_sub.
    - intros f _. apply rfi_rf.
    - intros i. apply rt1_tys.
    - cbn [In] in H. destruct H as [H|[H|[H|[]]]]; injection H as <- <-; vm_compute; reflexivity.
    - cbn [In] in H. destruct H as [H|[H|[H|[]]]]; injection H as <- <-; vm_compute; reflexivity.
  Qed.

  (* THE THEOREM, instantiated: the hypotheses are satisfiable with every renumbering at once *)
  Theorem rt_equiv : forall k fuel f args s0, run_mod E1' k fuel f args s0 = run_mod E1 k fuel f args s0.
  Proof.
    unfold E1, E1'. apply (mod_roundtrip_equiv_cmod m1 m1' _ _ _ _ _ _ _ _ _ _ (fun _ => cx1) ecx1 rf).
    - intros i. apply rfi_rf.
    - intros i i2 d d2 _ _ H. exact H.
    - intros j d' Hj. destruct (nth_optN_3 _ _ _ j d' Hj) as [[-> _]|[[-> _]|[-> _]]]; [exists 1|exists 2|exists 0]; eexists; split; reflexivity.
    - intros i ti ls body Hi. destruct (nth_optN_3 _ _ _ i _ Hi) as [[-> H]|[[-> H]|[-> H]]]; injection H as -> -> ->.
      + split; [apply fn_ok1; cbn; auto|]. exists 1, [VT_I32]. split; [reflexivity|]. split; [reflexivity|].
        apply frames_check_ok. intros ps rs Hty. injection Hty as <- <-. vm_compute. reflexivity.
      + split; [apply fn_ok1; cbn; auto|]. exists 0, []. split; [reflexivity|]. split; [reflexivity|].
        apply frames_check_ok. intros ps rs Hty. injection Hty as <- <-. vm_compute. reflexivity.
      + split; [apply fn_ok1; cbn; auto|]. exists 0, []. split; [reflexivity|]. split; [reflexivity|].
        apply frames_check_ok. intros ps rs Hty. injection Hty as <- <-. vm_compute. reflexivity.
    - reflexivity.
  Qed.

  Definition s1 : st := {| stk := []; locs := []; globs := [(0, VI32 10)]; labs := []; mem := []; pages := 0; max_pages := 0 |}.
  (* apply (4, slot 0) = fact 4 + global 0 = 34, and global 0 becomes 11: the input module ... *)
  Example rt_in : match run_mod E1 8 0 2 [VI32 4; VI32 0] s1 with Some (Fall s) => (stk s, globs s) | _ => ([], []) end = ([VI32 34], [(0, VI32 11)]).
  Proof. vm_compute. reflexivity. Qed.
  (* ... and the output module, by computation and by the theorem *)
  Example rt_out : match run_mod E1' 8 0 2 [VI32 4; VI32 0] s1 with Some (Fall s) => (stk s, globs s) | _ => ([], []) end = ([VI32 34], [(0, VI32 11)]).
  Proof. vm_compute. reflexivity. Qed.
  Example rt_out_thm : run_mod E1' 8 0 2 [VI32 4; VI32 0] s1 = run_mod E1 8 0 2 [VI32 4; VI32 0] s1.
  Proof. apply rt_equiv. Qed.
  (* the frames matter: declare the surviving local of `fact` as an i64 and the output module goes wrong *)
  Definition m1_bad : cmod :=
    {| cm_tys := cm_tys m1';
       cm_funcs := [ (0, [], out_body cx1 (ecx1 1) mul1); (0, [], out_body cx1 (ecx1 2) apply1); (1, [VT_I64], out_body cx1 (ecx1 0) fact1) ];
       cm_table := cm_table m1' |}.
  Example frames_needed :
    match run_mod (env_of m1_bad lslot1' rfi (fun i => i - 1) idN idN) 8 0 2 [VI32 4; VI32 0] s1 with Some (Stop Wrong _) => true | _ => false end = true.
  Proof. vm_compute. reflexivity. Qed.
  (* the renumbering matters: the output module on the identity slot maps does something else *)
  Example rt_out_unrenumbered :
    run_mod (env_of m1' (fun _ => idN) idN idN idN idN) 8 0 2 [VI32 4; VI32 0] s1 <> run_mod E1 8 0 2 [VI32 4; VI32 0] s1.
  Proof. vm_compute. discriminate. Qed.
End RT.

Print Assumptions run_body_frames.
Print Assumptions mod_sem_renamed.
Print Assumptions mod_roundtrip_equiv.
Print Assumptions frames_check_ok.
Print Assumptions mod_roundtrip_equiv_cmod.
Print Assumptions mod_roundtrip_equiv_locals.
Print Assumptions RT.rt_equiv.
