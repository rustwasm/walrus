(* Facts about the operators written by the first emit, and facts about the second parse that need
   only (W). *)
From Coq Require Import List NArith Bool Lia Setoid. Import ListNotations.
From WV Require Import Gen.Ops Model.Common Model.IR Model.ParseFn Model.ParseSpec Model.EmitFn
  Model.BodySpec Model.Sem Model.EmitSpec Model.Traversal.
From WV Require Import Proofs.ParseFn Proofs.Codec Proofs.Body Proofs.Sem Proofs.Escalation Proofs.Fixpoint
  Proofs.EmitFn Proofs.Traversal Proofs.ModFix10.
Local Open Scope nat_scope.

Definition plain_ok (o : wop) : Prop :=
  imm_ok o /\ ~ known_big_offset o /\ (forall f, decode_plain f o <> None).
Definition plain_ok_w (w : wins) : Prop := match w with WOp o => plain_ok o | _ => True end.

Lemma nf_op_plain_ok cx ecx o : decode_plain (px_i2id cx) o <> None -> plain_ok_w (nf_op cx ecx o).
Proof.
  intros Hd. destruct (nf_op cx ecx o) as [w| | | | | | | | |] eqn:E; try exact I.
  destruct (nf_op_image cx ecx o w Hd E) as (_ & _ & Hi & Hb).
  split; [exact Hi|]. split; [exact Hb|]. intros f. apply decode_total, Hi.
Qed.

(* A property of every emitted instruction, from the source: the emitted stream is the renaming
   [renw] of the instructions of a well-formed normal form, followed by `end`. *)
Theorem emitted_from_source : forall cx ecx (G : wins -> Prop),
  (forall w, op_ok2 cx w -> G (renw cx ecx w)) ->
  forall ety rs l eloc p0 ar1 st1 fuel1,
  wfl cx 1 l ->
  parse_body cx ety rs (flat_list l ++ [(WEnd, eloc)]) = Ok ar1 ->
  emit_body ecx fuel1 ar1 0 p0 = Ok st1 ->
  Forall G (out st1).
Proof.
  intros cx ecx G HG ety rs l eloc p0 ar1 st1 fuel1 Hw Hp He.
  destruct (first_trip_facts _ _ _ _ _ _ _ _ _ _ Hw (enc_ok_all cx ecx) Hp He) as [Ho _].
  rewrite nf_body_ops, (flat'_renw cx ecx _ (nf_rt_is_nf false l)), map_map in Ho. rewrite Ho.
  apply Forall_app. split; [|constructor; [exact (HG WEnd I)|constructor]].
  apply Forall_map. eapply Forall_impl; [|exact (wfl_ops_ok cx 1 _ (wfl_nf_rt cx 1 false l Hw))].
  intros [w loc]. exact (HG w).
Qed.

Theorem emitted_ops_plain : forall cx ecx ety rs l eloc p0 ar1 st1 fuel1,
  wfl cx 1 l ->
  parse_body cx ety rs (flat_list l ++ [(WEnd, eloc)]) = Ok ar1 ->
  emit_body ecx fuel1 ar1 0 p0 = Ok st1 ->
  Forall (fun w => match w with
                   | WOp o => imm_ok o /\ ~ known_big_offset o /\ (forall f, decode_plain f o <> None)
                   | _ => True end) (out st1).
Proof.
  intros cx ecx. apply (emitted_from_source cx ecx plain_ok_w).
  intros [o| | | | | | | | |] Hw; try exact I. exact (nf_op_plain_ok cx ecx o Hw).
Qed.

Corollary emitted_op_fixed : forall cx ecx ety rs l eloc p0 ar1 st1 fuel1 cx2 ecx2 o,
  wfl cx 1 l ->
  parse_body cx ety rs (flat_list l ++ [(WEnd, eloc)]) = Ok ar1 ->
  emit_body ecx fuel1 ar1 0 p0 = Ok st1 ->
  In (WOp o) (out st1) ->
  map_idx (fun s i => ex_id2i ecx2 s (px_i2id cx2 s i)) o = o -> nf_op cx2 ecx2 o = WOp o.
Proof.
  intros cx ecx ety rs l eloc p0 ar1 st1 fuel1 cx2 ecx2 o Hw Hp He Hin Hm.
  pose proof (emitted_ops_plain _ _ _ _ _ _ _ _ _ _ Hw Hp He) as HF.
  rewrite Forall_forall in HF. specialize (HF _ Hin). cbn in HF. destruct HF as (Hi & Hb & _).
  apply nf_op_fixed_at; assumption.
Qed.

Print Assumptions emitted_ops_plain.
Print Assumptions emitted_op_fixed.

(* the second parse, under (W) only *)
Section RenW.
  Variable cx : pctx.
  Variable ecx : ectx.
  Lemma is_instr_renw w : is_instr (renw cx ecx w) = is_instr w.
  Proof. destruct w; try reflexivity. cbn [renw]. unfold nf_op. destruct (encode_plain (ex_id2i ecx) (dec cx o)); reflexivity. Qed.
  Lemma count_instr_renw ws : count_instr (map (renw cx ecx) ws) = count_instr ws.
  Proof.
    unfold count_instr. induction ws as [|w ws IH]; [reflexivity|].
    cbn [map filter]. rewrite is_instr_renw. destruct (is_instr w); cbn [length]; now rewrite IH.
  Qed.
End RenW.

(* the second trip's own emitted stream, for ANY emit context *)
Lemma second_trip_out cx2 ecx' ety2 rs2 L1 eloc1 p0 ar2 st2 fuel2 :
  wfl cx2 1 L1 -> is_nf L1 ->
  parse_body cx2 ety2 rs2 (flat_list L1 ++ [(WEnd, eloc1)]) = Ok ar2 ->
  emit_body ecx' fuel2 ar2 0 p0 = Ok st2 ->
  out st2 = map (renw cx2 ecx') (map fst (flat_list L1 ++ [(WEnd, eloc1)])).
Proof.
  intros Hw Hn Hp He.
  destruct (first_trip_facts _ _ _ _ _ _ _ _ _ _ Hw (enc_ok_all cx2 ecx') Hp He) as [Ho _].
  rewrite nf_body_ops, (nf_rt_fixed _ Hn), (flat'_renw _ _ _ Hn), map_map in Ho.
  rewrite Ho, !map_app, map_map. reflexivity.
Qed.

Definition T1 cx ecx ety rs l eloc p0 ar1 st1 fuel1 : Prop :=
  wfl cx 1 l /\ parse_body cx ety rs (flat_list l ++ [(WEnd, eloc)]) = Ok ar1 /\
  emit_body ecx fuel1 ar1 0 p0 = Ok st1.

Theorem second_parse_W : forall cx ecx ety rs l eloc p0 ar1 st1 fuel1 cx2 ety2 rs2,
  wfl cx 1 l -> parse_body cx ety rs (flat_list l ++ [(WEnd, eloc)]) = Ok ar1 ->
  emit_body ecx fuel1 ar1 0 p0 = Ok st1 ->
  let ops1 := combine (out st1) (map snd (imap st1)) in
  Forall (op_ok2 cx2) (map fst ops1) ->
  exists ar2, parse_body cx2 ety2 rs2 ops1 = Ok ar2.
Proof.
  intros cx ecx ety rs l eloc p0 ar1 st1 fuel1 cx2 ety2 rs2 Hw Hp He ops1 HW.
  destruct (emitted_ops_shape cx ecx ety rs l eloc p0 ar1 st1 fuel1 cx2 Hw Hp He HW) as (L1 & eloc1 & _ & _ & _ & Hpa).
  eexists. apply Hpa.
Qed.

Theorem second_size_W : forall cx ecx ety rs l eloc p0 ar1 st1 fuel1 cx2 ety2 rs2 ar2 f1 f2 evs1 evs2,
  wfl cx 1 l -> parse_body cx ety rs (flat_list l ++ [(WEnd, eloc)]) = Ok ar1 ->
  emit_body ecx fuel1 ar1 0 p0 = Ok st1 ->
  let ops1 := combine (out st1) (map snd (imap st1)) in
  Forall (op_ok2 cx2) (map fst ops1) ->
  parse_body cx2 ety2 rs2 ops1 = Ok ar2 ->
  dfs_in_order false f1 ar1 0 = Ok evs1 -> dfs_in_order false f2 ar2 0 = Ok evs2 ->
  n_instr evs2 = n_instr evs1 /\ n_instr evs1 = count_instr (map fst ops1).
Proof.
  intros cx ecx ety rs l eloc p0 ar1 st1 fuel1 cx2 ety2 rs2 ar2 f1 f2 evs1 evs2 Hw Hp He ops1 HW Hp2 Hd1 Hd2.
  destruct (emitted_ops_shape cx ecx ety rs l eloc p0 ar1 st1 fuel1 cx2 Hw Hp He HW) as (L1 & eloc1 & Hops & HW1 & Hn & _).
  fold ops1 in Hops.
  destruct (emitted_ops_structured _ _ _ _ _ _ _ _ _ _ Hw (enc_ok_all _ _) Hp He) as (_ & _ & _ & _ & _ & Hfst & _ & _).
  fold ops1 in Hfst.
  pose proof (trip_count _ _ _ _ _ _ _ _ _ _ _ _ Hw (enc_ok_all _ _) Hp He Hd1) as C1.
  rewrite Hops in Hp2.
  destruct (roundtrip_body cx2 ecx ety2 rs2 L1 eloc1 p0 HW1 (enc_ok_all _ _)) as (ar & st2 & fuel2 & Hp' & He2 & _).
  rewrite Hp2 in Hp'. injection Hp' as <-.
  pose proof (trip_count _ _ _ _ _ _ _ _ _ _ _ _ HW1 (enc_ok_all _ _) Hp2 He2 Hd2) as C2.
  rewrite (second_trip_out _ _ _ _ _ _ _ _ _ _ HW1 Hn Hp2 He2), count_instr_renw, <- Hops in C2.
  rewrite Hfst. split; [now rewrite C1, C2, Hfst|exact C1].
Qed.

Print Assumptions second_parse_W.
Print Assumptions second_size_W.

Lemma wop_refs_map_idx g o : wop_refs (map_idx g o) = mapr g (wop_refs o).
Proof. destruct o; reflexivity. Qed.
Lemma sel_mapr f S0 g : (forall s, f s = true -> s = S0) ->
  forall l, sel f (mapr g l) = map (g S0) (sel f l).
Proof.
  intros Hf. induction l as [|[s i] l IH]; [reflexivity|].
  unfold sel, mapr in *. cbn [map filter fst snd]. destruct (f s) eqn:E.
  - pose proof (Hf s E) as ->. cbn [map snd]. now rewrite IH.
  - exact IH.
Qed.

Definition ecxI : ectx := {| ex_id2i := fun _ i => i; ex_ilen := fun _ => 0%N |}.
Lemma nf_op_ecxI cx2 o : plain_ok o -> nf_op cx2 ecxI o = WOp (map_idx (px_i2id cx2) o).
Proof.
  intros (Hi & Hb & _).
  exact (nf_op_codec (px_i2id cx2) (fun _ i => i) (px_i2id cx2) (fun _ _ => eq_refl) cx2 ecxI o eq_refl eq_refl Hi Hb).
Qed.
Lemma ops_sel_renw cx2 f S0 : (forall s, f s = true -> s = S0) ->
  forall ws, Forall plain_ok_w ws ->
  ops_sel f (map (renw cx2 ecxI) ws) = map (px_i2id cx2 S0) (ops_sel f ws).
Proof.
  intros Hf. induction 1 as [|w ws Hw _ IH]; [reflexivity|].
  cbn [map]. rewrite !ops_sel_cons, map_app, IH. f_equal.
  destruct w; try reflexivity. cbn [renw plain_ok_w] in *. rewrite (nf_op_ecxI cx2 o Hw).
  rewrite wop_refs_map_idx. apply sel_mapr. exact Hf.
Qed.
Lemma is_local_only s : is_local s = true -> s = S_local.
Proof. destruct s; cbn; intros H; try discriminate H; reflexivity. Qed.
Lemma is_data_only s : is_data s = true -> s = S_data.
Proof. destruct s; cbn; intros H; try discriminate H; reflexivity. Qed.

Theorem second_refs_W : forall cx ecx ety rs l eloc p0 ar1 st1 fuel1 cx2 ety2 rs2 ar2 f1 f2 evs1 evs2,
  wfl cx 1 l -> parse_body cx ety rs (flat_list l ++ [(WEnd, eloc)]) = Ok ar1 ->
  emit_body ecx fuel1 ar1 0 p0 = Ok st1 ->
  let ops1 := combine (out st1) (map snd (imap st1)) in
  Forall (op_ok2 cx2) (map fst ops1) ->
  parse_body cx2 ety2 rs2 ops1 = Ok ar2 ->
  dfs_in_order false f1 ar1 0 = Ok evs1 -> dfs_in_order false f2 ar2 0 = Ok evs2 ->
  WV.Model.Locals.used_of_log evs2 = map (px_i2id cx2 S_local) (ops_sel is_local (map fst ops1)) /\
  data_flag evs2 = data_flag evs1.
Proof.
  intros cx ecx ety rs l eloc p0 ar1 st1 fuel1 cx2 ety2 rs2 ar2 f1 f2 evs1 evs2 Hw Hp He ops1 HW Hp2 Hd1 Hd2.
  destruct (emitted_ops_shape cx ecx ety rs l eloc p0 ar1 st1 fuel1 cx2 Hw Hp He HW) as (L1 & eloc1 & Hops & HW1 & Hn & _).
  fold ops1 in Hops.
  destruct (emitted_ops_structured _ _ _ _ _ _ _ _ _ _ Hw (enc_ok_all _ _) Hp He) as (_ & _ & _ & _ & _ & Hfst & _ & _).
  fold ops1 in Hfst.
  assert (HP : Forall plain_ok_w (map fst ops1)).
  { rewrite Hfst. eapply Forall_impl; [|exact (emitted_ops_plain _ _ _ _ _ _ _ _ _ _ Hw Hp He)].
    intros w. destruct w; cbn [plain_ok_w]; auto. }
  destruct (trip_locals _ _ _ _ _ _ _ _ _ _ _ _ Hw (enc_ok_all _ _) Hp He Hd1) as [_ D1].
  rewrite Hops in Hp2.
  destruct (roundtrip_body cx2 ecxI ety2 rs2 L1 eloc1 p0 HW1 (enc_ok_all _ _)) as (ar & st2 & fuel2 & Hp' & He2 & _).
  rewrite Hp2 in Hp'. injection Hp' as <-.
  destruct (trip_locals _ _ _ _ _ _ _ _ _ _ _ _ HW1 (enc_ok_all _ _) Hp2 He2 Hd2) as [L2 D2].
  rewrite (second_trip_out _ _ _ _ _ _ _ _ _ _ HW1 Hn Hp2 He2), <- Hops in L2, D2.
  split.
  - rewrite (ops_sel_renw cx2 is_local S_local is_local_only _ HP) in L2.
    cbn [ecxI ex_id2i] in L2. rewrite map_id in L2. symmetry. exact L2.
  - rewrite (ops_sel_renw cx2 is_data S_data is_data_only _ HP) in D2.
    rewrite D1, D2, Hfst. destruct (ops_sel is_data (out st1)); reflexivity.
Qed.

Corollary second_used_W : forall cx ecx ety rs l eloc p0 ar1 st1 fuel1 cx2 ety2 rs2 ar2 f2 evs2,
  wfl cx 1 l -> parse_body cx ety rs (flat_list l ++ [(WEnd, eloc)]) = Ok ar1 ->
  emit_body ecx fuel1 ar1 0 p0 = Ok st1 ->
  let ops1 := combine (out st1) (map snd (imap st1)) in
  Forall (op_ok2 cx2) (map fst ops1) ->
  parse_body cx2 ety2 rs2 ops1 = Ok ar2 ->
  dfs_in_order false f2 ar2 0 = Ok evs2 ->
  WV.Model.Locals.used_of_log evs2 = map (px_i2id cx2 S_local) (ops_sel is_local (map fst ops1)).
Proof.
  intros cx ecx ety rs l eloc p0 ar1 st1 fuel1 cx2 ety2 rs2 ar2 f2 evs2 Hw Hp He ops1 HW Hp2 Hd2.
  pose proof (parsed_arena_den cx ety l eloc Hw) as HD.
  pose proof (Proofs.Traversal.dfs_in_order_spec false _ _ HD) as Hd1.
  rewrite (parsed_tree_tsid cx ety l eloc) in Hd1.
  pose proof Hp as Hp'. rewrite (parse_body_arena cx ety rs l eloc Hw) in Hp'. injection Hp' as E.
  rewrite E in Hd1.
  exact (proj1 (second_refs_W cx ecx ety rs l eloc p0 ar1 st1 fuel1 cx2 ety2 rs2 ar2 _ f2 _ evs2 Hw Hp He HW Hp2 Hd1 Hd2)).
Qed.

Corollary second_data_W : forall cx ecx ety rs l eloc p0 ar1 st1 fuel1 cx2 ety2 rs2 ar2 f1 f2 evs1 evs2,
  wfl cx 1 l -> parse_body cx ety rs (flat_list l ++ [(WEnd, eloc)]) = Ok ar1 ->
  emit_body ecx fuel1 ar1 0 p0 = Ok st1 ->
  let ops1 := combine (out st1) (map snd (imap st1)) in
  Forall (op_ok2 cx2) (map fst ops1) ->
  parse_body cx2 ety2 rs2 ops1 = Ok ar2 ->
  dfs_in_order false f1 ar1 0 = Ok evs1 -> dfs_in_order false f2 ar2 0 = Ok evs2 ->
  data_flag evs2 = data_flag evs1.
Proof.
  intros cx ecx ety rs l eloc p0 ar1 st1 fuel1 cx2 ety2 rs2 ar2 f1 f2 evs1 evs2 Hw Hp He ops1 HW Hp2 Hd1 Hd2.
  exact (proj2 (second_refs_W cx ecx ety rs l eloc p0 ar1 st1 fuel1 cx2 ety2 rs2 ar2 f1 f2 evs1 evs2 Hw Hp He HW Hp2 Hd1 Hd2)).
Qed.

Print Assumptions second_refs_W.
Print Assumptions second_used_W.
Print Assumptions second_data_W.

Lemma map_idx_fixed g o : (forall s i, In (s, i) (wop_refs o) -> g s i = i) -> map_idx g o = o.
Proof. exact (map_idx_fix g o). Qed.
Lemma encode_refs_in id2i p w : encode_plain id2i p = Some w ->
  forall s i, In (s, i) (wop_refs w) -> exists id, In (s, id) (visited_refs p) /\ i = id2i s id.
Proof.
  intros E s i Hin. apply in_mapr_inv, (encode_refs_iff _ _ _ E), Hin.
Qed.

Section OpsIn.
  Variable cx : ectx.
  Definition enc_of (w : wop) (x : instr * N) : Prop :=
    exists p, fst x = IPlain p /\ encode_plain (ex_id2i cx) p = Some w.
  (* every plain operator of the output [tg] encodes an instruction of [L] *)
  Definition enc_in (L : list (instr * N)) (tg : list (N * wins)) : Prop :=
    forall w, In (WOp w) (map snd tg) -> exists x, In x L /\ enc_of w x.
  Lemma enc_in_incl L L' tg : incl L L' -> enc_in L tg -> enc_in L' tg.
  Proof. intros HL H w Hin. destruct (H w Hin) as (x & Hx & He). exists x. auto. Qed.
  Lemma enc_in_app L a b : enc_in L a -> enc_in L b -> enc_in L (a ++ b).
  Proof. intros Ha Hb w Hin. rewrite map_app in Hin. apply in_app_or in Hin as [Hin|Hin]; auto. Qed.
  Lemma enc_in_other L loc w : (forall o, w <> WOp o) -> enc_in L [(loc, w)].
  Proof. intros Hw o [E|[]]. now elim (Hw o). Qed.

  Lemma flt_in :
    (forall t env k tg, flt_tree cx env t k = Ok tg -> enc_in (instrs_in_order t) tg) /\
    (forall it env loc tg, flt_item cx env it loc = Ok tg -> enc_in ((shallow it, loc) :: item_nested it) tg).
  Proof.
    apply flt_ind with (PL := fun _ items tg =>
      enc_in (flat_map (fun x => item_instr x :: item_nested (fst x)) items) tg).
    - intros env w [].
    - intros env x l a b Ha Hb. cbn [flat_map]. apply enc_in_app.
      + apply (enc_in_incl _ _ _ (incl_appl _ (incl_refl _))), Ha.
      + apply (enc_in_incl _ _ _ (incl_appr _ (incl_refl _))), Hb.
    - intros env [s ty items e] k body Hb. rewrite instrs_T. apply enc_in_app; [exact Hb|].
      apply enc_in_other. destruct k; discriminate.
    - intros env p loc w E o [Hin|[]]. injection Hin as <-.
      exists (IPlain p, loc). split; [now left|]. exists p. auto.
    - intros. apply enc_in_other. discriminate.
    - intros. apply enc_in_other. discriminate.
    - intros. apply enc_in_other. discriminate.
    - intros env t loc tg H. apply (enc_in_app _ [_]); [apply enc_in_other; discriminate|].
      apply (enc_in_incl _ _ _ (incl_tl _ (incl_refl _))), H.
    - intros env t loc tg H. apply (enc_in_app _ [_]); [apply enc_in_other; discriminate|].
      apply (enc_in_incl _ _ _ (incl_tl _ (incl_refl _))), H.
    - intros env c a loc x y Hx Hy. apply (enc_in_app _ [_]); [apply enc_in_other; discriminate|].
      cbn [item_nested]. apply enc_in_app.
      + apply (enc_in_incl _ _ _ (incl_tl _ (incl_appl _ (incl_refl _)))), Hx.
      + apply (enc_in_incl _ _ _ (incl_tl _ (incl_appr _ (incl_refl _)))), Hy.
  Qed.

  (* for ANY emitted arena *)
  Theorem emitted_refs_any : forall ar t tg p0 f1 f2 evs st o,
    Den ar t -> flt_tree cx [] t KEntry = Ok tg ->
    dfs_in_order false f1 ar (tsid t) = Ok evs -> emit_body cx f2 ar (tsid t) p0 = Ok st ->
    In (WOp o) (out st) ->
    forall s i, In (s, i) (wop_refs o) -> exists id, In (ERef s id) evs /\ i = ex_id2i cx s id.
  Proof.
    intros ar t tg p0 f1 f2 evs st o HD Hf Hd He Hin s i Hr.
    pose proof (Proofs.Traversal.dfs_in_order_spec false ar t HD) as Hs.
    rewrite (dfs_det _ _ _ _ _ _ _ Hd Hs).
    destruct (emit_body_spec cx ar t tg p0 _ HD Hs Hf) as (st' & He' & Ho & _).
    rewrite (emit_body_det _ _ _ _ _ _ _ _ He He'), Ho in Hin.
    destruct (proj1 flt_in t [] KEntry tg Hf o Hin) as ([ins loc] & Hx & p & Ep & Ee).
    cbn [fst] in Ep. subst ins.
    destruct (encode_refs_in _ _ _ Ee s i Hr) as (id & Hv & ->).
    exists id. split; [|reflexivity].
    assert (HI : In (s, id) (flat_map (fun e => match e with ERef sp id => [(sp, id)] | _ => [] end) (events false t))).
    { rewrite in_order_refs. apply in_flat_map. exists (IPlain p, loc). split; [exact Hx|].
      unfold ref_count. cbn. rewrite ?app_nil_r. exact Hv. }
    apply in_flat_map in HI. destruct HI as (e & He1 & He2).
    destruct e; cbn in He2; try contradiction. destruct He2 as [He2|[]]. injection He2 as -> ->. exact He1.
  Qed.
End OpsIn.

Theorem emitted_refs : forall cx ecx ety rs l eloc p0 ar1 st1 fuel1 f1 evs1 o,
  wfl cx 1 l -> parse_body cx ety rs (flat_list l ++ [(WEnd, eloc)]) = Ok ar1 ->
  emit_body ecx fuel1 ar1 0 p0 = Ok st1 ->
  dfs_in_order false f1 ar1 0 = Ok evs1 ->
  In (WOp o) (out st1) ->
  forall s i, In (s, i) (wop_refs o) -> exists id, In (ERef s id) evs1 /\ i = ex_id2i ecx s id.
Proof.
  intros cx ecx ety rs l eloc p0 ar1 st1 fuel1 f1 evs1 o Hw Hp He Hd.
  rewrite (parse_body_arena cx ety rs l eloc Hw) in Hp. injection Hp as <-.
  pose proof (parsed_arena_den cx ety l eloc Hw) as HD.
  pose proof (flt_parsed_tree cx ecx ety l eloc Hw (enc_ok_all _ _)) as Hf.
  rewrite <- (parsed_tree_tsid cx ety l eloc) in He, Hd.
  exact (emitted_refs_any ecx _ _ _ _ _ _ _ _ o HD Hf Hd He).
Qed.

Print Assumptions map_idx_fixed.
Print Assumptions emitted_refs.

(* an emitted block type is inline, or the emit-time index of a NON-ENTRY type [ty] of the first
   parse's type table which [existing] finds as itself (hence: params non-empty or >= 2 results) *)
Definition bt_shape (cx : pctx) (ecx : ectx) (b : blockty) : Prop :=
  b = BT_Empty \/ (exists t, b = BT_Val t) \/
  exists ty ps' rs', b = BT_Func (ex_id2i ecx S_type ty) /\
    nth_N (px_types cx) ty = Some (ps', rs', false) /\
    existing cx ps' rs' = Some (ST_Multi ty) /\ (ps' <> [] \/ 2 <= length rs').

Lemma nf_bt_shape cx ecx bt : bt_ok cx bt -> bt_shape cx ecx (nf_bt cx ecx bt).
Proof.
  unfold bt_ok, nf_bt, bt_seqty. destruct (bt_tys cx bt) as [[ps rs]|]; [|intros []].
  destruct (existing cx ps rs) as [[[t|]|ty]|] eqn:Ee; [| | |intros H; now elim H]; intros _; cbn [block_type].
  - right. left. eauto.
  - left. reflexivity.
  - right. right. destruct (existing_multi_self _ _ _ _ Ee) as (p & r & H). exists ty, p, r. split; [reflexivity|exact H].
Qed.

Definition bt_shape_w (cx : pctx) (ecx : ectx) (w : wins) : Prop :=
  match w with WBlock b | WLoop b | WIf b => bt_shape cx ecx b | _ => True end.

Theorem emitted_bts : forall cx ecx ety rs l eloc p0 ar1 st1 fuel1,
  wfl cx 1 l -> parse_body cx ety rs (flat_list l ++ [(WEnd, eloc)]) = Ok ar1 ->
  emit_body ecx fuel1 ar1 0 p0 = Ok st1 ->
  Forall (bt_shape_w cx ecx) (out st1).
Proof.
  intros cx ecx ety rs l eloc p0 ar1 st1 fuel1 Hw Hp He.
  refine (emitted_from_source cx ecx (bt_shape_w cx ecx) _ ety rs l eloc p0 ar1 st1 fuel1 Hw Hp He).
  intros [o|bt|bt|bt| | | | | |] Hb; try exact I; [|exact (nf_bt_shape cx ecx bt Hb)..].
  cbn [renw]. unfold nf_op. destruct (encode_plain (ex_id2i ecx) (dec cx o)); exact I.
Qed.

(* how to use it for a second context: the same non-entry type at the position the second parse maps
   the emitted index to, found as itself, and written back at the same index *)
Lemma bt_shape_fixed cx ecx cx2 ecx2 b : bt_shape cx ecx b ->
  (forall ty ps' rs', b = BT_Func (ex_id2i ecx S_type ty) ->
     nth_N (px_types cx) ty = Some (ps', rs', false) -> existing cx ps' rs' = Some (ST_Multi ty) ->
     exists ty2 en, nth_N (px_types cx2) (px_i2id cx2 S_type (ex_id2i ecx S_type ty)) = Some (ps', rs', en) /\
                 existing cx2 ps' rs' = Some (ST_Multi ty2) /\
                 ex_id2i ecx2 S_type ty2 = ex_id2i ecx S_type ty) ->
  nf_bt cx2 ecx2 b = b /\ bt_ok cx2 b.
Proof.
  intros [->|[(t & ->)|(ty & ps' & rs' & -> & Hn & He & _)]] H.
  - split; [apply nf_bt_empty|]. unfold bt_ok. cbn. discriminate.
  - split; [apply nf_bt_val|]. unfold bt_ok. cbn. discriminate.
  - destruct (H ty ps' rs' eq_refl Hn He) as (ty2 & en & Hn2 & He2 & Hi2). split.
    + eapply nf_bt_fixed_func; eassumption.
    + unfold bt_ok. cbn [bt_tys]. rewrite Hn2, He2. discriminate.
Qed.

Print Assumptions emitted_bts.
Print Assumptions bt_shape_fixed.
