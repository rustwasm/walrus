(* C08 (determinism): every hash-ordered or arena-ordered source that emitM sorts is emitted in an
   order fixed by a TOTAL key: each sort agrees on permuted inputs with pairwise distinct keys, and the
   keys are distinct at every call site in emitM.  Only sort_types needs an invariant for that: its key
   (ty_params, ty_results) omits the id, so it is total only on the live non-entry types of an ArenaSet
   whose live items are pairwise distinct ([types_distinct]), which a parsed module has. *)
From Coq Require Import List NArith Arith Lia Bool Permutation Sorted.
Import ListNotations.
From WV Require Import Gen.Ops Model.Common Model.IR Model.Arena Model.Locals Model.ModuleM Model.ParseM Model.EmitM.
From WV Require Import Proofs.Arena Proofs.ArenaSet Proofs.Order Proofs.IndexMaps Proofs.ParsedWf.
Local Open Scope nat_scope.

Lemma NoDup_map_of_inj_in {A B} (f : A -> B) (l : list A) :
  NoDup l -> (forall a b, In a l -> In b l -> f a = f b -> a = b) -> NoDup (map f l).
Proof.
  induction 1 as [|x l Hx ND IH]; intros Hinj; cbn [map]; constructor.
  - rewrite in_map_iff. intros (y & Hy & Hin). apply Hx.
    rewrite (Hinj x y) ; [exact Hin|now left|now right|now symmetry].
  - apply IH. intros a b Ha Hb. apply Hinj; now right.
Qed.

Lemma NoDup_map_compose {A B C} (f : A -> B) (g : B -> C) (l : list A) :
  NoDup (map (fun x => g (f x)) l) -> NoDup (map f l).
Proof.
  induction l as [|x l IH]; cbn [map]; intros ND; [constructor|].
  inversion ND as [|? ? Hx ND']; subst. constructor; [|auto].
  intros Hin. apply Hx. rewrite in_map_iff in *. destruct Hin as (y & Hy & Hin).
  exists y. split; [now rewrite Hy|exact Hin].
Qed.

(* strongest form: no NoDup premise (the sort drops duplicates), and even set-equality suffices
   (Proofs.Order.sort_ids_order_free) *)
Theorem sort_ids_perm_invariant : forall l1 l2, Permutation l1 l2 -> sort_ids l1 = sort_ids l2.
Proof. exact sort_ids_perm_free. Qed.

(* the uniform shape, key = identity *)
Corollary sort_ids_perm_invariant_key : forall l1 l2,
  Permutation l1 l2 -> NoDup (map (fun x : N => x) l1) -> sort_ids l1 = sort_ids l2.
Proof. intros l1 l2 P _. now apply sort_ids_perm_invariant. Qed.

Theorem sort_ids_set_invariant : forall l1 l2, (forall x, In x l1 <-> In x l2) -> sort_ids l1 = sort_ids l2.
Proof. exact sort_ids_order_free. Qed.

(* emit_locals on two permutations (indeed: two enumerations, with any multiplicities) of the same used
   set: same declarations AND same local map *)
Theorem emit_locals_perm_invariant : forall ty args u1 u2, Permutation u1 u2 ->
  emit_locals ty args u1 = emit_locals ty args u2.
Proof.
  intros ty args u1 u2 P. apply emit_locals_order_free.
  intros x; split; apply Permutation_in; auto using Permutation_sym.
Qed.
Corollary emit_locals_perm_invariant_split : forall ty args u1 u2, Permutation u1 u2 ->
  fst (emit_locals ty args u1) = fst (emit_locals ty args u2) /\
  snd (emit_locals ty args u1) = snd (emit_locals ty args u2).
Proof. intros ty args u1 u2 P. now rewrite (emit_locals_perm_invariant ty args u1 u2 P). Qed.
Theorem emit_locals_set_invariant : forall ty args u1 u2, (forall x, In x u1 <-> In x u2) ->
  emit_locals ty args u1 = emit_locals ty args u2.
Proof. exact emit_locals_order_free. Qed.

(* the set emit_function records for the name section is order-free too *)
Theorem ef_used_perm_invariant : forall u1 u2 args, Permutation u1 u2 ->
  sort_ids (u1 ++ args) = sort_ids (u2 ++ args).
Proof. intros u1 u2 args P. apply sort_ids_perm_invariant. now apply Permutation_app_tail. Qed.

Definition func_key (t : N * N * mlocalfunc) : N * N := fst t.

Theorem sort_funcs_perm_invariant : forall l1 l2,
  Permutation l1 l2 -> NoDup (map func_key l1) -> sort_funcs l1 = sort_funcs l2.
Proof.
  intros l1 l2 P ND. rewrite !sort_funcs_isort.
  apply (isort_key_order_free _ f_leb f_leb_total f_leb_trans func_key _ _ f_leb_antisym_key P ND).
Qed.

(* call site: used_local_functions.  The list handed to the sort *)
Definition func_entry (p : N * mfunc) : res (list (N * N * mlocalfunc)) :=
  match fn_kind (snd p) with
  | FK_Local lf => rbind (lf_size lf) (fun sz => Ok [((sz, fst p), lf)])
  | FK_Import _ _ => Ok []
  | FK_Uninit _ => Panic
  end.
Lemma used_local_functions_eq m :
  used_local_functions m =
    rbind (rmapM func_entry (aiter (m_funcs m)))
          (fun l => Ok (map (fun t => (snd (fst t), snd t)) (sort_funcs (concat l)))).
Proof. reflexivity. Qed.

Lemma func_entries_ids : forall ps l, rmapM func_entry ps = Ok l ->
  NoDup (map fst ps) ->
  NoDup (map (fun t : N * N * mlocalfunc => snd (fst t)) (concat l)) /\
  (forall t, In t (concat l) -> In (snd (fst t)) (map fst ps)).
Proof.
  induction ps as [|p ps IH]; intros l E ND; cbn [rmapM] in E.
  - inversion E; subst. cbn. split; [constructor|tauto].
  - destruct (func_entry p) as [y| |] eqn:Ey; cbn [rbind] in E; try discriminate.
    destruct (rmapM func_entry ps) as [ys| |] eqn:Eys; cbn [rbind] in E; try discriminate.
    inversion E; subst; clear E. inversion ND as [|? ? Hp ND']; subst.
    destruct (IH ys eq_refl ND') as [IH1 IH2]. cbn [concat].
    assert (Hy : y = [] \/ exists sz lf, y = [((sz, fst p), lf)]).
    { unfold func_entry in Ey. destruct (fn_kind (snd p)) as [? ?|lf|?]; try discriminate.
      - inversion Ey; auto.
      - destruct (lf_size lf) as [sz| |]; cbn [rbind] in Ey; try discriminate. inversion Ey. right; eauto. }
    destruct Hy as [->|(sz & lf & ->)]; cbn [app map].
    + split; [exact IH1|]. intros t Ht. right. now apply IH2.
    + cbn [fst snd]. split.
      * constructor; [|exact IH1]. rewrite in_map_iff. intros (t & Et & Ht). apply Hp. rewrite <- Et. now apply IH2.
      * intros t [<-|Ht]; [now left|right; now apply IH2].
Qed.

(* the keys handed to the sort are distinct because they contain the arena id of the function *)
Theorem used_funcs_keys_NoDup : forall m l,
  rmapM func_entry (aiter (m_funcs m)) = Ok l -> NoDup (map func_key (concat l)).
Proof.
  intros m l E. apply (NoDup_map_compose func_key snd).
  apply (func_entries_ids _ _ E (aiter_NoDup (m_funcs m))).
Qed.

(* hence: ANY enumeration order of the live functions gives the same emission order *)
Theorem used_funcs_order_free : forall m l l',
  rmapM func_entry (aiter (m_funcs m)) = Ok l -> Permutation (concat l) l' ->
  sort_funcs (concat l) = sort_funcs l'.
Proof. intros m l l' E P. apply sort_funcs_perm_invariant; [exact P|eapply used_funcs_keys_NoDup; eauto]. Qed.

Definition ty_key (p : N * mtype) : list valty * list valty := (ty_params (snd p), ty_results (snd p)).

Lemma valty_code_inj a b : valty_code a = valty_code b -> a = b.
Proof. intros H. apply valty_eqb'_eq. unfold valty_eqb'. now apply N.eqb_eq. Qed.

Lemma vl_cmp_Eq_eq : forall a b, vl_cmp a b = Eq -> a = b.
Proof.
  induction a as [|x a IH]; intros [|y b]; cbn [vl_cmp]; try discriminate; auto.
  destruct (N.compare_spec (valty_code x) (valty_code y)) as [E| |]; try discriminate.
  intros H. f_equal; [now apply valty_code_inj|now apply IH].
Qed.

Lemma ty_le_antisym_key a b : ty_le a b = true -> ty_le b a = true ->
  ty_params a = ty_params b /\ ty_results a = ty_results b.
Proof.
  unfold ty_le.
  rewrite (vl_cmp_antisym (ty_params b) (ty_params a)), (vl_cmp_antisym (ty_results b) (ty_results a)).
  destruct (vl_cmp (ty_params a) (ty_params b)) eqn:P; cbn [CompOpp]; try discriminate.
  destruct (vl_cmp (ty_results a) (ty_results b)) eqn:R; cbn [CompOpp]; try discriminate.
  intros _ _. split; now apply vl_cmp_Eq_eq.
Qed.

Theorem sort_types_perm_invariant : forall l1 l2,
  Permutation l1 l2 -> NoDup (map ty_key l1) -> sort_types l1 = sort_types l2.
Proof.
  intros l1 l2 P ND. rewrite !sort_types_isort.
  apply (isort_key_order_free _ t_leb) with (key := ty_key); [| |intros a b H1 H2|exact P|exact ND].
  - intros a b. apply ty_le_total.
  - intros a b c. unfold t_leb. apply ty_le_trans.
  - unfold ty_key. destruct (ty_le_antisym_key _ _ H1 H2) as [-> ->]. reflexivity.
Qed.

(* without the premise the statement is false: the key does not contain the id *)
Definition ty_nil (e : bool) : mtype := {| ty_params := []; ty_results := []; ty_entry := e; ty_name := None |}.
Theorem sort_types_perm_invariant_refuted :
  exists l1 l2, Permutation l1 l2 /\ sort_types l1 <> sort_types l2.
Proof.
  exists [(0%N, ty_nil false); (1%N, ty_nil false)], [(1%N, ty_nil false); (0%N, ty_nil false)].
  split; [apply perm_swap|]. vm_compute. discriminate.
Qed.

(* call site: emit_types sorts the live non-entry types *)
Definition emitted_types (m : wir) : list (N * mtype) :=
  filter (fun p => negb (ty_entry (snd p))) (live_types m).
Definition emit_types_from (tys0 : list (N * mtype)) (x : x2i) : list wsec * x2i :=
  let tys := sort_types tys0 in
  match tys with
  | [] => ([], x)
  | _ => ([S_Types (map (fun p => (ty_params (snd p), ty_results (snd p))) tys)],
          fold_left (fun x p => push_idx x S_type (fst p)) tys x)
  end.
Lemma emit_types_eq m x : emit_types m x = emit_types_from (emitted_types m) x.
Proof. reflexivity. Qed.

(* the ArenaSet invariant needed: live items are pairwise distinct as HashMap keys *)
Definition types_distinct (s : aset mtype) : Prop :=
  forall id1 id2 v1 v2, aset_index s id1 = Some v1 -> aset_index s id2 = Some v2 ->
    mtype_eqb v1 v2 = true -> id1 = id2.

Lemma mtype_eqb_sym_eq x y : mtype_eqb x y = mtype_eqb y x.
Proof.
  destruct (mtype_eqb x y) eqn:E1, (mtype_eqb y x) eqn:E2; auto.
  - apply mtype_eqb_sym in E1. congruence.
  - apply mtype_eqb_sym in E2. congruence.
Qed.

(* it follows from the ArenaSet invariant of Proofs/ArenaSet.v (kept by every insert / remove history) *)
Theorem SInv_types_distinct s : SInv mtype mtype_eqb s -> types_distinct s.
Proof.
  intros HS id1 id2 v1 v2 H1 H2 He.
  apply (live_distinct mtype mtype_eqb mtype_eqb_sym_eq mtype_eqb_trans s id1 id2 v1 v2 HS H1 H2 He).
Qed.

Lemma live_types_in m n v : In (N.of_nat n, v) (live_types m) <-> aset_index (m_types m) n = Some v.
Proof.
  unfold live_types, aset_index, aset_iter. rewrite <- (iter_live mtype (fun x => x) mtype_eqb). rewrite in_map_iff. split.
  - intros ([n' v'] & E & Hin). cbn [fst snd] in E. inversion E; subst. apply Nat2N.inj in H0. now subst.
  - intros Hin. exists (n, v). auto.
Qed.
Lemma live_types_NoDup m : NoDup (map fst (live_types m)).
Proof.
  unfold live_types. rewrite map_map. cbn [fst].
  rewrite <- (map_map fst N.of_nat). apply NoDup_map_inj; [intros x y; apply Nat2N.inj|].
  apply lt_sorted_NoDup. apply iter_creation_order.
Qed.
Lemma live_types_id m p : In p (live_types m) -> exists n, p = (N.of_nat n, snd p).
Proof.
  unfold live_types. rewrite in_map_iff. intros ([n v] & <- & _). exists n. reflexivity.
Qed.

Theorem emitted_types_keys_NoDup m : types_distinct (m_types m) -> NoDup (map ty_key (emitted_types m)).
Proof.
  intros TD. unfold emitted_types.
  assert (NDl : NoDup (live_types m)) by (eapply NoDup_map_inv, live_types_NoDup).
  apply NoDup_map_of_inj_in; [now apply NoDup_filter|].
  intros a b Ha Hb Hk. apply filter_In in Ha, Hb. destruct Ha as [Ha Ea], Hb as [Hb Eb].
  apply (NoDup_map_inj_in fst (live_types m) (live_types_NoDup m)); auto.
  destruct (live_types_id _ _ Ha) as [na Pa], (live_types_id _ _ Hb) as [nb Pb].
  rewrite Pa, Pb in *. cbn [fst snd] in *. f_equal.
  apply live_types_in in Ha, Hb. eapply TD; eauto.
  apply mtype_eqb_spec. unfold ty_key in Hk. cbn [snd] in Hk. inversion Hk.
  apply negb_true_iff in Ea, Eb. repeat split; congruence.
Qed.

(* hence ANY enumeration order of the type arena gives the same type section and the same type indices *)
Theorem emit_types_order_free m x l' :
  types_distinct (m_types m) -> Permutation (emitted_types m) l' ->
  emit_types m x = emit_types_from l' x.
Proof.
  intros TD P. rewrite emit_types_eq. unfold emit_types_from.
  now rewrite (sort_types_perm_invariant _ _ P (emitted_types_keys_NoDup m TD)).
Qed.

Theorem sort_nm_perm_invariant : forall A (l1 l2 : list (N * A)),
  Permutation l1 l2 -> NoDup (map fst l1) -> sort_nm l1 = sort_nm l2.
Proof. exact sort_nm_order_free. Qed.

(* call site: [named] (functions, types, tables, memories, globals, elements, data).  The keys are the
   indices [get_idx x s id]; they are distinct when the ids are (arena iteration) and the id -> index map
   of the space has no repeated index *)
Definition named_entry {A} (x : x2i) (s : space) (getn : A -> option str) (p : N * A) : res (list (N * str)) :=
  match getn (snd p) with
  | Some n => rbind (get_idx x s (fst p)) (fun i => Ok [(i, n)])
  | None => Ok []
  end.
Lemma named_eq {A} x s (getn : A -> option str) l :
  named x s getn l = rbind (rmapM (named_entry x s getn) l) (fun r => Ok (sort_nm (concat r))).
Proof. reflexivity. Qed.

Lemma lookup_i_in l id i : lookup_i l id = Ok i -> In (id, i) l.
Proof.
  unfold lookup_i. destruct (find _ l) as [p|] eqn:F; [|discriminate]. intros H; inversion H; subst.
  apply find_some in F. destruct F as [Hin E]. apply N.eqb_eq in E. subst. destruct p; exact Hin.
Qed.
Lemma lookup_i_inj l id1 id2 i : NoDup (map snd l) -> lookup_i l id1 = Ok i -> lookup_i l id2 = Ok i -> id1 = id2.
Proof.
  intros ND H1 H2. apply lookup_i_in in H1, H2.
  pose proof (NoDup_map_inj_in snd l ND _ _ H1 H2 eq_refl) as E. now inversion E.
Qed.

Lemma rmapM_cons_Ok {A B} (f : A -> res B) a l r : rmapM f (a :: l) = Ok r ->
  exists y ys, f a = Ok y /\ rmapM f l = Ok ys /\ r = y :: ys.
Proof.
  cbn [rmapM]. destruct (f a) as [y| |]; cbn [rbind]; try discriminate.
  destruct (rmapM f l) as [ys| |]; cbn [rbind]; try discriminate.
  intros H; inversion H; eauto.
Qed.

Lemma named_entries_keys {A} x s (getn : A -> option str) : forall l r,
  rmapM (named_entry x s getn) l = Ok r -> NoDup (map fst l) -> NoDup (map snd (space_map x s)) ->
  NoDup (map fst (concat r)) /\
  (forall i, In i (map fst (concat r)) -> exists id, In id (map fst l) /\ get_idx x s id = Ok i).
Proof.
  induction l as [|p l IH]; intros r E ND NI.
  - cbn in E. inversion E; subst. cbn. split; [constructor|tauto].
  - apply rmapM_cons_Ok in E. destruct E as (y & ys & Ey & Eys & ->).
    inversion ND as [|? ? Hp ND']; subst. destruct (IH ys Eys ND' NI) as [IH1 IH2]. cbn [concat].
    unfold named_entry in Ey. destruct (getn (snd p)) as [n|].
    + destruct (get_idx x s (fst p)) as [i| |] eqn:Ei; cbn [rbind] in Ey; try discriminate.
      inversion Ey; subst; clear Ey. cbn [app map fst]. split.
      * constructor; [|exact IH1]. intros Hin. destruct (IH2 _ Hin) as (id & Hid & Eid).
        apply Hp. unfold get_idx in *. now rewrite (lookup_i_inj _ _ _ _ NI Ei Eid).
      * intros j [<-|Hj]; [exists (fst p); split; [now left|exact Ei]|].
        destruct (IH2 _ Hj) as (id & Hid & Eid). exists id. split; [now right|exact Eid].
    + inversion Ey; subst. cbn [app]. split; [exact IH1|].
      intros j Hj. destruct (IH2 _ Hj) as (id & Hid & Eid). exists id. split; [now right|exact Eid].
Qed.

Theorem named_keys_NoDup : forall A x s (getn : A -> option str) l r,
  rmapM (named_entry x s getn) l = Ok r -> NoDup (map fst l) -> NoDup (map snd (space_map x s)) ->
  NoDup (map fst (concat r)).
Proof. intros A x s getn l r E ND NI. apply (named_entries_keys x s getn l r E ND NI). Qed.

(* iterating the container in another order permutes what is handed to the sort *)
Lemma rmapM_perm {A B} (f : A -> res (list B)) l1 l2 : Permutation l1 l2 ->
  forall r1, rmapM f l1 = Ok r1 -> exists r2, rmapM f l2 = Ok r2 /\ Permutation (concat r1) (concat r2).
Proof.
  induction 1 as [|a l1 l2 P IH|a b l|l1 l2 l3 P1 IH1 P2 IH2]; intros r1 E.
  - exists r1. split; [exact E|reflexivity].
  - apply rmapM_cons_Ok in E. destruct E as (y & ys & Ey & Eys & ->).
    destruct (IH _ Eys) as (ys' & E' & P'). exists (y :: ys'). split.
    + cbn [rmapM]. rewrite Ey, E'. reflexivity.
    + cbn [concat]. now apply Permutation_app_head.
  - apply rmapM_cons_Ok in E. destruct E as (y & ys0 & Ey & E & ->).
    apply rmapM_cons_Ok in E. destruct E as (z & ys & Ez & Eys & ->).
    exists (z :: y :: ys). split.
    + cbn [rmapM]. rewrite Ey, Ez, Eys. reflexivity.
    + cbn [concat]. rewrite !app_assoc. apply Permutation_app_tail, Permutation_app_comm.
  - destruct (IH1 _ E) as (r2 & E2 & Q2). destruct (IH2 _ E2) as (r3 & E3 & Q3).
    exists r3. split; [exact E3|eapply perm_trans; eauto].
Qed.

Theorem named_perm_invariant : forall A x s (getn : A -> option str) l1 l2 nm,
  Permutation l1 l2 -> NoDup (map fst l1) -> NoDup (map snd (space_map x s)) ->
  named x s getn l1 = Ok nm -> named x s getn l2 = Ok nm.
Proof.
  intros A x s getn l1 l2 nm P ND NI. rewrite !named_eq.
  destruct (rmapM (named_entry x s getn) l1) as [r1| |] eqn:E1; cbn [rbind]; try discriminate.
  destruct (rmapM_perm _ _ _ P _ E1) as (r2 & E2 & Q). rewrite E2. cbn [rbind].
  intros H; inversion H; subst; clear H. f_equal. symmetry.
  apply sort_nm_perm_invariant; [exact Q|]. eapply named_keys_NoDup; eauto.
Qed.

(* the same for the function order: ANY iteration order of the function arena *)
Theorem used_funcs_iteration_order_free : forall ps1 ps2 l1,
  Permutation ps1 ps2 -> NoDup (map fst ps1) -> rmapM func_entry ps1 = Ok l1 ->
  exists l2, rmapM func_entry ps2 = Ok l2 /\ sort_funcs (concat l1) = sort_funcs (concat l2).
Proof.
  intros ps1 ps2 l1 P ND E. destruct (rmapM_perm _ _ _ P _ E) as (l2 & E2 & Q).
  exists l2. split; [exact E2|]. apply sort_funcs_perm_invariant; [exact Q|].
  apply (NoDup_map_compose func_key snd). apply (func_entries_ids _ _ E ND).
Qed.

(* call site: the per-function local names in emit_names.  Keys = slots of the local map, which
   emit_locals assigns injectively (Proofs.Order.locals_distinct_slots) *)
Definition local_name_entries (m : wir) (lmap : list (N * N)) (used : list N) : list (N * str) :=
  flat_map (fun lid => match aget (m_locals m) lid with
                       | Some lo => match lo_name lo, find (fun q => N.eqb (fst q) lid) lmap with
                                    | Some n, Some q => [(snd q, n)] | _, _ => [] end
                       | None => [] end) used.

Lemma local_name_entries_keys m lmap : NoDup (map snd lmap) -> forall used, NoDup used ->
  NoDup (map fst (local_name_entries m lmap used)) /\
  (forall i, In i (map fst (local_name_entries m lmap used)) -> exists lid, In lid used /\ In (lid, i) lmap).
Proof.
  intros NI. induction used as [|u used IH]; intros ND.
  - cbn. split; [constructor|tauto].
  - inversion ND as [|? ? Hu ND']; subst. destruct (IH ND') as [IH1 IH2].
    unfold local_name_entries in *. cbn [flat_map].
    set (rest := flat_map _ used) in *.
    assert (Hrest : forall i, In i (map fst rest) -> exists lid, In lid (u :: used) /\ In (lid, i) lmap).
    { intros i Hi. destruct (IH2 _ Hi) as (lid & H1 & H2). exists lid. split; [now right|exact H2]. }
    destruct (aget (m_locals m) u) as [lo|]; [|cbn [app]; split; [exact IH1|exact Hrest]].
    destruct (lo_name lo) as [n|]; [|cbn [app]; split; [exact IH1|exact Hrest]].
    destruct (find (fun q => N.eqb (fst q) u) lmap) as [q|] eqn:F; [|cbn [app]; split; [exact IH1|exact Hrest]].
    apply find_some in F. destruct F as [Hq Eq]. apply N.eqb_eq in Eq. destruct q as [qi qs]. cbn [fst snd] in *. subst qi.
    cbn [app map fst]. split.
    + constructor; [|exact IH1]. intros Hin. destruct (IH2 _ Hin) as (lid & H1 & H2).
      pose proof (NoDup_map_inj_in snd lmap NI _ _ Hq H2 eq_refl) as E. inversion E; subst. contradiction.
    + intros i [<-|Hi]; [exists u; split; [now left|exact Hq]|now apply Hrest].
Qed.

Theorem local_names_keys_NoDup : forall m ty args u decls lmap used,
  NoDup args -> emit_locals ty args u = (decls, lmap) -> NoDup used ->
  NoDup (map fst (local_name_entries m lmap used)).
Proof.
  intros m ty args u decls lmap used NA E NU.
  apply local_name_entries_keys; [|exact NU]. apply (locals_distinct_slots ty args u decls lmap NA E).
Qed.

(* every arena item is found by the de-duplication map, at its own id (third clause of
   Proofs.ArenaSet.SInv; stated with [lookup], hence stable under renaming) *)
Definition types_complete (s : aset mtype) : Prop :=
  forall id v, nth_error (items (Arena.arena s)) id = Some v -> lookup mtype_eqb (already s) v = Some id.

Lemma lookup_mtype_eqb l v v' : mtype_eqb v v' = true -> lookup mtype_eqb l v = lookup mtype_eqb l v'.
Proof. apply (lookup_eqA mtype mtype_eqb mtype_eqb_sym_eq mtype_eqb_trans). Qed.

Theorem types_complete_distinct s : types_complete s -> types_distinct s.
Proof.
  intros C id1 id2 v1 v2 H1 H2 He.
  assert (G : forall id v, aset_index s id = Some v -> nth_error (items (Arena.arena s)) id = Some v).
  { intros id v. unfold aset_index, index, get. destruct (is_dead _ _); [discriminate|auto]. }
  apply G, C in H1. apply G, C in H2. rewrite (lookup_mtype_eqb _ _ _ He) in H1. congruence.
Qed.

Lemma types_complete_empty : types_complete aset_empty.
Proof. intros [|id] v H; discriminate. Qed.

Lemma types_insert_complete m t m1 id :
  types_complete (m_types m) -> types_insert m t = (m1, id) -> types_complete (m_types m1).
Proof.
  intros C E. unfold types_insert, insert in E.
  destruct (lookup mtype_eqb (already (m_types m)) t) as [i|] eqn:El.
  - inversion E; subst; clear E. wcbn. exact C.
  - wcbn. inversion E; subst; clear E. wcbn. intros i v Hn. wcbn. cbn [lookup].
    destruct (Nat.lt_ge_cases i (length (items (Arena.arena (m_types m))))) as [Hlt|Hge].
    + rewrite nth_error_app1 in Hn by exact Hlt. pose proof (C _ _ Hn) as Hl.
      destruct (mtype_eqb t v) eqn:Etv; [|exact Hl].
      rewrite (lookup_mtype_eqb _ _ _ Etv) in El. congruence.
    + rewrite nth_error_app2 in Hn by exact Hge.
      destruct (i - length (items (Arena.arena (m_types m)))) as [|k] eqn:Ek; cbn in Hn; [|destruct k; discriminate].
      inversion Hn; subst v. rewrite mtype_eqb_refl'. f_equal. unfold next_id. lia.
Qed.

Lemma types_complete_rename (s : aset mtype) (a' : tarena mtype) :
  types_complete s -> length (items a') = length (items (Arena.arena s)) ->
  items_eqv (items (Arena.arena s)) (items a') ->
  types_complete {| Arena.arena := a'; already := already s |}.
Proof.
  intros C L Q id v' Hn. wcbn.
  assert (Hlt : id < length (items (Arena.arena s))).
  { rewrite <- L. apply nth_error_Some. congruence. }
  destruct (nth_error (items (Arena.arena s)) id) as [v|] eqn:Ev; [|apply nth_error_None in Ev; lia].
  destruct (Q _ _ Ev) as (v2 & Hv2 & He). rewrite Hn in Hv2. inversion Hv2; subst v2.
  rewrite <- (lookup_mtype_eqb _ _ _ He). now apply C.
Qed.

Theorem parseM_types_complete : forall cf ver w s,
  parseM cf ver w = POk s -> types_complete (m_types (ps_m s)).
Proof.
  intros cf ver w s. apply (parseM_types_inv (fun t _ => types_complete t)); [| |apply types_complete_empty].
  - intros m t m1 id _ C E. pose proof (types_insert_complete _ _ _ _ C E) as C1. split; [exact C1|intros _; exact C1].
  - intros t a' _ L _ Q C. exact (types_complete_rename t a' C L Q).
Qed.

Theorem parseM_types_distinct : forall cf ver w s,
  parseM cf ver w = POk s -> types_distinct (m_types (ps_m s)).
Proof. intros cf ver w s E. eapply types_complete_distinct, parseM_types_complete, E. Qed.

(* a parsed module: the type keys handed to sort_types are pairwise distinct, so the type section and
   the type index map do not depend on the iteration order of the type arena *)
Theorem parsed_types_keys_NoDup : forall cf ver w s,
  parseM cf ver w = POk s -> NoDup (map ty_key (emitted_types (ps_m s))).
Proof. intros cf ver w s E. eapply emitted_types_keys_NoDup, parseM_types_distinct, E. Qed.

Theorem parsed_emit_types_order_free : forall cf ver w s x l',
  parseM cf ver w = POk s -> Permutation (emitted_types (ps_m s)) l' ->
  emit_types (ps_m s) x = emit_types_from l' x.
Proof. intros cf ver w s x l' E P. eapply emit_types_order_free; [eapply parseM_types_distinct, E|exact P]. Qed.

(* [types_wf] (Proofs.IndexMaps) alone does NOT give distinct keys: the premise [types_distinct] is needed *)
Definition dup_types : aset mtype :=
  {| Arena.arena := {| items := [ty_nil false; ty_nil false]; dead := [] |}; already := [(ty_nil false, 0)] |}.
Theorem types_wf_not_enough : types_wf dup_types /\ ~ types_distinct dup_types.
Proof.
  split.
  - split; [reflexivity|]. intros k id [H|[]]. inversion H; subst. exists (ty_nil false). split; reflexivity.
  - intros TD. specialize (TD 0 1 (ty_nil false) (ty_nil false) eq_refl eq_refl eq_refl). discriminate.
Qed.

Print Assumptions sort_ids_perm_invariant.
Print Assumptions emit_locals_perm_invariant.
Print Assumptions sort_funcs_perm_invariant.
Print Assumptions used_funcs_keys_NoDup.
Print Assumptions sort_types_perm_invariant.
Print Assumptions sort_types_perm_invariant_refuted.
Print Assumptions emitted_types_keys_NoDup.
Print Assumptions emit_types_order_free.
Print Assumptions sort_nm_perm_invariant.
Print Assumptions named_keys_NoDup.
Print Assumptions named_perm_invariant.
Print Assumptions used_funcs_iteration_order_free.
Print Assumptions local_names_keys_NoDup.
Print Assumptions parseM_types_distinct.
Print Assumptions parsed_types_keys_NoDup.
Print Assumptions parsed_emit_types_order_free.
Print Assumptions types_wf_not_enough.
