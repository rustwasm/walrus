(* C01, INSTANTIATION (Model/Inst.v): what the embedder does before the first call - global initialisers, active element
   segments, active data segments, the start function, failure on an out-of-bounds segment - is preserved by the round trip.
   The stages commute with the renaming of the indices in initialisers, segments and `start` ([inst_pre_ren]); the start
   function is run through [mod_roundtrip_equiv_cmod] ([inst_roundtrip]).  Passive / declared segments do not matter.

   ABOUT THE GLOBALS.  Global number [k] is the [k]-th entry of [im_globals] in BOTH modules (an imported global is an entry
   with a constant initialiser; imports come first in both index spaces and walrus keeps the relative order), and the entries
   are evaluated in order.  Hence the hypothesis [H_gpos]: the [k]-th global of the list is bound at the same slot in both
   modules.  Together with the compensation [gslot' (rg g) = gslot g] and an injective [gslot'] this forces [rg k = k] on
   the globals of the list: [inst_roundtrip] does NOT cover an output module that DROPS an unused global (the initial states
   then differ in their domain): that is Proofs/InstGc.v ([inst_roundtrip_gc], with a frame lemma for globals).  The statement
   with an arbitrary injective [rg] and the same list is false: [inst_roundtrip_needs_gpos]. *)
From Coq Require Import List NArith ZArith Bool Lia. Import ListNotations.
From WV Require Import Gen.Ops Model.Common Model.IR Model.ParseFn Model.ParseSpec Model.EmitFn
  Model.BodySpec Model.Sem Model.SemCore Model.SemMod Model.Inst.
From WV Require Import Proofs.SemMod.
From WV Require Run.SemCoreRun Run.SemModRun.

Definition ren_cexpr (rg : N -> N) (e : cexpr) : cexpr := match e with CGlobalGet g => CGlobalGet (rg g) | _ => e end.
Definition ren_glob (rg : N -> N) (d : valty * bool * cexpr) : valty * bool * cexpr :=
  match d with (t, mu, e) => (t, mu, ren_cexpr rg e) end.
Definition ren_eseg (rf rg rtb : N -> N) (s : eseg) : eseg :=
  match s with
  | EActive tb off fs => EActive (rtb tb) (ren_cexpr rg off) (map (option_map rf) fs)
  | EPassive fs => EPassive (map (option_map rf) fs)
  | EDeclared fs => EDeclared (map (option_map rf) fs)
  end.
Definition ren_dseg (rg rm : N -> N) (s : dseg) : dseg :=
  match s with
  | DActive mi off bs => DActive (rm mi) (ren_cexpr rg off) bs
  | DPassive bs => DPassive bs
  end.
(* [im'] is [im] renamed (types and functions apart: they are the business of [mod_roundtrip_equiv_cmod]) *)
Record renamed (rf rg rtb rm : N -> N) (im im' : imod) : Prop := {
  rn_globals : im_globals im' = map (ren_glob rg) (im_globals im);
  rn_mem : im_mem im' = im_mem im;
  rn_table : im_table im' = im_table im;
  rn_elems : im_elems im' = map (ren_eseg rf rg rtb) (im_elems im);
  rn_datas : im_datas im' = map (ren_dseg rg rm) (im_datas im);
  rn_start : im_start im' = option_map rf (im_start im)
}.

Definition pres_map {A B} (f : A -> B) (r : pres A) : pres B :=
  match r with POk a => POk (f a) | PTrap => PTrap | PWrong => PWrong end.

Section Stages.
  Variable rf rg rtb rm : N -> N.
  Variable gslot mslot tslot gslot' mslot' tslot' : N -> N.
  Hypothesis H_gslot : forall g, gslot' (rg g) = gslot g.
  Hypothesis H_tslot : forall tb, tslot' (rtb tb) = tslot tb.
  Hypothesis H_mslot : forall mi, mslot' (rm mi) = mslot mi.

  Lemma eval_cexpr_ren gl e : eval_cexpr gslot' gl (ren_cexpr rg e) = eval_cexpr gslot gl e.
  Proof. destruct e as [z|z|g]; cbn [ren_cexpr eval_cexpr]; [reflexivity|reflexivity|]. rewrite H_gslot. reflexivity. Qed.

  Lemma inst_globals_ren : forall gs k gl,
    (forall j, (k <= j < k + N.of_nat (length gs))%N -> gslot' j = gslot j) ->
    inst_globals gslot' k (map (ren_glob rg) gs) gl = inst_globals gslot k gs gl.
  Proof.
    induction gs as [|[[t mu] e] gs IH]; intros k gl Hpos; [reflexivity|].
    cbn [map ren_glob inst_globals]. rewrite eval_cexpr_ren.
    destruct (eval_cexpr gslot gl e) as [v|]; [|reflexivity].
    destruct (has_ty t v); [|reflexivity].
    rewrite (Hpos k) by (cbn [length]; lia). apply IH. intros j Hj. apply Hpos. cbn [length]. lia.
  Qed.

  Lemma set_nthN_map {A B} (g : A -> B) (x : A) : forall l i, set_nthN i (g x) (map g l) = map g (set_nthN i x l).
  Proof. induction l as [|y l IH]; intros i; [reflexivity|]. cbn [map set_nthN]. destruct (i =? 0)%N; [reflexivity|]. rewrite IH. reflexivity. Qed.
  Lemma write_tbl_map (g : option N -> option N) : forall fs o t, write_tbl o (map g fs) (map g t) = map g (write_tbl o fs t).
  Proof. induction fs as [|f fs IH]; intros o t; [reflexivity|]. cbn [map write_tbl]. rewrite set_nthN_map. apply IH. Qed.

  Lemma inst_elems_ren gl : forall es t,
    inst_elems gslot' tslot' gl (map (ren_eseg rf rg rtb) es) (map (option_map rf) t) =
    pres_map (map (option_map rf)) (inst_elems gslot tslot gl es t).
  Proof.
    induction es as [|[tb off fs|fs|fs] es IH]; intros t; cbn [map ren_eseg inst_elems]; [reflexivity| |apply IH|apply IH].
    rewrite H_tslot, eval_cexpr_ren. destruct (tslot tb =? 0)%N; [|reflexivity].
    destruct (eval_cexpr gslot gl off) as [[o|o]|]; try reflexivity.
    unfold tbl_size. rewrite !map_length. destruct (o + N.of_nat (length fs) <=? N.of_nat (length t))%N; [|reflexivity].
    rewrite write_tbl_map. apply IH.
  Qed.

  Lemma inst_datas_ren gl pgs : forall ds m,
    inst_datas gslot' mslot' gl pgs (map (ren_dseg rg rm) ds) m = inst_datas gslot mslot gl pgs ds m.
  Proof.
    induction ds as [|[mi off bs|bs] ds IH]; intros m; cbn [map ren_dseg inst_datas]; [reflexivity| |apply IH].
    rewrite H_mslot, eval_cexpr_ren. destruct (mslot mi =? 0)%N; [|reflexivity].
    destruct (eval_cexpr gslot gl off) as [[o|o]|]; try reflexivity.
    destruct (o + N.of_nat (length bs) <=? pgs * page_size)%N; [|reflexivity]. apply IH.
  Qed.

  Lemma map_repeat_none (n : nat) : map (option_map rf) (repeat None n) = repeat None n.
  Proof. induction n as [|n IH]; [reflexivity|]. cbn [repeat map option_map]. rewrite IH. reflexivity. Qed.

  Lemma tbl0_ren im im' : im_table im' = im_table im -> tbl0 im' = map (option_map rf) (tbl0 im).
  Proof. intros H. unfold tbl0. rewrite H. destruct (im_table im) as [[n mx]|]; [|reflexivity]. symmetry. apply map_repeat_none. Qed.

  (* everything before the start function: the same state; the table, renamed.  The data segments of [im'] may be any list
     that writes the same bytes *)
  Lemma inst_pre_ren im im' :
    im_globals im' = map (ren_glob rg) (im_globals im) -> im_mem im' = im_mem im -> im_table im' = im_table im ->
    im_elems im' = map (ren_eseg rf rg rtb) (im_elems im) ->
    (forall gl pgs m, inst_datas gslot' mslot' gl pgs (im_datas im') m = inst_datas gslot mslot gl pgs (im_datas im) m) ->
    (forall k, (k < N.of_nat (length (im_globals im)))%N -> gslot' k = gslot k) ->
    inst_pre im' gslot' mslot' tslot' =
    pres_map (fun p => (map (option_map rf) (fst p), snd p)) (inst_pre im gslot mslot tslot).
  Proof.
    intros Hg Hm Ht He Hd Hpos. unfold inst_pre, pages0, maxp0.
    rewrite Hg, Hm, He, (tbl0_ren _ _ Ht), inst_globals_ren by (intros j Hj; apply Hpos; lia).
    destruct (inst_globals gslot 0 (im_globals im) []) as [gl|]; [|reflexivity].
    rewrite inst_elems_ren.
    destruct (inst_elems gslot tslot gl (im_elems im) (tbl0 im)) as [tbl| |]; cbn [pres_map]; try reflexivity.
    rewrite Hd. destruct (inst_datas gslot mslot gl _ (im_datas im) []) as [m| |]; reflexivity.
  Qed.
End Stages.

(* the same verdict; on success the same initial state, the same table of identities, functions related as
   [mod_roundtrip_equiv] asks ([funcs_ok]: same identities, output bodies, same signatures, agreeing frames) *)
Definition inst_equiv (cxo : N -> pctx) (ecxo : N -> ectx) (r r' : inst_result) : Prop :=
  match r, r' with
  | IOk E s0, IOk E' s0' => s0' = s0 /\ me_tbl E' = me_tbl E /\ funcs_ok E E' cxo ecxo
  | ITrap, ITrap | IWrong, IWrong | IExhausted, IExhausted => True
  | _, _ => False
  end.

(* equivalent instances answer every call alike *)
Lemma inst_equiv_call cxo ecxo r r' : inst_equiv cxo ecxo r r' ->
  forall k fuel f args, call_after r' k fuel f args = call_after r k fuel f args.
Proof.
  intros H k fuel f args. destruct r as [E s0| | |], r' as [E' s0'| | |]; cbn [inst_equiv] in H; try contradiction; try reflexivity.
  destruct H as (-> & Htbl & Hf). cbn [call_after]. f_equal.
  exact (mod_roundtrip_equiv E E' cxo ecxo Hf Htbl k fuel f args s0).
Qed.

Section InstRoundtrip.
  Variable im im' : imod.
  Variable lslot lslot' : N -> N -> N.
  Variable fslot gslot mslot tslot fslot' gslot' mslot' tslot' : N -> N.
  Variable cxo : N -> pctx.
  Variable ecxo : N -> ectx.
  Variable rf rg rtb rm : N -> N.
  Notation Eof tbl := (env_of (cmod_of im tbl) lslot fslot gslot mslot tslot).
  Notation Eof' tbl := (env_of (cmod_of im' (map (option_map rf) tbl)) lslot' fslot' gslot' mslot' tslot').

  (* initialisers, segments, start: renamed; the slot maps compensate *)
  Hypothesis H_ren : renamed rf rg rtb rm im im'.
  Hypothesis H_gslot : forall g, gslot' (rg g) = gslot g.
  Hypothesis H_gpos : forall k, (k < N.of_nat (length (im_globals im)))%N -> gslot' k = gslot k.
  Hypothesis H_tslot : forall tb, tslot' (rtb tb) = tslot tb.
  Hypothesis H_mslot : forall mi, mslot' (rm mi) = mslot mi.
  (* the premises of [mod_roundtrip_equiv_cmod], for whatever table instantiation builds *)
  Hypothesis H_fslot : forall i, fslot' (rf i) = fslot i.
  Hypothesis H_inj : forall i i2 d d2, nth_optN i (im_funcs im) = Some d -> nth_optN i2 (im_funcs im) = Some d2 ->
    fslot i = fslot i2 -> i = i2.
  Hypothesis H_surj : forall j d', nth_optN j (im_funcs im') = Some d' -> exists i d, nth_optN i (im_funcs im) = Some d /\ rf i = j.
  Hypothesis H_fn : forall tbl i ti ls body, nth_optN i (im_funcs im) = Some (ti, ls, body) ->
    fn_ok (Eof tbl) (Eof' tbl) cxo ecxo (fslot i) body /\
    exists ti' ls', nth_optN (rf i) (im_funcs im') = Some (ti', ls', out_body (cxo (fslot i)) (ecxo (fslot i)) body) /\
                    nth_optN ti' (im_tys im') = nth_optN ti (im_tys im) /\
                    frames_agree (Eof tbl) (Eof' tbl) (fslot i) ti ls ls' body.

  Lemma inst_funcs_ok tbl : funcs_ok (Eof tbl) (Eof' tbl) cxo ecxo.
  Proof.
    exact (cmod_funcs_ok (cmod_of im tbl) (cmod_of im' (map (option_map rf) tbl)) lslot lslot' fslot gslot mslot tslot
             fslot' gslot' mslot' tslot' cxo ecxo rf H_fslot H_inj H_surj (H_fn tbl)).
  Qed.
  Lemma inst_tbl_eq tbl : me_tbl (Eof' tbl) = me_tbl (Eof tbl).
  Proof.
    cbn [me_tbl env_of cmod_of cm_table]. rewrite map_map. apply map_ext. intros [j|]; [|reflexivity].
    cbn [option_map]. rewrite H_fslot. reflexivity.
  Qed.

  (* 1. instantiation of the renamed module: same verdict, same state, related environments *)
  Theorem inst_roundtrip : forall fuel k,
    inst_equiv cxo ecxo (instantiate fuel k im lslot fslot gslot mslot tslot)
                        (instantiate fuel k im' lslot' fslot' gslot' mslot' tslot').
  Proof.
    intros fuel k. unfold instantiate. pose proof H_ren as [Hg Hm Ht He Hd Hs].
    assert (Hdat : forall gl pgs m, inst_datas gslot' mslot' gl pgs (im_datas im') m = inst_datas gslot mslot gl pgs (im_datas im) m).
    { intros gl pgs m. rewrite Hd. exact (inst_datas_ren rg rm gslot mslot gslot' mslot' H_gslot H_mslot gl pgs _ m). }
    rewrite (inst_pre_ren rf rg rtb gslot mslot tslot gslot' mslot' tslot' H_gslot H_tslot im im' Hg Hm Ht He Hdat H_gpos).
    destruct (inst_pre im gslot mslot tslot) as [[tbl s0]| |]; cbn [pres_map fst snd inst_equiv]; try exact I.
    rewrite Hs.
    destruct (im_start im) as [f|]; cbn [option_map].
    - rewrite H_fslot, (mod_roundtrip_equiv (Eof tbl) (Eof' tbl) cxo ecxo (inst_funcs_ok tbl) (inst_tbl_eq tbl)).
      destruct (run_mod (Eof tbl) k fuel (fslot f) [] s0) as [[s|d s|[| |] s| |]|]; cbn [after_start inst_equiv]; try exact I.
      destruct (stk s); cbn [inst_equiv]; [|exact I].
      split; [reflexivity|]. split; [apply inst_tbl_eq|apply inst_funcs_ok].
    - cbn [inst_equiv]. split; [reflexivity|]. split; [apply inst_tbl_eq|apply inst_funcs_ok].
  Qed.

  (* 2. instantiate, then call the function of any identity on any arguments (any depth, any fuel): the same *)
  Theorem inst_then_call_roundtrip : forall fuel k k2 fuel2 f args,
    call_after (instantiate fuel k im' lslot' fslot' gslot' mslot' tslot') k2 fuel2 f args =
    call_after (instantiate fuel k im lslot fslot gslot mslot tslot) k2 fuel2 f args.
  Proof.
    intros fuel k. exact (inst_equiv_call cxo ecxo _ _ (inst_roundtrip fuel k)).
  Qed.
End InstRoundtrip.

Section Oob.
  Variable gslot mslot tslot : N -> N.

  Lemma inst_elems_oob gl tb off fs o post : forall pre t t1,
    inst_elems gslot tslot gl pre t = POk t1 ->
    tslot tb = 0%N -> eval_cexpr gslot gl off = Some (VI32 o) -> (tbl_size t1 < o + N.of_nat (length fs))%N ->
    inst_elems gslot tslot gl (pre ++ EActive tb off fs :: post) t = PTrap.
  Proof.
    induction pre as [|[tb0 off0 fs0|fs0|fs0] pre IH]; intros t t1 Hpre Ht Ho Hb.
    - cbn [inst_elems] in Hpre. injection Hpre as <-. cbn [app inst_elems]. rewrite Ht, Ho. cbn [N.eqb].
      destruct (N.leb_spec (o + N.of_nat (length fs)) (tbl_size t)); [lia|reflexivity].
    - cbn [app inst_elems] in *. destruct (tslot tb0 =? 0)%N; [|discriminate Hpre].
      destruct (eval_cexpr gslot gl off0) as [[o0|o0]|]; try discriminate Hpre.
      destruct (o0 + N.of_nat (length fs0) <=? tbl_size t)%N; [|discriminate Hpre]. eapply IH; eassumption.
    - cbn [app inst_elems] in *. eapply IH; eassumption.
    - cbn [app inst_elems] in *. eapply IH; eassumption.
  Qed.
  Lemma inst_datas_oob gl pgs mi off bs o post : forall pre m m1,
    inst_datas gslot mslot gl pgs pre m = POk m1 ->
    mslot mi = 0%N -> eval_cexpr gslot gl off = Some (VI32 o) -> (pgs * page_size < o + N.of_nat (length bs))%N ->
    inst_datas gslot mslot gl pgs (pre ++ DActive mi off bs :: post) m = PTrap.
  Proof.
    induction pre as [|[mi0 off0 bs0|bs0] pre IH]; intros m m1 Hpre Hm Ho Hb.
    - cbn [app inst_datas]. rewrite Hm, Ho. cbn [N.eqb].
      destruct (N.leb_spec (o + N.of_nat (length bs)) (pgs * page_size)); [lia|reflexivity].
    - cbn [app inst_datas] in *. destruct (mslot mi0 =? 0)%N; [|discriminate Hpre].
      destruct (eval_cexpr gslot gl off0) as [[o0|o0]|]; try discriminate Hpre.
      destruct (o0 + N.of_nat (length bs0) <=? pgs * page_size)%N; [|discriminate Hpre]. eapply IH; eassumption.
    - cbn [app inst_datas] in *. eapply IH; eassumption.
  Qed.

  (* an active ELEMENT segment that does not fit the table (as the earlier segments - all in bounds - left it: its size is
     the declared one) traps, whatever element segments, data segments and start function follow *)
  Theorem inst_oob_traps_elem : forall fuel k im lslot fslot pre tb off fs post gl t1 o,
    im_elems im = pre ++ EActive tb off fs :: post ->
    inst_globals gslot 0 (im_globals im) [] = Some gl ->
    inst_elems gslot tslot gl pre (tbl0 im) = POk t1 ->
    tslot tb = 0%N -> eval_cexpr gslot gl off = Some (VI32 o) -> (tbl_size t1 < o + N.of_nat (length fs))%N ->
    instantiate fuel k im lslot fslot gslot mslot tslot = ITrap.
  Proof.
    intros fuel k im lslot fslot pre tb off fs post gl t1 o He Hg Hpre Ht Ho Hb.
    unfold instantiate, inst_pre. rewrite Hg, He, (inst_elems_oob gl tb off fs o post pre _ t1 Hpre Ht Ho Hb). reflexivity.
  Qed.
  (* an active DATA segment that does not fit the memory traps, whatever data segments and start function follow *)
  Theorem inst_oob_traps_data : forall fuel k im lslot fslot pre mi off bs post gl tbl m1 o,
    im_datas im = pre ++ DActive mi off bs :: post ->
    inst_globals gslot 0 (im_globals im) [] = Some gl ->
    inst_elems gslot tslot gl (im_elems im) (tbl0 im) = POk tbl ->
    inst_datas gslot mslot gl (pages0 im) pre [] = POk m1 ->
    mslot mi = 0%N -> eval_cexpr gslot gl off = Some (VI32 o) -> (pages0 im * page_size < o + N.of_nat (length bs))%N ->
    instantiate fuel k im lslot fslot gslot mslot tslot = ITrap.
  Proof.
    intros fuel k im lslot fslot pre mi off bs post gl tbl m1 o Hd Hg He Hpre Hm Ho Hb.
    unfold instantiate, inst_pre. rewrite Hg, He, Hd, (inst_datas_oob gl _ mi off bs o post pre _ m1 Hpre Hm Ho Hb). reflexivity.
  Qed.

  (* the size of the table never changes: "does not fit" can be read off the declaration *)
  Lemma set_nthN_length {A} (x : A) : forall l i, length (set_nthN i x l) = length l.
  Proof. induction l as [|y l IH]; intros i; [reflexivity|]. cbn [set_nthN]. destruct (i =? 0)%N; cbn [length]; [reflexivity|]. rewrite IH. reflexivity. Qed.
  Lemma write_tbl_length : forall fs o t, length (write_tbl o fs t) = length t.
  Proof. induction fs as [|f fs IH]; intros o t; [reflexivity|]. cbn [write_tbl]. rewrite IH. apply set_nthN_length. Qed.
  Lemma inst_elems_size gl : forall es t t1, inst_elems gslot tslot gl es t = POk t1 -> tbl_size t1 = tbl_size t.
  Proof.
    induction es as [|[tb off fs|fs|fs] es IH]; intros t t1 H; cbn [inst_elems] in H.
    - injection H as <-. reflexivity.
    - destruct (tslot tb =? 0)%N; [|discriminate H]. destruct (eval_cexpr gslot gl off) as [[o|o]|]; try discriminate H.
      destruct (o + N.of_nat (length fs) <=? tbl_size t)%N; [|discriminate H].
      rewrite (IH _ _ H). unfold tbl_size. rewrite write_tbl_length. reflexivity.
    - apply IH, H.
    - apply IH, H.
  Qed.
  Lemma tbl0_size im : tbl_size (tbl0 im) = match im_table im with Some (n, _) => n | None => 0%N end.
  Proof. unfold tbl0, tbl_size. destruct (im_table im) as [[n mx]|]; [|reflexivity]. rewrite repeat_length. lia. Qed.
End Oob.

Definition e_passive (s : eseg) : bool := match s with EActive _ _ _ => false | _ => true end.
Definition d_passive (s : dseg) : bool := match s with DActive _ _ _ => false | _ => true end.
(* [l'] is [l] without some of its passive entries *)
Inductive dropped {A} (passive : A -> bool) : list A -> list A -> Prop :=
| dr_nil : dropped passive [] []
| dr_keep x l l' : dropped passive l l' -> dropped passive (x :: l) (x :: l')
| dr_drop x l l' : passive x = true -> dropped passive l l' -> dropped passive (x :: l) l'.

Lemma inst_elems_dropped gslot tslot gl es es' : dropped e_passive es es' ->
  forall t, inst_elems gslot tslot gl es' t = inst_elems gslot tslot gl es t.
Proof.
  induction 1 as [|x l l' _ IH|x l l' Hp _ IH]; intros t; [reflexivity| |].
  - destruct x as [tb off fs|fs|fs]; cbn [inst_elems]; [|apply IH|apply IH].
    destruct (tslot tb =? 0)%N; [|reflexivity]. destruct (eval_cexpr gslot gl off) as [[o|o]|]; try reflexivity.
    destruct (o + N.of_nat (length fs) <=? tbl_size t)%N; [apply IH|reflexivity].
  - destruct x as [tb off fs|fs|fs]; [discriminate Hp| |]; cbn [inst_elems]; apply IH.
Qed.
Lemma inst_datas_dropped gslot mslot gl pgs ds ds' : dropped d_passive ds ds' ->
  forall m, inst_datas gslot mslot gl pgs ds' m = inst_datas gslot mslot gl pgs ds m.
Proof.
  induction 1 as [|x l l' _ IH|x l l' Hp _ IH]; intros m; [reflexivity| |].
  - destruct x as [mi off bs|bs]; cbn [inst_datas]; [|apply IH].
    destruct (mslot mi =? 0)%N; [|reflexivity]. destruct (eval_cexpr gslot gl off) as [[o|o]|]; try reflexivity.
    destruct (o + N.of_nat (length bs) <=? pgs * page_size)%N; [apply IH|reflexivity].
  - destruct x as [mi off bs|bs]; [discriminate Hp|]. cbn [inst_datas]. apply IH.
Qed.
(* removing any passive / declared element segments and any passive data segments changes NOTHING: the same verdict, the same
   state, the same environment *)
Theorem inst_dropping_passive_is_invisible : forall fuel k im im' lslot fslot gslot mslot tslot,
  im_tys im' = im_tys im -> im_funcs im' = im_funcs im -> im_globals im' = im_globals im -> im_mem im' = im_mem im ->
  im_table im' = im_table im -> im_start im' = im_start im ->
  dropped e_passive (im_elems im) (im_elems im') -> dropped d_passive (im_datas im) (im_datas im') ->
  instantiate fuel k im' lslot fslot gslot mslot tslot = instantiate fuel k im lslot fslot gslot mslot tslot.
Proof.
  intros fuel k im im' lslot fslot gslot mslot tslot Hty Hfu Hg Hm Ht Hs He Hd.
  assert (Hpre : inst_pre im' gslot mslot tslot = inst_pre im gslot mslot tslot).
  { unfold inst_pre, tbl0, pages0, maxp0. rewrite Hg, Hm, Ht.
    destruct (inst_globals gslot 0 (im_globals im) []) as [gl|]; [|reflexivity].
    rewrite (inst_elems_dropped gslot tslot gl _ _ He), (inst_datas_dropped gslot mslot gl _ _ _ Hd). reflexivity. }
  unfold instantiate. rewrite Hpre, Hs. unfold cmod_of. rewrite Hty, Hfu. reflexivity.
Qed.

Module Ex.
  Local Open Scope N_scope.
  Definition P (o : wop) : rt := RPlain o 0.
  Definition I (z : Z) : rt := P (W_I32Const z).
  Definition ma (off : N) : w_memarg := {| wa_align := 0; wa_offset := off; wa_memory := 0 |}.
  (* types: 0 = [i32] -> [i32]; 1 = [] -> [] *)
  Definition tys : list (list valty * list valty) := [([VT_I32], [VT_I32]); ([], [])].
  (* 0: inc;  1: apply x = call_indirect (type 0) at slot 1 on x, plus global 1;  2: the START function: sets global 1, stores to memory *)
  Definition inc_b : list rt := [ P (W_LocalGet 0); I 1; P W_I32Add ].
  Definition apply_b : list rt := [ P (W_LocalGet 0); I 1; P (W_CallIndirect 0 0); P (W_GlobalGet 1); P W_I32Add ].
  Definition start_b : list rt := [ I 77; P (W_GlobalSet 1); I 8; I 258; P (W_I32Store16 (ma 0)); RNop 0 ].
  (* global 0 = 5 (immutable: think of an import), global 1 = global.get 0 (mutable); a table of 3 slots, one active element
     segment at offset 1 with a null entry, a declared one; a memory of one page, one active data segment of 4 bytes at 65530,
     one at the offset global 0, a passive one *)
  Definition im1 : imod :=
    {| im_tys := tys; im_funcs := [ (0, [], inc_b); (0, [], apply_b); (1, [], start_b) ];
       im_globals := [ (VT_I32, false, CI32 5); (VT_I32, true, CGlobalGet 0) ];
       im_mem := Some (1, Some 2); im_table := Some (3, None);
       im_elems := [ EActive 0 (CI32 1) [Some 0; None]; EDeclared [Some 1] ];
       im_datas := [ DActive 0 (CI32 65530) [1; 2; 3; 4]; DPassive [9; 9]; DActive 0 (CGlobalGet 0) [200] ];
       im_start := Some 2 |}.
  Definition inst (im : imod) : inst_result := instantiate 100 8 im (fun _ => idN) idN idN idN idN.
  (* what can be seen of an instance: globals, memory, pages, the table; and the result of `apply 41` *)
  Definition view (r : inst_result) :=
    match r with
    | IOk E s0 => Some (globs s0, mem s0, pages s0, max_pages s0, me_tbl E,
                        match run_mod E 8 100 1 [VI32 41] s0 with Some (Fall s) => Some (stk s, globs s) | _ => None end)
    | _ => None
    end.
  (* instantiation succeeds: global 1 was 5 and the start function made it 77; the data segments and the store of the start
     function are in memory; slot 1 of the table holds function 0; apply 41 = inc 41 + global 1 = 42 + 77 *)
  Example inst_ok : view (inst im1) =
    Some ([(0, VI32 5); (1, VI32 77)], [(65530, 1); (65531, 2); (65532, 3); (65533, 4); (5, 200); (8, 2); (9, 1)], 1, 2,
          [None; Some 0; None], Some ([VI32 119], [(0, VI32 5); (1, VI32 77)])).
  Proof. vm_compute. reflexivity. Qed.
  (* without the start function global 1 stays 5 *)
  Example inst_no_start :
    match inst {| im_tys := tys; im_funcs := im_funcs im1; im_globals := im_globals im1; im_mem := im_mem im1; im_table := im_table im1;
                  im_elems := im_elems im1; im_datas := im_datas im1; im_start := None |} with
    | IOk _ s0 => globs s0 | _ => [] end = [(0, VI32 5); (1, VI32 5)].
  Proof. vm_compute. reflexivity. Qed.
  (* failures.  [with_datas] / [with_elems] / [with_funcs]: the same module with other segments / functions *)
  Definition with_datas (ds : list dseg) : imod :=
    {| im_tys := tys; im_funcs := im_funcs im1; im_globals := im_globals im1; im_mem := im_mem im1; im_table := im_table im1;
       im_elems := im_elems im1; im_datas := ds; im_start := im_start im1 |}.
  Definition with_elems (es : list eseg) : imod :=
    {| im_tys := tys; im_funcs := im_funcs im1; im_globals := im_globals im1; im_mem := im_mem im1; im_table := im_table im1;
       im_elems := es; im_datas := im_datas im1; im_start := im_start im1 |}.
  Definition verdict (r : inst_result) : N := match r with IOk _ _ => 0 | ITrap => 1 | IWrong => 2 | IExhausted => 3 end.
  (* 4 bytes at 65532 fit exactly; at 65533 they do not; an EMPTY segment at 65536 fits, at 65537 it does not *)
  Example data_bounds :
    map (fun ds => verdict (inst (with_datas ds)))
        [ [DActive 0 (CI32 65532) [1; 2; 3; 4]]; [DActive 0 (CI32 65533) [1; 2; 3; 4]]; [DActive 0 (CI32 65536) []]; [DActive 0 (CI32 65537) []];
          [DActive 0 (CI32 (-1)) [1]] ] = [0; 1; 0; 1; 1].
  Proof. vm_compute. reflexivity. Qed.
  Example elem_bounds :
    map (fun es => verdict (inst (with_elems es)))
        [ [EActive 0 (CI32 1) [Some 0; None]]; [EActive 0 (CI32 2) [Some 0; None]]; [EActive 0 (CI32 3) []]; [EActive 0 (CI32 4) []] ] = [0; 1; 0; 1].
  Proof. vm_compute. reflexivity. Qed.
  (* overlapping element segments: the later one wins *)
  Example elem_overlap :
    match inst (with_elems [EActive 0 (CI32 0) [Some 0; Some 0; Some 0]; EActive 0 (CI32 1) [None; Some 1]]) with IOk E _ => me_tbl E | _ => [] end
    = [Some 0; None; Some 1].
  Proof. vm_compute. reflexivity. Qed.
  (* a start function that traps fails instantiation; one that needs more call depth than there is: exhausted; a forward
     global.get, an i64 offset, the wrong table: going wrong *)
  Example start_traps :
    verdict (inst {| im_tys := tys; im_funcs := [ (0, [], inc_b); (0, [], apply_b); (1, [], [ I 1; P (W_GlobalSet 1); P W_Unreachable ]) ];
                     im_globals := im_globals im1; im_mem := im_mem im1; im_table := im_table im1; im_elems := im_elems im1;
                     im_datas := im_datas im1; im_start := Some 2 |}) = 1.
  Proof. vm_compute. reflexivity. Qed.
  Example start_exhausted : verdict (instantiate 100 0 im1 (fun _ => idN) idN idN idN idN) = 3.
  Proof. vm_compute. reflexivity. Qed.
  Example wrong_forward_global :
    verdict (inst {| im_tys := tys; im_funcs := im_funcs im1; im_globals := [ (VT_I32, false, CGlobalGet 1); (VT_I32, true, CI32 1) ];
                     im_mem := im_mem im1; im_table := im_table im1; im_elems := []; im_datas := []; im_start := None |}) = 2.
  Proof. vm_compute. reflexivity. Qed.
  Example wrong_offset_type_and_table :
    (verdict (inst (with_datas [DActive 0 (CI64 0) [1]])), verdict (inst (with_elems [EActive 1 (CI32 0) []]))) = (2, 2).
  Proof. vm_compute. reflexivity. Qed.
  (* the theorems on out-of-bounds and on passive segments, on this module *)
  Example oob_by_theorem : inst (with_datas [DPassive [7]; DActive 0 (CI32 0) [1]; DActive 0 (CI32 65533) [1; 2; 3; 4]; DActive 0 (CI32 0) [1]]) = ITrap.
  Proof.
    apply (inst_oob_traps_data idN idN idN 100 8 _ (fun _ => idN) idN [DPassive [7]; DActive 0 (CI32 0) [1]] 0 (CI32 65533) [1; 2; 3; 4]
             [DActive 0 (CI32 0) [1]] [(0, VI32 5); (1, VI32 5)] [None; Some 0; None] [(0, 1)] 65533); try reflexivity.
  Qed.
  Example dropping_by_theorem :
    inst {| im_tys := tys; im_funcs := im_funcs im1; im_globals := im_globals im1; im_mem := im_mem im1; im_table := im_table im1;
            im_elems := [ EActive 0 (CI32 1) [Some 0; None] ];
            im_datas := [ DActive 0 (CI32 65530) [1; 2; 3; 4]; DActive 0 (CGlobalGet 0) [200] ]; im_start := Some 2 |} = inst im1.
  Proof.
    apply inst_dropping_passive_is_invisible; try reflexivity.
    - apply dr_keep, dr_drop; [reflexivity|apply dr_nil].
    - apply dr_keep, dr_drop; [reflexivity|]. apply dr_keep, dr_nil.
  Qed.
End Ex.

Module RTI.
  Import Ex.
  Local Open Scope N_scope.
  (* functions rotated (0 -> 2, 1 -> 0, 2 -> 1), the two types swapped; globals, memory and table keep their indices *)
  Definition rf (i : N) : N := if i =? 0 then 2 else if i =? 1 then 0 else if i =? 2 then 1 else i.
  Definition rfi (j : N) : N := if j =? 2 then 0 else if j =? 0 then 1 else if j =? 1 then 2 else j.
  Definition rt1 (i : N) : N := if i =? 0 then 1 else if i =? 1 then 0 else i.
  Definition cx1 : pctx := cx_std tys.
  Definition ecx1 : ectx :=
    {| ex_id2i := fun sp i => match sp with S_func => rf i | S_type => rt1 i | _ => i end; ex_ilen := fun _ => 1 |}.
  (* the output module: bodies in normal form (the nop of the start function is gone), re-encoded; element segments and
     `start` name the new function indices; the declared segment and the passive data segment stay *)
  Definition im1' : imod :=
    {| im_tys := [([], []); ([VT_I32], [VT_I32])];
       im_funcs := [ (1, [], out_body cx1 ecx1 apply_b); (0, [], out_body cx1 ecx1 start_b); (1, [], out_body cx1 ecx1 inc_b) ];
       im_globals := [ (VT_I32, false, CI32 5); (VT_I32, true, CGlobalGet 0) ];
       im_mem := Some (1, Some 2); im_table := Some (3, None);
       im_elems := [ EActive 0 (CI32 1) [Some 2; None]; EDeclared [Some 0] ];
       im_datas := [ DActive 0 (CI32 65530) [1; 2; 3; 4]; DPassive [9; 9]; DActive 0 (CGlobalGet 0) [200] ];
       im_start := Some 1 |}.
  Example out_bodies : (out_body cx1 ecx1 apply_b, out_body cx1 ecx1 start_b) =
    ([ P (W_LocalGet 0); I 1; P (W_CallIndirect 1 0); P (W_GlobalGet 1); P W_I32Add ],
     [ I 77; P (W_GlobalSet 1); I 8; I 258; P (W_I32Store16 (ma 0)) ]).
  Proof. vm_compute. reflexivity. Qed.

  Lemma rfi_rf i : rfi (rf i) = i.
  Proof. exact (RT.rfi_rf i). Qed.
  Lemma rt1_tys i : nth_optN (rt1 i) (im_tys im1') = nth_optN i (im_tys im1).
  Proof.
    unfold rt1. destruct (N.eqb_spec i 0) as [->|H0]; [reflexivity|]. destruct (N.eqb_spec i 1) as [->|H1]; [reflexivity|].
    cbn [im1 im1' im_tys tys nth_optN]. destruct (N.eqb_spec i 0); [contradiction|].
    destruct (N.eqb_spec (i - 1) 0); [lia|]. reflexivity.
  Qed.

  Notation E1 tbl := (env_of (cmod_of im1 tbl) (fun _ => idN) idN idN idN idN).
  Notation E1' tbl := (env_of (cmod_of im1' (map (option_map rf) tbl)) (fun _ => idN) rfi idN idN idN).
  Lemma fn_ok1 tbl : forall id body, In (id, body) [(0, inc_b); (1, apply_b); (2, start_b)] ->
    fn_ok (E1 tbl) (E1' tbl) (fun _ => cx1) (fun _ => ecx1) id body.
  Proof.
    intros id body H. apply fn_ok_std; try reflexivity.
    - intros f _. apply rfi_rf.
    - intros i. apply rt1_tys.
    - cbn [In] in H. destruct H as [H|[H|[H|[]]]]; injection H as <- <-; vm_compute; reflexivity.
    - cbn [In] in H. destruct H as [H|[H|[H|[]]]]; injection H as <- <-; vm_compute; reflexivity.
  Qed.
  Lemma fn1 tbl : forall i ti ls body, nth_optN i (im_funcs im1) = Some (ti, ls, body) ->
    fn_ok (E1 tbl) (E1' tbl) (fun _ => cx1) (fun _ => ecx1) (idN i) body /\
    exists ti' ls', nth_optN (rf i) (im_funcs im1') = Some (ti', ls', out_body cx1 ecx1 body) /\
                    nth_optN ti' (im_tys im1') = nth_optN ti (im_tys im1) /\
                    frames_agree (E1 tbl) (E1' tbl) (idN i) ti ls ls' body.
  Proof.
    intros i ti ls body Hi. destruct (nth_optN_3 _ _ _ i _ Hi) as [[-> H]|[[-> H]|[-> H]]]; injection H as -> -> ->.
    all: split; [apply fn_ok1; cbn; auto|]; do 2 eexists.
    all: split; [reflexivity|]; split; [reflexivity|]; apply same_frames_agree; reflexivity.
  Qed.
  Lemma surj1 : forall j d', nth_optN j (im_funcs im1') = Some d' -> exists i d, nth_optN i (im_funcs im1) = Some d /\ rf i = j.
  Proof.
    intros j d' Hj. destruct (nth_optN_3 _ _ _ j d' Hj) as [[-> _]|[[-> _]|[-> _]]]; [exists 1|exists 2|exists 0]; eexists; split; reflexivity.
  Qed.

  (* THE THEOREMS, instantiated: the hypotheses are satisfiable *)
  Theorem rti_inst : forall fuel k,
    inst_equiv (fun _ => cx1) (fun _ => ecx1) (instantiate fuel k im1 (fun _ => idN) idN idN idN idN)
                                               (instantiate fuel k im1' (fun _ => idN) rfi idN idN idN).
  Proof.
    apply (inst_roundtrip im1 im1' (fun _ => idN) (fun _ => idN) idN idN idN idN rfi idN idN idN (fun _ => cx1) (fun _ => ecx1) rf idN idN idN).
    - constructor; reflexivity.
    - reflexivity.
    - reflexivity.
    - reflexivity.
    - reflexivity.
    - intros i. apply rfi_rf.
    - intros i i2 d d2 _ _ H. exact H.
    - exact surj1.
    - exact fn1.
  Qed.
  Theorem rti_call : forall fuel k k2 fuel2 f args,
    call_after (instantiate fuel k im1' (fun _ => idN) rfi idN idN idN) k2 fuel2 f args =
    call_after (instantiate fuel k im1 (fun _ => idN) idN idN idN idN) k2 fuel2 f args.
  Proof.
    intros fuel k. exact (inst_equiv_call _ _ _ _ (rti_inst fuel k)).
  Qed.
  (* the output module, by computation: the table holds IDENTITY 0 (= its function index 2) at slot 1; apply 41 = 119 *)
  Example rti_out : view (instantiate 100 8 im1' (fun _ => idN) rfi idN idN idN) = view (inst im1).
  Proof. vm_compute. reflexivity. Qed.
  (* the renaming of the element segment matters: the output module with the element segment of the input *)
  Example rti_elems_matter :
    view (instantiate 100 8 {| im_tys := im_tys im1'; im_funcs := im_funcs im1'; im_globals := im_globals im1'; im_mem := im_mem im1';
                               im_table := im_table im1'; im_elems := im_elems im1; im_datas := im_datas im1'; im_start := im_start im1' |}
            (fun _ => idN) rfi idN idN idN) <> view (inst im1).
  Proof. vm_compute. discriminate. Qed.
End RTI.

(* Run/SemModRun.v compares [run_mod] with V8 from [mod_init c] (the three globals, an empty memory) in [env_id c] (the table
   [mc_table c]) - the modules it is run on (harness: c01mod) have exactly three constant globals, one memory, a table of
   [length (mc_table c)] slots, ONE active element segment at offset 0 listing the non-null prefix of the table, no data, no
   start.  For such a module [instantiate] returns exactly that environment and that state. *)
Lemma set_nthN_app {A} (x y : A) r : forall pre, set_nthN (N.of_nat (length pre)) x (pre ++ y :: r) = pre ++ x :: r.
Proof.
  induction pre as [|z pre IH]; [reflexivity|]. cbn [length app set_nthN].
  destruct (N.eqb_spec (N.of_nat (S (length pre))) 0) as [E|_]; [lia|].
  replace (N.of_nat (S (length pre)) - 1)%N with (N.of_nat (length pre)) by lia. rewrite IH. reflexivity.
Qed.
Lemma write_tbl_app (rest : list (option N)) : forall fs pre old, length old = length fs ->
  write_tbl (N.of_nat (length pre)) fs (pre ++ old ++ rest) = pre ++ fs ++ rest.
Proof.
  induction fs as [|f fs IH]; intros pre [|y old] Hl; try discriminate Hl; [reflexivity|].
  cbn [write_tbl app]. rewrite set_nthN_app.
  replace (N.of_nat (length pre) + 1)%N with (N.of_nat (length (pre ++ [f]))) by (rewrite app_length; cbn [length]; lia).
  replace (pre ++ f :: old ++ rest) with ((pre ++ [f]) ++ old ++ rest) by (rewrite <- app_assoc; reflexivity).
  rewrite IH by (injection Hl as Hl; exact Hl). rewrite <- app_assoc. reflexivity.
Qed.
Definition imod_of_modcase (c : SemModRun.modcase) (fs : list (option N)) (mx : option N) : imod :=
  {| im_tys := SemModRun.mc_tys c; im_funcs := SemModRun.mc_funcs c;
     im_globals := [ (VT_I32, true, CI32 (SemModRun.mc_g0 c)); (VT_I64, true, CI64 (SemModRun.mc_g1 c)); (VT_I32, false, CI32 7) ];
     im_mem := Some (SemModRun.mc_pages c, Some (SemModRun.mc_maxpages c));
     im_table := Some (N.of_nat (length (SemModRun.mc_table c)), mx);
     im_elems := [ EActive 0 (CI32 0) fs ]; im_datas := []; im_start := None |}.
Theorem inst_of_modcase : forall (c : SemModRun.modcase) fs n mx fuel k,
  SemModRun.mc_table c = fs ++ repeat None n ->
  instantiate fuel k (imod_of_modcase c fs mx) (fun _ => SemCoreRun.idN) SemCoreRun.idN SemCoreRun.idN SemCoreRun.idN SemCoreRun.idN
  = IOk (SemModRun.env_id c) (SemModRun.mod_init c).
Proof.
  intros c fs n mx fuel k Ht.
  assert (Hw : write_tbl 0 fs (repeat None (length (SemModRun.mc_table c))) = SemModRun.mc_table c).
  { rewrite Ht at 1. rewrite app_length, repeat_length, Ht.
    assert (Hr : forall a b, @repeat (option N) None (a + b) = repeat None a ++ repeat None b)
      by (intros a b; induction a as [|a IHa]; [reflexivity|]; cbn [Nat.add repeat app]; rewrite IHa; reflexivity).
    rewrite Hr.
    exact (write_tbl_app (repeat None n) fs [] (repeat None (length fs)) (repeat_length _ _)). }
  unfold instantiate, inst_pre, imod_of_modcase, tbl0, pages0, maxp0.
  cbn [im_globals im_elems im_datas im_table im_mem im_start inst_globals eval_cexpr has_ty app inst_elems inst_datas].
  unfold SemCoreRun.idN at 1. cbn [N.eqb].
  change (z32 0) with 0%N. rewrite Nnat.Nat2N.id. unfold tbl_size. rewrite repeat_length.
  destruct (N.leb_spec (0 + N.of_nat (length fs)) (N.of_nat (length (SemModRun.mc_table c)))) as [_|Hlt];
    [|rewrite Ht, app_length in Hlt; lia].
  rewrite Hw. reflexivity.
Qed.

(* WITHOUT [H_gpos] the statement is false: the same list of globals, an injective [rg] (the swap of 0 and 1) compensated by
   [gslot'], nothing else in the module - and the two initial states bind the two constants at swapped slots *)
Definition swap01 (i : N) : N := if (i =? 0)%N then 1%N else if (i =? 1)%N then 0%N else i.
Lemma swap01_invol i : swap01 (swap01 i) = i.
Proof.
  unfold swap01. destruct (N.eqb_spec i 0) as [->|H0]; [reflexivity|]. destruct (N.eqb_spec i 1) as [->|H1]; [reflexivity|].
  destruct (N.eqb_spec i 0); [contradiction|]. destruct (N.eqb_spec i 1); [contradiction|]. reflexivity.
Qed.
Theorem inst_roundtrip_needs_gpos : exists (im im' : imod) (rg gslot gslot' : N -> N) (cxo : N -> pctx) (ecxo : N -> ectx),
  renamed idN rg idN idN im im' /\ (forall g, gslot' (rg g) = gslot g) /\ (forall a b, rg a = rg b -> a = b) /\
  im_funcs im = [] /\ im_funcs im' = [] /\
  ~ inst_equiv cxo ecxo (instantiate 0 0 im (fun _ => idN) idN gslot idN idN) (instantiate 0 0 im' (fun _ => idN) idN gslot' idN idN).
Proof.
  set (im := {| im_tys := []; im_funcs := []; im_globals := [(VT_I32, false, CI32 5); (VT_I32, false, CI32 6)]; im_mem := None;
                im_table := None; im_elems := []; im_datas := []; im_start := None |}).
  exists im, im, swap01, idN, swap01, (fun _ => cx_std []), (fun _ => ecx_locals idN).
  split; [constructor; reflexivity|]. split; [intros g; apply swap01_invol|].
  split; [intros a b H; rewrite <- (swap01_invol a), <- (swap01_invol b), H; reflexivity|].
  split; [reflexivity|]. split; [reflexivity|].
  intros H. vm_compute in H. destruct H as [H _]. discriminate H.
Qed.

Print Assumptions inst_roundtrip.
Print Assumptions inst_then_call_roundtrip.
Print Assumptions inst_oob_traps_elem.
Print Assumptions inst_oob_traps_data.
Print Assumptions inst_elems_size.
Print Assumptions inst_dropping_passive_is_invisible.
Print Assumptions inst_of_modcase.
Print Assumptions Ex.inst_ok.
Print Assumptions RTI.rti_inst.
Print Assumptions RTI.rti_call.
Print Assumptions inst_roundtrip_needs_gpos.
