(* C08, module level fixpoint: the element / data payload checks of the validator for an emitted
   stream: the pure INDEX BOUNDS are proved; the offset-type clause (offset_valid) stays a NAMED premise of
   [emitted_valid_b_full] (ModFix30 discharges it). *)
From Coq Require Import List NArith ZArith Bool Arith Lia.
Import ListNotations.
From WV Require Import Gen.Ops Model.Common Model.IR Model.Arena Model.Traversal Model.EmitFn Model.Locals
                       Model.ParseFn Model.ModuleM Model.ParseM Model.EmitM Gen.Attrs.
From WV Require Import Proofs.Arena Proofs.Order Proofs.IndexMaps Proofs.CustomsCfg Proofs.Escalation Proofs.Structure Proofs.Structure2
                       Proofs.Totality Proofs.Renumbering Proofs.ParseTotal Proofs.ModFix Proofs.ModFix5 Proofs.ModFix16.
Local Open Scope nat_scope.

Definition tbl0 (tbl : option N) : N := match tbl with Some t => t | None => 0%N end.

Definition elem_idx_ok (c : vctx) (we : welem) : bool :=
  match wel_items we with
  | WEI_Funcs fs => forallb (fun f => ltb_N f (c_nf c)) fs
  | WEI_Exprs _ es => forallb (const_ok (c_nf c) (c_globs c)) es
  end &&
  match wel_kind we with WEK_Active tbl off => ltb_N (tbl0 tbl) (length (c_tabs c)) | _ => true end.
Definition elem_off (c : vctx) (we : welem) : Prop :=
  match wel_kind we with
  | WEK_Active tbl off => forall is64, nth_error (c_tabs c) (N.to_nat (tbl0 tbl)) = Some is64 -> offset_valid (c_globs c) is64 off = true
  | _ => True end.
Definition data_idx_ok (c : vctx) (d : wdata) : bool :=
  match wd_kind d with WDK_Active mi _ => ltb_N mi (length (c_mems c)) | _ => true end.
Definition data_off (c : vctx) (d : wdata) : Prop :=
  match wd_kind d with
  | WDK_Active mi off => forall is64, nth_error (c_mems c) (N.to_nat mi) = Some is64 -> offset_valid (c_globs c) is64 off = true
  | _ => True end.

Lemma elem_ok_split c we : elem_idx_ok c we = true -> elem_off c we -> elem_ok c we = true.
Proof.
  unfold elem_idx_ok, elem_off, elem_ok, tbl0. intros H Ho. apply andb_true_iff in H. destruct H as [H1 H2]. rewrite H1. cbn [andb].
  destruct (wel_kind we) as [| |tbl off]; try reflexivity.
  destruct (nth_error (c_tabs c) _) as [b|] eqn:En; [exact (Ho b eq_refl)|].
  apply nth_error_None in En. unfold ltb_N in H2. apply Nat.ltb_lt in H2. lia.
Qed.
Lemma data_ok_split c d : data_idx_ok c d = true -> data_off c d -> data_ok c d = true.
Proof.
  unfold data_idx_ok, data_off, data_ok. intros H Ho. destruct (wd_kind d) as [|mi off]; [reflexivity|].
  destruct (nth_error (c_mems c) _) as [b|] eqn:En; [exact (Ho b eq_refl)|].
  apply nth_error_None in En. unfold ltb_N in H. apply Nat.ltb_lt in H. lia.
Qed.

Lemma s23_idx m ilen e S id j : emitM m ilen [] = Ok e -> S = S_func \/ S = S_table \/ S = S_memory \/ S = S_global ->
  get_idx (em_x2i e) S id = Ok j -> N.to_nat j < length (space_map (em_x2i e) S).
Proof. intros He HS H. eapply lookup_bound; [apply (final_numbered _ _ _ _ He HS)|exact H]. Qed.

Lemma s23_const m ilen e c x mc wc : emitM m ilen [] = Ok e -> sizes c e ->
  (forall S, S <> S_data -> space_map (em_x2i e) S = space_map x S) ->
  emit_const x mc = Ok wc -> const_ok (c_nf c) (c_globs c) wc = true.
Proof.
  intros He (Sf & St & Sm & Sg) XL H. unfold emit_const in H.
  destruct mc as [v|g|t|f]; [destruct v| | |]; try (inversion H; subst; reflexivity).
  - destruct (get_idx x S_global g) as [j| |] eqn:Ej; cbn [rmap] in H; inversion H; subst. cbn [const_ok]. unfold ltb_N. apply Nat.ltb_lt.
    rewrite Sg. apply (s23_idx _ _ _ S_global g j He); [tauto|]. unfold get_idx in *. rewrite XL by discriminate. exact Ej.
  - destruct (get_idx x S_func f) as [j| |] eqn:Ej; cbn [rmap] in H; inversion H; subst. cbn [const_ok]. unfold ltb_N. apply Nat.ltb_lt.
    rewrite Sf. apply (s23_idx _ _ _ S_func f j He); [tauto|]. unfold get_idx in *. rewrite XL by discriminate. exact Ej.
Qed.

Lemma emit_elem_idx m ilen e c x el we : emitM m ilen [] = Ok e -> sizes c e ->
  (forall S, S <> S_data -> space_map (em_x2i e) S = space_map x S) ->
  emit_elem x el = Ok we -> elem_idx_ok c we = true.
Proof.
  intros He Hs XL E. pose proof Hs as (Sf & St & Sm & Sg). unfold emit_elem in E. rinv E as its Eits. rinv E as k Ek.
  inversion E; subst we; clear E. unfold elem_idx_ok. cbn [wel_kind wel_items]. apply andb_true_iff. split.
  - destruct (el_items el) as [fs|t es].
    + destruct (rmapM (get_idx x S_func) fs) as [l| |] eqn:El; cbn [rmap] in Eits; try discriminate. inversion Eits; subst its.
      apply forallb_forall. intros j Hj. destruct (rmapM_in _ _ _ El _ Hj) as (a & _ & Ha).
      unfold ltb_N. apply Nat.ltb_lt. rewrite Sf. apply (s23_idx _ _ _ S_func a j He); [tauto|].
      unfold get_idx in *. rewrite XL by discriminate. exact Ha.
    + destruct (rmapM (emit_const x) es) as [l| |] eqn:El; cbn [rmap] in Eits; try discriminate. inversion Eits; subst its.
      apply forallb_forall. intros wc Hwc. destruct (rmapM_in _ _ _ El _ Hwc) as (a & _ & Ha).
      exact (s23_const _ _ _ _ _ _ _ He Hs XL Ha).
  - destruct (el_kind el) as [| |t off]; try (inversion Ek; reflexivity).
    rinv Ek as ti Eti. rinv Ek as o Eo. inversion Ek; subst k; clear Ek.
    assert (E0 : tbl0 (if N.eqb ti 0 then None else Some ti) = ti).
    { destruct (N.eqb ti 0) eqn:Ez; [apply N.eqb_eq in Ez; subst; reflexivity|reflexivity]. }
    rewrite E0. unfold ltb_N. apply Nat.ltb_lt. rewrite St. apply (s23_idx _ _ _ S_table t ti He); [tauto|].
    unfold get_idx in *. rewrite XL by discriminate. exact Eti.
Qed.

Theorem emitted_elems_idx m ilen e c l : emitM m ilen [] = Ok e -> sizes c e -> In (S_Elems l) (em_secs e) ->
  forallb (elem_idx_ok c) l = true.
Proof.
  intros He Hs Hin. apply forallb_forall. intros we Hwe. pose proof He as He'. emitM_kinds He'.
  assert (Hi : In (S_Elems l) (filter (has_tag 8) (em_secs e))) by (apply filter_In; split; [exact Hin|reflexivity]).
  rewrite Ekind in Hi. cbn [nth] in Hi.
  rewrite emit_elements_unfold in Eel. destruct (aiter (m_elements m)) as [|p0 ps].
  { inversion Eel; subst s_el. destruct Hi. }
  rinv Eel as r Er. inversion Eel; subst s_el x9; clear Eel. destruct Hi as [Hi|[]]. inversion Hi; subst l; clear Hi.
  apply elems_go_entries' in Er. destruct Er as [_ F].
  destruct (sg_Forall2_In_r _ _ _ _ F Hwe) as (p & _ & Hp).
  apply (emit_elem_idx _ _ _ c _ _ _ He Hs) in Hp; [exact Hp|].
  intros S HS. rewrite (emit_code_x _ _ _ _ _ _ Eco). apply emit_data_count_x in Edc. rewrite Edc.
  destruct (aiter (m_data m)); [reflexivity|]. apply space_map_set_other. congruence.
Qed.

Theorem emitted_data_idx m ilen e c l : emitM m ilen [] = Ok e -> sizes c e -> In (S_Data l) (em_secs e) ->
  forallb (data_idx_ok c) l = true.
Proof.
  intros He (Sf & St & Sm & Sg) Hin. apply forallb_forall. intros d Hd. pose proof He as He'. emitM_kinds He'.
  assert (Hi : In (S_Data l) (filter (has_tag 11) (em_secs e))) by (apply filter_In; split; [exact Hin|reflexivity]).
  rewrite Ekind in Hi. cbn [nth] in Hi.
  unfold emit_data in Eda. destruct (aiter (m_data m)) as [|p0 ps].
  { inversion Eda; subst s_da. destruct Hi. }
  rinv Eda as ds Eds. inversion Eda; subst s_da; clear Eda. destruct Hi as [Hi|[]]. inversion Hi; subst l; clear Hi.
  destruct (rmapM_in _ _ _ Eds _ Hd) as (p & _ & Hp). unfold data_idx_ok.
  destruct (da_kind (snd p)) as [|mem off]; [inversion Hp; subst d; reflexivity|].
  rinv Hp as mi Emi. rinv Hp as o Eo. inversion Hp; subst d; clear Hp. cbn [wd_kind]. unfold ltb_N. apply Nat.ltb_lt.
  rewrite Sm. apply (s23_idx _ _ _ S_memory mem mi He); [tauto|exact Emi].
Qed.

(* the sections after an element / data section declare nothing, so the context before it has the final sizes *)
Lemma order_b_after : forall w l, order_b l w = true -> forall s k, In s w -> rank s = Some k -> l < k.
Proof.
  induction w as [|s0 r IH]; intros l H s k Hin Hk; [destruct Hin|]. cbn [order_b] in H.
  destruct (rank s0) as [k0|] eqn:E0.
  - apply andb_true_iff in H. destruct H as [H1 H2]. apply Nat.ltb_lt in H1. destruct Hin as [->|Hin]; [congruence|].
    pose proof (IH _ H2 _ _ Hin Hk). lia.
  - destruct Hin as [->|Hin]; [congruence|]. exact (IH _ H _ _ Hin Hk).
Qed.
Lemma order_b_suffix : forall pre l s post, order_b l (pre ++ s :: post) = true -> exists l', order_b l' (s :: post) = true.
Proof.
  induction pre as [|s0 r IH]; intros l s post H; [exists l; exact H|]. cbn [app order_b] in H.
  destruct (rank s0) as [k0|]; [apply andb_true_iff in H; destruct H as [_ H]|]; exact (IH _ _ _ H).
Qed.

Theorem prefix_sizes_ok m ilen e pre s post : emitM m ilen [] = Ok e -> em_secs e = pre ++ s :: post ->
  sec_tag s = Some 8 \/ sec_tag s = Some 11 -> sizes (ctx_after pre) e.
Proof.
  intros He E Ht. pose proof (emitted_order_ok _ _ _ He) as Ho. rewrite E in Ho.
  destruct (order_b_suffix _ _ _ _ Ho) as [l' Ho']. cbn [order_b] in Ho'.
  assert (Hr : exists r, rank s = Some r /\ 9 <= r).
  { destruct Ht as [Ht|Ht]; destruct s; try discriminate Ht; eexists; (split; [reflexivity|lia]). }
  destruct Hr as (r & Hr & Hr9). rewrite Hr in Ho'. apply andb_true_iff in Ho'. destruct Ho' as [_ Ho'].
  pose proof (order_b_after _ _ Ho') as Hafter.
  assert (Hs : imports_of s = [] /\ funcs_of s = [] /\ tables_of s = [] /\ mems_of s = [] /\ globals_of s = []).
  { destruct Ht as [Ht|Ht]; destruct s; try discriminate Ht; repeat split. }
  destruct Hs as (S1 & S2 & S3 & S4 & S5).
  assert (Hp : forall s', In s' post -> imports_of s' = [] /\ funcs_of s' = [] /\ tables_of s' = [] /\ mems_of s' = [] /\ globals_of s' = []).
  { intros s' Hin. destruct s'; try (repeat split; fail); pose proof (Hafter _ _ Hin eq_refl); lia. }
  apply (sizes_of_payloads _ _ _ pre He); rewrite E, flat_map_app; cbn [flat_map]; rewrite ?S1, ?S2, ?S3, ?S4, ?S5; cbn [app];
    rewrite (flat_map_nil _ post) by (intros s' Hin; apply (Hp s' Hin)); rewrite app_nil_r; reflexivity.
Qed.

(* what remains is the offset-type clause of active segments, which needs the parse-side invariant offsets_ok *)
Theorem emitted_valid_b_full : forall cf ver w s1 ilen e1, parseM cf ver w = POk s1 -> emitM (ps_m s1) ilen [] = Ok e1 ->
  forall (elem_offsets : forall pre l post we, em_secs e1 = pre ++ S_Elems l :: post -> In we l -> elem_off (ctx_after pre) we)
         (data_offsets : forall pre l post d, em_secs e1 = pre ++ S_Data l :: post -> In d l -> data_off (ctx_after pre) d),
  valid_from_b ctx0 (em_secs e1) = true.
Proof.
  intros cf ver w s1 ilen e1 HP HE EO DO. apply (emitted_valid_b_parsed _ _ _ _ _ _ HP HE).
  - intros pre l post E. assert (Hin : In (S_Elems l) (em_secs e1)) by (rewrite E, in_app_iff; right; left; reflexivity).
    pose proof (emitted_elems_idx _ _ _ _ _ HE (prefix_sizes_ok _ _ _ _ _ _ HE E (or_introl eq_refl)) Hin) as HI. rewrite forallb_forall in HI.
    apply forallb_forall. intros we Hwe. apply elem_ok_split; [exact (HI _ Hwe)|exact (EO _ _ _ _ E Hwe)].
  - intros pre l post E. assert (Hin : In (S_Data l) (em_secs e1)) by (rewrite E, in_app_iff; right; left; reflexivity).
    pose proof (emitted_data_idx _ _ _ _ _ HE (prefix_sizes_ok _ _ _ _ _ _ HE E (or_intror eq_refl)) Hin) as HI. rewrite forallb_forall in HI.
    apply forallb_forall. intros d Hd. apply data_ok_split; [exact (HI _ Hd)|exact (DO _ _ _ _ E Hd)].
Qed.

Print Assumptions emitted_elems_idx.
Print Assumptions emitted_data_idx.
Print Assumptions emitted_valid_b_full.
Print Assumptions prefix_sizes_ok.
