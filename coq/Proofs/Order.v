(* Order-freeness of everything walrus sorts after iterating a hash-ordered container
   (C08: hash iteration order cannot leak into the output): a sorted list is determined by its elements, so
   sort_ids is a function of the SET of its input, and the stable insertion sort shared by ins_ty / ins_f / ins_nm
   is a function of the multiset when the order separates the elements.  Also the slot assignment of emit_locals. *)
From Coq Require Import List NArith Arith Lia Bool Permutation Sorted.
Import ListNotations.
From WV Require Import Gen.Ops Model.Common Model.IR Model.Locals Model.ModuleM Model.EmitM.
From WV Require Proofs.Arena.
Local Open Scope nat_scope.

Lemma NoDup_app_intro {A} (l1 l2 : list A) :
  NoDup l1 -> NoDup l2 -> (forall x, In x l1 -> In x l2 -> False) -> NoDup (l1 ++ l2).
Proof. apply Proofs.Arena.nodup_app. Qed.

Lemma NoDup_map_inj {A B} (f : A -> B) (l : list A) :
  (forall a b, f a = f b -> a = b) -> NoDup l -> NoDup (map f l).
Proof.
  intros Hinj. induction 1 as [|a l Ha Hn IH]; cbn [map]; constructor; auto.
  rewrite in_map_iff. intros (b & Hb & Hin). apply Hinj in Hb. now subst.
Qed.

Lemma map_fst_combine {A B} (a : list A) : forall (b : list B), length a = length b -> map fst (combine a b) = a.
Proof. induction a as [|x a IH]; intros [|y b] H; cbn in *; try discriminate; auto. f_equal. apply IH. lia. Qed.
Lemma map_snd_combine {A B} (a : list A) : forall (b : list B), length a = length b -> map snd (combine a b) = b.
Proof. induction a as [|x a IH]; intros [|y b] H; cbn in *; try discriminate; auto. f_equal. apply IH. lia. Qed.

Lemma nth_error_combine_seq {A B} (f : nat -> B) (a : list A) : forall s k x y,
  nth_error (combine a (map f (seq s (length a)))) k = Some (x, y) -> nth_error a k = Some x /\ y = f (s + k).
Proof.
  induction a as [|z a IH]; intros s [|k] x y H; cbn in H; try discriminate.
  - inversion H. rewrite Nat.add_0_r. auto.
  - destruct (IH _ _ _ _ H) as [Hk ->]. split; [exact Hk|]. f_equal. lia.
Qed.
Lemma in_combine_seq {A B} (f : nat -> B) (a : list A) : forall s x y,
  In (x, y) (combine a (map f (seq s (length a)))) -> exists k, nth_error a k = Some x /\ y = f (s + k).
Proof. intros s x y H. destruct (In_nth_error _ _ H) as [k Hk]. exists k. exact (nth_error_combine_seq _ _ _ _ _ _ Hk). Qed.

Lemma Forall2_nth_error {A B} (R : A -> B -> Prop) l1 l2 :
  Forall2 R l1 l2 -> forall k a, nth_error l1 k = Some a -> exists b, nth_error l2 k = Some b /\ R a b.
Proof.
  induction 1 as [|x y l1 l2 Hxy HF IH]; intros [|k] a Hk; cbn in *; try discriminate.
  - inversion Hk; subst. eauto.
  - eauto.
Qed.

Lemma StronglySorted_lt_NoDup l : StronglySorted N.lt l -> NoDup l.
Proof.
  induction 1 as [|a l Hs IH Hall]; constructor; auto.
  intros Hin. rewrite Forall_forall in Hall. apply Hall in Hin. lia.
Qed.

Lemma mem_N_spec x l : mem_N x l = true <-> In x l.
Proof.
  unfold mem_N. rewrite existsb_exists. split.
  - intros (y & Hy & E). apply N.eqb_eq in E. now subst.
  - intros H. exists x. split; auto. apply N.eqb_refl.
Qed.

Lemma sort_ids_cons a l : sort_ids (a :: l) = insert_sorted a (sort_ids l).
Proof. reflexivity. Qed.

Lemma insert_sorted_in x l z : In z (insert_sorted x l) <-> z = x \/ In z l.
Proof.
  induction l as [|y r IH]; cbn [insert_sorted].
  - cbn. intuition congruence.
  - destruct (N.ltb_spec x y) as [Hlt|Hge].
    + cbn [In]. intuition congruence.
    + destruct (N.eqb_spec x y) as [->|Hne].
      * cbn [In]. intuition congruence.
      * cbn [In]. rewrite IH. intuition congruence.
Qed.

Lemma insert_sorted_SS x l : StronglySorted N.lt l -> StronglySorted N.lt (insert_sorted x l).
Proof.
  induction 1 as [|y r Hs IH Hall]; cbn [insert_sorted]; [repeat constructor|].
  destruct (N.ltb_spec x y) as [Hlt|Hge].
  - constructor; [constructor; auto|]. constructor; auto.
    eapply Forall_impl; [|exact Hall]. intros z Hz. cbn beta in Hz. lia.
  - destruct (N.eqb_spec x y) as [->|Hne]; [constructor; auto|].
    constructor; auto. rewrite Forall_forall in *. intros z Hz.
    apply insert_sorted_in in Hz. destruct Hz as [->|Hz]; [lia|auto].
Qed.

Theorem sort_ids_sorted : forall l, StronglySorted N.lt (sort_ids l).
Proof. induction l as [|a l IH]; [constructor|]. rewrite sort_ids_cons. now apply insert_sorted_SS. Qed.

Theorem sort_ids_members : forall l x, In x (sort_ids l) <-> In x l.
Proof.
  induction l as [|a l IH]; intros x; [reflexivity|].
  rewrite sort_ids_cons, insert_sorted_in, IH. cbn [In]. intuition congruence.
Qed.

(* a list sorted by an asymmetric relation is determined by its elements *)
Lemma StronglySorted_ext {A} (R : A -> A -> Prop) : (forall x y, R x y -> R y x -> False) ->
  forall l1 l2, StronglySorted R l1 -> StronglySorted R l2 -> (forall x, In x l1 <-> In x l2) -> l1 = l2.
Proof.
  intros Hasym. induction l1 as [|a l1 IH]; intros [|b l2] S1 S2 H; auto.
  - exfalso. apply (proj2 (H b)). now left.
  - exfalso. apply (proj1 (H a)). now left.
  - inversion S1 as [|? ? S1' H1]; subst. inversion S2 as [|? ? S2' H2]; subst.
    rewrite Forall_forall in H1, H2.
    assert (E : a = b).
    { destruct (proj1 (H a) (or_introl eq_refl)) as [E|Ia]; auto.
      destruct (proj2 (H b) (or_introl eq_refl)) as [E|Ib]; auto.
      elim (Hasym a b (H1 _ Ib) (H2 _ Ia)). }
    subst b. f_equal. apply IH; auto. intros x; split; intros Hx.
    + destruct (proj1 (H x) (or_intror Hx)) as [E|]; auto. subst x. elim (Hasym a a (H1 _ Hx) (H1 _ Hx)).
    + destruct (proj2 (H x) (or_intror Hx)) as [E|]; auto. subst x. elim (Hasym a a (H2 _ Hx) (H2 _ Hx)).
Qed.
Lemma sorted_lt_ext : forall l1 l2, StronglySorted N.lt l1 -> StronglySorted N.lt l2 ->
  (forall x, In x l1 <-> In x l2) -> l1 = l2.
Proof. apply StronglySorted_ext. lia. Qed.

Theorem sort_ids_order_free : forall l l', (forall x, In x l <-> In x l') -> sort_ids l = sort_ids l'.
Proof.
  intros l l' H. apply sorted_lt_ext; try apply sort_ids_sorted.
  intros x. rewrite !sort_ids_members. apply H.
Qed.

Corollary sort_ids_perm_free : forall l l', Permutation l l' -> sort_ids l = sort_ids l'.
Proof.
  intros l l' P. apply sort_ids_order_free. intros x; split; apply Permutation_in; auto using Permutation_sym.
Qed.

Theorem emit_locals_order_free : forall ty args l l', (forall x, In x l <-> In x l') ->
  emit_locals ty args l = emit_locals ty args l'.
Proof. intros ty args l l' H. unfold emit_locals. now rewrite (sort_ids_order_free l l' H). Qed.

Theorem sort_ids_id : forall l, StronglySorted N.lt l -> sort_ids l = l.
Proof. intros l S. apply sorted_lt_ext; auto using sort_ids_sorted. apply sort_ids_members. Qed.

(* every valty's code matches exactly one member of all_valtys *)
Lemma all_valtys_complete : forall t, In t all_valtys.
Proof. intros []; cbn; tauto. Qed.
Lemma all_valtys_codes_NoDup : NoDup (map valty_code all_valtys).
Proof. cbn. repeat (constructor; [cbn; intuition congruence|]). constructor. Qed.
Lemma all_valtys_unique_code : forall t, exists ts1 ts2, all_valtys = ts1 ++ t :: ts2 /\
  forall t', In t' (ts1 ++ ts2) -> valty_code t' <> valty_code t.
Proof.
  intros t. destruct (in_split _ _ (all_valtys_complete t)) as (ts1 & ts2 & E).
  exists ts1, ts2. split; auto. intros t' Hin Hc.
  pose proof all_valtys_codes_NoDup as ND. rewrite E, map_app in ND. cbn [map] in ND.
  apply NoDup_remove_2 in ND. apply ND. rewrite <- map_app, <- Hc. now apply in_map.
Qed.

(* partition of a list into classes, exactly one class per element *)
Lemma flat_map_filter_skip {A B} (p : B -> A -> bool) x ls ts :
  (forall t, In t ts -> p t x = false) ->
  flat_map (fun t => filter (p t) (x :: ls)) ts = flat_map (fun t => filter (p t) ls) ts.
Proof.
  induction ts as [|t ts IH]; intros H; cbn [flat_map]; auto.
  rewrite IH by (intros; apply H; now right). cbn [filter]. rewrite (H t) by now left. reflexivity.
Qed.
Lemma flat_map_filter_one {A B} (p : B -> A -> bool) x ls ts1 t0 ts2 :
  p t0 x = true -> (forall t, In t (ts1 ++ ts2) -> p t x = false) ->
  Permutation (flat_map (fun t => filter (p t) (x :: ls)) (ts1 ++ t0 :: ts2))
              (x :: flat_map (fun t => filter (p t) ls) (ts1 ++ t0 :: ts2)).
Proof.
  intros H0 Hn. rewrite !flat_map_app. cbn [flat_map].
  rewrite !flat_map_filter_skip by (intros; apply Hn; rewrite in_app_iff; auto).
  cbn [filter]. rewrite H0. symmetry. apply Permutation_middle.
Qed.

Lemma flat_map_nonempty {B} (f : B -> list N) ts :
  flat_map snd (filter (fun g : B * list N => negb (match snd g with [] => true | _ => false end))
                       (map (fun t => (t, f t)) ts)) = flat_map f ts.
Proof.
  induction ts as [|t ts IH]; cbn [map filter flat_map snd]; auto.
  destruct (f t) eqn:E; cbn [negb flat_map snd app]; rewrite IH; auto.
Qed.

Definition slot_types (args_tys : list valty) (decls : list (N * valty)) : list valty :=
  args_tys ++ flat_map (fun d => repeat (snd d) (N.to_nat (fst d))) decls.

Section LocalsFacts.
  Variable ty : N -> valty.

  Lemma of_type_partition ls : Permutation (flat_map (fun t => of_type ty t ls) all_valtys) ls.
  Proof.
    induction ls as [|a ls IH].
    - cbn. constructor.
    - eapply perm_trans; [|apply perm_skip, IH]. unfold of_type.
      destruct (all_valtys_unique_code (ty a)) as (ts1 & ts2 & E & Hu). rewrite E.
      apply (flat_map_filter_one (fun t l => N.eqb (valty_code (ty l)) (valty_code t))).
      + apply N.eqb_refl.
      + intros t Ht. apply N.eqb_neq. intros Hc. apply (Hu t Ht). now symmetry.
  Qed.

  Definition non_args (args used : list N) : list N := filter (fun l => negb (mem_N l args)) (sort_ids used).
  Definition locals_groups (args used : list N) : list (valty * list N) :=
    filter (fun g => negb (match snd g with [] => true | _ => false end))
           (map (fun t => (t, of_type ty t (non_args args used))) all_valtys).
  Definition locals_order (args used : list N) : list N := args ++ flat_map snd (locals_groups args used).

  Lemma emit_locals_eq args used :
    emit_locals ty args used =
      (map (fun g => (len_N (snd g), fst g)) (locals_groups args used),
       combine (locals_order args used) (map N.of_nat (seq 0 (length (locals_order args used))))).
  Proof. reflexivity. Qed.

  Lemma groups_perm args used : Permutation (flat_map snd (locals_groups args used)) (non_args args used).
  Proof. unfold locals_groups. rewrite flat_map_nonempty. apply of_type_partition. Qed.

  Lemma non_args_NoDup args used : NoDup (non_args args used).
  Proof. apply NoDup_filter, StronglySorted_lt_NoDup, sort_ids_sorted. Qed.
  Lemma non_args_in args used x : In x (non_args args used) <-> In x used /\ ~ In x args.
  Proof.
    unfold non_args. rewrite filter_In, sort_ids_members, negb_true_iff.
    pose proof (mem_N_spec x args) as M. destruct (mem_N x args); intuition congruence.
  Qed.

  Lemma locals_order_NoDup args used : NoDup args -> NoDup (locals_order args used).
  Proof.
    intros ND. apply NoDup_app_intro; auto.
    - eapply Permutation_NoDup; [apply Permutation_sym, groups_perm|apply non_args_NoDup].
    - intros x Ha Hg. eapply Permutation_in in Hg; [|apply groups_perm].
      apply non_args_in in Hg. tauto.
  Qed.

  (* parameter k keeps index k *)
  Theorem locals_args_first : forall args used decls lmap, emit_locals ty args used = (decls, lmap) ->
    firstn (length args) lmap = combine args (map N.of_nat (seq 0 (length args))).
  Proof.
    intros args used decls lmap E. rewrite emit_locals_eq in E. inversion E; subst; clear E.
    unfold locals_order. set (rest := flat_map snd _).
    rewrite combine_firstn, firstn_app, Nat.sub_diag, firstn_O, app_nil_r, firstn_all.
    rewrite app_length, seq_app, map_app, firstn_app, map_length, seq_length, Nat.sub_diag, firstn_O, app_nil_r.
    rewrite firstn_all2 by (rewrite map_length, seq_length; lia). reflexivity.
  Qed.

  (* one distinct slot per local *)
  Theorem locals_distinct_slots : forall args used decls lmap, NoDup args -> emit_locals ty args used = (decls, lmap) ->
    NoDup (map snd lmap) /\ NoDup (map fst lmap).
  Proof.
    intros args used decls lmap ND E. rewrite emit_locals_eq in E. inversion E; subst; clear E. split.
    - rewrite map_snd_combine by (now rewrite map_length, seq_length).
      apply NoDup_map_inj; [apply Nat2N.inj|apply seq_NoDup].
    - rewrite map_fst_combine by (now rewrite map_length, seq_length).
      now apply locals_order_NoDup.
  Qed.

  Lemma locals_order_in args used x : In x (locals_order args used) <-> In x args \/ In x used.
  Proof.
    unfold locals_order. rewrite in_app_iff. split.
    - intros [H|H]; auto. eapply Permutation_in in H; [|apply groups_perm]. apply non_args_in in H. tauto.
    - intros [H|H]; auto. destruct (mem_N x args) eqn:M; [left; now apply mem_N_spec|right].
      eapply Permutation_in; [apply Permutation_sym, groups_perm|]. apply non_args_in. split; auto.
      rewrite <- mem_N_spec. congruence.
  Qed.

  (* the slots hold exactly the parameters and the used locals *)
  Theorem locals_slots_exact : forall args used decls lmap, emit_locals ty args used = (decls, lmap) ->
    forall x, In x (map fst lmap) <-> In x args \/ In x used.
  Proof.
    intros args used decls lmap E x. rewrite emit_locals_eq in E. inversion E; subst; clear E.
    rewrite map_fst_combine by (now rewrite map_length, seq_length). apply locals_order_in.
  Qed.

  (* every used local has a slot *)
  Theorem locals_cover_used : forall args used decls lmap, emit_locals ty args used = (decls, lmap) ->
    forall x, In x used -> In x (map fst lmap).
  Proof. intros args used decls lmap E x Hx. rewrite (locals_slots_exact _ _ _ _ E). now right. Qed.

  Lemma repeat_typed t l : Forall (fun id => valty_code (ty id) = valty_code t) l ->
    Forall2 (fun id t' => valty_code t' = valty_code (ty id)) l (repeat t (length l)).
  Proof. induction 1; cbn [repeat length]; constructor; auto. Qed.

  Lemma groups_typed (groups : list (valty * list N)) :
    Forall (fun g => Forall (fun id => valty_code (ty id) = valty_code (fst g)) (snd g)) groups ->
    Forall2 (fun id t => valty_code t = valty_code (ty id)) (flat_map snd groups)
            (flat_map (fun d : N * valty => repeat (snd d) (N.to_nat (fst d))) (map (fun g => (len_N (snd g), fst g)) groups)).
  Proof.
    induction 1 as [|g groups Hg HF IH]; cbn [flat_map map]; [constructor|].
    apply Forall2_app; auto. cbn [fst snd]. unfold len_N. rewrite Nat2N.id. now apply repeat_typed.
  Qed.

  Lemma locals_groups_typed args used :
    Forall (fun g => Forall (fun id => valty_code (ty id) = valty_code (fst g)) (snd g)) (locals_groups args used).
  Proof.
    unfold locals_groups. rewrite Forall_forall. intros g Hg. apply filter_In in Hg. destruct Hg as (Hg & _).
    apply in_map_iff in Hg. destruct Hg as (t & <- & _). cbn [fst snd]. rewrite Forall_forall.
    intros id Hid. unfold of_type in Hid. apply filter_In in Hid. now apply N.eqb_eq.
  Qed.

  (* the declared run at a non-parameter slot has the local's type (positional form) *)
  Theorem locals_typed_pos : forall args args_tys used decls lmap, length args_tys = length args ->
    emit_locals ty args used = (decls, lmap) ->
    forall k id idx, length args <= k -> nth_error lmap k = Some (id, idx) ->
      idx = N.of_nat k /\
      exists t, nth_error (slot_types args_tys decls) (N.to_nat idx) = Some t /\ valty_code t = valty_code (ty id).
  Proof.
    intros args args_tys used decls lmap HL E k id idx Hk Hn.
    rewrite emit_locals_eq in E. inversion E; subst; clear E.
    destruct (nth_error_combine_seq _ _ _ _ _ _ Hn) as [Hfst ->]. cbn [Nat.add]. split; [reflexivity|].
    unfold locals_order in Hfst. rewrite nth_error_app2 in Hfst by exact Hk.
    destruct (Forall2_nth_error _ _ _ (groups_typed _ (locals_groups_typed args used)) _ _ Hfst) as (t & Ht & Hc).
    exists t. split; auto. unfold slot_types. rewrite Nat2N.id, nth_error_app2 by lia. now rewrite HL.
  Qed.

  (* the declared run at the slot of a non-parameter local has the local's type *)
  Theorem locals_typed : forall args args_tys used decls lmap, length args_tys = length args ->
    emit_locals ty args used = (decls, lmap) ->
    forall id idx, In (id, idx) lmap -> ~ In id args ->
      exists t, nth_error (slot_types args_tys decls) (N.to_nat idx) = Some t /\ valty_code t = valty_code (ty id).
  Proof.
    intros args args_tys used decls lmap HL E id idx Hin Hna.
    destruct (In_nth_error _ _ Hin) as (k & Hk).
    destruct (le_lt_dec (length args) k) as [Hle|Hlt].
    - eapply locals_typed_pos in Hk; eauto. tauto.
    - rewrite emit_locals_eq in E. inversion E; subst; clear E.
      destruct (nth_error_combine_seq _ _ _ _ _ _ Hk) as [Hfst _]. unfold locals_order in Hfst.
      rewrite nth_error_app1 in Hfst by exact Hlt. elim (Hna (nth_error_In _ _ Hfst)).
  Qed.
End LocalsFacts.

Lemma StronglySorted_impl {A} (R R' : A -> A -> Prop) l :
  (forall a b, R a b -> R' a b) -> StronglySorted R l -> StronglySorted R' l.
Proof.
  intros H. induction 1 as [|a l Hs IH Hall]; constructor; auto.
  eapply Forall_impl; [|exact Hall]. auto.
Qed.

Lemma StronglySorted_app_mid {A} (R : A -> A -> Prop) acc x l :
  StronglySorted R (acc ++ x :: l) -> Forall (fun y => R y x) acc.
Proof.
  induction acc as [|a acc IH]; cbn [app]; intros H; constructor; inversion H as [|? ? Hs Hall]; subst; auto.
  rewrite Forall_forall in Hall. apply Hall. rewrite in_app_iff. right. now left.
Qed.

Lemma NoDup_map_inj_in {A B} (f : A -> B) l : NoDup (map f l) ->
  forall a b, In a l -> In b l -> f a = f b -> a = b.
Proof.
  induction l as [|x l IH]; cbn [map]; intros ND a b Ha Hb E; [destruct Ha|].
  inversion ND as [|? ? Hx ND']; subst.
  destruct Ha as [->|Ha], Hb as [->|Hb]; auto.
  - exfalso. apply Hx. rewrite E. now apply in_map.
  - exfalso. apply Hx. rewrite <- E. now apply in_map.
Qed.

Section StableInsertionSort.
  Variable A : Type.
  Variable leb : A -> A -> bool.
  Definition lebR (a b : A) : Prop := leb a b = true.

  (* insert after every element that is <= x (stable: equal keys keep arrival order) *)
  Fixpoint ins (x : A) (l : list A) : list A :=
    match l with [] => [x] | y :: r => if leb y x then y :: ins x r else x :: l end.
  Definition isort (l : list A) : list A := fold_left (fun acc x => ins x acc) l [].

  Lemma ins_perm x l : Permutation (x :: l) (ins x l).
  Proof.
    induction l as [|y l IH]; cbn [ins]; auto. destruct (leb y x); auto.
    eapply perm_trans; [apply perm_swap|]. now constructor.
  Qed.
  Lemma fold_ins_perm l : forall acc, Permutation (fold_left (fun acc x => ins x acc) l acc) (l ++ acc).
  Proof.
    induction l as [|a l IH]; intros acc; cbn [fold_left app]; [reflexivity|].
    eapply perm_trans; [apply IH|].
    eapply perm_trans; [apply Permutation_app_head, Permutation_sym, ins_perm|].
    apply Permutation_sym, Permutation_middle.
  Qed.
  Theorem isort_perm l : Permutation (isort l) l.
  Proof. unfold isort. rewrite <- (app_nil_r l) at 2. apply fold_ins_perm. Qed.

  (* identity on sorted input: needs no property of leb at all *)
  Lemma ins_last x l : Forall (fun y => lebR y x) l -> ins x l = l ++ [x].
  Proof. induction 1 as [|y l Hy HF IH]; cbn [ins app]; auto. rewrite Hy. now f_equal. Qed.
  Lemma fold_ins_id l : forall acc, StronglySorted lebR (acc ++ l) ->
    fold_left (fun acc x => ins x acc) l acc = acc ++ l.
  Proof.
    induction l as [|x l IH]; intros acc S; cbn [fold_left]; [now rewrite app_nil_r|].
    rewrite (ins_last x acc) by (eapply StronglySorted_app_mid; eauto).
    rewrite IH; rewrite <- app_assoc; auto.
  Qed.
  Theorem isort_id l : StronglySorted lebR l -> isort l = l.
  Proof. intros S. unfold isort. now rewrite fold_ins_id. Qed.

  Hypothesis leb_total : forall a b, leb a b = true \/ leb b a = true.
  Hypothesis leb_trans : forall a b c, leb a b = true -> leb b c = true -> leb a c = true.

  Lemma ins_sorted x l : StronglySorted lebR l -> StronglySorted lebR (ins x l).
  Proof.
    induction 1 as [|y l Hs IH Hall]; cbn [ins]; [repeat constructor|].
    destruct (leb y x) eqn:E.
    - constructor; auto. eapply Permutation_Forall; [apply ins_perm|]. constructor; auto.
    - assert (Hxy : lebR x y) by (destruct (leb_total x y); [auto|congruence]).
      constructor; [constructor; auto|]. constructor; auto.
      eapply Forall_impl; [|exact Hall]. intros z Hz. eapply leb_trans; eauto.
  Qed.
  Lemma fold_ins_sorted l : forall acc, StronglySorted lebR acc ->
    StronglySorted lebR (fold_left (fun acc x => ins x acc) l acc).
  Proof. induction l as [|a l IH]; intros acc S; cbn [fold_left]; auto. apply IH. now apply ins_sorted. Qed.
  Theorem isort_sorted l : StronglySorted lebR (isort l).
  Proof. apply fold_ins_sorted. constructor. Qed.

  (* a sorted list is determined by its elements, when leb is antisymmetric ON THOSE ELEMENTS *)
  Lemma sorted_perm_eq l1 : forall l2,
    (forall a b, In a l1 -> In b l1 -> leb a b = true -> leb b a = true -> a = b) ->
    StronglySorted lebR l1 -> StronglySorted lebR l2 -> Permutation l1 l2 -> l1 = l2.
  Proof.
    induction l1 as [|a l1 IH]; intros l2 AS S1 S2 P.
    - apply Permutation_nil in P. now subst.
    - destruct l2 as [|b l2]; [apply Permutation_sym, Permutation_nil in P; discriminate|].
      inversion S1 as [|? ? S1' H1]; subst. inversion S2 as [|? ? S2' H2]; subst.
      assert (E : a = b).
      { assert (Ia : In a (b :: l2)) by (eapply Permutation_in; [exact P|now left]).
        assert (Ib : In b (a :: l1)) by (eapply Permutation_in; [apply Permutation_sym; exact P|now left]).
        destruct Ia as [->|Ia]; auto. destruct Ib as [->|Ib]; auto.
        apply AS; [now left|now right| |].
        - rewrite Forall_forall in H1. now apply H1.
        - rewrite Forall_forall in H2. now apply H2. }
      subst b. f_equal. apply IH; auto.
      + intros x y Hx Hy. apply AS; now right.
      + eapply Permutation_cons_inv; eauto.
  Qed.

  Theorem isort_order_free l l' : Permutation l l' ->
    (forall a b, In a l -> In b l -> leb a b = true -> leb b a = true -> a = b) -> isort l = isort l'.
  Proof.
    intros P AS. apply sorted_perm_eq; try apply isort_sorted.
    - intros a b Ha Hb. apply AS; eapply Permutation_in; try apply isort_perm; auto.
    - eapply perm_trans; [apply isort_perm|]. eapply perm_trans; [exact P|apply Permutation_sym, isort_perm].
  Qed.

  (* the usual case: elements that the order cannot tell apart have the same key, and keys do not repeat *)
  Corollary isort_key_order_free {K} (key : A -> K) l l' :
    (forall a b, leb a b = true -> leb b a = true -> key a = key b) ->
    Permutation l l' -> NoDup (map key l) -> isort l = isort l'.
  Proof.
    intros Hk P ND. apply isort_order_free; [exact P|].
    intros a b Ha Hb H1 H2. apply (NoDup_map_inj_in key l ND); auto.
  Qed.

  (* the sort is the ONLY sorted arrangement *)
  Theorem isort_unique l s :
    (forall a b, In a l -> In b l -> leb a b = true -> leb b a = true -> a = b) ->
    Permutation s l -> StronglySorted lebR s -> s = isort l.
  Proof.
    intros AS P S. symmetry. apply sorted_perm_eq; auto using isort_sorted.
    - intros a b Ha Hb. apply AS; eapply Permutation_in; try apply isort_perm; auto.
    - eapply perm_trans; [apply isort_perm|now apply Permutation_sym].
  Qed.
End StableInsertionSort.

Definition nm_leb {A} (a b : N * A) : bool := (fst a <=? fst b)%N.
(* ins_nm takes its type argument inside the fixpoint, so this is an induction, not a conversion *)
Lemma ins_nm_ins {A} (x : N * A) l : ins_nm x l = ins _ nm_leb x l.
Proof. induction l as [|y r IH]; cbn [ins_nm ins]; [reflexivity|]. rewrite IH. reflexivity. Qed.
Lemma sort_nm_isort {A} (l : list (N * A)) : sort_nm l = isort _ nm_leb l.
Proof.
  unfold sort_nm, isort. generalize (@nil (N * A)).
  induction l as [|a l IH]; intros acc; cbn [fold_left]; auto. rewrite ins_nm_ins. apply IH.
Qed.
Lemma nm_leb_total {A} (a b : N * A) : nm_leb a b = true \/ nm_leb b a = true.
Proof. unfold nm_leb. rewrite !N.leb_le. lia. Qed.
Lemma nm_leb_trans {A} (a b c : N * A) : nm_leb a b = true -> nm_leb b c = true -> nm_leb a c = true.
Proof. unfold nm_leb. rewrite !N.leb_le. lia. Qed.

Theorem sort_nm_perm : forall A (l : list (N * A)), Permutation (sort_nm l) l.
Proof. intros. rewrite sort_nm_isort. apply isort_perm. Qed.
Theorem sort_nm_sorted : forall A (l : list (N * A)),
  StronglySorted (fun a b => fst a <= fst b)%N (sort_nm l) /\ Permutation (sort_nm l) l.
Proof.
  intros A l. split; [|apply sort_nm_perm]. rewrite sort_nm_isort.
  eapply StronglySorted_impl; [|apply isort_sorted; [apply nm_leb_total|apply nm_leb_trans]].
  intros a b H. now apply N.leb_le.
Qed.
Theorem sort_nm_order_free : forall A (l l' : list (N * A)),
  Permutation l l' -> NoDup (map fst l) -> sort_nm l = sort_nm l'.
Proof.
  intros A l l' P ND. rewrite !sort_nm_isort.
  apply (isort_key_order_free _ nm_leb nm_leb_total nm_leb_trans fst); auto.
  intros a b. unfold nm_leb. rewrite !N.leb_le. lia.
Qed.
Theorem sort_nm_id : forall A (l : list (N * A)),
  StronglySorted (fun a b => fst a <= fst b)%N l -> sort_nm l = l.
Proof.
  intros A l S. rewrite sort_nm_isort. apply isort_id.
  eapply StronglySorted_impl; [|exact S]. intros a b H. now apply N.leb_le.
Qed.

(* the function emission order: walrus sorts by the key (Reverse(size), id) *)
Definition sort_funcs (l : list (N * N * mlocalfunc)) : list (N * N * mlocalfunc) :=
  fold_left (fun acc x => ins_f x acc) l [].
(* this is the fold of used_local_functions *)
Lemma used_local_functions_sort_funcs m :
  used_local_functions m =
    rbind (rmapM (fun p => match fn_kind (snd p) with
                           | FK_Local lf => rbind (lf_size lf) (fun sz => Ok [((sz, fst p), lf)])
                           | FK_Import _ _ => Ok []
                           | FK_Uninit _ => Panic
                           end) (aiter (m_funcs m)))
          (fun l => Ok (map (fun t => (snd (fst t), snd t)) (sort_funcs (concat l)))).
Proof. reflexivity. Qed.

Definition f_leb (a b : N * N * mlocalfunc) : bool := fkey_le (fst a) (fst b).
(* a is emitted before-or-with b: bigger size first, then smaller id *)
Definition func_before (a b : N * N * mlocalfunc) : Prop :=
  (fst (fst b) < fst (fst a) \/ (fst (fst a) = fst (fst b) /\ snd (fst a) <= snd (fst b)))%N.
Lemma sort_funcs_isort l : sort_funcs l = isort _ f_leb l.
Proof. reflexivity. Qed.
Lemma fkey_le_spec (a b : N * N) :
  fkey_le a b = true <-> (fst b < fst a \/ (fst a = fst b /\ snd a <= snd b))%N.
Proof.
  unfold fkey_le. destruct (N.ltb_spec (fst b) (fst a)); [intuition|].
  destruct (N.ltb_spec (fst a) (fst b)); [split; [discriminate|lia]|].
  rewrite N.leb_le. lia.
Qed.
Lemma f_leb_spec a b : f_leb a b = true <-> func_before a b.
Proof. apply fkey_le_spec. Qed.
Lemma f_leb_total a b : f_leb a b = true \/ f_leb b a = true.
Proof. rewrite !f_leb_spec. unfold func_before. lia. Qed.
Lemma f_leb_trans a b c : f_leb a b = true -> f_leb b c = true -> f_leb a c = true.
Proof. rewrite !f_leb_spec. unfold func_before. lia. Qed.
Lemma f_leb_antisym_key a b : f_leb a b = true -> f_leb b a = true -> fst a = fst b.
Proof.
  rewrite !f_leb_spec. unfold func_before. destruct a as [[sa ia] la], b as [[sb ib] lb]; cbn [fst snd].
  intros H1 H2. f_equal; lia.
Qed.
Lemma f_leb_antisym_id a b : f_leb a b = true -> f_leb b a = true -> snd (fst a) = snd (fst b).
Proof. intros H1 H2. now rewrite (f_leb_antisym_key a b H1 H2). Qed.

Theorem sort_funcs_perm : forall l, Permutation (sort_funcs l) l.
Proof. intros. rewrite sort_funcs_isort. apply isort_perm. Qed.
Theorem sort_funcs_sorted : forall l, StronglySorted func_before (sort_funcs l).
Proof.
  intros l. rewrite sort_funcs_isort.
  eapply StronglySorted_impl; [|apply isort_sorted; [apply f_leb_total|apply f_leb_trans]].
  intros a b. apply f_leb_spec.
Qed.
Theorem func_order_free : forall l l', Permutation l l' ->
  NoDup (map (fun t : N * N * mlocalfunc => snd (fst t)) l) -> sort_funcs l = sort_funcs l'.
Proof.
  intros l l' P ND. rewrite !sort_funcs_isort.
  apply (isort_key_order_free _ f_leb f_leb_total f_leb_trans _ _ _ f_leb_antisym_id P ND).
Qed.
Theorem sort_funcs_unique : forall l s,
  NoDup (map (fun t : N * N * mlocalfunc => snd (fst t)) l) ->
  Permutation s l -> StronglySorted func_before s -> s = sort_funcs l.
Proof.
  intros l s ND P S. rewrite sort_funcs_isort.
  apply (isort_unique _ f_leb f_leb_total f_leb_trans); auto.
  - intros a b Ha Hb H1 H2. apply (NoDup_map_inj_in _ l ND); auto. now apply f_leb_antisym_id.
  - eapply StronglySorted_impl; [|exact S]. intros a b. apply f_leb_spec.
Qed.
Theorem func_order_spec : forall l,
  NoDup (map (fun t : N * N * mlocalfunc => snd (fst t)) l) ->
  (forall l', Permutation l l' -> sort_funcs l = sort_funcs l') /\
  Permutation (sort_funcs l) l /\ StronglySorted func_before (sort_funcs l).
Proof. intros l ND. repeat split; auto using func_order_free, sort_funcs_perm, sort_funcs_sorted. Qed.

(* types: a stable sort by (params, results) *)
Lemma vl_cmp_antisym : forall a b, vl_cmp a b = CompOpp (vl_cmp b a).
Proof.
  induction a as [|x a IH]; intros [|y b]; cbn [vl_cmp CompOpp]; auto.
  rewrite (N.compare_antisym (valty_code x) (valty_code y)).
  destruct (valty_code x ?= valty_code y)%N; cbn [CompOpp]; auto.
Qed.
Lemma vl_cmp_trans : forall c0 a b c, vl_cmp a b = c0 -> vl_cmp b c = c0 -> vl_cmp a c = c0.
Proof.
  intros c0. induction a as [|x a IH]; intros [|y b] [|z c]; cbn [vl_cmp]; try congruence.
  destruct (N.compare_spec (valty_code x) (valty_code y)),
           (N.compare_spec (valty_code y) (valty_code z)),
           (N.compare_spec (valty_code x) (valty_code z)); intros Hab Hbc; try lia; try congruence; eauto.
Qed.
Lemma vl_cmp_eq_l : forall a b, vl_cmp a b = Eq -> forall c, vl_cmp a c = vl_cmp b c.
Proof.
  induction a as [|x a IH]; intros [|y b] H [|z c]; cbn [vl_cmp] in *; try congruence.
  destruct (N.compare_spec (valty_code x) (valty_code y)) as [E| |]; try discriminate.
  rewrite E. destruct (valty_code y ?= valty_code z)%N; auto.
Qed.
Lemma vl_cmp_eq_r : forall b c, vl_cmp b c = Eq -> forall a, vl_cmp a b = vl_cmp a c.
Proof. intros b c H a. rewrite (vl_cmp_antisym a b), (vl_cmp_antisym a c). f_equal. now apply vl_cmp_eq_l. Qed.

Lemma ty_le_total : forall a b, ty_le a b = true \/ ty_le b a = true.
Proof.
  intros a b. unfold ty_le.
  rewrite (vl_cmp_antisym (ty_params b) (ty_params a)), (vl_cmp_antisym (ty_results b) (ty_results a)).
  destruct (vl_cmp (ty_params a) (ty_params b)), (vl_cmp (ty_results a) (ty_results b)); cbn [CompOpp]; auto.
Qed.
Lemma ty_le_trans : forall a b c, ty_le a b = true -> ty_le b c = true -> ty_le a c = true.
Proof.
  intros a b c H1 H2. unfold ty_le in *.
  destruct (vl_cmp (ty_params a) (ty_params b)) eqn:P1; try discriminate H1;
  destruct (vl_cmp (ty_params b) (ty_params c)) eqn:P2; try discriminate H2.
  - rewrite (vl_cmp_trans Eq _ _ _ P1 P2).
    destruct (vl_cmp (ty_results a) (ty_results b)) eqn:R1; try discriminate H1;
    destruct (vl_cmp (ty_results b) (ty_results c)) eqn:R2; try discriminate H2.
    + now rewrite (vl_cmp_trans Eq _ _ _ R1 R2).
    + now rewrite (vl_cmp_eq_l _ _ R1), R2.
    + now rewrite <- (vl_cmp_eq_r _ _ R2), R1.
    + now rewrite (vl_cmp_trans Lt _ _ _ R1 R2).
  - now rewrite (vl_cmp_eq_l _ _ P1), P2.
  - now rewrite <- (vl_cmp_eq_r _ _ P2), P1.
  - now rewrite (vl_cmp_trans Lt _ _ _ P1 P2).
Qed.

Definition t_leb (a b : N * mtype) : bool := ty_le (snd a) (snd b).
Lemma sort_types_isort l : sort_types l = isort _ t_leb l.
Proof. reflexivity. Qed.

Theorem sort_types_perm : forall l, Permutation (sort_types l) l.
Proof. intros. rewrite sort_types_isort. apply isort_perm. Qed.
Theorem sort_types_sorted : forall l, StronglySorted (fun a b => ty_le (snd a) (snd b) = true) (sort_types l).
Proof.
  intros l. rewrite sort_types_isort.
  apply (isort_sorted _ t_leb); intros; [apply ty_le_total|eapply ty_le_trans; eauto].
Qed.
Theorem sort_types_stable_id : forall l,
  StronglySorted (fun a b => ty_le (snd a) (snd b) = true) l -> sort_types l = l.
Proof. intros l S. rewrite sort_types_isort. now apply isort_id. Qed.

Print Assumptions sort_ids_order_free.
Print Assumptions emit_locals_order_free.
Print Assumptions locals_distinct_slots.
Print Assumptions sort_nm_order_free.
Print Assumptions func_order_free.
Print Assumptions sort_types_stable_id.
