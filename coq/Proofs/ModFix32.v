(* C08, module level fixpoint: the parse-side invariant [offsets_ok] holds of every parsed module (no validity
   premise is needed for it), hence the second trip is total on every valid input.  The equality of the two emitted streams, and with it the
   idempotence of the round trip under iteration, carries besides validity the configuration premise
   [cf_skip_name cf = true \/ cf_synthetic_names cf = false].

   The invariant is carried on the K lists (Structure.v): every active element / data segment's offset
   constant has the index type of its table / memory, read off the lists of global value types, table64 and
   memory64 flags.  Those lists only grow (parse_sec_TM / parse_sec_GES), element segments are appended
   (parse_sec_E), data segments are appended or overwritten in place (parse_sec_D); the passes after the payload
   loop leave KK alone (parseM_KK). *)
From Coq Require Import List NArith ZArith Bool Arith Lia.
Import ListNotations.
From WV Require Import Gen.Ops Model.Common Model.IR Model.Arena Model.ModuleM Model.ParseM Model.EmitM Gen.Attrs.
From WV Require Import Proofs.Arena Proofs.IndexMaps Proofs.Structure Proofs.Structure2 Proofs.ParseTotal Proofs.ModFix.
From WV Require Import Proofs.ModFix26.
From WV Require Proofs.Totality Proofs.TotalityBodies Proofs.ModFix13 Proofs.ModFix16 Proofs.ModFix20 Proofs.ModFix22 Proofs.ModFix25 Proofs.ModFix30.
Local Open Scope nat_scope.

(* an active segment names a table / memory [i] and an offset constant, which has the index type of [i];
   [F] lists the table64 resp. memory64 flags *)
Definition act_ok (G : list valty) (F : list bool) (a : option (N * mconst)) : Prop :=
  match a with
  | Some (i, off) => exists is64, nth_error F (N.to_nat i) = Some is64 /\ offL G is64 off = true
  | None => True end.
Lemma act_ok_mono G F a b c : act_ok G F c -> act_ok (G ++ a) (F ++ b) c.
Proof.
  destruct c as [[i off]|]; [|exact (fun H => H)]. intros (is64 & Hn & Ho). exists is64. split; [|apply offL_mono; exact Ho].
  rewrite nth_error_app1; [exact Hn|]. apply nth_error_Some. rewrite Hn. discriminate.
Qed.
Definition segs_ok {A} (act : A -> option (N * mconst)) G F (l : list A) : Prop := Forall (fun c => act_ok G F (act c)) l.
Lemma segs_ok_mono {A} (act : A -> option (N * mconst)) G F a b l : segs_ok act G F l -> segs_ok act (G ++ a) (F ++ b) l.
Proof. apply Forall_impl. intros c. apply act_ok_mono. Qed.

Lemma segs_ok_In {A} (act : A -> option (N * mconst)) G F l c i off : segs_ok act G F l -> In c l -> act c = Some (i, off) ->
  exists is64, nth_error F (N.to_nat i) = Some is64 /\ offL G is64 off = true.
Proof. intros H Hin E. pose proof (proj1 (Forall_forall _ _) H c Hin) as Hc. cbv beta in Hc. rewrite E in Hc. exact Hc. Qed.

Definition eact (c : melemkind * melemitems) := match fst c with ELK_Active t off => Some (t, off) | _ => None end.
Definition dact (c : mdatakind * list N) := match fst c with DK_Active mem off => Some (mem, off) | _ => None end.
Definition EOK := segs_ok eact.
Definition DOK := segs_ok dact.

Definition G_of (KG : list (wglobalty * option mconst)) : list valty := map (fun g => wg_ty (fst g)) KG.
Definition T_of (KT : list (wtable * bool)) : list bool := map (fun t => wt_64 (fst t)) KT.
Definition EOKm (m : wir) : Prop := EOK (G_of (K_globals m)) (T_of (K_tables m)) (K_elems m).

(* one payload: the invariant is kept provided the NEW segments satisfy the clause in the new context
   (only an element section contributes new segments) *)
Lemma parse_sec_EOK s sec s' : ids_consistent (ps_m s) (ps_ids s) -> parse_sec s sec = POk s' -> EOKm (ps_m s) ->
  EOK (G_of (K_globals (ps_m s'))) (T_of (K_tables (ps_m s'))) (map elem_of (elems_of sec)) -> EOKm (ps_m s').
Proof.
  intros Hid E H Hnew. unfold EOKm in *.
  destruct (parse_sec_TM _ _ _ E) as [HT _]. destruct (parse_sec_GES _ _ _ Hid E) as (HG & _ & _).
  pose proof (parse_sec_E _ _ _ Hid E) as HE. rewrite HE. apply Forall_app. split; [|exact Hnew].
  rewrite HT, HG. unfold G_of, T_of. rewrite !map_app. apply segs_ok_mono. exact H.
Qed.

Definition M_of (KM : list (wmem * bool)) : list bool := map (fun t => wm_64 (fst t)) KM.

Lemma T_of_nth m n : nth_error (T_of (K_tables m)) n = option_map tb_64 (nth_error (items (m_tables m)) n).
Proof.
  unfold T_of, K_tables. rewrite map_map, nth_error_map. destruct (nth_error _ n); reflexivity.
Qed.
Lemma M_of_nth m n : nth_error (M_of (K_mems m)) n = option_map me_64 (nth_error (items (m_memories m)) n).
Proof.
  unfold M_of, K_mems. rewrite map_map, nth_error_map. destruct (nth_error _ n); reflexivity.
Qed.

Lemma G_of_K m : G_of (K_globals m) = G_tys m.
Proof. unfold G_of, K_globals, G_tys. rewrite map_map. reflexivity. Qed.
Lemma offset_ok_offL m b c : dead (m_globals m) = [] ->
  (offset_ok m b c = POk true <-> offL (G_of (K_globals m)) b c = true).
Proof. rewrite G_of_K. apply ModFix26.offset_ok_offL. Qed.

Definition DOKm (m : wir) : Prop := DOK (G_of (K_globals m)) (M_of (K_mems m)) (K_data m).

Lemma parse_elem_checked m ids e m1 ids1 : ids_consistent m ids -> parse_elem m ids e = POk (m1, ids1) ->
  act_ok (G_of (K_globals m)) (T_of (K_tables m)) (eact (elem_of e)) /\ K_globals m1 = K_globals m /\ K_tables m1 = K_tables m.
Proof.
  intros Hid Ex.
  destruct (parse_elem_offset _ _ _ _ _ Ex) as (Hg & kind & its & Hit & Hk).
  destruct (parse_elem_step _ _ _ _ _ Ex) as [_ HT].
  destruct (parse_elem_spec _ _ _ _ _ (idc_ids3 _ _ Hid) Ex) as [HK _].
  split; [|split; [unfold K_globals; rewrite Hg; reflexivity|exact HT]].
  unfold K_elems in HK. rewrite Hit, map_app in HK. apply app_inv_head in HK. cbn [map] in HK.
  assert (HK' : fst (elem_of e) = kind).
  { change kind with (fst (ecore {| el_kind := kind; el_items := its; el_name := None |})). congruence. }
  unfold eact. rewrite HK'.
  destruct kind as [| |t off]; try exact I. destruct Hk as (tb & Ht & Ho).
  destruct (Totality.idc_dead _ _ Hid) as (_ & DT & _ & DG & _).
  exists (tb_64 tb). split.
  - rewrite T_of_nth. rewrite (Structure.aget_nodead _ _ DT) in Ht. rewrite Ht. reflexivity.
  - rewrite (offset_ok_globals m m1 _ _ Hg) in Ho. apply (proj1 (offset_ok_offL _ _ _ DG)). exact Ho.
Qed.

Lemma parse_elems_checked : forall l m ids m' ids', ids_consistent m ids -> parse_elems m ids l = POk (m', ids') ->
  EOK (G_of (K_globals m)) (T_of (K_tables m)) (map elem_of l) /\ K_globals m' = K_globals m /\ K_tables m' = K_tables m.
Proof.
  induction l as [|e r IH]; intros m ids m' ids' Hid E; cbn [parse_elems] in E.
  - inversion E; subst. split; [constructor|split; reflexivity].
  - pinv E as x Ex. destruct x as [m1 ids1]. cbn [fst snd] in E.
    pose proof (parse_elem_idc _ _ _ _ _ Hid Ex) as Hid1.
    destruct (parse_elem_checked _ _ _ _ _ Hid Ex) as (H1 & Hg1 & Ht1).
    destruct (IH _ _ _ _ Hid1 E) as (H2 & Hg2 & Ht2).
    rewrite Hg1, Ht1 in H2. split; [|split; congruence].
    cbn [map]. constructor; assumption.
Qed.

Lemma parse_data1_checked m ids pre i d m' ids' : ids_consistent m ids -> do_step (St_data pre i d) m ids = POk (m', ids') ->
  act_ok (G_of (K_globals m)) (M_of (K_mems m)) (dact (data_of d)).
Proof.
  intros H E. cbn [do_step parse_data_from] in E. pinv E as x Ex. destruct x as [[m1 ids1] id]. pinv E as y Ey. clear E.
  assert (H1 : ids_consistent m1 ids1 /\ m_globals m1 = m_globals m /\ m_memories m1 = m_memories m).
  { destruct pre.
    - pinv Ex as z Ez. inversion Ex; subst. split; [exact H|split; reflexivity].
    - wcbn. inversion Ex; subst; clear Ex. wcbn. split; [|split; reflexivity]. clear - H. idc_solve. }
  clear Ex. destruct H1 as (H1 & G1 & M1). unfold K_globals, K_mems. rewrite <- G1, <- M1.
  unfold dact, data_of. cbn [fst]. destruct (wd_kind d) as [|mi off]; [exact I|].
  pinv Ey as mid Emid. pinv Ey as mm Emm. pinv Ey as o Eo. pinv Ey as ok Eok. destruct ok; [|discriminate]. clear Ey.
  destruct (Totality.idc_dead _ _ H1) as (_ & _ & DM & DG & _).
  destruct (idc_idsD _ _ H1) as (Hg & Hfn & [nm Hm] & _).
  apply of_opt_err_ok in Emid. rewrite Hm in Emid. apply Structure.nth_N_iota in Emid. subst mid.
  apply eval_const_cst0 in Eo; [|exact Hg|exact Hfn]. subst o.
  apply of_opt_panic_ok in Emm. rewrite (Structure.aget_nodead _ _ DM) in Emm.
  exists (me_64 mm). split; [exact (eq_trans (M_of_nth m1 _) (f_equal (option_map me_64) Emm))|].
  apply (proj1 (offset_ok_offL m1 _ _ DG)). rewrite <- Eok. symmetry. apply offset_ok_globals. reflexivity.
Qed.

Lemma parse_data_from_checked : forall l m ids pre i m' ids', ids_consistent m ids ->
  parse_data_from m ids pre i l = POk (m', ids') ->
  DOK (G_of (K_globals m)) (M_of (K_mems m)) (map data_of l).
Proof.
  induction l as [|d r IH]; intros m ids pre i m' ids' H E; [constructor|].
  rewrite <- parse_data_from_steps in E. cbn [data_steps run_steps] in E. pinv E as x Ex. destruct x as [m1 ids1].
  rewrite parse_data_from_steps in E. constructor; [exact (parse_data1_checked _ _ _ _ _ _ _ H Ex)|].
  rewrite <- (Structure.parse_data_from_step [d] _ _ _ _ _ _ Ex), <- (step_keeps K_globals _ _ _ _ _ Ex (fun _ _ => eq_refl)).
  exact (IH _ _ _ _ _ _ (step_idc _ _ _ _ _ H Ex) E).
Qed.

Definition Inv (m : wir) : Prop := EOKm m /\ DOKm m.

Lemma parse_sec_new_elems s sec s' : ids_consistent (ps_m s) (ps_ids s) -> parse_sec s sec = POk s' ->
  EOK (G_of (K_globals (ps_m s'))) (T_of (K_tables (ps_m s'))) (map elem_of (elems_of sec)).
Proof.
  intros Hid E. destruct sec; try (cbn [elems_of map]; constructor).
  unfold parse_sec in E. pinv E as x Ex. destruct x as [m1 i1]. inversion E; subst; clear E. wcbn.
  destruct (parse_elems_checked _ _ _ _ _ Hid Ex) as (H & Hg & Ht). cbn [elems_of].
  rewrite Hg, Ht. exact H.
Qed.

Lemma parse_sec_new_data s sec s' : ids_consistent (ps_m s) (ps_ids s) -> parse_sec s sec = POk s' ->
  forall l, sec = S_Data l -> DOK (G_of (K_globals (ps_m s))) (M_of (K_mems (ps_m s))) (map data_of l).
Proof.
  intros Hid E l ->. unfold parse_sec in E. pinv E as x Ex. destruct x as [m1 i1]. unfold parse_data in Ex.
  exact (parse_data_from_checked _ _ _ _ _ _ _ Hid Ex).
Qed.

Lemma parse_sec_Inv s sec s' : ids_consistent (ps_m s) (ps_ids s) -> parse_sec s sec = POk s' ->
  Inv (ps_m s) -> Inv (ps_m s').
Proof.
  intros Hid E [HE HD]. split.
  - apply (parse_sec_EOK _ _ _ Hid E HE). exact (parse_sec_new_elems _ _ _ Hid E).
  - unfold DOKm in *.
    destruct (parse_sec_TM _ _ _ E) as [_ HM]. destruct (parse_sec_GES _ _ _ Hid E) as (HG & _ & _).
    rewrite (parse_sec_D _ _ _ Hid E), HM, HG. unfold G_of, M_of. rewrite !map_app.
    pose proof (parse_sec_new_data _ _ _ Hid E) as Hnew.
    destruct sec; cbn [sec_kdata]; try (apply segs_ok_mono; exact HD).
    + (* data count: passive placeholders *)
      apply Forall_app. split; [apply segs_ok_mono; exact HD|].
      apply Forall_forall. intros x Hx. apply repeat_spec in Hx. subst x. exact I.
    + (* data section *)
      apply Forall_app. split; apply segs_ok_mono; [exact (Hnew _ eq_refl)|].
      rewrite <- (firstn_skipn (length ds) (K_data (ps_m s))) in HD. exact (proj2 (proj1 (Forall_app _ _ _) HD)).
Qed.

Theorem parse_secs_Inv : forall w s s', ids_consistent (ps_m s) (ps_ids s) -> parse_secs s w = POk s' ->
  Inv (ps_m s) -> Inv (ps_m s').
Proof.
  induction w as [|x r IH]; intros s s' Hid E HI; cbn [parse_secs] in E.
  - inversion E; subst; exact HI.
  - pinv E as s1 E1. pose proof (parse_sec_idc _ _ _ Hid E1) as Hid1.
    apply (IH _ _ Hid1 E). exact (parse_sec_Inv _ _ _ Hid E1 HI).
Qed.

Lemma Inv_KK m m' : KK m' = KK m -> Inv m -> Inv m'.
Proof.
  intros H [HE HD]. unfold KK in H. injection H; intros D E G M T _ _ _.
  unfold Inv, EOKm, DOKm in *. rewrite D, E, G, M, T. split; assumption.
Qed.

Theorem parseM_Inv : forall cf ver w s, parseM cf ver w = POk s -> Inv (ps_m s).
Proof.
  intros cf ver w s E. destruct (parseM_KK _ _ _ _ E) as [s1 [E1 EK]].
  apply (Inv_KK _ _ EK). apply (parse_secs_Inv w (pst0 cf) s1); [apply idc_empty|exact E1|].
  split; unfold EOKm, DOKm, EOK, DOK; cbn; constructor.
Qed.

Lemma aiter_in_items {A} (a : tarena A) id x : dead a = [] -> In (id, x) (aiter a) -> In x (items a).
Proof. intros D H. rewrite <- (aiter_nodead_snd a D). change x with (snd (id, x)). apply in_map. exact H. Qed.

Lemma Inv_offsets_ok m ids : ids_consistent m ids -> Inv m -> offsets_ok m.
Proof.
  intros Hid [HE HD].
  destruct (Totality.idc_dead _ _ Hid) as (_ & DT & DM & DG & DE & DD & _).
  split.
  - intros id e t off Hin Hk. apply (aiter_in_items _ _ _ DE) in Hin.
    destruct (segs_ok_In _ _ _ _ (ecore e) t off HE) as (is64 & Hn & Ho);
      [apply in_map; exact Hin|unfold eact, ecore; cbn [fst]; rewrite Hk; reflexivity|]. rewrite T_of_nth in Hn.
    destruct (nth_error (items (m_tables m)) (N.to_nat t)) as [tb|] eqn:En; [|discriminate Hn].
    cbn [option_map] in Hn. injection Hn as Hn. exists tb. split; [rewrite (Structure.aget_nodead _ _ DT); exact En|].
    rewrite Hn. apply (proj2 (offset_ok_offL _ _ _ DG)). exact Ho.
  - intros id d mem off Hin Hk. apply (aiter_in_items _ _ _ DD) in Hin.
    destruct (segs_ok_In _ _ _ _ (dcore d) mem off HD) as (is64 & Hn & Ho);
      [apply in_map; exact Hin|unfold dact, dcore; cbn [fst]; rewrite Hk; reflexivity|]. rewrite M_of_nth in Hn.
    destruct (nth_error (items (m_memories m)) (N.to_nat mem)) as [me|] eqn:En; [|discriminate Hn].
    cbn [option_map] in Hn. injection Hn as Hn. exists me. split; [rewrite (Structure.aget_nodead _ _ DM); exact En|].
    rewrite Hn. apply (proj2 (offset_ok_offL _ _ _ DG)). exact Ho.
Qed.

Theorem parsed_offsets_ok_any : forall cf ver w s, parseM cf ver w = POk s -> offsets_ok (ps_m s).
Proof.
  intros cf ver w s E. exact (Inv_offsets_ok _ _ (parseM_ids _ _ _ _ E) (parseM_Inv _ _ _ _ E)).
Qed.

Theorem module_fixpoint_total : forall cf ver w s1 ilen e1,
  valid_stream w -> parseM cf ver w = POk s1 -> emitM (ps_m s1) ilen [] = Ok e1 ->
  valid_stream (em_secs e1) /\
  exists s2 e2, parseM cf ver (em_secs e1) = POk s2 /\ emitM (ps_m s2) ilen [] = Ok e2 /\
    ((cf_skip_name cf = true \/ cf_synthetic_names cf = false) -> em_secs e2 = em_secs e1).
Proof.
  intros cf ver w s1 ilen e1 V P1 E1.
  pose proof (ModFix30.emitted_valid_b_from_offsets _ _ _ _ _ _ P1 E1 (parsed_offsets_ok_any _ _ _ _ P1)) as Hb.
  pose proof (ModFix16.emitted_valid_stream _ _ _ E1 Hb (ModFix22.emitted_bodies_valid_sections _ _ _ _ _ _ V P1 E1)) as V1.
  split; [exact V1|]. destruct (parse_total cf ver _ V1) as [s2 P2].
  (* every index the emitted operators mention is in range of the second parse: the entity counts are kept *)
  destruct (TotalityBodies.emit_total_after_parse_final_partial cf ver (em_secs e1) s2 ilen [] V1 P2
              (ModFix25.emitted_refs_in_range _ _ _ _ _ _ _ V P1 E1 (ModFix13.counts_kept_3 _ _ _ _ _ _ _ P1 E1 P2))) as [e2 E2].
  exists s2, e2. split; [exact P2|]. split; [exact E2|].
  intros HN. exact (ModFix20.module_fixpoint_partial cf ver w ilen s1 e1 s2 e2 P1 E1 P2 E2 V HN).
Qed.

(* C02: the emitted section stream of a parsed module again has every guarantee the model asks of a validator-accepted stream
   ([ParseTotal.valid_stream]: section order, index bounds of every section, constant-expression forms, counts, structured bodies with
   indices in range): the structural half of "the output validates". *)
Theorem emitted_stream_valid : forall cf ver w s1 ilen e1,
  valid_stream w -> parseM cf ver w = POk s1 -> emitM (ps_m s1) ilen [] = Ok e1 -> valid_stream (em_secs e1).
Proof. intros cf ver w s1 ilen e1 Hv Hp He. exact (proj1 (module_fixpoint_total cf ver w s1 ilen e1 Hv Hp He)). Qed.

Definition trip (cf : config) (ver : ModuleM.str) (ilen : wins -> N) (w : wmod) : option wmod :=
  match parseM cf ver w with
  | POk s => match emitM (ps_m s) ilen [] with Ok e => Some (em_secs e) | _ => None end
  | _ => None end.
Fixpoint trips (cf : config) (ver : ModuleM.str) (ilen : wins -> N) (n : nat) (w : wmod) : option wmod :=
  match n with
  | O => Some w
  | S k => match trip cf ver ilen w with Some w' => trips cf ver ilen k w' | None => None end
  end.

Lemma trip_inv cf ver ilen w w1 : trip cf ver ilen w = Some w1 ->
  exists s e, parseM cf ver w = POk s /\ emitM (ps_m s) ilen [] = Ok e /\ w1 = em_secs e.
Proof.
  unfold trip. destruct (parseM cf ver w) as [s| |] eqn:P; try discriminate.
  destruct (emitM (ps_m s) ilen []) as [e| |] eqn:E; try discriminate.
  intros H. inversion H; subst. exists s, e. repeat split; assumption.
Qed.

Theorem trip_fixed : forall cf ver ilen w w1, valid_stream w ->
  (cf_skip_name cf = true \/ cf_synthetic_names cf = false) ->
  trip cf ver ilen w = Some w1 -> valid_stream w1 /\ trip cf ver ilen w1 = Some w1.
Proof.
  intros cf ver ilen w w1 V Hn T. destruct (trip_inv _ _ _ _ _ T) as (s & e & P & E & ->).
  destruct (module_fixpoint_total _ _ _ _ _ _ V P E) as (V1 & s2 & e2 & P2 & E2 & Hfix).
  split; [exact V1|]. unfold trip. rewrite P2, E2, (Hfix Hn). reflexivity.
Qed.

Lemma trips_fixed cf ver ilen w1 : trip cf ver ilen w1 = Some w1 -> forall k, trips cf ver ilen k w1 = Some w1.
Proof. intros T. induction k as [|k IH]; cbn [trips]; [reflexivity|]. rewrite T. exact IH. Qed.

Theorem emit_parse_idempotent_on_valid : forall cf ver ilen w w1, valid_stream w ->
  (cf_skip_name cf = true \/ cf_synthetic_names cf = false) ->
  trip cf ver ilen w = Some w1 ->
  forall n, n >= 1 -> trips cf ver ilen n w = Some w1.
Proof.
  intros cf ver ilen w w1 V Hn T n Hge. destruct n as [|k]; [lia|]. cbn [trips]. rewrite T.
  apply trips_fixed. exact (proj2 (trip_fixed _ _ _ _ _ V Hn T)).
Qed.

(* totality of the iteration: the first trip failing is the only way to fail *)
Corollary trips_total : forall cf ver ilen w, valid_stream w ->
  (cf_skip_name cf = true \/ cf_synthetic_names cf = false) ->
  forall n, n >= 1 -> trips cf ver ilen n w = trip cf ver ilen w.
Proof.
  intros cf ver ilen w V Hn n Hge. destruct (trip cf ver ilen w) as [w1|] eqn:T.
  - exact (emit_parse_idempotent_on_valid _ _ _ _ _ V Hn T n Hge).
  - destruct n as [|k]; [lia|]. cbn [trips]. rewrite T. reflexivity.
Qed.

Print Assumptions parse_sec_EOK.
Print Assumptions parsed_offsets_ok_any.
Print Assumptions module_fixpoint_total.
Print Assumptions emitted_stream_valid.
Print Assumptions emit_parse_idempotent_on_valid.
Print Assumptions trips_total.
