(* The function-body parser (Model/ParseFn.v) against its declarative specification (Model/ParseSpec.v):
   parse_body computes exactly [parsed_arena] (parse_body_arena), which denotes [parsed_tree]
   (parsed_arena_den); [parsed_tree] is scoped, i.e. every branch target is an enclosing sequence
   (parsed_tree_scoped); what [tbuild_list] keeps and which ids it hands out (parse_normal_form_facts).
   All four are inductions on source trees and lists of trees together (rt_list_ind). *)
From Coq Require Import List NArith Arith Lia Bool. Import ListNotations.
From WV Require Import Gen.Ops Model.Common Model.IR Model.ParseFn Model.ParseSpec
  Model.Traversal Model.EmitFn Model.EmitSpec.
From WV Require Export Proofs.SeqArena.
Open Scope N_scope.

Lemma upd_app_l {A} (l m : list A) i f : (i < length l)%nat -> upd (l ++ m) i f = upd l i f ++ m.
Proof. revert i; induction l as [|x l IH]; intros [|i] H; cbn in *; try lia; auto. now rewrite IH by lia. Qed.
Lemma upd_snoc {A} (l : list A) x f n : n = length l -> upd (l ++ [x]) n f = l ++ [f x].
Proof. intros ->; apply upd_at. Qed.
Lemma upd_ext {A} (l : list A) i f g : (forall x, f x = g x) -> upd l i f = upd l i g.
Proof. intros H; revert i; induction l; intros [|i]; cbn; auto; now rewrite ?H, ?IHl. Qed.
Lemma upd_id {A} (l : list A) i f : (forall x, f x = x) -> upd l i f = l.
Proof. intros H; revert i; induction l; intros [|i]; cbn; auto; now rewrite ?H, ?IHl. Qed.
Lemma upd_upd {A} (l : list A) i f g : upd (upd l i f) i g = upd l i (fun x => g (f x)).
Proof. revert i; induction l; intros [|i]; cbn; auto; now rewrite IHl. Qed.

Lemma len_N_nil {A} : len_N (@nil A) = 0.
Proof. reflexivity. Qed.

Lemma run_app cx st a b : run cx st (a ++ b) = rbind (run cx st a) (fun st1 => run cx st1 b).
Proof. revert st; induction a as [|o a IH]; intros st; cbn [app run]; [reflexivity|]. destruct (step cx st o); cbn [rbind]; auto. Qed.

Section rt_ind.
  Variable P : rt -> Prop.
  Hypothesis H1 : forall o l, P (RPlain o l).
  Hypothesis H2 : forall l, P (RNop l).
  Hypothesis H3 : forall d l, P (RBr d l).
  Hypothesis H4 : forall d l, P (RBrIf d l).
  Hypothesis H5 : forall ds d l, P (RBrTable ds d l).
  Hypothesis H6 : forall bt b l e, Forall P b -> P (RBlock bt b l e).
  Hypothesis H7 : forall bt b l e, Forall P b -> P (RLoop bt b l e).
  Definition optP (el : option (N * list rt)) : Prop :=
    match el with Some p => Forall P (snd p) | None => True end.
  Hypothesis H8 : forall bt th el l e, Forall P th -> optP el -> P (RIf bt th el l e).
  Fixpoint rt_ind' (t : rt) : P t :=
    let fl := fix fl (l : list rt) : Forall P l :=
      match l with [] => Forall_nil _ | x :: l' => Forall_cons _ (rt_ind' x) (fl l') end in
    match t with
    | RPlain o l => H1 o l | RNop l => H2 l | RBr d l => H3 d l | RBrIf d l => H4 d l
    | RBrTable ds d l => H5 ds d l
    | RBlock bt b l e => H6 bt b l e (fl b) | RLoop bt b l e => H7 bt b l e (fl b)
    | RIf bt th el l e => H8 bt th el l e (fl th)
        (match el as el0 return optP el0 with
         | Some p => match p as p0 return Forall P (snd p0) with (_, eb) => fl eb end
         | None => I end)
    end.
End rt_ind.

(* the same induction with the predicate on lists given separately *)
Lemma rt_list_ind (Pt : rt -> Prop) (Pl : list rt -> Prop) :
  Pl [] -> (forall t l, Pt t -> Pl l -> Pl (t :: l)) ->
  (forall o l, Pt (RPlain o l)) -> (forall l, Pt (RNop l)) ->
  (forall d l, Pt (RBr d l)) -> (forall d l, Pt (RBrIf d l)) -> (forall ds d l, Pt (RBrTable ds d l)) ->
  (forall bt b l e, Pl b -> Pt (RBlock bt b l e)) -> (forall bt b l e, Pl b -> Pt (RLoop bt b l e)) ->
  (forall bt th l e, Pl th -> Pt (RIf bt th None l e)) ->
  (forall bt th le eb l e, Pl th -> Pl eb -> Pt (RIf bt th (Some (le, eb)) l e)) ->
  (forall t, Pt t) /\ (forall l, Pl l).
Proof.
  intros Hnil Hcons H1 H2 H3 H4 H5 H6 H7 H8 H9.
  assert (HL : forall l, Forall Pt l -> Pl l) by (induction 1; auto).
  assert (HT : forall t, Pt t).
  { induction t as [| | | | | | |bt th [[le eb]|] l e HFt HFe] using rt_ind'; auto. }
  split; [exact HT|]. intros l. apply HL, Forall_forall. auto.
Qed.

(* [keep u i l]: what a construct appends to its sequence, nothing once the position is unreachable *)
Definition keep {A} (u : bool) (i : A) (l : N) : list (A * N) := if u then [] else [(i, l)].

Definition bl_inner (cx : pctx) :=
  fix bl (env : list N) (n : N) (u : bool) (l : list rt) {struct l} : list (instr * N) * list iseq * bool :=
    match l with
    | [] => ([], [], u)
    | t :: l' => let '(i1, a1, u1) := build cx env n u t in
                 let '(i2, a2, u2) := bl env (n + len_N a1) u1 l' in
                 (i1 ++ i2, a1 ++ a2, u2)
    end.
Lemma bl_inner_eq cx l : forall env n u, bl_inner cx env n u l = build_list cx env n u l.
Proof.
  induction l as [|t l IH]; intros env n u; [reflexivity|].
  cbn [bl_inner build_list]. destruct (build cx env n u t) as [[i1 a1] u1].
  fold (bl_inner cx). now rewrite IH.
Qed.

Lemma build_block cx env n u bt b l e : build cx env n u (RBlock bt b l e) =
  let '(its, news, _) := build_list cx (n :: env) (n + 1) false b in
  (keep u (IBlock n) l, mkseq (bt_seqty cx bt) its e :: news, u).
Proof. rewrite <- bl_inner_eq. reflexivity. Qed.
Lemma build_loop cx env n u bt b l e : build cx env n u (RLoop bt b l e) =
  let '(its, news, _) := build_list cx (n :: env) (n + 1) false b in
  (keep u (ILoop n) l, mkseq (bt_seqty cx bt) its e :: news, u).
Proof. rewrite <- bl_inner_eq. reflexivity. Qed.
Lemma build_if cx env n u bt th el l e : build cx env n u (RIf bt th el l e) =
  let ty := bt_seqty cx bt in
  let '(ic, ac, _) := build_list cx (n :: env) (n + 1) false th in
  let a := n + 1 + len_N ac in
  match el with
  | Some (le, eb) =>
      let '(ia, aa, _) := build_list cx (a :: env) (a + 1) false eb in
      (keep u (IIfElse n a) l, mkseq ty ic le :: ac ++ mkseq ty ia e :: aa, u)
  | None => (keep u (IIfElse n a) l, mkseq ty ic default_loc :: ac ++ [mkseq ty [] e], u)
  end.
Proof.
  rewrite <- bl_inner_eq. destruct el as [[le eb]|]; [|reflexivity].
  cbv zeta. destruct (bl_inner cx (n :: env) (n + 1) false th) as [[ic ac] uc] eqn:E.
  rewrite <- bl_inner_eq. cbn [build]. fold (bl_inner cx). rewrite E. reflexivity.
Qed.

Definition wl_inner (cx : pctx) :=
  fix wl (k : nat) (l : list rt) : Prop := match l with [] => True | x :: l' => wf cx k x /\ wl k l' end.
Lemma wl_inner_eq cx k l : wl_inner cx k l = wfl cx k l.
Proof. induction l as [|t l IH]; [reflexivity|]. cbn [wl_inner wfl]. fold (wl_inner cx). now rewrite IH. Qed.
Lemma wf_block cx k bt b l e : wf cx k (RBlock bt b l e) = (bt_ok cx bt /\ wfl cx (S k) b).
Proof. rewrite <- wl_inner_eq. reflexivity. Qed.
Lemma wf_loop cx k bt b l e : wf cx k (RLoop bt b l e) = (bt_ok cx bt /\ wfl cx (S k) b).
Proof. rewrite <- wl_inner_eq. reflexivity. Qed.
Lemma wf_if cx k bt th el l e : wf cx k (RIf bt th el l e) =
  (bt_ok cx bt /\ wfl cx (S k) th /\ match el with Some (_, eb) => wfl cx (S k) eb | None => True end).
Proof. rewrite <- wl_inner_eq. destruct el as [[le eb]|]; [rewrite <- wl_inner_eq|]; reflexivity. Qed.

Lemma bt_ok_inv cx bt : bt_ok cx bt ->
  exists ps rs ty, bt_tys cx bt = Some (ps, rs) /\ existing cx ps rs = Some ty /\ bt_seqty cx bt = ty.
Proof.
  unfold bt_ok, bt_seqty. destruct (bt_tys cx bt) as [[ps rs]|]; [|intros []].
  destruct (existing cx ps rs) as [ty|] eqn:E; [|intros H; now elim H].
  intros _. exists ps, rs, ty. rewrite E. auto.
Qed.

Section ParseArena.
  Variable cx : pctx.

  Definition mk b k u ps rs : frame :=
    {| f_block := b; f_kind := k; f_unr := u; f_start := ps; f_end := rs |}.
  Definition addi (its : list (instr * N)) (q : iseq) : iseq :=
    {| sq_ty := sq_ty q; sq_instrs := sq_instrs q ++ its; sq_end := sq_end q |}.
  Definition mkst a c i : pstate := {| ar := a; ctl := c; ifs := i |}.

  Definition resst (a : arena) b k ps rs rest i (r : list (instr * N) * list iseq * bool) : pstate :=
    let '(its, news, u') := r in
    mkst (upd a (N.to_nat b) (addi its) ++ news) (mk b k u' ps rs :: rest) i.

  Definition Pt (t : rt) := forall a b k u ps rs rest i,
    (N.to_nat b < length a)%nat -> wf cx (S (length rest)) t ->
    run cx (mkst a (mk b k u ps rs :: rest) i) (flat t) =
    Ok (resst a b k ps rs rest i (build cx (b :: map f_block rest) (len_N a) u t)).
  Definition Pl (l : list rt) := forall a b k u ps rs rest i,
    (N.to_nat b < length a)%nat -> wfl cx (S (length rest)) l ->
    run cx (mkst a (mk b k u ps rs :: rest) i) (flat_list l) =
    Ok (resst a b k ps rs rest i (build_list cx (b :: map f_block rest) (len_N a) u l)).

  Lemma addi_addi i1 i2 q : addi i2 (addi i1 q) = addi (i1 ++ i2) q.
  Proof. unfold addi; cbn. now rewrite app_assoc. Qed.
  Lemma upd_addi_nil (a : arena) n : upd a n (addi []) = a.
  Proof. apply upd_id. intros [ty its e]. unfold addi; cbn. now rewrite app_nil_r. Qed.

  (* alloc_instr_in_control(0, ..) / (1, ..) *)
  Lemma alloc_top a b k u ps rs rest i ins loc :
    alloc_in (mkst a (mk b k u ps rs :: rest) i) 0 ins loc =
    Ok (mkst (upd a (N.to_nat b) (addi (keep u ins loc))) (mk b k u ps rs :: rest) i).
  Proof.
    unfold alloc_in, mkst. cbn [ctl nth_error f_unr mk f_block ar ifs]. destruct u; cbn [keep].
    - now rewrite upd_addi_nil.
    - reflexivity.
  Qed.
  Lemma alloc_second a x fr b k u ps rs rest i ins loc : (N.to_nat b < length a)%nat ->
    alloc_in (mkst (a ++ [x]) (fr :: mk b k u ps rs :: rest) i) 1 ins loc =
    Ok (mkst (upd a (N.to_nat b) (addi (keep u ins loc)) ++ [x]) (fr :: mk b k u ps rs :: rest) i).
  Proof.
    intros Hb. unfold alloc_in, mkst. cbn [ctl nth_error f_unr mk f_block ar ifs]. destruct u; cbn [keep].
    - now rewrite upd_addi_nil.
    - unfold push_instr. now rewrite upd_app_l by exact Hb.
  Qed.
  Lemma set_unr_top a b k u ps rs rest i :
    set_unr (mkst a (mk b k u ps rs :: rest) i) = Ok (mkst a (mk b k true ps rs :: rest) i).
  Proof. reflexivity. Qed.

  Lemma target_ok a c i d : (N.to_nat d < length c)%nat ->
    target (mkst a c i) d = Ok (nth (N.to_nat d) (map f_block c) 0).
  Proof.
    unfold target, nth_N, mkst. cbn [ctl]. generalize (N.to_nat d) as m. intros m; revert c.
    induction m as [|m IH]; intros [|fr c] H; cbn [length] in H; try lia; cbn [nth_error map nth]; [reflexivity|].
    apply IH. lia.
  Qed.
  Lemma targets_ok a c i ds : Forall (fun x => (N.to_nat x < length c)%nat) ds ->
    targets (mkst a c i) ds = Ok (map (fun x => nth (N.to_nat x) (map f_block c) 0) ds).
  Proof.
    induction 1 as [|d ds Hd Hds IH]; cbn [targets map]; [reflexivity|].
    rewrite target_ok by exact Hd. cbn [rbind]. rewrite IH. reflexivity.
  Qed.

  Lemma push_ok a c i kd ps rs ty : existing cx ps rs = Some ty ->
    push_ctl cx (mkst a c i) kd ps rs =
    Ok (mkst (a ++ [empty_seq ty]) (mk (len_N a) kd false ps rs :: c) i, len_N a).
  Proof. intros E. unfold push_ctl. now rewrite E. Qed.

  (* what every construct does with a sequence it opens: allocated last in the arena as number [n],
     it is filled by the body, the inner sequences follow it, and the closing operator dates it *)
  Lemma seq_run body a1 n kd ps rs ty outer i : Pl body -> len_N a1 = n -> wfl cx (S (length outer)) body ->
    run cx (mkst (a1 ++ [empty_seq ty]) (mk n kd false ps rs :: outer) i) (flat_list body) =
    Ok (let '(its, news, u') := build_list cx (n :: map f_block outer) (n + 1) false body in
        mkst (a1 ++ mkseq ty its default_loc :: news) (mk n kd u' ps rs :: outer) i).
  Proof.
    intros HP <- Hw.
    rewrite (HP (a1 ++ [empty_seq ty]) (len_N a1) kd false ps rs outer i); [|rewrite app_length, to_nat_len_N; cbn; lia|exact Hw].
    rewrite len_N_app. change (len_N [empty_seq ty]) with 1.
    destruct (build_list cx (len_N a1 :: map f_block outer) (len_N a1 + 1) false body) as [[its news] u'].
    cbn [resst]. rewrite to_nat_len_N, upd_at, <- app_assoc. reflexivity.
  Qed.
  Lemma set_end_at a1 n ty its l news e : len_N a1 = n ->
    set_end (a1 ++ mkseq ty its l :: news) n e = a1 ++ mkseq ty its e :: news.
  Proof. intros <-. unfold set_end. now rewrite to_nat_len_N, upd_at. Qed.

  (* the common shape of block / loop *)
  Lemma block_like (mkins : N -> instr) (kd : bkind) (w : wins) bt body l e
      (Hstep : forall st loc, step cx st (w, loc) =
         match bt_tys cx bt with
         | None => Panic
         | Some (ps, rs) => rbind (push_ctl cx st kd ps rs) (fun r => let '(st1, id) := r in alloc_in st1 1 (mkins id) loc)
         end)
      (Hkd : kd = KBlock \/ kd = KLoop) :
    Pl body -> forall a b k u ps rs rest i,
    (N.to_nat b < length a)%nat -> bt_ok cx bt -> wfl cx (S (S (length rest))) body ->
    run cx (mkst a (mk b k u ps rs :: rest) i) ((w, l) :: flat_list body ++ [(WEnd, e)]) =
    Ok (resst a b k ps rs rest i
          (let '(its, news, _) := build_list cx (len_N a :: b :: map f_block rest) (len_N a + 1) false body in
           (keep u (mkins (len_N a)) l, mkseq (bt_seqty cx bt) its e :: news, u))).
  Proof.
    intros HP a b k u ps rs rest i Hb Hbt Hw.
    destruct (bt_ok_inv cx bt Hbt) as (ps' & rs' & ty & E1 & E2 & ->).
    cbn [run]. rewrite Hstep, E1, (push_ok _ _ _ _ _ _ _ E2). cbn [rbind].
    rewrite alloc_second by exact Hb. cbn [rbind]. rewrite run_app.
    rewrite (seq_run body _ (len_N a)); [|exact HP|unfold len_N; now rewrite upd_length|exact Hw].
    cbn [map f_block mk].
    destruct (build_list cx (len_N a :: b :: map f_block rest) (len_N a + 1) false body) as [[its news] u'].
    cbn [rbind run step pop_ctl ctl ar ifs mkst mk f_block f_kind].
    rewrite set_end_at by (unfold len_N; now rewrite upd_length).
    destruct Hkd as [-> | ->]; reflexivity.
  Qed.

  (* the single-operator items: the step appends at most one instruction to the current sequence *)
  Lemma leaf_run a b k u ps rs rest i w l ins u' :
    step cx (mkst a (mk b k u ps rs :: rest) i) (w, l) =
      Ok (mkst (upd a (N.to_nat b) (addi (keep u ins l))) (mk b k u' ps rs :: rest) i) ->
    run cx (mkst a (mk b k u ps rs :: rest) i) [(w, l)] = Ok (resst a b k ps rs rest i (keep u ins l, [], u')).
  Proof. intros H. cbn [run]. rewrite H. cbn [rbind resst]. now rewrite app_nil_r. Qed.

  (* the consequent is sequence [n], closed by `else` or by `end`; the alternative is sequence [n'], allocated
     when the consequent closes; the IfElse instruction is appended last *)
  Lemma if_run bt th el l e :
    Pl th -> match el with Some (_, eb) => Pl eb | None => True end -> Pt (RIf bt th el l e).
  Proof.
    intros HFt HFe a b k u ps rs rest i Hb Hw.
    rewrite wf_if in Hw. destruct Hw as (Hbt & Hwt & Hwe). rewrite build_if.
    destruct (bt_ok_inv cx bt Hbt) as (ps' & rs' & ty & E1 & E2 & ->). cbv zeta.
    set (n := len_N a). set (outer := mk b k u ps rs :: rest).
    assert (Rth := seq_run th a n KIf ps' rs' ty outer ({| if_start := l; if_cons := n; if_alt := None |} :: i) HFt eq_refl Hwt).
    cbn [map f_block mk outer] in Rth.
    destruct (build_list cx (n :: b :: map f_block rest) (n + 1) false th) as [[ic ac] uc].
    set (n' := n + 1 + len_N ac).
    assert (Hn' : forall loc, len_N (a ++ mkseq ty ic loc :: ac) = n')
      by (intros loc; rewrite len_N_app, len_N_cons; apply N.add_assoc).
    assert (Hfin : forall X, alloc_in {| ar := a ++ X; ctl := outer; ifs := i |} 0 (IIfElse n n') l =
                             Ok (mkst (upd a (N.to_nat b) (addi (keep u (IIfElse n n') l)) ++ X) outer i))
      by (intros X; unfold outer; rewrite (alloc_top (a ++ X)), upd_app_l by exact Hb; reflexivity).
    assert (S0 : step cx (mkst a outer i) (WIf bt, l) =
                 Ok (mkst (a ++ [empty_seq ty]) (mk n KIf false ps' rs' :: outer)
                       ({| if_start := l; if_cons := n; if_alt := None |} :: i)))
      by (cbn [step]; now rewrite E1, (push_ok _ _ _ _ _ _ _ E2)).
    destruct el as [[le eb]|]; cbn [flat]; fold (flat_list th); cbn [run]; rewrite S0; cbn [rbind];
      rewrite run_app, Rth; cbn [rbind run step pop_ctl mkst ctl mk f_kind ar ifs f_block f_start f_end];
      rewrite (set_end_at a n) by reflexivity.
    - fold (flat_list eb).
      fold (mkst (a ++ mkseq ty ic le :: ac) outer i).
      rewrite (push_ok _ _ _ _ _ _ _ E2), Hn'. cbn [rbind mkst ar ctl ifs if_alt if_start if_cons]. rewrite run_app.
      pose proof (seq_run eb _ n' KElse ps' rs' ty outer
                    ({| if_start := l; if_cons := n; if_alt := Some n' |} :: i) HFe (Hn' le) Hwe) as Re.
      unfold mkst in Re. rewrite Re. cbn [map f_block mk outer].
      destruct (build_list cx (n' :: b :: map f_block rest) (n' + 1) false eb) as [[ia aa] ua].
      cbn [rbind run step pop_ctl mkst ctl mk f_kind ar ifs f_block if_alt if_start if_cons].
      rewrite set_end_at by apply Hn'. rewrite <- app_assoc, Hfin. reflexivity.
    - (* no `else`: `end` closes the consequent, allocates the empty alternative and closes it *)
      fold (mkst (a ++ mkseq ty ic e :: ac) outer i).
      rewrite (push_ok _ _ _ _ _ _ _ E2), Hn'. cbn [rbind pop_ctl mkst ctl ar ifs if_alt if_start if_cons].
      rewrite <- app_assoc. cbn [app]. rewrite (set_end_at a n), app_comm_cons, app_assoc by reflexivity.
      change (empty_seq ty) with (mkseq ty [] default_loc). rewrite set_end_at by apply Hn'.
      rewrite <- app_assoc, Hfin. reflexivity.
  Qed.

  Theorem parse_item_list : (forall t, Pt t) /\ (forall l, Pl l).
  Proof.
    apply rt_list_ind;
      [|intros t l Ht IH|intros o l|intros l|intros d l|intros d l|intros ds d l|intros bt body l e HF|intros bt body l e HF
       |intros bt th l e HF|intros bt th le eb l e HFt HFe]; intros a b k u ps rs rest i Hb Hw.
    - cbn [flat_list flat_map run build_list resst]. now rewrite upd_addi_nil, app_nil_r.
    - destruct Hw as [Hw1 Hw2]. change (flat_list (t :: l)) with (flat t ++ flat_list l). rewrite run_app.
      rewrite (Ht a b k u ps rs rest i Hb Hw1). cbn [rbind build_list].
      destruct (build cx (b :: map f_block rest) (len_N a) u t) as [[i1 a1] u1].
      cbn [resst].
      assert (Hb1 : (N.to_nat b < length (upd a (N.to_nat b) (addi i1) ++ a1))%nat)
        by (rewrite app_length, upd_length; lia).
      rewrite (IH _ b k u1 ps rs rest i Hb1 Hw2).
      rewrite len_N_app. unfold len_N at 1. rewrite upd_length. fold (len_N a).
      destruct (build_list cx (b :: map f_block rest) (len_N a + len_N a1) u1 l) as [[i2 a2] u2].
      cbn [resst]. unfold mkst. do 2 f_equal.
      rewrite upd_app_l by (rewrite upd_length; exact Hb). rewrite upd_upd.
      rewrite <- app_assoc. f_equal. apply upd_ext. intros; apply addi_addi.
    - cbn [wf] in Hw. cbn [flat build]. apply leaf_run. cbn [step]. unfold dec.
      destruct (decode_plain (px_i2id cx) o) as [p|]; [|now elim Hw].
      rewrite alloc_top. cbn [rbind].
      destruct (marks_unreachable o); [rewrite set_unr_top, orb_true_r|rewrite orb_false_r]; reflexivity.
    - cbn [flat run step build resst rbind]. now rewrite upd_addi_nil, app_nil_r.
    - cbn [wf] in Hw. cbn [flat build]. apply leaf_run. cbn [step].
      rewrite target_ok by exact Hw. cbn [rbind]. rewrite alloc_top. apply set_unr_top.
    - cbn [wf] in Hw. cbn [flat build]. apply leaf_run. cbn [step].
      rewrite target_ok by exact Hw. apply alloc_top.
    - destruct Hw as [Hd Hds]. cbn [flat build]. apply leaf_run. cbn [step].
      rewrite target_ok by exact Hd. cbn [rbind]. rewrite targets_ok by exact Hds. cbn [rbind].
      rewrite alloc_top. apply set_unr_top.
    - rewrite wf_block in Hw. destruct Hw as [Hbt Hw].
      rewrite build_block. cbn [flat]. fold (flat_list body).
      apply (block_like IBlock KBlock (WBlock bt) bt body l e); auto.
    - rewrite wf_loop in Hw. destruct Hw as [Hbt Hw].
      rewrite build_loop. cbn [flat]. fold (flat_list body).
      apply (block_like ILoop KLoop (WLoop bt) bt body l e); auto.
    - exact (if_run bt th None l e HF I a b k u ps rs rest i Hb Hw).
    - exact (if_run bt th (Some (le, eb)) l e HFt HFe a b k u ps rs rest i Hb Hw).
  Qed.
End ParseArena.

Theorem parse_body_arena : forall cx ety rs l eloc,
  wfl cx 1 l ->
  parse_body cx ety rs (flat_list l ++ [(WEnd, eloc)]) = Ok (parsed_arena cx ety l eloc).
Proof.
  intros cx ety rs l eloc Hw. unfold parse_body, init_state. rewrite run_app.
  pose proof (proj2 (parse_item_list cx) l [empty_seq (ST_Multi ety)] 0 KEntry false [] rs [] []) as R.
  unfold mkst, mk in R. cbn [length map] in R. rewrite R; [|cbn; lia|exact Hw]. clear R.
  unfold parsed_arena. change (len_N [empty_seq (ST_Multi ety)]) with 1.
  destruct (build_list cx [0] 1 false l) as [[its news] u'].
  reflexivity.
Qed.

Definition tbl_inner (cx : pctx) :=
  fix tbl (env : list N) (n : N) (u : bool) (l : list rt) {struct l} : list (item * N) * N * bool :=
    match l with
    | [] => ([], n, u)
    | t :: l' => let '(i1, n1, u1) := tbuild cx env n u t in
                 let '(i2, n2, u2) := tbl env n1 u1 l' in
                 (i1 ++ i2, n2, u2)
    end.
Lemma tbl_inner_eq cx l : forall env n u, tbl_inner cx env n u l = tbuild_list cx env n u l.
Proof.
  induction l as [|t l IH]; intros env n u; [reflexivity|].
  cbn [tbl_inner tbuild_list]. destruct (tbuild cx env n u t) as [[i1 n1] u1].
  fold (tbl_inner cx). now rewrite IH.
Qed.
Lemma tbuild_block cx env n u bt b l e : tbuild cx env n u (RBlock bt b l e) =
  let '(its, n1, _) := tbuild_list cx (n :: env) (n + 1) false b in
  (keep u (ItB (T n (bt_seqty cx bt) its e)) l, n1, u).
Proof. rewrite <- tbl_inner_eq. reflexivity. Qed.
Lemma tbuild_loop cx env n u bt b l e : tbuild cx env n u (RLoop bt b l e) =
  let '(its, n1, _) := tbuild_list cx (n :: env) (n + 1) false b in
  (keep u (ItL (T n (bt_seqty cx bt) its e)) l, n1, u).
Proof. rewrite <- tbl_inner_eq. reflexivity. Qed.
Lemma tbuild_if cx env n u bt th el l e : tbuild cx env n u (RIf bt th el l e) =
  let ty := bt_seqty cx bt in
  let '(ic, a, _) := tbuild_list cx (n :: env) (n + 1) false th in
  match el with
  | Some (le, eb) =>
      let '(ia, n2, _) := tbuild_list cx (a :: env) (a + 1) false eb in
      (keep u (ItI (T n ty ic le) (T a ty ia e)) l, n2, u)
  | None => (keep u (ItI (T n ty ic default_loc) (T a ty [] e)) l, a + 1, u)
  end.
Proof.
  rewrite <- tbl_inner_eq. destruct el as [[le eb]|]; [|reflexivity].
  cbv zeta. destruct (tbl_inner cx (n :: env) (n + 1) false th) as [[ic a] uc] eqn:E.
  rewrite <- tbl_inner_eq. cbn [tbuild]. fold (tbl_inner cx). rewrite E. reflexivity.
Qed.

Section BuildTree.
  Variable cx : pctx.

  Definition BtR (r1 : list (instr * N) * list iseq * bool) (r2 : list (item * N) * N * bool) (n : N) : Prop :=
    let '(its, news, u1) := r1 in
    let '(items, n', u2) := r2 in
    its = map sh items /\ n' = n + len_N news /\ u1 = u2 /\
    forall pre post, length pre = N.to_nat n ->
      Forall (fun x => IDen (pre ++ news ++ post) (fst x)) items.
  Definition Bt (t : rt) := forall env n u, BtR (build cx env n u t) (tbuild cx env n u t) n.
  Definition Bl (l : list rt) := forall env n u, BtR (build_list cx env n u l) (tbuild_list cx env n u l) n.

  (* a nested sequence: number [n], its body's sequences right behind it *)
  Lemma seq_den body env n ty e its news u1 items n1 v1 : Bl body ->
    build_list cx (n :: env) (n + 1) false body = (its, news, u1) ->
    tbuild_list cx (n :: env) (n + 1) false body = (items, n1, v1) ->
    its = map sh items /\ n1 = n + 1 + len_N news /\
    forall pre post, length pre = N.to_nat n -> Den (pre ++ (mkseq ty its e :: news) ++ post) (T n ty items e).
  Proof.
    intros HB E1 E2. specialize (HB (n :: env) (n + 1) false). rewrite E1, E2 in HB.
    destruct HB as (E & En & _ & HD). split; [exact E|split; [exact En|]].
    intros pre post Hp. apply Den_T. split.
    - rewrite <- E. apply nth_error_at, Hp.
    - specialize (HD (pre ++ [mkseq ty its e]) post). rewrite <- app_assoc in HD. apply HD.
      rewrite app_length, Hp, N2Nat.inj_add. cbn. lia.
  Qed.

  (* one instruction, kept unless the position is unreachable, and the sequences it brings *)
  Lemma BtR_keep u u' ins it l news n n' : shallow it = ins -> n' = n + len_N news ->
    (forall pre post, length pre = N.to_nat n -> IDen (pre ++ news ++ post) it) ->
    BtR (keep u ins l, news, u') (keep u it l, n', u') n.
  Proof.
    intros <- -> HD. cbn [BtR]. repeat split; [destruct u; reflexivity|].
    intros pre post Hp. destruct u; cbn [keep]; constructor; [apply HD, Hp|constructor].
  Qed.
  Lemma BtR_leaf u u' it l n : (forall ar, IDen ar it) -> BtR (keep u (shallow it) l, [], u') (keep u it l, n, u') n.
  Proof. intros H. apply BtR_keep; [reflexivity|rewrite len_N_nil; lia|intros; apply H]. Qed.

  (* the common shape of block / loop *)
  Lemma block_like_den (mkins : N -> instr) (mkit : tree -> item)
      (Hsh : forall t, shallow (mkit t) = mkins (tsid t))
      (Hden : forall ar t, IDen ar (mkit t) = Den ar t) body ty l e env n u :
    Bl body ->
    BtR (let '(its, news, _) := build_list cx (n :: env) (n + 1) false body in
         (keep u (mkins n) l, mkseq ty its e :: news, u))
        (let '(its, n1, _) := tbuild_list cx (n :: env) (n + 1) false body in
         (keep u (mkit (T n ty its e)) l, n1, u)) n.
  Proof.
    intros HB.
    destruct (build_list cx (n :: env) (n + 1) false body) as [[its news] u1] eqn:E1.
    destruct (tbuild_list cx (n :: env) (n + 1) false body) as [[items n1] v1] eqn:E2.
    destruct (seq_den body env n ty e _ _ _ _ _ _ HB E1 E2) as (E & En & HD).
    apply BtR_keep; [apply Hsh|rewrite len_N_cons; lia|].
    intros pre post Hp. rewrite Hden. apply HD, Hp.
  Qed.

  Lemma if_den bt th el l e :
    Bl th -> match el with Some (_, eb) => Bl eb | None => True end -> Bt (RIf bt th el l e).
  Proof.
    intros HFt HFe env n u.
    rewrite build_if, tbuild_if. cbv zeta.
    set (ty := bt_seqty cx bt).
    destruct (build_list cx (n :: env) (n + 1) false th) as [[ic ac] uc] eqn:E1.
    destruct (tbuild_list cx (n :: env) (n + 1) false th) as [[jc a] vc] eqn:E2.
    destruct el as [[le eb]|].
    - destruct (seq_den th env n ty le _ _ _ _ _ _ HFt E1 E2) as (Ec & -> & Dc).
      set (a := n + 1 + len_N ac).
      destruct (build_list cx (a :: env) (a + 1) false eb) as [[ia aa] ua] eqn:E3.
      destruct (tbuild_list cx (a :: env) (a + 1) false eb) as [[ja n2] va] eqn:E4.
      destruct (seq_den eb env a ty e _ _ _ _ _ _ HFe E3 E4) as (Ea & -> & Da).
      apply BtR_keep; [reflexivity|rewrite len_N_cons, len_N_app, len_N_cons; unfold a; lia|].
      intros pre post Hp. change (mkseq ty ic le :: ac ++ mkseq ty ia e :: aa) with ((mkseq ty ic le :: ac) ++ mkseq ty ia e :: aa).
      rewrite <- app_assoc. split; [apply Dc, Hp|]. rewrite app_assoc. apply Da.
      rewrite app_length, Hp. cbn [length]. unfold a. rewrite !N2Nat.inj_add, to_nat_len_N. cbn. lia.
    - destruct (seq_den th env n ty default_loc _ _ _ _ _ _ HFt E1 E2) as (Ec & -> & Dc).
      set (a := n + 1 + len_N ac).
      apply BtR_keep; [reflexivity|rewrite len_N_cons, len_N_app, len_N_cons, len_N_nil; unfold a; lia|].
      intros pre post Hp. change (mkseq ty ic default_loc :: ac ++ [mkseq ty [] e]) with ((mkseq ty ic default_loc :: ac) ++ [mkseq ty [] e]).
      rewrite <- app_assoc. split; [apply Dc, Hp|]. rewrite app_assoc. apply Den_T. split; [|constructor].
      apply nth_error_at.
      rewrite app_length, Hp. cbn [length]. unfold a. rewrite !N2Nat.inj_add, to_nat_len_N. cbn. lia.
  Qed.

  Theorem build_tree_item_list : (forall t, Bt t) /\ (forall l, Bl l).
  Proof.
    apply rt_list_ind;
      [|intros t l Ht IH|intros o l|intros l|intros d l|intros d l|intros ds d l|intros bt body l e HF|intros bt body l e HF
       |intros bt th l e HF|intros bt th le eb l e HFt HFe]; intros env n u.
    - cbn [build_list tbuild_list BtR map]. repeat split; [rewrite len_N_nil; lia|]. intros; constructor.
    - cbn [build_list tbuild_list]. specialize (Ht env n u).
      destruct (build cx env n u t) as [[i1 a1] u1]. destruct (tbuild cx env n u t) as [[j1 n1] v1].
      destruct Ht as (E1 & En1 & Eu1 & D1). subst n1 v1.
      specialize (IH env (n + len_N a1) u1).
      destruct (build_list cx env (n + len_N a1) u1 l) as [[i2 a2] u2].
      destruct (tbuild_list cx env (n + len_N a1) u1 l) as [[j2 n2] v2].
      destruct IH as (E2 & En2 & Eu2 & D2). subst n2 v2.
      cbn [BtR]. repeat split.
      + rewrite map_app. now subst.
      + rewrite len_N_app. lia.
      + intros pre post Hp. apply Forall_app. split.
        * rewrite <- app_assoc. apply D1, Hp.
        * replace (pre ++ (a1 ++ a2) ++ post) with ((pre ++ a1) ++ a2 ++ post)
            by (now rewrite <- !app_assoc).
          apply D2.
          rewrite app_length, N2Nat.inj_add, to_nat_len_N. lia.
    - apply (BtR_leaf u _ (ItP _)). intros; exact I.
    - cbn [build tbuild BtR map]. repeat split; [rewrite len_N_nil; lia|constructor].
    - apply (BtR_leaf u _ (ItBr _)). intros; exact I.
    - apply (BtR_leaf u _ (ItBrIf _)). intros; exact I.
    - apply (BtR_leaf u _ (ItBrTable _ _)). intros; exact I.
    - rewrite build_block, tbuild_block. apply (block_like_den IBlock ItB); auto.
    - rewrite build_loop, tbuild_loop. apply (block_like_den ILoop ItL); auto.
    - exact (if_den bt th None l e HF I env n u).
    - exact (if_den bt th (Some (le, eb)) l e HFt HFe env n u).
  Qed.

  Lemma build_tree_list : forall l, Bl l.
  Proof. exact (proj2 build_tree_item_list). Qed.
End BuildTree.

(* [wfl] is not needed for this direction; it is kept to match the interface *)
Theorem parsed_arena_den : forall cx ety l eloc,
  wfl cx 1 l -> Den (parsed_arena cx ety l eloc) (parsed_tree cx ety l eloc).
Proof.
  intros cx ety l eloc _. unfold parsed_arena, parsed_tree.
  pose proof (build_tree_list cx l [0] 1 false) as R.
  destruct (build_list cx [0] 1 false l) as [[its news] u1].
  destruct (tbuild_list cx [0] 1 false l) as [[items n1] v1].
  destruct R as (E & _ & _ & D). apply Den_T. split.
  - rewrite <- E. reflexivity.
  - specialize (D [mkseq (ST_Multi ety) its eloc] [] eq_refl). rewrite app_nil_r in D. exact D.
Qed.

Corollary parse_body_spec : forall cx ety rs l eloc, wfl cx 1 l ->
  exists ar, parse_body cx ety rs (flat_list l ++ [(WEnd, eloc)]) = Ok ar /\
             Den ar (parsed_tree cx ety l eloc).
Proof.
  intros cx ety rs l eloc Hw. exists (parsed_arena cx ety l eloc). split.
  - apply parse_body_arena, Hw.
  - apply parsed_arena_den, Hw.
Qed.

Lemma scoped_T id2i env s ty items e :
  scoped id2i env (T s ty items e) <-> Forall (fun x => scoped_item id2i (s :: env) (fst x)) items.
Proof. exact (all_Forall (fun x => scoped_item id2i (s :: env) (fst x)) items). Qed.

Section Scoped.
  Variable cx : pctx.
  Variable id2i : space -> N -> N.
  Hypothesis Henc : forall o, decode_plain (px_i2id cx) o <> None -> encode_plain id2i (dec cx o) <> None.

  Definition SI (env : list N) (items : list (item * N)) : Prop :=
    Forall (fun x => scoped_item id2i env (fst x)) items.
  Definition St (t : rt) := forall env n u, wf cx (length env) t ->
    SI env (fst (fst (tbuild cx env n u t))).
  Definition Sl (l : list rt) := forall env n u, wfl cx (length env) l ->
    SI env (fst (fst (tbuild_list cx env n u l))).

  Lemma SI_keep env u it l : scoped_item id2i env it -> SI env (keep u it l).
  Proof. intros H. destruct u; cbn [keep]; constructor; [exact H|constructor]. Qed.

  (* the items of a construct's body, scoped under the construct's own label [a] *)
  Lemma Sl_body l env a ty e : Sl l -> wfl cx (S (length env)) l ->
    scoped id2i env (T a ty (fst (fst (tbuild_list cx (a :: env) (a + 1) false l))) e).
  Proof. intros H Hw. apply scoped_T, (H (a :: env) (a + 1) false Hw). Qed.

  Theorem scoped_item_list : (forall t, St t) /\ (forall l, Sl l).
  Proof.
    apply rt_list_ind;
      [|intros t l Ht IH|intros o l|intros l|intros d l|intros d l|intros ds d l|intros bt body l e HF|intros bt body l e HF
       |intros bt th l e HF|intros bt th le eb l e HFt HFe]; intros env n u Hw.
    - constructor.
    - destruct Hw as [Hw1 Hw2]. cbn [tbuild_list].
      specialize (Ht env n u Hw1). destruct (tbuild cx env n u t) as [[i1 n1] u1].
      specialize (IH env n1 u1 Hw2). destruct (tbuild_list cx env n1 u1 l) as [[i2 n2] u2].
      cbn [fst] in *. apply Forall_app. split; assumption.
    - cbn [wf] in Hw. cbn [tbuild fst]. apply SI_keep. cbn [scoped_item]. apply Henc, Hw.
    - constructor.
    - cbn [wf] in Hw. cbn [tbuild fst]. apply SI_keep. cbn [scoped_item]. apply nth_In, Hw.
    - cbn [wf] in Hw. cbn [tbuild fst]. apply SI_keep. cbn [scoped_item]. apply nth_In, Hw.
    - destruct Hw as [Hd Hds]. cbn [tbuild fst]. apply SI_keep. cbn [scoped_item]. split.
      + apply nth_In, Hd.
      + apply Forall_forall. intros s Hs. apply in_map_iff in Hs. destruct Hs as (x & <- & Hx).
        apply nth_In. revert x Hx. apply Forall_forall, Hds.
    - rewrite wf_block in Hw. rewrite tbuild_block.
      pose proof (fun ty e => Sl_body body env n ty e HF (proj2 Hw)) as Hb.
      destruct (tbuild_list cx (n :: env) (n + 1) false body) as [[its n1] u1]. cbn [fst] in Hb.
      apply SI_keep. cbn [scoped_item]. apply Hb.
    - rewrite wf_loop in Hw. rewrite tbuild_loop.
      pose proof (fun ty e => Sl_body body env n ty e HF (proj2 Hw)) as Hb.
      destruct (tbuild_list cx (n :: env) (n + 1) false body) as [[its n1] u1]. cbn [fst] in Hb.
      apply SI_keep. cbn [scoped_item]. apply Hb.
    - rewrite wf_if in Hw. rewrite tbuild_if. cbv zeta.
      pose proof (fun ty e => Sl_body th env n ty e HF (proj1 (proj2 Hw))) as Hc.
      destruct (tbuild_list cx (n :: env) (n + 1) false th) as [[ic a] uc]. cbn [fst] in Hc.
      apply SI_keep. cbn [scoped_item]. split; [apply Hc|apply scoped_T; constructor].
    - rewrite wf_if in Hw. destruct Hw as (_ & Hwt & Hwe).
      rewrite tbuild_if. cbv zeta.
      pose proof (fun ty e => Sl_body th env n ty e HFt Hwt) as Hc.
      destruct (tbuild_list cx (n :: env) (n + 1) false th) as [[ic a] uc].
      pose proof (fun ty e => Sl_body eb env a ty e HFe Hwe) as Ha.
      destruct (tbuild_list cx (a :: env) (a + 1) false eb) as [[ia n2] ua]. cbn [fst] in Hc, Ha.
      apply SI_keep. cbn [scoped_item]. split; [apply Hc|apply Ha].
  Qed.
End Scoped.

Theorem parsed_tree_scoped : forall cx id2i ety l eloc,
  wfl cx 1 l ->
  (forall o, decode_plain (px_i2id cx) o <> None -> encode_plain id2i (dec cx o) <> None) ->
  scoped id2i [] (parsed_tree cx ety l eloc).
Proof.
  intros cx id2i ety l eloc Hw Henc. unfold parsed_tree.
  pose proof (proj2 (scoped_item_list cx id2i Henc) l [0] 1 false Hw) as R.
  destruct (tbuild_list cx [0] 1 false l) as [[items n1] u1]. cbn [fst] in R.
  apply scoped_T, R.
Qed.

Fixpoint tree_ids (t : tree) : list N :=
  match t with T s _ items _ =>
    s :: (fix go (l : list (item * N)) : list N :=
            match l with [] => [] | x :: l' => item_ids (fst x) ++ go l' end) items
  end
with item_ids (it : item) : list N :=
  match it with
  | ItB t | ItL t => tree_ids t
  | ItI c a => tree_ids c ++ tree_ids a
  | _ => []
  end.
Definition items_ids (items : list (item * N)) : list N := flat_map (fun x => item_ids (fst x)) items.
Lemma tree_ids_T s ty items e : tree_ids (T s ty items e) = s :: items_ids items.
Proof. reflexivity. Qed.
Lemma items_ids_app a b : items_ids (a ++ b) = items_ids a ++ items_ids b.
Proof. apply flat_map_app. Qed.

Definition in_range (n n' : N) (ids : list N) : Prop := Forall (fun i => n <= i < n') ids.
Lemma in_range_weaken n n' m m' ids : m <= n -> n' <= m' -> in_range n n' ids -> in_range m m' ids.
Proof. intros H1 H2. apply Forall_impl. intros i Hi. lia. Qed.

Section NormalForm.
  Variable cx : pctx.

  Definition NfR (n : N) (u : bool) (r : list (item * N) * N * bool) : Prop :=
    let '(items, n', u') := r in
    n <= n' /\ (u = true -> items = [] /\ u' = true) /\ in_range n n' (items_ids items).
  Definition Nt (t : rt) := forall env n u, NfR n u (tbuild cx env n u t).
  Definition Nl (l : list rt) := forall env n u, NfR n u (tbuild_list cx env n u l).

  Lemma NfR_keep n n' u u' it l :
    n <= n' -> (u = true -> u' = true) -> in_range n n' (item_ids it) -> NfR n u (keep u it l, n', u').
  Proof.
    intros M U R. cbn [NfR]. split; [exact M|split; [intros Hu; rewrite Hu in *; auto|]].
    destruct u; cbn [keep]; [constructor|]. unfold items_ids. cbn [flat_map fst]. now rewrite app_nil_r.
  Qed.

  (* the ids of a nested sequence and of everything below it *)
  Lemma seq_range body env n ty e : Nl body ->
    let '(its, n1, _) := tbuild_list cx (n :: env) (n + 1) false body in
    n + 1 <= n1 /\ in_range n n1 (tree_ids (T n ty its e)).
  Proof.
    intros H. specialize (H (n :: env) (n + 1) false).
    destruct (tbuild_list cx (n :: env) (n + 1) false body) as [[its n1] u1]. destruct H as (M & _ & R).
    split; [exact M|]. rewrite tree_ids_T. constructor; [lia|].
    apply (in_range_weaken (n + 1) n1); [lia|lia|exact R].
  Qed.

  Theorem normal_form_item_list : (forall t, Nt t) /\ (forall l, Nl l).
  Proof.
    apply rt_list_ind;
      [|intros t l Ht IH|intros o l|intros l|intros d l|intros d l|intros ds d l|intros bt body l e HF|intros bt body l e HF
       |intros bt th l e HF|intros bt th le eb l e HFt HFe]; intros env n u.
    - cbn [tbuild_list NfR]. split; [lia|split; [auto|constructor]].
    - cbn [tbuild_list]. specialize (Ht env n u). destruct (tbuild cx env n u t) as [[i1 n1] u1].
      specialize (IH env n1 u1). destruct (tbuild_list cx env n1 u1 l) as [[i2 n2] u2].
      destruct Ht as (M1 & U1 & R1). destruct IH as (M2 & U2 & R2). cbn [NfR]. split; [|split].
      + lia.
      + intros Hu. destruct (U1 Hu) as [-> Hu1]. destruct (U2 Hu1) as [-> ->]. auto.
      + rewrite items_ids_app. apply Forall_app. split.
        * apply (in_range_weaken n n1); [lia|lia|exact R1].
        * apply (in_range_weaken n1 n2); [lia|lia|exact R2].
    - apply NfR_keep; [lia|now intros ->|constructor].
    - cbn [tbuild NfR]. split; [lia|split; [auto|constructor]].
    - apply NfR_keep; [lia|auto|constructor].
    - apply NfR_keep; [lia|auto|constructor].
    - apply NfR_keep; [lia|auto|constructor].
    - rewrite tbuild_block.
      pose proof (seq_range body env n (bt_seqty cx bt) e HF) as R.
      destruct (tbuild_list cx (n :: env) (n + 1) false body) as [[its n1] u1]. destruct R as [M R].
      apply NfR_keep; [lia|auto|exact R].
    - rewrite tbuild_loop.
      pose proof (seq_range body env n (bt_seqty cx bt) e HF) as R.
      destruct (tbuild_list cx (n :: env) (n + 1) false body) as [[its n1] u1]. destruct R as [M R].
      apply NfR_keep; [lia|auto|exact R].
    - rewrite tbuild_if. cbv zeta.
      pose proof (seq_range th env n (bt_seqty cx bt) default_loc HF) as Rc.
      destruct (tbuild_list cx (n :: env) (n + 1) false th) as [[ic a] uc]. destruct Rc as [Mc Rc].
      apply NfR_keep; [lia|auto|]. apply Forall_app. split.
      + apply (in_range_weaken n a); [lia|lia|exact Rc].
      + constructor; [lia|constructor].
    - rewrite tbuild_if. cbv zeta.
      pose proof (seq_range th env n (bt_seqty cx bt) le HFt) as Rc.
      destruct (tbuild_list cx (n :: env) (n + 1) false th) as [[ic a] uc]. destruct Rc as [Mc Rc].
      pose proof (seq_range eb env a (bt_seqty cx bt) e HFe) as Re.
      destruct (tbuild_list cx (a :: env) (a + 1) false eb) as [[ia n2] ua]. destruct Re as [Me Re].
      apply NfR_keep; [lia|auto|]. apply Forall_app. split.
      + apply (in_range_weaken n a); [lia|lia|exact Rc].
      + apply (in_range_weaken a n2); [lia|lia|exact Re].
  Qed.

End NormalForm.

Theorem tbuild_next_id_mono : forall cx env n u l items n' u',
  tbuild_list cx env n u l = (items, n', u') -> n <= n'.
Proof.
  intros cx env n u l items n' u' E. pose proof (proj2 (normal_form_item_list cx) l env n u) as R.
  rewrite E in R. apply R.
Qed.
(* nothing is appended to a sequence once it is unreachable: dead code is dropped *)
Theorem parse_normal_form_facts : forall cx env n u l,
  let '(items, n', u') := tbuild_list cx env n u l in
  (u = true -> items = []) /\ n <= n' /\ Forall (fun i => n <= i < n') (items_ids items).
Proof.
  intros cx env n u l. pose proof (proj2 (normal_form_item_list cx) l env n u) as R.
  destruct (tbuild_list cx env n u l) as [[items n'] u']. destruct R as (M & U & R).
  split; [intros Hu; apply U, Hu|split; [exact M|exact R]].
Qed.

Print Assumptions parse_body_arena.
Print Assumptions parsed_arena_den.
Print Assumptions parse_body_spec.
Print Assumptions parsed_tree_scoped.
Print Assumptions parse_normal_form_facts.
