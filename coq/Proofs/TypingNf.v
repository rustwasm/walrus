(* C02, validity of the emitted body: the tree-level normal form [nf_rt_list] of the round trip (Model/Sem.v)
   preserves the abstract declarative stack typing of Model/Typing.v.
     [ht]  declarative typing of a whole body;   [hl]  the same, looking only at the code the round trip keeps.
   [hl] of a body is [ht] of its normal form ([nf_typing_iff]); a concrete body with dead code that [ht] rejects. *)
From Coq Require Import List NArith ZArith Bool Lia. Import ListNotations.
From WV Require Import Gen.Ops Model.Common Model.IR Model.ParseFn Model.ParseSpec Model.EmitFn
  Model.BodySpec Model.Sem Model.Typing.
From WV Require Import Proofs.ParseFn Proofs.Sem.
Local Open Scope nat_scope.

Scheme ht_mut := Minimality for ht Sort Prop
  with ht1_mut := Minimality for ht1 Sort Prop.
Combined Scheme ht_ht1_ind from ht_mut, ht1_mut.
Scheme hl_mut := Minimality for hl Sort Prop
  with hl1_mut := Minimality for hl1 Sort Prop.
Combined Scheme hl_hl1_ind from hl_mut, hl1_mut.

Lemma nf_rt_snd u t : snd (nf_rt u t) = u || never_falls t.
Proof.
  destruct t as [o l|l|d l|d l|ds d l|bt body l e|bt body l e|bt th [[le eb]|] l e];
    first [ rewrite nf_rt_block | rewrite nf_rt_loop | rewrite nf_rt_if_some | rewrite nf_rt_if_none | idtac ];
    cbn [nf_rt snd never_falls]; rewrite ?orb_false_r, ?orb_true_r; reflexivity.
Qed.

Lemma nf_rt_list_cons_live t l :
  fst (nf_rt_list false (t :: l)) = fst (nf_rt false t) ++ fst (nf_rt_list (never_falls t) l).
Proof. rewrite nf_rt_list_cons, nf_rt_snd. reflexivity. Qed.

Lemma nf_rt_list_cons_cut t l : never_falls t = true ->
  fst (nf_rt_list false (t :: l)) = fst (nf_rt false t).
Proof. intros H. rewrite nf_rt_list_cons_live, H, nf_rt_list_dead. cbn [fst]. apply app_nil_r. Qed.

Lemma nf_rt_plain o l : fst (nf_rt false (RPlain o l)) = [RPlain o l].
Proof. reflexivity. Qed.

Ltac nofalls := let X := fresh in intros X; cbn [never_falls] in X; discriminate X.

Section TypingNf.
  Variable T : Type.
  Variable t_i32 : T.
  Variable optype : wins -> list T -> list T -> Prop.
  Variable opdead : wins -> list T -> Prop.
  Variable params results : blockty -> list T.

  Notation ht := (ht T t_i32 optype opdead params results).
  Notation ht1 := (ht1 T t_i32 optype opdead params results).
  Notation hl := (hl T t_i32 optype opdead params results).
  Notation hl1 := (hl1 T t_i32 optype opdead params results).

  Lemma ht_hl_both :
    (forall L l a b, ht L l a b -> hl L l a b) /\ (forall L t a b, ht1 L t a b -> hl1 L t a b).
  Proof.
    apply ht_ht1_ind; intros; try (econstructor; eassumption).
    destruct (never_falls t) eqn:E.
    - eapply HL_cut; eassumption.
    - eapply HL_cons; eassumption.
  Qed.
  Theorem ht_hl L l a b : ht L l a b -> hl L l a b.
  Proof. apply ht_hl_both. Qed.
  Lemma ht1_hl1 L t a b : ht1 L t a b -> hl1 L t a b.
  Proof. apply ht_hl_both. Qed.

  Lemma ht_nil_inv L a b : ht L [] a b -> a = b.
  Proof. intros H. inversion H. reflexivity. Qed.
  Lemma ht_single L t a b : ht1 L t a b -> ht L [t] a b.
  Proof. intros H. eapply HT_cons; [exact H|apply HT_nil]. Qed.
  Lemma ht_single_inv L t a b : ht L [t] a b -> ht1 L t a b.
  Proof.
    intros H. inversion H as [|L0 t0 l0 a0 b0 c0 H1 H2]; subst.
    apply ht_nil_inv in H2. subst. exact H1.
  Qed.

  Lemma ht_app L l1 : forall l2 a b c, ht L l1 a b -> ht L l2 b c -> ht L (l1 ++ l2) a c.
  Proof.
    induction l1 as [|t l1 IH]; intros l2 a b c H1 H2.
    - apply ht_nil_inv in H1. subst. exact H2.
    - inversion H1 as [|L0 t0 l0 a0 b0 c0 Ht Hl]; subst. cbn [app].
      eapply HT_cons; [exact Ht|]. eapply IH; eassumption.
  Qed.
  Lemma ht_app_inv L l1 : forall l2 a c, ht L (l1 ++ l2) a c -> exists b, ht L l1 a b /\ ht L l2 b c.
  Proof.
    induction l1 as [|t l1 IH]; intros l2 a c H.
    - exists a. split; [apply HT_nil|exact H].
    - cbn [app] in H. inversion H as [|L0 t0 l0 a0 b0 c0 Ht Hl]; subst.
      destruct (IH _ _ _ Hl) as (b & Ha & Hb). exists b. split; [|exact Hb].
      eapply HT_cons; eassumption.
  Qed.

  Lemma ht_frame_both :
    (forall L l a b, ht L l a b -> forall f, ht L l (f ++ a) (f ++ b)) /\
    (forall L t a b, ht1 L t a b -> forall f, ht1 L t (f ++ a) (f ++ b)).
  Proof.
    (* the added frame [g] goes in front of the frame [f] the rule already carries *)
    apply ht_ht1_ind; intros;
      try match goal with |- Typing.ht1 _ _ _ _ _ _ _ _ (?g ++ ?f ++ _) _ => rewrite !(app_assoc g f) end;
      eauto using Typing.ht, Typing.ht1.
  Qed.
  Lemma ht_frame L l a b f : ht L l a b -> ht L l (f ++ a) (f ++ b).
  Proof. intros H. now apply ht_frame_both. Qed.
  Lemma hl_nf_both :
    (forall L l a b, hl L l a b -> ht L (fst (nf_rt_list false l)) a b) /\
    (forall L t a b, hl1 L t a b ->
       ht L (fst (nf_rt false t)) a b /\ (never_falls t = true -> forall c, ht L (fst (nf_rt false t)) a c)).
  Proof.
    apply hl_hl1_ind.
    - (* nil *) intros L a. apply HT_nil.
    - (* cons *) intros L t l a b c E _ [IH1 _] _ IH2.
      rewrite nf_rt_list_cons_live, E. eapply ht_app; eassumption.
    - (* cut *) intros L t l a b c E _ [_ IH1].
      rewrite nf_rt_list_cons_cut by exact E. apply IH1, E.
    - (* plain *) intros L o loc f i r E Ho. rewrite nf_rt_plain. split.
      + apply ht_single, HT_plain; assumption.
      + intros E'. cbn [never_falls] in E'. congruence.
    - (* dead *) intros L o loc f i b E Ho. rewrite nf_rt_plain.
      split; [|intros _ c]; apply ht_single, HT_dead; assumption.
    - (* nop *) intros L loc a. split; [apply HT_nil|nofalls].
    - (* br *) intros L d loc f ts b E.
      split; [|intros _ c]; apply ht_single, HT_br; assumption.
    - (* br_if *) intros L d loc f ts E.
      split; [|nofalls]. apply ht_single, HT_br_if; assumption.
    - (* br_table *) intros L ds d loc f ts b E EF.
      split; [|intros _ c]; apply ht_single, HT_br_table; assumption.
    - (* block *) intros L bt body loc lend f _ IH. rewrite nf_rt_block. cbn [keepr fst].
      split; [|nofalls]. apply ht_single, HT_block, IH.
    - (* loop *) intros L bt body loc lend f _ IH. rewrite nf_rt_loop. cbn [keepr fst].
      split; [|nofalls]. apply ht_single, HT_loop, IH.
    - (* if/else *) intros L bt th le el loc lend f _ IH1 _ IH2. rewrite nf_rt_if_some. cbn [keepr fst].
      split; [|nofalls]. apply ht_single, HT_if_else; assumption.
    - (* if *) intros L bt th loc lend f _ IH1 E. rewrite nf_rt_if_none. cbn [keepr fst].
      split; [|nofalls]. apply ht_single, HT_if_else; [exact IH1|]. rewrite E. apply HT_nil.
  Qed.
  Theorem hl_nf L l a b : hl L l a b -> ht L (fst (nf_rt_list false l)) a b.
  Proof. apply hl_nf_both. Qed.
  (* the kept image of an instruction that never falls through is stack-polymorphic in its result *)
  Lemma hl1_nf_poly L t a b : never_falls t = true -> hl1 L t a b -> forall c, ht L (fst (nf_rt false t)) a c.
  Proof. intros E H. apply (proj2 hl_nf_both) in H. destruct H as [_ H]. exact (H E). Qed.

  Definition nfQ (t : rt) : Prop := forall L a b, ht L (fst (nf_rt false t)) a b -> hl1 L t a b.

  Lemma nf_hl_list l : Forall nfQ l -> forall L a b, ht L (fst (nf_rt_list false l)) a b -> hl L l a b.
  Proof.
    induction 1 as [|t l Ht Hl IH]; intros L a b H.
    - cbn [nf_rt_list fst] in H. apply ht_nil_inv in H. subst. apply HL_nil.
    - rewrite nf_rt_list_cons_live in H. destruct (never_falls t) eqn:E.
      + rewrite nf_rt_list_dead in H. cbn [fst] in H. rewrite app_nil_r in H.
        eapply HL_cut; [exact E|]. apply Ht, H.
      + apply ht_app_inv in H. destruct H as (m & H1 & H2).
        eapply HL_cons; [exact E| |]; [apply Ht, H1|apply IH, H2].
  Qed.

  Lemma nf_hl1 t : nfQ t.
  Proof.
    induction t as [o l|l|d l|d l|ds d l|bt body l e HF|bt body l e HF|bt th el l e HFt HFe] using rt_ind';
      intros L a b H.
    - rewrite nf_rt_plain in H. apply ht_single_inv in H. inversion H; subst.
      + apply HL_plain; assumption.
      + apply HL_dead; assumption.
    - cbn [nf_rt fst] in H. apply ht_nil_inv in H. subst. apply HL_nop.
    - cbn [nf_rt fst] in H. apply ht_single_inv in H. inversion H; subst. apply HL_br; assumption.
    - cbn [nf_rt fst] in H. apply ht_single_inv in H. inversion H; subst. apply HL_br_if; assumption.
    - cbn [nf_rt fst] in H. apply ht_single_inv in H. inversion H; subst. apply HL_br_table; assumption.
    - rewrite nf_rt_block in H. cbn [keepr fst] in H. apply ht_single_inv in H. inversion H; subst.
      apply HL_block, nf_hl_list; assumption.
    - rewrite nf_rt_loop in H. cbn [keepr fst] in H. apply ht_single_inv in H. inversion H; subst.
      apply HL_loop, nf_hl_list; assumption.
    - destruct el as [[le eb]|].
      + rewrite nf_rt_if_some in H. cbn [keepr fst] in H. apply ht_single_inv in H. inversion H; subst.
        apply HL_if_else; apply nf_hl_list; assumption.
      + rewrite nf_rt_if_none in H. cbn [keepr fst] in H. apply ht_single_inv in H. inversion H; subst.
        apply HL_if; [apply nf_hl_list; assumption|].
        match goal with He : ht _ [] (params bt) (results bt) |- _ => exact (ht_nil_inv _ _ _ He) end.
  Qed.

  Theorem nf_hl L l a b : ht L (fst (nf_rt_list false l)) a b -> hl L l a b.
  Proof. apply nf_hl_list. apply Forall_forall. intros t _. apply nf_hl1. Qed.

  Theorem nf_typing_iff L l a b : hl L l a b <-> ht L (fst (nf_rt_list false l)) a b.
  Proof. split; [apply hl_nf|apply nf_hl]. Qed.
  Theorem nf_preserves_typing L l a b : ht L l a b -> ht L (fst (nf_rt_list false l)) a b.
  Proof. intros H. apply hl_nf, ht_hl, H. Qed.
  Lemma hl_frame L l a b f : hl L l a b -> hl L l (f ++ a) (f ++ b).
  Proof. rewrite !nf_typing_iff. apply ht_frame. Qed.
End TypingNf.

Section Mono.
  Variable T : Type.
  Variable t_i32 : T.
  Variable optype1 optype2 : wins -> list T -> list T -> Prop.
  Variable opdead1 opdead2 : wins -> list T -> Prop.
  Variable params1 params2 results1 results2 : blockty -> list T.
  Hypothesis Hop : forall o i r, optype1 (WOp o) i r -> optype2 (WOp o) i r.
  Hypothesis Hdead : forall o i, opdead1 (WOp o) i -> opdead2 (WOp o) i.
  Hypothesis Hp : forall bt, params2 bt = params1 bt.
  Hypothesis Hr : forall bt, results2 bt = results1 bt.

  Lemma ht_mono_both :
    (forall L l a b, ht T t_i32 optype1 opdead1 params1 results1 L l a b ->
                     ht T t_i32 optype2 opdead2 params2 results2 L l a b) /\
    (forall L t a b, ht1 T t_i32 optype1 opdead1 params1 results1 L t a b ->
                     ht1 T t_i32 optype2 opdead2 params2 results2 L t a b).
  Proof.
    apply ht_ht1_ind; intros; rewrite <- ?Hp, <- ?Hr in *; try (econstructor; eauto; fail).
  Qed.
  Lemma ht_mono L l a b :
    ht T t_i32 optype1 opdead1 params1 results1 L l a b -> ht T t_i32 optype2 opdead2 params2 results2 L l a b.
  Proof. apply ht_mono_both. Qed.
End Mono.

Lemma ht_ext T t_i32 optype1 optype2 opdead1 opdead2 params1 params2 results1 results2 :
  (forall o i r, optype2 (WOp o) i r <-> optype1 (WOp o) i r) ->
  (forall o i, opdead2 (WOp o) i <-> opdead1 (WOp o) i) ->
  (forall bt, params2 bt = params1 bt) -> (forall bt, results2 bt = results1 bt) ->
  forall L l a b,
    ht T t_i32 optype1 opdead1 params1 results1 L l a b <-> ht T t_i32 optype2 opdead2 params2 results2 L l a b.
Proof.
  intros Hop Hdead Hp Hr L l a b. split; apply ht_mono; intros; try apply Hop; try apply Hdead; auto.
Qed.

Section Renamed.
  Variable T : Type.
  Variable t_i32 : T.
  Variable optype : wins -> list T -> list T -> Prop.
  Variable opdead : wins -> list T -> Prop.
  Variable params results : blockty -> list T.
  Variable cx : pctx.
  Variable ecx : ectx.
  (* typing of the OUTPUT module's operators and block types *)
  Variable optype' : wins -> list T -> list T -> Prop.
  Variable opdead' : wins -> list T -> Prop.
  Variable params' results' : blockty -> list T.

  Definition ren (w : wins) : wins := match w with WOp o => nf_op cx ecx o | w => w end.

  Hypothesis H_op : forall o i r, optype' (nf_op cx ecx o) i r <-> optype (WOp o) i r.
  Hypothesis H_dead : forall o i, opdead' (nf_op cx ecx o) i <-> opdead (WOp o) i.
  Hypothesis H_params : forall bt, params' (nf_bt cx ecx bt) = params bt.
  Hypothesis H_results : forall bt, results' (nf_bt cx ecx bt) = results bt.

  Notation ht_out := (ht T t_i32 (fun w => optype' (ren w)) (fun w => opdead' (ren w))
                         (fun bt => params' (nf_bt cx ecx bt)) (fun bt => results' (nf_bt cx ecx bt))).

  Lemma ht_renamed_iff L l a b : ht T t_i32 optype opdead params results L l a b <-> ht_out L l a b.
  Proof.
    apply ht_ext.
    - intros o i r. cbn [ren]. apply H_op.
    - intros o i. cbn [ren]. apply H_dead.
    - exact H_params.
    - exact H_results.
  Qed.

  Theorem nf_preserves_typing_renamed L l a b :
    ht T t_i32 optype opdead params results L l a b -> ht_out L (fst (nf_rt_list false l)) a b.
  Proof. intros H. apply ht_renamed_iff, nf_preserves_typing, H. Qed.

  (* the emitted body is typeable in the output module EXACTLY WHEN the kept part of the input is typeable *)
  Theorem nf_typing_iff_renamed L l a b :
    hl T t_i32 optype opdead params results L l a b <-> ht_out L (fst (nf_rt_list false l)) a b.
  Proof. rewrite <- ht_renamed_iff. apply nf_typing_iff. Qed.
End Renamed.

Module Example.
  (* two value types: [true] plays i32, [false] another one *)
  Definition ex_optype (w : wins) (i r : list bool) : Prop :=
    match w with
    | WOp W_Drop => exists t, i = [t] /\ r = []
    | WOp (W_I32Const _) => i = [] /\ r = [true]
    | _ => False
    end.
  Definition ex_opdead (w : wins) (i : list bool) : Prop :=
    match w with
    | WOp W_Unreachable => i = []
    | WOp W_Return => i = []
    | _ => False
    end.
  Definition ex_params (bt : blockty) : list bool := [].
  Definition ex_results (bt : blockty) : list bool := match bt with BT_Val _ => [true] | _ => [] end.

  Notation eht := (ht bool true ex_optype ex_opdead ex_params ex_results).
  Notation eht1 := (ht1 bool true ex_optype ex_opdead ex_params ex_results).
  Notation ehl := (hl bool true ex_optype ex_opdead ex_params ex_results).
  Notation ehl1 := (hl1 bool true ex_optype ex_opdead ex_params ex_results).

  (* nop; i32.const 1; if (nop) end [no else]; block br 0; i32.const 0 end; unreachable; i32.const 0
     - the code after `br 0` and after `unreachable` leaves a value too many: not typeable declaratively *)
  Definition ex_live : list rt :=
    [ RNop 0; RPlain (W_I32Const 1) 1; RIf BT_Empty [RNop 2] None 3 4;
      RBlock BT_Empty [RBr 0 5; RPlain (W_I32Const 0) 6] 7 8 ].
  Definition ex_tail : list rt := [ RPlain W_Unreachable 9; RPlain (W_I32Const 0) 10 ].
  Definition ex_body : list rt := ex_live ++ ex_tail.

  Lemma ex_nf :
    fst (nf_rt_list false ex_body) =
    [ RPlain (W_I32Const 1) 1; RIf BT_Empty [] (Some (default_loc, [])) 3 4;
      RBlock BT_Empty [RBr 0 5] 7 8; RPlain W_Unreachable 9 ].
  Proof. vm_compute. reflexivity. Qed.

  Lemma ex_hl : ehl [] ex_body [] [].
  Proof.
    unfold ex_body, ex_live, ex_tail. cbn [app].
    (* nop *)
    apply (HL_cons bool true ex_optype ex_opdead ex_params ex_results [] (RNop 0) _ [] [] []); [reflexivity|apply HL_nop|].
    (* i32.const 1 *)
    apply (HL_cons bool true ex_optype ex_opdead ex_params ex_results [] (RPlain (W_I32Const 1) 1) _ [] [true] []); [reflexivity| |].
    { apply (HL_plain bool true ex_optype ex_opdead ex_params ex_results [] (W_I32Const 1) 1 [] [] [true]); [reflexivity|]. split; reflexivity. }
    (* if without else *)
    apply (HL_cons bool true ex_optype ex_opdead ex_params ex_results [] (RIf BT_Empty [RNop 2] None 3 4) _ [true] [] []); [reflexivity| |].
    { apply (HL_if bool true ex_optype ex_opdead ex_params ex_results [] BT_Empty [RNop 2] 3 4 []); [|reflexivity].
      apply (HL_cons bool true ex_optype ex_opdead ex_params ex_results _ (RNop 2) [] [] [] []); [reflexivity|apply HL_nop|apply HL_nil]. }
    (* block br 0; <dead> end *)
    apply (HL_cons bool true ex_optype ex_opdead ex_params ex_results [] (RBlock BT_Empty [RBr 0 5; RPlain (W_I32Const 0) 6] 7 8) _ [] [] []);
      [reflexivity| |].
    { apply (HL_block bool true ex_optype ex_opdead ex_params ex_results [] BT_Empty _ 7 8 []).
      apply (HL_cut bool true ex_optype ex_opdead ex_params ex_results _ (RBr 0 5) _ [] [] []); [reflexivity|].
      apply (HL_br bool true ex_optype ex_opdead ex_params ex_results _ 0%N 5%N [] [] []). reflexivity. }
    (* unreachable; <dead> *)
    apply (HL_cut bool true ex_optype ex_opdead ex_params ex_results [] (RPlain W_Unreachable 9) _ [] [] []); [reflexivity|].
    apply (HL_dead bool true ex_optype ex_opdead ex_params ex_results [] W_Unreachable 9%N [] [] []); reflexivity.
  Qed.

  (* what the round trip emits is typeable *)
  Lemma ex_nf_ht : eht [] (fst (nf_rt_list false ex_body)) [] [].
  Proof. apply hl_nf, ex_hl. Qed.
  Lemma ex_nf_ht_explicit :
    eht [] [ RPlain (W_I32Const 1) 1; RIf BT_Empty [] (Some (default_loc, [])) 3 4;
             RBlock BT_Empty [RBr 0 5] 7 8; RPlain W_Unreachable 9 ] [] [].
  Proof. rewrite <- ex_nf. apply ex_nf_ht. Qed.

  (* ... although the input is not (declaratively) typeable: [hl] is strictly weaker than [ht] *)
  Lemma ex_tail_not_ht L a : ~ eht L ex_tail a [].
  Proof.
    unfold ex_tail. intros H.
    inversion H as [|L0 t0 l0 a0 b0 c0 H1 H2]; subst. clear H H1.
    apply ht_single_inv in H2.
    inversion H2 as [L0 o loc f i r Hm Ho E1 E2 E3 | L0 o loc f i b Hm Ho E1 E2 E3 | | | | | | | | ].
    - cbn [ex_optype] in Ho. destruct Ho as [_ Hr]. subst r.
      destruct f; discriminate.
    - vm_compute in Hm. discriminate Hm.
  Qed.
  Lemma ex_not_ht : ~ eht [] ex_body [] [].
  Proof.
    unfold ex_body. intros H. apply ht_app_inv in H. destruct H as (m & _ & H).
    exact (ex_tail_not_ht _ _ H).
  Qed.
End Example.

Print Assumptions ht_hl.
Print Assumptions hl_nf.
Print Assumptions nf_hl.
Print Assumptions nf_typing_iff.
Print Assumptions nf_preserves_typing.
Print Assumptions nf_preserves_typing_renamed.
Print Assumptions nf_typing_iff_renamed.
Print Assumptions ht_ext.
Print Assumptions ht_frame.
Print Assumptions hl_frame.
Print Assumptions ht_app.
Print Assumptions Example.ex_nf_ht_explicit.
Print Assumptions Example.ex_not_ht.
