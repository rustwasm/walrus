(* The FunctionBuilder / InstrSeqBuilder model (Model/Builder.v): a builder program in the structured fragment runs
   without panic and leaves an arena that denotes the tree [tree_of] assigns to it (builder_den); the ids of the
   created sequences are exactly the fresh range (builder_tree_ids); positional facts about [put] / [insert_at].
   The machine is described once by [RunR], for every kind of call ([bshape]); Proofs/Builder2.v uses it again. *)
From Coq Require Import List NArith Arith Lia Bool Permutation. Import ListNotations.
From WV Require Import Gen.Ops Model.Common Model.IR Model.Traversal Model.EmitFn Model.EmitSpec Model.Builder.
From WV Require Proofs.Traversal Proofs.EmitFn.
From WV Require Import Proofs.SeqArena.
Open Scope N_scope.

Lemma upd_app_l {A} (l m : list A) i f : (i < length l)%nat -> upd (l ++ m) i f = upd l i f ++ m.
Proof. revert i; induction l as [|x l IH]; intros [|i] H; cbn in *; try lia; auto. now rewrite IH by lia. Qed.
Lemma upd_upd {A} (l : list A) i f g : upd (upd l i f) i g = upd l i (fun x => g (f x)).
Proof. revert i; induction l; intros [|i]; cbn; auto; now rewrite IHl. Qed.
Lemma upd_nth {A} (l : list A) i f x : nth_error l i = Some x -> upd l i f = upd l i (fun _ => f x).
Proof.
  revert i; induction l as [|y l IH]; intros [|i] H; cbn in *; try discriminate.
  - now injection H as ->.
  - now rewrite (IH i H).
Qed.
Lemma upd_same {A} (l : list A) i x : nth_error l i = Some x -> upd l i (fun _ => x) = l.
Proof.
  revert i; induction l as [|y l IH]; intros [|i] H; cbn in *; try discriminate.
  - now injection H as ->.
  - now rewrite (IH i H).
Qed.
Lemma nth_error_upd_same {A} (l : list A) i f x : nth_error l i = Some x -> nth_error (upd l i f) i = Some (f x).
Proof.
  revert i; induction l as [|y l IH]; intros [|i] H; cbn in *; try discriminate.
  - now injection H as ->.
  - now apply IH.
Qed.
Lemma nth_error_lt {A} (l : list A) i x : nth_error l i = Some x -> (i < length l)%nat.
Proof. intros H. apply nth_error_Some. congruence. Qed.

Lemma insert_at_split {A} (l : list A) : forall n x l', insert_at l n x = Some l' ->
  exists l1 l2, l = l1 ++ l2 /\ l' = l1 ++ x :: l2 /\ length l1 = n.
Proof.
  induction l as [|y l IH]; intros [|n] x l' H; cbn [insert_at] in H.
  - injection H as <-. exists [], []. auto.
  - discriminate.
  - injection H as <-. exists [], (y :: l). auto.
  - destruct (insert_at l n x) as [r|] eqn:E; [|discriminate]. injection H as <-.
    destruct (IH n x r E) as (l1 & l2 & -> & -> & Hl). exists (y :: l1), l2. cbn [app length]. auto.
Qed.
Lemma insert_at_app {A} (l1 l2 : list A) x : insert_at (l1 ++ l2) (length l1) x = Some (l1 ++ x :: l2).
Proof. induction l1 as [|y l1 IH]; cbn [app length insert_at]; [now destruct l2|]. now rewrite IH. Qed.
Lemma insert_at_map {A B} (f : A -> B) (l : list A) : forall n x,
  insert_at (map f l) n (f x) = option_map (map f) (insert_at l n x).
Proof.
  induction l as [|y l IH]; intros [|n] x; cbn [map insert_at option_map]; auto.
  rewrite IH. now destruct (insert_at l n x).
Qed.

Definition ItemsDen (ar : arena) (l : list (item * N)) : Prop := Forall (fun x => IDen ar (fst x)) l.

Lemma put_split pos it items items1 : put pos it items = Some items1 ->
  exists l1 l2, items = l1 ++ l2 /\ items1 = l1 ++ (it, default_loc) :: l2.
Proof.
  destruct pos as [p|]; cbn [put]; intros H.
  - destruct (insert_at_split _ _ _ _ H) as (l1 & l2 & E1 & E2 & _). eauto.
  - injection H as <-. exists items, []. now rewrite app_nil_r.
Qed.
Lemma ItemsDen_put ar pos it items items1 : put pos it items = Some items1 ->
  IDen ar it -> ItemsDen ar items -> ItemsDen ar items1.
Proof.
  intros H Hi Hd. destruct (put_split _ _ _ _ H) as (l1 & l2 & -> & ->).
  apply Forall_app in Hd as [H1 H2]. apply Forall_app. split; [exact H1|]. constructor; assumption.
Qed.

(* The four kinds of call: an instruction; a nested sequence and the block or loop instruction that refers
   to it; two nested sequences and the if/else; a sequence left dangling.  The first three come with an
   optional position ([_at]). *)
Inductive bshape :=
  | SLeaf (pos : option N) (i : instr)
  | SNest1 (pos : option N) (lp : bool) (ty : seqty) (b : list bop)
  | SNest2 (pos : option N) (ty : seqty) (c a : list bop)
  | SDangling (ty : seqty) (b : list bop).
Definition shape (o : bop) : bshape :=
  match o with
  | BInstr i => SLeaf None i | BInstrAt p i => SLeaf (Some p) i
  | BBlock ty b => SNest1 None false ty b | BBlockAt p ty b => SNest1 (Some p) false ty b
  | BLoop ty b => SNest1 None true ty b | BLoopAt p ty b => SNest1 (Some p) true ty b
  | BIfElse ty c a => SNest2 None ty c a | BIfElseAt p ty c a => SNest2 (Some p) ty c a
  | BDangling ty b => SDangling ty b
  end.
Definition nest_instr (lp : bool) : N -> instr := if lp then ILoop else IBlock.
Definition nest_item (lp : bool) : tree -> item := if lp then ItL else ItB.
Lemma nest_item_shallow lp t : shallow (nest_item lp t) = nest_instr lp (tsid t).
Proof. now destruct lp. Qed.
Lemma nest_item_den lp ar t : IDen ar (nest_item lp t) <-> Den ar t.
Proof. now destruct lp. Qed.

(* induction on calls and lists of calls together, by kind of call *)
Section bop_ind.
  Variable P : bop -> Prop.
  Variable Pl : list bop -> Prop.
  Definition sub_ok (o : bop) : Prop :=
    match shape o with
    | SLeaf _ _ => True
    | SNest1 _ _ _ b | SDangling _ b => Pl b
    | SNest2 _ _ c a => Pl c /\ Pl a
    end.
  Hypothesis Hnil : Pl [].
  Hypothesis Hcons : forall o l, P o -> Pl l -> Pl (o :: l).
  Hypothesis Hop : forall o, sub_ok o -> P o.
  Fixpoint bop_ind' (o : bop) : P o :=
    let fl := fix fl (l : list bop) : Pl l :=
      match l with [] => Hnil | x :: l' => Hcons x l' (bop_ind' x) (fl l') end in
    Hop o (match o return sub_ok o with
           | BInstr _ | BInstrAt _ _ => I
           | BBlock _ b | BBlockAt _ _ b | BLoop _ b | BLoopAt _ _ b | BDangling _ b => fl b
           | BIfElse _ c a | BIfElseAt _ _ c a => conj (fl c) (fl a)
           end).
  Lemma bop_list_ind : (forall o, P o) /\ (forall l, Pl l).
  Proof. split; [exact bop_ind'|]. induction l; auto using bop_ind'. Qed.
End bop_ind.

(* the local [bl] of [bspec_op] is convertible with [bspec], the one of [bsize] is proved equal to [bsize_list] *)
Definition nest1_spec (pos : option N) (mk : tree -> item) (ty : seqty) (b : list bop) (n : N) (items : list (item * N)) :=
  match bspec b (n + 1) [] with
  | Some (its, n1) => option_map (fun l => (l, n1)) (put pos (mk (T n ty its default_loc)) items)
  | None => None
  end.
Definition nest2_spec (pos : option N) (ty : seqty) (c a : list bop) (n : N) (items : list (item * N)) :=
  match bspec c (n + 1) [] with
  | Some (ic, n1) =>
      match bspec a (n1 + 1) [] with
      | Some (ia, n2) => option_map (fun l => (l, n2)) (put pos (ItI (T n ty ic default_loc) (T n1 ty ia default_loc)) items)
      | None => None
      end
  | None => None
  end.
Definition leaf_spec (pos : option N) (i : instr) (n : N) (items : list (item * N)) :=
  match item_of_instr i with Some it => option_map (fun l => (l, n)) (put pos it items) | None => None end.

Lemma bspec_op_eq o n items : bspec_op o n items =
  match shape o with
  | SLeaf pos i => leaf_spec pos i n items
  | SNest1 pos lp ty b => nest1_spec pos (nest_item lp) ty b n items
  | SNest2 pos ty c a => nest2_spec pos ty c a n items
  | SDangling _ _ => None
  end.
Proof. destruct o; reflexivity. Qed.

Definition bsl_inner :=
  fix bl (l : list bop) : nat := match l with [] => O | x :: r => (bsize x + bl r)%nat end.
Lemma bsl_inner_eq l : bsl_inner l = bsize_list l.
Proof. induction l as [|x l IH]; [reflexivity|]. cbn [bsl_inner bsize_list fold_right]. fold bsl_inner. now rewrite IH. Qed.
Lemma bsize_eq o : bsize o =
  match shape o with
  | SLeaf _ _ => 1%nat
  | SNest1 _ _ _ b | SDangling _ b => S (S (bsize_list b))
  | SNest2 _ _ c a => S (S (S (bsize_list c + bsize_list a)))
  end.
Proof. destruct o; cbn [shape]; rewrite <- ?bsl_inner_eq; reflexivity. Qed.
Lemma bsize_pos o : (1 <= bsize o)%nat.
Proof. rewrite bsize_eq. destruct (shape o); lia. Qed.
Lemma bsize_list_cons o l : bsize_list (o :: l) = (bsize o + bsize_list l)%nat.
Proof. reflexivity. Qed.

(* one call, with the fuel left for the nested calls *)
Definition nested_run (f : nat) (ty : seqty) (body : list bop) (a : arena) : res (arena * N) :=
  rmap (fun a' => (a', len_N a)) (run_ops f (a ++ [empty_seq ty]) (len_N a) body).
Definition step_op (f : nat) (a : arena) (cur : N) (o : bop) : res arena :=
  match shape o with
  | SLeaf pos i => place a cur pos i
  | SNest1 pos lp ty b => rbind (nested_run f ty b a) (fun r => place (fst r) cur pos (nest_instr lp (snd r)))
  | SNest2 pos ty c al =>
      rbind (nested_run f ty c a) (fun r1 => rbind (nested_run f ty al (fst r1)) (fun r2 =>
      place (fst r2) cur pos (IIfElse (snd r1) (snd r2))))
  | SDangling ty b => rmap fst (nested_run f ty b a)
  end.
Lemma run_ops_cons f a cur o rest :
  run_ops (S f) a cur (o :: rest) = rbind (step_op f a cur o) (fun a' => run_ops f a' cur rest).
Proof. destruct o; reflexivity. Qed.
Lemma run_ops_nil f a cur : run_ops (S f) a cur [] = Ok a.
Proof. reflexivity. Qed.

Lemma item_of_instr_shallow i it : item_of_instr i = Some it -> i = shallow it /\ forall ar, IDen ar it.
Proof. destruct i; cbn [item_of_instr]; intros H; try discriminate; injection H as <-; cbn [shallow IDen]; auto. Qed.

Lemma place_ok a cur pos ty e items it items1 X :
  nth_error a (N.to_nat cur) = Some (mkseq ty (map sh items) e) ->
  put pos it items = Some items1 ->
  place (a ++ X) cur pos (shallow it) = Ok (upd a (N.to_nat cur) (fun _ => mkseq ty (map sh items1) e) ++ X).
Proof.
  intros Hc Hp. pose proof (nth_error_lt _ _ _ Hc) as Hlt.
  assert (Hc' : nth_error (a ++ X) (N.to_nat cur) = Some (mkseq ty (map sh items) e))
    by (rewrite nth_error_app1 by exact Hlt; exact Hc).
  destruct pos as [p|]; cbn [place put] in *.
  - unfold insert_i. rewrite Hc'. cbn [sq_instrs mkseq].
    change (shallow it, default_loc) with (sh (it, default_loc)).
    rewrite insert_at_map, Hp. cbn [option_map]. f_equal.
    rewrite upd_app_l by exact Hlt. f_equal.
    rewrite (upd_nth _ _ _ _ Hc). reflexivity.
  - unfold push_i. rewrite Hc'. injection Hp as <-. f_equal.
    rewrite upd_app_l by exact Hlt. f_equal.
    rewrite (upd_nth _ _ _ _ Hc). cbn [sq_ty sq_instrs sq_end mkseq].
    rewrite map_app. reflexivity.
Qed.

(* [run], started with enough fuel on an arena of length [n] whose sequence [cur] reads [items], leaves
   [cur] reading [items1], appends [news] and touches nothing else.  What holds of the arena is
   carried as a pair of predicates: only [news], at its place, matters, so [Post] follows from [Pre]
   on every arena that holds [news] from position [n] on.  Proofs.Builder2 uses the same relation
   with a forest of dangling sequences in the predicates. *)
Definition RunR (n : N) (items items1 : list (item * N)) (n1 : N)
    (run : nat -> arena -> N -> res arena) (bound : nat) (Pre Post : arena -> Prop) : Prop :=
  exists news, n1 = n + len_N news /\
    (forall f a cur ty e, (bound <= f)%nat -> len_N a = n ->
       nth_error a (N.to_nat cur) = Some (mkseq ty (map sh items) e) ->
       run f a cur = Ok (upd a (N.to_nat cur) (fun _ => mkseq ty (map sh items1) e) ++ news)) /\
    (forall pre post, length pre = N.to_nat n -> Pre (pre ++ news ++ post) -> Post (pre ++ news ++ post)).

Lemma run_nil n items P : RunR n items items n (fun f a cur => run_ops f a cur []) 1 P P.
Proof.
  exists []. split; [change (len_N (@nil iseq)) with 0; lia|split; [|auto]].
  intros f a cur ty e Hf _ Hc. destruct f as [|f]; [lia|].
  rewrite run_ops_nil, app_nil_r. now rewrite (upd_same _ _ _ Hc).
Qed.

Lemma run_cons n items i' n' items1 n1 o rest P Q R :
  RunR n items i' n' (fun f a cur => step_op f a cur o) (bsize o) P Q ->
  RunR n' i' items1 n1 (fun f a cur => run_ops f a cur rest) (S (bsize_list rest)) Q R ->
  RunR n items items1 n1 (fun f a cur => run_ops f a cur (o :: rest)) (S (bsize_list (o :: rest))) P R.
Proof.
  intros (news1 & -> & R1 & D1) (news2 & -> & R2 & D2). exists (news1 ++ news2).
  split; [rewrite len_N_app; lia|split].
  - intros f a cur ty e Hf Ha Hc. rewrite bsize_list_cons in Hf. pose proof (bsize_pos o) as Hpos.
    destruct f as [|f]; [lia|]. rewrite run_ops_cons.
    rewrite (R1 f a cur ty e) by (try lia; assumption). cbn [rbind].
    pose proof (nth_error_lt _ _ _ Hc) as Hlt.
    rewrite (R2 f _ cur ty e).
    + f_equal. rewrite upd_app_l by (rewrite upd_length; exact Hlt). rewrite upd_upd.
      now rewrite <- app_assoc.
    + lia.
    + rewrite len_N_app. unfold len_N at 1. rewrite upd_length. fold (len_N a). lia.
    + rewrite nth_error_app1 by (rewrite upd_length; exact Hlt).
      exact (nth_error_upd_same a _ (fun _ => mkseq ty (map sh i') e) _ Hc).
  - intros pre post Hp HP. rewrite <- app_assoc in HP |- *.
    specialize (D2 (pre ++ news1) post). rewrite <- app_assoc in D2. apply D2; [|apply D1; assumption].
    rewrite app_length, Hp, N2Nat.inj_add, to_nat_len_N. lia.
Qed.

(* a nested sequence: allocated at the end as number [n], filled by the nested calls *)
Lemma run_nested n ty b its nb P Q :
  RunR (n + 1) [] its nb (fun f a cur => run_ops f a cur b) (S (bsize_list b)) P Q ->
  exists X, nb = n + len_N X /\
    (forall f a, (S (bsize_list b) <= f)%nat -> len_N a = n -> nested_run f ty b a = Ok (a ++ X, n)) /\
    (forall pre post, length pre = N.to_nat n ->
       nth_error (pre ++ X ++ post) (N.to_nat n) = Some (mkseq ty (map sh its) default_loc) /\
       (P (pre ++ X ++ post) -> Q (pre ++ X ++ post))).
Proof.
  intros (newsb & -> & R & D). exists (mkseq ty (map sh its) default_loc :: newsb).
  split; [rewrite len_N_cons; lia|split].
  - intros f a Hf Ha. unfold nested_run.
    rewrite (R f (a ++ [empty_seq ty]) (len_N a) ty default_loc Hf).
    + cbn [rmap]. rewrite to_nat_len_N, Ha, upd_at, <- app_assoc. reflexivity.
    + rewrite len_N_app, Ha. reflexivity.
    + rewrite to_nat_len_N. apply nth_error_at. reflexivity.
  - intros pre post Hp. split; [apply nth_error_at, Hp|].
    specialize (D (pre ++ [mkseq ty (map sh its) default_loc]) post). rewrite <- app_assoc in D. apply D.
    rewrite app_length, Hp, N2Nat.inj_add. cbn. lia.
Qed.

(* the calls that place an instruction, by kind; [HD] is what the caller knows of the arena *)
Lemma run_leaf n items items1 pos it (P Q : arena -> Prop) : put pos it items = Some items1 -> (forall ar, P ar -> Q ar) ->
  RunR n items items1 n (fun _ a cur => place a cur pos (shallow it)) 1 P Q.
Proof.
  intros Ep HD. exists []. split; [change (len_N (@nil iseq)) with 0; lia|split; [|auto]].
  intros f a cur ty e _ _ Hc. pose proof (place_ok a cur pos ty e items it items1 [] Hc Ep) as R.
  rewrite app_nil_r in R. exact R.
Qed.

Lemma run_block (mkins : N -> instr) n ty b its nb items items1 pos it (P Q P' Q' : arena -> Prop) :
  RunR (n + 1) [] its nb (fun f a cur => run_ops f a cur b) (S (bsize_list b)) P Q ->
  put pos it items = Some items1 -> shallow it = mkins n ->
  (forall ar, nth_error ar (N.to_nat n) = Some (mkseq ty (map sh its) default_loc) ->
     P' ar -> P ar /\ (Q ar -> Q' ar)) ->
  RunR n items items1 nb
    (fun f a cur => rbind (nested_run f ty b a) (fun r => place (fst r) cur pos (mkins (snd r))))
    (S (S (bsize_list b))) P' Q'.
Proof.
  intros Hb Ep Hsh HD. destruct (run_nested n ty b its nb P Q Hb) as (X & -> & R & D).
  exists X. split; [reflexivity|split].
  - intros f a cur ty0 e Hf Ha Hc. rewrite (R f a) by (try lia; assumption). cbn [rbind fst snd].
    rewrite <- Hsh. apply (place_ok a cur pos ty0 e items it items1 X Hc Ep).
  - intros pre post Hp HP'. destruct (D pre post Hp) as [Hn D']. destruct (HD _ Hn HP') as [HP K]. auto.
Qed.

Lemma run_ifelse n ty c al ic nc ia na items items1 pos it (Pc Qc Pa Qa P' Q' : arena -> Prop) :
  RunR (n + 1) [] ic nc (fun f a cur => run_ops f a cur c) (S (bsize_list c)) Pc Qc ->
  RunR (nc + 1) [] ia na (fun f a cur => run_ops f a cur al) (S (bsize_list al)) Pa Qa ->
  put pos it items = Some items1 -> shallow it = IIfElse n nc ->
  (forall ar, nth_error ar (N.to_nat n) = Some (mkseq ty (map sh ic) default_loc) ->
     nth_error ar (N.to_nat nc) = Some (mkseq ty (map sh ia) default_loc) ->
     P' ar -> Pc ar /\ (Qc ar -> Pa ar /\ (Qa ar -> Q' ar))) ->
  RunR n items items1 na
    (fun f a cur => rbind (nested_run f ty c a) (fun r1 => rbind (nested_run f ty al (fst r1)) (fun r2 =>
                    place (fst r2) cur pos (IIfElse (snd r1) (snd r2)))))
    (S (S (S (bsize_list c + bsize_list al)))) P' Q'.
Proof.
  intros Hc Ha Ep Hsh HD. destruct (run_nested n ty c ic nc Pc Qc Hc) as (Xc & -> & Rc & Dc).
  destruct (run_nested (n + len_N Xc) ty al ia na Pa Qa Ha) as (Xa & -> & Ra & Da).
  exists (Xc ++ Xa). split; [rewrite len_N_app; lia|split].
  - intros f a cur ty0 e Hf Hla Hcur. rewrite (Rc f a) by (try lia; assumption). cbn [rbind fst snd].
    rewrite (Ra f (a ++ Xc)) by (try lia; rewrite len_N_app; lia). cbn [rbind fst snd].
    rewrite <- app_assoc, <- Hsh. apply (place_ok a cur pos ty0 e items it items1 _ Hcur Ep).
  - intros pre post Hp HP'. rewrite <- app_assoc in HP' |- *.
    destruct (Dc pre (Xa ++ post) Hp) as [Hnc Dc'].
    destruct (Da (pre ++ Xc) post) as [Hna Da'];
      [rewrite app_length, Hp, N2Nat.inj_add, to_nat_len_N; lia|]. rewrite <- app_assoc in Hna, Da'.
    destruct (HD _ Hnc Hna HP') as [HPc K]. destruct (K (Dc' HPc)) as [HPa K']. auto.
Qed.

Definition DenR (n : N) (items items1 : list (item * N)) (n1 : N) run bound : Prop :=
  RunR n items items1 n1 run bound (fun ar => ItemsDen ar items) (fun ar => ItemsDen ar items1).
Definition Pop (o : bop) : Prop := forall n items items1 n1,
  bspec_op o n items = Some (items1, n1) ->
  DenR n items items1 n1 (fun f a cur => step_op f a cur o) (bsize o).
Definition Pl (ops : list bop) : Prop := forall n items items1 n1,
  bspec ops n items = Some (items1, n1) ->
  DenR n items items1 n1 (fun f a cur => run_ops f a cur ops) (S (bsize_list ops)).

Lemma leaf_ok pos i n items items1 n1 : leaf_spec pos i n items = Some (items1, n1) ->
  DenR n items items1 n1 (fun _ a cur => place a cur pos i) 1.
Proof.
  unfold leaf_spec. destruct (item_of_instr i) as [it|] eqn:Ei; [|discriminate].
  destruct (put pos it items) as [l|] eqn:Ep; [|discriminate]. cbn [option_map]. intros H. injection H as <- <-.
  destruct (item_of_instr_shallow _ _ Ei) as [-> Hden].
  apply (run_leaf _ _ _ _ _ _ _ Ep). intros ar Hd. eapply ItemsDen_put; [exact Ep|apply Hden|exact Hd].
Qed.

Lemma block_like_ok lp pos ty b n items items1 n1 :
  Pl b -> nest1_spec pos (nest_item lp) ty b n items = Some (items1, n1) ->
  DenR n items items1 n1
    (fun f a cur => rbind (nested_run f ty b a) (fun r => place (fst r) cur pos (nest_instr lp (snd r))))
    (S (S (bsize_list b))).
Proof.
  intros HP. unfold nest1_spec. destruct (bspec b (n + 1) []) as [[its nb]|] eqn:Eb; [|discriminate].
  destruct (put pos (nest_item lp (T n ty its default_loc)) items) as [l|] eqn:Ep; [|discriminate].
  cbn [option_map]. intros H. injection H as <- <-.
  apply (run_block (nest_instr lp) _ ty _ _ _ _ _ _ _ _ _ _ _ (HP _ _ _ _ Eb) Ep (nest_item_shallow lp _)).
  intros ar Hn Hd. split; [constructor|]. intros Hits.
  eapply ItemsDen_put; [exact Ep| |exact Hd]. apply nest_item_den, Den_T. split; assumption.
Qed.

Lemma ifelse_like_ok pos ty c al n items items1 n1 :
  Pl c -> Pl al -> nest2_spec pos ty c al n items = Some (items1, n1) ->
  DenR n items items1 n1
    (fun f a cur => rbind (nested_run f ty c a) (fun r1 => rbind (nested_run f ty al (fst r1)) (fun r2 =>
                    place (fst r2) cur pos (IIfElse (snd r1) (snd r2)))))
    (S (S (S (bsize_list c + bsize_list al)))).
Proof.
  intros HPc HPa. unfold nest2_spec. destruct (bspec c (n + 1) []) as [[ic nc]|] eqn:Ec; [|discriminate].
  destruct (bspec al (nc + 1) []) as [[ia na]|] eqn:Ea; [|discriminate].
  destruct (put pos (ItI (T n ty ic default_loc) (T nc ty ia default_loc)) items) as [l|] eqn:Ep; [|discriminate].
  cbn [option_map]. intros H. injection H as <- <-.
  apply (run_ifelse _ ty _ _ _ _ _ _ _ _ _ _ _ _ _ _ _ _ (HPc _ _ _ _ Ec) (HPa _ _ _ _ Ea) Ep eq_refl).
  intros ar Hnc Hna Hd. split; [constructor|]. intros Hic. split; [constructor|]. intros Hia.
  eapply ItemsDen_put; [exact Ep| |exact Hd]. split; apply Den_T; split; assumption.
Qed.

Theorem builder_op_ops : (forall o, Pop o) /\ (forall ops, Pl ops).
Proof.
  apply bop_list_ind.
  - intros n items items1 n1 Hs. injection Hs as <- <-. apply run_nil.
  - intros o r Ho IH n items items1 n1 Hs. cbn [bspec] in Hs.
    destruct (bspec_op o n items) as [[i' n']|] eqn:Eo; [|discriminate].
    exact (run_cons _ _ _ _ _ _ _ _ _ _ _ (Ho _ _ _ _ Eo) (IH _ _ _ _ Hs)).
  - intros o H n items items1 n1 Hs. rewrite bspec_op_eq in Hs. rewrite bsize_eq. unfold step_op, sub_ok in *.
    destruct (shape o) as [pos i|pos lp ty b|pos ty c a|ty b].
    + apply leaf_ok, Hs.
    + apply block_like_ok; auto.
    + destruct H. apply ifelse_like_ok; auto.
    + discriminate.
Qed.
Theorem builder_ops : forall ops, Pl ops.
Proof. apply builder_op_ops. Qed.

Lemma tree_of_tsid entry_ty prog t : tree_of entry_ty prog = Some t -> tsid t = 0.
Proof. unfold tree_of. destruct (bspec prog 1 []) as [[items n]|]; [|discriminate]. now intros [= <-]. Qed.

Theorem builder_den : forall entry_ty prog t,
  tree_of entry_ty prog = Some t ->
  exists ar, run_builder entry_ty prog = Ok ar /\ Den ar t.
Proof.
  intros entry_ty prog t. unfold tree_of, run_builder.
  destruct (bspec prog 1 []) as [[items n1]|] eqn:Es; [|discriminate]. intros [= <-].
  destruct (builder_ops prog _ _ _ _ Es) as (news & _ & R & D).
  eexists. split.
  - apply (R _ [empty_seq (ST_Multi entry_ty)] 0 (ST_Multi entry_ty) default_loc); [lia|reflexivity|reflexivity].
  - cbn [N.to_nat upd]. apply Den_T. split; [reflexivity|].
    specialize (D [mkseq (ST_Multi entry_ty) (map sh items) default_loc] [] eq_refl).
    rewrite app_nil_r in D. apply D. constructor.
Qed.

(* any larger fuel gives the same arena *)
Theorem run_builder_fuel : forall entry_ty prog t fuel,
  tree_of entry_ty prog = Some t -> (bsize_list prog < fuel)%nat ->
  run_ops fuel [empty_seq (ST_Multi entry_ty)] 0 prog = run_builder entry_ty prog.
Proof.
  intros entry_ty prog t fuel. unfold tree_of, run_builder.
  destruct (bspec prog 1 []) as [[items n1]|] eqn:Es; [|discriminate]. intros _ Hf.
  destruct (builder_ops prog _ _ _ _ Es) as (news & _ & R & _).
  rewrite !(R _ [empty_seq (ST_Multi entry_ty)] 0 (ST_Multi entry_ty) default_loc); try reflexivity; lia.
Qed.

Corollary builder_emit : forall entry_ty prog t cx tg p0,
  tree_of entry_ty prog = Some t ->
  flt_tree cx [] t KEntry = Ok tg ->
  exists ar st, run_builder entry_ty prog = Ok ar /\
    emit_body cx (S (size t)) ar 0 p0 = Ok st /\ out st = map snd tg /\ imap st = tag_positions cx p0 tg.
Proof.
  intros entry_ty prog t cx tg p0 Ht Hf.
  destruct (builder_den _ _ _ Ht) as (ar & Hr & HD).
  pose proof (WV.Proofs.Traversal.dfs_in_order_spec false ar t HD) as Hdfs.
  destruct (WV.Proofs.EmitFn.emit_body_spec cx ar t tg p0 _ HD Hdfs Hf) as (st & He & Ho & Hi).
  rewrite (tree_of_tsid _ _ _ Ht) in He. exists ar, st. auto.
Qed.

Lemma insert_at_spec {A} (l : list A) n x l' : insert_at l n x = Some l' ->
  nth_error l' n = Some x /\ length l' = S (length l) /\
  (forall k, (k < n)%nat -> nth_error l' k = nth_error l k) /\
  (forall k, (n <= k)%nat -> nth_error l' (S k) = nth_error l k).
Proof.
  intros H. destruct (insert_at_split _ _ _ _ H) as (l1 & l2 & -> & -> & <-). split; [|split; [|split]].
  - now apply nth_error_at.
  - rewrite !app_length. cbn [length]. lia.
  - intros k Hk. now rewrite !nth_error_app1 by exact Hk.
  - intros k Hk. rewrite !nth_error_app2 by lia. replace (S k - length l1)%nat with (S (k - length l1)) by lia. reflexivity.
Qed.
Lemma insert_at_in_range {A} (l : list A) n x : (n <= length l)%nat -> exists l', insert_at l n x = Some l'.
Proof.
  intros H. rewrite <- (firstn_skipn n l). eexists.
  replace n with (length (firstn n l)) at 3 by (apply firstn_length_le, H). apply insert_at_app.
Qed.
Lemma insert_at_out_of_range {A} (l : list A) n x : (length l < n)%nat -> insert_at l n x = None.
Proof.
  intros H. destruct (insert_at l n x) as [l'|] eqn:E; [|reflexivity].
  destruct (insert_at_split _ _ _ _ E) as (l1 & l2 & -> & _ & <-). rewrite app_length in H. lia.
Qed.

Theorem bspec_positional :
  (forall it items, put (Some (len_N items)) it items = put None it items) /\
  (forall A (l : list A) n x l', insert_at l n x = Some l' ->
     nth_error l' n = Some x /\ length l' = S (length l) /\
     (forall k, (k < n)%nat -> nth_error l' k = nth_error l k) /\
     (forall k, (n <= k)%nat -> nth_error l' (S k) = nth_error l k)).
Proof.
  split.
  - intros it items. cbn [put]. rewrite to_nat_len_N.
    rewrite <- (app_nil_r items) at 1. apply insert_at_app.
  - intros A l n x l'. apply insert_at_spec.
Qed.

Lemma nth_error_ext_eq {A} (l l' : list A) : (forall k, nth_error l k = nth_error l' k) -> l = l'.
Proof.
  revert l'. induction l as [|x l IH]; intros [|y l'] H.
  - reflexivity.
  - specialize (H O). discriminate.
  - specialize (H O). discriminate.
  - pose proof (H O) as H0. cbn in H0. injection H0 as ->. f_equal. apply IH. intros k. apply (H (S k)).
Qed.

(* two programs that put the same items at the same final positions denote the same tree:
   the result of [insert_at] is determined by the positional facts *)
Theorem insert_at_unique {A} (l : list A) n x l' l'' :
  insert_at l n x = Some l' ->
  nth_error l'' n = Some x -> length l'' = S (length l) ->
  (forall k, (k < n)%nat -> nth_error l'' k = nth_error l k) ->
  (forall k, (n <= k)%nat -> nth_error l'' (S k) = nth_error l k) -> l'' = l'.
Proof.
  intros H Hn Hl Hlo Hhi. destruct (insert_at_spec _ _ _ _ H) as (Hn' & Hl' & Hlo' & Hhi').
  apply nth_error_ext_eq. intros k. destruct (Nat.lt_trichotomy k n) as [Hk|[->|Hk]].
  - now rewrite Hlo, Hlo'.
  - now rewrite Hn, Hn'.
  - destruct k as [|k]; [lia|]. rewrite Hhi, Hhi' by lia. reflexivity.
Qed.

Fixpoint tree_ids (t : tree) : list N :=
  match t with T s _ items _ =>
    s :: (fix go (l : list (item * N)) : list N :=
            match l with [] => [] | x :: l' => item_ids (fst x) ++ go l' end) items
  end
with item_ids (it : item) : list N :=
  match it with
  | ItB t | ItL t => tree_ids t
  | ItI c a => tree_ids c ++ tree_ids a
  | _ => []
  end.
Definition items_ids (items : list (item * N)) : list N := flat_map (fun x => item_ids (fst x)) items.
Lemma tree_ids_T s ty items e : tree_ids (T s ty items e) = s :: items_ids items.
Proof. reflexivity. Qed.
Lemma items_ids_app a b : items_ids (a ++ b) = items_ids a ++ items_ids b.
Proof. apply flat_map_app. Qed.
Lemma nest_item_ids lp t : item_ids (nest_item lp t) = tree_ids t.
Proof. now destruct lp. Qed.

(* the ids n, n+1, .., n'-1 *)
Definition nrange (n n' : N) : list N := map N.of_nat (seq (N.to_nat n) (N.to_nat n' - N.to_nat n)).
Lemma nrange_nil n : nrange n n = [].
Proof. unfold nrange. now rewrite Nat.sub_diag. Qed.
Lemma nrange_app n m n' : n <= m -> m <= n' -> nrange n n' = nrange n m ++ nrange m n'.
Proof.
  intros H1 H2. unfold nrange. rewrite <- map_app. f_equal.
  replace (N.to_nat n' - N.to_nat n)%nat with ((N.to_nat m - N.to_nat n) + (N.to_nat n' - N.to_nat m))%nat by lia.
  rewrite seq_app. do 2 f_equal. lia.
Qed.
Lemma nrange_cons n n' : n < n' -> nrange n n' = n :: nrange (n + 1) n'.
Proof.
  intros H. unfold nrange.
  replace (N.to_nat n' - N.to_nat n)%nat with (S (N.to_nat n' - N.to_nat (n + 1)))%nat by lia.
  cbn [seq map]. rewrite N2Nat.id. do 3 f_equal. lia.
Qed.
Lemma In_nrange n n' i : In i (nrange n n') <-> n <= i < n'.
Proof.
  unfold nrange. rewrite in_map_iff. split.
  - intros (k & <- & Hk). apply in_seq in Hk. lia.
  - intros H. exists (N.to_nat i). split; [apply N2Nat.id|]. apply in_seq. lia.
Qed.
Lemma NoDup_nrange n n' : NoDup (nrange n n').
Proof.
  unfold nrange. generalize (seq_NoDup (N.to_nat n' - N.to_nat n) (N.to_nat n)).
  generalize (seq (N.to_nat n) (N.to_nat n' - N.to_nat n)). intros l Hl.
  induction Hl as [|x l Hx Hl IH]; cbn [map]; constructor; [|exact IH].
  rewrite in_map_iff. intros (y & Hy & Hin). apply Nat2N.inj in Hy. now subst.
Qed.

Lemma items_ids_put pos it items items1 : put pos it items = Some items1 ->
  Permutation (items_ids items1) (items_ids items ++ item_ids it).
Proof.
  intros H. destruct (put_split _ _ _ _ H) as (l1 & l2 & -> & ->).
  rewrite !items_ids_app. change (items_ids ((it, default_loc) :: l2)) with (item_ids it ++ items_ids l2).
  rewrite <- app_assoc. apply Permutation_app_head, Permutation_app_comm.
Qed.

(* the ids held before and after some calls: the old ones and the fresh range, each once *)
Definition IdsP (n : N) (S0 S1 : list N) (n1 : N) : Prop := n <= n1 /\ Permutation S1 (S0 ++ nrange n n1).
Lemma IdsP_refl n S0 : IdsP n S0 S0 n.
Proof. split; [lia|]. now rewrite nrange_nil, app_nil_r. Qed.
Lemma IdsP_trans n S0 n' S1 n1 S2 : IdsP n S0 S1 n' -> IdsP n' S1 S2 n1 -> IdsP n S0 S2 n1.
Proof.
  intros (M1 & P1) (M2 & P2). split; [lia|]. rewrite (nrange_app n n' n1 M1 M2), app_assoc.
  eapply Permutation_trans; [exact P2|]. apply Permutation_app_tail, P1.
Qed.
(* a sequence numbered [n] whose body took the ids from [n + 1] on *)
Lemma IdsP_nest n S0 S1 nb : IdsP (n + 1) S0 S1 nb -> n < nb /\ Permutation (n :: S1) (S0 ++ nrange n nb).
Proof. intros (M & P). split; [lia|]. rewrite (nrange_cons n nb) by lia. apply Permutation_cons_app, P. Qed.

Definition IdsR (n : N) (items items1 : list (item * N)) (n1 : N) : Prop :=
  IdsP n (items_ids items) (items_ids items1) n1.
Definition Iop (o : bop) : Prop := forall n items items1 n1,
  bspec_op o n items = Some (items1, n1) -> IdsR n items items1 n1.
Definition Il (ops : list bop) : Prop := forall n items items1 n1,
  bspec ops n items = Some (items1, n1) -> IdsR n items items1 n1.

(* the ids of a freshly built nested tree *)
Lemma nested_ids ty b n its nb : Il b -> bspec b (n + 1) [] = Some (its, nb) ->
  n < nb /\ Permutation (tree_ids (T n ty its default_loc)) (nrange n nb).
Proof. intros HI Hs. exact (IdsP_nest _ _ _ _ (HI _ _ _ _ Hs)). Qed.

Lemma block_like_ids lp pos ty b n items items1 n1 :
  Il b -> nest1_spec pos (nest_item lp) ty b n items = Some (items1, n1) -> IdsR n items items1 n1.
Proof.
  intros HI. unfold nest1_spec. destruct (bspec b (n + 1) []) as [[its nb]|] eqn:Eb; [|discriminate].
  destruct (put pos (nest_item lp (T n ty its default_loc)) items) as [l|] eqn:Ep; [|discriminate].
  cbn [option_map]. intros H. injection H as <- <-.
  destruct (nested_ids ty b n its nb HI Eb) as (M & P). split; [lia|].
  eapply Permutation_trans; [apply (items_ids_put _ _ _ _ Ep)|].
  apply Permutation_app_head. rewrite nest_item_ids. exact P.
Qed.

Lemma ifelse_like_ids pos ty c al n items items1 n1 :
  Il c -> Il al -> nest2_spec pos ty c al n items = Some (items1, n1) -> IdsR n items items1 n1.
Proof.
  intros HIc HIa. unfold nest2_spec. destruct (bspec c (n + 1) []) as [[ic nc]|] eqn:Ec; [|discriminate].
  destruct (bspec al (nc + 1) []) as [[ia na]|] eqn:Ea; [|discriminate].
  destruct (put pos (ItI (T n ty ic default_loc) (T nc ty ia default_loc)) items) as [l|] eqn:Ep; [|discriminate].
  cbn [option_map]. intros H. injection H as <- <-.
  destruct (nested_ids ty c n ic nc HIc Ec) as (Mc & Pc).
  destruct (nested_ids ty al nc ia na HIa Ea) as (Ma & Pa). split; [lia|].
  eapply Permutation_trans; [apply (items_ids_put _ _ _ _ Ep)|].
  apply Permutation_app_head. cbn [item_ids].
  rewrite (nrange_app n nc na) by lia. apply Permutation_app; assumption.
Qed.

Lemma leaf_ids pos i n items items1 n1 : leaf_spec pos i n items = Some (items1, n1) -> IdsR n items items1 n1.
Proof.
  unfold leaf_spec. destruct (item_of_instr i) as [it|] eqn:Ei; [|discriminate].
  destruct (put pos it items) as [l|] eqn:Ep; [|discriminate]. cbn [option_map]. intros H. injection H as <- <-.
  split; [lia|]. rewrite nrange_nil.
  eapply Permutation_trans; [apply (items_ids_put _ _ _ _ Ep)|].
  apply Permutation_app_head. destruct i; try discriminate; injection Ei as <-; constructor.
Qed.

Theorem ids_op_ops : (forall o, Iop o) /\ (forall ops, Il ops).
Proof.
  apply bop_list_ind.
  - intros n items items1 n1 Hs. injection Hs as <- <-. apply IdsP_refl.
  - intros o r Ho IH n items items1 n1 Hs. cbn [bspec] in Hs.
    destruct (bspec_op o n items) as [[i' n']|] eqn:Eo; [|discriminate].
    exact (IdsP_trans _ _ _ _ _ _ (Ho _ _ _ _ Eo) (IH _ _ _ _ Hs)).
  - intros o H n items items1 n1 Hs. rewrite bspec_op_eq in Hs. unfold sub_ok in H.
    destruct (shape o) as [pos i|pos lp ty b|pos ty c a|ty b].
    + apply (leaf_ids pos i), Hs.
    + apply (block_like_ids lp pos ty b); auto.
    + destruct H. apply (ifelse_like_ids pos ty c a); auto.
    + discriminate.
Qed.
Theorem ids_ops : forall ops, Il ops.
Proof. apply ids_op_ops. Qed.

(* the next free id only grows; the ids of the sequences created by the calls are exactly
   n .. n'-1 (each once); hence they lie in [n, n') and are pairwise distinct *)
Theorem builder_tree_ids : forall ops n items items' n',
  bspec ops n items = Some (items', n') ->
  n <= n' /\
  Permutation (items_ids items') (items_ids items ++ nrange n n') /\
  (forall i, In i (items_ids items') -> In i (items_ids items) \/ n <= i < n') /\
  (items = [] -> Forall (fun i => n <= i < n') (items_ids items') /\ NoDup (items_ids items')).
Proof.
  intros ops n items items' n' Hs. destruct (ids_ops ops _ _ _ _ Hs) as (M & P).
  split; [exact M|split; [exact P|split]].
  - intros i Hi. apply (Permutation_in _ P), in_app_or in Hi. destruct Hi as [Hi|Hi]; [now left|right].
    now apply In_nrange.
  - intros ->. cbn [items_ids flat_map app] in P. split.
    + apply Forall_forall. intros i Hi. apply In_nrange. apply (Permutation_in _ P Hi).
    + apply (Permutation_NoDup (Permutation_sym P)), NoDup_nrange.
Qed.

(* whole programs: the tree uses each id 0 .. n'-1 exactly once, and the arena the machine
   leaves has exactly these n' sequences (nothing dangling) *)
Theorem builder_den_ids : forall entry_ty prog t,
  tree_of entry_ty prog = Some t ->
  exists ar, run_builder entry_ty prog = Ok ar /\ Den ar t /\
    Permutation (tree_ids t) (nrange 0 (len_N ar)) /\ NoDup (tree_ids t).
Proof.
  intros entry_ty prog t Ht. destruct (builder_den _ _ _ Ht) as (ar & Hr & HD). exists ar.
  split; [exact Hr|split; [exact HD|]].
  revert Ht Hr. unfold tree_of, run_builder.
  destruct (bspec prog 1 []) as [[items n1]|] eqn:Es; [|discriminate]. intros [= <-] Hr.
  destruct (builder_ops prog _ _ _ _ Es) as (news & En & R & _).
  rewrite (R _ [empty_seq (ST_Multi entry_ty)] 0 (ST_Multi entry_ty) default_loc) in Hr; [|lia|reflexivity|reflexivity].
  injection Hr as <-. cbn [N.to_nat upd app]. rewrite len_N_cons, <- En.
  destruct (ids_ops prog _ _ _ _ Es) as (M & P). cbn [items_ids flat_map app] in P.
  assert (P' : Permutation (tree_ids (T 0 (ST_Multi entry_ty) items default_loc)) (nrange 0 n1)).
  { rewrite tree_ids_T, nrange_cons by lia. constructor. exact P. }
  split; [exact P'|]. apply (Permutation_NoDup (Permutation_sym P')), NoDup_nrange.
Qed.

Print Assumptions builder_den.
Print Assumptions run_builder_fuel.
Print Assumptions builder_emit.
Print Assumptions builder_tree_ids.
Print Assumptions builder_den_ids.
Print Assumptions bspec_positional.
