(* C01, END TO END: the whole-module semantic theorem of Proofs/SemMod.v composed with the module-level models of parse and emit
   (Model/ParseM.v, Model/EmitM.v), for section streams in the fragment of Model/SemModOf.v. *)
From Coq Require Import List NArith ZArith Bool Arith Lia Permutation.
Import ListNotations.
From WV Require Import Gen.Ops Model.Common Model.IR Model.Arena Model.Traversal Model.EmitFn Model.Locals
                       Model.ParseFn Model.ParseSpec Model.BodySpec Model.ModuleM Model.ParseM Model.EmitM Gen.Attrs
                       Model.Sem Model.SemCore Model.SemMod Model.SemModOf.
From WV Require Import Proofs.Arena Proofs.IndexMaps Proofs.Structure Proofs.Structure2 Proofs.Renumbering
                       Proofs.ParseTotal Proofs.TotalityBodies Proofs.ModFix Proofs.ModFix12 Proofs.ModFix15.
From WV Require Proofs.Codec Proofs.Names Proofs.Totality Proofs.ParsedWf Proofs.ModFix5 Proofs.ModFix10 Proofs.ModFix13 Proofs.ModFix41
                Proofs.Sigs2 Proofs.Sem Proofs.SemCore.
From WV Require Import Proofs.Sem Proofs.SemCore Proofs.SemMod.
Local Open Scope nat_scope.

(* the payload functions of Model/SemModOf.v are the ones of the proofs *)
Lemma p_types_eq w : flat_map p_types w = flat_map types_of w. Proof. reflexivity. Qed.
Lemma p_imports_eq w : flat_map p_imports w = flat_map imports_of w. Proof. reflexivity. Qed.
Lemma p_funcs_eq w : flat_map p_funcs w = flat_map funcs_of w. Proof. reflexivity. Qed.
Lemma p_code_eq w : flat_map p_code w = flat_map code_of w. Proof. reflexivity. Qed.
Lemma p_elems_eq w : flat_map p_elems w = flat_map elems_of w. Proof. reflexivity. Qed.

Lemma no_imports_Forall : forall w, flat_map imports_of w = [] -> Forall (fun sec => imports_of sec = []) w.
Proof.
  induction w as [|sec r IH]; intros H; [constructor|]. cbn [flat_map] in H. apply app_eq_nil in H. destruct H as [H1 H2].
  constructor; [exact H1|apply IH, H2].
Qed.
Lemma no_imports_sec_ftys w : flat_map imports_of w = [] -> flat_map sec_ftys w = flat_map funcs_of w.
Proof. intros H. apply WV.Proofs.ModFix41.no_imports_ftys, no_imports_Forall, H. Qed.

Lemma dw_nil : dw_custom []. Proof. intros s []. Qed.

(* a stream without imports parses to a module without imports *)
Lemma parsed_no_imports cf ver w s ilen e : parseM cf ver w = POk s -> emitM (ps_m s) ilen [] = Ok e ->
  flat_map imports_of w = [] -> live_imports (ps_m s) = [].
Proof.
  intros HP HE H0. pose proof (structure_counts _ _ _ _ _ _ _ HP HE) as C.
  destruct C as (_ & _ & _ & _ & _ & _ & _ & _ & C & _). rewrite H0 in C. cbn [length] in C.
  unfold live_imports, aiter, iter. destruct (items (m_imports (ps_m s))); [reflexivity|discriminate C].
Qed.
Lemma emitted_no_imports cf ver w s ilen e : parseM cf ver w = POk s -> emitM (ps_m s) ilen [] = Ok e ->
  flat_map imports_of w = [] -> flat_map imports_of (em_secs e) = [].
Proof.
  intros HP HE H0. pose proof (WV.Proofs.ModFix13.k13_imports_rt _ _ _ _ _ _ HP HE) as F. rewrite H0 in F.
  inversion F. reflexivity.
Qed.

(* the emit-time function map of a module without imports: the local functions in emission order *)
Lemma funcs_map_no_imports m ilen e : emitM m ilen [] = Ok e -> live_imports m = [] ->
  exists fs, used_local_functions m = Ok fs /\ xi_funcs (em_x2i e) = number (map fst fs).
Proof.
  intros HE H0. destruct (emitM_x2i _ _ _ _ HE) as (fs & Hfs & _ & Xf & _). exists fs. split; [exact Hfs|].
  rewrite Xf, H0. reflexivity.
Qed.

(* input function index -> output function index (no imports: arena id = input index); an index that has no
   emitted index (out of range) is left alone *)
Definition rf_of (x : x2i) (i : N) : N := match get_idx x S_func i with Ok j => j | _ => i end.

(* the k-th code entry [b], read as [flat_list l ++ [end]], through the two trips: [f] = [lf], of type [t], is the function the parser
   made of it, its locals named by the ids from [base] on; [ef] is the function the emitter made of that from its traversal log [evs].
   [Hout]: for [l] well formed in the parse context of function k, the emitted operators are those of [out_body cx ecx l] - the output
   body of Proofs/SemMod.v - at the output positions *)
Inductive fn_trip (s : pst) (e : emitted) (ilen : wins -> N) (w : wmod) (k : nat) (b : wbody) (l : list rt) (eloc : N) : Prop :=
| FnTrip f lf t ety ef evs base
    (Hg : aget (m_funcs (ps_m s)) (N.of_nat k) = Some f) (Hk : fn_kind f = FK_Local lf)
    (Ht : types_get (ps_m s) (lf_ty lf) = Some t) (Hen : lf_entry lf = 0%N)
    (Hpb : parse_body (cx_of s (N.of_nat k)) ety (ty_results t) (flat_list l ++ [(WEnd, eloc)]) = Ok (lf_arena lf))
    (Hargs : lf_args lf = map N.of_nat (seq base (length (ty_params t))))
    (Hlv : WV.Proofs.Names.locals_vec (ps_ids s) (N.of_nat k) =
             map N.of_nat (seq base (length (ty_params t) + length (expand_locals (wb_locals b)))))
    (Hj : get_idx (em_x2i e) S_func (N.of_nat k) = Ok (rf_of (em_x2i e) (N.of_nat k)))
    (Hjn : N.to_nat (rf_of (em_x2i e) (N.of_nat k)) < length (flat_map code_of w))
    (Hef : nth_error (em_fns e) (N.to_nat (rf_of (em_x2i e) (N.of_nat k))) = Some ef)
    (Hco : nth_error (flat_map code_of (em_secs e)) (N.to_nat (rf_of (em_x2i e) (N.of_nat k))) = Some (ef_body ef))
    (Hemit : emit_function (ps_m s) (em_x2i e) ilen (N.of_nat k) lf = Ok ef)
    (Hid : ef_id ef = N.of_nat k)
    (Hlog : lf_log lf = Ok evs)
    (Hel : emit_locals (local_ty_fn (ps_m s)) (lf_args lf) (used_of_log evs) = (wb_locals (ef_body ef), ef_lmap ef))
    (Hrefs : refs_ok (em_x2i e) (ef_lmap ef) evs = true)
    (Hout : wfl (cx_of s (N.of_nat k)) 1 l ->
            (exists pos eloc', wb_ops (ef_body ef) =
               flat_list (WV.Proofs.ModFix10.reloc (out_body (cx_of s (N.of_nat k)) (ecx_of e (ef_lmap ef) ilen) l) pos) ++ [(WEnd, eloc')]) /\
            map fst (wb_ops (ef_body ef)) = map fst (flat_list (out_body (cx_of s (N.of_nat k)) (ecx_of e (ef_lmap ef) ilen) l)) ++ [WEnd]).
(* [H : fn_trip s e ilen w k b l eloc] *)
Ltac fn_trip H := destruct H as [f lf t ety ef evs base Hg Hk Ht Hen Hpb Hargs Hlv Hj Hjn Hef Hco Hemit Hid Hlog Hel Hrefs Hout].

Section Bodies.
  Variables (cf : config) (ver : str) (w : wmod) (s : pst) (ilen : wins -> N) (e : emitted).
  Hypothesis V : valid_stream w.
  Hypothesis HP : parseM cf ver w = POk s.
  Hypothesis HE : emitM (ps_m s) ilen [] = Ok e.
  Hypothesis NI : flat_map imports_of w = [].
  Hypothesis LEN : length (flat_map funcs_of w) = length (flat_map code_of w).

  Lemma n_funcs : length (ii_funcs (ps_ids s)) = length (flat_map funcs_of w).
  Proof.
    pose proof (WV.Proofs.Sigs2.n_in_func_stream _ _ _ _ HP) as H. unfold n_in in H. cbn [ids_space] in H.
    rewrite H. f_equal. apply no_imports_sec_ftys, NI.
  Qed.

  (* local function k is emitted, at the index the function map gives it *)
  Lemma local_function_emitted k f lf : k < length (flat_map code_of w) ->
    aget (m_funcs (ps_m s)) (N.of_nat k) = Some f -> fn_kind f = FK_Local lf ->
    let j := rf_of (em_x2i e) (N.of_nat k) in
    exists ef, get_idx (em_x2i e) S_func (N.of_nat k) = Ok j /\ N.to_nat j < length (flat_map code_of w) /\
      nth_error (em_fns e) (N.to_nat j) = Some ef /\
      nth_error (flat_map code_of (em_secs e)) (N.to_nat j) = Some (ef_body ef) /\
      emit_function (ps_m s) (em_x2i e) ilen (N.of_nat k) lf = Ok ef.
  Proof.
    intros Hkl Hg Hk.
    destruct (WV.Proofs.Sigs2.parsed_funcs_all_emitted _ _ _ _ _ _ _ HP HE k) as (j & Hj & Hjn);
      rewrite (no_imports_sec_ftys _ NI), LEN in *; [exact Hkl|].
    replace (rf_of (em_x2i e) (N.of_nat k)) with j by (unfold rf_of; rewrite Hj; reflexivity). cbv zeta.
    destruct (funcs_map_no_imports _ _ _ HE (parsed_no_imports _ _ _ _ _ _ HP HE NI)) as (fs & Hfs & Xf).
    destruct (emit_code_payload _ _ _ _ HE Hfs) as (Hco & F & _).
    pose proof Hj as Hj'. unfold get_idx in Hj'. cbn [space_map] in Hj'. rewrite Xf in Hj'. apply lookup_number in Hj'.
    rewrite nth_error_map in Hj'. destruct (nth_error fs (N.to_nat j)) as [[pid plf]|] eqn:Hp; [|discriminate Hj'].
    cbn [option_map fst] in Hj'. injection Hj' as ->.
    destruct (ulf_in _ _ _ _ Hfs (nth_error_In _ _ Hp)) as (f0 & Hin & Hkf). apply WV.Proofs.Totality.aiter_aget in Hin.
    assert (plf = lf) by congruence. subst plf.
    destruct (Forall2_nth_l _ _ _ _ _ F Hp) as (ef & Hef & Hemit).
    exists ef. rewrite Hco, nth_error_map, Hef. auto 6.
  Qed.

  Lemma fn_trip_given k b l eloc : nth_error (flat_map code_of w) k = Some b -> wb_ops b = flat_list l ++ [(WEnd, eloc)] ->
    fn_trip s e ilen w k b l eloc.
  Proof.
    intros Hb Eops.
    assert (Hkl : k < length (flat_map code_of w)) by (apply nth_error_Some; congruence).
    destruct (parsed_function_body _ _ _ _ _ _ HP Hb) as (fid & f & lf & t & ety & Hfid & Hg & Hk & Ht & _ & Hen & Hpb & base & Hargs & Hlv).
    (* no imports: the arena id of the k-th local function is k *)
    assert (Efid : fid = N.of_nat k) by (apply N2Nat.inj; rewrite Hfid, n_funcs, LEN, Nat2N.id; lia). subst fid.
    destruct (local_function_emitted k f lf Hkl Hg Hk) as (ef & Hj & Hjn & Hef & Hco & Hemit).
    destruct (emit_function_inv _ _ _ _ _ _ Hemit) as (evs & decls & lmap & st & A1 & A2 & A3 & A4 & A5 & A6 & A7 & _).
    rewrite Hen in A4. rewrite Eops in Hpb. rewrite <- A7 in A2, A3, A4.
    apply (FnTrip s e ilen w k b l eloc f lf t ety ef evs base); try assumption.
    - rewrite A5. exact A2.
    - intros Hw.
      destruct (WV.Proofs.ModFix10.emitted_ops_structured (cx_of s (N.of_nat k)) (ecx_of e (ef_lmap ef) ilen) ety (ty_results t) l eloc 0%N (lf_arena lf) st (lf_fuel lf)
                  Hw (WV.Proofs.ModFix10.enc_ok_all _ _) Hpb A4) as (eloc1 & Hops & _ & Hm & _ & Hfst & _ & Hout).
      rewrite A5. cbn [wb_ops]. split.
      + eexists. exists eloc1. unfold out_body. exact Hops.
      + rewrite Hfst, Hout, Hm. unfold out_body. rewrite WV.Proofs.ModFix10.flat_ren. reflexivity.
  Qed.

  (* the reading [valid_stream] provides *)
  Theorem end_function_body : forall k b, nth_error (flat_map code_of w) k = Some b ->
    exists l eloc j ef f lf,
      wb_ops b = flat_list l ++ [(WEnd, eloc)] /\
      wfl (cx_of s (N.of_nat k)) 1 l /\
      aget (m_funcs (ps_m s)) (N.of_nat k) = Some f /\ fn_kind f = FK_Local lf /\
      get_idx (em_x2i e) S_func (N.of_nat k) = Ok j /\ N.to_nat j < length (flat_map code_of w) /\
      nth_error (em_fns e) (N.to_nat j) = Some ef /\
      nth_error (flat_map code_of (em_secs e)) (N.to_nat j) = Some (ef_body ef) /\
      emit_function (ps_m s) (em_x2i e) ilen (N.of_nat k) lf = Ok ef /\
      let cx := cx_of s (N.of_nat k) in
      let ecx := ecx_of e (ef_lmap ef) ilen in
      (exists pos eloc', wb_ops (ef_body ef) = flat_list (WV.Proofs.ModFix10.reloc (out_body cx ecx l) pos) ++ [(WEnd, eloc')]) /\
      map fst (wb_ops (ef_body ef)) = map fst (flat_list (out_body cx ecx l)) ++ [WEnd].
  Proof.
    intros k b Hb.
    destruct (valid_bodies_structured _ _ _ _ b (N.of_nat k) V HP (nth_error_In _ _ Hb)) as (l & eloc & Eops & _ & Hw).
    pose proof (fn_trip_given k b l eloc Hb Eops) as T. fn_trip T. destruct (Hout Hw) as [Hops Hfst].
    exists l, eloc, (rf_of (em_x2i e) (N.of_nat k)), ef, f, lf. auto 12.
  Qed.
End Bodies.

(* output function index -> identity (= input index): the emit-time function map read backwards *)
Definition fslot_of (x : x2i) : N -> N := slot_of (xi_funcs x).

Lemma slot_of_hit l j id : nth_error (map fst l) (N.to_nat j) = Some id -> slot_of l j = id.
Proof. intros H. unfold slot_of. apply nth_error_nth. exact H. Qed.
Lemma slot_of_miss l j : length l <= N.to_nat j -> slot_of l j = j.
Proof. intros H. unfold slot_of. apply nth_overflow. rewrite map_length. exact H. Qed.

Section Renumbering.
  Variables (cf : config) (ver : str) (w : wmod) (s : pst) (ilen : wins -> N) (e : emitted).
  Hypothesis HP : parseM cf ver w = POk s.
  Hypothesis HE : emitM (ps_m s) ilen [] = Ok e.
  Hypothesis NI : flat_map imports_of w = [].
  Let n := length (flat_map funcs_of w).
  Let x := em_x2i e.

  Lemma funcs_wf : wf_map (xi_funcs x).
  Proof. apply (parsed_wf_space _ _ _ _ _ _ _ S_func HP HE). discriminate. Qed.

  Lemma bij : length (out_ftys e) = n /\
         (forall i, i < n -> exists j, get_idx x S_func (N.of_nat i) = Ok j /\ N.to_nat j < n) /\
         (forall i i' j, get_idx x S_func (N.of_nat i) = Ok j -> get_idx x S_func (N.of_nat i') = Ok j -> i = i') /\
         (forall j, N.to_nat j < n -> exists i, i < n /\ get_idx x S_func (N.of_nat i) = Ok j) /\
         (forall i j, get_idx x S_func (N.of_nat i) = Ok j -> i < n).
  Proof.
    pose proof (WV.Proofs.Sigs2.func_renumbering_bijective _ _ _ _ _ _ _ HP HE dw_nil) as B. cbv zeta in B.
    rewrite (no_imports_sec_ftys _ NI) in B. exact B.
  Qed.

  Lemma funcs_len : length (xi_funcs x) = n.
  Proof.
    destruct bij as (B0 & _). rewrite (WV.Proofs.ModFix6.fn_out_ftys_length _ _ _ HE) in B0.
    unfold emitted_ids in B0. cbn [space_map] in B0. rewrite map_length in B0. exact B0.
  Qed.

  (* (ii): [rf_of x] maps [0, n) into [0, n), injectively and onto; it is the emitted index; outside [0, n) it is the identity;
     the slot map induced by the emit-time function map undoes it EVERYWHERE *)
  Theorem end_rf_in_range i : N.to_nat i < n -> get_idx x S_func i = Ok (rf_of x i) /\ N.to_nat (rf_of x i) < n.
  Proof.
    intros Hi. destruct bij as (_ & B1 & _). destruct (B1 _ Hi) as (j & Hj & Hjn). rewrite N2Nat.id in Hj.
    unfold rf_of. rewrite Hj. split; [reflexivity|exact Hjn].
  Qed.
  Theorem end_rf_out_of_range i : n <= N.to_nat i -> rf_of x i = i.
  Proof.
    intros Hi. unfold rf_of. destruct (get_idx x S_func i) as [j| |] eqn:Ej; try reflexivity.
    destruct bij as (_ & _ & _ & _ & B4). specialize (B4 (N.to_nat i) j). rewrite N2Nat.id in B4. specialize (B4 Ej). lia.
  Qed.
  Theorem end_rf_injective i i' : N.to_nat i < n -> N.to_nat i' < n -> rf_of x i = rf_of x i' -> i = i'.
  Proof.
    intros Hi Hi' E. destruct (end_rf_in_range i Hi) as [H1 _]. destruct (end_rf_in_range i' Hi') as [H2 _].
    rewrite <- E in H2. destruct bij as (_ & _ & B2 & _).
    apply N2Nat.inj. apply (B2 (N.to_nat i) (N.to_nat i') (rf_of x i)); rewrite N2Nat.id; assumption.
  Qed.
  Theorem end_rf_onto j : N.to_nat j < n -> exists i, N.to_nat i < n /\ rf_of x i = j.
  Proof.
    intros Hj. destruct bij as (_ & _ & _ & B3 & _). destruct (B3 j Hj) as (i & Hi & Ei).
    exists (N.of_nat i). rewrite Nat2N.id. split; [exact Hi|]. unfold rf_of. rewrite Ei. reflexivity.
  Qed.
  Theorem end_fslot_rf i : fslot_of x (rf_of x i) = i.
  Proof.
    destruct (Nat.lt_ge_cases (N.to_nat i) n) as [Hi|Hi].
    - destruct (end_rf_in_range i Hi) as [H1 _]. unfold fslot_of. apply slot_of_hit.
      apply (x2i_positions x S_func _ _ funcs_wf). exact H1.
    - rewrite (end_rf_out_of_range i Hi). unfold fslot_of. apply slot_of_miss. rewrite funcs_len. exact Hi.
  Qed.
End Renumbering.

Lemma Forall2_get_idx_rf x : forall fs fs', Forall2 (fun f f' => get_idx x S_func f = Ok f') fs fs' -> fs' = map (rf_of x) fs.
Proof.
  induction 1 as [|f f' fs fs' H _ IH]; [reflexivity|]. cbn [map]. rewrite IH. f_equal. unfold rf_of. rewrite H. reflexivity.
Qed.

Theorem end_table cf ver w s ilen e tbl : valid_stream w -> parseM cf ver w = POk s -> emitM (ps_m s) ilen [] = Ok e ->
  table_of_elems (flat_map elems_of w) = Some tbl ->
  table_of_elems (flat_map elems_of (em_secs e)) = Some (map (option_map (rf_of (em_x2i e))) tbl).
Proof.
  intros V HP HE HT. destruct (flat_map elems_of w) as [|el [|el2 r]] eqn:Ew; cbn [table_of_elems] in HT.
  - injection HT as <-. rewrite (WV.Proofs.ModFix5.sg_elems_empty _ _ _ _ _ _ HP HE Ew). reflexivity.
  - destruct (structure_elems_gen _ _ _ _ _ _ _ HP HE) as (es & Hin & F); [rewrite Ew; discriminate|].
    rewrite Ew in F. inversion F as [|a b la lb Hab Hr]; subst. inversion Hr; subst. clear F Hr.
    rewrite (WV.Proofs.ModFix5.sg_once_payload elems_of 8 _ (S_Elems [b]));
      [|exact (WV.Proofs.ModFix5.sg_stream_wf _ _ _ HE)|lia| |exact Hin|reflexivity].
    2:{ intros [] Hs; try reflexivity. discriminate. }
    cbn [elems_of table_of_elems]. unfold elem_rt in Hab. destruct Hab as [Hk Hi].
    destruct (wel_kind el) as [| |t off]; try discriminate HT. destruct off as [z| | | | | | | |]; try discriminate HT.
    destruct z; try discriminate HT. destruct (wel_items el) as [fs|rt0 es0]; [|discriminate HT].
    destruct (table0 t) eqn:Et; [|discriminate HT]. injection HT as <-.
    destruct (wel_kind b) as [| |t' off']; try contradiction. destruct Hk as [(ti & Hti & Et') Ho].
    cbn [ren_const] in Ho. subst off'.
    destruct (wel_items b) as [fs'|rt1 es1]; [|contradiction].
    assert (Ht0 : (match t with Some t0 => t0 | None => 0 end = 0)%N).
    { destruct t as [t0|]; [|reflexivity]. cbn [table0] in Et. apply N.eqb_eq, Et. }
    rewrite Ht0 in Hti.
    assert (Hti0 : ti = 0%N).
    { assert (Hin0 : In 0%N (emitted_ids e S_table)).
      { unfold get_idx in Hti. apply WV.Proofs.SortKeys.lookup_i_in in Hti. unfold emitted_ids. apply in_map_iff.
        exists (0%N, ti). split; [reflexivity|exact Hti]. }
      apply (emitted_full _ _ _ _ _ _ _ HP HE S_table) in Hin0; try discriminate.
      pose proof (rho_tmg_identity_valid _ _ _ _ _ _ _ S_table HP HE (or_introl eq_refl) V 0%N Hin0) as R.
      unfold WV.Proofs.Structure.rho in R. rewrite (ids_space_n _ _ _ _ HP S_table) in R by discriminate.
      rewrite iota_nth in R by exact Hin0. cbn [N.to_nat N.of_nat] in R. congruence. }
    subst ti. cbn [N.eqb] in Et'. subst t'. cbn [table0].
    rewrite (Forall2_get_idx_rf _ _ _ Hi), !map_map. reflexivity.
  - discriminate HT.
Qed.

Lemma id2i_fun_get x lmap S id j : S <> S_local -> get_idx x S id = Ok j -> id2i_fun x lmap S id = j.
Proof.
  intros HS H. unfold get_idx, lookup_i in H. unfold id2i_fun.
  destruct S; try congruence; destruct (find _ _) as [p|]; try discriminate H; injection H as <-; reflexivity.
Qed.

Section EndTypes.
  Variables (cf : config) (ver : str) (w : wmod) (s : pst) (ilen : wins -> N) (e : emitted).
  Hypothesis HP : parseM cf ver w = POk s.
  Hypothesis HE : emitM (ps_m s) ilen [] = Ok e.
  (* fewer than 2^32 - 1 types in the arena: the "no such index" marker 0xFFFF_FFFF of the index maps is not an id *)
  Hypothesis SMALL : (N.of_nat (length (types_list (ps_m s))) <= 4294967295)%N.
  Let T := flat_map types_of w.
  Let T' := out_types e.
  Variables (fid : N) (lmap : list (N * N)).
  Let cx := cx_of s fid.
  Let ecx := ecx_of e lmap ilen.

  Lemma type_at i t : nth_error T (N.to_nat i) = Some t ->
    exists id ty, px_i2id cx S_type i = id /\ types_get (ps_m s) id = Some ty /\ ty_sig ty t /\
                  nth_N (px_types cx) id = Some (fst t, snd t, false).
  Proof.
    intros Hi. destruct (type_denotes _ _ _ _ HP i t Hi) as (id & ty & H1 & H2 & H3 & H4).
    exists id, ty. split; [cbn; apply nth_error_nth; exact H1|]. split; [exact H4|]. split; [exact H3|].
    cbn [cx cx_of px_types]. unfold nth_N, types_list. rewrite nth_error_map, H2. cbn [option_map].
    destruct H3 as (-> & -> & ->). reflexivity.
  Qed.

  (* a live non-entry type has an emitted index, where the output type section has its signature *)
  Lemma type_emitted id ty : types_get (ps_m s) id = Some ty -> ty_entry ty = false ->
    exists j, get_idx (em_x2i e) S_type id = Ok j /\ nth_error T' (N.to_nat j) = Some (ty_params ty, ty_results ty).
  Proof.
    intros Hg He. pose proof (WV.Proofs.Totality.emitted_types_In _ _ _ Hg He) as Hin.
    destruct (emit_order_types _ _ _ _ HE) as [Eo Wt]. rewrite <- Eo in Hin.
    apply In_nth_error in Hin. destruct Hin as [k Hk].
    assert (Hj : get_idx (em_x2i e) S_type id = Ok (N.of_nat k)).
    { apply (x2i_positions _ S_type _ _ Wt). rewrite Nat2N.id. exact Hk. }
    exists (N.of_nat k). split; [exact Hj|].
    destruct (emit_type_decl _ _ _ _ HE dw_nil _ _ Hj) as (ty' & H2 & HO).
    unfold types_get in Hg. rewrite aset_index_nodead in Hg by (apply (proj1 (WV.Proofs.ParsedWf.parseM_types_wf _ _ _ _ HP))).
    rewrite Hg in H2. injection H2 as <-. exact HO.
  Qed.

  (* type index i of the input and its renumbering name the same signature *)
  Theorem end_type_renumbered i t : nth_error T (N.to_nat i) = Some t -> nth_error T' (N.to_nat (rty cx ecx i)) = Some t.
  Proof.
    intros Hi. destruct (type_at i t Hi) as (id & ty & Eid & Hg & (S1 & S2 & S3) & _).
    destruct (type_emitted id ty Hg S3) as (j & Hj & Ho).
    unfold rty. rewrite Eid. cbn [ecx ecx_of ex_id2i]. rewrite (id2i_fun_get (em_x2i e) lmap S_type id j ltac:(discriminate) Hj), Ho, S1, S2.
    destruct t; reflexivity.
  Qed.

  (* the three block-type hypotheses of [fn_ok] *)
  Theorem end_ok_tys i : nth_optN i T = bt_tys cx (BT_Func i).
  Proof.
    rewrite nth_optN_nth_error. cbn [bt_tys]. destruct (nth_error T (N.to_nat i)) as [t|] eqn:Et.
    - destruct (type_at i t Et) as (id & ty & Eid & _ & _ & Hn). rewrite Eid, Hn. destruct t; reflexivity.
    - assert (Eid : px_i2id cx S_type i = 4294967295%N).
      { cbn. apply nth_overflow. destruct (parseM_sigs _ _ _ _ HP) as [[HL _] _]. rewrite HL. apply nth_error_None. exact Et. }
      rewrite Eid. assert (Hn : nth_N (px_types cx) 4294967295%N = None).
      { unfold nth_N. apply nth_error_None. cbn [cx cx_of px_types]. lia. }
      rewrite Hn. reflexivity.
  Qed.
  Theorem end_ok_existing i ps rs : nth_optN i T = Some (ps, rs) -> existing cx ps rs <> None.
  Proof.
    rewrite nth_optN_nth_error. intros Hi. destruct (type_at i _ Hi) as (id & ty & _ & _ & _ & Hn). cbn [fst snd] in Hn.
    assert (Hft : find_type cx ps rs <> None).
    { unfold find_type. apply (find_type_from_found _ 0%N (N.to_nat id)). exact Hn. }
    unfold existing. destruct ps as [|p ps]; [destruct rs as [|r [|r' rs]]|]; try discriminate;
      destruct (find_type cx _ _); try discriminate; now elim Hft.
  Qed.
  Theorem end_ok_tys' ps rs ty : find_type cx ps rs = Some ty -> nth_optN (ex_id2i ecx S_type ty) T' = Some (ps, rs).
  Proof.
    intros H. unfold find_type in H. destruct (WV.Proofs.Fixpoint.find_type_from_hit _ _ _ _ _ H) as (p & r & Hn & _ & Hp & Hr).
    rewrite N.sub_0_r in Hn. apply vlist_eqb_true in Hp, Hr. subst p r.
    cbn [cx cx_of px_types] in Hn. unfold types_list in Hn. rewrite nth_error_map in Hn.
    destruct (nth_error (items (Arena.arena (m_types (ps_m s)))) (N.to_nat ty)) as [mt|] eqn:Emt; [|discriminate Hn].
    cbn [option_map] in Hn. injection Hn as E1 E2 E3.
    assert (Hg : types_get (ps_m s) ty = Some mt).
    { unfold types_get. rewrite aset_index_nodead by (apply (proj1 (WV.Proofs.ParsedWf.parseM_types_wf _ _ _ _ HP))). exact Emt. }
    destruct (type_emitted ty mt Hg E3) as (j & Hj & Ho).
    cbn [ecx ecx_of ex_id2i]. rewrite (id2i_fun_get (em_x2i e) lmap S_type ty j ltac:(discriminate) Hj), nth_optN_nth_error, Ho, E1, E2. reflexivity.
  Qed.
End EndTypes.

(* the signature of every function is preserved: the type index the output declares for function (rf i) names the signature
   the input's type index names *)
Theorem end_function_signature cf ver w s ilen e : parseM cf ver w = POk s -> emitM (ps_m s) ilen [] = Ok e ->
  flat_map imports_of w = [] ->
  forall i ti, nth_error (flat_map funcs_of w) i = Some ti ->
    exists tj, nth_error (out_ftys e) (N.to_nat (rf_of (em_x2i e) (N.of_nat i))) = Some tj /\
               nth_optN tj (out_types e) = nth_optN ti (flat_map types_of w) /\ nth_optN ti (flat_map types_of w) <> None.
Proof.
  intros HP HE NI i ti Hi. rewrite <- (no_imports_sec_ftys _ NI) in Hi.
  destruct (WV.Proofs.Sigs2.structure_func_sigs_unconditional _ _ _ _ _ _ _ HP HE dw_nil i ti Hi) as (t & j & tj & H1 & H2 & H3 & H4).
  exists tj. unfold rf_of. rewrite H2. split; [exact H3|]. rewrite !nth_optN_nth_error, H1, H4. split; [reflexivity|discriminate].
Qed.

Definition body_at (m : cmod) (i : N) : list rt := match nth_optN i (cm_funcs m) with Some d => fd_body d | None => [] end.
(* the emit-time local map of input function i: the one recorded for the function emitted at index rf i *)
Definition lmap_at (e : emitted) (i : N) : list (N * N) :=
  match nth_error (em_fns e) (N.to_nat (rf_of (em_x2i e) i)) with Some ef => ef_lmap ef | None => [] end.
Definition ecxo_of (e : emitted) (ilen : wins -> N) (i : N) : ectx := ecx_of e (lmap_at e i) ilen.
Definition out_fn (s : pst) (e : emitted) (ilen : wins -> N) (m : cmod) (p : N * emitted_fn) : fdef :=
  (fst p, expand_locals (wb_locals (ef_body (snd p))),
   out_body (cx_of s (ef_id (snd p))) (ecx_of e (ef_lmap (snd p)) ilen) (body_at m (ef_id (snd p)))).
Definition out_cmod (s : pst) (e : emitted) (ilen : wins -> N) (m : cmod) : cmod :=
  {| cm_tys := out_types e;
     cm_funcs := map (out_fn s e ilen m) (combine (out_ftys e) (em_fns e));
     cm_table := map (option_map (rf_of (em_x2i e))) (cm_table m) |}.

(* what is asked of the operators of the LIVE part of a body, beyond [valid_stream]: the index immediates are in range (the
   real validator guarantees it, the model's [valid_stream] does not), memory offsets below 2^32 (finding: walrus keeps the
   offset mod 2^32), decodable in every context (the model's [valid_stream] states it of every operator: [swf]) *)
Definition op_ok_end (s : pst) (o : wop) : Prop :=
  offset_ok o = true /\ (forall f, decode_plain f o <> None) /\
  (forall i, global_index_of o = Some i -> N.to_nat i < n_in s S_global) /\
  (forall i, memory_index_of o = Some i -> N.to_nat i < n_in s S_memory) /\
  (forall f, o = W_Call f -> N.to_nat f < n_in s S_func) /\
  (forall ti tb, o = W_CallIndirect ti tb -> N.to_nat ti < n_in s S_type /\ N.to_nat tb < n_in s S_table).

Lemma Forall2_by_nth {A B} (R : A -> B -> Prop) : forall l1 l2, length l1 = length l2 ->
  (forall k a b, nth_error l1 k = Some a -> nth_error l2 k = Some b -> R a b) -> Forall2 R l1 l2.
Proof.
  induction l1 as [|a l1 IH]; intros [|b l2] HL H; cbn [length] in HL; try discriminate; constructor.
  - apply (H 0); reflexivity.
  - apply IH; [lia|]. intros k a' b' Ha Hb. apply (H (S k)); assumption.
Qed.

Section Compose.
  Variables (cf : config) (ver : str) (w : wmod) (s : pst) (ilen : wins -> N) (e : emitted) (m : cmod).
  Hypothesis V : valid_stream w.
  Hypothesis HP : parseM cf ver w = POk s.
  Hypothesis HE : emitM (ps_m s) ilen [] = Ok e.
  Hypothesis HM : stream_has_cmod w m.
  Hypothesis SMALL : (N.of_nat (length (types_list (ps_m s))) <= 4294967295)%N.
  (* the bodies of m are well formed in their parse contexts: what Proofs/ModFix12.v [valid_bodies_structured] derives from [valid_stream]
     for SOME structured reading l of each code entry; transferring it to the body of m needs the injectivity of [flat_list] (Proofs/SemModEnd2.v [end_WF]) *)
  Hypothesis WF : forall i d, nth_error (cm_funcs m) i = Some d -> wfl (cx_of s (N.of_nat i)) 1 (fd_body d).
  Hypothesis OPS : forall i d o, nth_error (cm_funcs m) i = Some d -> In o (ops_of (live (fd_body d))) -> op_ok_end s o.

  Let x := em_x2i e.
  Let n := length (cm_funcs m).
  Let m' := out_cmod s e ilen m.

  Lemma hm_parts : flat_map imports_of w = [] /\ cm_tys m = flat_map types_of w /\
    map fd_ty (cm_funcs m) = flat_map funcs_of w /\ Forall2 body_is (cm_funcs m) (flat_map code_of w) /\
    table_of_elems (flat_map elems_of w) = Some (cm_table m).
  Proof. exact HM. Qed.
  Lemma n_is : n = length (flat_map funcs_of w) /\ n = length (flat_map code_of w).
  Proof.
    destruct hm_parts as (_ & _ & F & F2 & _). split.
    - rewrite <- F, map_length. reflexivity.
    - eapply Forall2_length. exact F2.
  Qed.
  Lemma NI : flat_map imports_of w = []. Proof. apply hm_parts. Qed.
  Lemma LEN : length (flat_map funcs_of w) = length (flat_map code_of w).
  Proof. destruct n_is as [A B]. congruence. Qed.

  Lemma fn_ty_at i d : nth_error (cm_funcs m) i = Some d -> nth_error (flat_map funcs_of w) i = Some (fd_ty d).
  Proof. intros Hd. destruct hm_parts as (_ & _ & <- & _). rewrite nth_error_map, Hd. reflexivity. Qed.

  (* every output index below n is the image of the index of a function of m *)
  Lemma rf_onto_fn j : N.to_nat j < n -> exists i d, nth_error (cm_funcs m) (N.to_nat i) = Some d /\ rf_of x i = j.
  Proof.
    intros Hj. destruct n_is as [N1 _]. rewrite N1 in Hj.
    destruct (end_rf_onto _ _ _ _ _ _ HP HE NI _ Hj) as (i & Hi & Erf). rewrite <- N1 in Hi. exists i.
    destruct (nth_error (cm_funcs m) (N.to_nat i)) as [d|] eqn:Hd; [exists d; auto|apply nth_error_None in Hd; unfold n in Hi; lia].
  Qed.

  (* function i of m through the two trips *)
  Lemma fn_trip_at i ti ls body : nth_error (cm_funcs m) i = Some (ti, ls, body) ->
    exists b eloc, nth_error (flat_map code_of w) i = Some b /\ ls = expand_locals (wb_locals b) /\ fn_trip s e ilen w i b body eloc.
  Proof.
    intros Hd. destruct hm_parts as (_ & _ & _ & F2 & _).
    destruct (Forall2_nth_l _ _ _ _ _ F2 Hd) as (b & Hb & (Hls & eloc & Eops)).
    exists b, eloc. split; [exact Hb|]. split; [exact Hls|]. exact (fn_trip_given _ _ _ _ _ _ HP HE NI LEN i b body eloc Hb Eops).
  Qed.

  Lemma fns_len : length (em_fns e) = n /\ length (out_ftys e) = n /\ flat_map code_of (em_secs e) = map ef_body (em_fns e).
  Proof.
    pose proof (parsed_no_imports _ _ _ _ _ _ HP HE NI) as LI.
    destruct (funcs_map_no_imports _ _ _ HE LI) as (fs & Hfs & Xf).
    destruct (emit_code_payload _ _ _ _ HE Hfs) as (Hco & F & Hids & Hlen).
    pose proof (funcs_len _ _ _ _ _ _ HP HE NI) as FL. rewrite Xf in FL. unfold number in FL.
    rewrite combine_length, iota_length, Nat.min_id, map_length in FL.
    destruct (bij _ _ _ _ _ _ HP HE NI) as (B0 & _). destruct n_is as [N1 _].
    split; [pose proof F as FL2; apply Forall2_length in FL2; congruence|]. split; [congruence|exact Hco].
  Qed.

  (* the function at output index j *)
  Lemma out_fn_at i d : nth_error (cm_funcs m) i = Some d ->
    exists tj ef, nth_error (em_fns e) (N.to_nat (rf_of x (N.of_nat i))) = Some ef /\
      nth_error (out_ftys e) (N.to_nat (rf_of x (N.of_nat i))) = Some tj /\
      nth_optN tj (out_types e) = nth_optN (fd_ty d) (cm_tys m) /\
      lmap_at e (N.of_nat i) = ef_lmap ef /\
      nth_optN (rf_of x (N.of_nat i)) (cm_funcs m') =
        Some (tj, expand_locals (wb_locals (ef_body ef)),
              out_body (cx_of s (N.of_nat i)) (ecxo_of e ilen (N.of_nat i)) (fd_body d)).
  Proof.
    intros Hd. destruct d as [[ti ls] body]. destruct (fn_trip_at i ti ls body Hd) as (b & eloc & _ & _ & T). fn_trip T.
    destruct hm_parts as (_ & TY & _).
    destruct (end_function_signature _ _ _ _ _ _ HP HE NI i _ (fn_ty_at _ _ Hd)) as (tj & Htj & Hsig & _).
    exists tj, ef. split; [exact Hef|]. split; [exact Htj|]. split; [rewrite TY; exact Hsig|].
    assert (HL : lmap_at e (N.of_nat i) = ef_lmap ef) by (unfold lmap_at; rewrite Hef; reflexivity).
    split; [exact HL|].
    rewrite nth_optN_nth_error. unfold m'; cbn [out_cmod cm_funcs]. rewrite nth_error_map. unfold x in *. rewrite (WV.Proofs.ModFix41.nth_error_combine _ _ _ _ _ Htj Hef).
    cbn [option_map]. unfold out_fn, ecxo_of. cbn [fst snd]. rewrite Hid, HL. unfold body_at.
    rewrite nth_optN_nth_error, Nat2N.id, Hd. reflexivity.
  Qed.

  Theorem end_out_stream_has_cmod : stream_has_cmod_ops (em_secs e) m'.
  Proof.
    destruct fns_len as (L1 & L2 & Eco).
    pose proof (emitted_no_imports _ _ _ _ _ _ HP HE NI) as NI'.
    split; [exact NI'|]. split; [reflexivity|]. split; [|split].
    - unfold m'; cbn [out_cmod cm_funcs]. rewrite map_map. change (flat_map p_funcs (em_secs e)) with (flat_map funcs_of (em_secs e)).
      rewrite <- (no_imports_sec_ftys _ NI'). fold (out_ftys e).
      erewrite map_ext; [apply WV.Proofs.ModFix10.mfc; congruence|]. intros [a b]. reflexivity.
    - change (flat_map p_code (em_secs e)) with (flat_map code_of (em_secs e)). rewrite Eco.
      apply Forall2_by_nth.
      { unfold m'; cbn [out_cmod cm_funcs]. rewrite !map_length, combine_length. lia. }
      intros j a b' Ha Hb'. unfold m' in Ha; cbn [out_cmod cm_funcs] in Ha. rewrite nth_error_map in Ha, Hb'.
      assert (Hlt : N.to_nat (N.of_nat j) < n).
      { rewrite Nat2N.id, <- L1. apply nth_error_Some. intros C. rewrite C in Hb'. discriminate Hb'. }
      destruct (rf_onto_fn _ Hlt) as (i & [[ti ls] body] & Hd & Erf). rewrite Nat2N.id in Hlt.
      destruct (fn_trip_at _ _ _ _ Hd) as (b & eloc & _ & _ & T). fn_trip T. pose proof (WF _ _ Hd) as Hw.
      rewrite N2Nat.id in *. unfold x in Erf. rewrite Erf, Nat2N.id in Hef.
      rewrite Hef in Hb'. injection Hb' as <-.
      destruct (nth_error (out_ftys e) j) as [tj|] eqn:Htj; [|apply nth_error_None in Htj; lia].
      rewrite (WV.Proofs.ModFix41.nth_error_combine _ _ _ _ _ Htj Hef) in Ha. injection Ha as <-.
      split; [reflexivity|]. unfold fd_body, out_fn. cbn [fst snd].
      rewrite Hid. unfold body_at. rewrite nth_optN_nth_error, Hd. exact (proj2 (Hout Hw)).
    - change (flat_map p_elems (em_secs e)) with (flat_map elems_of (em_secs e)).
      apply (end_table _ _ _ _ _ _ _ V HP HE). apply hm_parts.
  Qed.

  (* the renumberings of the emit context, on indices in range *)
  Lemma i2id_space fid S i : S <> S_local -> i2id_fun (ps_ids s) fid S i = nth (N.to_nat i) (ids_space (ps_ids s) S) 4294967295%N.
  Proof. intros HS. destruct S; try reflexivity. congruence. Qed.
  Lemma i2id_in_range fid S i : S <> S_type -> S <> S_local -> N.to_nat i < n_in s S -> i2id_fun (ps_ids s) fid S i = i.
  Proof.
    intros HT HL Hi. rewrite (i2id_space fid S i HL), (ids_space_n _ _ _ _ HP S HT HL). apply nth_error_nth.
    rewrite iota_nth by exact Hi. rewrite N2Nat.id. reflexivity.
  Qed.
  Lemma tmg_ident S i fid lmap : tmg S -> N.to_nat i < n_in s S -> id2i_fun x lmap S (i2id_fun (ps_ids s) fid S i) = i.
  Proof.
    intros HS Hi. assert (HT : S <> S_type) by (destruct HS as [->|[->| ->]]; discriminate).
    assert (HL : S <> S_local) by (destruct HS as [->|[->| ->]]; discriminate).
    rewrite (i2id_in_range fid S i HT HL Hi).
    pose proof (rho_tmg_identity_valid _ _ _ _ _ _ _ S HP HE HS V i Hi) as R.
    unfold WV.Proofs.Structure.rho in R. rewrite (ids_space_n _ _ _ _ HP S HT HL), iota_nth in R by exact Hi.
    rewrite N2Nat.id in R. apply (id2i_fun_get _ _ _ _ _ HL R).
  Qed.
  Lemma n_in_funcs : n_in s S_func = n.
  Proof. unfold n_in. cbn [ids_space]. rewrite (n_funcs _ _ _ _ HP NI). destruct n_is as [-> _]. reflexivity. Qed.
  Lemma func_ident f fid lmap : N.to_nat f < n -> id2i_fun x lmap S_func (i2id_fun (ps_ids s) fid S_func f) = rf_of x f.
  Proof.
    intros Hf. rewrite i2id_in_range; try discriminate; [|rewrite n_in_funcs; exact Hf].
    destruct n_is as [N1 _]. rewrite N1 in Hf. destruct (end_rf_in_range _ _ _ _ _ _ HP HE NI f Hf) as [H _].
    apply (id2i_fun_get x lmap S_func f (rf_of x f) ltac:(discriminate) H).
  Qed.

  (* the composition.  Input side: identity slot maps.  Output side: the function slot map is the emit-time function map read
     backwards ([fslot_of]); globals / memories / tables: identity (streams in section order); the local slot maps [lslot'] are a
     parameter constrained by [H_locals] *)
  Variable lslot' : N -> N -> N.
  Let E := env_of m (fun _ => idN) idN idN idN idN.
  Let E' := env_of m' lslot' (fslot_of x) idN idN idN.
  (* the remaining hypothesis: on the locals the live part of body i mentions, lslot' undoes the local renumbering of
     function i, and the frames agree *)
  Hypothesis H_locals : forall i ti ls body ti' ls' b', nth_error (cm_funcs m) i = Some (ti, ls, body) ->
    nth_optN (rf_of x (N.of_nat i)) (cm_funcs m') = Some (ti', ls', b') ->
    (forall j, In j (locals_used (live body)) ->
       lslot' (N.of_nat i) (rl (cx_of s (N.of_nat i)) (ecxo_of e ilen (N.of_nat i)) j) = j) /\
    frames_agree E E' (N.of_nat i) ti ls ls' body.

  Lemma used_op {A} (f : wop -> option A) l i :
    In i (flat_map (fun o => match f o with Some i => [i] | None => [] end) (ops_of l)) -> exists o, In o (ops_of l) /\ f o = Some i.
  Proof.
    intros H. apply in_flat_map in H. destruct H as (o & Ho & Hi). exists o. split; [exact Ho|].
    destruct (f o) as [i'|]; [destruct Hi as [->|[]]; reflexivity|destruct Hi].
  Qed.

  Lemma end_fn_ok i ti ls body ti' ls' b' : nth_error (cm_funcs m) i = Some (ti, ls, body) ->
    nth_optN (rf_of x (N.of_nat i)) (cm_funcs m') = Some (ti', ls', b') ->
    fn_ok E E' (cx_of s) (ecxo_of e ilen) (idN (N.of_nat i)) body.
  Proof.
    intros Hd Hd'. destruct (H_locals _ _ _ _ _ _ _ Hd Hd') as [HL _].
    pose proof (fun o Ho => OPS i _ o Hd Ho) as HO. cbn [fd_body snd] in HO.
    destruct hm_parts as (_ & TY & _).
    unfold idN. constructor; unfold E, E'; cbn [env_of me_lslot me_gslot me_mslot me_fslot me_tslot me_tys].
    - exact HL.
    - intros g Hg. apply used_op in Hg. destruct Hg as (o & Ho & Hg). destruct (HO o Ho) as (_ & _ & R & _).
      unfold idN, rg. cbn [cx_of ecxo_of ecx_of px_i2id ex_id2i]. apply tmg_ident; [right; right; reflexivity|apply R, Hg].
    - intros g Hg. apply used_op in Hg. destruct Hg as (o & Ho & Hg). destruct (HO o Ho) as (_ & _ & _ & R & _).
      unfold idN, rm. cbn [cx_of ecxo_of ecx_of px_i2id ex_id2i]. apply tmg_ident; [right; left; reflexivity|apply R, Hg].
    - intros f Hf. destruct (HO _ Hf) as (_ & _ & _ & _ & R & _). specialize (R f eq_refl). rewrite n_in_funcs in R.
      unfold idN, rfn. cbn [cx_of ecxo_of ecx_of px_i2id ex_id2i]. rewrite (func_ident f _ _ R).
      apply (end_fslot_rf _ _ _ _ _ _ HP HE NI).
    - intros t tb Hc. destruct (HO _ Hc) as (_ & _ & _ & _ & _ & R). destruct (R t tb eq_refl) as [_ R2].
      unfold idN, rtb. cbn [cx_of ecxo_of ecx_of px_i2id ex_id2i]. apply tmg_ident; [left; reflexivity|exact R2].
    - intros t tb Hc. destruct (HO _ Hc) as (_ & _ & _ & _ & _ & R). destruct (R t tb eq_refl) as [R1 _].
      unfold m'. cbn [out_cmod cm_tys]. rewrite TY, !nth_optN_nth_error.
      destruct (n_in_stream _ _ _ _ HP) as (_ & _ & _ & NT). rewrite NT in R1.
      destruct (nth_error (flat_map types_of w) (N.to_nat t)) as [sg|] eqn:Et; [|apply nth_error_None in Et; lia].
      apply (end_type_renumbered _ _ _ _ _ _ HP HE). exact Et.
    - intros t. rewrite TY. apply (end_ok_tys _ _ _ _ HP SMALL).
    - intros t ps rs. rewrite TY. apply (end_ok_existing _ _ _ _ HP).
    - intros ps rs t Ht. unfold m'. cbn [out_cmod cm_tys]. apply (end_ok_tys' _ _ _ _ _ _ HP HE _ _ _ _ _ Ht).
    - intros o Ho. apply (HO o Ho).
    - intros o Ho. apply (HO o Ho).
  Qed.

  Theorem end_to_end_run_mod : forall k fuel f args s0, run_mod E' k fuel f args s0 = run_mod E k fuel f args s0.
  Proof.
    unfold E, E'.
    apply (mod_roundtrip_equiv_cmod m m' (fun _ => idN) lslot' idN idN idN idN (fslot_of x) idN idN idN
             (cx_of s) (ecxo_of e ilen) (rf_of x)).
    - intros i. apply (end_fslot_rf _ _ _ _ _ _ HP HE NI).
    - intros i i2 d d2 _ _ H. exact H.
    - intros j d' Hj. rewrite nth_optN_nth_error in Hj.
      assert (Hjn : N.to_nat j < n).
      { destruct fns_len as (L1 & L2 & _).
        assert (Hl : N.to_nat j < length (cm_funcs m')) by (apply nth_error_Some; congruence).
        unfold m' in Hl. cbn [out_cmod cm_funcs] in Hl. rewrite map_length, combine_length in Hl. lia. }
      setoid_rewrite nth_optN_nth_error. exact (rf_onto_fn j Hjn).
    - intros i ti ls body Hi. rewrite nth_optN_nth_error in Hi.
      destruct (out_fn_at _ _ Hi) as (tj & ef & Hef & Htj & Hsig & HLm & Hout).
      rewrite <- (N2Nat.id i).
      split; [apply (end_fn_ok _ _ _ _ _ _ _ Hi Hout)|].
      exists tj, (expand_locals (wb_locals (ef_body ef))). split; [exact Hout|]. split; [exact Hsig|].
      apply (H_locals _ _ _ _ _ _ _ Hi Hout).
    - reflexivity.
  Qed.
End Compose.

Theorem sem_roundtrip_end_to_end :
  forall (cf : config) (ver : str) (w : wmod) (s : pst) (ilen : wins -> N) (e : emitted) (m : cmod),
    valid_stream w -> parseM cf ver w = POk s -> emitM (ps_m s) ilen [] = Ok e -> stream_has_cmod w m ->
    (N.of_nat (length (types_list (ps_m s))) <= 4294967295)%N ->
    (forall i d, nth_error (cm_funcs m) i = Some d -> wfl (cx_of s (N.of_nat i)) 1 (fd_body d)) ->
    (forall i d o, nth_error (cm_funcs m) i = Some d -> In o (ops_of (live (fd_body d))) -> op_ok_end s o) ->
    exists (m' : cmod) (rf : N -> N),
      m' = out_cmod s e ilen m /\ rf = rf_of (em_x2i e) /\
      stream_has_cmod_ops (em_secs e) m' /\
      (* rf: a bijection of the function indices, undone by the induced slot map; the table is renamed by it *)
      (forall i, N.to_nat i < length (cm_funcs m) -> N.to_nat (rf i) < length (cm_funcs m)) /\
      (forall i i', N.to_nat i < length (cm_funcs m) -> N.to_nat i' < length (cm_funcs m) -> rf i = rf i' -> i = i') /\
      (forall j, N.to_nat j < length (cm_funcs m) -> exists i, N.to_nat i < length (cm_funcs m) /\ rf i = j) /\
      (forall i, fslot_of (em_x2i e) (rf i) = i) /\
      cm_table m' = map (option_map rf) (cm_table m) /\
      (* every function: the body of function (rf i) of the output is the output body of body i; same signature *)
      (forall i ti ls body, nth_error (cm_funcs m) i = Some (ti, ls, body) ->
         exists ti' ls', nth_optN (rf (N.of_nat i)) (cm_funcs m') =
                           Some (ti', ls', out_body (cx_of s (N.of_nat i)) (ecxo_of e ilen (N.of_nat i)) body) /\
                         nth_optN ti' (cm_tys m') = nth_optN ti (cm_tys m)) /\
      (* and the behaviour, for every local slot map of the output that undoes the local renumberings with agreeing frames *)
      forall lslot' : N -> N -> N,
        let E := env_of m (fun _ => idN) idN idN idN idN in
        let E' := env_of m' lslot' (fslot_of (em_x2i e)) idN idN idN in
        (forall i ti ls body ti' ls' b', nth_error (cm_funcs m) i = Some (ti, ls, body) ->
           nth_optN (rf (N.of_nat i)) (cm_funcs m') = Some (ti', ls', b') ->
           (forall j, In j (locals_used (live body)) ->
              lslot' (N.of_nat i) (rl (cx_of s (N.of_nat i)) (ecxo_of e ilen (N.of_nat i)) j) = j) /\
           frames_agree E E' (N.of_nat i) ti ls ls' body) ->
        forall k fuel f args s0, run_mod E' k fuel f args s0 = run_mod E k fuel f args s0.
Proof.
  intros cf ver w s ilen e m V HP HE HM SMALL WF OPS.
  exists (out_cmod s e ilen m), (rf_of (em_x2i e)).
  pose proof (NI _ _ HM) as HNI. destruct (n_is _ _ HM) as [N1 _].
  split; [reflexivity|]. split; [reflexivity|].
  split; [apply (end_out_stream_has_cmod cf ver w s ilen e m V HP HE HM SMALL WF)|].
  split; [intros i Hi; rewrite N1 in *; apply (end_rf_in_range _ _ _ _ _ _ HP HE HNI i Hi)|].
  split; [intros i i' Hi Hi'; rewrite N1 in *; apply (end_rf_injective _ _ _ _ _ _ HP HE HNI i i' Hi Hi')|].
  split; [intros j Hj; rewrite N1 in *; apply (end_rf_onto _ _ _ _ _ _ HP HE HNI j Hj)|].
  split; [intros i; apply (end_fslot_rf _ _ _ _ _ _ HP HE HNI)|].
  split; [reflexivity|].
  split.
  - intros i ti ls body Hi. destruct (out_fn_at cf ver w s ilen e m HP HE HM _ _ Hi) as (tj & ef & _ & _ & Hsig & _ & Hout).
    exists tj, (expand_locals (wb_locals (ef_body ef))). split; [exact Hout|exact Hsig].
  - intros lslot' E E' HL. apply (end_to_end_run_mod cf ver w s ilen e m V HP HE HM SMALL OPS lslot' HL).
Qed.

Module ExEnd.
  Local Open Scope N_scope.
  Definition P (o : wop) (l : N) : rt := RPlain o l.
  (* 0 = inc (3 operators); 1 = apply (x, slot) = inc (x + call_indirect (type 0) slot on x), with a nop, an UNUSED i64 local, a local that
     survives, a block typed by a function type, and DEAD code after `return` (the unused local, a call of a function that does not exist);
     2 = twice x = inc (inc x), then an `if` without `else`.  Emission order (size, descending): 1, 2, 0. *)
  Definition inc_b : list rt := [ P (W_LocalGet 0) 10; P (W_I32Const 1) 11; P W_I32Add 12 ].
  Definition apply_b : list rt :=
    [ RNop 20; P (W_LocalGet 0) 21; P (W_LocalGet 1) 22; P (W_CallIndirect 0 0) 23; P (W_LocalSet 3) 24; P (W_LocalGet 0) 35;
      RBlock (BT_Func 0) [ P (W_LocalGet 3) 26; P W_I32Add 27 ] 25 28;
      P (W_Call 0) 29; P W_Return 30; P (W_LocalGet 2) 31; P W_Drop 32; P (W_Call 7) 33 ].
  Definition twice_b : list rt :=
    [ P (W_LocalGet 0) 40; P (W_Call 0) 41; P (W_Call 0) 42; P (W_LocalGet 0) 47;
      RIf BT_Empty [ P (W_I32Const 5) 44; P W_Drop 48 ] None 43 45 ].
  Definition tab : wtable := {| wt_elem := RT_Funcref; wt_64 := false; wt_init := 2; wt_max := None |}.
  Definition w0 : wmod :=
    [ S_Types [([VT_I32], [VT_I32]); ([VT_I32; VT_I32], [VT_I32])];
      S_Funcs [0; 1; 0];
      S_Tables [tab];
      S_Elems [{| wel_kind := WEK_Active None (WC_I32 0); wel_items := WEI_Funcs [0; 2] |}];
      S_Code [ {| wb_locals := []; wb_ops := flat_list inc_b ++ [(WEnd, 13)] |};
               {| wb_locals := [(1, VT_I64); (1, VT_I32)]; wb_ops := flat_list apply_b ++ [(WEnd, 34)] |};
               {| wb_locals := []; wb_ops := flat_list twice_b ++ [(WEnd, 46)] |} ] ].
  Definition il (w : wins) : N := 1.
  Definition trip : option (pst * emitted) :=
    match parseM default_config [49] w0 with
    | POk s => match emitM (ps_m s) il [] with Ok e => Some (s, e) | _ => None end
    | _ => None end.
  Definition w1 : wmod := match trip with Some (_, e) => em_secs e | None => [] end.
  Definition x1 : x2i := match trip with Some (_, e) => em_x2i e | None => empty_x2i end.
  (* the two modules, read off the two streams *)
  Definition m0 : cmod := {| cm_tys := [([VT_I32], [VT_I32]); ([VT_I32; VT_I32], [VT_I32])];
                             cm_funcs := [(0, [], inc_b); (1, [VT_I64; VT_I32], apply_b); (0, [], twice_b)];
                             cm_table := [Some 0; Some 2] |}.
  Example in_cmod : cmod_of_stream w0 = Some m0.
  Proof. vm_compute. reflexivity. Qed.
  Definition m1 : cmod := match cmod_of_stream w1 with Some m => m | None => m0 end.
  (* the output: functions reordered (1, 2, 0), call sites and table renamed, the unused local dropped, nop and dead code gone, `else` added *)
  Example out_cmod_is : cmod_of_stream w1 =
    Some {| cm_tys := [([VT_I32], [VT_I32]); ([VT_I32; VT_I32], [VT_I32])];
            cm_funcs :=
              [(1, [VT_I32],
                [P (W_LocalGet 0) 0; P (W_LocalGet 1) 1; P (W_CallIndirect 0 0) 2; P (W_LocalSet 2) 3; P (W_LocalGet 0) 4;
                 RBlock (BT_Func 0) [P (W_LocalGet 2) 6; P W_I32Add 7] 5 8; P (W_Call 2) 9; P W_Return 10]);
               (0, [], [P (W_LocalGet 0) 0; P (W_Call 2) 1; P (W_Call 2) 2; P (W_LocalGet 0) 3;
                        RIf BT_Empty [P (W_I32Const 5) 5; P W_Drop 6] (Some (7, [])) 4 8]);
               (0, [], [P (W_LocalGet 0) 0; P (W_I32Const 1) 1; P W_I32Add 2])];
            cm_table := [Some 2; Some 1] |}.
  Proof. vm_compute. reflexivity. Qed.
  Example maps : xi_funcs x1 = [(1, 0); (2, 1); (0, 2)] /\ xi_locals x1 = [(1, [(1, 0); (2, 1); (4, 2)]); (2, [(5, 0)]); (0, [(0, 0)])].
  Proof. vm_compute. split; reflexivity. Qed.
  Example in_relation : stream_has_cmod w0 m0.
  Proof.
    split; [reflexivity|]. split; [reflexivity|]. split; [reflexivity|]. split; [|reflexivity].
    cbn [w0 flat_map p_code app m0 cm_funcs].
    repeat (constructor; [split; [reflexivity|eexists; reflexivity]|]). constructor.
  Qed.

  (* the environments: identity slot maps on the input; on the output the function slot map read off the emit-time map and the local slot
     map of function 1 (output local 2 is input local 3) *)
  Definition E0 : menv := env_of m0 (fun _ => idN) idN idN idN idN.
  Definition lslot1 (id j : N) : N := if id =? 1 then (if j =? 2 then 3 else j) else j.
  Definition E1 : menv := env_of m1 lslot1 (fslot_of x1) idN idN idN.
  Definition st0 : st := {| stk := []; locs := []; globs := []; labs := []; mem := []; pages := 0; max_pages := 0 |}.
  Definition obs (r : option (res st halt)) : option (list val + bool) :=
    match r with Some (Fall c) => Some (inl (stk c)) | Some (Stop Trap _) => Some (inr true) | Some _ => Some (inr false) | None => None end.
  (* function identities are INPUT indices on both sides.  apply (10, slot 0) = inc (10 + inc 10) = 22; apply (10, slot 1) = inc (10 + twice 10) = 23;
     slot 2 is past the table: trap; twice 7 = 9; inc 1 = 2; depth 1 is not enough for apply: exhausted *)
  Example run_in : map (fun a => obs (run_mod E0 4 0 (fst a) (snd a) st0))
                     [(1, [VI32 10; VI32 0]); (1, [VI32 10; VI32 1]); (1, [VI32 10; VI32 2]); (2, [VI32 7]); (0, [VI32 1])] =
                   [Some (inl [VI32 22]); Some (inl [VI32 23]); Some (inr true); Some (inl [VI32 9]); Some (inl [VI32 2])].
  Proof. vm_compute. reflexivity. Qed.
  Example run_out : map (fun a => obs (run_mod E1 4 0 (fst a) (snd a) st0))
                     [(1, [VI32 10; VI32 0]); (1, [VI32 10; VI32 1]); (1, [VI32 10; VI32 2]); (2, [VI32 7]); (0, [VI32 1])] =
                   [Some (inl [VI32 22]); Some (inl [VI32 23]); Some (inr true); Some (inl [VI32 9]); Some (inl [VI32 2])].
  Proof. vm_compute. reflexivity. Qed.
  Example run_same : forallb (fun a => match run_mod E1 (fst (fst a)) 0 (snd (fst a)) (snd a) st0, run_mod E0 (fst (fst a)) 0 (snd (fst a)) (snd a) st0 with
                                        | Some (Fall c1), Some (Fall c0) => match stk c1, stk c0 with [VI32 a1], [VI32 a0] => a1 =? a0 | _, _ => false end
                                        | Some (Stop Trap _), Some (Stop Trap _) => true
                                        | None, None => true
                                        | _, _ => false end)
                       [((4%nat, 1), [VI32 10; VI32 0]); ((4%nat, 1), [VI32 3; VI32 1]); ((4%nat, 1), [VI32 10; VI32 2]); ((4%nat, 1), [VI32 10; VI32 4294967295]);
                        ((1%nat, 1), [VI32 10; VI32 0]); ((2%nat, 2), [VI32 7]); ((3%nat, 2), [VI32 0]); ((1%nat, 0), [VI32 1]); ((0%nat, 0), [VI32 1])] = true.
  Proof. vm_compute. reflexivity. Qed.
  (* the renaming matters: the output module on identity slot maps does something else *)
  Example run_unrenamed : obs (run_mod (env_of m1 (fun _ => idN) idN idN idN idN) 4 0 2 [VI32 7] st0) <> obs (run_mod E0 4 0 2 [VI32 7] st0).
  Proof. vm_compute. discriminate. Qed.
End ExEnd.

Print Assumptions end_function_body.
Print Assumptions end_rf_injective.
Print Assumptions end_rf_onto.
Print Assumptions end_fslot_rf.
Print Assumptions end_table.
Print Assumptions end_type_renumbered.
Print Assumptions end_function_signature.
Print Assumptions end_out_stream_has_cmod.
Print Assumptions end_to_end_run_mod.
Print Assumptions sem_roundtrip_end_to_end.
