(* C08, module level fixpoint: the CONTENT of the validator context (global value types, table64 /
   memory64 flags) reached after a prefix of a stream, in terms of the payloads of the prefix (any stream). *)
From Coq Require Import List NArith ZArith Bool Arith Lia.
Import ListNotations.
From WV Require Import Gen.Ops Model.Common Model.IR Model.Arena Model.Traversal Model.EmitFn Model.Locals
                       Model.ParseFn Model.ModuleM Model.ParseM Model.EmitM Gen.Attrs.
From WV Require Import Proofs.Arena Proofs.Order Proofs.IndexMaps Proofs.CustomsCfg Proofs.Structure Proofs.Structure2
                       Proofs.Totality Proofs.Renumbering Proofs.ParseTotal Proofs.ModFix Proofs.ModFix4 Proofs.ModFix2 Proofs.ModFix16.
Local Open Scope nat_scope.

(* what one payload contributes to the three lists of the context *)
Definition sec_globs (sec : wsec) : list valty :=
  match sec with S_Imports l => map wg_ty (imp_globals_w l) | S_Globals l => map (fun gc => wg_ty (fst gc)) l | _ => [] end.
Definition sec_tabs (sec : wsec) : list bool :=
  match sec with S_Imports l => map wt_64 (imp_tables_w l) | S_Tables l => map wt_64 l | _ => [] end.
Definition sec_mems64 (sec : wsec) : list bool :=
  match sec with S_Imports l => map wm_64 (imp_mems_w l) | S_Mems l => map wm_64 l | _ => [] end.

Lemma cimp_fold_content : forall l c,
  c_globs (fold_left cimp l c) = c_globs c ++ map wg_ty (imp_globals_w l) /\
  c_tabs (fold_left cimp l c) = c_tabs c ++ map wt_64 (imp_tables_w l) /\
  c_mems (fold_left cimp l c) = c_mems c ++ map wm_64 (imp_mems_w l).
Proof.
  induction l as [|i r IH]; intros c; [cbn; rewrite !app_nil_r; repeat split|]. cbn [fold_left].
  destruct (IH (cimp c i)) as (A & B & C). rewrite A, B, C. unfold imp_globals_w, imp_tables_w, imp_mems_w, cimp. cbn [flat_map].
  destruct (wi_kind i); cbn [c_globs c_tabs c_mems app map]; rewrite <- ?app_assoc; repeat split; reflexivity.
Qed.

Theorem ctx_content : forall w c,
  c_globs (ctx_from c w) = c_globs c ++ flat_map sec_globs w /\
  c_tabs (ctx_from c w) = c_tabs c ++ flat_map sec_tabs w /\
  c_mems (ctx_from c w) = c_mems c ++ flat_map sec_mems64 w.
Proof.
  induction w as [|s r IH]; intros c; [cbn; rewrite !app_nil_r; repeat split|]. cbn [ctx_from fold_left flat_map]. unfold ctx_from in IH.
  destruct (IH (cstep c s)) as (A & B & C). rewrite A, B, C, !app_assoc. clear IH A B C.
  unfold cstep, set_last. cbn [c_globs c_tabs c_mems].
  destruct s; cbn [cstep0 sec_globs sec_tabs sec_mems64 c_globs c_tabs c_mems]; rewrite ?app_nil_r; try (repeat split; reflexivity).
  destruct (cimp_fold_content is_ c) as (A & B & C). rewrite A, B, C. repeat split; reflexivity.
Qed.

Lemma wg_ty_emit g : wg_ty (gen_emit_global_local g) = gl_ty g. Proof. reflexivity. Qed.
Lemma wt_64_emit t : wt_64 (gen_emit_table_local t) = tb_64 t. Proof. reflexivity. Qed.
Lemma wm_64_emit t : wm_64 (gen_emit_memory_local t) = me_64 t. Proof. reflexivity. Qed.

Lemma emitted_context_payloads m ilen e : emitM m ilen [] = Ok e ->
  exists xt ws x3 x4 x5 s_gl x6,
    Forall2 (import_emitted' m xt) (live_imports m) ws /\ emit_globals m x5 = Ok (s_gl, x6) /\
    flat_map sec_globs (em_secs e) = map wg_ty (imp_globals_w ws) ++ flat_map sec_globs s_gl /\
    flat_map sec_tabs (em_secs e) = map wt_64 (imp_tables_w ws) ++ flat_map sec_tabs (fst (emit_tables m x3)) /\
    flat_map sec_mems64 (em_secs e) = map wm_64 (imp_mems_w ws) ++ flat_map sec_mems64 (fst (emit_memories m x4)).
Proof.
  intros He. emitM_kinds He.
  pose (ps := [s_ty; s_im; s_fn; fst (emit_tables m x3); fst (emit_memories m x4); s_gl; s_ex; s_st; s_el; s_dc; s_co; s_da]).
  assert (F : Forall2 tagged (seq 0 12) ps) by (repeat (constructor; [assumption|]); constructor).
  rewrite Esecs.
  change (s_ty ++ s_im ++ s_fn ++ fst (emit_tables m x3) ++ fst (emit_memories m x4) ++ s_gl ++ s_ex ++ s_st ++ s_el ++ s_dc ++ s_co ++ s_da ++ rest)
    with (fold_right (@app wsec) rest ps).
  (* only the import piece and the piece of the kind contribute *)
  rewrite (fun Hf => pieces_payload sec_globs (fun k => Nat.eqb k 1 || Nat.eqb k 5) rest Hf Erest ps 0 F),
    (fun Hf => pieces_payload sec_tabs (fun k => Nat.eqb k 1 || Nat.eqb k 3) rest Hf Erest ps 0 F),
    (fun Hf => pieces_payload sec_mems64 (fun k => Nat.eqb k 1 || Nat.eqb k 4) rest Hf Erest ps 0 F)
    by (intros []; cbn [sec_tag]; try reflexivity; intros K; try reflexivity; discriminate K).
  subst ps.
  cbn [length seq combine flat_map fst snd Nat.eqb orb app]. rewrite !app_nil_r.
  assert (HI : exists xt ws, Forall2 (import_emitted' m xt) (live_imports m) ws /\
                 flat_map sec_globs s_im = map wg_ty (imp_globals_w ws) /\ flat_map sec_tabs s_im = map wt_64 (imp_tables_w ws) /\
                 flat_map sec_mems64 s_im = map wm_64 (imp_mems_w ws)).
  { unfold emit_imports in Eim. fold (live_imports m) in Eim. destruct (live_imports m) as [|i r] eqn:E.
    - inversion Eim; subst. exists [], []. repeat split. constructor.
    - rinv Eim as a Ea. inversion Eim; subst s_im x2; clear Eim. destruct a as [ws xa]. exists (space_map x1 S_type), ws.
      split; [exact (emit_imports_l_entries' _ _ _ _ _ Ea)|]. cbn [fst flat_map sec_globs sec_tabs sec_mems64]. rewrite !app_nil_r. repeat split. }
  destruct HI as (xt & ws & FI & -> & -> & ->). exists xt, ws, x3, x4, x5, s_gl, x6. repeat split; assumption.
Qed.

(* the global value types listed by the whole emitted stream, against the emitted global ids (emission order) *)
Definition gty_rel (m : wir) (id : N) (ty : valty) : Prop := exists gl, aget (m_globals m) id = Some gl /\ ty = gl_ty gl.

Lemma imp_globs_rel m xt : forall l ws, Forall2 (import_emitted' m xt) l ws ->
  Forall2 (gty_rel m) (flat_map (fun i => match im_kind i with MI_Global f => [f] | _ => [] end) l) (map wg_ty (imp_globals_w ws)).
Proof.
  induction 1 as [|a b l ws (_ & _ & Hk) _ IH]; [constructor|]. unfold imp_globals_w in *. cbn [flat_map]. rewrite map_app.
  apply Forall2_app; [|exact IH]. destruct (im_kind a).
  - destruct Hk as (fn & ti & _ & _ & ->). constructor.
  - destruct Hk as (tb & _ & ->). constructor.
  - destruct Hk as (me & _ & ->). constructor.
  - destruct Hk as (gl & Hgl & ->). repeat constructor. exists gl. split; [exact Hgl|reflexivity].
Qed.

Lemma local_globs_rel m : forall l gs, (forall t, In t l -> aget (m_globals m) (gid t) = Some (snd (fst t))) ->
  Forall2 (fun t g => fst g = gen_emit_global_local (snd (fst t))) l gs ->
  Forall2 (gty_rel m) (map gid l) (map (fun gc : wglobalty * wconst => wg_ty (fst gc)) gs).
Proof.
  intros l gs Hl F. induction F as [|t g l gs Hg _ IH]; [constructor|]. cbn [map]. constructor.
  - exists (snd (fst t)). split; [apply Hl; left; reflexivity|]. rewrite Hg. reflexivity.
  - apply IH. intros t' Ht'. apply Hl. right. exact Ht'.
Qed.

Print Assumptions imp_globs_rel.
Print Assumptions local_globs_rel.
Theorem emitted_globs_rel m ilen e : emitM m ilen [] = Ok e ->
  Forall2 (gty_rel m) (emitted_ids e S_global) (flat_map sec_globs (em_secs e)).
Proof.
  intros He. destruct (emitted_ids_shape _ _ _ _ He) as (fs & _ & _ & _ & _ & Hg & _). rewrite Hg. clear Hg fs.
  destruct (emitted_context_payloads _ _ _ He) as (xt & ws & _ & _ & x5 & s_gl & x6 & FI & Egl & -> & _ & _).
  apply Forall2_app; [exact (imp_globs_rel m xt _ ws FI)|].
  rewrite emit_globals_unfold in Egl. destruct (local_globals m) as [|p0 ps] eqn:El; [inversion Egl; subst; constructor|].
  rewrite <- El in *. rinv Egl as rr Er. inversion Egl; subst s_gl x6; clear Egl. cbn [flat_map sec_globs]. rewrite app_nil_r.
  apply globals_go_entries' in Er. destruct Er as [_ F]. apply local_globs_rel.
  - intros [[id g] c] Ht. unfold local_globals in Ht. apply in_flat_map in Ht. destruct Ht as ([id0 gl] & Hin & Hk). cbn [fst snd] in Hk.
    destruct (gl_kind gl); [destruct Hk|]. destruct Hk as [Hk|[]]. inversion Hk; subst. cbn [gid fst snd]. apply aiter_aget. exact Hin.
  - eapply Forall2_impl; [|exact F]. cbn beta. intros a b [H _]. exact H.
Qed.

Print Assumptions emitted_globs_rel.
(* CONTENT of c_globs: at the emitted index of a global sits its value type.  [pre] is any prefix that already
   holds the whole import and global payloads (e.g. one ending before the element or data section).  The module is
   any module whose emitted index map is well formed (parsed modules: Renumbering.parsed_wf_space). *)
Lemma prefix_glob_type_gen m ilen e pre g j gl : emitM m ilen [] = Ok e -> wf_map (space_map (em_x2i e) S_global) ->
  flat_map sec_globs pre = flat_map sec_globs (em_secs e) ->
  get_idx (em_x2i e) S_global g = Ok j -> aget (m_globals m) g = Some gl ->
  nth_error (c_globs (ctx_after pre)) (N.to_nat j) = Some (gl_ty gl).
Proof.
  intros HE W Hpre Hj Hgl. unfold ctx_after.
  destruct (ctx_content pre ctx0) as (A & _ & _). rewrite A, Hpre. cbn [ctx0 c_globs app].
  apply (x2i_positions _ _ _ _ W) in Hj. fold (emitted_ids e S_global) in Hj.
  destruct (Forall2_nth_l _ _ _ _ _ (emitted_globs_rel _ _ _ HE) Hj) as (ty & Hty & gl' & Hgl' & ->).
  rewrite Hgl in Hgl'. inversion Hgl'; subst gl'. exact Hty.
Qed.

Definition tab_rel (m : wir) (id : N) (b : bool) : Prop := exists t, aget (m_tables m) id = Some t /\ b = tb_64 t.
Lemma imp_tabs_rel m xt : forall l ws, Forall2 (import_emitted' m xt) l ws ->
  Forall2 (tab_rel m) (flat_map (fun i => match im_kind i with MI_Table f => [f] | _ => [] end) l) (map wt_64 (imp_tables_w ws)).
Proof.
  induction 1 as [|a b l ws (_ & _ & Hk) _ IH]; [constructor|]. unfold imp_tables_w in *. cbn [flat_map]. rewrite map_app.
  apply Forall2_app; [|exact IH]. destruct (im_kind a).
  - destruct Hk as (fn & ti & _ & _ & ->). constructor.
  - destruct Hk as (tb & Ht & ->). repeat constructor. exists tb. split; [exact Ht|reflexivity].
  - destruct Hk as (me & _ & ->). constructor.
  - destruct Hk as (gl & _ & ->). constructor.
Qed.
Lemma local_tabs_rel m : forall l : list (N * mtable), (forall p, In p l -> aget (m_tables m) (fst p) = Some (snd p)) ->
  Forall2 (tab_rel m) (map fst l) (map wt_64 (map (fun p => gen_emit_table_local (snd p)) l)).
Proof.
  induction l as [|p l IH]; intros H; [constructor|]. cbn [map]. constructor.
  - exists (snd p). split; [apply H; left; reflexivity|reflexivity].
  - apply IH. intros q Hq. apply H. right. exact Hq.
Qed.
Theorem emitted_tabs_rel m ilen e : emitM m ilen [] = Ok e ->
  Forall2 (tab_rel m) (emitted_ids e S_table) (flat_map sec_tabs (em_secs e)).
Proof.
  intros He. destruct (emitted_ids_shape _ _ _ _ He) as (fs & _ & _ & Ht & _). rewrite Ht. clear Ht fs.
  destruct (emitted_context_payloads _ _ _ He) as (xt & ws & x3 & _ & _ & _ & _ & FI & _ & _ & -> & _).
  apply Forall2_app; [exact (imp_tabs_rel m xt _ ws FI)|].
  assert (HL : forall p, In p (local_tables m) -> aget (m_tables m) (fst p) = Some (snd p)).
  { intros [id t] Hp. unfold local_tables in Hp. apply filter_In in Hp. destruct Hp as [Hp _]. apply aiter_aget. exact Hp. }
  rewrite emit_tables_entries. pose proof (local_tabs_rel m _ HL) as F. destruct (local_tables m) as [|p0 ps]; [constructor|].
  cbn [flat_map sec_tabs]. rewrite app_nil_r. exact F.
Qed.
Lemma prefix_tab_flag_gen m ilen e pre t j tb : emitM m ilen [] = Ok e -> wf_map (space_map (em_x2i e) S_table) ->
  flat_map sec_tabs pre = flat_map sec_tabs (em_secs e) ->
  get_idx (em_x2i e) S_table t = Ok j -> aget (m_tables m) t = Some tb ->
  nth_error (c_tabs (ctx_after pre)) (N.to_nat j) = Some (tb_64 tb).
Proof.
  intros HE W Hpre Hj Htb. unfold ctx_after.
  destruct (ctx_content pre ctx0) as (_ & A & _). rewrite A, Hpre. cbn [ctx0 c_tabs app].
  apply (x2i_positions _ _ _ _ W) in Hj. fold (emitted_ids e S_table) in Hj.
  destruct (Forall2_nth_l _ _ _ _ _ (emitted_tabs_rel _ _ _ HE) Hj) as (b & Hb & tb' & Htb' & ->).
  rewrite Htb in Htb'. inversion Htb'; subst tb'. exact Hb.
Qed.

Definition mem_rel (m : wir) (id : N) (b : bool) : Prop := exists t, aget (m_memories m) id = Some t /\ b = me_64 t.
Lemma imp_mems_rel m xt : forall l ws, Forall2 (import_emitted' m xt) l ws ->
  Forall2 (mem_rel m) (flat_map (fun i => match im_kind i with MI_Mem f => [f] | _ => [] end) l) (map wm_64 (imp_mems_w ws)).
Proof.
  induction 1 as [|a b l ws (_ & _ & Hk) _ IH]; [constructor|]. unfold imp_mems_w in *. cbn [flat_map]. rewrite map_app.
  apply Forall2_app; [|exact IH]. destruct (im_kind a).
  - destruct Hk as (fn & ti & _ & _ & ->). constructor.
  - destruct Hk as (tb & _ & ->). constructor.
  - destruct Hk as (me & Ht & ->). repeat constructor. exists me. split; [exact Ht|reflexivity].
  - destruct Hk as (gl & _ & ->). constructor.
Qed.
Lemma local_mems_rel m : forall l : list (N * mmem), (forall p, In p l -> aget (m_memories m) (fst p) = Some (snd p)) ->
  Forall2 (mem_rel m) (map fst l) (map wm_64 (map (fun p => gen_emit_memory_local (snd p)) l)).
Proof.
  induction l as [|p l IH]; intros H; [constructor|]. cbn [map]. constructor.
  - exists (snd p). split; [apply H; left; reflexivity|reflexivity].
  - apply IH. intros q Hq. apply H. right. exact Hq.
Qed.
Theorem emitted_mems_rel m ilen e : emitM m ilen [] = Ok e ->
  Forall2 (mem_rel m) (emitted_ids e S_memory) (flat_map sec_mems64 (em_secs e)).
Proof.
  intros He. destruct (emitted_ids_shape _ _ _ _ He) as (fs & _ & _ & _ & Ht & _). rewrite Ht. clear Ht fs.
  destruct (emitted_context_payloads _ _ _ He) as (xt & ws & _ & x4 & _ & _ & _ & FI & _ & _ & _ & ->).
  apply Forall2_app; [exact (imp_mems_rel m xt _ ws FI)|].
  assert (HL : forall p, In p (local_memories m) -> aget (m_memories m) (fst p) = Some (snd p)).
  { intros [id t] Hp. unfold local_memories in Hp. apply filter_In in Hp. destruct Hp as [Hp _]. apply aiter_aget. exact Hp. }
  rewrite emit_memories_entries. pose proof (local_mems_rel m _ HL) as F. destruct (local_memories m) as [|p0 ps]; [constructor|].
  cbn [flat_map sec_mems64]. rewrite app_nil_r. exact F.
Qed.
Lemma prefix_mem_flag_gen m ilen e pre t j tb : emitM m ilen [] = Ok e -> wf_map (space_map (em_x2i e) S_memory) ->
  flat_map sec_mems64 pre = flat_map sec_mems64 (em_secs e) ->
  get_idx (em_x2i e) S_memory t = Ok j -> aget (m_memories m) t = Some tb ->
  nth_error (c_mems (ctx_after pre)) (N.to_nat j) = Some (me_64 tb).
Proof.
  intros HE W Hpre Hj Htb. unfold ctx_after.
  destruct (ctx_content pre ctx0) as (_ & _ & A). rewrite A, Hpre. cbn [ctx0 c_mems app].
  apply (x2i_positions _ _ _ _ W) in Hj. fold (emitted_ids e S_memory) in Hj.
  destruct (Forall2_nth_l _ _ _ _ _ (emitted_mems_rel _ _ _ HE) Hj) as (b & Hb & tb' & Htb' & ->).
  rewrite Htb in Htb'. inversion Htb'; subst tb'. exact Hb.
Qed.

Print Assumptions ctx_content.
