(* C01, instantiation when UNUSED GLOBALS ARE DROPPED (walrus's GC pass): Proofs/Inst.v asks that the two modules have the same
   list of globals; here the output module may have lost globals that nothing mentions.  Two states that differ only in their
   global stores, which agree on the slots [U] of the globals the functions mention, give results related in the same way
   ([run_mod_globals]); evaluating the remaining initialisers gives a store that agrees on [U] ([inst_globals_dropped]);
   hence the theorems of Proofs/Inst.v up to the dropped globals ([inst_roundtrip_gc]). *)
From Coq Require Import List NArith ZArith Bool Lia. Import ListNotations.
From WV Require Import Gen.Ops Model.Common Model.IR Model.ParseFn Model.ParseSpec Model.EmitFn
  Model.BodySpec Model.Sem Model.SemCore Model.SemMod Model.Inst.
From WV Require Import Proofs.SemMod Proofs.Inst.

Definition reglobs (G : list (N * val)) (c : st) : st := with_globs c (stk c) G.
Lemma reglobs_self c : reglobs (globs c) c = c.
Proof. destruct c; reflexivity. Qed.

(* an operator other than global.get / set neither looks at the globals nor changes them *)
Lemma core_op_reglobs l g m o : global_index_of o = None ->
  forall G c, core_op l g m o (reglobs G c) = step_map (reglobs G) (core_op l g m o c).
Proof. intros H G. exact (core_op_restore l g m o None (Some G) (or_intror eq_refl) (or_introl H)). Qed.

Section GlobRel.
  Variable U : list N.     (* the slots on which the two global stores agree *)
  Definition Gst (c1 c2 : st) : Prop := exists G, c2 = reglobs G c1 /\ agree U (globs c1) G.
  Definition Gm (s t : mst) : Prop := snd s = snd t /\ Gst (fst s) (fst t).

  Lemma Gst_refl c : Gst c c.
  Proof. exists (globs c). split; [symmetry; apply reglobs_self|intros k _; reflexivity]. Qed.

  Lemma core_op_relg : forall l g m o c1 c2, (forall i, global_index_of o = Some i -> In (g i) U) -> Gst c1 c2 ->
    step_rel st halt Gst (core_op l g m o c1) (core_op l g m o c2).
  Proof.
    intros l g m o c1 c2 HU (G & -> & Ha). destruct (global_index_of o) as [i|] eqn:Ei.
    - specialize (HU i eq_refl).
      destruct (global_index_of_inv o i Ei) as [-> | ->]; cbn [core_op]; destruct c1 as [k lo gl la me pg mx];
        unfold global_get, global_set, reglobs, push, wrong; cbn [stk globs with_globs with_stk] in *.
      + rewrite <- (Ha _ HU). destruct (alookup (g i) gl) as [v|]; cbn [step_rel].
        * eexists. split; [reflexivity|exact Ha].
        * split; [reflexivity|]. eexists. split; [reflexivity|exact Ha].
      + destruct k as [|v k]; cbn [step_rel]; [split; [reflexivity|]; eexists; split; [reflexivity|exact Ha]|].
        pose proof (aset_agree U (g i) v gl G Ha HU) as Hs.
        destruct (aset (g i) v gl) as [A1|], (aset (g i) v G) as [A2|]; try contradiction; cbn [step_rel].
        * exists A2. split; [reflexivity|exact Hs].
        * split; [reflexivity|]. eexists. split; [reflexivity|exact Ha].
    - rewrite (core_op_reglobs l g m o Ei G c1).
      pose proof (core_op_reglobs l g m o Ei (globs c1) c1) as Hself. rewrite reglobs_self in Hself.
      destruct (core_op l g m o c1) as [c'|h c']; cbn [step_map step_rel] in *.
      + exists G. split; [reflexivity|]. injection Hself as Hself. rewrite Hself. exact Ha.
      + split; [reflexivity|]. exists G. split; [reflexivity|]. injection Hself as Hself. rewrite Hself. exact Ha.
  Qed.

  Lemma Gm_intro c G b : agree U (globs c) G -> Gm (c, b) (reglobs G c, b).
  Proof. intros Ha. split; [reflexivity|]. exists G. split; [reflexivity|exact Ha]. Qed.

  (* a function of the core state that commutes with replacing the globals keeps them *)
  Lemma lift_pop_relg {A} (f : st -> option (A * st)) :
    (forall G c, f (reglobs G c) = match f c with Some (a, c') => Some (a, reglobs G c') | None => None end) ->
    forall s t, Gm s t -> pop_rel mst Gm (lift_pop f s) (lift_pop f t).
  Proof.
    intros Hf [c b] [c2 b2] [Hb (G & HG & Ha)]. cbn [fst snd] in *. subst b2 c2. unfold lift_pop. cbn [fst snd].
    rewrite Hf. pose proof (Hf (globs c) c) as Hk. rewrite reglobs_self in Hk.
    destruct (f c) as [[a c']|]; cbn [pop_rel]; [|exact I]. injection Hk as Hk.
    split; [reflexivity|]. apply Gm_intro. rewrite Hk. exact Ha.
  Qed.
  Lemma lift_relg (f : st -> st) : (forall G c, f (reglobs G c) = reglobs G (f c)) ->
    forall s t, Gm s t -> Gm (lift f s) (lift f t).
  Proof.
    intros Hf [c b] [c2 b2] [Hb (G & HG & Ha)]. cbn [fst snd] in *. subst b2 c2. unfold lift. cbn [fst snd].
    pose proof (Hf (globs c) c) as Hk. rewrite reglobs_self in Hk.
    rewrite Hf. apply Gm_intro. rewrite Hk. exact Ha.
  Qed.

  (* calls: the callee sees the globals of the caller, the caller the globals the callee leaves *)
  Section Calls.
    Variable E : menv.
    Variable rb : N -> list rt -> mst -> res mst halt.
    (* one level further down, the bodies of the functions of [E] respect the relation *)
    Hypothesis H_rb : forall id ti ls body s t, me_funcs E id = Some (ti, ls, body) -> Gm s t ->
      res_rel mst halt Gm (rb id body s) (rb id body t).

    Lemma after_call_relg s t n rs r1 r2 : Gm s t -> res_rel mst halt Gm r1 r2 ->
      step_rel mst halt Gm (gafter mst lens_m s n rs r1) (gafter mst lens_m t n rs r2).
    Proof.
      intros Hst Hr. destruct s as [c b], t as [c2 b2]. pose proof Hst as Hst0. destruct Hst as [Hb (G & HG & Ha)]. cbn [fst snd] in *. subst b2 c2.
      assert (Hfin : forall c1 b1 c3 b3, Gm (c1, b1) (c3, b3) ->
                step_rel mst halt Gm (gfinish mst lens_m (c, b) n rs (c1, b1)) (gfinish mst lens_m (reglobs G c, b) n rs (c3, b3)) /\
                Gm (back c (stk c) c1, b1) (back (reglobs G c) (stk (reglobs G c)) c3, b3)).
      { intros c1 b1 c3 b3 [Hb1 (G1 & HG1 & Ha1)]. cbn [fst snd] in *. subst b3 c3.
        assert (Hbk : forall k, back (reglobs G c) k (reglobs G1 c1) = reglobs G1 (back c k c1)) by (intros k; destruct c, c1; reflexivity).
        assert (Hgb : forall k, globs (back c k c1) = globs c1) by (intros k; destruct c, c1; reflexivity).
        assert (Hs1 : stk (reglobs G1 c1) = stk c1) by (destruct c1; reflexivity).
        assert (Hs : stk (reglobs G c) = stk c) by (destruct c; reflexivity).
        split.
        - unfold gfinish. cbn [core put lens_m fst snd]. rewrite Hs1, Hs. destruct (all_ty rs _); cbn [step_rel].
          + rewrite Hbk. apply Gm_intro. rewrite Hgb. exact Ha1.
          + split; [reflexivity|exact Hst0].
        - rewrite Hs, Hbk. apply Gm_intro. rewrite Hgb. exact Ha1. }
      destruct r1 as [[c1 b1]|d1 [c1 b1]|h1 [c1 b1]| |], r2 as [[c3 b3]|d3 [c3 b3]|h3 [c3 b3]| |]; cbn [res_rel] in Hr; try contradiction.
      - cbn [gafter core put lens_m fst snd]. apply Hfin, Hr.
      - destruct Hr as [<- Hr]. destruct d1; cbn [gafter core put lens_m fst snd]; [apply Hfin, Hr|]. cbn [step_rel]. split; [reflexivity|exact Hst0].
      - destruct Hr as [<- Hr]. destruct h1; cbn [gafter core put lens_m fst snd].
        + cbn [step_rel fst]. split; [reflexivity|]. apply Hfin, Hr.
        + apply Hfin, Hr.
        + cbn [step_rel]. split; [reflexivity|exact Hst0].
      - cbn [gafter step_rel]. split; [reflexivity|exact Hst0].
      - cbn [gafter exhaust lens_m step_rel fst]. split; [reflexivity|]. destruct Hst0 as [_ H]. split; [reflexivity|exact H].
    Qed.

    Lemma call_fn_relg id s t : Gm s t -> step_rel mst halt Gm (call_fn E rb id s) (call_fn E rb id t).
    Proof.
      intros Hst. rewrite !call_fn_g. unfold gcall_fn. pose proof Hst as Hst0.
      destruct s as [c b], t as [c2 b2]. destruct Hst as [Hb (G & HG & Ha)]. cbn [core put lens_m fst snd] in *. subst b2 c2.
      assert (Hs : stk (reglobs G c) = stk c) by (destruct c; reflexivity).
      assert (Hc : forall fr, callee_st (reglobs G c) fr = reglobs G (callee_st c fr)) by (intros fr; destruct c; reflexivity).
      assert (Hg : forall fr, globs (callee_st c fr) = globs c) by (intros fr; destruct c; reflexivity).
      destruct (me_funcs E id) as [[[ti ls] body]|] eqn:Ef; [|cbn [step_rel]; split; [reflexivity|exact Hst0]].
      destruct (me_tys E ti) as [[ps rs]|]; [|cbn [step_rel]; split; [reflexivity|exact Hst0]].
      cbv zeta. rewrite Hs. destruct (all_ty ps _); [|cbn [step_rel]; split; [reflexivity|exact Hst0]].
      apply after_call_relg; [exact Hst0|]. rewrite Hc. apply (H_rb id ti ls body _ _ Ef). apply Gm_intro. rewrite Hg. exact Ha.
    Qed.

    Lemma call_ind_relg ti tb s t : Gm s t -> step_rel mst halt Gm (call_ind E rb ti tb s) (call_ind E rb ti tb t).
    Proof.
      intros Hst. rewrite !call_ind_g. unfold gcall_ind. pose proof Hst as Hst0.
      destruct s as [c b], t as [c2 b2]. destruct Hst as [Hb (G & HG & Ha)]. cbn [core put lens_m fst snd] in *. subst b2 c2.
      change (stk (reglobs G c)) with (stk c).
      destruct (ind_target E ti tb (stk c)) as [h|[id k]]; [split; [reflexivity|exact Hst0]|].
      rewrite <- !call_fn_g. change (with_stk (reglobs G c) k) with (reglobs G (with_stk c k)).
      apply call_fn_relg, Gm_intro, Ha.
    Qed.

    Lemma op_sem_relg : forall cur o s t, (forall i, global_index_of o = Some i -> In (me_gslot E i) U) -> Gm s t ->
      step_rel mst halt Gm (op_sem E rb cur (WOp o) s) (op_sem E rb cur (WOp o) t).
    Proof.
      intros cur o s t HU HR. destruct (is_call o) eqn:Hc.
      - destruct (is_call_inv o Hc) as [[f ->]|(ti & tb & ->)]; cbn [op_sem]; [apply call_fn_relg|apply call_ind_relg]; exact HR.
      - rewrite !(op_sem_noncall E rb cur (WOp o)) by exact Hc.
        destruct HR as [Hb HR]. rewrite Hb. cbn [core_sem].
        pose proof (core_op_relg (me_lslot E cur) (me_gslot E) (me_mslot E) o (fst s) (fst t) HU HR) as Hs.
        destruct (core_op _ _ _ o (fst s)), (core_op _ _ _ o (fst t)); cbn [step_rel lift_step] in *; try contradiction.
        + split; [reflexivity|exact Hs].
        + destruct Hs as [-> Hs]. split; [reflexivity|]. split; [reflexivity|exact Hs].
    Qed.
  End Calls.

  (* THE FRAME LEMMA FOR GLOBALS: every function of the environment mentions only globals whose slots are in [U] *)
  Definition globals_in (E : menv) : Prop :=
    forall id ti ls body, me_funcs E id = Some (ti, ls, body) -> forall i, In i (globals_used body) -> In (me_gslot E i) U.

  Theorem run_body_globals : forall E fuel, globals_in E -> forall k id ti ls body s t, me_funcs E id = Some (ti, ls, body) -> Gm s t ->
    res_rel mst halt Gm (run_body E fuel k id body s) (run_body E fuel k id body t).
  Proof.
    intros E fuel HE. induction k as [|k IH]; intros id ti ls body s t Ef HR; [exact I|].
    cbn [run_body].
    apply (eval_rel mst halt pop_cond_m pop_index_m unwind_m (enter_m (me_tys E)) leave_m
             (op_sem E (run_body E fuel k) id) (arity (me_tys E)) (loop_arity (me_tys E)) Gm
             (fun o => forall i, global_index_of o = Some i -> In (me_gslot E i) U)).
    - apply lift_pop_relg. intros G. apply (pop_cond_restore None (Some G)).
    - apply lift_pop_relg. intros G. apply (pop_index_restore None (Some G)).
    - intros n. apply lift_relg. intros G. apply (unwind_restore None (Some G)).
    - intros bt. apply lift_relg. reflexivity.
    - apply lift_relg. reflexivity.
    - intros o Ho s1 t1 HR1. apply op_sem_relg; [|exact Ho|exact HR1]. intros id2 ti2 ls2 body2 s2 t2 Ef2 HR2. exact (IH id2 ti2 ls2 body2 s2 t2 Ef2 HR2).
    - intros o Ho i Hi. apply (HE id ti ls body Ef). exact (used_in global_index_of body o i Ho Hi).
    - exact HR.
  Qed.

  (* the entry point: results related up to the global stores (which agree on [U]) *)
  Definition ores_rel (a b : option (res st halt)) : Prop :=
    match a, b with Some r1, Some r2 => res_rel st halt Gst r1 r2 | None, None => True | _, _ => False end.
  Theorem run_mod_globals : forall E k fuel f args s0 s0', globals_in E -> Gst s0 s0' ->
    ores_rel (run_mod E k fuel f args s0) (run_mod E k fuel f args s0').
  Proof.
    intros E k fuel f args s0 s0' HE (G & -> & Ha). unfold run_mod.
    assert (He : Gm (entry_st s0 args, false) (entry_st (reglobs G s0) args, false)).
    { assert (H : entry_st (reglobs G s0) args = reglobs G (entry_st s0 args)) by (destruct s0; reflexivity).
      rewrite H. apply Gm_intro. destruct s0; exact Ha. }
    pose proof (call_fn_relg E (run_body E fuel k) (fun id ti ls body s t Ef HR => run_body_globals E fuel HE k id ti ls body s t Ef HR) f _ _ He) as Hs.
    destruct (call_fn E (run_body E fuel k) f (entry_st s0 args, false)) as [[c b]|h [c b]],
             (call_fn E (run_body E fuel k) f (entry_st (reglobs G s0) args, false)) as [[c2 b2]|h2 [c2 b2]]; cbn [step_rel] in Hs; try contradiction.
    - destruct Hs as [Hb Hs]. cbn [fst snd] in Hb, Hs. subst b2. destruct b; [exact I|exact Hs].
    - destruct Hs as [<- [Hb Hs]]. cbn [fst snd] in Hb, Hs. subst b2. destruct b; [exact I|]. split; [reflexivity|exact Hs].
  Qed.
End GlobRel.

Lemma alookup_app_last k s v : forall L, alookup k (L ++ [(s, v)]) = match alookup k L with Some x => Some x | None => if (k =? s)%N then Some v else None end.
Proof. induction L as [|[k1 v1] L IH]; [reflexivity|]. cbn [app alookup]. destruct (k =? k1)%N; [reflexivity|exact IH]. Qed.

Section DropGlobals.
  Variable rf rg rtb rm : N -> N.
  Variable gslot mslot tslot gslot' mslot' tslot' : N -> N.
  Variable U : list N.       (* the slots of the globals that are KEPT (all the globals anything mentions) *)
  Hypothesis H_gslot : forall g, In (gslot g) U -> gslot' (rg g) = gslot g.
  Hypothesis H_tslot : forall tb, tslot' (rtb tb) = tslot tb.
  Hypothesis H_mslot : forall mi, mslot' (rm mi) = mslot mi.

  (* a constant expression mentions a kept global only *)
  Definition cexpr_in (e : cexpr) : Prop := match e with CGlobalGet g => In (gslot g) U | _ => True end.
  Lemma eval_cexpr_ren_g gl gl' e : agree U gl gl' -> cexpr_in e -> eval_cexpr gslot' gl' (ren_cexpr rg e) = eval_cexpr gslot gl e.
  Proof.
    intros Ha He. destruct e as [z|z|g]; cbn [ren_cexpr eval_cexpr]; [reflexivity|reflexivity|].
    cbn [cexpr_in] in He. rewrite (H_gslot g He). symmetry. apply Ha, He.
  Qed.

  (* [l'] is [l] (whose first global has index [i]) without some globals, the others renamed; the first one of [l'] has index [j].
     A kept global: its slot is in [U], its new index is [rg] of the old one, its initialiser mentions kept globals only;
     a dropped global: its slot is not in [U] *)
  Inductive gdrop : N -> N -> list (valty * bool * cexpr) -> list (valty * bool * cexpr) -> Prop :=
  | gd_nil i j : gdrop i j [] []
  | gd_keep i j t mu e l l' : rg i = j -> In (gslot i) U -> cexpr_in e -> gdrop (i + 1) (j + 1) l l' ->
      gdrop i j ((t, mu, e) :: l) ((t, mu, ren_cexpr rg e) :: l')
  | gd_drop i j d l l' : ~ In (gslot i) U -> gdrop (i + 1) j l l' -> gdrop i j (d :: l) l'.

  Lemma inst_globals_dropped : forall i j l l', gdrop i j l l' -> forall gl gl' gl1, agree U gl gl' ->
    inst_globals gslot i l gl = Some gl1 -> exists gl1', inst_globals gslot' j l' gl' = Some gl1' /\ agree U gl1 gl1'.
  Proof.
    induction 1 as [i j|i j t mu e l l' Hij Hin He _ IH|i j d l l' Hnin _ IH]; intros gl gl' gl1 Ha Hs.
    - cbn [inst_globals] in *. injection Hs as <-. exists gl'. split; [reflexivity|exact Ha].
    - cbn [inst_globals] in *. rewrite (eval_cexpr_ren_g gl gl' e Ha He).
      destruct (eval_cexpr gslot gl e) as [v|]; [|discriminate Hs]. destruct (has_ty t v); [|discriminate Hs].
      assert (Hj : gslot' j = gslot i) by (rewrite <- Hij; apply H_gslot, Hin). rewrite Hj. apply (IH (gl ++ [(gslot i, v)]) (gl' ++ [(gslot i, v)]) gl1); [|exact Hs].
      intros k Hk. rewrite !alookup_app_last, (Ha k Hk). reflexivity.
    - destruct d as [[t mu] e]. cbn [inst_globals] in Hs.
      destruct (eval_cexpr gslot gl e) as [v|]; [|discriminate Hs]. destruct (has_ty t v); [|discriminate Hs].
      apply (IH (gl ++ [(gslot i, v)]) gl' gl1); [|exact Hs].
      intros k Hk. rewrite alookup_app_last, <- (Ha k Hk).
      destruct (alookup k gl); [reflexivity|]. destruct (N.eqb_spec k (gslot i)) as [->|_]; [contradiction|reflexivity].
  Qed.

  Definition eseg_in (s : eseg) : Prop := match s with EActive _ off _ => cexpr_in off | _ => True end.
  Definition dseg_in (s : dseg) : Prop := match s with DActive _ off _ => cexpr_in off | _ => True end.

  Lemma inst_elems_ren_g gl gl' : agree U gl gl' -> forall es, Forall eseg_in es -> forall t,
    inst_elems gslot' tslot' gl' (map (ren_eseg rf rg rtb) es) (map (option_map rf) t) =
    pres_map (map (option_map rf)) (inst_elems gslot tslot gl es t).
  Proof.
    intros Ha. induction es as [|[tb off fs|fs|fs] es IH]; intros HF t; cbn [map ren_eseg inst_elems]; [reflexivity| | |];
      inversion HF as [|x y Hx Hy]; subst; [|apply IH, Hy|apply IH, Hy].
    rewrite H_tslot, (eval_cexpr_ren_g gl gl' off Ha Hx). destruct (tslot tb =? 0)%N; [|reflexivity].
    destruct (eval_cexpr gslot gl off) as [[o|o]|]; try reflexivity.
    unfold tbl_size. rewrite !map_length. destruct (o + N.of_nat (length fs) <=? N.of_nat (length t))%N; [|reflexivity].
    rewrite write_tbl_map. apply IH, Hy.
  Qed.
  Lemma inst_datas_ren_g gl gl' pgs : agree U gl gl' -> forall ds, Forall dseg_in ds -> forall m,
    inst_datas gslot' mslot' gl' pgs (map (ren_dseg rg rm) ds) m = inst_datas gslot mslot gl pgs ds m.
  Proof.
    intros Ha. induction ds as [|[mi off bs|bs] ds IH]; intros HF m; cbn [map ren_dseg inst_datas]; [reflexivity| |];
      inversion HF as [|x y Hx Hy]; subst; [|apply IH, Hy].
    rewrite H_mslot, (eval_cexpr_ren_g gl gl' off Ha Hx). destruct (mslot mi =? 0)%N; [|reflexivity].
    destruct (eval_cexpr gslot gl off) as [[o|o]|]; try reflexivity.
    destruct (o + N.of_nat (length bs) <=? pgs * page_size)%N; [|reflexivity]. apply IH, Hy.
  Qed.

  (* [im'] is [im] renamed, WITHOUT some globals *)
  Record renamed_gc (im im' : imod) : Prop := {
    rc_globals : gdrop 0 0 (im_globals im) (im_globals im');
    rc_mem : im_mem im' = im_mem im;
    rc_table : im_table im' = im_table im;
    rc_elems : im_elems im' = map (ren_eseg rf rg rtb) (im_elems im);
    rc_elems_in : Forall eseg_in (im_elems im);
    rc_datas : im_datas im' = map (ren_dseg rg rm) (im_datas im);
    rc_datas_in : Forall dseg_in (im_datas im);
    rc_start : im_start im' = option_map rf (im_start im)
  }.

  Definition pre_rel (r r' : pres (list (option N) * st)) : Prop :=
    match r, r' with
    | POk p, POk p' => fst p' = map (option_map rf) (fst p) /\ Gst U (snd p) (snd p')
    | PTrap, PTrap | PWrong, PWrong => True
    | _, _ => False
    end.
  Lemma inst_pre_gc im im' gl : renamed_gc im im' -> inst_globals gslot 0 (im_globals im) [] = Some gl ->
    pre_rel (inst_pre im gslot mslot tslot) (inst_pre im' gslot' mslot' tslot').
  Proof.
    intros Hr Hg. unfold inst_pre. rewrite Hg.
    destruct (inst_globals_dropped 0 0 _ _ (rc_globals _ _ Hr) [] [] gl (fun k _ => eq_refl) Hg) as (gl' & Hg' & Ha).
    rewrite Hg'.
    rewrite (rc_elems _ _ Hr), (tbl0_ren rf _ _ (rc_table _ _ Hr)), (inst_elems_ren_g gl gl' Ha _ (rc_elems_in _ _ Hr)).
    destruct (inst_elems gslot tslot gl (im_elems im) (tbl0 im)) as [tbl| |]; cbn [pres_map pre_rel]; try exact I.
    assert (Hp : pages0 im' = pages0 im) by (unfold pages0; rewrite (rc_mem _ _ Hr); reflexivity).
    assert (Hm : maxp0 im' = maxp0 im) by (unfold maxp0; rewrite (rc_mem _ _ Hr); reflexivity).
    rewrite (rc_datas _ _ Hr), Hp, Hm, (inst_datas_ren_g gl gl' _ Ha _ (rc_datas_in _ _ Hr)).
    destruct (inst_datas gslot mslot gl (pages0 im) (im_datas im) []) as [m| |]; cbn [pre_rel fst snd]; try exact I.
    split; [reflexivity|]. exists gl'. split; [reflexivity|exact Ha].
  Qed.
End DropGlobals.

Definition inst_equiv_gc (U : list N) (cxo : N -> pctx) (ecxo : N -> ectx) (r r' : inst_result) : Prop :=
  match r, r' with
  | IOk E s0, IOk E' s0' => Gst U s0 s0' /\ me_tbl E' = me_tbl E /\ funcs_ok E E' cxo ecxo /\ globals_in U E
  | ITrap, ITrap | IWrong, IWrong | IExhausted, IExhausted => True
  | _, _ => False
  end.
Definition call_rel (U : list N) (a b : call_result) : Prop :=
  match a, b with
  | CRan r1, CRan r2 => ores_rel U r1 r2
  | CInstTrap, CInstTrap | CInstWrong, CInstWrong | CInstExhausted, CInstExhausted => True
  | _, _ => False
  end.

Lemma inst_equiv_gc_call U cxo ecxo r r' : inst_equiv_gc U cxo ecxo r r' ->
  forall k fuel f args, call_rel U (call_after r k fuel f args) (call_after r' k fuel f args).
Proof.
  intros H k fuel f args. destruct r as [E s0| | |], r' as [E' s0'| | |]; cbn [inst_equiv_gc] in H; try contradiction; cbn [call_after call_rel]; try exact I.
  destruct H as (Hs & Htbl & Hf & Hg).
  rewrite (mod_roundtrip_equiv E E' cxo ecxo Hf Htbl k fuel f args s0').
  exact (run_mod_globals U E k fuel f args s0 s0' Hg Hs).
Qed.

Section InstRoundtripGc.
  Variable im im' : imod.
  Variable lslot lslot' : N -> N -> N.
  Variable fslot gslot mslot tslot fslot' gslot' mslot' tslot' : N -> N.
  Variable cxo : N -> pctx.
  Variable ecxo : N -> ectx.
  Variable rf rg rtb rm : N -> N.
  Variable U : list N.
  Variable gl : list (N * val).
  Notation Eof tbl := (env_of (cmod_of im tbl) lslot fslot gslot mslot tslot).
  Notation Eof' tbl := (env_of (cmod_of im' (map (option_map rf) tbl)) lslot' fslot' gslot' mslot' tslot').

  Hypothesis H_ren : renamed_gc rf rg rtb rm gslot U im im'.
  Hypothesis H_gslot : forall g, In (gslot g) U -> gslot' (rg g) = gslot g.
  Hypothesis H_tslot : forall tb, tslot' (rtb tb) = tslot tb.
  Hypothesis H_mslot : forall mi, mslot' (rm mi) = mslot mi.
  (* the initialisers of the input module evaluate (also those of the globals that are dropped) *)
  Hypothesis H_globals : inst_globals gslot 0 (im_globals im) [] = Some gl.
  (* the functions of the input module mention kept globals only *)
  Hypothesis H_used : forall i ti ls body, nth_optN i (im_funcs im) = Some (ti, ls, body) ->
    forall g, In g (globals_used body) -> In (gslot g) U.
  (* the premises of [mod_roundtrip_equiv_cmod] *)
  Hypothesis H_fslot : forall i, fslot' (rf i) = fslot i.
  Hypothesis H_inj : forall i i2 d d2, nth_optN i (im_funcs im) = Some d -> nth_optN i2 (im_funcs im) = Some d2 ->
    fslot i = fslot i2 -> i = i2.
  Hypothesis H_surj : forall j d', nth_optN j (im_funcs im') = Some d' -> exists i d, nth_optN i (im_funcs im) = Some d /\ rf i = j.
  Hypothesis H_fn : forall tbl i ti ls body, nth_optN i (im_funcs im) = Some (ti, ls, body) ->
    fn_ok (Eof tbl) (Eof' tbl) cxo ecxo (fslot i) body /\
    exists ti' ls', nth_optN (rf i) (im_funcs im') = Some (ti', ls', out_body (cxo (fslot i)) (ecxo (fslot i)) body) /\
                    nth_optN ti' (im_tys im') = nth_optN ti (im_tys im) /\
                    frames_agree (Eof tbl) (Eof' tbl) (fslot i) ti ls ls' body.

  Lemma gc_globals_in tbl : globals_in U (Eof tbl).
  Proof.
    intros id ti ls body Ef g Hg. cbn [me_funcs env_of] in Ef.
    destruct (find_func_some _ _ _ _ Ef) as (i & Hi & _). cbn [me_gslot env_of]. exact (H_used i ti ls body Hi g Hg).
  Qed.
  Lemma Hfo tbl : funcs_ok (Eof tbl) (Eof' tbl) cxo ecxo.
  Proof. exact (inst_funcs_ok im im' lslot lslot' fslot gslot mslot tslot fslot' gslot' mslot' tslot' cxo ecxo rf H_fslot H_inj H_surj H_fn tbl). Qed.
  Lemma Htb tbl : me_tbl (Eof' tbl) = me_tbl (Eof tbl).
  Proof. exact (inst_tbl_eq im im' lslot lslot' fslot gslot mslot tslot fslot' gslot' mslot' tslot' rf H_fslot tbl). Qed.

  Theorem inst_roundtrip_gc : forall fuel k,
    inst_equiv_gc U cxo ecxo (instantiate fuel k im lslot fslot gslot mslot tslot)
                             (instantiate fuel k im' lslot' fslot' gslot' mslot' tslot').
  Proof.
    intros fuel k. unfold instantiate.
    pose proof (inst_pre_gc rf rg rtb rm gslot mslot tslot gslot' mslot' tslot' U H_gslot H_tslot H_mslot im im' gl H_ren H_globals) as Hp.
    destruct (inst_pre im gslot mslot tslot) as [[tbl s0]| |], (inst_pre im' gslot' mslot' tslot') as [[tbl' s0']| |];
      cbn [pre_rel fst snd] in Hp; try contradiction; cbn [inst_equiv_gc]; try exact I.
    destruct Hp as [-> Hs]. rewrite (rc_start _ _ _ _ _ _ _ _ H_ren).
    destruct (im_start im) as [f|]; cbn [option_map].
    - rewrite H_fslot, (mod_roundtrip_equiv (Eof tbl) (Eof' tbl) cxo ecxo (Hfo tbl) (Htb tbl)).
      pose proof (run_mod_globals U (Eof tbl) k fuel (fslot f) [] s0 s0' (gc_globals_in tbl) Hs) as Hr.
      destruct (run_mod (Eof tbl) k fuel (fslot f) [] s0) as [r1|], (run_mod (Eof tbl) k fuel (fslot f) [] s0') as [r2|];
        cbn [ores_rel] in Hr; try contradiction; [|exact I].
      destruct r1 as [c1|d1 c1|h1 c1| |], r2 as [c2|d2 c2|h2 c2| |]; cbn [res_rel] in Hr; try contradiction; cbn [after_start inst_equiv_gc]; try exact I.
      + destruct Hr as (G & -> & Ha).
        assert (Hk : stk (reglobs G c1) = stk c1) by (destruct c1; reflexivity). rewrite Hk.
        destruct (stk c1); cbn [inst_equiv_gc]; [|exact I].
        split; [|split; [apply Htb|split; [apply Hfo|apply gc_globals_in]]].
        exists G. split; [destruct c1; reflexivity|exact Ha].
      + destruct Hr as [<- _]. destruct h1; exact I.
    - cbn [inst_equiv_gc]. split; [exact Hs|]. split; [apply Htb|split; [apply Hfo|apply gc_globals_in]].
  Qed.

  Theorem inst_then_call_roundtrip_gc : forall fuel k k2 fuel2 f args,
    call_rel U (call_after (instantiate fuel k im lslot fslot gslot mslot tslot) k2 fuel2 f args)
               (call_after (instantiate fuel k im' lslot' fslot' gslot' mslot' tslot') k2 fuel2 f args).
  Proof.
    intros fuel k. exact (inst_equiv_gc_call U cxo ecxo _ _ (inst_roundtrip_gc fuel k)).
  Qed.
End InstRoundtripGc.

Module RTG.
  Import Ex.
  Local Open Scope N_scope.
  (* the module of [Ex] with an UNUSED i64 global between the two others: global 2 = global.get 0 is the mutable one *)
  Definition apply_b2 : list rt := [ P (W_LocalGet 0); I 1; P (W_CallIndirect 0 0); P (W_GlobalGet 2); P W_I32Add ].
  Definition start_b2 : list rt := [ I 77; P (W_GlobalSet 2); I 8; I 258; P (W_I32Store16 (ma 0)); RNop 0 ].
  Definition im2 : imod :=
    {| im_tys := tys; im_funcs := [ (0, [], inc_b); (0, [], apply_b2); (1, [], start_b2) ];
       im_globals := [ (VT_I32, false, CI32 5); (VT_I64, false, CI64 99); (VT_I32, true, CGlobalGet 0) ];
       im_mem := Some (1, Some 2); im_table := Some (3, None);
       im_elems := [ EActive 0 (CI32 1) [Some 0; None]; EDeclared [Some 1] ];
       im_datas := [ DActive 0 (CI32 65530) [1; 2; 3; 4]; DPassive [9; 9]; DActive 0 (CGlobalGet 0) [200] ];
       im_start := Some 2 |}.
  (* the output: functions rotated, types swapped (as in [RTI]), global 1 DROPPED: global 2 becomes global 1 *)
  Definition rg (i : N) : N := if i =? 2 then 1 else if i =? 1 then 7 else i.
  Definition gslot2' (j : N) : N := if j =? 1 then 2 else j.
  Definition ecx2 : ectx :=
    {| ex_id2i := fun sp i => match sp with S_func => RTI.rf i | S_type => RTI.rt1 i | S_global => rg i | _ => i end; ex_ilen := fun _ => 1 |}.
  Definition cx2 : pctx := RTI.cx1.
  Definition im2' : imod :=
    {| im_tys := [([], []); ([VT_I32], [VT_I32])];
       im_funcs := [ (1, [], out_body cx2 ecx2 apply_b2); (0, [], out_body cx2 ecx2 start_b2); (1, [], out_body cx2 ecx2 inc_b) ];
       im_globals := [ (VT_I32, false, CI32 5); (VT_I32, true, CGlobalGet 0) ];
       im_mem := Some (1, Some 2); im_table := Some (3, None);
       im_elems := [ EActive 0 (CI32 1) [Some 2; None]; EDeclared [Some 0] ];
       im_datas := [ DActive 0 (CI32 65530) [1; 2; 3; 4]; DPassive [9; 9]; DActive 0 (CGlobalGet 0) [200] ];
       im_start := Some 1 |}.
  Example out_bodies2 : (out_body cx2 ecx2 apply_b2, out_body cx2 ecx2 start_b2) =
    ([ P (W_LocalGet 0); I 1; P (W_CallIndirect 1 0); P (W_GlobalGet 1); P W_I32Add ],
     [ I 77; P (W_GlobalSet 1); I 8; I 258; P (W_I32Store16 (ma 0)) ]).
  Proof. vm_compute. reflexivity. Qed.
  Definition U2 : list N := [0; 2].

  Lemma renamed2 : renamed_gc RTI.rf rg idN idN idN U2 im2 im2'.
  Proof.
    constructor; try reflexivity.
    - cbn [im2 im2' im_globals].
      apply (gd_keep rg idN U2 0 0 VT_I32 false (CI32 5)); [reflexivity|cbn; auto|exact Logic.I|].
      apply gd_drop; [cbn; intros [H|[H|[]]]; discriminate H|].
      apply (gd_keep rg idN U2 (0 + 1 + 1) (0 + 1) VT_I32 true (CGlobalGet 0)); [reflexivity|cbn; auto|cbn; auto|].
      apply gd_nil.
    - repeat constructor.
    - repeat constructor.
  Qed.
  Lemma rt1_tys2 i : nth_optN (RTI.rt1 i) (im_tys im2') = nth_optN i (im_tys im2).
  Proof. exact (RTI.rt1_tys i). Qed.

  Notation E2 tbl := (env_of (cmod_of im2 tbl) (fun _ => idN) idN idN idN idN).
  Notation E2' tbl := (env_of (cmod_of im2' (map (option_map RTI.rf) tbl)) (fun _ => idN) RTI.rfi gslot2' idN idN).
  Lemma fn_ok2 tbl : forall id body, In (id, body) [(0, inc_b); (1, apply_b2); (2, start_b2)] ->
    fn_ok (E2 tbl) (E2' tbl) (fun _ => cx2) (fun _ => ecx2) id body.
  Proof.
    intros id body H. apply fn_ok_std; try reflexivity.
    - intros i Hi. cbn [In] in H.
      destruct H as [H|[H|[H|[]]]]; injection H as <- <-; vm_compute in Hi;
        repeat (destruct Hi as [<-|Hi]; [reflexivity|]); destruct Hi.
    - intros f _. apply RTI.rfi_rf.
    - intros i. apply rt1_tys2.
    - cbn [In] in H. destruct H as [H|[H|[H|[]]]]; injection H as <- <-; vm_compute; reflexivity.
    - cbn [In] in H. destruct H as [H|[H|[H|[]]]]; injection H as <- <-; vm_compute; reflexivity.
  Qed.
  Lemma fn2 tbl : forall i ti ls body, nth_optN i (im_funcs im2) = Some (ti, ls, body) ->
    fn_ok (E2 tbl) (E2' tbl) (fun _ => cx2) (fun _ => ecx2) (idN i) body /\
    exists ti' ls', nth_optN (RTI.rf i) (im_funcs im2') = Some (ti', ls', out_body cx2 ecx2 body) /\
                    nth_optN ti' (im_tys im2') = nth_optN ti (im_tys im2) /\
                    frames_agree (E2 tbl) (E2' tbl) (idN i) ti ls ls' body.
  Proof.
    intros i ti ls body Hi. destruct (nth_optN_3 _ _ _ i _ Hi) as [[-> H]|[[-> H]|[-> H]]]; injection H as -> -> ->.
    all: split; [apply fn_ok2; cbn; auto|]; do 2 eexists.
    all: split; [reflexivity|]; split; [reflexivity|]; apply same_frames_agree; reflexivity.
  Qed.
  Lemma surj2 : forall j d', nth_optN j (im_funcs im2') = Some d' -> exists i d, nth_optN i (im_funcs im2) = Some d /\ RTI.rf i = j.
  Proof.
    intros j d' Hj. destruct (nth_optN_3 _ _ _ j d' Hj) as [[-> _]|[[-> _]|[-> _]]]; [exists 1|exists 2|exists 0]; eexists; split; reflexivity.
  Qed.
  Lemma used2 : forall i ti ls body, nth_optN i (im_funcs im2) = Some (ti, ls, body) -> forall g, In g (globals_used body) -> In (idN g) U2.
  Proof.
    intros i ti ls body Hi g Hg. destruct (nth_optN_3 _ _ _ i _ Hi) as [[-> H]|[[-> H]|[-> H]]]; injection H as -> -> ->; vm_compute in Hg;
      repeat (destruct Hg as [<-|Hg]; [cbn; auto|]); destruct Hg.
  Qed.
  Lemma gslot2_ok : forall g, In (idN g) U2 -> gslot2' (rg g) = idN g.
  Proof. intros g H. unfold idN, U2 in *. cbn [In] in H. destruct H as [<-|[<-|[]]]; reflexivity. Qed.

  Theorem rtg_inst : forall fuel k,
    inst_equiv_gc U2 (fun _ => cx2) (fun _ => ecx2) (instantiate fuel k im2 (fun _ => idN) idN idN idN idN)
                                                     (instantiate fuel k im2' (fun _ => idN) RTI.rfi gslot2' idN idN).
  Proof.
    apply (inst_roundtrip_gc im2 im2' (fun _ => idN) (fun _ => idN) idN idN idN idN RTI.rfi gslot2' idN idN (fun _ => cx2) (fun _ => ecx2)
             RTI.rf rg idN idN U2 [(0, VI32 5); (1, VI64 99); (2, VI32 5)]).
    - exact renamed2.
    - exact gslot2_ok.
    - reflexivity.
    - reflexivity.
    - reflexivity.
    - exact used2.
    - intros i. apply RTI.rfi_rf.
    - intros i i2 d d2 _ _ H. exact H.
    - exact surj2.
    - exact fn2.
  Qed.
  Theorem rtg_call : forall fuel k k2 fuel2 f args,
    call_rel U2 (call_after (instantiate fuel k im2 (fun _ => idN) idN idN idN idN) k2 fuel2 f args)
                (call_after (instantiate fuel k im2' (fun _ => idN) RTI.rfi gslot2' idN idN) k2 fuel2 f args).
  Proof.
    intros fuel k. exact (inst_equiv_gc_call _ _ _ _ _ (rtg_inst fuel k)).
  Qed.
  (* by computation: the two instances differ exactly in the binding of the dropped global (slot 1) *)
  Example rtg_states :
    (match instantiate 100 8 im2 (fun _ => idN) idN idN idN idN with IOk _ s0 => globs s0 | _ => [] end,
     match instantiate 100 8 im2' (fun _ => idN) RTI.rfi gslot2' idN idN with IOk _ s0 => globs s0 | _ => [] end)
    = ([(0, VI32 5); (1, VI64 99); (2, VI32 77)], [(0, VI32 5); (2, VI32 77)]).
  Proof. vm_compute. reflexivity. Qed.
End RTG.

Print Assumptions run_body_globals.
Print Assumptions run_mod_globals.
Print Assumptions inst_globals_dropped.
Print Assumptions inst_roundtrip_gc.
Print Assumptions inst_then_call_roundtrip_gc.
Print Assumptions RTG.rtg_inst.
Print Assumptions RTG.rtg_call.
