(* The renumbering of the round trip is CONSISTENT (C01 / C04): per index space, the composite map
     rho S i = the emitted index of the entity that input index i of space S denotes
   (Proofs/Structure.v [rho]) is a bijection of [0, n_S) for S in {func, table, memory, global, elem, data};
   it is a surjection that identifies exactly the structurally equal input types for S = type; and after a
   GC pass it is an injective partial map defined exactly on the kept entities. *)
From Coq Require Import List NArith ZArith Bool Arith Lia Permutation Sorted.
Import ListNotations.
From WV Require Import Gen.Ops Model.Common Model.IR Model.Arena Model.Traversal Model.EmitFn Model.Locals
                       Model.ParseFn Model.ModuleM Model.ParseM Model.EmitM Model.GC Gen.Attrs.
From WV Require Import Proofs.Arena Proofs.Order Proofs.IndexMaps Proofs.Names Proofs.Totality Proofs.ParseTotal
                       Proofs.TotalityBodies Proofs.Structure Proofs.ParsedWf Proofs.Structure2.
Local Open Scope nat_scope.

Notation rho := WV.Proofs.Structure.rho.

(* [f] is a permutation of [0, n): total into [0,n), injective wherever it is defined, onto [0,n) *)
Definition perm_on (n : nat) (f : N -> res N) : Prop :=
  (forall i, N.to_nat i < n -> exists j, f i = Ok j /\ N.to_nat j < n) /\
  (forall i i' j, f i = Ok j -> f i' = Ok j -> i = i') /\
  (forall j, N.to_nat j < n -> exists i, N.to_nat i < n /\ f i = Ok j).

(* the ids of space S in emission order *)
Definition emitted_ids (e : emitted) (S : space) : list N := map fst (space_map (em_x2i e) S).
(* the number of input entities of space S (imports + definitions) *)
Definition n_in (s : pst) (S : space) : nat := length (ids_space (ps_ids s) S).

Lemma ids_space_eq ids S : ids_space ids S = space_ids ids S.
Proof. destruct S; reflexivity. Qed.

Lemma iota_NoDup n : NoDup (iota n).
Proof. unfold iota. apply NoDup_map_inj; [intros a b; apply Nat2N.inj|apply seq_NoDup]. Qed.

Lemma nth_error_ext' {A} : forall (l l' : list A), (forall k, nth_error l k = nth_error l' k) -> l = l'.
Proof.
  induction l as [|a l IH]; intros [|b l'] H; [reflexivity|specialize (H 0); discriminate|specialize (H 0); discriminate|].
  pose proof (H 0) as H0. cbn in H0. inversion H0; subst b. f_equal. apply IH. intros k. exact (H (S k)).
Qed.

(* any numbered, duplicate-free list of emitted ids against an iota vector of input ids *)
Section Gen.
  Variables (s : pst) (e : emitted) (S : space) (n : nat).
  Hypothesis Hn : ids_space (ps_ids s) S = iota n.
  Hypothesis W : wf_map (space_map (em_x2i e) S).

  Lemma rho_eq i : rho s e S i = if N.to_nat i <? n then get_idx (em_x2i e) S i else Panic.
  Proof.
    unfold WV.Proofs.Structure.rho. rewrite Hn. destruct (N.to_nat i <? n) eqn:E.
    - apply Nat.ltb_lt in E. rewrite iota_nth by exact E. rewrite N2Nat.id. reflexivity.
    - apply Nat.ltb_ge in E. replace (nth_error (iota n) (N.to_nat i)) with (@None N); [reflexivity|].
      symmetry. apply nth_error_None. rewrite iota_length. exact E.
  Qed.

  (* rho S i = j  iff  i is an input index and the entity sits at position j of the emitted order *)
  Lemma rho_pos i j : rho s e S i = Ok j <-> N.to_nat i < n /\ nth_error (emitted_ids e S) (N.to_nat j) = Some i.
  Proof.
    rewrite rho_eq. unfold emitted_ids. destruct (N.to_nat i <? n) eqn:E.
    - apply Nat.ltb_lt in E. rewrite (x2i_positions _ _ _ _ W). tauto.
    - apply Nat.ltb_ge in E. split; [discriminate|]. intros [H _]. lia.
  Qed.

  Lemma rho_inj_gen i i' j : rho s e S i = Ok j -> rho s e S i' = Ok j -> i = i'.
  Proof. rewrite !rho_pos. intros [_ H] [_ H']. congruence. Qed.

  Lemma rho_defined_gen i : (exists j, rho s e S i = Ok j) <-> N.to_nat i < n /\ In i (emitted_ids e S).
  Proof.
    split.
    - intros [j H]. apply rho_pos in H. destruct H as [H1 H2]. split; [exact H1|]. eapply nth_error_In; eauto.
    - intros [H1 H2]. apply In_nth_error in H2. destruct H2 as [k Hk]. exists (N.of_nat k). apply rho_pos.
      rewrite Nat2N.id. auto.
  Qed.

  Lemma rho_range_gen i j : rho s e S i = Ok j -> N.to_nat j < length (emitted_ids e S).
  Proof. intros H. apply rho_pos in H. destruct H as [_ H]. apply nth_error_Some. congruence. Qed.

  Lemma rho_onto_gen j : (forall id, In id (emitted_ids e S) -> N.to_nat id < n) ->
    N.to_nat j < length (emitted_ids e S) -> exists i, N.to_nat i < n /\ rho s e S i = Ok j.
  Proof.
    intros Hin Hj. destruct (nth_error (emitted_ids e S) (N.to_nat j)) as [i|] eqn:E.
    - exists i. assert (Hi : N.to_nat i < n) by (apply Hin; eapply nth_error_In; eauto).
      split; [exact Hi|]. apply rho_pos. auto.
    - apply nth_error_None in E. lia.
  Qed.

  (* the total case: the emitted ids are exactly the input ids *)
  Hypothesis full : forall id, In id (emitted_ids e S) <-> N.to_nat id < n.

  Lemma emitted_length_gen : length (emitted_ids e S) = n.
  Proof.
    destruct W as [_ ND]. fold (emitted_ids e S) in ND. apply Nat.le_antisymm.
    - rewrite <- (iota_length n). apply NoDup_incl_length; [exact ND|]. intros x Hx. apply iota_In, full, Hx.
    - rewrite <- (iota_length n) at 1. apply NoDup_incl_length; [apply iota_NoDup|]. intros x Hx. apply full, iota_In, Hx.
  Qed.

  Lemma rho_perm_gen : perm_on n (rho s e S).
  Proof.
    split; [|split].
    - intros i Hi. destruct (proj2 (rho_defined_gen i)) as [j Hj]; [split; [exact Hi|apply full, Hi]|].
      exists j. split; [exact Hj|]. rewrite <- emitted_length_gen. eapply rho_range_gen; eauto.
    - apply rho_inj_gen.
    - intros j Hj. apply rho_onto_gen; [intros id; apply full|rewrite emitted_length_gen; exact Hj].
  Qed.

  Lemma rho_id_gen : emitted_ids e S = iota n -> forall i, N.to_nat i < n -> rho s e S i = Ok i.
  Proof. intros E i Hi. apply rho_pos. split; [exact Hi|]. rewrite E, iota_nth by exact Hi. rewrite N2Nat.id. reflexivity. Qed.
  Lemma rho_id_conv_gen : (forall i, N.to_nat i < n -> rho s e S i = Ok i) -> emitted_ids e S = iota n.
  Proof.
    intros H. apply nth_error_ext'. intros k. destruct (Nat.lt_ge_cases k n) as [Hk|Hk].
    - rewrite iota_nth by exact Hk. specialize (H (N.of_nat k)). rewrite Nat2N.id in H. specialize (H Hk).
      apply rho_pos in H. rewrite Nat2N.id in H. tauto.
    - replace (nth_error (iota n) k) with (@None N) by (symmetry; apply nth_error_None; rewrite iota_length; exact Hk).
      apply nth_error_None. rewrite emitted_length_gen. exact Hk.
  Qed.
End Gen.

Lemma imported_live m S id : closed m -> In id (imp_ids S (live_imports m)) -> ent_live m S id.
Proof.
  intros C H. unfold imp_ids in H. apply in_flat_map in H. destruct H as [i [Hi H]].
  pose proof (cl_imports m C i Hi) as L. unfold imp_id in H.
  destruct (im_kind i); destruct S; cbn [ent_live] in *; try (destruct H; fail); destruct H as [<-|[]]; exact L.
Qed.

Lemma In_filter_aiter {A} (a : tarena A) (p : N * A -> bool) id :
  In id (map fst (filter p (aiter a))) -> exists v, aget a id = Some v /\ p (id, v) = true.
Proof.
  intros H. apply in_map_iff in H. destruct H as [[id' v] [E H]]. cbn [fst] in E. subst id'. apply filter_In in H.
  exists v. split; [apply aiter_aget|]; tauto.
Qed.

Lemma indexed_live m ilen dw e S id : emitM m ilen dw = Ok e -> closed m -> S <> S_type ->
  In id (emitted_ids e S) -> ent_live m S id.
Proof.
  intros HE C HS H. destruct (emitM_x2i _ _ _ _ HE) as (fs & Hfs & Xty & Xf & Xt & Xm & Xg & Xe & Xd).
  unfold emitted_ids in H. destruct S; cbn [space_map ent_live] in *; try congruence.
  - rewrite Xf, number_fst in H. apply in_app_or in H. destruct H as [H|H]; [exact (imported_live m S_func id C H)|].
    apply (proj2 (used_local_functions_ids _ _ Hfs)) in H. destruct H as (f & lf & Hin & _).
    exists f. apply aiter_aget. exact Hin.
  - rewrite Xt, number_fst in H. apply in_app_or in H. destruct H as [H|H]; [exact (imported_live m S_table id C H)|].
    destruct (In_filter_aiter _ _ _ H) as [v [Hv _]]. exists v. exact Hv.
  - rewrite Xm, number_fst in H. apply in_app_or in H. destruct H as [H|H]; [exact (imported_live m S_memory id C H)|].
    destruct (In_filter_aiter _ _ _ H) as [v [Hv _]]. exists v. exact Hv.
  - rewrite Xg, number_fst in H. apply in_app_or in H. destruct H as [H|H]; [exact (imported_live m S_global id C H)|].
    rewrite local_globals_ids in H. destruct (In_filter_aiter _ _ _ H) as [v [Hv _]]. exists v. exact Hv.
  - rewrite Xd, number_fst in H. apply in_map_iff in H. destruct H as [[id' v] [E H]]. cbn [fst] in E. subst id'.
    exists v. apply aiter_aget. exact H.
  - rewrite Xe, number_fst in H. apply in_map_iff in H. destruct H as [[id' v] [E H]]. cbn [fst] in E. subst id'.
    exists v. apply aiter_aget. exact H.
  - destruct H.
Qed.

Theorem emitted_iff_live m ilen dw e S id : emitM m ilen dw = Ok e -> closed m -> S <> S_type ->
  (In id (emitted_ids e S) <-> ent_live m S id).
Proof.
  intros HE C HS. split; [apply (indexed_live _ _ _ _ _ _ HE C HS)|].
  destruct (emitM_x2i _ _ _ _ HE) as [fs [Hfs F]]. apply (live_indexed m fs _ C Hfs F).
Qed.

(* liveness in a module without dead slots = being below the arena length *)
Definition arena_len (m : wir) (S : space) : nat :=
  match S with
  | S_func => length (items (m_funcs m)) | S_table => length (items (m_tables m))
  | S_memory => length (items (m_memories m)) | S_global => length (items (m_globals m))
  | S_elem => length (items (m_elements m)) | S_data => length (items (m_data m))
  | _ => 0
  end.

Lemma aget_lt {A} (a : tarena A) id v : aget a id = Some v -> N.to_nat id < length (items a).
Proof. exact (Proofs.ArenaN.aget_lt a id v). Qed.

Lemma live_lt m S id : S <> S_type -> ent_live m S id -> N.to_nat id < arena_len m S.
Proof.
  intros HS H. destruct S; cbn [ent_live arena_len] in *; try congruence; try (destruct H as [v H]; exact (aget_lt _ _ _ H)).
  destruct H.
Qed.

Lemma lt_live_space m ids S id : ids_consistent m ids -> S <> S_type -> S <> S_local ->
  N.to_nat id < arena_len m S -> ent_live m S id.
Proof.
  intros I HS HL H. unfold ids_consistent in I. decompose [and] I. clear I.
  destruct S; cbn [ent_live arena_len] in *; try congruence; apply lt_live; assumption.
Qed.

Lemma idc_space_len m ids S : ids_consistent m ids -> S <> S_type -> S <> S_local -> ids_space ids S = iota (arena_len m S).
Proof.
  intros I HS HL. unfold ids_consistent in I. decompose [and] I. clear I.
  destruct S; cbn [ids_space arena_len]; congruence.
Qed.

Theorem parsed_wf_space cf ver w s ilen dw e S : parseM cf ver w = POk s -> emitM (ps_m s) ilen dw = Ok e ->
  S <> S_local -> wf_map (space_map (em_x2i e) S).
Proof.
  intros HP HE HL. destruct (parsed_wf_maps _ _ _ _ _ _ _ HP HE) as (Wt & Wm & Wg).
  destruct (rho_elements_data_id _ _ _ _ _ _ _ HP HE) as (We & Wd & _).
  destruct S; try assumption; try congruence.
  - exact (parsed_wf_funcs _ _ _ _ _ _ _ HP HE).
  - apply (emit_order_types _ _ _ _ HE).
Qed.

(* parse ; emit : rho S is a permutation of [0, n_S) *)
Section RoundTrip.
  Variables (cf : config) (ver : list N) (w : wmod) (s : pst) (ilen : wins -> N) (dw : list wsec) (e : emitted).
  Hypothesis HP : parseM cf ver w = POk s.
  Hypothesis HE : emitM (ps_m s) ilen dw = Ok e.

  Lemma n_in_arena S : S <> S_type -> S <> S_local -> n_in s S = arena_len (ps_m s) S.
  Proof. intros HS HL. unfold n_in. rewrite (idc_space_len _ _ S (parseM_ids _ _ _ _ HP) HS HL). apply iota_length. Qed.

  Lemma ids_space_n S : S <> S_type -> S <> S_local -> ids_space (ps_ids s) S = iota (n_in s S).
  Proof. intros HS HL. rewrite (n_in_arena S HS HL). apply (idc_space_len _ _ S (parseM_ids _ _ _ _ HP) HS HL). Qed.

  (* the emitted ids are exactly the input ids: nothing is dropped, nothing is invented *)
  Theorem emitted_full S id : S <> S_type -> S <> S_local -> (In id (emitted_ids e S) <-> N.to_nat id < n_in s S).
  Proof.
    intros HS HL. rewrite (emitted_iff_live _ _ _ _ S id HE (parseM_closed _ _ _ _ HP) HS), (n_in_arena S HS HL). split.
    - apply live_lt, HS.
    - apply (lt_live_space _ _ S id (parseM_ids _ _ _ _ HP) HS HL).
  Qed.

  Theorem emitted_count S : S <> S_type -> S <> S_local -> length (emitted_ids e S) = n_in s S.
  Proof.
    intros HS HL. apply (emitted_length_gen e S (n_in s S) (parsed_wf_space _ _ _ _ _ _ _ S HP HE HL)).
    intros id. apply emitted_full; assumption.
  Qed.

  Theorem rho_perm S : S <> S_type -> S <> S_local -> perm_on (n_in s S) (rho s e S).
  Proof.
    intros HS HL. apply (rho_perm_gen s e S (n_in s S) (ids_space_n S HS HL) (parsed_wf_space _ _ _ _ _ _ _ S HP HE HL)).
    intros id. apply emitted_full; assumption.
  Qed.
  Theorem rho_total S i : S <> S_type -> S <> S_local -> N.to_nat i < n_in s S ->
    exists j, rho s e S i = Ok j /\ N.to_nat j < n_in s S.
  Proof. intros HS HL. apply (rho_perm S HS HL). Qed.
  Theorem rho_onto S j : S <> S_type -> S <> S_local -> N.to_nat j < length (emitted_ids e S) ->
    exists i, N.to_nat i < n_in s S /\ rho s e S i = Ok j.
  Proof. intros HS HL Hj. apply (rho_perm S HS HL). rewrite <- (emitted_count S HS HL). exact Hj. Qed.
  Theorem rho_defined S i : S <> S_type -> S <> S_local -> ((exists j, rho s e S i = Ok j) <-> N.to_nat i < n_in s S).
  Proof.
    intros HS HL. rewrite (rho_defined_gen s e S (n_in s S) (ids_space_n S HS HL) (parsed_wf_space _ _ _ _ _ _ _ S HP HE HL)).
    rewrite (emitted_full S i HS HL). tauto.
  Qed.
  Theorem rho_inj S i i' j : S <> S_type -> S <> S_local -> rho s e S i = Ok j -> rho s e S i' = Ok j -> i = i'.
  Proof.
    intros HS HL. apply (rho_inj_gen s e S (n_in s S) (ids_space_n S HS HL) (parsed_wf_space _ _ _ _ _ _ _ S HP HE HL)).
  Qed.
  (* rho S i = j iff input entity i is the j-th emitted one *)
  Theorem rho_position S i j : S <> S_type -> S <> S_local ->
    (rho s e S i = Ok j <-> N.to_nat i < n_in s S /\ nth_error (emitted_ids e S) (N.to_nat j) = Some i).
  Proof. intros HS HL. apply (rho_pos s e S (n_in s S) (ids_space_n S HS HL) (parsed_wf_space _ _ _ _ _ _ _ S HP HE HL)). Qed.
  Theorem rho_identity_iff S : S <> S_type -> S <> S_local ->
    ((forall i, N.to_nat i < n_in s S -> rho s e S i = Ok i) <-> emitted_ids e S = iota (n_in s S)).
  Proof.
    intros HS HL. split.
    - apply (rho_id_conv_gen s e S (n_in s S) (ids_space_n S HS HL) (parsed_wf_space _ _ _ _ _ _ _ S HP HE HL)).
      intros id. apply emitted_full; assumption.
    - apply (rho_id_gen s e S (n_in s S) (ids_space_n S HS HL) (parsed_wf_space _ _ _ _ _ _ _ S HP HE HL)).
  Qed.

  (* elements, data: always the identity *)
  Theorem rho_elem_id i : N.to_nat i < n_in s S_elem -> rho s e S_elem i = Ok i.
  Proof.
    intros Hi. rewrite rho_entity_conv; [|exact (parseM_ids _ _ _ _ HP)|discriminate|discriminate|exact Hi].
    apply (rho_elements_data_id _ _ _ _ _ _ _ HP HE). exact Hi.
  Qed.
  Theorem rho_data_id i : N.to_nat i < n_in s S_data -> rho s e S_data i = Ok i.
  Proof.
    intros Hi. rewrite rho_entity_conv; [|exact (parseM_ids _ _ _ _ HP)|discriminate|discriminate|exact Hi].
    apply (rho_elements_data_id _ _ _ _ _ _ _ HP HE). exact Hi.
  Qed.
End RoundTrip.

(* well-formed imports: an invariant of the parser that GC preserves *)
Definition imp_ent (i : mimport) : space * N :=
  match im_kind i with
  | MI_Func f => (S_func, f) | MI_Table t => (S_table, t) | MI_Mem t => (S_memory, t) | MI_Global g => (S_global, g)
  end.
(* the entity says of itself that it is imported *)
Definition marked (m : wir) (p : space * N) : Prop :=
  match fst p with
  | S_func => exists v, aget (m_funcs m) (snd p) = Some v /\ is_imp_fn v
  | S_table => exists v, aget (m_tables m) (snd p) = Some v /\ tb_import v <> None
  | S_memory => exists v, aget (m_memories m) (snd p) = Some v /\ me_import v <> None
  | S_global => exists v, aget (m_globals m) (snd p) = Some v /\ is_imp_gl v
  | _ => False
  end.
(* no two live imports name the same entity; the entity of a live import is live and marked as imported *)
Definition imports_wf (m : wir) : Prop :=
  (forall id1 id2 i1 i2, aget (m_imports m) id1 = Some i1 -> aget (m_imports m) id2 = Some i2 ->
                         imp_ent i1 = imp_ent i2 -> id1 = id2) /\
  (forall id i, aget (m_imports m) id = Some i -> marked m (imp_ent i)).

Lemma imp_id_ent S i x : In x (imp_id S i) -> imp_ent i = (S, x).
Proof.
  unfold imp_id, imp_ent. destruct (im_kind i); destruct S; intros H; try (destruct H; fail); destruct H as [<-|[]]; reflexivity.
Qed.

Lemma imp_ids_NoDup_gen S : forall (l : list (N * mimport)), NoDup (map fst l) ->
  (forall id1 id2 i1 i2, In (id1, i1) l -> In (id2, i2) l -> imp_ent i1 = imp_ent i2 -> id1 = id2) ->
  NoDup (imp_ids S (map snd l)).
Proof.
  induction l as [|[id i] r IH]; intros ND U; [constructor|].
  cbn [map fst snd imp_ids flat_map] in *. fold (imp_ids S (map snd r)). inversion ND as [|? ? Hni NDr]; subst.
  assert (IHr : NoDup (imp_ids S (map snd r))).
  { apply IH; [exact NDr|]. intros id1 id2 i1 i2 H1 H2. apply U; right; assumption. }
  apply NoDup_app_intro; [|exact IHr|].
  - unfold imp_id. destruct (im_kind i); destruct S; try constructor; try (intros []); constructor.
  - intros x Hx Hr. apply imp_id_ent in Hx. unfold imp_ids in Hr. apply in_flat_map in Hr. destruct Hr as [i2 [Hi2 Hx2]].
    apply imp_id_ent in Hx2. apply in_map_iff in Hi2. destruct Hi2 as [[id2 i2'] [E Hin]]. cbn [snd] in E. subst i2'.
    assert (id = id2) by (apply (U id id2 i i2); [left; reflexivity|right; exact Hin|congruence]). subst id2.
    apply Hni. apply in_map_iff. exists (id, i2). split; [reflexivity|exact Hin].
Qed.

Lemma imp_ids_NoDup m S : imports_wf m -> NoDup (imp_ids S (live_imports m)).
Proof.
  intros [U _]. unfold live_imports. apply imp_ids_NoDup_gen; [apply aiter_NoDup|].
  intros id1 id2 i1 i2 H1 H2. apply aiter_aget in H1. apply aiter_aget in H2. eapply U; eauto.
Qed.

Lemma imp_ids_marked m S x : imports_wf m -> In x (imp_ids S (live_imports m)) -> marked m (S, x).
Proof.
  intros [_ M] H. unfold imp_ids in H. apply in_flat_map in H. destruct H as [i [Hi Hx]].
  apply live_imports_In in Hi. destruct Hi as [id Hi]. apply imp_id_ent in Hx. rewrite <- Hx. eapply M; eauto.
Qed.

Theorem imports_wf_maps m ilen dw e S : imports_wf m -> emitM m ilen dw = Ok e -> S <> S_local ->
  wf_map (space_map (em_x2i e) S).
Proof.
  intros IW HE HL. destruct (emitM_x2i _ _ _ _ HE) as (fs & Hfs & Xty & Xf & Xt & Xm & Xg & Xe & Xd).
  destruct S; cbn [space_map]; try congruence.
  - rewrite Xf. apply number_wf. apply NoDup_app_intro; [apply imp_ids_NoDup, IW|apply (used_local_functions_ids _ _ Hfs)|].
    intros x Hx Hl. apply (imp_ids_marked m S_func x IW) in Hx. cbn in Hx. destruct Hx as [v [Hv Hp]].
    apply (proj2 (used_local_functions_ids _ _ Hfs)) in Hl. destruct Hl as (f & lf & Hin & Hk). apply aiter_aget in Hin.
    rewrite Hv in Hin. inversion Hin; subst f. unfold is_imp_fn in Hp. rewrite Hk in Hp. exact Hp.
  - apply (emit_order_types _ _ _ _ HE).
  - rewrite Xt. apply number_wf. apply NoDup_app_intro; [apply imp_ids_NoDup, IW|apply local_tables_NoDup|].
    intros x Hx Hl. apply (imp_ids_marked m S_table x IW) in Hx. cbn in Hx. destruct Hx as [v [Hv Hp]].
    destruct (In_filter_aiter _ _ _ Hl) as [v' [Hl' Hk]]. cbn [snd] in Hk. rewrite Hv in Hl'. inversion Hl'; subst v'.
    destruct (tb_import v); [discriminate|congruence].
  - rewrite Xm. apply number_wf. apply NoDup_app_intro; [apply imp_ids_NoDup, IW|apply local_memories_NoDup|].
    intros x Hx Hl. apply (imp_ids_marked m S_memory x IW) in Hx. cbn in Hx. destruct Hx as [v [Hv Hp]].
    destruct (In_filter_aiter _ _ _ Hl) as [v' [Hl' Hk]]. cbn [snd] in Hk. rewrite Hv in Hl'. inversion Hl'; subst v'.
    destruct (me_import v); [discriminate|congruence].
  - rewrite Xg. apply number_wf. apply NoDup_app_intro; [apply imp_ids_NoDup, IW|apply local_globals_NoDup|].
    intros x Hx Hl. apply (imp_ids_marked m S_global x IW) in Hx. cbn in Hx. destruct Hx as [v [Hv Hp]].
    rewrite local_globals_ids in Hl.
    destruct (In_filter_aiter _ _ _ Hl) as [v' [Hl' Hk]]. cbn [snd] in Hk. rewrite Hv in Hl'. inversion Hl'; subst v'.
    unfold is_imp_gl in Hp. destruct (gl_kind v); [discriminate|exact Hp].
  - apply (emit_order_data _ _ _ _ HE).
  - apply (emit_order_elements _ _ _ _ HE).
Qed.

Lemma NoDup_app_inv {A} (a b : list A) : NoDup (a ++ b) -> NoDup a /\ NoDup b /\ forall x, In x a -> ~ In x b.
Proof.
  induction a as [|h a IH]; cbn [app]; intros H.
  - split; [constructor|]. split; [exact H|]. intros x [].
  - inversion H as [|? ? Hn Hr]; subst. destruct (IH Hr) as (Ha & Hb & Hd). split; [|split; [exact Hb|]].
    + constructor; [|exact Ha]. intros Hin. apply Hn. apply in_or_app. left. exact Hin.
    + intros x [<-|Hx]; [|apply Hd, Hx]. intros Hin. apply Hn. apply in_or_app. right. exact Hin.
Qed.

Lemma flat_map_NoDup_nth {A B} (k : A -> list B) : forall l a b x y t, NoDup (flat_map k l) ->
  nth_error l a = Some x -> nth_error l b = Some y -> In t (k x) -> In t (k y) -> a = b.
Proof.
  induction l as [|h r IH]; intros a b x y t ND Ha Hb Hx Hy; [destruct a; discriminate|].
  cbn [flat_map] in ND. apply NoDup_app_inv in ND. destruct ND as (_ & NDr & Hd).
  destruct a as [|a]; destruct b as [|b]; cbn [nth_error] in Ha, Hb.
  - reflexivity.
  - inversion Ha; subst h. exfalso. apply (Hd t Hx). apply in_flat_map. exists y. split; [eapply nth_error_In; eauto|exact Hy].
  - inversion Hb; subst h. exfalso. apply (Hd t Hy). apply in_flat_map. exists x. split; [eapply nth_error_In; eauto|exact Hx].
  - f_equal. eapply IH; eauto.
Qed.

(* one kind of import against its arena: no entity is named twice, every named entity is there with the mark [P] *)
Lemma imp_ok_wf {A} (P : A -> Prop) (k : mimport -> list N) (l : list mimport) (a : tarena A) :
  dead a = [] -> Names.imp_ok P (flat_map k l) (items a) ->
  (forall n1 n2 i1 i2 x, nth_error l n1 = Some i1 -> nth_error l n2 = Some i2 -> In x (k i1) -> In x (k i2) -> n1 = n2) /\
  (forall i x, In i l -> In x (k i) -> exists v, aget a x = Some v /\ P v).
Proof.
  intros D [ND F]. split.
  - intros n1 n2 i1 i2 x H1 H2. apply (flat_map_NoDup_nth k l n1 n2 i1 i2 x ND H1 H2).
  - intros i x Hi Hx. rewrite Forall_forall in F. destruct (F x) as [v [Hv Hp]]; [apply in_flat_map; eauto|].
    exists v. rewrite Totality.aget_nodead by exact D. auto.
Qed.

Theorem parsed_imports_wf cf ver w s : parseM cf ver w = POk s -> imports_wf (ps_m s).
Proof.
  intros HP. pose proof (parseM_ids _ _ _ _ HP) as I. pose proof (parseM_iv _ _ _ _ HP) as (Jt & Jm & Jg & Jf).
  unfold ids_consistent in I. decompose [and] I. clear I.
  apply imp_ok_wf in Jt, Jm, Jg, Jf; try assumption.
  split.
  - intros id1 id2 i1 i2 G1 G2 E. rewrite Totality.aget_nodead in G1, G2 by assumption. apply N2Nat.inj. unfold imp_ent in E.
    destruct (im_kind i1) as [x|x|x|x] eqn:E1; destruct (im_kind i2) as [x2|x2|x2|x2] eqn:E2; try discriminate;
      injection E as <-.
    + apply (proj1 Jf _ _ _ _ x G1 G2); [rewrite E1|rewrite E2]; left; reflexivity.
    + apply (proj1 Jt _ _ _ _ x G1 G2); [rewrite E1|rewrite E2]; left; reflexivity.
    + apply (proj1 Jm _ _ _ _ x G1 G2); [rewrite E1|rewrite E2]; left; reflexivity.
    + apply (proj1 Jg _ _ _ _ x G1 G2); [rewrite E1|rewrite E2]; left; reflexivity.
  - intros id i Hi. rewrite Totality.aget_nodead in Hi by assumption. apply nth_error_In in Hi. unfold imp_ent, marked.
    destruct (im_kind i) as [x|x|x|x] eqn:Ek; cbn [fst snd].
    + apply (proj2 Jf i x Hi). rewrite Ek. left. reflexivity.
    + apply (proj2 Jt i x Hi). rewrite Ek. left. reflexivity.
    + apply (proj2 Jm i x Hi). rewrite Ek. left. reflexivity.
    + apply (proj2 Jg i x Hi). rewrite Ek. left. reflexivity.
Qed.

Theorem gc_imports_wf m m' : imports_wf m -> gc_sweep m = Ok m' -> imports_wf m'.
Proof.
  intros [U M] Hg. destruct (gc_shape _ _ Hg) as [u [Hu R]]. split.
  - intros id1 id2 i1 i2 H1 H2. apply (gr_imports _ _ _ R) in H1. apply (gr_imports _ _ _ R) in H2.
    destruct H1 as [H1 _]. destruct H2 as [H2 _]. eapply U; eauto.
  - intros id i Hi. apply (gr_imports _ _ _ R) in Hi. destruct Hi as [Hi Hk]. specialize (M id i Hi).
    unfold imp_used in Hk. unfold imp_ent, marked in *. destruct (im_kind i) as [x|x|x|x]; cbn [fst snd] in *;
      apply G.mem_ent_In in Hk; destruct M as [v [Hv Hp]]; exists v; (split; [|exact Hp]).
    + apply (gr_funcs _ _ _ R). auto.
    + apply (gr_tables _ _ _ R). auto.
    + apply (gr_memories _ _ _ R). auto.
    + apply (gr_globals _ _ _ R). auto.
Qed.

(* parse ; gc_sweep ; emit : rho is an injective partial map, defined exactly on the kept ones *)
Lemma ex_iff_and {A} (P Q : A -> Prop) (U : Prop) : (forall v, P v <-> Q v /\ U) -> ((exists v, P v) <-> (exists v, Q v) /\ U).
Proof.
  intros H. split; [intros [v Hv]; apply H in Hv; destruct Hv; eauto|intros [[v Hv] Hu]; exists v; apply H; auto].
Qed.
Lemma gc_live_iff m m' u S id : gc_rel m m' u -> S <> S_type -> S <> S_local ->
  (ent_live m' S id <-> ent_live m S id /\ In (S, id) u).
Proof.
  intros R HS HL. destruct S; try congruence; apply ex_iff_and; intros v;
    [apply (gr_funcs _ _ _ R)|apply (gr_tables _ _ _ R)|apply (gr_memories _ _ _ R)|apply (gr_globals _ _ _ R)
    |apply (gr_data _ _ _ R)|apply (gr_elements _ _ _ R)].
Qed.

Section AfterGC.
  Variables (cf : config) (ver : list N) (w : wmod) (s : pst) (ilen : wins -> N) (dw : list wsec) (m' : wir) (e' : emitted).
  Hypothesis HP : parseM cf ver w = POk s.
  Hypothesis HG : gc_sweep (ps_m s) = Ok m'.
  Hypothesis HE : emitM m' ilen dw = Ok e'.

  Theorem gc_wf_space S : S <> S_local -> wf_map (space_map (em_x2i e') S).
  Proof.
    intros HL. apply (imports_wf_maps m' ilen dw e' S); [|exact HE|exact HL].
    eapply gc_imports_wf; [|exact HG]. eapply parsed_imports_wf; exact HP.
  Qed.

  Theorem gc_emitted_kept : exists u, used (ps_m s) = Ok u /\
    forall S id, S <> S_type -> S <> S_local ->
      (In id (emitted_ids e' S) <-> N.to_nat id < n_in s S /\ In (S, id) u).
  Proof.
    destruct (gc_shape _ _ HG) as [u [Hu R]]. exists u. split; [exact Hu|]. intros S id HS HL.
    destruct (gc_closed_after_parse _ _ _ _ _ HP HG) as [C _].
    rewrite (emitted_iff_live _ _ _ _ S id HE C HS), (gc_live_iff _ _ _ S id R HS HL), (n_in_arena _ _ _ _ HP S HS HL).
    split; intros [H1 H2]; (split; [|exact H2]).
    - apply live_lt; assumption.
    - apply (lt_live_space _ _ S id (parseM_ids _ _ _ _ HP) HS HL H1).
  Qed.

  (* two kept entities never collapse onto one emitted index *)
  Theorem rho_gc_inj S i i' j : S <> S_type -> S <> S_local -> rho s e' S i = Ok j -> rho s e' S i' = Ok j -> i = i'.
  Proof. intros HS HL. apply (rho_inj_gen s e' S (n_in s S) (ids_space_n _ _ _ _ HP S HS HL) (gc_wf_space S HL)). Qed.

  Theorem rho_gc_defined : exists u, used (ps_m s) = Ok u /\
    forall S i, S <> S_type -> S <> S_local ->
      ((exists j, rho s e' S i = Ok j) <-> N.to_nat i < n_in s S /\ In (S, i) u).
  Proof.
    destruct gc_emitted_kept as [u [Hu K]]. exists u. split; [exact Hu|]. intros S i HS HL.
    rewrite (rho_defined_gen s e' S (n_in s S) (ids_space_n _ _ _ _ HP S HS HL) (gc_wf_space S HL)).
    rewrite (K S i HS HL). tauto.
  Qed.

  (* the range is exactly the emitted index space [0, number of kept entities) *)
  Theorem rho_gc_range S i j : S <> S_type -> S <> S_local -> rho s e' S i = Ok j -> N.to_nat j < length (emitted_ids e' S).
  Proof. intros HS HL. apply (rho_range_gen s e' S (n_in s S) (ids_space_n _ _ _ _ HP S HS HL) (gc_wf_space S HL)). Qed.
  Theorem rho_gc_onto S j : S <> S_type -> S <> S_local -> N.to_nat j < length (emitted_ids e' S) ->
    exists i, N.to_nat i < n_in s S /\ rho s e' S i = Ok j.
  Proof.
    intros HS HL. apply (rho_onto_gen s e' S (n_in s S) (ids_space_n _ _ _ _ HP S HS HL) (gc_wf_space S HL)).
    destruct gc_emitted_kept as [u [_ K]]. intros id Hid. apply (K S id HS HL) in Hid. tauto.
  Qed.
  Theorem rho_gc_position S i j : S <> S_type -> S <> S_local ->
    (rho s e' S i = Ok j <-> N.to_nat i < n_in s S /\ nth_error (emitted_ids e' S) (N.to_nat j) = Some i).
  Proof. intros HS HL. apply (rho_pos s e' S (n_in s S) (ids_space_n _ _ _ _ HP S HS HL) (gc_wf_space S HL)). Qed.
  (* nothing is emitted twice; at most the input entities are emitted *)
  Theorem gc_emitted_count S : S <> S_type -> S <> S_local -> length (emitted_ids e' S) <= n_in s S.
  Proof.
    intros HS HL. rewrite <- (iota_length (n_in s S)). apply NoDup_incl_length; [apply (gc_wf_space S HL)|].
    destruct gc_emitted_kept as [u [_ K]]. intros id Hid. apply iota_In. apply (K S id HS HL) in Hid. tauto.
  Qed.
End AfterGC.

Definition TU (s : aset mtype) : Prop :=
  (forall id v, nth_error (items (Arena.arena s)) id = Some v -> exists k, In (k, id) (already s) /\ mtype_eqb k v = true) /\
  (forall id1 id2 v1 v2, nth_error (items (Arena.arena s)) id1 = Some v1 -> nth_error (items (Arena.arena s)) id2 = Some v2 ->
     mtype_eqb v1 v2 = true -> id1 = id2).
(* every non-entry type of the arena is denoted by some input type index *)
Definition TE (s : aset mtype) (tys : list N) : Prop :=
  forall id v, nth_error (items (Arena.arena s)) id = Some v -> ty_entry v = false -> In (N.of_nat id) tys.

Lemma lookup_none (l : list (mtype * nat)) v : lookup mtype_eqb l v = None -> forall k id, In (k, id) l -> mtype_eqb k v = false.
Proof.
  induction l as [|[k0 i0] r IH]; cbn [lookup]; intros H k id Hin; [destruct Hin|].
  destruct (mtype_eqb k0 v) eqn:E; [discriminate|]. destruct Hin as [Hin|Hin]; [inversion Hin; subst; exact E|eapply IH; eauto].
Qed.
Lemma nth_snoc {A} (l : list A) t i v : nth_error (l ++ [t]) i = Some v ->
  nth_error l i = Some v \/ (i = length l /\ v = t).
Proof.
  intros H. destruct (Nat.lt_ge_cases i (length l)) as [L|L].
  - rewrite nth_error_app1 in H by exact L. left; exact H.
  - rewrite nth_error_app2 in H by exact L. right.
    destruct (i - length l) as [|d] eqn:Ed; cbn in H; [|destruct d; discriminate].
    inversion H; subst. split; [lia|reflexivity].
Qed.

(* what a type insertion does to the arena: nothing if an equal key is there, else one item more *)
Lemma types_insert_items m t m1 id : types_insert m t = (m1, id) ->
  (m_types m1 = m_types m /\ exists k, In (k, N.to_nat id) (already (m_types m)) /\ mtype_eqb k t = true) \/
  (lookup mtype_eqb (already (m_types m)) t = None /\ id = N.of_nat (length (items (Arena.arena (m_types m)))) /\
   items (Arena.arena (m_types m1)) = items (Arena.arena (m_types m)) ++ [t] /\
   already (m_types m1) = (t, length (items (Arena.arena (m_types m)))) :: already (m_types m)).
Proof.
  unfold types_insert, insert. destruct (lookup mtype_eqb (already (m_types m)) t) as [i|] eqn:El; wcbn; intros [= <- <-].
  - left. split; [reflexivity|]. rewrite Nat2N.id. exact (lookup_In_eqb _ _ _ El).
  - right. wcbn. auto.
Qed.

Lemma TU_empty : TU aset_empty.
Proof. split; [intros i v H; destruct i; discriminate|intros i1 i2 v1 v2 H; destruct i1; discriminate]. Qed.

Lemma types_insert_TU m t m1 id : TU (m_types m) -> types_insert m t = (m1, id) -> TU (m_types m1).
Proof.
  intros [C U] E. destruct (types_insert_items _ _ _ _ E) as [[-> _]|(NL & _ & Ei & Ea)]; [split; assumption|].
  assert (Fresh : forall i v, nth_error (items (Arena.arena (m_types m))) i = Some v -> mtype_eqb v t = false).
  { intros i v H. destruct (C _ _ H) as [k [Hin He]]. destruct (mtype_eqb v t) eqn:Ev; [|reflexivity].
    rewrite <- (lookup_none _ _ NL _ _ Hin). symmetry. eapply mtype_eqb_trans; eauto. }
  split; rewrite Ei.
  - rewrite Ea. intros i v H. apply nth_snoc in H. destruct H as [H|[-> ->]].
    + destruct (C _ _ H) as [k [Hin He]]. exists k. split; [right; exact Hin|exact He].
    + exists t. split; [left; reflexivity|apply mtype_eqb_refl'].
  - intros id1 id2 v1 v2 H1 H2 He. apply nth_snoc in H1. apply nth_snoc in H2.
    destruct H1 as [H1|[-> ->]]; destruct H2 as [H2|[-> ->]].
    + eapply U; eauto.
    + rewrite (Fresh _ _ H1) in He. discriminate.
    + apply mtype_eqb_sym in He. rewrite (Fresh _ _ H2) in He. discriminate.
    + reflexivity.
Qed.

(* an inserted type is denoted by the id it got; an entry type needs no index *)
Lemma types_insert_TE m t m1 id tys : TE (m_types m) tys -> types_insert m t = (m1, id) ->
  TE (m_types m1) (tys ++ [id]) /\ (ty_entry t = true -> TE (m_types m1) tys).
Proof.
  intros H E. destruct (types_insert_items _ _ _ _ E) as [[-> _]|(_ & -> & Ei & _)].
  - split; [|intros _; exact H]. intros k v Hk He. apply in_or_app. left. eapply H; eauto.
  - unfold TE. rewrite Ei. split.
    + intros k v Hk He. apply in_or_app. apply nth_snoc in Hk. destruct Hk as [Hk|[-> ->]]; [left; eapply H; eauto|right; left; reflexivity].
    + intros Ht k v Hk He. apply nth_snoc in Hk. destruct Hk as [Hk|[-> ->]]; [eapply H; eauto|congruence].
Qed.

Section Rename.
  Variables (s : aset mtype) (a' : tarena mtype).
  Hypothesis L : length (items a') = length (items (Arena.arena s)).
  Hypothesis Q : items_eqv (items (Arena.arena s)) (items a').

  Lemma rename_back i v' : nth_error (items a') i = Some v' ->
    exists v, nth_error (items (Arena.arena s)) i = Some v /\ mtype_eqb v v' = true.
  Proof.
    intros H. destruct (nth_error (items (Arena.arena s)) i) as [v|] eqn:E.
    - exists v. split; [reflexivity|]. destruct (Q _ _ E) as [v2 [H2 He]]. rewrite H in H2. inversion H2; subst. exact He.
    - apply nth_error_None in E. assert (i < length (items a')) by (apply nth_error_Some; congruence). lia.
  Qed.
  Lemma TU_rename : TU s -> TU {| Arena.arena := a'; already := already s |}.
  Proof.
    intros [C U]. split; wcbn.
    - intros id v' H. destruct (rename_back _ _ H) as [v [Hv He]]. destruct (C _ _ Hv) as [k [Hin Hk]].
      exists k. split; [exact Hin|]. eapply mtype_eqb_trans; eauto.
    - intros id1 id2 v1 v2 H1 H2 He. destruct (rename_back _ _ H1) as [u1 [Hu1 He1]]. destruct (rename_back _ _ H2) as [u2 [Hu2 He2]].
      apply (U id1 id2 u1 u2 Hu1 Hu2). eapply mtype_eqb_trans; [exact He1|]. eapply mtype_eqb_trans; [exact He|].
      apply mtype_eqb_sym. exact He2.
  Qed.
  Lemma TE_rename tys : TE s tys -> TE {| Arena.arena := a'; already := already s |} tys.
  Proof.
    intros H id v' Hv He. wcbn. destruct (rename_back _ _ Hv) as [v [E Hq]]. apply mtype_eqb_spec in Hq.
    apply (H id v E). destruct Hq as (_ & _ & Hq). congruence.
  Qed.
End Rename.

Theorem parseM_TU : forall cf ver w s, parseM cf ver w = POk s -> TU (m_types (ps_m s)).
Proof.
  intros cf ver w s. apply (parseM_types_inv (fun t _ => TU t)); [| |apply TU_empty].
  - intros m t m1 id _ W E. pose proof (types_insert_TU _ _ _ _ W E) as W1. split; [exact W1|intros _; exact W1].
  - intros t a' _ L _ Q W. exact (TU_rename t a' L Q W).
Qed.
Theorem parseM_TE : forall cf ver w s, parseM cf ver w = POk s -> TE (m_types (ps_m s)) (ii_types (ps_ids s)).
Proof.
  intros cf ver w s. apply (parseM_types_inv TE).
  - intros m t m1 id tys. apply types_insert_TE.
  - intros t a' tys L _ Q. apply (TE_rename t a' L Q).
  - intros id v H. destruct id; discriminate.
Qed.

Section Types.
  Variables (cf : config) (ver : list N) (w : wmod) (s : pst) (ilen : wins -> N) (dw : list wsec) (e : emitted).
  Hypothesis HP : parseM cf ver w = POk s.
  Hypothesis HE : emitM (ps_m s) ilen dw = Ok e.
  (* the input types, in type-index order *)
  Let T := flat_map types_of w.

  Lemma n_in_types : n_in s S_type = length T.
  Proof. destruct (parseM_sigs _ _ _ _ HP) as [[HL _] _]. exact HL. Qed.

  Lemma rho_type_unfold i j : rho s e S_type i = Ok j <->
    exists id, nth_error (ii_types (ps_ids s)) (N.to_nat i) = Some id /\ get_idx (em_x2i e) S_type id = Ok j.
  Proof.
    unfold WV.Proofs.Structure.rho. cbn [ids_space]. destruct (nth_error (ii_types (ps_ids s)) (N.to_nat i)) as [id|].
    - split; [intros H; exists id; auto|intros [id' [E H]]; inversion E; subst; exact H].
    - split; [discriminate|intros [id' [E _]]; discriminate].
  Qed.

  (* input type index i denotes a live non-entry type with the input's params and results *)
  Lemma type_denotes i t : nth_error T (N.to_nat i) = Some t ->
    exists id ty, nth_error (ii_types (ps_ids s)) (N.to_nat i) = Some id /\
                  nth_error (items (Arena.arena (m_types (ps_m s)))) (N.to_nat id) = Some ty /\ ty_sig ty t /\
                  types_get (ps_m s) id = Some ty.
  Proof.
    intros Hi. destruct (parseM_sigs _ _ _ _ HP) as [[_ HT] _]. destruct (HT _ _ Hi) as (id & ty & H1 & H2 & H3).
    exists id, ty. split; [exact H1|]. split; [exact H2|]. split; [exact H3|].
    unfold types_get. rewrite aset_index_nodead; [exact H2|]. apply (parseM_types_wf _ _ _ _ HP).
  Qed.

  Theorem rho_type_total i : N.to_nat i < n_in s S_type ->
    exists j, rho s e S_type i = Ok j /\ N.to_nat j < length (emitted_ids e S_type).
  Proof.
    rewrite n_in_types. intros Hi. destruct (nth_error T (N.to_nat i)) as [t|] eqn:Et; [|apply nth_error_None in Et; lia].
    destruct (type_denotes i t Et) as (id & ty & H1 & H2 & (_ & _ & H3) & H4).
    pose proof (emitted_types_In _ _ _ H4 H3) as Hin.
    destruct (emit_order_types _ _ _ _ HE) as [Eo Wt]. rewrite <- Eo in Hin.
    apply In_nth_error in Hin. destruct Hin as [k Hk]. exists (N.of_nat k). split.
    - apply rho_type_unfold. exists id. split; [exact H1|]. apply (x2i_positions _ S_type _ _ Wt). rewrite Nat2N.id. exact Hk.
    - rewrite Nat2N.id. unfold emitted_ids. cbn [space_map]. apply nth_error_Some. congruence.
  Qed.
  Theorem rho_type_defined i : (exists j, rho s e S_type i = Ok j) <-> N.to_nat i < n_in s S_type.
  Proof.
    split.
    - intros [j H]. apply rho_type_unfold in H. destruct H as [id [H _]]. unfold n_in. cbn [ids_space].
      apply nth_error_Some. congruence.
    - intros H. destruct (rho_type_total i H) as [j [Hj _]]. eauto.
  Qed.

  (* de-duplication: two input type indices get the same emitted index exactly when the input types have the same
     params and results *)
  Theorem rho_type_identifies i i' t t' j j' :
    nth_error T (N.to_nat i) = Some t -> nth_error T (N.to_nat i') = Some t' ->
    rho s e S_type i = Ok j -> rho s e S_type i' = Ok j' -> (j = j' <-> t = t').
  Proof.
    intros Ht Ht' Hj Hj'.
    destruct (type_denotes i t Ht) as (id & ty & H1 & H2 & (P1 & P2 & P3) & _).
    destruct (type_denotes i' t' Ht') as (id' & ty' & H1' & H2' & (P1' & P2' & P3') & _).
    apply rho_type_unfold in Hj. destruct Hj as (x & X1 & Hj). rewrite H1 in X1. inversion X1; subst x; clear X1.
    apply rho_type_unfold in Hj'. destruct Hj' as (x & X1 & Hj'). rewrite H1' in X1. inversion X1; subst x; clear X1.
    destruct (emit_order_types _ _ _ _ HE) as [_ Wt]. split.
    - intros <-. assert (id = id') by (eapply (lookup_inj _ id id' j Wt); [exact Hj|exact Hj']). subst id'.
      rewrite H2 in H2'. inversion H2'; subst ty'. destruct t, t'. cbn [fst snd] in *. congruence.
    - intros <-. destruct (parseM_TU _ _ _ _ HP) as [_ U].
      assert (E : N.to_nat id = N.to_nat id').
      { apply (U _ _ ty ty' H2 H2'). apply mtype_eqb_spec. repeat split; congruence. }
      apply N2Nat.inj in E. subst id'. congruence.
  Qed.
  Corollary rho_type_eq_iff i i' t t' :
    nth_error T (N.to_nat i) = Some t -> nth_error T (N.to_nat i') = Some t' ->
    (rho s e S_type i = rho s e S_type i' <-> t = t').
  Proof.
    intros Ht Ht'.
    assert (Li : N.to_nat i < n_in s S_type) by (rewrite n_in_types; apply nth_error_Some; congruence).
    assert (Li' : N.to_nat i' < n_in s S_type) by (rewrite n_in_types; apply nth_error_Some; congruence).
    destruct (rho_type_total i Li) as [j [Hj _]]. destruct (rho_type_total i' Li') as [j' [Hj' _]].
    rewrite <- (rho_type_identifies i i' t t' j j' Ht Ht' Hj Hj'). rewrite Hj, Hj'. split; [intros H; inversion H; reflexivity|intros ->; reflexivity].
  Qed.
  Theorem rho_type_onto j : N.to_nat j < length (emitted_ids e S_type) ->
    exists i, N.to_nat i < n_in s S_type /\ rho s e S_type i = Ok j.
  Proof.
    intros Hj. destruct (emit_order_types _ _ _ _ HE) as [Eo Wt].
    destruct (nth_error (emitted_ids e S_type) (N.to_nat j)) as [id|] eqn:En; [|apply nth_error_None in En; lia].
    assert (Hin : In id (map fst (emitted_types (ps_m s)))).
    { rewrite <- Eo. eapply nth_error_In. exact En. }
    apply in_map_iff in Hin. destruct Hin as [[id0 ty] [E0 Hin]]. cbn [fst] in E0. subst id0.
    unfold emitted_types in Hin. eapply Permutation_in in Hin; [|apply sort_types_perm].
    apply filter_In in Hin. destruct Hin as [Hin Hne]. cbn [snd] in Hne. unfold live_types, aset_iter in Hin.
    apply (aiter_In_nth (Arena.arena (m_types (ps_m s)))) in Hin.
    assert (Hent : ty_entry ty = false) by (destruct (ty_entry ty); [discriminate|reflexivity]).
    pose proof (parseM_TE _ _ _ _ HP _ _ Hin Hent) as Hi. rewrite N2Nat.id in Hi.
    apply In_nth_error in Hi. destruct Hi as [k Hk]. exists (N.of_nat k). rewrite Nat2N.id. split.
    - unfold n_in. cbn [ids_space]. apply nth_error_Some. congruence.
    - apply rho_type_unfold. exists id. rewrite Nat2N.id. split; [exact Hk|].
      apply (x2i_positions _ S_type _ _ Wt). exact En.
  Qed.
End Types.

(* tables / memories / globals: when is rho the identity? *)
(* a parser invariant: the import records list the imported entities of each kind in increasing id order *)
Definition tmg (S : space) : Prop := S = S_table \/ S = S_memory \/ S = S_global.
Definition ISort (m : wir) : Prop := forall S, tmg S ->
  StronglySorted N.lt (imp_ids S (items (m_imports m))) /\
  forall x, In x (imp_ids S (items (m_imports m))) -> N.to_nat x < arena_len m S.

Lemma sorted_app (l1 l2 : list N) : StronglySorted N.lt l1 -> StronglySorted N.lt l2 ->
  (forall x y, In x l1 -> In y l2 -> (x < y)%N) -> StronglySorted N.lt (l1 ++ l2).
Proof.
  induction l1 as [|a l1 IH]; cbn [app]; intros H1 H2 Hc; [exact H2|].
  inversion H1 as [|? ? Hs Hall]; subst. constructor.
  - apply IH; [exact Hs|exact H2|]. intros x y Hx Hy. apply Hc; [right; exact Hx|exact Hy].
  - apply Forall_app. split; [exact Hall|]. apply Forall_forall. intros y Hy. apply Hc; [left; reflexivity|exact Hy].
Qed.
Lemma sorted_seq : forall c a, StronglySorted N.lt (map N.of_nat (seq a c)).
Proof.
  induction c as [|c IH]; intros a; cbn [seq map]; constructor; [apply IH|].
  apply Forall_forall. intros y Hy. apply in_map_iff in Hy. destruct Hy as [k [<- Hk]]. apply in_seq in Hk. lia.
Qed.
Lemma iota_sorted n : StronglySorted N.lt (iota n).
Proof. apply sorted_seq. Qed.

Lemma sorted_full_iota (l : list N) n : StronglySorted N.lt l -> (forall x, In x l <-> N.to_nat x < n) -> l = iota n.
Proof. intros H F. apply sorted_lt_ext; [exact H|apply iota_sorted|]. intros x. rewrite F. symmetry. apply iota_In. Qed.

Lemma imp_ids_app S a b : imp_ids S (a ++ b) = imp_ids S a ++ imp_ids S b.
Proof. unfold imp_ids. apply flat_map_app. Qed.

Lemma imp_ids_entries : forall l nf nt nm ng base,
  imp_ids S_table (imp_entries nf nt nm ng l) = map N.of_nat (seq nt (length (imp_tables base l))) /\
  imp_ids S_memory (imp_entries nf nt nm ng l) = map N.of_nat (seq nm (length (imp_mems base l))) /\
  imp_ids S_global (imp_entries nf nt nm ng l) = map N.of_nat (seq ng (length (imp_globals base l))).
Proof.
  unfold imp_ids. induction l as [|i r IH]; intros nf nt nm ng base; [repeat split; reflexivity|].
  cbn [imp_entries imp_tables imp_mems imp_globals]. destruct (wi_kind i).
  - destruct (IH (S nf) nt nm ng (S base)) as (A & B & C). cbn [flat_map imp_id im_kind app]. auto.
  - destruct (IH nf (S nt) nm ng (S base)) as (A & B & C). cbn [flat_map imp_id im_kind app length seq map].
    rewrite A. auto.
  - destruct (IH nf nt (S nm) ng (S base)) as (A & B & C). cbn [flat_map imp_id im_kind app length seq map].
    rewrite B. auto.
  - destruct (IH nf nt nm (S ng) (S base)) as (A & B & C). cbn [flat_map imp_id im_kind app length seq map].
    rewrite C. auto.
Qed.

Lemma arena_len_K m : arena_len m S_table = length (K_tables m) /\ arena_len m S_memory = length (K_mems m) /\
  arena_len m S_global = length (K_globals m).
Proof. unfold K_tables, K_mems, K_globals. rewrite !map_length. auto. Qed.

Lemma ISort_step_new (old : list N) (lo c hi : nat) :
  StronglySorted N.lt old -> (forall x, In x old -> N.to_nat x < lo) -> hi = lo + c ->
  StronglySorted N.lt (old ++ map N.of_nat (seq lo c)) /\
  forall x, In x (old ++ map N.of_nat (seq lo c)) -> N.to_nat x < hi.
Proof.
  intros Hs Hb ->. split.
  - apply sorted_app; [exact Hs|apply sorted_seq|]. intros x y Hx Hy. apply Hb in Hx. apply in_map_iff in Hy.
    destruct Hy as [k [<- Hk]]. apply in_seq in Hk. lia.
  - intros x Hx. apply in_app_or in Hx. destruct Hx as [Hx|Hx]; [apply Hb in Hx; lia|].
    apply in_map_iff in Hx. destruct Hx as [k [<- Hk]]. apply in_seq in Hk. rewrite Nat2N.id. lia.
Qed.

Lemma ISort_mono m m' : m_imports m' = m_imports m -> (forall S, tmg S -> arena_len m S <= arena_len m' S) -> ISort m -> ISort m'.
Proof.
  intros M Mono IS S HS. rewrite M. destruct (IS S HS) as [I1 I2]. split; [exact I1|].
  intros x Hx. specialize (I2 x Hx). specialize (Mono S HS). lia.
Qed.

Lemma parse_sec_ISort s sec s' : ids_consistent (ps_m s) (ps_ids s) -> ISort (ps_m s) -> parse_sec s sec = POk s' ->
  ISort (ps_m s').
Proof.
  intros Hid IS E.
  destruct (parse_sec_TM _ _ _ E) as [T1 T2]. destruct (parse_sec_GES _ _ _ Hid E) as (G1 & _ & _).
  assert (Mono : forall S, tmg S -> arena_len (ps_m s) S <= arena_len (ps_m s') S).
  { destruct (arena_len_K (ps_m s)) as (A1 & A2 & A3). destruct (arena_len_K (ps_m s')) as (B1 & B2 & B3).
    intros S [-> | [-> | ->] ]; [rewrite A1, B1, T1|rewrite A2, B2, T2|rewrite A3, B3, G1]; rewrite app_length; lia. }
  pose proof (parse_sec_FT _ _ _ E) as (_ & _ & M).
  destruct sec; try exact (ISort_mono _ _ M Mono IS).
  clear M T1 T2 G1 Mono.
  unfold parse_sec in E. pinv E as x Ex. destruct x as [m1 i1]. inversion E; subst; clear E. wcbn.
  match type of Ex with parse_imports _ _ ?l0 = _ => set (l := l0) in * end.
  apply parse_imports_spec in Ex. cbv zeta in Ex. destruct Ex as (E1 & E2 & E3 & _ & E5 & _).
  destruct (imp_ids_entries l (length (items (m_funcs (ps_m s)))) (length (items (m_tables (ps_m s))))
              (length (items (m_memories (ps_m s)))) (length (items (m_globals (ps_m s))))
              (length (items (m_imports (ps_m s))))) as (A & B & C).
  intros S HS. destruct (IS S HS) as [I1 I2]. rewrite E5, imp_ids_app.
  destruct HS as [-> | [-> | ->] ]; cbn [arena_len] in *.
  - rewrite A. apply ISort_step_new; [exact I1|exact I2|]. rewrite E1, app_length. reflexivity.
  - rewrite B. apply ISort_step_new; [exact I1|exact I2|]. rewrite E2, app_length. reflexivity.
  - rewrite C. apply ISort_step_new; [exact I1|exact I2|]. rewrite E3, app_length. reflexivity.
Qed.
Lemma parse_secs_ISort : forall w s s', ids_consistent (ps_m s) (ps_ids s) -> ISort (ps_m s) -> parse_secs s w = POk s' ->
  ISort (ps_m s').
Proof.
  induction w as [|x r IH]; intros s s' Hid H E; cbn [parse_secs] in E.
  - inversion E; subst; exact H.
  - pinv E as s1 E1. eapply IH; [|eapply parse_sec_ISort; eauto|exact E]. eapply parse_sec_idc; eauto.
Qed.
Theorem parseM_ISort cf ver w s : parseM cf ver w = POk s -> ISort (ps_m s).
Proof.
  intros E. destruct (parseM_KK _ _ _ _ E) as [s1 [E1 EK]].
  assert (I1 : ISort (ps_m s1)).
  { apply (parse_secs_ISort w (pst0 cf) s1 (idc_empty cf)); [|exact E1]. intros S _. split; [constructor|intros x []]. }
  unfold KK in EK. injection EK; intros Kd Ke Kg Km Kt _ _ Ki.
  destruct (arena_len_K (ps_m s)) as (A1 & A2 & A3). destruct (arena_len_K (ps_m s1)) as (B1 & B2 & B3).
  apply (ISort_mono (ps_m s1)); [exact Ki| |exact I1].
  intros S [-> | [-> | ->] ]; [rewrite A1, Kt, <- B1|rewrite A2, Km, <- B2|rewrite A3, Kg, <- B3]; apply Nat.le_refl.
Qed.

(* arena-level condition: every imported entity sits before every defined one *)
Definition imp_flag (m : wir) (S : space) (k : nat) : option bool :=
  match S with
  | S_table => option_map (fun t => isS (tb_import t)) (nth_error (items (m_tables m)) k)
  | S_memory => option_map (fun t => isS (me_import t)) (nth_error (items (m_memories m)) k)
  | S_global => option_map (fun g => match gl_kind g with GK_Import _ => true | GK_Local _ => false end)
                           (nth_error (items (m_globals m)) k)
  | _ => None
  end.
Definition imports_first (m : wir) (S : space) : Prop :=
  forall a b, imp_flag m S a = Some true -> imp_flag m S b = Some false -> a < b.

Theorem emitted_ids_shape m ilen dw e : emitM m ilen dw = Ok e ->
  exists fs, used_local_functions m = Ok fs /\
    emitted_ids e S_func = imported_funcs m ++ map fst fs /\
    emitted_ids e S_table = imported_tables m ++ map fst (local_tables m) /\
    emitted_ids e S_memory = imported_memories m ++ map fst (local_memories m) /\
    emitted_ids e S_global = imported_globals m ++ map gid (local_globals m) /\
    emitted_ids e S_elem = map fst (aiter (m_elements m)) /\
    emitted_ids e S_data = map fst (aiter (m_data m)) /\
    emitted_ids e S_type = map fst (emitted_types m).
Proof.
  intros HE. destruct (emitM_x2i _ _ _ _ HE) as (fs & Hfs & Xty & Xf & Xt & Xm & Xg & Xe & Xd).
  exists fs. split; [exact Hfs|]. unfold emitted_ids. cbn [space_map].
  rewrite Xty, Xf, Xt, Xm, Xg, Xe, Xd, !number_fst. repeat split; reflexivity.
Qed.

Section Identity.
  Variables (cf : config) (ver : list N) (w : wmod) (s : pst) (ilen : wins -> N) (dw : list wsec) (e : emitted).
  Hypothesis HP : parseM cf ver w = POk s.
  Hypothesis HE : emitM (ps_m s) ilen dw = Ok e.

  Lemma live_imports_items : live_imports (ps_m s) = items (m_imports (ps_m s)).
  Proof.
    pose proof (parseM_ids _ _ _ _ HP) as I. unfold ids_consistent in I. decompose [and] I. clear I.
    apply aiter_snd_nodead. assumption.
  Qed.

  Lemma marked_flag S x : tmg S -> marked (ps_m s) (S, x) -> imp_flag (ps_m s) S (N.to_nat x) = Some true.
  Proof.
    intros HS M. unfold marked in M. destruct HS as [-> | [-> | ->] ]; cbn [fst snd imp_flag] in *;
      destruct M as [v [Hv Hp]]; apply Structure.aget_nth in Hv; rewrite Hv; cbn [option_map].
    - destruct (tb_import v); [reflexivity|congruence].
    - destruct (me_import v); [reflexivity|congruence].
    - unfold is_imp_gl in Hp. destruct (gl_kind v); [reflexivity|destruct Hp].
  Qed.

  Theorem rho_tmg_identity S : tmg S -> imports_first (ps_m s) S ->
    forall i, N.to_nat i < n_in s S -> rho s e S i = Ok i.
  Proof.
    intros HS IF.
    assert (HT : S <> S_type) by (destruct HS as [-> | [-> | ->] ]; discriminate).
    assert (HL : S <> S_local) by (destruct HS as [-> | [-> | ->] ]; discriminate).
    apply (rho_identity_iff _ _ _ _ _ _ _ HP HE S HT HL).
    apply sorted_full_iota; [|intros x; apply (emitted_full _ _ _ _ _ _ _ HP HE S x HT HL)].
    destruct (emitted_ids_shape _ _ _ _ HE) as (fs & _ & _ & Ht & Hm & Hg & _).
    pose proof (parsed_imports_wf _ _ _ _ HP) as IW. destruct (parseM_ISort _ _ _ _ HP S HS) as [Srt _].
    rewrite <- live_imports_items in Srt.
    assert (Cross : forall (loc : list N),
              (forall y, In y loc -> imp_flag (ps_m s) S (N.to_nat y) = Some false) -> StronglySorted N.lt loc ->
              StronglySorted N.lt (imp_ids S (live_imports (ps_m s)) ++ loc)).
    { intros loc Hloc Sl. apply sorted_app; [exact Srt|exact Sl|]. intros x y Hx Hy.
      apply (imp_ids_marked _ S x IW) in Hx. apply (marked_flag S x HS) in Hx. specialize (IF _ _ Hx (Hloc y Hy)). lia. }
    destruct HS as [-> | [-> | ->] ].
    - rewrite Ht. apply Cross.
      + intros y Hy. destruct (In_filter_aiter _ _ _ Hy) as [v [Hv Hk]]. cbn [snd] in Hk.
        apply Structure.aget_nth in Hv. cbn [imp_flag]. rewrite Hv. cbn [option_map].
        destruct (tb_import v); [discriminate|reflexivity].
      + apply sorted_map_filter, aiter_sorted.
    - rewrite Hm. apply Cross.
      + intros y Hy. destruct (In_filter_aiter _ _ _ Hy) as [v [Hv Hk]]. cbn [snd] in Hk.
        apply Structure.aget_nth in Hv. cbn [imp_flag]. rewrite Hv. cbn [option_map].
        destruct (me_import v); [discriminate|reflexivity].
      + apply sorted_map_filter, aiter_sorted.
    - rewrite Hg. apply Cross.
      + intros y Hy. rewrite local_globals_ids in Hy. destruct (In_filter_aiter _ _ _ Hy) as [v [Hv Hk]]. cbn [snd] in Hk.
        apply Structure.aget_nth in Hv. cbn [imp_flag]. rewrite Hv. cbn [option_map].
        destruct (gl_kind v); [discriminate|reflexivity].
      + apply local_globals_sorted.
  Qed.
End Identity.

(* stream-level condition: the import payloads come before the payloads that define entities of the space *)
Definition defines (S : space) (sec : wsec) : bool :=
  match S, sec with
  | S_table, S_Tables _ => true | S_memory, S_Mems _ => true | S_global, S_Globals _ => true | _, _ => false
  end.
Definition imports_then_defs (S : space) (w : wmod) : Prop :=
  exists w1 w2, w = w1 ++ w2 /\ Forall (fun sec => defines S sec = false) w1 /\ Forall (fun sec => imports_of sec = []) w2.

Lemma split_first {X} (f : X -> bool) (A B : list X) :
  Forall (fun x => f x = true) A -> Forall (fun x => f x = false) B ->
  forall a b, option_map f (nth_error (A ++ B) a) = Some true -> option_map f (nth_error (A ++ B) b) = Some false -> a < b.
Proof.
  intros HA HB a b Ha Hb. rewrite Forall_forall in HA, HB.
  assert (La : a < length A).
  { destruct (Nat.lt_ge_cases a (length A)) as [L|L]; [exact L|]. rewrite nth_error_app2 in Ha by exact L.
    destruct (nth_error B (a - length A)) as [x|] eqn:E; [|discriminate]. apply nth_error_In in E. apply HB in E.
    cbn in Ha. congruence. }
  assert (Lb : length A <= b).
  { destruct (Nat.lt_ge_cases b (length A)) as [L|L]; [|exact L]. rewrite nth_error_app1 in Hb by exact L.
    destruct (nth_error A b) as [x|] eqn:E; [|discriminate]. apply nth_error_In in E. apply HA in E.
    cbn in Hb. congruence. }
  lia.
Qed.

Lemma imp_flag_K m k :
  imp_flag m S_table k = option_map snd (nth_error (K_tables m) k) /\
  imp_flag m S_memory k = option_map snd (nth_error (K_mems m) k) /\
  imp_flag m S_global k = option_map (fun c => match snd c with None => true | Some _ => false end) (nth_error (K_globals m) k).
Proof.
  unfold K_tables, K_mems, K_globals. cbn [imp_flag]. rewrite !nth_error_map. repeat split.
  - destruct (nth_error (items (m_tables m)) k); reflexivity.
  - destruct (nth_error (items (m_memories m)) k); reflexivity.
  - destruct (nth_error (items (m_globals m)) k) as [g|]; [|reflexivity]. cbn [option_map gcore snd]. destruct (gl_kind g); reflexivity.
Qed.

Theorem stream_imports_first cf ver w s S : parseM cf ver w = POk s -> tmg S -> imports_then_defs S w ->
  imports_first (ps_m s) S.
Proof.
  intros HP HS (w1 & w2 & -> & F1 & F2). destruct (parseM_tables _ _ _ _ HP) as [Kt Km]. destruct (parseM_GES _ _ _ _ HP) as (Kg & _ & _).
  rewrite flat_map_app in Kt, Km, Kg. rewrite Forall_forall in F1, F2.
  intros a b Ha Hb. destruct (imp_flag_K (ps_m s) a) as (A1 & A2 & A3). destruct (imp_flag_K (ps_m s) b) as (B1 & B2 & B3).
  destruct HS as [-> | [-> | ->] ].
  - rewrite A1, Kt in Ha. rewrite B1, Kt in Hb. refine (split_first snd _ _ _ _ a b Ha Hb); apply Forall_forall; intros c Hc;
      apply in_flat_map in Hc; destruct Hc as [sec [Hs Hc]].
    + specialize (F1 _ Hs). destruct sec; cbn [defines sec_tables] in *; try (destruct Hc; fail); try discriminate.
      apply in_map_iff in Hc. destruct Hc as [t [<- _]]. reflexivity.
    + specialize (F2 _ Hs). destruct sec; cbn [imports_of sec_tables] in *; try (destruct Hc; fail).
      * subst. destruct Hc.
      * apply in_map_iff in Hc. destruct Hc as [t [<- _]]. reflexivity.
  - rewrite A2, Km in Ha. rewrite B2, Km in Hb. refine (split_first snd _ _ _ _ a b Ha Hb); apply Forall_forall; intros c Hc;
      apply in_flat_map in Hc; destruct Hc as [sec [Hs Hc]].
    + specialize (F1 _ Hs). destruct sec; cbn [defines sec_mems] in *; try (destruct Hc; fail); try discriminate.
      apply in_map_iff in Hc. destruct Hc as [t [<- _]]. reflexivity.
    + specialize (F2 _ Hs). destruct sec; cbn [imports_of sec_mems] in *; try (destruct Hc; fail).
      * subst. destruct Hc.
      * apply in_map_iff in Hc. destruct Hc as [t [<- _]]. reflexivity.
  - rewrite A3, Kg in Ha. rewrite B3, Kg in Hb.
    refine (split_first (fun c : wglobalty * option mconst => match snd c with None => true | Some _ => false end) _ _ _ _ a b Ha Hb);
      apply Forall_forall; intros c Hc; apply in_flat_map in Hc; destruct Hc as [sec [Hs Hc]].
    + specialize (F1 _ Hs). destruct sec; cbn [defines sec_globals] in *; try (destruct Hc; fail); try discriminate.
      apply in_map_iff in Hc. destruct Hc as [t [<- _]]. reflexivity.
    + specialize (F2 _ Hs). destruct sec; cbn [imports_of sec_globals] in *; try (destruct Hc; fail).
      * subst. destruct Hc.
      * apply in_map_iff in Hc. destruct Hc as [t [<- _]]. reflexivity.
Qed.

(* the validator's section order gives the stream condition *)
Lemma c_last_cstep c sec : c_last (cstep c sec) = match rank sec with Some r => r | None => c_last c end.
Proof.
  unfold cstep, set_last. cbn [c_last]. destruct sec; cbn [rank cstep0 c_last]; reflexivity.
Qed.

Lemma valid_no_imports : forall w c, valid_from c w -> 2 <= c_last c -> Forall (fun sec => imports_of sec = []) w.
Proof.
  induction w as [|sec r IH]; intros c V L; [constructor|]. cbn [valid_from] in V. destruct V as [[Vs _] Vr].
  unfold valid_sec_b in Vs. apply andb_true_iff in Vs. destruct Vs as [Ho _]. unfold order_ok in Ho.
  constructor.
  - destruct sec; try reflexivity. cbn [rank] in Ho. apply Nat.ltb_lt in Ho. lia.
  - apply (IH (cstep c sec) Vr). rewrite c_last_cstep. destruct (rank sec) as [k|]; [apply Nat.ltb_lt in Ho; lia|exact L].
Qed.

Theorem valid_imports_then_defs S : tmg S -> forall w c, valid_from c w -> imports_then_defs S w.
Proof.
  intros HS. induction w as [|sec r IH]; intros c V.
  - exists [], []. repeat split; constructor.
  - cbn [valid_from] in V. destruct V as [Vs Vr].
    destruct (defines S sec) eqn:Ed.
    + exists [], (sec :: r). split; [reflexivity|]. split; [constructor|]. constructor.
      * destruct sec; try reflexivity. destruct S; discriminate.
      * apply (valid_no_imports r (cstep c sec) Vr). rewrite c_last_cstep.
        destruct S; destruct sec; try discriminate; cbn [rank]; lia.
    + destruct (IH _ Vr) as (r1 & r2 & -> & F1 & F2). exists (sec :: r1), r2. split; [reflexivity|].
      split; [constructor; assumption|exact F2].
Qed.
(* tables / memories / globals keep their indices on a validator-ordered stream *)
Theorem rho_tmg_identity_stream cf ver w s ilen dw e S :
  parseM cf ver w = POk s -> emitM (ps_m s) ilen dw = Ok e -> tmg S -> imports_then_defs S w ->
  forall i, N.to_nat i < n_in s S -> rho s e S i = Ok i.
Proof.
  intros HP HE HS HW. apply (rho_tmg_identity _ _ _ _ _ _ _ HP HE S HS). eapply stream_imports_first; eauto.
Qed.
Corollary rho_tmg_identity_valid cf ver w s ilen dw e S :
  parseM cf ver w = POk s -> emitM (ps_m s) ilen dw = Ok e -> tmg S -> valid_stream w ->
  forall i, N.to_nat i < n_in s S -> rho s e S i = Ok i.
Proof. intros HP HE HS V. apply (rho_tmg_identity_stream _ _ _ _ _ _ _ S HP HE HS). exact (valid_imports_then_defs S HS w ctx0 V). Qed.

(* functions: rho is the emitter's order (imports in import order, then locals by size) *)
Theorem rho_func_order cf ver w s ilen dw e : parseM cf ver w = POk s -> emitM (ps_m s) ilen dw = Ok e ->
  exists fs, used_local_functions (ps_m s) = Ok fs /\
    forall i j, rho s e S_func i = Ok j <->
      N.to_nat i < n_in s S_func /\ nth_error (imported_funcs (ps_m s) ++ map fst fs) (N.to_nat j) = Some i.
Proof.
  intros HP HE. destruct (emitted_ids_shape _ _ _ _ HE) as (fs & Hfs & Hf & _). exists fs. split; [exact Hfs|].
  intros i j. rewrite <- Hf. apply (rho_position _ _ _ _ _ _ _ HP HE); discriminate.
Qed.

(* n_S is the number of input entities: imports + definitions of the stream *)
Theorem n_in_stream cf ver w s : parseM cf ver w = POk s ->
  n_in s S_table = length (flat_map sec_tables w) /\ n_in s S_memory = length (flat_map sec_mems w) /\
  n_in s S_global = length (flat_map sec_globals w) /\ n_in s S_type = length (flat_map types_of w).
Proof.
  intros HP. destruct (parseM_tables _ _ _ _ HP) as [Kt Km]. destruct (parseM_GES _ _ _ _ HP) as (Kg & _ & _).
  destruct (arena_len_K (ps_m s)) as (A1 & A2 & A3).
  rewrite !(n_in_arena _ _ _ _ HP) by discriminate. rewrite A1, A2, A3, Kt, Km, Kg.
  repeat split. destruct (parseM_sigs _ _ _ _ HP) as [[HL _] _]. exact HL.
Qed.

(* the stream premise [imports_then_defs] is needed: an import payload after the table payload moves the defined table *)
Theorem rho_tmg_identity_refuted :
  exists w s e, parseM default_config [48%N] w = POk s /\ emitM (ps_m s) (fun _ => 1%N) [] = Ok e /\
    N.to_nat 0 < n_in s S_table /\ rho s e S_table 0%N = Ok 1%N.
Proof.
  exists [S_Tables [ex_tb]; S_Imports [{| wi_module := [101%N]; wi_name := [102%N]; wi_kind := WI_Table ex_tb |}]].
  eexists. eexists. split; [vm_compute; reflexivity|]. split; [vm_compute; reflexivity|]. vm_compute. split; [lia|reflexivity].
Qed.

Print Assumptions rho_total.
Print Assumptions rho_onto.
Print Assumptions rho_defined.
Print Assumptions rho_inj.
Print Assumptions rho_perm.
Print Assumptions rho_position.
Print Assumptions rho_identity_iff.
Print Assumptions emitted_full.
Print Assumptions emitted_count.
Print Assumptions rho_elem_id.
Print Assumptions rho_data_id.
Print Assumptions rho_func_order.
Print Assumptions rho_tmg_identity.
Print Assumptions rho_tmg_identity_stream.
Print Assumptions rho_tmg_identity_valid.
Print Assumptions rho_tmg_identity_refuted.
Print Assumptions n_in_stream.
Print Assumptions rho_type_total.
Print Assumptions rho_type_defined.
Print Assumptions rho_type_onto.
Print Assumptions rho_type_identifies.
Print Assumptions rho_type_eq_iff.
Print Assumptions parseM_TU.
Print Assumptions parseM_TE.
Print Assumptions parseM_ISort.
Print Assumptions parsed_imports_wf.
Print Assumptions gc_imports_wf.
Print Assumptions imports_wf_maps.
Print Assumptions emitted_iff_live.
Print Assumptions gc_wf_space.
Print Assumptions gc_emitted_kept.
Print Assumptions rho_gc_inj.
Print Assumptions rho_gc_defined.
Print Assumptions rho_gc_range.
Print Assumptions rho_gc_onto.
Print Assumptions rho_gc_position.
Print Assumptions gc_emitted_count.
