(* C08, module level fixpoint: every emitted stream is in CANONICAL SHAPE (rebuild w = w), and two streams
   in canonical shape with the same payloads are equal; so the module fixpoint follows from the 13
   per-kind payload equalities. *)
From Coq Require Import List NArith ZArith Bool Arith Lia.
Import ListNotations.
From WV Require Import Gen.Ops Model.Common Model.IR Model.Arena Model.Traversal Model.EmitFn Model.Locals
                       Model.ParseFn Model.ModuleM Model.ParseM Model.EmitM Gen.Attrs.
From WV Require Import Proofs.Arena Proofs.Order Proofs.IndexMaps Proofs.CustomsCfg Proofs.Escalation Proofs.Structure Proofs.Structure2
                       Proofs.Renumbering Proofs.ModFix Proofs.ModFix4.
Local Open Scope nat_scope.

(* a piece is nothing or one section with a NON-EMPTY payload: the emitter writes no empty section *)
Definition piece_shape {A} (mk : list A -> wsec) (p : list wsec) : Prop := p = [] \/ exists l, l <> [] /\ p = [mk l].

Lemma sec_if_piece {A} (mk : list A -> wsec) (X_of : wsec -> list A) p :
  (forall l, X_of (mk l) = l) -> piece_shape mk p -> sec_if mk (flat_map X_of p) = p.
Proof.
  intros HX [->|(l & Hl & ->)]; [reflexivity|]. cbn [flat_map]. rewrite HX, app_nil_r.
  destruct l; [congruence|reflexivity].
Qed.
Lemma len_ne {A B} (l : list A) (l' : list B) : length l = length l' -> l' <> [] -> l <> [].
Proof. destruct l, l'; cbn; congruence. Qed.
Lemma map_ne {A B} (f : A -> B) l : l <> [] -> map f l <> [].
Proof. destruct l; cbn; congruence. Qed.

Lemma emit_types_shape m x l x' : emit_types m x = (l, x') -> piece_shape S_Types l.
Proof.
  unfold emit_types. cbv zeta. destruct (sort_types _) as [|p r]; intros [= <- _]; [left; reflexivity|].
  right. eexists. split; [|reflexivity]. discriminate.
Qed.
Lemma emit_imports_shape m x l x' : emit_imports m x = Ok (l, x') -> piece_shape S_Imports l.
Proof.
  unfold emit_imports. destruct (map snd (aiter (m_imports m))) as [|i r]; [intros [= <- _]; left; reflexivity|].
  intros H. rinv H as a Ea. inversion H; subst; clear H. right. eexists. split; [|reflexivity].
  cbn [emit_imports_l] in Ea. rinv Ea as a1 E1. rinv Ea as b Eb. inversion Ea; subst. cbn [fst]. discriminate.
Qed.
Lemma emit_func_section_shape m x l x' : emit_func_section m x = Ok (l, x') -> piece_shape S_Funcs l.
Proof.
  rewrite emit_func_section_unfold. intros H. rinv H as fs Efs. destruct fs as [|p r]; [inversion H; left; reflexivity|].
  rinv H as b Eb. inversion H; subst; clear H. right. eexists. split; [|reflexivity].
  apply func_go_entries in Eb. apply Forall2_length in Eb. eapply len_ne; [symmetry; exact Eb|discriminate].
Qed.
Lemma emit_tables_shape m x : piece_shape S_Tables (fst (emit_tables m x)).
Proof.
  rewrite emit_tables_entries. destruct (local_tables m); [left; reflexivity|]. right. eexists. split; [|reflexivity]. discriminate.
Qed.
Lemma emit_memories_shape m x : piece_shape S_Mems (fst (emit_memories m x)).
Proof.
  rewrite emit_memories_entries. destruct (local_memories m); [left; reflexivity|]. right. eexists. split; [|reflexivity]. discriminate.
Qed.
Lemma emit_globals_shape m x l x' : emit_globals m x = Ok (l, x') -> piece_shape S_Globals l.
Proof.
  rewrite emit_globals_unfold. destruct (local_globals m) as [|p r] eqn:El; [intros [= <- _]; left; reflexivity|].
  rewrite <- El. intros H. rinv H as b Eb. inversion H; subst; clear H. right. eexists. split; [|reflexivity].
  apply globals_go_entries' in Eb. destruct Eb as [_ F]. apply Forall2_length in F.
  eapply len_ne; [symmetry; exact F|rewrite El; discriminate].
Qed.
Lemma emit_exports_shape m x l : emit_exports m x = Ok l -> piece_shape S_Exports l.
Proof.
  unfold emit_exports. destruct (map snd (aiter (m_exports m))) as [|i r] eqn:El; [intros [= <-]; left; reflexivity|].
  intros H. rinv H as es Ees. inversion H; subst; clear H. right. eexists. split; [|reflexivity].
  apply rmapM_length in Ees. eapply len_ne; [exact Ees|discriminate].
Qed.
Lemma emit_elements_shape m x l x' : emit_elements m x = Ok (l, x') -> piece_shape S_Elems l.
Proof.
  rewrite emit_elements_unfold. destruct (aiter (m_elements m)) as [|p r]; [intros [= <- _]; left; reflexivity|].
  intros H. rinv H as b Eb. inversion H; subst; clear H. right. eexists. split; [|reflexivity].
  apply elems_go_entries in Eb. eapply len_ne; [exact Eb|discriminate].
Qed.
Lemma emit_code_shape m x ilen l x' efs : emit_code m x ilen = Ok (l, x', efs) -> piece_shape S_Code l.
Proof.
  unfold emit_code. intros H. rinv H as fs Efs. destruct fs as [|p r]; [inversion H; left; reflexivity|].
  rinv H as es Ees. inversion H; subst; clear H. right. eexists. split; [|reflexivity].
  apply rmapM_length in Ees. apply map_ne. eapply len_ne; [exact Ees|discriminate].
Qed.
Lemma emit_data_shape m x l : emit_data m x = Ok l -> piece_shape S_Data l.
Proof.
  unfold emit_data. destruct (aiter (m_data m)) as [|p r]; [intros [= <-]; left; reflexivity|].
  intros H. rinv H as ds Eds. inversion H; subst; clear H. right. eexists. split; [|reflexivity].
  apply rmapM_length in Eds. eapply len_ne; [exact Eds|discriminate].
Qed.
Lemma emit_start_shape (o : option N) x l :
  match o with Some f => i <- get_idx x S_func f ;; Ok [S_Start i] | None => Ok [] end = Ok l -> map S_Start (flat_map starts_of l) = l.
Proof. destruct o as [f|]; [|intros [= <-]; reflexivity]. intros H. rinv H as i Ei. inversion H; reflexivity. Qed.
Lemma emit_data_count_shape' m x l x' : emit_data_count m x = Ok (l, x') -> map S_DataCount (flat_map dcounts_of l) = l.
Proof.
  unfold emit_data_count. destruct (aiter (m_data m)) as [|p r]; [intros [= <- _]; reflexivity|]. cbv zeta.
  intros H. rinv H as us Eus. destruct (_ || _); inversion H; reflexivity.
Qed.
Lemma customs_rest rest : (forall s, In s rest -> sec_tag s = None) -> map S_Custom (flat_map customs_of rest) = rest.
Proof.
  induction rest as [|s r IH]; intros H; [reflexivity|]. cbn [flat_map]. rewrite map_app, IH by (intros; apply H; right; assumption).
  specialize (H s (or_introl eq_refl)). destruct s; try discriminate H. reflexivity.
Qed.

Lemma tagged_customs k l : tagged k l -> flat_map customs_of l = [].
Proof.
  unfold tagged. rewrite Forall_forall. intros T. apply flat_map_nil. intros s Hs. specialize (T s Hs).
  destruct s; try reflexivity. discriminate T.
Qed.

Theorem emit_canonical_shape : forall m ilen e, emitM m ilen [] = Ok e -> canonical_shape (em_secs e).
Proof.
  intros m ilen e He. emitM_kinds He. unfold canonical_shape, rebuild.
  (* the payload of kind k is that of the k-th piece, and each piece is rebuilt from its payload *)
  rewrite (flat_map_tag types_of 0), (flat_map_tag imports_of 1), (flat_map_tag funcs_of 2), (flat_map_tag tables_of 3),
    (flat_map_tag mems_of 4), (flat_map_tag globals_of 5), (flat_map_tag exports_of 6), (flat_map_tag starts_of 7),
    (flat_map_tag elems_of 8), (flat_map_tag dcounts_of 9), (flat_map_tag code_of 10), (flat_map_tag datas_of 11), !Ekind
    by (intros [] Hs; try reflexivity; discriminate Hs).
  cbn [nth].
  rewrite (sec_if_piece S_Types types_of s_ty (fun l => eq_refl) (emit_types_shape _ _ _ _ Ety)).
  rewrite (sec_if_piece S_Imports imports_of s_im (fun l => eq_refl) (emit_imports_shape _ _ _ _ Eim)).
  rewrite (sec_if_piece S_Funcs funcs_of s_fn (fun l => eq_refl) (emit_func_section_shape _ _ _ _ Efn)).
  rewrite (sec_if_piece S_Tables tables_of _ (fun l => eq_refl) (emit_tables_shape m x3)).
  rewrite (sec_if_piece S_Mems mems_of _ (fun l => eq_refl) (emit_memories_shape m x4)).
  rewrite (sec_if_piece S_Globals globals_of s_gl (fun l => eq_refl) (emit_globals_shape _ _ _ _ Egl)).
  rewrite (sec_if_piece S_Exports exports_of s_ex (fun l => eq_refl) (emit_exports_shape _ _ _ Eex)).
  rewrite (emit_start_shape _ _ _ Est).
  rewrite (sec_if_piece S_Elems elems_of s_el (fun l => eq_refl) (emit_elements_shape _ _ _ _ Eel)).
  rewrite (emit_data_count_shape' _ _ _ _ Edc).
  rewrite (sec_if_piece S_Code code_of s_co (fun l => eq_refl) (emit_code_shape _ _ _ _ _ _ Eco)).
  rewrite (sec_if_piece S_Data datas_of s_da (fun l => eq_refl) (emit_data_shape _ _ _ Eda)).
  (* the custom sections are those after the twelve pieces *)
  rewrite Esecs, !flat_map_app.
  rewrite (tagged_customs _ _ T0), (tagged_customs _ _ T1), (tagged_customs _ _ T2), (tagged_customs _ _ T3), (tagged_customs _ _ T4),
    (tagged_customs _ _ T5), (tagged_customs _ _ T6), (tagged_customs _ _ T7), (tagged_customs _ _ T8), (tagged_customs _ _ T9),
    (tagged_customs _ _ T10), (tagged_customs _ _ T11).
  cbn [app]. rewrite (customs_rest rest Erest). reflexivity.
Qed.

Theorem canonical_shape_ext : forall w1 w2, canonical_shape w1 -> canonical_shape w2 ->
  flat_map types_of w2 = flat_map types_of w1 -> flat_map imports_of w2 = flat_map imports_of w1 ->
  flat_map funcs_of w2 = flat_map funcs_of w1 -> flat_map tables_of w2 = flat_map tables_of w1 ->
  flat_map mems_of w2 = flat_map mems_of w1 -> flat_map globals_of w2 = flat_map globals_of w1 ->
  flat_map exports_of w2 = flat_map exports_of w1 -> flat_map starts_of w2 = flat_map starts_of w1 ->
  flat_map elems_of w2 = flat_map elems_of w1 -> flat_map dcounts_of w2 = flat_map dcounts_of w1 ->
  flat_map code_of w2 = flat_map code_of w1 -> flat_map datas_of w2 = flat_map datas_of w1 ->
  flat_map customs_of w2 = flat_map customs_of w1 -> w2 = w1.
Proof.
  intros w1 w2 C1 C2 H0 H1 H2 H3 H4 H5 H6 H7 H8 H9 H10 H11 H12. unfold canonical_shape in C1, C2.
  rewrite <- C1, <- C2. unfold rebuild. rewrite H0, H1, H2, H3, H4, H5, H6, H7, H8, H9, H10, H11, H12. reflexivity.
Qed.

Theorem module_fixpoint_from_payloads : forall cf ver w ilen s1 e1 s2 e2, two_trips cf ver w ilen s1 e1 s2 e2 ->
  flat_map types_of (em_secs e2) = flat_map types_of (em_secs e1) -> flat_map imports_of (em_secs e2) = flat_map imports_of (em_secs e1) ->
  flat_map funcs_of (em_secs e2) = flat_map funcs_of (em_secs e1) -> flat_map tables_of (em_secs e2) = flat_map tables_of (em_secs e1) ->
  flat_map mems_of (em_secs e2) = flat_map mems_of (em_secs e1) -> flat_map globals_of (em_secs e2) = flat_map globals_of (em_secs e1) ->
  flat_map exports_of (em_secs e2) = flat_map exports_of (em_secs e1) -> flat_map starts_of (em_secs e2) = flat_map starts_of (em_secs e1) ->
  flat_map elems_of (em_secs e2) = flat_map elems_of (em_secs e1) -> flat_map dcounts_of (em_secs e2) = flat_map dcounts_of (em_secs e1) ->
  flat_map code_of (em_secs e2) = flat_map code_of (em_secs e1) -> flat_map datas_of (em_secs e2) = flat_map datas_of (em_secs e1) ->
  flat_map customs_of (em_secs e2) = flat_map customs_of (em_secs e1) -> em_secs e2 = em_secs e1.
Proof.
  intros cf ver w ilen s1 e1 s2 e2 (P1 & E1 & P2 & E2). apply canonical_shape_ext; eapply emit_canonical_shape; eauto.
Qed.

Definition canonical_order (w : list wsec) : Prop :=
  canonical_shape w /\ stream_wf w = true /\ forall S, tmg S -> imports_then_defs S w.
Theorem emit_canonical_order : forall m ilen e, emitM m ilen [] = Ok e -> canonical_order (em_secs e).
Proof.
  intros m ilen e He. split; [exact (emit_canonical_shape _ _ _ He)|]. split; [exact (emit_stream_wf _ _ _ He)|].
  exact (emit_imports_then_defs _ _ _ He).
Qed.

Print Assumptions emit_canonical_shape.
Print Assumptions canonical_shape_ext.
Print Assumptions module_fixpoint_from_payloads.
Print Assumptions emit_canonical_order.
