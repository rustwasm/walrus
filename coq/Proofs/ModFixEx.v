(* C08, module level fixpoint: non-vacuity and a refutation hunt by computation.
   [run] executes the four steps of [two_trips]; [run_both] turns a computed outcome into the
   existential statement.  Every experiment is recorded as an Example. *)
From Coq Require Import List NArith ZArith Bool Arith Lia.
Import ListNotations.
From WV Require Import Gen.Ops Model.Common Model.IR Model.Arena Model.ParseSpec Model.ModuleM Model.ParseM Model.EmitM.
From WV Require Import Proofs.ModFix Proofs.ParseTotal.
Local Open Scope nat_scope.

Inductive outcome := O_P1 | O_P1Panic | O_E1 | O_P2 | O_E2 | O_Both (a b : list wsec).
Definition run (cf : config) (ver : str) (w : wmod) (ilen : wins -> N) : outcome :=
  match parseM cf ver w with
  | POk s1 => match emitM (ps_m s1) ilen [] with
     | Ok e1 => match parseM cf ver (em_secs e1) with
        | POk s2 => match emitM (ps_m s2) ilen [] with
                    | Ok e2 => O_Both (em_secs e1) (em_secs e2) | _ => O_E2 end
        | _ => O_P2 end
     | _ => O_E1 end
  | PErr => O_P1 | PPanic => O_P1Panic end.
(* both trips succeed and the second emission equals the first *)
Definition fixed (o : outcome) : Prop := match o with O_Both a b => b = a | _ => False end.
(* both trips succeed, the second emission equals the first, and the first differs from the input *)
Definition first_emit (o : outcome) : list wsec := match o with O_Both a _ => a | _ => [] end.

Lemma run_both cf ver w ilen a b : run cf ver w ilen = O_Both a b ->
  exists s1 e1 s2 e2, two_trips cf ver w ilen s1 e1 s2 e2 /\ em_secs e1 = a /\ em_secs e2 = b.
Proof.
  unfold run, two_trips. intros H.
  destruct (parseM cf ver w) as [s1| |] eqn:P1; try discriminate.
  destruct (emitM (ps_m s1) ilen []) as [e1| |] eqn:E1; try discriminate.
  destruct (parseM cf ver (em_secs e1)) as [s2| |] eqn:P2; try discriminate.
  destruct (emitM (ps_m s2) ilen []) as [e2| |] eqn:E2; try discriminate.
  injection H as <- <-. exists s1, e1, s2, e2. repeat split; assumption.
Qed.

Lemma run_fixed cf ver w ilen : fixed (run cf ver w ilen) ->
  exists s1 e1 s2 e2, two_trips cf ver w ilen s1 e1 s2 e2 /\ em_secs e2 = em_secs e1.
Proof.
  intros F. destruct (run cf ver w ilen) as [| | | | |a b] eqn:R; try contradiction.
  destruct (run_both _ _ _ _ _ _ R) as (s1 & e1 & s2 & e2 & T & A & B).
  exists s1, e1, s2, e2. split; [exact T|]. cbn in F. congruence.
Qed.

Lemma run_fixed_changed cf ver w ilen : fixed (run cf ver w ilen) -> first_emit (run cf ver w ilen) <> w ->
  exists s1 e1 s2 e2, two_trips cf ver w ilen s1 e1 s2 e2 /\ em_secs e2 = em_secs e1 /\ em_secs e1 <> w.
Proof.
  intros F C. destruct (run cf ver w ilen) as [| | | | |a b] eqn:R; try contradiction.
  destruct (run_both _ _ _ _ _ _ R) as (s1 & e1 & s2 & e2 & T & A & B).
  exists s1, e1, s2, e2. split; [exact T|]. cbn in F, C. split; congruence.
Qed.

(* Runs on one stream that differ only in version and instruction lengths can share the first parse: [parseM] uses
   [version] in its last step only, the stamp of the producers field, and [parse_core] is [parseM] without that step. *)
Definition parse_core (cf : config) (w : wmod) : pres pst :=
  let s0 := {| ps_m := empty_wir cf; ps_ids := empty_i2ids; ps_bodies := []; ps_names := []; ps_calls_on_parse := 0 |} in
  s1 <-- parse_secs s0 w ;;
  let m := ps_m s1 in let ids := ps_ids s1 in
  let n_funcs := len_N (iter (m_funcs m)) in
  let n_bodies := len_N (ps_bodies s1) in
  if (n_funcs <? n_bodies)%N then PPanic else
  x <-- prepare_bodies m ids (n_funcs - n_bodies) 0 (ps_bodies s1) ;;
  let '(m1, ids1, prepared) := x in
  m2 <-- install_bodies m1 ids1 prepared ;;
  let m2 := fold_left (fun m n => parse_names m ids1 n) (ps_names s1) m2 in
  POk {| ps_m := m2; ps_ids := ids1; ps_bodies := []; ps_names := []; ps_calls_on_parse := ps_calls_on_parse s1 + 1 |}.
Definition stamp (ver : str) (s : pst) : pst :=
  with_m s (set_producers (ps_m s) (producers_field (m_producers (ps_m s)) s_processed_by s_walrus ver)).

Lemma parseM_core cf ver w : parseM cf ver w = (s <-- parse_core cf w ;; POk (stamp ver s)).
Proof.
  unfold parseM, parse_core. cbv zeta. destruct (parse_secs _ w) as [s1| |]; try reflexivity. cbn [pbind].
  destruct (_ <? _)%N; [reflexivity|]. destruct (prepare_bodies _ _ _ _ _) as [[[m1 ids1] prepared]| |]; try reflexivity. cbn [pbind].
  destruct (install_bodies m1 ids1 prepared); reflexivity.
Qed.

(* [run] after its first parse *)
Definition run_from (cf : config) (ver : str) (ilen : wins -> N) (p1 : pres pst) : outcome :=
  match p1 with
  | POk s1 => match emitM (ps_m s1) ilen [] with
     | Ok e1 => match parseM cf ver (em_secs e1) with
        | POk s2 => match emitM (ps_m s2) ilen [] with
                    | Ok e2 => O_Both (em_secs e1) (em_secs e2) | _ => O_E2 end
        | _ => O_P2 end
     | _ => O_E1 end
  | PErr => O_P1 | PPanic => O_P1Panic end.

(* one equation for the pair, so that each normal form occurs once in the proof term *)
Definition fixed2 (o o' : outcome) : Prop :=
  match o, o' with O_Both a b, O_Both a' b' => (b, b') = (a, a') | _, _ => False end.

Lemma run_core cf ver w ilen : run cf ver w ilen = run_from cf ver ilen (s <-- parse_core cf w ;; POk (stamp ver s)).
Proof. rewrite <- parseM_core. reflexivity. Qed.

Lemma run_pair cf w ver ilen ver' ilen' :
  fixed2 (run_from cf ver ilen (s <-- parse_core cf w ;; POk (stamp ver s))) (run_from cf ver' ilen' (s <-- parse_core cf w ;; POk (stamp ver' s))) ->
  fixed (run cf ver w ilen) /\ fixed (run cf ver' w ilen').
Proof.
  rewrite <- !run_core.
  destruct (run cf ver w ilen); try contradiction. destruct (run cf ver' w ilen'); try contradiction.
  unfold fixed2, fixed. intros [= -> ->]. split; reflexivity.
Qed.

Definition il1 : wins -> N := fun _ => 1%N.
Definition nm0 : wnames := {| wn_module := None; wn_funcs := []; wn_locals := []; wn_types := []; wn_tables := []; wn_mems := [];
                              wn_globals := []; wn_elems := []; wn_data := [] |}.
Definition body (ls : list (N * valty)) (l : list rt) : wbody := {| wb_locals := ls; wb_ops := flat_list l ++ [(WEnd, 99%N)] |}.
Definition imp1 (t : N) := {| wi_module := [101%N]; wi_name := [102%N]; wi_kind := WI_Func t |}.
Definition gl0 := ({| wg_ty := VT_I32; wg_mut := false; wg_shared := false |}, WC_I32 42).
Definition mem0 := {| wm_64 := false; wm_shared := false; wm_init := 1; wm_max := None; wm_page := None |}.
Definition tab0 := {| wt_elem := RT_Funcref; wt_64 := false; wt_init := 2; wt_max := None |}.
Definition syn_config := {| cf_generate_dwarf := false; cf_synthetic_names := true; cf_only_stable := false;
     cf_skip_producers := false; cf_skip_name := false; cf_preserve_code_transform := false |}.

Definition b_big : list rt :=
  [RBlock (BT_Val VT_I32)
     [RPlain (W_LocalGet 0) 11;
      RIf (BT_Val VT_I32) [RPlain (W_I32Const 1) 13] (Some (14%N, [RPlain (W_I32Const 2) 15])) 12 16] 10 17].
Definition b_small : list rt := [RPlain (W_Call 0) 21; RPlain (W_Call 2) 22].
(* types (2), a function import, a SMALL local function before a BIG one (the emitter swaps them), a global,
   an export of the small function, module / function / local names *)
Definition wA : wmod :=
  [ S_Types [([VT_I32], [VT_I32]); ([], [])];
    S_Imports [imp1 1];
    S_Funcs [1%N; 0%N];
    S_Globals [gl0];
    S_Exports [{| we_name := [109%N]; we_kind := EK_Func; we_index := 1 |}];
    S_Code [body [] b_small; body [(1%N, VT_I64)] b_big];
    S_Custom (CS_Name (Some {| wn_module := Some [77%N]; wn_funcs := [(0%N,[105%N]); (1%N,[97%N]); (2%N,[98%N])];
        wn_locals := [(2%N, [(0%N, [120%N])])]; wn_types := []; wn_tables := []; wn_mems := []; wn_globals := [];
        wn_elems := []; wn_data := [] |})) ].

Example module_fixpoint_nonvacuous :
  exists s1 e1 s2 e2, two_trips default_config [49%N] wA il1 s1 e1 s2 e2 /\ em_secs e2 = em_secs e1 /\ em_secs e1 <> wA.
Proof. apply run_fixed_changed; [vm_compute; reflexivity | vm_compute; discriminate]. Qed.
(* what the first emission looks like: types sorted, the two functions swapped, export / call / names renumbered *)
Example module_fixpoint_nonvacuous_shape :
  exists rest, first_emit (run default_config [49%N] wA il1) =
    S_Types [([], []); ([VT_I32], [VT_I32])] :: S_Imports [imp1 0] :: S_Funcs [1%N; 0%N] :: S_Globals [gl0] ::
    S_Exports [{| we_name := [109%N]; we_kind := EK_Func; we_index := 2 |}] :: rest.
Proof. vm_compute. eexists. reflexivity. Qed.

(* REFUTATION (cf_synthetic_names = true, stream not valid) *)
(* The parse model accepts a body that reads a local index that does not exist ([i2id_fun] answers the
   sentinel id 4294967295, as the Rust code would only do on unvalidated input).  The first emission
   invents an i32 local for that id ([local_ty_fn] defaults to i32; the id is in [used_of_log], so it
   gets a declaration and an index) but the id is not in the locals arena, so it has NO name.  In the
   second round that local is a real declared local; with cf_synthetic_names the parser names it
   "l0", and the second emission has a local-name entry the first one did not have.
   Minimal witness: one type, one function, body `local.get 0; end`, no locals.
   NB: [lazy], not [vm_compute]: the model computes [N.to_nat 4294967295] (nth_error on a short list),
   which only a lazy machine survives. *)
Definition wP : wmod :=
  [ S_Types [([], [])]; S_Funcs [0%N]; S_Code [body [] [RPlain (W_LocalGet 0%N) 1%N]] ].
Definition s_producers1 : wsec :=
  S_Custom (CS_Producers (Some [(s_processed_by, [(s_walrus, [49%N])])])).
Definition wP_code : wsec :=
  S_Code [{| wb_locals := [(1%N, VT_I32)]; wb_ops := [(WOp (W_LocalGet 0), 0%N); (WEnd, 1%N)] |}].
Definition wP_e1 : list wsec :=
  [ S_Types [([], [])]; S_Funcs [0%N]; wP_code;
    S_Custom (CS_Name (Some {| wn_module := None; wn_funcs := [(0%N, [102%N; 48%N])]; wn_locals := [];
        wn_types := []; wn_tables := []; wn_mems := []; wn_globals := []; wn_elems := []; wn_data := [] |}));
    s_producers1 ].
Definition wP_e2 : list wsec :=
  [ S_Types [([], [])]; S_Funcs [0%N]; wP_code;
    S_Custom (CS_Name (Some {| wn_module := None; wn_funcs := [(0%N, [102%N; 48%N])]; wn_locals := [(0%N, [(0%N, [108%N; 48%N])])];
        wn_types := []; wn_tables := []; wn_mems := []; wn_globals := []; wn_elems := []; wn_data := [] |}));
    s_producers1 ].
Lemma wP_run : run syn_config [49%N] wP il1 = O_Both wP_e1 wP_e2.
Proof. lazy. reflexivity. Qed.

Theorem module_fixpoint_refuted :
  exists cf ver w ilen s1 e1 s2 e2, two_trips cf ver w ilen s1 e1 s2 e2 /\ em_secs e2 <> em_secs e1.
Proof.
  destruct (run_both _ _ _ _ _ _ wP_run) as (s1 & e1 & s2 & e2 & T & A & B).
  exists syn_config, [49%N], wP, il1, s1, e1, s2, e2. split; [exact T|].
  rewrite A, B. unfold wP_e1, wP_e2. intros H. injection H as H. discriminate H.
Qed.
(* The witness satisfies [ParseTotal.valid_stream]: that predicate (the validator's guarantees as formalised so far)
   says nothing about LOCAL indices in bodies (only: brackets, branch depths, decodable operators, block types), so
   [valid_stream w] is NOT a sufficient premise for the module fixpoint when cf_synthetic_names = true. *)
Lemma wP_valid : valid_stream wP.
Proof.
  unfold valid_stream, wP. cbn [valid_from]. unfold valid_sec.
  repeat match goal with |- _ /\ _ => split end;
    try (vm_compute; reflexivity); try exact I.
  cbn [cstep cstep0 set_last c_nt fold_left cimp wi_kind rank ctx0 length Nat.add].
  repeat constructor. exists [RPlain (W_LocalGet 0%N) 1%N], 99%N. split; [reflexivity|].
  cbn [swfl swf]. split; [|exact I]. intros f H; vm_compute in H; discriminate H.
Qed.
Theorem module_fixpoint_refuted_valid_stream :
  exists cf ver w ilen s1 e1 s2 e2, valid_stream w /\ two_trips cf ver w ilen s1 e1 s2 e2 /\ em_secs e2 <> em_secs e1.
Proof.
  destruct (run_both _ _ _ _ _ _ wP_run) as (s1 & e1 & s2 & e2 & T & A & B).
  exists syn_config, [49%N], wP, il1, s1, e1, s2, e2. split; [exact wP_valid|]. split; [exact T|].
  rewrite A, B. unfold wP_e1, wP_e2. intros H. injection H as H. discriminate H.
Qed.
(* the same stream under the default configuration IS a fixpoint (the invented local stays unnamed) *)
Example phantom_local_default_fixed :
  exists s1 e1 s2 e2, two_trips default_config [49%N] wP il1 s1 e1 s2 e2 /\ em_secs e2 = em_secs e1.
Proof. apply run_fixed. lazy. reflexivity. Qed.

(* experiments that ARE fixpoints *)
Ltac t := apply run_fixed; vm_compute; reflexivity.
Notation FIX cf w il := (exists s1 e1 s2 e2, two_trips cf [49%N] w il s1 e1 s2 e2 /\ em_secs e2 = em_secs e1).
Definition ma (a o m : N) := {| wa_align := a; wa_offset := o; wa_memory := m |}.
Definition P (o : wop) := RPlain o 0%N.

(* (1) synthetic names *)
Definition wB1 : wmod :=
  [ S_Types [([VT_I32], [VT_I32]); ([], [])];
    S_Imports [imp1 1];
    S_Funcs [1%N; 0%N];
    S_Code [body [(1%N,VT_I32)] (b_small ++ [RPlain (W_LocalGet 0%N) 30%N; RPlain W_Drop 31%N]); body [(1%N, VT_I64);(1%N,VT_I32)] (b_big ++ [RPlain (W_LocalSet 2%N) 40%N; RPlain (W_LocalGet 2%N) 41%N])];
    S_Custom (CS_Name (Some {| wn_module := Some []; wn_funcs := [(0%N,[]); (1%N,[]); (2%N,[98%N]); (9%N,[1%N]); (2%N, [])];
        wn_locals := [(2%N, [(0%N, []); (2%N, []); (1%N,[5%N])]); (1%N, [(0%N, [])]); (7%N, [(0%N, [])]); (0%N, [(0%N, [])])]; wn_types := [(1%N,[3%N]);(0%N,[]);(5%N,[])]; wn_tables := [(0%N,[])]; wn_mems := []; wn_globals := [];
        wn_elems := []; wn_data := [] |})) ].

(* (2) memarg offsets / alignments that are not re-encoded identically *)
Definition w2 : wmod :=
  [ S_Types [([], [])]; S_Funcs [0%N]; S_Mems [mem0];
    S_Code [body [] [P (W_I32Const 0); P (W_I32Load (ma 2 (2^32+1) 0)); P W_Drop; P (W_I32Const 0); P (W_I32Const 0); P (W_I32Store (ma 40 (2^33) 0));
                     P (W_I32Const 0); P (W_I32Load (ma 32 7 0)); P W_Drop; P (W_I64Const (2^70)); P W_Drop; P (W_I32Const (-(2^40))); P W_Drop ]] ].

(* (3) block types through type indices; duplicate types; type names on duplicates *)
Definition w3 : wmod :=
  [ S_Types [([], [VT_I32]); ([], []); ([], [VT_I32]); ([VT_I32], [VT_I32; VT_I32]); ([VT_I32], [VT_I32; VT_I32]); ([],[])];
    S_Funcs [5%N; 2%N];
    S_Code [body [] [RBlock (BT_Func 0) [P (W_I32Const 1)] 1 2; P W_Drop; RBlock (BT_Func 2) [P (W_I32Const 1)] 1 2; P W_Drop;
                     RBlock (BT_Func 1) [] 3 4; RLoop (BT_Func 5) [] 3 4; P (W_I32Const 1); RBlock (BT_Func 4) [P (W_I32Const 1)] 5 6; P W_Drop; P W_Drop;
                     P (W_I32Const 1); RIf (BT_Func 3) [P (W_I32Const 1)] None 5 6; P W_Drop; P W_Drop];
            body [] [P (W_I32Const 1)]];
    S_Custom (CS_Name (Some {| wn_module := None; wn_funcs := []; wn_locals := []; wn_types := [(0%N,[1%N]); (2%N,[2%N]); (4%N,[4%N]); (3%N, [3%N]); (5%N,[5%N])];
                               wn_tables := []; wn_mems := []; wn_globals := []; wn_elems := []; wn_data := [] |})) ].

(* (4) locals: unused, interleaved types, used only in dead code, many *)
Definition w4 : wmod :=
  [ S_Types [([VT_F64; VT_I32], [])]; S_Funcs [0%N; 0%N];
    S_Code [body [(2%N, VT_I64); (1%N, VT_I32); (3%N, VT_I64); (1%N, VT_F32); (2%N, VT_I32); (1%N, VT_Externref)]
              [P (W_LocalGet 9); P W_Drop; P (W_LocalGet 3); P W_Drop; P (W_LocalGet 10); P W_Drop; P (W_LocalGet 5); P W_Drop; P (W_LocalGet 8); P W_Drop;
               P (W_LocalGet 1); P W_Drop; P W_Return; P (W_LocalGet 2); P (W_LocalGet 11); P W_Drop];
            body [(300%N, VT_I32)] [P (W_LocalGet 301); P (W_LocalSet 2); P (W_LocalGet 17); P W_Drop]];
    S_Custom (CS_Name (Some {| wn_module := None; wn_funcs := []; wn_locals := [(0%N, [(2%N,[1%N]); (11%N,[2%N]); (9%N,[3%N]); (0%N,[4%N]); (3%N,[])]); (1%N,[(301%N,[9%N])])]; wn_types := [];
                               wn_tables := []; wn_mems := []; wn_globals := []; wn_elems := []; wn_data := [] |})) ].

(* (5) dead code, nop, if without else, nesting: f0 has 3 live + many dead instructions, f1 has 5 live *)
Definition w5 : wmod :=
  [ S_Types [([], [])]; S_Funcs [0%N; 0%N; 0%N];
    S_Code [body [] [P (W_I32Const 1); P W_Drop; RBr 0 1; P (W_I32Const 1); P W_Drop; RBlock BT_Empty [P (W_Call 1); RBlock BT_Empty [RNop 1; P (W_Call 2)] 1 2] 1 2; P (W_Call 0); P (W_Call 0); P (W_Call 0);
                     RIf BT_Empty [P (W_Call 0)] (Some (1%N, [P (W_Call 0)])) 1 2];
            body [] [RNop 1; P (W_I32Const 1); RIf BT_Empty [RNop 2; RNop 3] None 1 2; RBlock BT_Empty [RBlock BT_Empty [P W_Unreachable; P (W_Call 0)] 1 2; RNop 1] 1 2; RNop 3];
            body [] [RBlock BT_Empty [P (W_I32Const 1); RBrTable [0%N;1%N;0%N] 1 7; P (W_Call 1)] 1 2; RLoop BT_Empty [RBr 0 1; RLoop BT_Empty [] 1 1] 1 2; P W_Return; RBlock BT_Empty [] 1 2]] ].

Definition dA (m : N) (o : Z) (bs : list N) := {| wd_kind := WDK_Active m (WC_I32 o); wd_bytes := bs |}.
Definition dP (bs : list N) := {| wd_kind := WDK_Passive; wd_bytes := bs |}.
Definition names_all : wnames := {| wn_module := Some [1%N]; wn_funcs := [(1%N,[2%N])]; wn_locals := []; wn_types := [(0%N,[3%N])];
   wn_tables := [(1%N,[4%N]); (0%N,[5%N])]; wn_mems := [(0%N,[6%N]); (1%N, [16%N])]; wn_globals := [(1%N,[7%N]); (0%N,[])]; wn_elems := [(1%N,[8%N]); (0%N,[18%N])]; wn_data := [(2%N,[9%N]);(0%N,[10%N])] |}.

(* (6) data count / data in odd arrangements *)
Definition w6a : wmod := [ S_Mems [mem0]; S_DataCount 3; S_Data [dA 0 1 [1%N]] ].
Definition w6b : wmod := [ S_Mems [mem0]; S_Data [dA 0 1 [1%N]; dA 0 2 [2%N]]; S_DataCount 1; S_Data [dA 0 3 [3%N]; dP [4%N]] ].
Definition w6c : wmod := [ S_Types [([],[])]; S_Funcs [0%N]; S_Mems [mem0]; S_Data [dA 0 1 [1%N]; dA 0 2 []];
   S_Code [body [] [P (W_I32Const 0); P (W_I32Const 0); P (W_I32Const 0); P (W_MemoryInit 1 0); P (W_DataDrop 0)]] ].
Definition w6d : wmod := [ S_Mems [mem0]; S_Data [dA 0 1 [1%N]] ].
(* sections out of order, several of a kind, table/memory/global imports after definitions *)
Definition w6e : wmod :=
  [ S_Custom (CS_Raw [1%N] [2%N]); S_Globals [gl0]; S_Tables [tab0]; S_Mems [mem0];
    S_Types [([],[])];
    S_Imports [{| wi_module := []; wi_name := [1%N]; wi_kind := WI_Global {| wg_ty := VT_I32; wg_mut := false; wg_shared := false |} |};
               {| wi_module := []; wi_name := [2%N]; wi_kind := WI_Table tab0 |};
               {| wi_module := []; wi_name := [3%N]; wi_kind := WI_Mem mem0 |}; imp1 0];
    S_Globals [({| wg_ty := VT_I32; wg_mut := true; wg_shared := false |}, WC_GlobalGet 1); ({| wg_ty := VT_Funcref; wg_mut := true; wg_shared := false |}, WC_RefFunc 0)];
    S_Exports [{| we_name := [1%N]; we_kind := EK_Global; we_index := 0 |}; {| we_name := [2%N]; we_kind := EK_Table; we_index := 0 |}];
    S_Start 0; S_Types [([VT_I32],[])]; S_Funcs [0%N]; S_Start 1;
    S_Elems [{| wel_kind := WEK_Active None (WC_GlobalGet 0); wel_items := WEI_Funcs [1%N; 0%N] |}];
    S_Exports [{| we_name := [1%N]; we_kind := EK_Mem; we_index := 1 |}; {| we_name := [2%N]; we_kind := EK_Func; we_index := 1 |}];
    S_Elems [{| wel_kind := WEK_Active (Some 1%N) (WC_I32 0); wel_items := WEI_Exprs RT_Funcref [WC_RefFunc 1; WC_RefNull RT_Funcref; WC_GlobalGet 3; WC_I32 5] |};
             {| wel_kind := WEK_Declared; wel_items := WEI_Funcs [] |}; {| wel_kind := WEK_Passive; wel_items := WEI_Exprs RT_Externref [] |}];
    S_Data [dA 1 5 [7%N]; dP []];
    S_Code [body [] [P (W_GlobalGet 0); P W_Drop; P (W_I32Const 0); P (W_TableGet 0); P W_Drop; P (W_MemorySize 0); P W_Drop; P (W_RefFunc 0); P W_Drop; P (W_ElemDrop 1); P (W_I32Const 0); P (W_CallIndirect 1 0)]];
    S_Custom (CS_Name (Some names_all)); S_Tables [tab0] ].

(* (7) elements: active on table Some 0, exprs, ref.func of reordered functions *)
Definition w7 : wmod :=
  [ S_Types [([],[])]; S_Funcs [0%N; 0%N]; S_Tables [tab0; tab0];
    S_Elems [{| wel_kind := WEK_Active (Some 0%N) (WC_I32 0); wel_items := WEI_Funcs [0%N; 1%N] |};
             {| wel_kind := WEK_Active (Some 1%N) (WC_I32 0); wel_items := WEI_Exprs RT_Funcref [WC_RefFunc 0; WC_RefFunc 1] |}];
    S_Code [body [] []; body [] [P (W_RefFunc 0); P W_Drop; P (W_I32Const 0); P (W_I32Const 0); P (W_I32Const 0); P (W_TableInit 1 1)]] ].

(* (8) several name sections *)
Definition w8 : wmod := w7 ++ [S_Custom (CS_Name (Some names_all)); S_Custom (CS_Name None);
   S_Custom (CS_Name (Some {| wn_module := None; wn_funcs := [(1%N,[]); (0%N, [1%N]); (0%N, [2%N])]; wn_locals := [(0%N, [(0%N,[1%N])])]; wn_types := [];
                               wn_tables := []; wn_mems := []; wn_globals := []; wn_elems := []; wn_data := [] |}))].

(* (9) producers *)
Definition w9 : wmod :=
  [ S_Custom (CS_Producers (Some [([1%N], [([2%N],[3%N])]); (s_processed_by, [([5%N],[6%N])]); (s_processed_by, [(s_walrus,[0%N]); (s_walrus,[1%N])])]));
    S_Custom (CS_Producers None);
    S_Custom (CS_Producers (Some [(s_processed_by, [(s_walrus,[7%N]); ([8%N],[]); (s_walrus,[9%N])]); ([1%N], [])])) ].
Example x9_producers_other_version : exists s1 e1 s2 e2, two_trips default_config [] w9 il1 s1 e1 s2 e2 /\ em_secs e2 = em_secs e1. Proof. t. Qed.

(* (10) debug sections, (11) switches *)
Definition dbg : str := [46;100;101;98;117;103;95;105]%N.
Definition w10 : wmod := wA ++ [S_Custom (CS_Raw dbg [1%N]); S_Custom (CS_Debug dbg [2%N]); S_Custom (CS_Raw [46%N] []); S_Custom (CS_Debug [] [])] ++ w9.
Definition cfg (a b c d e f : bool) := {| cf_generate_dwarf := a; cf_synthetic_names := b; cf_only_stable := c; cf_skip_producers := d; cf_skip_name := e; cf_preserve_code_transform := f |}.
Example x10_generate_dwarf : FIX (cfg true false true false false true) w10 il1. Proof. t. Qed.

(* (12) instruction lengths that depend on the instruction *)
Definition il2 : wins -> N := fun i => match i with WEnd => 3 | WOp (W_Call n) => 2 + n | WOp _ => 2 | WElse => 0 | _ => 5 end%N.
Example x12_ilen : FIX default_config wA il2. Proof. t. Qed.
Example x12_ilen_b : FIX default_config w6e il2. Proof. t. Qed.

(* synthetic names on valid bodies: arguments, unused declared locals, three functions reordered by size, an import
   in front, without / with a name section (empty strings, names for unused locals and for arguments) *)
Definition wS1 : wmod :=
  [ S_Types [([VT_I32; VT_I64], []); ([], [VT_I32])];
    S_Imports [imp1 0];
    S_Funcs [0%N; 1%N; 0%N];
    S_Code [body [(2%N, VT_F32); (1%N, VT_I32)] [P (W_LocalGet 1); P W_Drop; P (W_LocalGet 4); P W_Drop];
            body [(1%N, VT_I64); (1%N, VT_I32); (1%N, VT_I64)] [P (W_LocalGet 2); P W_Drop; P (W_LocalGet 0); P W_Drop; P (W_LocalGet 1); P (W_LocalGet 1); P (W_LocalGet 2); P (W_Call 0); P (W_Call 3)];
            body [(3%N, VT_I32)] [P (W_LocalGet 3); P (W_LocalSet 0); P (W_LocalGet 0); P (W_LocalGet 1); P (W_Call 1); P (W_Call 2); P W_Drop; P (W_LocalGet 4); P W_Drop]] ].
Definition wS2 : wmod := wS1 ++
  [ S_Custom (CS_Name (Some {| wn_module := None; wn_funcs := [(1%N, []); (3%N, [120%N])];
       wn_locals := [(1%N, [(0%N, []); (2%N, [1%N]); (3%N, []); (4%N, [])]); (2%N, [(0%N, [2%N]); (2%N, [])]); (3%N, [(1%N, []); (2%N, [3%N]); (3%N, [])])];
       wn_types := []; wn_tables := []; wn_mems := []; wn_globals := []; wn_elems := []; wn_data := [] |})) ].
Definition all_cfgs : list config :=
  flat_map (fun a => flat_map (fun b => flat_map (fun d => map (fun e => cfg a b false d e false) [false; true]) [false; true]) [false; true]) [false; true].
Definition mods : list wmod := [wA; wB1; w2; w3; w4; w5; w6a; w6b; w6c; w6d; w6e; w7; w8; w9; w10; wS1; wS2; []].
(* Of the flags of [cfg a b false d e false] the parser reads b only (the others matter to the emitter).  With a, d, e left open
   the first parse of a stream is one evaluation; its result [S], a function of the three, serves the eight configurations
   and both versions. *)
Lemma sweep_shared b w S :
  (forall a d e, parse_core (cfg a b false d e false) w = S a d e) ->
  (let S' := S in forall a d e, let cf := cfg a b false d e false in
   fixed2 (run_from cf [49%N] il1 (s <-- S' a d e ;; POk (stamp [49%N] s))) (run_from cf [50%N; 46%N] il2 (s <-- S' a d e ;; POk (stamp [50%N; 46%N] s)))) ->
  forall a d e, fixed (run (cfg a b false d e false) [49%N] w il1) /\ fixed (run (cfg a b false d e false) [50%N; 46%N] w il2).
Proof. intros HS H a d e. apply run_pair. rewrite HS. apply H. Qed.

Lemma all_cfgs_all (Q : config -> Prop) : (forall a b d e, Q (cfg a b false d e false)) -> Forall Q all_cfgs.
Proof. intros H. unfold all_cfgs. cbn [flat_map map app]. repeat (apply Forall_cons; [apply H|]). apply Forall_nil. Qed.

Lemma sweep_flags b :
  Forall (fun w => forall a d e, fixed (run (cfg a b false d e false) [49%N] w il1) /\ fixed (run (cfg a b false d e false) [50%N; 46%N] w il2)) mods.
Proof.
  unfold mods. destruct b; repeat (apply Forall_cons || apply Forall_nil);
    (eapply sweep_shared; [intros a d e; vm_compute; reflexivity | intros S' [] [] []; vm_compute; reflexivity]).
Qed.
Example sweep_configs :
  Forall (fun cf => Forall (fun w => fixed (run cf [49%N] w il1) /\ fixed (run cf [50%N; 46%N] w il2)) mods) all_cfgs.
Proof. apply all_cfgs_all. intros a b d e. refine (Forall_impl _ _ (sweep_flags b)). intros w H. apply H. Qed.
Example sweep_len : length all_cfgs * length mods = 288. Proof. reflexivity. Qed.

(* the single experiments of the groups above that the sweep covers *)
Lemma sweep_at cf w : In cf all_cfgs -> In w mods -> fixed (run cf [49%N] w il1).
Proof. intros Hc Hw. exact (proj1 (proj1 (Forall_forall _ _) (proj1 (Forall_forall _ _) sweep_configs cf Hc) w Hw)). Qed.
Ltac ts := apply run_fixed, sweep_at; repeat first [left; reflexivity | right].
Example x1_syn_names : FIX syn_config wA il1. Proof. ts. Qed.
Example x1_syn_empty_names : FIX syn_config wB1 il1. Proof. ts. Qed.
Example x8_names_dups_oor : FIX default_config wB1 il1. Proof. ts. Qed.
Example x2_big_memarg : FIX default_config w2 il1. Proof. ts. Qed.
Example x3_block_types_dup_types : FIX default_config w3 il1. Proof. ts. Qed.
Example x4_locals : FIX default_config w4 il1. Proof. ts. Qed.
Example x4_locals_syn : FIX syn_config w4 il1. Proof. ts. Qed.
Example x5_dead_code : FIX default_config w5 il1. Proof. ts. Qed.
Example x6_count_more_than_data : FIX default_config w6a il1. Proof. ts. Qed.
Example x6_data_before_count_twice : FIX default_config w6b il1. Proof. ts. Qed.
Example x6_no_count_but_used : FIX default_config w6c il1. Proof. ts. Qed.
Example x6_active_only_no_count : FIX default_config w6d il1. Proof. ts. Qed.
Example x6_sections_out_of_order : FIX default_config w6e il1. Proof. ts. Qed.
Example x6_sections_out_of_order_syn : FIX syn_config w6e il1. Proof. ts. Qed.
Example x7_elements : FIX default_config w7 il1. Proof. ts. Qed.
Example x8_several_name_sections : FIX default_config w8 il1. Proof. ts. Qed.
Example x9_producers : FIX default_config w9 il1. Proof. ts. Qed.
Example x10_debug_sections : FIX default_config w10 il1. Proof. ts. Qed.
Example x11_skip_producers : FIX (cfg false false false true false false) w10 il1. Proof. ts. Qed.
Example x11_skip_name : FIX (cfg false false false false true false) w10 il1. Proof. ts. Qed.
Example x11_skip_both_syn : FIX (cfg true true false true true false) w10 il1. Proof. ts. Qed.
Example x0_empty : FIX default_config [] il1. Proof. ts. Qed.

(* out-of-range local indices (two different ones, merged into one invented local) next to real, named locals,
   two functions that get reordered; [lazy] because of N.to_nat 4294967295 *)
Definition wP2 : wmod :=
  [ S_Types [([VT_I64], [])]; S_Funcs [0%N; 0%N];
    S_Code [body [(1%N, VT_I32)] [P (W_LocalGet 7); P W_Drop; P (W_LocalGet 1); P W_Drop];
            body [(1%N, VT_F32); (2%N, VT_I32)] [P (W_LocalGet 9); P (W_LocalSet 8); P (W_LocalGet 3); P W_Drop; P (W_LocalGet 2); P W_Drop; P (W_Call 0)]];
    S_Custom (CS_Name (Some {| wn_module := None; wn_funcs := [(1%N, [1%N])];
       wn_locals := [(0%N, [(1%N, [5%N]); (7%N, [6%N])]); (1%N, [(3%N, [7%N]); (8%N, [8%N]); (0%N, [9%N])])];
       wn_types := []; wn_tables := []; wn_mems := []; wn_globals := []; wn_elems := []; wn_data := [] |})) ].
Example phantom_locals_default_fixed_2 : FIX default_config wP2 il1.
Proof. apply run_fixed. lazy. reflexivity. Qed.
(* with synthetic names but the name section switched off the difference is not observable *)
Example phantom_local_syn_skip_name_fixed : FIX (cfg false true false false true false) wP il1.
Proof. apply run_fixed. lazy. reflexivity. Qed.
Definition oc (o : outcome) : nat := match o with O_P1 => 1 | O_P1Panic => 2 | O_E1 => 3 | O_P2 => 4 | O_E2 => 5 | O_Both _ _ => 0 end.
(* streams on which the FIRST round already fails (so the theorem says nothing): function import after the function
   section; more declared functions than bodies; more bodies than functions; out-of-range function / type index in a body *)
Example first_round_fails :
  oc (run default_config [49%N] [S_Types [([],[])]; S_Funcs [0%N]; S_Imports [imp1 0]; S_Code [body [] []]] il1) = 2 /\
  oc (run default_config [49%N] [S_Types [([],[])]; S_Funcs [0%N; 0%N]; S_Code [body [] []]] il1) = 3 /\
  oc (run default_config [49%N] [S_Types [([],[])]; S_Funcs [0%N]; S_Code [body [] []; body [] []]] il1) = 2 /\
  oc (run default_config [49%N] [S_Types [([],[])]; S_Funcs [0%N]; S_Code [body [] [P (W_I32Const 0); P (W_CallIndirect 0 0)]]] il1) = 3.
Proof. repeat split; lazy; reflexivity. Qed.
(* the example module of ParseTotal.v (proved valid there: ex_valid), all 16 configurations *)
Example sweep_ex_mod : Forall (fun cf => fixed (run cf [49%N] ex_mod il2)) all_cfgs.
Proof. apply all_cfgs_all. intros [] [] [] []; vm_compute; reflexivity. Qed.

(* ties in the size order, 64-bit tables / memories with i64 and global offsets, limits / page size / shared flags,
   externref table, imported and exported everything, passive + active data with a data count *)
Definition w13 : wmod :=
  [ S_Types [([], []); ([VT_I32], [VT_I32; VT_I32])];
    S_Imports [imp1 0; {| wi_module := [1%N]; wi_name := []; wi_kind := WI_Global {| wg_ty := VT_I64; wg_mut := false; wg_shared := true |} |};
               {| wi_module := [1%N]; wi_name := []; wi_kind := WI_Mem {| wm_64 := true; wm_shared := true; wm_init := 1; wm_max := Some 5%N; wm_page := Some 0%N |} |};
               imp1 1;
               {| wi_module := [1%N]; wi_name := []; wi_kind := WI_Table {| wt_elem := RT_Externref; wt_64 := true; wt_init := 0; wt_max := Some 0%N |} |}];
    S_Funcs [0%N; 0%N; 0%N; 0%N; 1%N];
    S_Tables [{| wt_elem := RT_Funcref; wt_64 := false; wt_init := 2; wt_max := Some 9%N |}];
    S_Mems [{| wm_64 := false; wm_shared := false; wm_init := 0; wm_max := None; wm_page := Some 16%N |}];
    S_Globals [({| wg_ty := VT_I64; wg_mut := true; wg_shared := false |}, WC_GlobalGet 0); ({| wg_ty := VT_F64; wg_mut := false; wg_shared := false |}, WC_F64 77);
               ({| wg_ty := VT_V128; wg_mut := false; wg_shared := false |}, WC_V128 (2^100)); ({| wg_ty := VT_I32; wg_mut := false; wg_shared := false |}, WC_I32 (-1))];
    S_Exports [{| we_name := []; we_kind := EK_Func; we_index := 3 |}; {| we_name := []; we_kind := EK_Func; we_index := 0 |}; {| we_name := [1%N]; we_kind := EK_Global; we_index := 1 |};
               {| we_name := [2%N]; we_kind := EK_Table; we_index := 0 |}; {| we_name := [3%N]; we_kind := EK_Mem; we_index := 1 |}];
    S_Start 4;
    S_Elems [{| wel_kind := WEK_Active (Some 0%N) (WC_GlobalGet 0); wel_items := WEI_Exprs RT_Externref [WC_RefNull RT_Externref] |};
             {| wel_kind := WEK_Active (Some 1%N) (WC_GlobalGet 4); wel_items := WEI_Funcs [6%N; 2%N; 0%N] |};
             {| wel_kind := WEK_Active (Some 0%N) (WC_I64 3); wel_items := WEI_Exprs RT_Externref [] |}];
    S_DataCount 3;
    S_Code [body [] [P (W_Call 3)]; body [] [P (W_Call 2); P (W_Call 5)]; body [] [P (W_Call 4)]; body [] [P (W_Call 6); P W_Drop; P W_Drop; RNop 1];
            body [] [P (W_LocalGet 0); RLoop (BT_Func 1) [RBrIf 0 1; P (W_I32Const 1); P (W_I32Const 2); RBr 1 2] 1 2]];
    S_Data [{| wd_kind := WDK_Active 0 (WC_GlobalGet 1); wd_bytes := [] |}; dP [1%N]; {| wd_kind := WDK_Active 1 (WC_GlobalGet 4); wd_bytes := [2%N] |}];
    S_Custom (CS_Name (Some names_all)) ].
Example x13_sweep : Forall (fun cf => fixed (run cf [49%N] w13 il2)) all_cfgs.
Proof. apply all_cfgs_all. intros [] [] [] []; vm_compute; reflexivity. Qed.

(* a second witness of the refutation: real, named locals around the invented one, two reordered functions *)
Definition names_of (l : list wsec) : list (list (N * namemap)) :=
  flat_map (fun s => match s with S_Custom (CS_Name (Some n)) => [wn_locals n] | _ => [] end) l.
Example phantom_locals_syn_not_fixed : ~ fixed (run syn_config [49%N] wP2 il1).
Proof.
  intros H. destruct (run syn_config [49%N] wP2 il1) as [| | | | |a b] eqn:R; try exact H. cbn in H.
  assert (E : names_of (match run syn_config [49%N] wP2 il1 with O_Both a _ => a | _ => [] end) =
              names_of (match run syn_config [49%N] wP2 il1 with O_Both _ b => b | _ => [] end)).
  { rewrite R. now rewrite H. }
  clear R H. lazy in E. discriminate E.
Qed.

(* the example module of [module_fixpoint_nonvacuous] satisfies the validity premise of the final theorem *)
Example module_fixpoint_premises_nonvacuous : valid_stream wA.
Proof.
  unfold valid_stream, wA. cbn [valid_from]. unfold valid_sec.
  repeat match goal with |- _ /\ _ => split end;
    try (vm_compute; reflexivity); try exact I.
  cbn [cstep cstep0 set_last c_nt fold_left cimp wi_kind rank ctx0 length Nat.add].
  repeat constructor.
  - exists b_small, 99%N. split; [reflexivity|].
    cbn [swfl swf b_small sbt_ok]; repeat split; try (cbn; lia); try (intros f H; vm_compute in H; discriminate H).
  - exists b_big, 99%N. split; [reflexivity|].
    cbn [swfl swf b_big sbt_ok]; repeat split; try (cbn; lia); try (intros f H; vm_compute in H; discriminate H).
Qed.

Print Assumptions module_fixpoint_nonvacuous.
Print Assumptions module_fixpoint_premises_nonvacuous.
Print Assumptions module_fixpoint_refuted.
Print Assumptions module_fixpoint_refuted_valid_stream.
