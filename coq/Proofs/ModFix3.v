(* C08, module level, section kind TYPES (and the type index map).  The type section a parsed module emits is
   strictly sorted (sorted and duplicate free), so parsing it back numbers the types 0..n-1 in that order; hence
   the second round trip reproduces the type section and its renumbering is the identity on types. *)
From Coq Require Import List NArith ZArith Bool Arith Lia Permutation Sorted.
Import ListNotations.
From WV Require Import Gen.Ops Model.Common Model.IR Model.Arena Model.ModuleM Model.ParseM Model.EmitM.
From WV Require Import Proofs.Arena Proofs.Order Proofs.IndexMaps Proofs.Names Proofs.Totality Proofs.Structure
                       Proofs.ParsedWf Proofs.Structure2 Proofs.SortKeys Proofs.Renumbering Proofs.ModFix Proofs.ModFix4.
Local Open Scope nat_scope.

Notation rho := WV.Proofs.Structure.rho.
Notation sorted_types := WV.Proofs.IndexMaps.emitted_types.     (* sort_types (filter non-entry (live_types m)) *)
Notation unsorted_types := WV.Proofs.SortKeys.emitted_types.    (* filter non-entry (live_types m) *)

Definition sig := (list valty * list valty)%type.
Definition mkty (t : sig) : mtype := {| ty_params := fst t; ty_results := snd t; ty_entry := false; ty_name := None |}.
Definition sig_le (a b : sig) : Prop := ty_le (mkty a) (mkty b) = true.

Lemma ty_le_key (a b : N * mtype) : ty_le (snd a) (snd b) = ty_le (mkty (ty_key a)) (mkty (ty_key b)).
Proof. reflexivity. Qed.
Lemma sig_le_antisym a b : sig_le a b -> sig_le b a -> a = b.
Proof.
  intros H1 H2. destruct (ty_le_antisym_key _ _ H1 H2) as [P R]. destruct a, b. cbn in P, R. congruence.
Qed.
Lemma SS_map {A B} (f : A -> B) (R : A -> A -> Prop) (R' : B -> B -> Prop) :
  (forall a b, R a b -> R' (f a) (f b)) -> forall l, StronglySorted R l -> StronglySorted R' (map f l).
Proof.
  intros H l S. induction S as [|a l S IH F]; cbn [map]; constructor; [exact IH|].
  rewrite Forall_forall in *. intros y Hy. apply in_map_iff in Hy. destruct Hy as (x & <- & Hx). apply H, F, Hx.
Qed.

Lemma sorted_unique : forall l1 l2 : list sig,
  StronglySorted sig_le l1 -> StronglySorted sig_le l2 -> NoDup l1 -> NoDup l2 ->
  (forall x, In x l1 <-> In x l2) -> l1 = l2.
Proof.
  induction l1 as [|a1 r1 IH]; intros l2 S1 S2 N1 N2 HE.
  - destruct l2 as [|a2 r2]; [reflexivity|]. exfalso. apply (proj2 (HE a2)). left; reflexivity.
  - destruct l2 as [|a2 r2]; [exfalso; apply (proj1 (HE a1)); left; reflexivity|].
    inversion S1 as [|? ? S1' F1]; subst. inversion S2 as [|? ? S2' F2]; subst.
    inversion N1 as [|? ? NI1 N1']; subst. inversion N2 as [|? ? NI2 N2']; subst.
    rewrite Forall_forall in F1, F2.
    assert (E : a1 = a2).
    { destruct (proj1 (HE a1) (or_introl eq_refl)) as [E|I1]; [congruence|].
      destruct (proj2 (HE a2) (or_introl eq_refl)) as [E|I2]; [congruence|].
      apply sig_le_antisym; [apply F1, I2|apply F2, I1]. }
    subst a2. f_equal. apply IH; auto. intros x. split; intros Hx.
    + destruct (proj1 (HE x) (or_intror Hx)) as [E|I]; [subst x; contradiction|exact I].
    + destruct (proj2 (HE x) (or_intror Hx)) as [E|I]; [subst x; contradiction|exact I].
Qed.

Lemma dw_custom_nil : dw_custom [].
Proof. intros s []. Qed.

Lemma out_types_keys m ilen e : emitM m ilen [] = Ok e ->
  flat_map types_of (em_secs e) = map ty_key (sorted_types m).
Proof.
  intros He. destruct (out_decls _ _ _ _ He dw_custom_nil) as (s_ty & x1 & s_im & x2 & s_fn & x3 & Ety & _ & _ & _ & HO).
  unfold out_types in HO. rewrite HO, (emit_types_decl _ _ _ _ Ety). reflexivity.
Qed.

Lemma sorted_types_item m id ty : In (id, ty) (sorted_types m) ->
  nth_error (items (Arena.arena (m_types m))) (N.to_nat id) = Some ty /\ ty_entry ty = false.
Proof.
  intros En. unfold WV.Proofs.IndexMaps.emitted_types in En. eapply Permutation_in in En; [|apply sort_types_perm].
  apply filter_In in En. destruct En as [En Hne]. cbn [snd] in Hne. split.
  - unfold live_types, aset_iter in En. apply (aiter_In_nth (Arena.arena (m_types m))). exact En.
  - destruct (ty_entry ty); [discriminate|reflexivity].
Qed.

Theorem emitted_types_sorted_distinct : forall cf ver w s1 ilen e1,
  parseM cf ver w = POk s1 -> emitM (ps_m s1) ilen [] = Ok e1 ->
  StronglySorted sig_le (flat_map types_of (em_secs e1)) /\ NoDup (flat_map types_of (em_secs e1)).
Proof.
  intros cf ver w s1 ilen e1 Hp He. rewrite (out_types_keys _ _ _ He). split.
  - apply (SS_map ty_key (fun a b => ty_le (snd a) (snd b) = true)); [|apply sort_types_sorted].
    intros a b H. unfold sig_le. rewrite <- ty_le_key. exact H.
  - eapply Permutation_NoDup; [apply Permutation_sym, Permutation_map, sort_types_perm|].
    apply (parsed_types_keys_NoDup _ _ _ _ Hp).
Qed.

Lemma out_types_elems : forall cf ver w s ilen e,
  parseM cf ver w = POk s -> emitM (ps_m s) ilen [] = Ok e ->
  forall t, In t (flat_map types_of w) <-> In t (flat_map types_of (em_secs e)).
Proof.
  intros cf ver w s ilen e Hp He t. rewrite (out_types_keys _ _ _ He).
  destruct (parseM_sigs _ _ _ _ Hp) as [[HL HT] _]. split.
  - intros Hin. apply In_nth_error in Hin. destruct Hin as [k Hk].
    destruct (HT _ _ Hk) as (id & ty & H1 & H2 & (P1 & P2 & P3)).
    assert (G : types_get (ps_m s) id = Some ty).
    { unfold types_get. rewrite aset_index_nodead; [exact H2|]. apply (parseM_types_wf _ _ _ _ Hp). }
    pose proof (emitted_types_In _ _ _ G P3) as Hi. apply in_map_iff in Hi. destruct Hi as ([id' ty'] & Ei & Hi).
    cbn [fst] in Ei. subst id'. destruct (sorted_types_item _ _ _ Hi) as [H2' _]. rewrite H2 in H2'. inversion H2'; subst ty'.
    apply in_map_iff. exists (id, ty). split; [|exact Hi]. unfold ty_key. cbn [snd]. rewrite P1, P2. destruct t; reflexivity.
  - intros Hin. apply in_map_iff in Hin. destruct Hin as ([id ty] & Ek & Hin).
    destruct (sorted_types_item _ _ _ Hin) as [H2 P3].
    pose proof (parseM_TE _ _ _ _ Hp _ _ H2 P3) as Hi. rewrite N2Nat.id in Hi.
    apply In_nth_error in Hi. destruct Hi as [k Hk].
    destruct (nth_error (flat_map types_of w) k) as [t'|] eqn:Et.
    + destruct (HT _ _ Et) as (id' & ty' & H1' & H2' & (P1 & P2 & _)). rewrite Hk in H1'. inversion H1'; subst id'.
      rewrite H2 in H2'. inversion H2'; subst ty'. unfold ty_key in Ek. cbn [snd] in Ek. rewrite P1, P2 in Ek.
      eapply nth_error_In. rewrite Et. f_equal. rewrite <- Ek. destruct t'; reflexivity.
    + apply nth_error_None in Et. assert (k < length (ii_types (ps_ids s))) by (apply nth_error_Some; congruence). lia.
Qed.

Theorem fix_types : forall cf ver w ilen s1 e1 s2 e2, two_trips cf ver w ilen s1 e1 s2 e2 ->
  flat_map types_of (em_secs e2) = flat_map types_of (em_secs e1).
Proof.
  intros cf ver w ilen s1 e1 s2 e2 (Hp1 & He1 & Hp2 & He2).
  destruct (emitted_types_sorted_distinct _ _ _ _ _ _ Hp1 He1) as [S1 N1].
  destruct (emitted_types_sorted_distinct _ _ _ _ _ _ Hp2 He2) as [S2 N2].
  apply sorted_unique; auto. intros x. symmetry. apply (out_types_elems _ _ _ _ _ _ Hp2 He2).
Qed.

Theorem types_identity : forall cf ver w ilen s1 e1 s2 e2, two_trips cf ver w ilen s1 e1 s2 e2 ->
  rho_id s2 e2 S_type.
Proof.
  intros cf ver w ilen s1 e1 s2 e2 HT2. pose proof (fix_types _ _ _ _ _ _ _ _ HT2) as HF.
  destruct HT2 as (Hp1 & He1 & Hp2 & He2). intros i Hi.
  destruct (emitted_types_sorted_distinct _ _ _ _ _ _ Hp1 He1) as [_ N1].
  destruct (parseM_sigs _ _ _ _ Hp2) as [[HL HT] _]. cbn [ids_space] in Hi.
  destruct (nth_error (flat_map types_of (em_secs e1)) (N.to_nat i)) as [t|] eqn:Et; [|apply nth_error_None in Et; lia].
  destruct (HT _ _ Et) as (id & ty & H1 & H2 & (P1 & P2 & P3)).
  edestruct (rho_type_total cf ver (em_secs e1) s2 ilen [] e2) as (j & Hj & _); [exact Hp2|exact He2|exact Hi|].
  rewrite Hj. pose proof Hj as Hu. apply rho_type_unfold in Hu. destruct Hu as (id' & H1' & Hg).
  rewrite H1 in H1'. inversion H1'; subst id'.
  destruct (emit_type_decl _ _ _ _ He2 dw_custom_nil _ _ Hg) as (ty' & H2' & HO).
  rewrite H2 in H2'. inversion H2'; subst ty'. unfold out_types in HO. rewrite HF, P1, P2 in HO.
  assert (E : N.to_nat i = N.to_nat j).
  { apply (proj1 (NoDup_nth_error _) N1); [apply nth_error_Some; congruence|]. rewrite Et, HO. destruct t; reflexivity. }
  apply N2Nat.inj in E. congruence.
Qed.


Lemma types_insert_fresh m t m1 id : types_wf (m_types m) ->
  (forall i v, nth_error (items (Arena.arena (m_types m))) i = Some v -> mtype_eqb t v = false) ->
  types_insert m t = (m1, id) ->
  id = N.of_nat (length (items (Arena.arena (m_types m)))) /\
  items (Arena.arena (m_types m1)) = items (Arena.arena (m_types m)) ++ [t].
Proof.
  intros [_ Ha] Fr E. destruct (types_insert_items _ _ _ _ E) as [[_ (k & Hin & He)]|(_ & Eid & Eit & _)]; [exfalso|auto].
  destruct (Ha _ _ Hin) as [k' [Hn Hk]].
  assert (X : mtype_eqb t k' = true) by (eapply mtype_eqb_trans; [apply mtype_eqb_sym; exact He|exact Hk]).
  rewrite (Fr _ _ Hn) in X. discriminate.
Qed.

Lemma parse_types_fresh : forall ts m ids m' ids', types_wf (m_types m) -> NoDup ts ->
  (forall t i v, In t ts -> nth_error (items (Arena.arena (m_types m))) i = Some v -> mtype_eqb (mkty t) v = false) ->
  parse_types m ids ts = (m', ids') ->
  ii_types ids' = ii_types ids ++ map N.of_nat (seq (length (items (Arena.arena (m_types m)))) (length ts)).
Proof.
  induction ts as [|[ps rs] r IH]; intros m ids m' ids' W ND Fr E; cbn [parse_types] in E.
  - inversion E; subst. cbn. rewrite app_nil_r. reflexivity.
  - destruct (types_insert m _) as [m1 id] eqn:Et.
    inversion ND as [|? ? NI ND']; subst.
    destruct (types_insert_fresh _ _ _ _ W (fun i v => Fr (ps, rs) i v (or_introl eq_refl)) Et) as [Eid Eit].
    destruct (types_insert_spec _ _ _ _ W Et) as [W1 _].
    apply IH in E; [|exact W1|exact ND'|].
    + rewrite E. wcbn. rewrite Eit, app_length, <- app_assoc. cbn [length seq map app]. rewrite Nat.add_1_r, Eid. reflexivity.
    + intros t i v Hin Hn. rewrite Eit in Hn. apply nth_snoc in Hn. destruct Hn as [Hn|[_ ->]].
      * apply (Fr t i v (or_intror Hin) Hn).
      * destruct (mtype_eqb (mkty t) _) eqn:Eq; [|reflexivity]. exfalso. apply NI.
        apply mtype_eqb_spec in Eq. cbn in Eq. destruct Eq as (Q1 & Q2 & _). destruct t as [a b]. cbn in Q1, Q2. subst. exact Hin.
Qed.

Lemma parse_secs_no_types : forall w s s', (forall ts, ~ In (S_Types ts) w) -> parse_secs s w = POk s' ->
  m_types (ps_m s') = m_types (ps_m s) /\ ii_types (ps_ids s') = ii_types (ps_ids s).
Proof.
  induction w as [|x r IH]; intros s s' NT E; cbn [parse_secs] in E.
  - inversion E; subst. split; reflexivity.
  - pinv E as s1 E1. apply IH in E; [|intros ts H; apply (NT ts); right; exact H]. destruct E as [Q1 Q2].
    pose proof (parse_sec_frameB _ _ _ E1) as [F _]. destruct x; try (destruct F; split; congruence).
    exfalso. apply (NT ts). left; reflexivity.
Qed.

Lemma emitted_types_front m ilen e : emitM m ilen [] = Ok e ->
  exists tail, (forall ts, ~ In (S_Types ts) tail) /\
    (em_secs e = tail \/ em_secs e = S_Types (map ty_key (sorted_types m)) :: tail).
Proof.
  intros He. emitM_kinds He.
  match type of Esecs with _ = _ ++ ?t => set (tail := t) in * end.
  assert (NT : Forall (fun s => has_tag 0 s = false) tail).
  { subst tail. repeat (apply Forall_app; split); try (eapply tagged_other; [eassumption|lia]). apply untagged_other, Erest. }
  exists tail. split.
  - intros ts Hin. rewrite Forall_forall in NT. discriminate (NT _ Hin).
  - clearbody tail. unfold emit_types in Ety. fold (sorted_types m) in Ety.
    destruct (sorted_types m) as [|p r]; inversion Ety; subst; [left|right]; exact Esecs.
Qed.

Theorem reparse_types_ids : forall cf ver w s1 ilen e1 s2,
  parseM cf ver w = POk s1 -> emitM (ps_m s1) ilen [] = Ok e1 -> parseM cf ver (em_secs e1) = POk s2 ->
  ii_types (ps_ids s2) = iota (length (flat_map types_of (em_secs e1))).
Proof.
  intros cf ver w s1 ilen e1 s2 Hp1 He1 Hp2.
  destruct (parseM_sigs _ _ _ _ Hp2) as [[HL _] _]. rewrite <- HL.
  destruct (parseM_fty _ _ _ _ Hp2) as (s' & Es' & _ & ->).
  destruct (emitted_types_sorted_distinct _ _ _ _ _ _ Hp1 He1) as [_ N1]. rewrite (out_types_keys _ _ _ He1) in N1.
  destruct (emitted_types_front _ _ _ He1) as (tail & NT & [Esec|Esec]); rewrite Esec in Es'.
  - destruct (parse_secs_no_types _ _ _ NT Es') as [_ ->]. reflexivity.
  - cbn [parse_secs] in Es'. pinv Es' as sa Ea. destruct (parse_secs_no_types _ _ _ NT Es') as [_ ->].
    unfold parse_sec in Ea. destruct (parse_types _ _ _) as [m1 i1] eqn:Ep. inversion Ea; subst sa; clear Ea. wcbn.
    apply parse_types_fresh in Ep; [|apply types_wf_empty|exact N1|intros t i v _ Hn; destruct i; discriminate].
    rewrite Ep. cbn [pst0 ps_ids ps_m empty_i2ids ii_types app empty_wir m_types aset_empty Arena.arena empty items length].
    rewrite (map_length N.of_nat), seq_length. reflexivity.
Qed.

Lemma SS_map_filter {A B} (f : A -> B) (R : B -> B -> Prop) (p : A -> bool) : forall l,
  StronglySorted R (map f l) -> StronglySorted R (map f (filter p l)).
Proof.
  induction l as [|a l IH]; cbn [map filter]; intros S; [constructor|].
  inversion S as [|? ? S' F]; subst. destruct (p a); cbn [map]; [|apply IH, S'].
  constructor; [apply IH, S'|]. rewrite Forall_forall in *. intros y Hy. apply F.
  apply in_map_iff in Hy. destruct Hy as (x & <- & Hx). apply filter_In in Hx. apply in_map, Hx.
Qed.
Lemma live_types_sorted m : StronglySorted N.lt (map fst (live_types m)).
Proof.
  unfold live_types. rewrite map_map. cbn [fst]. rewrite <- (map_map fst N.of_nat).
  apply (SS_map N.of_nat lt); [intros a b; lia|]. unfold aset_iter. apply iter_creation_order.
Qed.

Theorem reparse_types_arena : forall cf ver w s1 ilen e1 s2,
  parseM cf ver w = POk s1 -> emitM (ps_m s1) ilen [] = Ok e1 -> parseM cf ver (em_secs e1) = POk s2 ->
  map ty_key (filter (fun p => negb (ty_entry (snd p))) (live_types (ps_m s2))) = flat_map types_of (em_secs e1) /\
  map fst (filter (fun p => negb (ty_entry (snd p))) (live_types (ps_m s2))) = iota (length (flat_map types_of (em_secs e1))) /\
  ii_types (ps_ids s2) = iota (length (flat_map types_of (em_secs e1))).
Proof.
  intros cf ver w s1 ilen e1 s2 Hp1 He1 Hp2.
  pose proof (reparse_types_ids _ _ _ _ _ _ _ Hp1 He1 Hp2) as Eids.
  destruct (parseM_sigs _ _ _ _ Hp2) as [[HL HT] _].
  destruct (parseM_types_wf _ _ _ _ Hp2) as [Hd _].
  set (T1 := flat_map types_of (em_secs e1)) in *. set (m2 := ps_m s2) in *.
  set (L := filter (fun p => negb (ty_entry (snd p))) (live_types m2)).
  assert (InL : forall id ty, In (id, ty) L <->
            (nth_error (items (Arena.arena (m_types m2))) (N.to_nat id) = Some ty /\ ty_entry ty = false)).
  { intros id ty. unfold L. rewrite filter_In. cbn [snd]. rewrite negb_true_iff.
    rewrite <- (aset_index_nodead _ _ Hd), <- live_types_in, N2Nat.id. tauto. }
  assert (EF : map fst L = iota (length T1)).
  { apply sorted_lt_ext; [apply SS_map_filter, live_types_sorted|apply iota_sorted|]. intros x. split.
    - intros Hx. apply in_map_iff in Hx. destruct Hx as ([id ty] & <- & Hx). cbn [fst]. apply InL in Hx. destruct Hx as [H2 P3].
      pose proof (parseM_TE _ _ _ _ Hp2 _ _ H2 P3) as Hi. rewrite N2Nat.id, Eids in Hi. exact Hi.
    - intros Hx. rewrite <- Eids in Hx. apply In_nth_error in Hx. destruct Hx as [k Hk].
      destruct (nth_error T1 k) as [t|] eqn:Et.
      + destruct (HT _ _ Et) as (id & ty & H1 & H2 & (_ & _ & P3)). rewrite Hk in H1. inversion H1; subst id.
        apply in_map_iff. exists (x, ty). split; [reflexivity|]. apply InL. auto.
      + apply nth_error_None in Et. assert (k < length (ii_types (ps_ids s2))) by (apply nth_error_Some; congruence). lia. }
  split; [|split; [exact EF|exact Eids]].
  apply nth_error_ext'. intros k. rewrite nth_error_map. destruct (nth_error L k) as [[id ty]|] eqn:EL; cbn [option_map].
  - assert (Hf : nth_error (map fst L) k = Some id) by (rewrite nth_error_map, EL; reflexivity).
    rewrite EF in Hf. apply iota_nth_inv in Hf. destruct Hf as [-> Lk].
    apply nth_error_In, InL in EL. destruct EL as [H2 _].
    destruct (nth_error T1 k) as [t|] eqn:Et; [|apply nth_error_None in Et; lia].
    destruct (HT _ _ Et) as (id' & ty' & H1' & H2' & (P1 & P2 & _)).
    rewrite Eids, iota_nth in H1' by exact Lk. inversion H1'; subst id'. rewrite H2 in H2'. inversion H2'; subst ty'.
    unfold ty_key. cbn [snd]. rewrite P1, P2. destruct t; reflexivity.
  - symmetry. apply nth_error_None. apply nth_error_None in EL.
    assert (length L = length T1) by (rewrite <- (map_length fst), EF; apply iota_length). lia.
Qed.

Corollary types_get_idx : forall cf ver w ilen s1 e1 s2 e2, two_trips cf ver w ilen s1 e1 s2 e2 ->
  forall id, N.to_nat id < length (flat_map types_of (em_secs e1)) -> get_idx (em_x2i e2) S_type id = Ok id.
Proof.
  intros cf ver w ilen s1 e1 s2 e2 HT2 id Hid. pose proof (types_identity _ _ _ _ _ _ _ _ HT2) as RI.
  destruct HT2 as (Hp1 & He1 & Hp2 & He2). pose proof (reparse_types_ids _ _ _ _ _ _ _ Hp1 He1 Hp2) as Eids.
  specialize (RI id). cbn [ids_space] in RI. rewrite Eids, iota_length in RI. specialize (RI Hid).
  unfold WV.Proofs.Structure.rho in RI. cbn [ids_space] in RI. rewrite Eids, iota_nth, N2Nat.id in RI by exact Hid. exact RI.
Qed.

Corollary types_x2i_ids : forall cf ver w ilen s1 e1 s2 e2, two_trips cf ver w ilen s1 e1 s2 e2 ->
  map fst (xi_types (em_x2i e2)) = iota (length (flat_map types_of (em_secs e1))).
Proof.
  intros cf ver w ilen s1 e1 s2 e2 HT2. pose proof (types_get_idx _ _ _ _ _ _ _ _ HT2) as G.
  pose proof (fix_types _ _ _ _ _ _ _ _ HT2) as HF. destruct HT2 as (Hp1 & He1 & Hp2 & He2).
  destruct (emit_order_types _ _ _ _ He2) as [Eo Wt].
  assert (Len : length (map fst (xi_types (em_x2i e2))) = length (flat_map types_of (em_secs e1))).
  { rewrite Eo, <- HF, (out_types_keys _ _ _ He2), !map_length. reflexivity. }
  apply nth_error_ext'. intros k. destruct (lt_dec k (length (flat_map types_of (em_secs e1)))) as [Lk|Ge].
  - rewrite iota_nth by exact Lk. specialize (G (N.of_nat k)). rewrite Nat2N.id in G. specialize (G Lk).
    apply (x2i_positions _ S_type _ _ Wt) in G. rewrite Nat2N.id in G. exact G.
  - rewrite (proj2 (nth_error_None _ _)) by lia. symmetry. apply nth_error_None. rewrite iota_length. lia.
Qed.

Print Assumptions emitted_types_sorted_distinct.
Print Assumptions reparse_types_arena.
Print Assumptions fix_types.
Print Assumptions types_identity.
Print Assumptions types_get_idx.
Print Assumptions types_x2i_ids.
