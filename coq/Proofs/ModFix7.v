(* C08, module level, the NAME section: the name section written by the second round trip is the one
   written by the first. *)
From Coq Require Import List NArith ZArith Bool Arith Lia Permutation Sorted.
Import ListNotations.
From WV Require Import Gen.Ops Model.Common Model.IR Model.Arena Model.Traversal Model.EmitFn Model.Locals
                       Model.ParseFn Model.ModuleM Model.ParseM Model.EmitM Gen.Attrs.
From WV Require Import Proofs.Arena Proofs.Order Proofs.IndexMaps Proofs.Structure Proofs.Structure2.
From WV Require Import Proofs.Names Proofs.ModFix.
From WV Require Proofs.CustomsCfg Proofs.Renumbering.
Local Open Scope nat_scope.

Definition name_payload (w : list wsec) : list (option wnames) :=
  flat_map (fun s => match s with S_Custom (CS_Name n) => [n] | _ => [] end) w.

Lemma np_app a b : name_payload (a ++ b) = name_payload a ++ name_payload b.
Proof. apply flat_map_app. Qed.
Lemma ns_app a b : name_sections (a ++ b) = name_sections a ++ name_sections b.
Proof. apply flat_map_app. Qed.

Lemma np_plain l : WV.Proofs.CustomsCfg.plain_secs l -> name_payload l = [] /\ name_sections l = [].
Proof.
  induction 1 as [|s l Hs F [I1 I2]]; [split; reflexivity|].
  unfold name_payload, name_sections in *. cbn [flat_map]. rewrite I1, I2.
  destruct s; try (split; reflexivity). discriminate.
Qed.

Lemma np_customs (cs : list (option mcustom)) :
  name_payload (WV.Proofs.CustomsCfg.sec_customs cs) = [] /\ name_sections (WV.Proofs.CustomsCfg.sec_customs cs) = [].
Proof.
  unfold WV.Proofs.CustomsCfg.sec_customs. induction cs as [|c cs [I1 I2]]; [split; reflexivity|].
  cbn [flat_map]. rewrite np_app, ns_app, I1, I2, !app_nil_r.
  destruct c as [c|]; [|split; reflexivity]. destruct (starts_with_debug _); split; reflexivity.
Qed.

(* the only name section of an emitted stream is the one emit_names writes *)
Theorem emitM_name_payload m ilen e : emitM m ilen [] = Ok e ->
  exists s_nm,
    (if cf_skip_name (m_config m) then s_nm = [] else emit_names m (em_x2i e) (em_fns e) = Ok s_nm) /\
    name_payload (em_secs e) = name_payload s_nm /\ name_sections (em_secs e) = name_sections s_nm.
Proof.
  rewrite WV.Proofs.CustomsCfg.emitM_factor. unfold set_customs_take. intros H. rinv H as f Ef. destruct f as [[front x] efs].
  unfold WV.Proofs.CustomsCfg.emit_tail in H. rinv H as s_nm En. injection H as <-. cbn [em_x2i em_module em_secs em_fns].
  exists s_nm. split.
  { unfold WV.Proofs.CustomsCfg.sec_names in En. destruct (cf_skip_name (m_config m)); [injection En as <-; reflexivity|exact En]. }
  destruct (np_plain _ (WV.Proofs.CustomsCfg.emit_front_plain _ _ _ _ _ Ef)) as [A0 B0]. destruct (np_customs (m_customs m)) as [AC BC].
  rewrite !np_app, !ns_app, A0, B0, AC, BC. unfold WV.Proofs.CustomsCfg.sec_producers, WV.Proofs.CustomsCfg.sec_dwarf.
  destruct (cf_skip_producers _), (m_producers m), (cf_generate_dwarf _); cbn; rewrite !app_nil_r; split; reflexivity.
Qed.

Lemma lt_sorted_le {A} (l : list (N * A)) : StronglySorted N.lt (map fst l) ->
  StronglySorted (fun a b => fst a <= fst b)%N l.
Proof.
  induction l as [|a l IH]; intros H; [constructor|]. cbn [map] in H. inversion H; subst. constructor; [auto|].
  rewrite Forall_forall in *. intros b Hb. assert (fst a < fst b)%N by (apply H3, in_map, Hb). lia.
Qed.
Lemma dedupe_last_id (l : namemap) : NoDup (map fst l) -> dedupe_last l = l.
Proof.
  induction l as [|[i n] r IH]; intros ND; [reflexivity|]. cbn [map fst] in ND. inversion ND; subst. cbn [dedupe_last].
  destruct (existsb (fun p => N.eqb (fst p) i) r) eqn:Ee; [apply existsb_fst in Ee; contradiction|].
  rewrite IH by assumption. reflexivity.
Qed.
Lemma filter_all {A} (f : A -> bool) (l : list A) : (forall x, In x l -> f x = true) -> filter f l = l.
Proof.
  induction l as [|a l IH]; intros H; [reflexivity|]. cbn [filter]. rewrite (H a) by (left; reflexivity).
  rewrite IH; [reflexivity|]. intros x Hx. apply H. right. exact Hx.
Qed.

(* a strictly sorted map whose indices are all below n *)
Definition canon (n : nat) (l : namemap) : Prop :=
  StronglySorted N.lt (map fst l) /\ forall i, In i (map fst l) -> N.to_nat i < n.

Lemma canon_fixed n l : canon n l -> sort_nm (filter (fun p => N.to_nat (fst p) <? n) (dedupe_last l)) = l.
Proof.
  intros [S R]. rewrite dedupe_last_id by (apply StronglySorted_lt_NoDup, S).
  rewrite filter_all; [apply sort_nm_id, lt_sorted_le, S|].
  intros p Hp. apply Nat.ltb_lt, R, in_map, Hp.
Qed.

(* one kind, identity renumbering: a canonical input map comes out unchanged *)
Lemma kind_rt_fixed x S n l out : kind_rt x S n l out -> wf_map (space_map x S) ->
  (forall i, N.to_nat i < n -> get_idx x S i = Ok i) -> canon n l -> out = l.
Proof.
  intros K W Hid C. destruct (kind_rt_id _ _ _ _ _ K W Hid) as [E _]. rewrite E. apply canon_fixed, C.
Qed.

Theorem names_roundtrip_s : forall cf ver w s ilen e,
  parseM cf ver w = POk s -> emitM (ps_m s) ilen [] = Ok e -> cf_skip_name cf = false ->
  let ids := ps_ids s in let x := em_x2i e in let ns := name_sections w in
  exists s_nm,
    emit_names (ps_m s) x (em_fns e) = Ok s_nm /\
    name_payload (em_secs e) = name_payload s_nm /\ name_sections (em_secs e) = name_sections s_nm /\
    (s_nm = [] \/ s_nm = [S_Custom (CS_Name (Some (names_of s_nm)))]) /\
    let out := names_of s_nm in
    wn_module out = last_module_name ns /\
    (cf_synthetic_names cf = false ->
       kind_rt x S_func (length (ii_funcs ids)) (flat_map wn_funcs ns) (wn_funcs out)) /\
    kind_rt x S_table (length (ii_tables ids)) (flat_map wn_tables ns) (wn_tables out) /\
    kind_rt x S_memory (length (ii_memories ids)) (flat_map wn_mems ns) (wn_mems out) /\
    kind_rt x S_global (length (ii_globals ids)) (flat_map wn_globals ns) (wn_globals out) /\
    kind_rt x S_elem (length (ii_elements ids)) (flat_map wn_elems ns) (wn_elems out) /\
    kind_rt x S_data (length (ii_data ids)) (flat_map wn_data ns) (wn_data out).
Proof.
  intros cf ver w s ilen e HP HE Hskip. cbv zeta.
  destruct (emitM_name_payload _ _ _ HE) as (s_nm & Hn & Hpay & Hsec). rewrite (parseM_config _ _ _ _ HP), Hskip in Hn.
  exists s_nm. split; [exact Hn|]. split; [exact Hpay|]. split; [exact Hsec|]. exact (emit_names_roundtrip _ _ _ _ _ _ _ HP Hn).
Qed.

Lemma named_canon {A} x S (getn : A -> option nstr) l r : named x S getn l = Ok r ->
  wf_map (space_map x S) -> NoDup (map fst l) -> canon (length (space_map x S)) r.
Proof.
  intros H W ND. destruct (named_spec _ _ _ _ _ H) as (M & _ & _ & SS). split; [apply SS; assumption|].
  intros i Hi. apply in_map_iff in Hi. destruct Hi as [[j nm] [<- Hin]]. cbn [fst].
  apply M in Hin. destruct Hin as (id & a & _ & _ & Hg). apply (x2i_positions _ _ _ _ W) in Hg.
  assert (Hs : nth_error (map fst (space_map x S)) (N.to_nat j) <> None) by congruence.
  apply nth_error_Some in Hs. rewrite map_length in Hs. exact Hs.
Qed.
Lemma canon_mono n n' l : n <= n' -> canon n l -> canon n' l.
Proof. intros L [S R]. split; [exact S|]. intros i Hi. specialize (R i Hi). lia. Qed.

(* all index-keyed maps of a name section are strictly sorted, with indices that exist in the emitted index spaces *)
Definition names_canon (x : x2i) (n : wnames) : Prop :=
  canon (length (space_map x S_func)) (wn_funcs n) /\ canon (length (space_map x S_type)) (wn_types n) /\
  canon (length (space_map x S_table)) (wn_tables n) /\ canon (length (space_map x S_memory)) (wn_mems n) /\
  canon (length (space_map x S_global)) (wn_globals n) /\ canon (length (space_map x S_elem)) (wn_elems n) /\
  canon (length (space_map x S_data)) (wn_data n).

Theorem emitted_names_canonical_s : forall cf ver w s ilen e,
  parseM cf ver w = POk s -> emitM (ps_m s) ilen [] = Ok e -> cf_skip_name cf = false ->
  exists s_nm,
    emit_names (ps_m s) (em_x2i e) (em_fns e) = Ok s_nm /\
    name_payload (em_secs e) = name_payload s_nm /\ name_sections (em_secs e) = name_sections s_nm /\
    (s_nm = [] \/ s_nm = [S_Custom (CS_Name (Some (names_of s_nm)))]) /\
    names_canon (em_x2i e) (names_of s_nm).
Proof.
  intros cf ver w s ilen e HP HE Hskip.
  pose proof (parseM_config _ _ _ _ HP) as Hcf. rewrite <- Hcf in Hskip.
  destruct (emitM_name_payload _ _ _ HE) as (s_nm & Hn & Hpay & Hsec). rewrite Hskip in Hn.
  exists s_nm. split; [exact Hn|]. split; [exact Hpay|]. split; [exact Hsec|].
  apply emit_names_fields in Hn. destruct Hn as (Nm & Nf & Nty & Ntb & Nme & Ngl & Nel & Nda & Hshape).
  split; [exact Hshape|].
  assert (W : forall S, S <> S_local -> wf_map (space_map (em_x2i e) S)).
  { intros S. exact (WV.Proofs.Renumbering.parsed_wf_space _ _ _ _ _ _ _ S HP HE). }
  change (live_types (ps_m s)) with (aiter (Arena.arena (m_types (ps_m s)))) in Nty.
  unfold names_canon. split; [|split; [|split; [|split; [|split; [|split]]]]].
  - exact (named_canon _ _ _ _ _ Nf (W S_func ltac:(discriminate)) (aiter_NoDup _)).
  - exact (named_canon _ _ _ _ _ Nty (W S_type ltac:(discriminate)) (aiter_NoDup _)).
  - exact (named_canon _ _ _ _ _ Ntb (W S_table ltac:(discriminate)) (aiter_NoDup _)).
  - exact (named_canon _ _ _ _ _ Nme (W S_memory ltac:(discriminate)) (aiter_NoDup _)).
  - exact (named_canon _ _ _ _ _ Ngl (W S_global ltac:(discriminate)) (aiter_NoDup _)).
  - exact (named_canon _ _ _ _ _ Nel (W S_elem ltac:(discriminate)) (aiter_NoDup _)).
  - exact (named_canon _ _ _ _ _ Nda (W S_data ltac:(discriminate)) (aiter_NoDup _)).
Qed.

(* the names an emitted stream carries (empty when it has no name section) *)
Definition stream_names (w : list wsec) : wnames :=
  match name_payload w with [Some n] => n | _ => empty_names end.

Lemma stream_names_of w s_nm : name_payload w = name_payload s_nm ->
  (s_nm = [] \/ s_nm = [S_Custom (CS_Name (Some (names_of s_nm)))]) -> stream_names w = names_of s_nm.
Proof.
  intros E Hs. unfold stream_names. rewrite E. destruct Hs as [->|Hs]; [reflexivity|].
  rewrite Hs at 1. reflexivity.
Qed.
Lemma sections_of s_nm : (s_nm = [] \/ s_nm = [S_Custom (CS_Name (Some (names_of s_nm)))]) ->
  forall {A} (g : wnames -> list A), g empty_names = [] -> flat_map g (name_sections s_nm) = g (names_of s_nm).
Proof.
  intros Hs A g Hg. destruct Hs as [->|Hs]; [cbn; auto|]. rewrite Hs at 1. cbn. apply app_nil_r.
Qed.

Theorem emitted_names_canonical : forall cf ver w s ilen e,
  parseM cf ver w = POk s -> emitM (ps_m s) ilen [] = Ok e -> cf_skip_name cf = false ->
  (name_payload (em_secs e) = [] \/ name_payload (em_secs e) = [Some (stream_names (em_secs e))]) /\
  names_canon (em_x2i e) (stream_names (em_secs e)).
Proof.
  intros cf ver w s ilen e HP HE Hskip.
  destruct (emitted_names_canonical_s _ _ _ _ _ _ HP HE Hskip) as (s_nm & _ & Hpay & _ & Hs & C).
  rewrite (stream_names_of _ _ Hpay Hs). split; [|exact C]. rewrite Hpay.
  destruct Hs as [->|Hs]; [left; reflexivity|right]. rewrite Hs at 1. reflexivity.
Qed.

(* every index the first emit assigned is an input index of the second parse *)
Definition counts_kept (e1 : emitted) (s2 : pst) : Prop :=
  forall S, length (space_map (em_x2i e1) S) <= length (ids_space (ps_ids s2) S).

Lemma rho_id_get cf ver w s e S : parseM cf ver w = POk s -> S <> S_type -> S <> S_local -> rho_id s e S ->
  forall i, N.to_nat i < length (ids_space (ps_ids s) S) -> get_idx (em_x2i e) S i = Ok i.
Proof.
  intros HP HT HL H i Hi. specialize (H i Hi). unfold Structure.rho in H.
  pose proof (parseM_ids _ _ _ _ HP) as I. unfold ids_consistent in I. decompose [and] I. clear I.
  assert (E : exists n, ids_space (ps_ids s) S = iota n) by (destruct S; cbn [ids_space]; try congruence; eauto).
  destruct E as [n E]. rewrite E in H, Hi. rewrite iota_length in Hi. rewrite (iota_nth _ _ Hi), N2Nat.id in H. exact H.
Qed.

(* one kind of the second round trip: the first emit's map is canonical, the second emit does not renumber *)
Lemma kind_fixed cf ver w s ilen e S n l out : parseM cf ver w = POk s -> emitM (ps_m s) ilen [] = Ok e -> S <> S_type -> S <> S_local ->
  kind_rt (em_x2i e) S (length (ids_space (ps_ids s) S)) l out ->
  canon n l -> n <= length (ids_space (ps_ids s) S) -> rho_id s e S -> out = l.
Proof.
  intros HP HE HT HL K C Hn H. apply (kind_rt_fixed _ _ _ _ _ K (WV.Proofs.Renumbering.parsed_wf_space _ _ _ _ _ _ _ S HP HE HL)).
  - exact (rho_id_get _ _ _ _ _ S HP HT HL H).
  - exact (canon_mono _ _ _ Hn C).
Qed.

Theorem fix_names_fields : forall cf ver w ilen s1 e1 s2 e2,
  two_trips cf ver w ilen s1 e1 s2 e2 -> cf_skip_name cf = false -> counts_kept e1 s2 ->
  let n1 := stream_names (em_secs e1) in let n2 := stream_names (em_secs e2) in
  exists s_nm1 s_nm2,
    emit_names (ps_m s1) (em_x2i e1) (em_fns e1) = Ok s_nm1 /\ emit_names (ps_m s2) (em_x2i e2) (em_fns e2) = Ok s_nm2 /\
    name_payload (em_secs e1) = name_payload s_nm1 /\ name_payload (em_secs e2) = name_payload s_nm2 /\
    (s_nm1 = [] \/ s_nm1 = [S_Custom (CS_Name (Some n1))]) /\ (s_nm2 = [] \/ s_nm2 = [S_Custom (CS_Name (Some n2))]) /\
    n1 = names_of s_nm1 /\ n2 = names_of s_nm2 /\ name_sections (em_secs e1) = name_sections s_nm1 /\
    names_canon (em_x2i e1) n1 /\
    wn_module n2 = wn_module n1 /\
    (cf_synthetic_names cf = false -> rho_id s2 e2 S_func -> wn_funcs n2 = wn_funcs n1) /\
    (rho_id s2 e2 S_table -> wn_tables n2 = wn_tables n1) /\
    (rho_id s2 e2 S_memory -> wn_mems n2 = wn_mems n1) /\
    (rho_id s2 e2 S_global -> wn_globals n2 = wn_globals n1) /\
    (rho_id s2 e2 S_elem -> wn_elems n2 = wn_elems n1) /\
    (rho_id s2 e2 S_data -> wn_data n2 = wn_data n1).
Proof.
  intros cf ver w ilen s1 e1 s2 e2 (HP1 & HE1 & HP2 & HE2) Hskip HC. cbv zeta.
  destruct (emitted_names_canonical_s _ _ _ _ _ _ HP1 HE1 Hskip) as (s_nm1 & En1 & Hpay1 & Hsec1 & Hs1 & C1).
  destruct (names_roundtrip_s _ _ _ _ _ _ HP2 HE2 Hskip) as (s_nm2 & En2 & Hpay2 & _ & Hs2 & R).
  cbv zeta in R. rewrite Hsec1 in R.
  rewrite !(sections_of _ Hs1) in R by reflexivity.
  rewrite (stream_names_of _ _ Hpay1 Hs1), (stream_names_of _ _ Hpay2 Hs2).
  exists s_nm1, s_nm2. do 10 (split; [assumption || reflexivity|]).
  destruct R as (Rm & Rf & Rt & Rme & Rg & Re & Rd).
  destruct C1 as (Cf & Cty & Ct & Cme & Cg & Ce & Cd).
  split; [|split; [|split; [|split; [|split; [|split]]]]].
  - rewrite Rm. destruct Hs1 as [->|Hs1]; [reflexivity|]. rewrite Hs1 at 1. cbn. destruct (wn_module _); reflexivity.
  - intros Hsyn. exact (kind_fixed _ _ _ _ _ _ S_func _ _ _ HP2 HE2 ltac:(discriminate) ltac:(discriminate) (Rf Hsyn) Cf (HC S_func)).
  - exact (kind_fixed _ _ _ _ _ _ S_table _ _ _ HP2 HE2 ltac:(discriminate) ltac:(discriminate) Rt Ct (HC S_table)).
  - exact (kind_fixed _ _ _ _ _ _ S_memory _ _ _ HP2 HE2 ltac:(discriminate) ltac:(discriminate) Rme Cme (HC S_memory)).
  - exact (kind_fixed _ _ _ _ _ _ S_global _ _ _ HP2 HE2 ltac:(discriminate) ltac:(discriminate) Rg Cg (HC S_global)).
  - exact (kind_fixed _ _ _ _ _ _ S_elem _ _ _ HP2 HE2 ltac:(discriminate) ltac:(discriminate) Re Ce (HC S_elem)).
  - exact (kind_fixed _ _ _ _ _ _ S_data _ _ _ HP2 HE2 ltac:(discriminate) ltac:(discriminate) Rd Cd (HC S_data)).
Qed.

Lemma last_for_in idx : forall l id nm, last_for idx l id = Some nm -> exists i, In (i, nm) l /\ nth_N idx i = Some id.
Proof.
  induction l as [|[i n] r IH]; intros id nm H; cbn [last_for] in H; [discriminate|].
  destruct (last_for idx r id) as [y|] eqn:El.
  - inversion H; subst y. destruct (IH _ _ El) as (i' & Hi & Hn). exists i'. split; [right; exact Hi|exact Hn].
  - destruct (nth_N idx i) as [id'|] eqn:En; [|discriminate]. destruct (N.eqb_spec id' id) as [->|]; [|discriminate].
    inversion H; subst. exists i. split; [left; reflexivity|exact En].
Qed.
Lemma last_for_complete idx : forall l, NoDup (map fst l) ->
  (forall i i' id, In i (map fst l) -> In i' (map fst l) -> nth_N idx i = Some id -> nth_N idx i' = Some id -> i = i') ->
  forall i nm id, In (i, nm) l -> nth_N idx i = Some id -> last_for idx l id = Some nm.
Proof.
  induction l as [|[i0 n0] r IH]; intros ND Inj i nm id Hin Hn; [destruct Hin|]. cbn [map fst] in ND. inversion ND; subst.
  cbn [last_for]. destruct Hin as [E|Hin].
  - inversion E; subst i0 n0. destruct (last_for idx r id) as [y|] eqn:El.
    + exfalso. destruct (last_for_in _ _ _ _ El) as (i' & Hi' & Hn').
      assert (i = i').
      { apply (Inj i i' id); [left; reflexivity|right; apply (in_map fst _ _ Hi')|exact Hn|exact Hn']. }
      subst i'. apply H1. apply (in_map fst _ _ Hi').
    + rewrite Hn, N.eqb_refl. reflexivity.
  - rewrite (IH H2) with (i := i) (nm := nm); [reflexivity| |exact Hin|exact Hn].
    intros a b c Ha Hb. apply Inj; right; assumption.
Qed.

Lemma types_fixed idx x T (l out : namemap) :
  (forall j nm, In (j, nm) out <->
     exists id, N.to_nat id < T /\ last_for idx l id = Some nm /\ get_idx x S_type id = Ok j) ->
  StronglySorted N.lt (map fst out) -> canon (length idx) l ->
  (forall i, N.to_nat i < length idx -> exists id, nth_N idx i = Some id /\ get_idx x S_type id = Ok i /\ N.to_nat id < T) ->
  out = l.
Proof.
  intros M So [Sl Rl] Hid.
  assert (Inj : forall i i' id, In i (map fst l) -> In i' (map fst l) -> nth_N idx i = Some id -> nth_N idx i' = Some id -> i = i').
  { intros i i' id Hi Hi' Hn Hn'. destruct (Hid i (Rl i Hi)) as (a & Ha & Ga & _). destruct (Hid i' (Rl i' Hi')) as (b & Hb & Gb & _).
    assert (a = id) by congruence. assert (b = id) by congruence. subst a b. congruence. }
  apply sorted_extA; [exact So|exact Sl|]. intros [j nm]. rewrite M. split.
  - intros (id & _ & Hl & Hg). destruct (last_for_in _ _ _ _ Hl) as (i & Hin & Hn).
    destruct (Hid i (Rl i (in_map fst _ _ Hin))) as (a & Ha & Ga & _). assert (a = id) by congruence. subst a.
    assert (i = j) by congruence. subst i. exact Hin.
  - intros Hin. destruct (Hid j (Rl j (in_map fst _ _ Hin))) as (id & Hn & Hg & HT). exists id.
    split; [exact HT|]. split; [|exact Hg].
    apply (last_for_complete idx l (StronglySorted_lt_NoDup _ Sl) Inj j nm id Hin Hn).
Qed.

Theorem fix_names_types : forall cf ver w ilen s1 e1 s2 e2,
  two_trips cf ver w ilen s1 e1 s2 e2 -> cf_skip_name cf = false -> counts_kept e1 s2 -> rho_id s2 e2 S_type ->
  wn_types (stream_names (em_secs e2)) = wn_types (stream_names (em_secs e1)).
Proof.
  intros cf ver w ilen s1 e1 s2 e2 TT Hskip HC Hty.
  destruct (fix_names_fields _ _ _ _ _ _ _ _ TT Hskip HC) as (s_nm1 & s_nm2 & En1 & En2 & Hp1 & Hp2 & Hs1 & Hs2 & N1 & N2 & Hsec1 & C1 & _).
  cbv zeta in *. destruct TT as (HP1 & HE1 & HP2 & HE2).
  destruct (emit_names_roundtrip_types _ _ _ _ _ _ _ HP2 En2) as (M & _ & So). cbv zeta in M, So.
  specialize (So (proj2 (emit_order_types _ _ _ _ HE2))).
  rewrite Hsec1 in M. rewrite N2.
  assert (Hs1' : s_nm1 = [] \/ s_nm1 = [S_Custom (CS_Name (Some (names_of s_nm1)))]) by (rewrite <- N1; exact Hs1).
  rewrite (sections_of _ Hs1' wn_types eq_refl), <- N1 in M.
  destruct C1 as (_ & Cty & _).
  destruct (parseM_sigs _ _ _ _ HP2) as [[TL TI] _].
  eapply types_fixed; [exact M|exact So|eapply canon_mono; [apply (HC S_type)|exact Cty]|].
  intros i Hi. pose proof (Hty i Hi) as R. unfold Structure.rho in R. cbn [ids_space] in R.
  destruct (nth_error (ii_types (ps_ids s2)) (N.to_nat i)) as [id|] eqn:En; [|discriminate].
  exists id. split; [exact En|]. split; [exact R|].
  destruct (nth_error (flat_map types_of (em_secs e1)) (N.to_nat i)) as [t|] eqn:Et; [|apply nth_error_None in Et; lia].
  destruct (TI _ _ Et) as (id' & ty & H1 & H2 & _). assert (id' = id) by congruence. subst id'.
  apply nth_error_Some. congruence.
Qed.

Lemma emit_names_nonempty m x efs secs : emit_names m x efs = Ok secs -> names_of secs = empty_names -> secs = [].
Proof. intros H. exact (proj2 (proj2 (proj2 (proj2 (proj2 (proj2 (proj2 (proj2 (proj2 (proj2 (emit_names_inv _ _ _ _ H))))))))))). Qed.

Lemma emit_names_same m x efs s m' x' efs' s' : emit_names m x efs = Ok s -> emit_names m' x' efs' = Ok s' ->
  names_of s = names_of s' -> s = s'.
Proof.
  intros H H' E.
  pose proof (emit_names_fields _ _ _ _ H) as (_ & _ & _ & _ & _ & _ & _ & _ & Hs).
  pose proof (emit_names_fields _ _ _ _ H') as (_ & _ & _ & _ & _ & _ & _ & _ & Hs').
  destruct Hs as [->|Hs].
  - symmetry. apply (emit_names_nonempty _ _ _ _ H'). rewrite <- E. reflexivity.
  - destruct Hs' as [->|Hs'].
    + apply (emit_names_nonempty _ _ _ _ H). rewrite E. reflexivity.
    + rewrite Hs, Hs', E. reflexivity.
Qed.

Lemma wnames_eq (a b : wnames) : wn_module a = wn_module b -> wn_funcs a = wn_funcs b -> wn_locals a = wn_locals b ->
  wn_types a = wn_types b -> wn_tables a = wn_tables b -> wn_mems a = wn_mems b -> wn_globals a = wn_globals b ->
  wn_elems a = wn_elems b -> wn_data a = wn_data b -> a = b.
Proof. destruct a, b; cbn. intros; subst; reflexivity. Qed.

(* the whole section from its fields; functions and locals as premises, no premise on synthetic names *)
Theorem fix_names_partial_gen : forall cf ver w ilen s1 e1 s2 e2,
  two_trips cf ver w ilen s1 e1 s2 e2 -> cf_skip_name cf = false -> counts_kept e1 s2 ->
  rho_id s2 e2 S_type -> rho_id s2 e2 S_table -> rho_id s2 e2 S_memory -> rho_id s2 e2 S_global ->
  rho_id s2 e2 S_elem -> rho_id s2 e2 S_data ->
  wn_funcs (stream_names (em_secs e2)) = wn_funcs (stream_names (em_secs e1)) ->
  wn_locals (stream_names (em_secs e2)) = wn_locals (stream_names (em_secs e1)) ->
  name_payload (em_secs e2) = name_payload (em_secs e1).
Proof.
  intros cf ver w ilen s1 e1 s2 e2 TT Hskip HC Hty Ht Hm Hg He Hd Hfun Hloc.
  pose proof (fix_names_types _ _ _ _ _ _ _ _ TT Hskip HC Hty) as Ety.
  destruct (fix_names_fields _ _ _ _ _ _ _ _ TT Hskip HC) as (s_nm1 & s_nm2 & En1 & En2 & Hp1 & Hp2 & Hs1 & Hs2 & N1 & N2 & Hsec1 & C1 & Em & Ef & Et & Eme & Eg & Ee & Ed).
  cbv zeta in *.
  assert (E : stream_names (em_secs e2) = stream_names (em_secs e1)).
  { apply wnames_eq; auto. }
  rewrite Hp1, Hp2. f_equal. apply (emit_names_same _ _ _ _ _ _ _ _ En2 En1). rewrite <- N1, <- N2. exact E.
Qed.

(* fix_names, with the local-name maps as a premise *)
Theorem fix_names_partial : forall cf ver w ilen s1 e1 s2 e2,
  two_trips cf ver w ilen s1 e1 s2 e2 -> cf_skip_name cf = false -> cf_synthetic_names cf = false -> counts_kept e1 s2 ->
  rho_id s2 e2 S_func -> rho_id s2 e2 S_type -> rho_id s2 e2 S_table -> rho_id s2 e2 S_memory -> rho_id s2 e2 S_global ->
  rho_id s2 e2 S_elem -> rho_id s2 e2 S_data ->
  wn_locals (stream_names (em_secs e2)) = wn_locals (stream_names (em_secs e1)) ->
  name_payload (em_secs e2) = name_payload (em_secs e1).
Proof.
  intros cf ver w ilen s1 e1 s2 e2 TT Hskip Hsyn HC Hf Hty Ht Hm Hg He Hd.
  apply (fix_names_partial_gen cf ver w ilen s1 e1 s2 e2 TT Hskip HC Hty Ht Hm Hg He Hd).
  destruct (fix_names_fields _ _ _ _ _ _ _ _ TT Hskip HC) as (? & ? & ? & ? & ? & ? & ? & ? & ? & ? & ? & ? & _ & Ef & _). exact (Ef Hsyn Hf).
Qed.

From WV Require Import Proofs.Renumbering.

(* the type section of an emitted stream has one entry per emitted type index *)
Lemma emitted_types_count m ilen e : emitM m ilen [] = Ok e ->
  length (flat_map types_of (em_secs e)) = length (space_map (em_x2i e) S_type).
Proof.
  intros HE. destruct (emit_order_types _ _ _ _ HE) as [Hx _]. cbn [space_map].
  rewrite <- (map_length fst (xi_types (em_x2i e))), Hx, map_length.
  destruct (out_decls _ _ _ _ HE (fun s (H : In s []) => match H with end)) as (s_ty & x1 & s_im & x2 & s_fn & x3 & Ety & _ & _ & _ & HO).
  unfold out_types in HO. rewrite HO, (emit_types_decl _ _ _ _ Ety). apply map_length.
Qed.

(* counts_kept follows from: the second parse sees at least as many functions, tables, ... as the first *)
Theorem counts_kept_of_n_in : forall cf ver w ilen s1 e1 s2 e2,
  two_trips cf ver w ilen s1 e1 s2 e2 ->
  (forall S, S <> S_type -> S <> S_local -> n_in s1 S <= n_in s2 S) -> counts_kept e1 s2.
Proof.
  intros cf ver w ilen s1 e1 s2 e2 (HP1 & HE1 & HP2 & HE2) H S.
  assert (G : S <> S_type -> S <> S_local -> length (space_map (em_x2i e1) S) <= length (ids_space (ps_ids s2) S)).
  { intros HT HL. pose proof (emitted_count _ _ _ _ _ _ _ HP1 HE1 S HT HL) as C. unfold emitted_ids in C. rewrite map_length in C.
    rewrite C. apply (H S HT HL). }
  destruct S; try (apply G; discriminate).
  - destruct (n_in_stream _ _ _ _ HP2) as (_ & _ & _ & Ht). unfold n_in in Ht. rewrite Ht.
    rewrite (emitted_types_count _ _ _ HE1). lia.
  - cbn [space_map length]. lia.
Qed.

Lemma fix_names_kinds cf ver w ilen s1 e1 s2 e2 :
  two_trips cf ver w ilen s1 e1 s2 e2 -> cf_skip_name cf = false -> counts_kept e1 s2 ->
  let n1 := stream_names (em_secs e1) in let n2 := stream_names (em_secs e2) in
  wn_module n2 = wn_module n1 /\
  (cf_synthetic_names cf = false -> rho_id s2 e2 S_func -> wn_funcs n2 = wn_funcs n1) /\
  (rho_id s2 e2 S_table -> wn_tables n2 = wn_tables n1) /\
  (rho_id s2 e2 S_memory -> wn_mems n2 = wn_mems n1) /\
  (rho_id s2 e2 S_global -> wn_globals n2 = wn_globals n1) /\
  (rho_id s2 e2 S_elem -> wn_elems n2 = wn_elems n1) /\
  (rho_id s2 e2 S_data -> wn_data n2 = wn_data n1).
Proof.
  intros TT Hskip HC. destruct (fix_names_fields _ _ _ _ _ _ _ _ TT Hskip HC) as (? & ? & ? & ? & ? & ? & ? & ? & ? & ? & ? & ? & H). exact H.
Qed.

Section PerKind.
  Variables (cf : config) (ver : str) (w : wmod) (ilen : wins -> N) (s1 : pst) (e1 : emitted) (s2 : pst) (e2 : emitted).
  Hypothesis TT : two_trips cf ver w ilen s1 e1 s2 e2.
  Hypothesis Hskip : cf_skip_name cf = false.
  Hypothesis HC : counts_kept e1 s2.
  Let n1 := stream_names (em_secs e1).
  Let n2 := stream_names (em_secs e2).

  Theorem fix_names_module : wn_module n2 = wn_module n1.
  Proof. exact (proj1 (fix_names_kinds _ _ _ _ _ _ _ _ TT Hskip HC)). Qed.
  Theorem fix_names_funcs : cf_synthetic_names cf = false -> rho_id s2 e2 S_func -> wn_funcs n2 = wn_funcs n1.
  Proof. exact (proj1 (proj2 (fix_names_kinds _ _ _ _ _ _ _ _ TT Hskip HC))). Qed.
  Theorem fix_names_tables : rho_id s2 e2 S_table -> wn_tables n2 = wn_tables n1.
  Proof. exact (proj1 (proj2 (proj2 (fix_names_kinds _ _ _ _ _ _ _ _ TT Hskip HC)))). Qed.
  Theorem fix_names_mems : rho_id s2 e2 S_memory -> wn_mems n2 = wn_mems n1.
  Proof. exact (proj1 (proj2 (proj2 (proj2 (fix_names_kinds _ _ _ _ _ _ _ _ TT Hskip HC))))). Qed.
  Theorem fix_names_globals : rho_id s2 e2 S_global -> wn_globals n2 = wn_globals n1.
  Proof. exact (proj1 (proj2 (proj2 (proj2 (proj2 (fix_names_kinds _ _ _ _ _ _ _ _ TT Hskip HC)))))). Qed.
  Theorem fix_names_elems : rho_id s2 e2 S_elem -> wn_elems n2 = wn_elems n1.
  Proof. exact (proj1 (proj2 (proj2 (proj2 (proj2 (proj2 (fix_names_kinds _ _ _ _ _ _ _ _ TT Hskip HC))))))). Qed.
  Theorem fix_names_data : rho_id s2 e2 S_data -> wn_data n2 = wn_data n1.
  Proof. exact (proj2 (proj2 (proj2 (proj2 (proj2 (proj2 (fix_names_kinds _ _ _ _ _ _ _ _ TT Hskip HC))))))). Qed.
End PerKind.

(* the same as fix_names_partial, with the size premise in terms of the index spaces of the two parses *)
Theorem fix_names_partial_n : forall cf ver w ilen s1 e1 s2 e2,
  two_trips cf ver w ilen s1 e1 s2 e2 -> cf_skip_name cf = false -> cf_synthetic_names cf = false ->
  (forall S, S <> S_type -> S <> S_local -> n_in s1 S <= n_in s2 S) ->
  rho_id s2 e2 S_func -> rho_id s2 e2 S_type -> rho_id s2 e2 S_table -> rho_id s2 e2 S_memory -> rho_id s2 e2 S_global ->
  rho_id s2 e2 S_elem -> rho_id s2 e2 S_data ->
  wn_locals (stream_names (em_secs e2)) = wn_locals (stream_names (em_secs e1)) ->
  name_payload (em_secs e2) = name_payload (em_secs e1).
Proof.
  intros cf ver w ilen s1 e1 s2 e2 TT Hskip Hsyn Hn. apply (fix_names_partial cf ver w ilen s1 e1 s2 e2); try assumption.
  eapply counts_kept_of_n_in; eauto.
Qed.

Lemma NoDup_keys_fun {A} (l : list (N * A)) k a b : NoDup (map fst l) -> In (k, a) l -> In (k, b) l -> a = b.
Proof.
  induction l as [|[i v] r IH]; intros S Ha Hb; [destruct Ha|].
  cbn [map fst] in S. inversion S; subst. destruct Ha as [Ea|Ha], Hb as [Eb|Hb].
  - congruence.
  - inversion Ea; subst. exfalso. apply H1. apply (in_map fst _ _ Hb).
  - inversion Eb; subst. exfalso. apply H1. apply (in_map fst _ _ Ha).
  - apply IH; assumption.
Qed.
Lemma sorted_keys_fun {A} (l : list (N * A)) k a b : StronglySorted N.lt (map fst l) -> In (k, a) l -> In (k, b) l -> a = b.
Proof. intros S. apply NoDup_keys_fun, StronglySorted_lt_NoDup, S. Qed.
Lemma NoDup_flat_map_keys {A B} (g : A -> list (N * B)) : forall l, NoDup l ->
  (forall a, NoDup (map fst (g a))) ->
  (forall a b k, In a l -> In b l -> In k (map fst (g a)) -> In k (map fst (g b)) -> a = b) ->
  NoDup (map fst (flat_map g l)).
Proof.
  induction l as [|a l IH]; intros ND G Inj; [constructor|]. inversion ND; subst. cbn [flat_map]. rewrite map_app.
  assert (IH' : NoDup (map fst (flat_map g l))).
  { apply IH; [assumption|exact G|]. intros x y k Hx Hy. apply Inj; right; assumption. }
  assert (Dis : forall k, In k (map fst (g a)) -> ~ In k (map fst (flat_map g l))).
  { intros k Hk Hin. apply in_map_iff in Hin. destruct Hin as [[k' v] [E Hin]]. cbn [fst] in E. subst k'.
    apply in_flat_map in Hin. destruct Hin as [b [Hb Hin]].
    assert (a = b) by (apply (Inj a b k); [left; reflexivity|right; exact Hb|exact Hk|apply (in_map fst _ _ Hin)]).
    subst b. contradiction. }
  specialize (G a). induction (map fst (g a)) as [|k r IHr]; [exact IH'|]. cbn [app]. inversion G; subst. constructor.
  - rewrite in_app_iff. intros [Hin|Hin]; [contradiction|]. apply (Dis k); [left; reflexivity|exact Hin].
  - apply IHr; try assumption. intros k' Hk'. apply Dis. right. exact Hk'.
Qed.

Theorem emit_names_locals_eq m x efs secs : emit_names m x efs = Ok secs ->
  wn_locals (names_of secs) = sort_nm (flat_map (loc_entry m x efs) (aiter (m_funcs m))).
Proof. intros H. exact (proj1 (proj2 (proj2 (proj2 (proj2 (proj2 (proj2 (proj2 (proj2 (proj2 (emit_names_inv _ _ _ _ H))))))))))). Qed.

Lemma loc_entry_key m x efs l fi :
  In fi (map fst (flat_map (loc_entry m x efs) l)) -> exists p, In p l /\ get_idx x S_func (fst p) = Ok fi.
Proof.
  intros H. apply in_map_iff in H. destruct H as [[fi' nm] [E H]]. cbn [fst] in E. subst fi'.
  apply in_flat_map in H. destruct H as [p [Hp H]]. exists p. split; [exact Hp|].
  unfold loc_entry in H. destruct (find _ efs) as [e|]; [|destruct H]. destruct (fn_local_names m e); [destruct H|].
  destruct (get_idx x S_func (fst p)) as [j| |]; try destruct H; [|destruct H]. inversion H; subst. reflexivity.
Qed.

Theorem emit_names_locals_sorted m x efs secs : emit_names m x efs = Ok secs -> wf_map (space_map x S_func) ->
  StronglySorted N.lt (map fst (wn_locals (names_of secs))).
Proof.
  intros H W. rewrite (emit_names_locals_eq _ _ _ _ H). apply sort_nm_lt_sorted.
  assert (K : forall p fi, In fi (map fst (loc_entry m x efs p)) -> get_idx x S_func (fst p) = Ok fi).
  { intros p fi Hfi. destruct (loc_entry_key m x efs [p] fi) as [p' [[<-|[]] Hg]]; [cbn [flat_map]; rewrite app_nil_r; exact Hfi|exact Hg]. }
  apply NoDup_flat_map_keys.
  - apply (NoDup_map_inv fst), aiter_NoDup.
  - intros p. unfold loc_entry. destruct (find _ efs) as [e|]; [|constructor]. destruct (fn_local_names m e); [constructor|].
    destruct (get_idx x S_func (fst p)); cbn [map]; repeat constructor. intros [].
  - intros [ia fa] [ib fb] k Ha Hb Hka Hkb. apply K in Hka. apply K in Hkb. cbn [fst] in Hka, Hkb. unfold get_idx in Hka, Hkb.
    pose proof (lookup_inj _ _ _ _ W Hka Hkb) as <-. f_equal. exact (NoDup_keys_fun _ _ _ _ (aiter_NoDup _) Ha Hb).
Qed.

(* the outer order of the local-name map of an emitted stream (parsed module) *)
Theorem emitted_locals_sorted : forall cf ver w s ilen e,
  parseM cf ver w = POk s -> emitM (ps_m s) ilen [] = Ok e -> cf_skip_name cf = false ->
  StronglySorted N.lt (map fst (wn_locals (stream_names (em_secs e)))).
Proof.
  intros cf ver w s ilen e HP HE Hskip.
  destruct (emitted_names_canonical_s _ _ _ _ _ _ HP HE Hskip) as (s_nm & En & Hpay & _ & Hs & _).
  rewrite (stream_names_of _ _ Hpay Hs). apply (emit_names_locals_sorted _ _ _ _ En).
  apply (parsed_wf_funcs _ _ _ _ _ _ _ HP HE).
Qed.

Lemma last_name_in : forall l k n, last_name l k = Some n -> In (k, n) l.
Proof.
  induction l as [|[i m] r IH]; intros k n H; cbn [last_name] in H; [discriminate|].
  destruct (last_name r k) as [y|] eqn:E.
  - inversion H; subst y. right. apply IH. exact E.
  - destruct (N.eqb_spec i k) as [->|]; [|discriminate]. inversion H; subst. left; reflexivity.
Qed.
Lemma last_name_unique l k n : In (k, n) l -> (forall n', In (k, n') l -> n' = n) -> last_name l k = Some n.
Proof.
  intros Hin U. destruct (last_name l k) as [n'|] eqn:E.
  - apply last_name_in in E. rewrite (U _ E). reflexivity.
  - apply last_name_none in E. exfalso. apply E. apply (in_map fst _ _ Hin).
Qed.
Lemma sort_nm_nil {A} (l : list (N * A)) : sort_nm l = [] -> l = [].
Proof. intros H. pose proof (sort_nm_perm _ l) as P. rewrite H in P. apply Permutation_nil in P. exact P. Qed.

(* what the second round trip must satisfy on the side of function emission and of the parse-time local vectors:
   the local vectors of different functions are disjoint and duplicate free and consist of allocated locals;
   a function that has locals is a local function that is emitted; the emitted function uses exactly its
   locals, each once, and maps the local at position p of the parse-time vector to slot p *)
Definition locals_identity (s2 : pst) (e2 : emitted) : Prop :=
  let ids := ps_ids s2 in let m := ps_m s2 in
  (forall fid fid' lid, In lid (locals_vec ids fid) -> In lid (locals_vec ids fid') -> fid = fid') /\
  (forall fid, NoDup (locals_vec ids fid)) /\
  (forall fid lid, In lid (locals_vec ids fid) -> exists lo, aget (m_locals m) lid = Some lo) /\
  (forall fid, locals_vec ids fid <> [] ->
     exists f ef, In (fid, f) (aiter (m_funcs m)) /\ find (fun ef => N.eqb (ef_id ef) fid) (em_fns e2) = Some ef) /\
  (forall fid ef, find (fun ef => N.eqb (ef_id ef) fid) (em_fns e2) = Some ef ->
     NoDup (ef_used ef) /\ (forall lid, In lid (ef_used ef) <-> In lid (locals_vec ids fid)) /\
     (forall p lid, nth_error (locals_vec ids fid) p = Some lid ->
        exists q, find (fun q => N.eqb (fst q) lid) (ef_lmap ef) = Some q /\ snd q = N.of_nat p)).

(* what the first emit must satisfy: per function the slots are pairwise distinct (strictly sorted),
   and every slot is a local of that function in the second parse *)
Definition locals_canon (s2 : pst) (n1 : wnames) : Prop :=
  forall fi names, In (fi, names) (wn_locals n1) ->
    StronglySorted N.lt (map fst names) /\
    forall p, In p (map fst names) -> N.to_nat p < length (locals_vec (ps_ids s2) fi).

Lemma loc_entries_in ids (L1 : list (N * namemap)) lid n :
  In (lid, n) (loc_entries false ids L1) <->
  exists fi names fid p, In (fi, names) L1 /\ nth_N (ii_funcs ids) fi = Some fid /\ In (p, n) names /\
                         nth_N (locals_vec ids fid) p = Some lid.
Proof.
  unfold loc_entries. rewrite in_flat_map. split.
  - intros [[fi names] [H1 H]]. unfold fn_entries in H. cbn [fst snd] in H.
    destruct (nth_N (ii_funcs ids) fi) as [fid|] eqn:Ef; [|destruct H].
    unfold resolve in H. apply in_flat_map in H. destruct H as [[p n'] [Hp H]]. cbn [fst snd] in H.
    apply filter_In in Hp. destruct Hp as [Hp _].
    destruct (nth_N (locals_vec ids fid) p) as [lid'|] eqn:El; [|destruct H]. destruct H as [H|[]]. inversion H; subst.
    exists fi, names, fid, p. auto.
  - intros (fi & names & fid & p & H1 & Ef & Hp & El). exists (fi, names). split; [exact H1|].
    unfold fn_entries. cbn [fst snd]. rewrite Ef. unfold resolve. apply in_flat_map. exists (p, n). split.
    + apply filter_In. split; [exact Hp|reflexivity].
    + cbn [fst snd]. rewrite El. left; reflexivity.
Qed.

Lemma emitted_locals_nonempty m x efs secs fi names : emit_names m x efs = Ok secs ->
  In (fi, names) (wn_locals (names_of secs)) -> names <> [].
Proof.
  intros H Hin. rewrite (emit_names_locals_eq _ _ _ _ H) in Hin.
  eapply Permutation_in in Hin; [|apply sort_nm_perm]. apply in_flat_map in Hin. destruct Hin as [p [_ Hin]].
  unfold loc_entry in Hin. destruct (find _ efs) as [e|]; [|destruct Hin].
  destruct (fn_local_names m e) as [|p0 rest] eqn:En; [destruct Hin|].
  destruct (get_idx x S_func (fst p)); try destruct Hin; [|destruct H0]. inversion H0; subst.
  intros C. apply sort_nm_nil in C. discriminate.
Qed.

Lemma local_name_key ids nf (L1 : list (N * namemap)) fi p lid n :
  ii_funcs ids = iota nf -> N.to_nat fi < nf ->
  (forall fid fid' lid, In lid (locals_vec ids fid) -> In lid (locals_vec ids fid') -> fid = fid') ->
  (forall fid, NoDup (locals_vec ids fid)) ->
  StronglySorted N.lt (map fst L1) ->
  (forall fi names, In (fi, names) L1 -> StronglySorted N.lt (map fst names)) ->
  nth_error (locals_vec ids fi) p = Some lid ->
  (last_name (loc_entries false ids L1) lid = Some n <-> exists names, In (fi, names) L1 /\ In (N.of_nat p, n) names).
Proof.
  intros Hi Hfi Dis ND S1 Sin Hp.
  assert (Aux : forall n', In (lid, n') (loc_entries false ids L1) ->
                  exists names, In (fi, names) L1 /\ In (N.of_nat p, n') names).
  { intros n' H. apply loc_entries_in in H. destruct H as (fi' & names' & fid' & p' & H1 & Ef & Hp' & El).
    rewrite Hi in Ef. apply Structure.nth_N_iota in Ef. subst fid'. unfold nth_N in El.
    assert (fi = fi') by (apply (Dis fi fi' lid); [eapply nth_error_In; exact Hp|eapply nth_error_In; exact El]). subst fi'.
    assert (p = N.to_nat p').
    { apply (proj1 (NoDup_nth_error (locals_vec ids fi)) (ND fi)); [apply nth_error_Some; congruence|congruence]. }
    subst p. rewrite N2Nat.id. exists names'. auto. }
  split.
  - intros H. apply Aux. apply last_name_in. exact H.
  - intros (names & H1 & Hin). apply last_name_unique.
    + apply loc_entries_in. exists fi, names, fi, (N.of_nat p). split; [exact H1|]. split; [|split; [exact Hin|]].
      * rewrite Hi. unfold nth_N. rewrite (iota_nth _ _ Hfi), N2Nat.id. reflexivity.
      * unfold nth_N. rewrite Nat2N.id. exact Hp.
    + intros n' H. destruct (Aux n' H) as (names' & H1' & Hin').
      assert (names' = names) by (apply (sorted_keys_fun L1 fi); assumption). subst names'.
      apply (sorted_keys_fun names (N.of_nat p)); [apply (Sin fi); exact H1|exact Hin'|exact Hin].
Qed.

(* Emit side, one function.  [vec] is its parse-time local vector; the emitter uses exactly these locals and gives the
   local at position p the slot p.  Then the names emitted for the function are the names of the vector, by position. *)
Section FnSlots.
  Variables (m : wir) (vec : list N) (ef : emitted_fn).
  Hypothesis Huse : forall lid, In lid (ef_used ef) <-> In lid vec.
  Hypothesis Hslot : forall p lid, nth_error vec p = Some lid ->
    exists q, find (fun q => N.eqb (fst q) lid) (ef_lmap ef) = Some q /\ snd q = N.of_nat p.

  Lemma used_slot lid q : In lid (ef_used ef) -> find (fun q => N.eqb (fst q) lid) (ef_lmap ef) = Some q ->
    nth_error vec (N.to_nat (snd q)) = Some lid.
  Proof.
    intros Hu Hq. apply Huse, In_nth_error in Hu. destruct Hu as [p Hp]. destruct (Hslot p lid Hp) as (q' & Hq' & Hs).
    assert (q' = q) by congruence. subst q'. rewrite Hs, Nat2N.id. exact Hp.
  Qed.
  Lemma fn_local_names_slot slot n : In (slot, n) (fn_local_names m ef) <->
    exists lid lo, nth_error vec (N.to_nat slot) = Some lid /\ aget (m_locals m) lid = Some lo /\ lo_name lo = Some n.
  Proof.
    rewrite fn_local_names_in. split.
    - intros (lid & lo & q & Hu & Hg & Hn & Hq & <-). exists lid, lo. split; [exact (used_slot _ _ Hu Hq)|auto].
    - intros (lid & lo & Hp & Hg & Hn). destruct (Hslot _ _ Hp) as (q & Hq & Hs). rewrite N2Nat.id in Hs.
      exists lid, lo, q. split; [apply Huse; eapply nth_error_In; exact Hp|auto].
  Qed.
  Lemma fn_local_names_sorted : NoDup (ef_used ef) -> StronglySorted N.lt (map fst (sort_nm (fn_local_names m ef))).
  Proof.
    intros NDu. apply sort_nm_lt_sorted.
    change (fn_local_names m ef) with (flat_map (local_name_entry m ef) (ef_used ef)). apply NoDup_flat_map_keys; [exact NDu| |].
    - intros lid. unfold local_name_entry. destruct (aget (m_locals m) lid) as [lo|]; [|constructor]. destruct (lo_name lo); [|constructor].
      destruct (find _ (ef_lmap ef)); cbn [map]; repeat constructor. intros [].
    - (* the key of a local is its position in [vec] *)
      assert (Key : forall lid k, In lid (ef_used ef) -> In k (map fst (local_name_entry m ef lid)) -> nth_error vec (N.to_nat k) = Some lid).
      { intros lid k Hu Hk. apply in_map_iff in Hk. destruct Hk as ([k' n] & <- & Hk). apply local_name_entry_in in Hk.
        destruct Hk as (lo & q & _ & _ & Hq & <-). exact (used_slot _ _ Hu Hq). }
      intros a b k Ha Hb Hka Hkb. pose proof (Key a k Ha Hka). pose proof (Key b k Hb Hkb). congruence.
  Qed.
End FnSlots.

(* One function of the second trip: it writes the names the first emit wrote for it.  [n1] is the first emit's name
   section, read by the second parse: the local at position p of the vector carries the name of slot p. *)
Lemma second_fn_names s2 e2 n1 nf fid ef :
  ii_funcs (ps_ids s2) = iota nf -> N.to_nat fid < nf -> locals_identity s2 e2 -> locals_canon s2 n1 ->
  StronglySorted N.lt (map fst (wn_locals n1)) ->
  (forall lid lo, In lid (locals_vec (ps_ids s2) fid) -> aget (m_locals (ps_m s2)) lid = Some lo ->
     lo_name lo = last_name (loc_entries false (ps_ids s2) (wn_locals n1)) lid) ->
  find (fun ef => N.eqb (ef_id ef) fid) (em_fns e2) = Some ef ->
  (forall names, In (fid, names) (wn_locals n1) -> sort_nm (fn_local_names (ps_m s2) ef) = names) /\
  (fn_local_names (ps_m s2) ef <> [] -> exists names, In (fid, names) (wn_locals n1)).
Proof.
  intros If Hlt (Dis & NDv & Alloc & _ & EM) LC S1 PL Hfind. destruct (EM fid ef Hfind) as (NDu & Uiff & Lm).
  assert (SI : forall slot n, In (slot, n) (fn_local_names (ps_m s2) ef) <-> exists names, In (fid, names) (wn_locals n1) /\ In (slot, n) names).
  { intros slot n. rewrite (fn_local_names_slot _ _ _ Uiff Lm).
    assert (Key : forall lid, nth_error (locals_vec (ps_ids s2) fid) (N.to_nat slot) = Some lid ->
              (last_name (loc_entries false (ps_ids s2) (wn_locals n1)) lid = Some n <-> exists names, In (fid, names) (wn_locals n1) /\ In (slot, n) names)).
    { intros lid Hp. pose proof (local_name_key _ nf _ fid _ lid n If Hlt Dis NDv S1 (fun fi names H => proj1 (LC fi names H)) Hp) as K.
      rewrite N2Nat.id in K. exact K. }
    split.
    - intros (lid & lo & Hp & Hg & Hn). apply (Key lid Hp). rewrite <- (PL lid lo (nth_error_In _ _ Hp) Hg). exact Hn.
    - intros (names & H1 & Hin). pose proof (proj2 (LC fid names H1) slot (in_map fst _ _ Hin)) as Hr. cbn [fst] in Hr.
      destruct (nth_error (locals_vec (ps_ids s2) fid) (N.to_nat slot)) as [lid|] eqn:Hp; [|apply nth_error_None in Hp; lia].
      destruct (Alloc fid lid (nth_error_In _ _ Hp)) as [lo Hg]. exists lid, lo. split; [reflexivity|]. split; [exact Hg|].
      rewrite (PL lid lo (nth_error_In _ _ Hp) Hg). apply (Key lid eq_refl). eauto. }
  split.
  - intros names H1. apply sorted_extA; [exact (fn_local_names_sorted _ _ _ Uiff Lm NDu)|exact (proj1 (LC fid names H1))|].
    intros [slot n]. rewrite in_sort_nm, SI. split.
    + intros (names' & H1' & Hin). rewrite (sorted_keys_fun _ _ _ _ S1 H1 H1'). exact Hin.
    + intros Hin. exists names. auto.
  - intros Hne. destruct (fn_local_names (ps_m s2) ef) as [|[slot n] rest]; [contradiction|].
    destruct (proj1 (SI slot n) (or_introl eq_refl)) as (names & H1 & _). eauto.
Qed.

(* The local-name maps.  The premise on the second parse: every local of a parse-time local vector carries exactly
   the name the first emit wrote for its slot (what the parser synthesises must not be visible). *)
Theorem fix_names_locals_of : forall cf ver w ilen s1 e1 s2 e2,
  two_trips cf ver w ilen s1 e1 s2 e2 -> cf_skip_name cf = false ->
  (forall fid lid lo, In lid (locals_vec (ps_ids s2) fid) -> aget (m_locals (ps_m s2)) lid = Some lo ->
     lo_name lo = last_name (loc_entries false (ps_ids s2) (wn_locals (stream_names (em_secs e1)))) lid) ->
  rho_id s2 e2 S_func -> locals_identity s2 e2 -> locals_canon s2 (stream_names (em_secs e1)) ->
  wn_locals (stream_names (em_secs e2)) = wn_locals (stream_names (em_secs e1)).
Proof.
  intros cf ver w ilen s1 e1 s2 e2 (HP1 & HE1 & HP2 & HE2) Hskip Hkept Hf LI LC.
  destruct (emitted_names_canonical_s _ _ _ _ _ _ HP1 HE1 Hskip) as (s_nm1 & En1 & Hpay1 & Hsec1 & Hs1 & _).
  destruct (names_roundtrip_s _ _ _ _ _ _ HP2 HE2 Hskip) as (s_nm2 & En2 & Hpay2 & _ & Hs2 & _).
  rewrite (stream_names_of _ _ Hpay1 Hs1) in *. rewrite (stream_names_of _ _ Hpay2 Hs2).
  set (n1 := names_of s_nm1) in *. 
  pose proof (emit_names_locals_sorted _ _ _ _ En1 (parsed_wf_funcs _ _ _ _ _ _ _ HP1 HE1)) as S1. fold n1 in S1.
  pose proof (emit_names_locals_sorted _ _ _ _ En2 (parsed_wf_funcs _ _ _ _ _ _ _ HP2 HE2)) as S2.
  destruct (local_names_emit_partial _ _ _ _ En2) as [A2 _].
  pose proof (parseM_ids _ _ _ _ HP2) as I. unfold ids_consistent in I.
  destruct I as (If & _ & _ & _ & _ & _ & Df & _). set (nf := length (items (m_funcs (ps_m s2)))) in *.
  (* a function that is emitted has the same index on both sides *)
  assert (Lt : forall fid f, In (fid, f) (aiter (m_funcs (ps_m s2))) -> N.to_nat fid < nf /\ get_idx (em_x2i e2) S_func fid = Ok fid).
  { intros fid f H. apply (aiter_nodead _ _ _ Df) in H. assert (Hlt : N.to_nat fid < nf) by (apply nth_error_Some; congruence).
    split; [exact Hlt|]. apply (rho_id_get _ _ _ _ _ S_func HP2); [discriminate|discriminate|exact Hf|].
    cbn [ids_space]. rewrite If, iota_length. exact Hlt. }
  apply sorted_extA; [exact S2|exact S1|]. intros [i nm]. rewrite A2. split.
  - intros (fid & f & ef & Ha & Hfind & Hne & Hg & ->). destruct (Lt _ _ Ha) as [Hlt Hid].
    assert (i = fid) by congruence. subst i.
    destruct (second_fn_names s2 e2 n1 nf fid ef If Hlt LI LC S1 (Hkept fid) Hfind) as [IE NE].
    destruct (NE Hne) as [names H1]. rewrite (IE names H1). exact H1.
  - intros H1. destruct (LC i nm H1) as (_ & Rn).
    destruct nm as [|[p0 n0] rest] eqn:Enm; [exact (False_ind _ (emitted_locals_nonempty _ _ _ _ _ _ En1 H1 eq_refl))|]. rewrite <- Enm in *.
    assert (Hin0 : In (p0, n0) nm) by (rewrite Enm; left; reflexivity).
    pose proof (Rn p0 (in_map fst _ _ Hin0)) as Hr. cbn [fst] in Hr.
    assert (Hv : locals_vec (ps_ids s2) i <> []) by (intros C; rewrite C in Hr; cbn in Hr; lia).
    pose proof LI as (_ & _ & _ & FE & _). destruct (FE i Hv) as (f & ef & Ha & Hfind). destruct (Lt _ _ Ha) as [Hlt Hid].
    exists i, f, ef. pose proof (proj1 (second_fn_names s2 e2 n1 nf i ef If Hlt LI LC S1 (Hkept i) Hfind) nm H1) as Heq.
    split; [exact Ha|]. split; [exact Hfind|]. split; [|split; [exact Hid|symmetry; exact Heq]].
    intros C. rewrite C in Heq. cbn in Heq. rewrite <- Heq in Hin0. destruct Hin0.
Qed.

(* without synthetic names the premise holds *)
Lemma local_names_kept_nosyn cf ver w ilen s1 e1 s2 e2 :
  two_trips cf ver w ilen s1 e1 s2 e2 -> cf_skip_name cf = false -> cf_synthetic_names cf = false ->
  forall fid lid lo, In lid (locals_vec (ps_ids s2) fid) -> aget (m_locals (ps_m s2)) lid = Some lo ->
    lo_name lo = last_name (loc_entries false (ps_ids s2) (wn_locals (stream_names (em_secs e1)))) lid.
Proof.
  intros (HP1 & HE1 & HP2 & HE2) Hskip Hsyn fid lid lo _ Hg.
  destruct (emitted_names_canonical_s _ _ _ _ _ _ HP1 HE1 Hskip) as (s_nm1 & En1 & Hpay1 & Hsec1 & Hs1 & _).
  rewrite (stream_names_of _ _ Hpay1 Hs1).
  destruct (parseM_local_names _ _ _ _ _ _ HP2 Hg) as [_ K]. rewrite (K Hsyn).
  unfold local_entries. rewrite Hsec1, Hsyn.
  rewrite (sections_of _ Hs1 (fun n => loc_entries false (ps_ids s2) (wn_locals n)) eq_refl). reflexivity.
Qed.

Theorem fix_names_locals : forall cf ver w ilen s1 e1 s2 e2,
  two_trips cf ver w ilen s1 e1 s2 e2 -> cf_skip_name cf = false -> cf_synthetic_names cf = false ->
  rho_id s2 e2 S_func -> locals_identity s2 e2 -> locals_canon s2 (stream_names (em_secs e1)) ->
  wn_locals (stream_names (em_secs e2)) = wn_locals (stream_names (em_secs e1)).
Proof.
  intros cf ver w ilen s1 e1 s2 e2 TT Hskip Hsyn. apply (fix_names_locals_of cf ver w ilen s1 e1 s2 e2 TT Hskip).
  exact (local_names_kept_nosyn _ _ _ _ _ _ _ _ TT Hskip Hsyn).
Qed.

Theorem fix_names : forall cf ver w ilen s1 e1 s2 e2,
  two_trips cf ver w ilen s1 e1 s2 e2 -> cf_skip_name cf = false -> cf_synthetic_names cf = false -> counts_kept e1 s2 ->
  rho_id s2 e2 S_func -> rho_id s2 e2 S_type -> rho_id s2 e2 S_table -> rho_id s2 e2 S_memory -> rho_id s2 e2 S_global ->
  rho_id s2 e2 S_elem -> rho_id s2 e2 S_data ->
  locals_identity s2 e2 -> locals_canon s2 (stream_names (em_secs e1)) ->
  name_payload (em_secs e2) = name_payload (em_secs e1).
Proof.
  intros cf ver w ilen s1 e1 s2 e2 TT Hskip Hsyn HC Hf Hty Ht Hm Hg He Hd LI LC.
  apply (fix_names_partial cf ver w ilen s1 e1 s2 e2); try assumption.
  apply (fix_names_locals cf ver w ilen s1 e1 s2 e2); assumption.
Qed.

(* with the size premise in terms of the index spaces of the two parses *)
Theorem fix_names_n : forall cf ver w ilen s1 e1 s2 e2,
  two_trips cf ver w ilen s1 e1 s2 e2 -> cf_skip_name cf = false -> cf_synthetic_names cf = false ->
  (forall S, S <> S_type -> S <> S_local -> n_in s1 S <= n_in s2 S) ->
  rho_id s2 e2 S_func -> rho_id s2 e2 S_type -> rho_id s2 e2 S_table -> rho_id s2 e2 S_memory -> rho_id s2 e2 S_global ->
  rho_id s2 e2 S_elem -> rho_id s2 e2 S_data ->
  locals_identity s2 e2 -> locals_canon s2 (stream_names (em_secs e1)) ->
  name_payload (em_secs e2) = name_payload (em_secs e1).
Proof.
  intros cf ver w ilen s1 e1 s2 e2 TT Hskip Hsyn Hn. apply (fix_names cf ver w ilen s1 e1 s2 e2); try assumption.
  eapply counts_kept_of_n_in; eauto.
Qed.

Print Assumptions emitM_name_payload.
Print Assumptions names_roundtrip_s.
Print Assumptions emitted_names_canonical.
Print Assumptions fix_names_fields.
Print Assumptions fix_names_types.
Print Assumptions fix_names_module.
Print Assumptions fix_names_funcs.
Print Assumptions fix_names_tables.
Print Assumptions fix_names_mems.
Print Assumptions fix_names_globals.
Print Assumptions fix_names_elems.
Print Assumptions fix_names_data.
Print Assumptions counts_kept_of_n_in.
Print Assumptions fix_names_partial.
Print Assumptions fix_names_partial_n.
Print Assumptions emit_names_locals_eq.
Print Assumptions emit_names_locals_sorted.
Print Assumptions emitted_locals_sorted.
Print Assumptions fix_names_partial_gen.
Print Assumptions fix_names_locals.
Print Assumptions fix_names.
Print Assumptions fix_names_n.
