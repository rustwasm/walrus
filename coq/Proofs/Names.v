(* Debug names stay attached to the same entities through parse (apply_names / parse_names) and emit (named /
   emit_names): both sides go through the entity's arena id.  The parser is followed step by step (what a step does
   to the arenas of named things); the emitter is characterised once, and the round trip is stated for the section
   emit_names writes, for any emit-time maps. *)
From Coq Require Import List NArith ZArith Bool Arith Lia Permutation Sorted.
Import ListNotations.
From WV Require Import Gen.Ops Model.Common Model.IR Model.Arena Model.Traversal Model.EmitFn Model.Locals
                       Model.ParseFn Model.ModuleM Model.ParseM Model.EmitM Gen.Attrs.
From WV Require Import Proofs.Arena Proofs.Order Proofs.IndexMaps.
From WV Require Proofs.ArenaN Proofs.CustomsCfg.
Local Open Scope nat_scope.

Notation nstr := ModuleM.str.


(* the name the section gives to the entity [id]: the LAST entry whose index resolves to [id] *)
Fixpoint last_for (idx2id : list N) (l : namemap) (id : N) : option nstr :=
  match l with
  | [] => None
  | (i, n) :: r =>
      match last_for idx2id r id with
      | Some x => Some x
      | None => match nth_N idx2id i with
                | Some id' => if N.eqb id' id then Some n else None
                | None => None
                end
      end
  end.

(* the last entry with index [k] *)
Fixpoint last_name (l : namemap) (k : N) : option nstr :=
  match l with
  | [] => None
  | (i, n) :: r => match last_name r k with Some x => Some x | None => if N.eqb i k then Some n else None end
  end.

Definition renamed {A} (setn : A -> nstr -> A) (o : option nstr) (old : A) : A :=
  match o with Some n => setn old n | None => old end.

Lemma upd_nth_none {A} (l : list A) n f : nth_error l n = None -> nth_error (Arena.upd l n f) n = None.
Proof. intros H. apply nth_error_None. rewrite upd_length. apply nth_error_None. exact H. Qed.

(* general: any index vector (used as is for the type arena, whose vector is not injective) *)
Theorem apply_names_nth {A} (setn : A -> nstr -> A) (idx2id : list N)
  (Hset : forall x a b, setn (setn x a) b = setn x b) :
  forall (l : namemap) (a : tarena A) (k : nat),
    nth_error (items (apply_names a idx2id setn l)) k =
    option_map (renamed setn (last_for idx2id l (N.of_nat k))) (nth_error (items a) k).
Proof.
  induction l as [|[i n] r IH]; intros a k; cbn [apply_names last_for].
  - destruct (nth_error (items a) k); reflexivity.
  - destruct (nth_N idx2id i) as [id|] eqn:Ei.
    + rewrite IH. cbn [aset_at items].
      destruct (N.eqb_spec id (N.of_nat k)) as [Heq|Hne].
      * subst id. rewrite Nat2N.id. destruct (nth_error (items a) k) as [v|] eqn:Ev.
        -- rewrite (upd_nth_eq _ _ _ _ _ Ev). cbn [option_map].
           destruct (last_for idx2id r (N.of_nat k)); cbn [renamed]; [rewrite Hset|]; reflexivity.
        -- rewrite upd_nth_none by exact Ev. reflexivity.
      * rewrite upd_nth_ne by (intros Hc; apply Hne; rewrite <- Hc, N2Nat.id; reflexivity).
        destruct (last_for idx2id r (N.of_nat k)); reflexivity.
    + rewrite IH. destruct (last_for idx2id r (N.of_nat k)); reflexivity.
Qed.

Lemma nth_N_iota n i : nth_N (iota n) i = if N.to_nat i <? n then Some i else None.
Proof.
  unfold nth_N. destruct (Nat.ltb_spec (N.to_nat i) n) as [H|H].
  - rewrite iota_nth by exact H. rewrite N2Nat.id. reflexivity.
  - apply nth_error_None. rewrite iota_length. exact H.
Qed.

Lemma last_for_iota n l id : last_for (iota n) l id = if N.to_nat id <? n then last_name l id else None.
Proof.
  induction l as [|[i s] r IH]; cbn [last_for last_name].
  - destruct (N.to_nat id <? n); reflexivity.
  - rewrite IH, nth_N_iota.
    destruct (Nat.ltb_spec (N.to_nat id) n) as [H|H].
    + destruct (last_name r id); [reflexivity|].
      destruct (Nat.ltb_spec (N.to_nat i) n) as [Hi|Hi]; [reflexivity|].
      destruct (N.eqb_spec i id) as [->|_]; [lia|reflexivity].
    + destruct (Nat.ltb_spec (N.to_nat i) n) as [Hi|Hi]; [|reflexivity].
      destruct (N.eqb_spec i id) as [->|_]; [lia|reflexivity].
Qed.

(* entries whose index does not resolve are skipped (Rust: a warning) *)
Lemma apply_names_skip {A} (setn : A -> nstr -> A) idx2id i n r (a : tarena A) :
  nth_N idx2id i = None -> apply_names a idx2id setn ((i, n) :: r) = apply_names a idx2id setn r.
Proof. intros H. cbn [apply_names]. rewrite H. reflexivity. Qed.

Lemma apply_names_filter {A} (setn : A -> nstr -> A) idx2id : forall l (a : tarena A),
  apply_names a idx2id setn l =
  apply_names a idx2id setn (filter (fun p => match nth_N idx2id (fst p) with Some _ => true | None => false end) l).
Proof.
  induction l as [|[i n] r IH]; intros a; cbn [apply_names filter fst]; [reflexivity|].
  destruct (nth_N idx2id i) eqn:E; cbn [apply_names]; [rewrite E|]; apply IH.
Qed.

Lemma apply_names_app {A} (setn : A -> nstr -> A) idx2id : forall l1 l2 (a : tarena A),
  apply_names a idx2id setn (l1 ++ l2) = apply_names (apply_names a idx2id setn l1) idx2id setn l2.
Proof.
  induction l1 as [|[i n] r IH]; intros l2 a; cbn [apply_names app]; [reflexivity|].
  destruct (nth_N idx2id i); apply IH.
Qed.

(* the identity index vector over an arena with n items *)
Theorem apply_names_spec {A} (setn : A -> nstr -> A) (a : tarena A) (l : namemap)
  (Hset : forall x s t, setn (setn x s) t = setn x t) :
  let a' := apply_names a (iota (length (items a))) setn l in
  length (items a') = length (items a) /\ dead a' = dead a /\
  (forall k old, nth_error (items a) k = Some old ->
     nth_error (items a') k = Some (renamed setn (last_name l (N.of_nat k)) old)) /\
  a' = apply_names a (iota (length (items a))) setn (filter (fun p => N.to_nat (fst p) <? length (items a)) l).
Proof.
  cbv zeta. destruct (apply_names_shape setn (iota (length (items a))) l a) as [HL HD].
  split; [exact HL|]. split; [exact HD|]. split.
  - intros k old Hk. rewrite (apply_names_nth setn _ Hset), Hk. cbn [option_map].
    rewrite last_for_iota, Nat2N.id.
    assert (Hlt : k < length (items a)) by (apply nth_error_Some; congruence).
    apply Nat.ltb_lt in Hlt. rewrite Hlt. reflexivity.
  - rewrite apply_names_filter. f_equal. apply filter_ext. intros [i n]. cbn [fst]. rewrite nth_N_iota.
    destruct (N.to_nat i <? length (items a)); reflexivity.
Qed.

(* the same through the arena accessor (dead ids stay dead, live ones are renamed) *)
Lemma aget_apply_names {A} (setn : A -> nstr -> A) idx2id (l : namemap) (a : tarena A) id
  (Hset : forall x s t, setn (setn x s) t = setn x t) :
  aget (apply_names a idx2id setn l) id = option_map (renamed setn (last_for idx2id l id)) (aget a id).
Proof.
  unfold aget, index, get, is_dead. rewrite (proj2 (apply_names_shape setn idx2id l a)).
  destruct (existsb _ (dead a)); [reflexivity|].
  rewrite (apply_names_nth setn idx2id Hset), N2Nat.id. reflexivity.
Qed.

Lemma aget_nth {A} (a : tarena A) id v : aget a id = Some v -> nth_error (items a) (N.to_nat id) = Some v.
Proof. intros H. exact (proj1 (WV.Proofs.ArenaN.aget_nth a id v H)). Qed.

Definition set_fn_name (f : mfunc) (s : nstr) : mfunc := {| fn_kind := fn_kind f; fn_name := Some s |}.
Definition set_tb_name (t : mtable) (s : nstr) : mtable :=
  {| tb_64 := tb_64 t; tb_init := tb_init t; tb_max := tb_max t; tb_elem := tb_elem t; tb_import := tb_import t;
     tb_segs := tb_segs t; tb_name := Some s |}.
Definition set_me_name (t : mmem) (s : nstr) : mmem :=
  {| me_shared := me_shared t; me_64 := me_64 t; me_init := me_init t; me_max := me_max t; me_page := me_page t;
     me_import := me_import t; me_segs := me_segs t; me_name := Some s |}.
Definition set_gl_name (g : mglobal) (s : nstr) : mglobal :=
  {| gl_ty := gl_ty g; gl_mut := gl_mut g; gl_shared := gl_shared g; gl_kind := gl_kind g; gl_name := Some s |}.
Definition set_el_name (e : melem) (s : nstr) : melem := {| el_kind := el_kind e; el_items := el_items e; el_name := Some s |}.
Definition set_da_name (d : mdata) (s : nstr) : mdata := {| da_kind := da_kind d; da_value := da_value d; da_name := Some s |}.

Lemma set_fn_name_idem x s t : set_fn_name (set_fn_name x s) t = set_fn_name x t. Proof. reflexivity. Qed.
Lemma set_tb_name_idem x s t : set_tb_name (set_tb_name x s) t = set_tb_name x t. Proof. reflexivity. Qed.
Lemma set_me_name_idem x s t : set_me_name (set_me_name x s) t = set_me_name x t. Proof. reflexivity. Qed.
Lemma set_gl_name_idem x s t : set_gl_name (set_gl_name x s) t = set_gl_name x t. Proof. reflexivity. Qed.
Lemma set_el_name_idem x s t : set_el_name (set_el_name x s) t = set_el_name x t. Proof. reflexivity. Qed.
Lemma set_da_name_idem x s t : set_da_name (set_da_name x s) t = set_da_name x t. Proof. reflexivity. Qed.
Lemma set_type_name_idem x s t : set_type_name (set_type_name x s) t = set_type_name x t. Proof. reflexivity. Qed.

Definition apply_names_funcs a l := apply_names_spec set_fn_name a l set_fn_name_idem.
Definition apply_names_tables a l := apply_names_spec set_tb_name a l set_tb_name_idem.
Definition apply_names_memories a l := apply_names_spec set_me_name a l set_me_name_idem.
Definition apply_names_globals a l := apply_names_spec set_gl_name a l set_gl_name_idem.
Definition apply_names_elements a l := apply_names_spec set_el_name a l set_el_name_idem.
Definition apply_names_data a l := apply_names_spec set_da_name a l set_da_name_idem.
(* types: the vector is the (non-injective) ii_types, so the general form *)
Definition apply_names_types idx a l k := apply_names_nth set_type_name idx set_type_name_idem l a k.

Definition set_lo_name (x : mlocal) (s : nstr) : mlocal := {| lo_ty := lo_ty x; lo_name := Some s |}.
Lemma set_lo_name_idem x s t : set_lo_name (set_lo_name x s) t = set_lo_name x t. Proof. reflexivity. Qed.

(* one function's local names are an [apply_names] through that function's parse-time local vector;
   with synthetic names on, empty names are skipped *)
Lemma local_names_fold (c : bool) (ls : list N) : forall (names : namemap) (a : tarena mlocal),
  fold_left (fun a p => if c && str_empty (snd p) then a
                        else match nth_N ls (fst p) with
                             | Some lid => aset_at a lid (fun x => {| lo_ty := lo_ty x; lo_name := Some (snd p) |})
                             | None => a end) names a =
  apply_names a ls set_lo_name (filter (fun p => negb (c && str_empty (snd p))) names).
Proof.
  induction names as [|[i s] r IH]; intros a; cbn [fold_left filter fst snd]; [reflexivity|].
  destruct (c && str_empty s); cbn [negb apply_names]; [apply IH|]. destruct (nth_N ls i); apply IH.
Qed.

Definition locals_vec (ids : i2ids) (fid : N) : list N := match locals_of ids fid with Some v => v | None => [] end.

Fixpoint set_all (a : tarena mlocal) (l : namemap) : tarena mlocal :=
  match l with [] => a | (lid, nm) :: r => set_all (aset_at a lid (fun x => set_lo_name x nm)) r end.
(* the local-name entries of the input, resolved to local ids: an entry (fi, names) whose function
   index is out of range is skipped; in the others, (li, nm) is resolved through the parse-time local
   vector of the function (arguments first, then the declared locals); with synthetic names on,
   entries with an empty name are skipped *)
Definition resolve (ls : list N) (kept : namemap) : namemap :=
  flat_map (fun p => match nth_N ls (fst p) with Some lid => [(lid, snd p)] | None => [] end) kept.
Definition fn_entries (syn : bool) (ids : i2ids) (p : N * namemap) : namemap :=
  match nth_N (ii_funcs ids) (fst p) with
  | None => []
  | Some fid => resolve (locals_vec ids fid) (filter (fun q => negb (syn && str_empty (snd q))) (snd p))
  end.
Definition loc_entries (syn : bool) (ids : i2ids) (l : list (N * namemap)) : namemap := flat_map (fn_entries syn ids) l.
Definition local_entries (cf : config) (ids : i2ids) (ns : list wnames) : namemap :=
  flat_map (fun n => loc_entries (cf_synthetic_names cf) ids (wn_locals n)) ns.

Lemma set_all_app : forall l1 l2 a, set_all a (l1 ++ l2) = set_all (set_all a l1) l2.
Proof. induction l1 as [|[i n] r IH]; intros l2 a; cbn [set_all app]; [reflexivity|]. apply IH. Qed.
Lemma apply_names_set_all ls : forall l a, apply_names a ls set_lo_name l = set_all a (resolve ls l).
Proof.
  induction l as [|[i n] r IH]; intros a; cbn [apply_names resolve flat_map fst snd]; [reflexivity|].
  destruct (nth_N ls i); cbn [app set_all]; apply IH.
Qed.

(* Name::Local with a function index out of range: the entry is skipped (a warning), like the
   out-of-range entries of every other subsection. *)
Lemma apply_local_names_eq : forall l m ids,
  apply_local_names m ids l = Some (set_locals m (set_all (m_locals m) (loc_entries (cf_synthetic_names (m_config m)) ids l))).
Proof.
  induction l as [|[fi names] r IH]; intros m ids; cbn [apply_local_names loc_entries flat_map].
  - rewrite (wir_eta m) at 1. reflexivity.
  - unfold fn_entries at 1. cbn [fst snd]. destruct (nth_N (ii_funcs ids) fi) as [fid|]; [|apply IH].
    rewrite IH. wcbn. rewrite local_names_fold, apply_names_set_all, set_all_app. reflexivity.
Qed.
Lemma apply_local_names_some : forall l m ids, exists m', apply_local_names m ids l = Some m'.
Proof. intros l m ids. rewrite apply_local_names_eq. eauto. Qed.

Lemma parse_names_eq m ids n : parse_names m ids n =
  set_data (set_elements (set_globals (set_memories (set_tables (set_types (set_locals (set_funcs
    (set_name m (match wn_module n with Some s => Some s | None => m_name m end))
    (apply_names (m_funcs m) (ii_funcs ids) set_fn_name (wn_funcs n)))
    (set_all (m_locals m) (loc_entries (cf_synthetic_names (m_config m)) ids (wn_locals n))))
    {| Arena.arena := apply_names (Arena.arena (m_types m)) (ii_types ids) set_type_name (wn_types n); already := already (m_types m) |})
    (apply_names (m_tables m) (ii_tables ids) set_tb_name (wn_tables n)))
    (apply_names (m_memories m) (ii_memories ids) set_me_name (wn_mems n)))
    (apply_names (m_globals m) (ii_globals ids) set_gl_name (wn_globals n)))
    (apply_names (m_elements m) (ii_elements ids) set_el_name (wn_elems n)))
    (apply_names (m_data m) (ii_data ids) set_da_name (wn_data n)).
Proof. unfold parse_names. cbv zeta. rewrite apply_local_names_eq. destruct (wn_module n); reflexivity. Qed.

Lemma parse_names_types m ids n :
  Arena.arena (m_types (parse_names m ids n)) =
  apply_names (Arena.arena (m_types m)) (ii_types ids) set_type_name (wn_types n).
Proof. rewrite parse_names_eq. reflexivity. Qed.

(* several name sections: the entries are applied section after section *)
Definition parse_all_names (ids : i2ids) (ns : list wnames) (m : wir) : wir := fold_left (fun m n => parse_names m ids n) ns m.

Lemma all_names_config ids ns m : m_config (parse_all_names ids ns m) = m_config m.
Proof. exact (reach_config _ _ (run_steps_reach _ _ _ _ (parse_all_names_steps ns m ids))). Qed.

Lemma fold_names_gen {A} (proj : wir -> tarena A) idx (setn : A -> nstr -> A) (g : wnames -> namemap) ids :
  (forall m n, proj (parse_names m ids n) = apply_names (proj m) idx setn (g n)) ->
  forall ns m, proj (parse_all_names ids ns m) = apply_names (proj m) idx setn (flat_map g ns).
Proof.
  intros H. unfold parse_all_names. induction ns as [|n r IH]; intros m; cbn [fold_left flat_map]; [reflexivity|].
  rewrite IH, H, apply_names_app. reflexivity.
Qed.

Lemma all_names_funcs ids ns m :
  m_funcs (parse_all_names ids ns m) = apply_names (m_funcs m) (ii_funcs ids) set_fn_name (flat_map wn_funcs ns).
Proof. apply (fold_names_gen m_funcs). intros; rewrite parse_names_eq; reflexivity. Qed.
Lemma all_names_tables ids ns m :
  m_tables (parse_all_names ids ns m) = apply_names (m_tables m) (ii_tables ids) set_tb_name (flat_map wn_tables ns).
Proof. apply (fold_names_gen m_tables). intros; rewrite parse_names_eq; reflexivity. Qed.
Lemma all_names_memories ids ns m :
  m_memories (parse_all_names ids ns m) = apply_names (m_memories m) (ii_memories ids) set_me_name (flat_map wn_mems ns).
Proof. apply (fold_names_gen m_memories). intros; rewrite parse_names_eq; reflexivity. Qed.
Lemma all_names_globals ids ns m :
  m_globals (parse_all_names ids ns m) = apply_names (m_globals m) (ii_globals ids) set_gl_name (flat_map wn_globals ns).
Proof. apply (fold_names_gen m_globals). intros; rewrite parse_names_eq; reflexivity. Qed.
Lemma all_names_elements ids ns m :
  m_elements (parse_all_names ids ns m) = apply_names (m_elements m) (ii_elements ids) set_el_name (flat_map wn_elems ns).
Proof. apply (fold_names_gen m_elements). intros; rewrite parse_names_eq; reflexivity. Qed.
Lemma all_names_data ids ns m :
  m_data (parse_all_names ids ns m) = apply_names (m_data m) (ii_data ids) set_da_name (flat_map wn_data ns).
Proof. apply (fold_names_gen m_data). intros; rewrite parse_names_eq; reflexivity. Qed.
Lemma all_names_types ids ns m :
  Arena.arena (m_types (parse_all_names ids ns m)) =
  apply_names (Arena.arena (m_types m)) (ii_types ids) set_type_name (flat_map wn_types ns).
Proof. apply (fold_names_gen (fun m => Arena.arena (m_types m))). intros; apply parse_names_types. Qed.
Lemma all_names_locals ids ns : forall m,
  m_locals (parse_all_names ids ns m) = set_all (m_locals m) (local_entries (m_config m) ids ns).
Proof.
  unfold parse_all_names, local_entries. induction ns as [|n r IH]; intros m; cbn [fold_left flat_map]; [reflexivity|].
  rewrite IH, parse_names_eq, set_all_app. reflexivity.
Qed.
(* the module name: the last section that has one wins *)
Fixpoint last_module_name (ns : list wnames) : option nstr :=
  match ns with
  | [] => None
  | n :: r => match last_module_name r with Some s => Some s | None => wn_module n end
  end.
Lemma all_names_name ids ns : forall m,
  m_name (parse_all_names ids ns m) = match last_module_name ns with Some s => Some s | None => m_name m end.
Proof.
  unfold parse_all_names. induction ns as [|n r IH]; intros m; cbn [fold_left last_module_name]; [reflexivity|].
  rewrite IH, parse_names_eq. destruct (last_module_name r); [reflexivity|]. destruct (wn_module n); reflexivity.
Qed.

Definition unnamed (m : wir) : Prop :=
  m_name m = None /\
  (cf_synthetic_names (m_config m) = false -> Forall (fun f => fn_name f = None) (items (m_funcs m))) /\
  Forall (fun t => tb_name t = None) (items (m_tables m)) /\
  Forall (fun t => me_name t = None) (items (m_memories m)) /\
  Forall (fun t => gl_name t = None) (items (m_globals m)) /\
  Forall (fun t => el_name t = None) (items (m_elements m)) /\
  Forall (fun t => da_name t = None) (items (m_data m)) /\
  Forall (fun t => ty_name t = None) (items (Arena.arena (m_types m))) /\
  (cf_synthetic_names (m_config m) = false -> Forall (fun t => lo_name t = None) (items (m_locals m))).

Lemma Forall_upd {A} (P : A -> Prop) f : (forall x, P x -> P (f x)) -> forall l n, Forall P l -> Forall P (Arena.upd l n f).
Proof.
  intros Hf. induction l as [|x r IH]; intros n H; destruct n; cbn [Arena.upd]; try exact H; inversion H; subst; constructor; auto.
Qed.

Lemma un_empty cf : unnamed (empty_wir cf).
Proof. unfold unnamed. cbn. repeat split; auto. Qed.

(* What a step does to an arena of named things: nothing; or one item is replaced by a [K]-related one; or an item
   satisfying [N] is appended.  Every invariant of the parser about names or import marks is read off this. *)
Inductive achange {A} (K : A -> A -> Prop) (N : A -> Prop) (l : list A) : list A -> Prop :=
| ac_same : achange K N l l
| ac_upd n g : (forall x, K x (g x)) -> achange K N l (Arena.upd l n g)
| ac_new v : N v -> achange K N l (l ++ [v]).

(* an item is allocated and written to at once (a synthetic name; a data segment without a data count section) *)
Lemma ac_new_upd {A} (K : A -> A -> Prop) (N : A -> Prop) (l : list A) v g : N (g v) -> achange K N l (Arena.upd (l ++ [v]) (length l) g).
Proof.
  intros H. replace (Arena.upd (l ++ [v]) (length l) g) with (l ++ [g v]); [apply ac_new, H|].
  induction l as [|y l IH]; cbn; [reflexivity|]. now rewrite <- IH.
Qed.
Lemma achange_Forall {A} (K : A -> A -> Prop) (N P : A -> Prop) l l' : achange K N l l' ->
  (forall x y, K x y -> P x -> P y) -> (forall v, N v -> P v) -> Forall P l -> Forall P l'.
Proof.
  intros [|n g Hg|v Hv] HK HN H.
  - exact H.
  - apply Forall_upd; [intros x; apply HK, Hg|exact H].
  - apply Forall_app. split; [exact H|]. constructor; [apply HN, Hv|constructor].
Qed.

(* the name the parser itself gives to a function or a local: none, or (synthetic names on) a non-empty made-up one *)
Definition synth_name (cf : config) (o : option nstr) : Prop := exists pre i, o = synth cf pre i.
Lemma synth_name_off cf o : synth_name cf o -> cf_synthetic_names cf = false -> o = None.
Proof. intros (pre & i & ->) Hs. unfold synth. rewrite Hs. reflexivity. Qed.
Lemma dec_digits_nonempty f n : dec_digits (S f) n <> [].
Proof. cbn [dec_digits]. destruct (n <? 10)%N; [discriminate|]. intros C. apply app_eq_nil in C. destruct C as [_ C]. discriminate. Qed.
Lemma synth_name_on cf o : synth_name cf o -> cf_synthetic_names cf = true -> exists n, o = Some n /\ n <> [].
Proof.
  intros (pre & i & ->) Hs. unfold synth. rewrite Hs. eexists. split; [reflexivity|].
  intros C. apply app_eq_nil in C. exact (dec_digits_nonempty _ _ (proj2 C)).
Qed.
(* a function as the import section or the function section allocates it *)
Definition new_fn (cf : config) (f : mfunc) : Prop :=
  match fn_kind f with
  | FK_Import _ _ => fn_name f = None
  | FK_Uninit _ => synth_name cf (fn_name f)
  | FK_Local _ => False
  end.

(* the steps of the sections and of the preparation of the bodies *)
Definition early (st : step) : Prop := phase_of st = Sections \/ phase_of st = Prepare.
Lemma before_names st : phase_of st <> Naming -> early st \/ exists p, st = St_body p.
Proof. unfold early. destruct st; cbn [phase_of]; eauto. all: intros H; contradiction H; reflexivity. Qed.

(* what such a step does to the module name and to each arena of named things; the configuration is that of [m] *)
Inductive arenas_step (m m' : wir) : Prop := arenas_intro :
  m_name m' = m_name m ->
  achange eq (new_fn (m_config m)) (items (m_funcs m)) (items (m_funcs m')) ->
  achange (fun x y => tb_name y = tb_name x /\ tb_import y = tb_import x) (fun t => tb_name t = None) (items (m_tables m)) (items (m_tables m')) ->
  achange (fun x y => me_name y = me_name x /\ me_import y = me_import x) (fun t => me_name t = None) (items (m_memories m)) (items (m_memories m')) ->
  achange eq (fun g => gl_name g = None) (items (m_globals m)) (items (m_globals m')) ->
  achange eq (fun e => el_name e = None) (items (m_elements m)) (items (m_elements m')) ->
  achange (fun x y => da_name y = da_name x) (fun d => da_name d = None) (items (m_data m)) (items (m_data m')) ->
  achange eq (fun t => ty_name t = None) (items (Arena.arena (m_types m))) (items (Arena.arena (m_types m'))) ->
  achange eq (fun lo => synth_name (m_config m) (lo_name lo)) (items (m_locals m)) (items (m_locals m')) ->
  arenas_step m m'.
(* the arenas a step does not write are dispatched; those it writes remain *)
Ltac untouched := constructor; wcbn; try apply ac_same; try reflexivity.
Lemma step_arenas st m ids m' ids' : early st -> do_step st m ids = POk (m', ids') -> arenas_step m m'.
Proof.
  intros [Hq|Hq] E; destruct st; try discriminate Hq; cbn [do_step] in E.
  - unfold types_insert, insert in E. destruct (lookup mtype_eqb (already (m_types m)) _); injection E as <- _; untouched. apply ac_new. reflexivity.
  - unfold parse_import in E. destruct (wi_kind i); [pinv E| | |]; wcbn; injection E as <- _; untouched; apply ac_new; reflexivity.
  - pinv E. wcbn. injection E as <- _. untouched.
    destruct (synth (m_config m) _ _) eqn:Es; wcbn; [rewrite Nat2N.id; apply ac_new_upd|apply ac_new]; unfold new_fn; cbn [fn_kind fn_name]; rewrite <- Es; eexists _, _; reflexivity.
  - wcbn. injection E as <- _. untouched. apply ac_new. reflexivity.
  - wcbn. injection E as <- _. untouched. apply ac_new. reflexivity.
  - pinv E. wcbn. injection E as <- _. untouched. apply ac_new. reflexivity.
  - pinv E. wcbn. injection E as <- _. untouched.
  - pinv E. injection E as <- _. untouched.
  - unfold parse_elem in E. pinv E as its Eits. pinv E as mk Emk. destruct mk as [m1 kind]. wcbn. injection E as <- _.
    destruct (wel_kind e).
    + injection Emk as <- _. untouched. apply ac_new. reflexivity.
    + injection Emk as <- _. untouched. apply ac_new. reflexivity.
    + pinv Emk as tid Etid. pinv Emk as tb Etb. pinv Emk as o Eo. pinv Emk as ok Eok. destruct ok; [|discriminate].
      injection Emk as <- _. untouched.
      * apply ac_upd. intros t. split; reflexivity.
      * apply ac_new. reflexivity.
  - wcbn. injection E as <- _. untouched. apply ac_new. reflexivity.
  - cbn [parse_data_from] in E. pinv E as x Ex. destruct x as [[m1 ids1] id]. pinv E as y Ey. destruct y as [m2 kind]. pinv E as u Eu.
    injection E as <- _.
    assert (Hmem : m2 = m1 \/ exists mid g, m2 = set_memories m1 (aset_at (m_memories m1) mid g) /\
                                            forall t, me_name (g t) = me_name t /\ me_import (g t) = me_import t).
    { destruct (wd_kind d); [injection Ey as <- _; left; reflexivity|].
      pinv Ey as mid Emid. pinv Ey as mm Emm. pinv Ey as o Eo. pinv Ey as ok Eok. destruct ok; [|discriminate].
      injection Ey as <- _. right. eexists _, _. split; [reflexivity|]. intros t. split; reflexivity. }
    clear Ey. destruct prealloc; [pinv Ex as z Ez|wcbn]; injection Ex as <- _ <-.
    + (* the segment was reserved by the data count section and is written in place *)
      destruct Hmem as [->|(mid & g & -> & Hg)]; untouched.
      * apply ac_upd. reflexivity.
      * apply ac_upd. exact Hg.
      * apply ac_upd. reflexivity.
    + destruct Hmem as [->|(mid & g & -> & Hg)]; untouched.
      * rewrite Nat2N.id. apply ac_new_upd. reflexivity.
      * apply ac_upd. exact Hg.
      * rewrite Nat2N.id. apply ac_new_upd. reflexivity.
  - injection E as <- _. destruct c as [n d|n d|[n|]|[p|]]; cbn [parse_custom ps_m with_m]; untouched.
  - cbn [add_locals] in E. wcbn. injection E as <- _. untouched.
    destruct (synth (m_config m) _ _) eqn:Es; wcbn; [rewrite Nat2N.id; apply ac_new_upd|apply ac_new]; cbn [lo_name]; rewrite <- Es; eexists _, _; reflexivity.
  - unfold types_insert, insert in E. destruct (lookup mtype_eqb (already (m_types m)) _); injection E as <- _; untouched. apply ac_new. reflexivity.
Qed.

(* every step before the name sections keeps [unnamed] *)
Lemma step_un st m ids m' ids' : phase_of st <> Naming -> unnamed m -> do_step st m ids = POk (m', ids') -> unnamed m'.
Proof.
  intros Hq (Hn & Hf & Ht & Hm & Hg & He & Hd & Hty & Hl) E. unfold unnamed. rewrite (step_config _ _ _ _ _ E).
  destruct (before_names _ Hq) as [Hq'|[p ->]].
  - destruct (step_arenas _ _ _ _ _ Hq' E) as [An Af At Am Ag Ae Ad Aty Al].
    split; [congruence|]. split; [|split; [|split; [|split; [|split; [|split; [|split]]]]]].
    + intros Hs. refine (achange_Forall _ _ _ _ _ Af _ _ (Hf Hs)); [intros x y <- Hx; exact Hx|].
      intros v Hv. unfold new_fn in Hv. destruct (fn_kind v); [exact Hv|contradiction|exact (synth_name_off _ _ Hv Hs)].
    + exact (achange_Forall _ _ _ _ _ At (fun x y K Hx => eq_trans (proj1 K) Hx) (fun v Hv => Hv) Ht).
    + exact (achange_Forall _ _ _ _ _ Am (fun x y K Hx => eq_trans (proj1 K) Hx) (fun v Hv => Hv) Hm).
    + refine (achange_Forall _ _ _ _ _ Ag _ (fun v Hv => Hv) Hg). intros x y <- Hx; exact Hx.
    + refine (achange_Forall _ _ _ _ _ Ae _ (fun v Hv => Hv) He). intros x y <- Hx; exact Hx.
    + exact (achange_Forall _ _ _ _ _ Ad (fun x y K Hx => eq_trans K Hx) (fun v Hv => Hv) Hd).
    + refine (achange_Forall _ _ _ _ _ Aty _ (fun v Hv => Hv) Hty). intros x y <- Hx; exact Hx.
    + intros Hs. refine (achange_Forall _ _ _ _ _ Al _ _ (Hl Hs)); [intros x y <- Hx; exact Hx|].
      intros v Hv. exact (synth_name_off _ _ Hv Hs).
  - (* a body is installed: the function keeps its name *)
    cbn [do_step] in E. pinv E. injection E as <- _. wcbn. repeat split; try assumption.
    intros Hs. apply Forall_upd; [intros x Hx; exact Hx|exact (Hf Hs)].
Qed.

Definition sec_names (sec : wsec) : list wnames :=
  match sec with S_Custom (CS_Name (Some n)) => [n] | _ => [] end.
(* the name sections of the input, in order *)
Definition name_sections (w : wmod) : list wnames := flat_map sec_names w.

Lemma parse_secs_names : forall w s s', parse_secs s w = POk s' -> ps_names s' = ps_names s ++ name_sections w.
Proof.
  induction w as [|sec r IH]; intros s s' E; cbn [parse_secs] in E.
  - injection E as <-. symmetry. apply app_nil_r.
  - pinv E as s1 E1. rewrite (IH _ _ E). unfold name_sections. cbn [flat_map]. rewrite app_assoc. f_equal. clear - E1.
    destruct sec; cbn [parse_sec sec_names] in *; rewrite ?app_nil_r;
      try (pinv E1 as x Ex; injection E1 as <-; reflexivity);
      try (destruct (_ (ps_m s) (ps_ids s) _) as [m1 i1]; injection E1 as <-; reflexivity).
    + injection E1 as <-. reflexivity.
    + injection E1 as <-. destruct c as [n d|n d|[n|]|[p|]]; cbn [parse_custom ps_names with_m]; rewrite ?app_nil_r; reflexivity.
Qed.

(* the prepared bodies belong to functions that are still uninitialised *)
Definition uninit_in (fa : tarena mfunc) (p : prepared) : Prop :=
  exists f ty, nth_error (items fa) (N.to_nat (pr_fid p)) = Some f /\ fn_kind f = FK_Uninit ty.
Lemma prepare_funcs a b : reach_by (fun st => phase_of st = Prepare) a b -> m_funcs (fst b) = m_funcs (fst a).
Proof. apply (reach_by_keeps m_funcs). intros st Hq m m'. destruct st; try discriminate Hq; reflexivity. Qed.
Lemma types_insert_funcs m t m1 id : types_insert m t = (m1, id) -> m_funcs m1 = m_funcs m.
Proof. unfold types_insert. destruct (insert _ _ _). intros [= <- _]. reflexivity. Qed.
Lemma add_locals_funcs tys m ids fid pre m' ids' l : add_locals m ids fid tys pre = (m', ids', l) -> m_funcs m' = m_funcs m.
Proof. intros E. exact (prepare_funcs _ _ (add_locals_by _ _ _ _ _ _ _ _ E)). Qed.
Lemma prepare_bodies_uninit : forall bs m ids ni i m' ids' ps,
  prepare_bodies m ids ni i bs = POk (m', ids', ps) -> m_funcs m' = m_funcs m /\ Forall (uninit_in (m_funcs m)) ps.
Proof.
  intros bs m ids ni i m' ids' ps E. split; [exact (prepare_funcs _ _ (prepare_bodies_by _ _ _ _ _ _ _ _ E))|].
  revert m ids ni i m' ids' ps E. induction bs as [|b r IH]; intros m ids ni i m' ids' ps E; cbn [prepare_bodies] in E.
  - injection E as _ _ <-. constructor.
  - pinv E as fid Efid. pinv E as f Ef. destruct (fn_kind f) eqn:Ek; try discriminate.
    pinv E as t Et.
    destruct (add_locals m ids fid (ty_params t) _) as [[m1 ids1] args] eqn:E1.
    destruct (types_insert m1 _) as [m2 tid] eqn:E2.
    destruct (add_locals m2 ids1 fid _ _) as [[m3 ids3] ls] eqn:E3.
    pinv E as x Ex. destruct x as [[m4 ids4] rest]. injection E as _ _ <-.
    apply IH in Ex. rewrite (add_locals_funcs _ _ _ _ _ _ _ _ E3), (types_insert_funcs _ _ _ _ E2), (add_locals_funcs _ _ _ _ _ _ _ _ E1) in Ex.
    constructor; [|exact Ex]. exists f. eexists. split; [|exact Ek]. apply aget_nth, of_opt_panic_ok, Ef.
Qed.

(* Module::parse: the sections; then the locals and the entry block types of the bodies; then the bodies of the
   functions the function section declared; then the name sections of the input in order; then the producers field *)
Theorem parseM_phases cf ver w s : parseM cf ver w = POk s ->
  exists m1 m2 prepared m3,
    reach_by (fun st => phase_of st = Sections) (empty_wir cf, empty_i2ids) m1 /\
    reach_by (fun st => phase_of st = Prepare) m1 (m2, ps_ids s) /\
    Forall (uninit_in (m_funcs m2)) prepared /\ install_bodies m2 (ps_ids s) prepared = POk m3 /\
    ids_consistent m3 (ps_ids s) /\
    ps_m s = set_producers (parse_all_names (ps_ids s) (name_sections w) m3)
               (producers_field (m_producers (parse_all_names (ps_ids s) (name_sections w) m3)) s_processed_by s_walrus ver).
Proof.
  intros E. apply WV.Proofs.CustomsCfg.parseM_shape in E. destruct E as (s1 & m1 & ids1 & prepared & m2 & E1 & E2 & E3 & ->).
  cbn [ps_m ps_ids]. exists (ps_m s1, ps_ids s1), m1, prepared, m2.
  split; [exact (parse_secs_by _ _ _ E1)|]. split; [exact (prepare_bodies_by _ _ _ _ _ _ _ _ E2)|].
  destruct (prepare_bodies_uninit _ _ _ _ _ _ _ _ E2) as [Ef U]. rewrite Ef. split; [exact U|]. split; [exact E3|]. split.
  { eapply install_bodies_idc; [|exact E3]. eapply prepare_bodies_idc; [|exact E2]. eapply parse_secs_ids; [|exact E1]. apply idc_empty. }
  rewrite (parse_secs_names _ _ _ E1). reflexivity.
Qed.
(* up to the name sections *)
Corollary parseM_before_names cf ver w s : parseM cf ver w = POk s ->
  exists m0, reach_by (fun st => phase_of st <> Naming) (empty_wir cf, empty_i2ids) (m0, ps_ids s) /\ ids_consistent m0 (ps_ids s) /\
    ps_m s = set_producers (parse_all_names (ps_ids s) (name_sections w) m0)
               (producers_field (m_producers (parse_all_names (ps_ids s) (name_sections w) m0)) s_processed_by s_walrus ver).
Proof.
  intros E. destruct (parseM_phases _ _ _ _ E) as (m1 & m2 & prepared & m3 & R1 & R2 & _ & E3 & I3 & Em).
  exists m3. split; [|exact (conj I3 Em)].
  eapply reach_by_trans; [eapply reach_by_mono; [|exact R1]|eapply reach_by_trans; [eapply reach_by_mono; [|exact R2]|eapply reach_by_mono; [|exact (install_bodies_by _ _ _ _ E3)]]];
    intros st ->; discriminate.
Qed.

(* Module::parse, as far as names are concerned: an unnamed module [m0] whose index vectors are the
   identity, then every name section of the input applied in order, then the producers field *)
Theorem parseM_names_structure : forall cf ver w s, parseM cf ver w = POk s ->
  exists m0, ids_consistent m0 (ps_ids s) /\ unnamed m0 /\
    ps_m s = set_producers (parse_all_names (ps_ids s) (name_sections w) m0)
               (producers_field (m_producers (parse_all_names (ps_ids s) (name_sections w) m0)) s_processed_by s_walrus ver).
Proof.
  intros cf ver w s E. destruct (parseM_before_names _ _ _ _ E) as (m0 & R & I0 & Em). exists m0.
  split; [exact I0|]. split; [|exact Em].
  exact (reach_by_inv _ (fun m _ => unnamed m) step_un _ _ R (un_empty cf)).
Qed.

Theorem parseM_config : forall cf ver w s, parseM cf ver w = POk s -> m_config (ps_m s) = cf.
Proof. intros cf ver w s E. exact (reach_config _ _ (parseM_reach _ _ _ _ E)). Qed.

(* the (index, name) pairs of the entities that have a name and an index, in arena order *)
Definition name_pairs {A} (x : x2i) (s : space) (getn : A -> option nstr) (l : list (N * A)) : namemap :=
  flat_map (fun p => match getn (snd p), get_idx x s (fst p) with Some n, Ok i => [(i, n)] | _, _ => [] end) l.

(* [named] panics when a named entity has no index; otherwise it is the sorted pair list *)
Lemma named_ok {A} x s (getn : A -> option nstr) l r : named x s getn l = Ok r ->
  r = sort_nm (name_pairs x s getn l) /\
  (forall p n, In p l -> getn (snd p) = Some n -> exists i, get_idx x s (fst p) = Ok i).
Proof.
  unfold named. intros H. rinv H as rs Ers. inversion H; subst r; clear H.
  assert (G : concat rs = name_pairs x s getn l /\
              (forall p n, In p l -> getn (snd p) = Some n -> exists i, get_idx x s (fst p) = Ok i)).
  { revert rs Ers. induction l as [|p l IH]; intros rs Ers; cbn [rmapM] in Ers.
    - inversion Ers; subst. split; [reflexivity|]. intros p n [].
    - rinv Ers as y Ey. rinv Ers as ys Eys. inversion Ers; subst rs; clear Ers.
      destruct (IH _ Eys) as [IH1 IH2]. cbn [concat name_pairs flat_map]. fold (name_pairs x s getn l). rewrite IH1.
      destruct (getn (snd p)) as [n|] eqn:En.
      + rinv Ey as i Ei. inversion Ey; subst y; clear Ey. rewrite Ei. split; [reflexivity|].
        intros p' n' [<-|Hin] Hn; [eauto|eauto].
      + inversion Ey; subst y; clear Ey. split; [reflexivity|].
        intros p' n' [<-|Hin] Hn; [congruence|eauto]. }
  destruct G as [G1 G2]. rewrite G1. auto.
Qed.

Lemma name_pairs_in {A} x s (getn : A -> option nstr) l j nm :
  In (j, nm) (name_pairs x s getn l) <-> exists id a, In (id, a) l /\ getn a = Some nm /\ get_idx x s id = Ok j.
Proof.
  unfold name_pairs. rewrite in_flat_map. split.
  - intros [[id a] [Hin H]]. cbn [fst snd] in H. destruct (getn a) as [n|] eqn:En; [|destruct H].
    destruct (get_idx x s id) as [i| |] eqn:Ei; try destruct H; [|destruct H]. inversion H; subst. eauto.
  - intros (id & a & Hin & Hn & Hi). exists (id, a). split; [exact Hin|]. cbn [fst snd]. rewrite Hn, Hi. left; reflexivity.
Qed.

Lemma lookup_inj l id id' i : wf_map l -> lookup_i l id = Ok i -> lookup_i l id' = Ok i -> id = id'.
Proof. intros W H1 H2. apply (wf_lookup _ _ _ W) in H1. apply (wf_lookup _ _ _ W) in H2. congruence. Qed.

Lemma name_pairs_NoDup {A} x s (getn : A -> option nstr) l :
  wf_map (space_map x s) -> NoDup (map fst l) -> NoDup (map fst (name_pairs x s getn l)).
Proof.
  intros W. induction l as [|[id a] l IH]; intros ND; cbn [name_pairs flat_map]; [constructor|].
  fold (name_pairs x s getn l). inversion ND; subst. cbn [fst snd].
  destruct (getn a) as [n|]; [|auto]. destruct (get_idx x s id) as [i| |] eqn:Ei; auto.
  cbn [app map fst]. constructor; [|auto]. intros Hin. apply in_map_iff in Hin. destruct Hin as [[j nm] [Hj Hin]].
  cbn [fst] in Hj. subst j. apply name_pairs_in in Hin. destruct Hin as (id' & a' & Hin & _ & Hi).
  unfold get_idx in *. pose proof (lookup_inj _ _ _ _ W Ei Hi) as ->. apply H1. apply in_map_iff. exists (id', a'). auto.
Qed.

Lemma le_sorted_NoDup_lt {A} (r : list (N * A)) :
  StronglySorted (fun a b => fst a <= fst b)%N r -> NoDup (map fst r) -> StronglySorted N.lt (map fst r).
Proof.
  induction 1 as [|a r S IH F]; intros ND; cbn [map]; [constructor|]. inversion ND; subst. constructor; [auto|].
  rewrite Forall_forall in *. intros j Hj. apply in_map_iff in Hj. destruct Hj as [b [<- Hb]].
  specialize (F b Hb). assert (fst a <> fst b) by (intros Heq; apply H1; rewrite Heq; apply in_map; exact Hb). lia.
Qed.
Lemma sort_nm_lt_sorted {A} (l : list (N * A)) : NoDup (map fst l) -> StronglySorted N.lt (map fst (sort_nm l)).
Proof.
  intros ND. apply le_sorted_NoDup_lt; [apply sort_nm_sorted|].
  eapply Permutation_NoDup; [apply Permutation_sym, Permutation_map, sort_nm_perm|exact ND].
Qed.
(* a name map with strictly increasing indices is determined by its entries *)
Lemma sorted_extA {A} (l l' : list (N * A)) : StronglySorted N.lt (map fst l) -> StronglySorted N.lt (map fst l') ->
  (forall p, In p l <-> In p l') -> l = l'.
Proof.
  assert (K : forall r : list (N * A), StronglySorted N.lt (map fst r) -> StronglySorted (fun a b => fst a < fst b)%N r).
  { induction r as [|a r IH]; cbn [map]; intros S; inversion S; subst; constructor; [auto|]. apply Forall_map. assumption. }
  intros S S'. apply (StronglySorted_ext (fun a b => fst a < fst b)%N); [lia|apply K, S|apply K, S'].
Qed.

(* membership; sorted; no duplicate index; and it panics rather than drop a name *)
Theorem named_spec {A} x s (getn : A -> option nstr) l r : named x s getn l = Ok r ->
  (forall j nm, In (j, nm) r <-> exists id a, In (id, a) l /\ getn a = Some nm /\ get_idx x s id = Ok j) /\
  StronglySorted (fun a b => fst a <= fst b)%N r /\
  (forall id a nm, In (id, a) l -> getn a = Some nm -> exists j, get_idx x s id = Ok j /\ In (j, nm) r) /\
  (wf_map (space_map x s) -> NoDup (map fst l) -> StronglySorted N.lt (map fst r)).
Proof.
  intros H. apply named_ok in H. destruct H as [-> Htot].
  assert (M : forall j nm, In (j, nm) (sort_nm (name_pairs x s getn l)) <->
                           exists id a, In (id, a) l /\ getn a = Some nm /\ get_idx x s id = Ok j).
  { intros j nm. rewrite <- name_pairs_in. split; intros Hin.
    - eapply Permutation_in; [apply sort_nm_perm|exact Hin].
    - eapply Permutation_in; [apply Permutation_sym, sort_nm_perm|exact Hin]. }
  split; [exact M|]. split; [apply sort_nm_sorted|]. split.
  - intros id a nm Hin Hn. destruct (Htot (id, a) nm Hin Hn) as [j Hj]. cbn [fst] in Hj. exists j. split; [exact Hj|].
    apply M. eauto.
  - intros W ND. apply sort_nm_lt_sorted, name_pairs_NoDup; assumption.
Qed.

(* emit_names: what the section contains. When everything is empty no section is written. *)
Definition empty_names : wnames :=
  {| wn_module := None; wn_funcs := []; wn_locals := []; wn_types := []; wn_tables := []; wn_mems := [];
     wn_globals := []; wn_elems := []; wn_data := [] |}.
Definition names_of (secs : list wsec) : wnames :=
  match secs with [S_Custom (CS_Name (Some n))] => n | _ => empty_names end.

Lemma in_sort_nm {A} (l : list (N * A)) p : In p (sort_nm l) <-> In p l.
Proof. split; apply Permutation_in; [|apply Permutation_sym]; apply sort_nm_perm. Qed.

(* the local names written for one emitted function, and the entry of the local-name map they make *)
Definition fn_local_names (m : wir) (e : emitted_fn) : namemap :=
  flat_map (fun lid => match aget (m_locals m) lid with
                       | Some lo => match lo_name lo, find (fun q => N.eqb (fst q) lid) (ef_lmap e) with
                                    | Some n, Some q => [(snd q, n)] | _, _ => [] end
                       | None => [] end) (ef_used e).
(* the entry of one local of an emitted function: its slot and its name, if it has both *)
Definition local_name_entry (m : wir) (e : emitted_fn) (lid : N) : namemap :=
  match aget (m_locals m) lid with
  | Some lo => match lo_name lo, find (fun q => N.eqb (fst q) lid) (ef_lmap e) with
               | Some n, Some q => [(snd q, n)] | _, _ => [] end
  | None => [] end.
Lemma local_name_entry_in m e lid slot n : In (slot, n) (local_name_entry m e lid) <->
  exists lo q, aget (m_locals m) lid = Some lo /\ lo_name lo = Some n /\
               find (fun q => N.eqb (fst q) lid) (ef_lmap e) = Some q /\ snd q = slot.
Proof.
  unfold local_name_entry. split.
  - destruct (aget (m_locals m) lid) as [lo|]; [|intros []]. destruct (lo_name lo) as [n'|] eqn:En; [|intros []].
    destruct (find _ (ef_lmap e)) as [q|]; [|intros []]. intros [[= <- <-]|[]]. exists lo, q. auto.
  - intros (lo & q & -> & -> & -> & <-). left; reflexivity.
Qed.
Lemma fn_local_names_in m e slot n : In (slot, n) (fn_local_names m e) <->
  exists lid lo q, In lid (ef_used e) /\ aget (m_locals m) lid = Some lo /\ lo_name lo = Some n /\
                   find (fun q => N.eqb (fst q) lid) (ef_lmap e) = Some q /\ snd q = slot.
Proof.
  change (fn_local_names m e) with (flat_map (local_name_entry m e) (ef_used e)). rewrite in_flat_map. split.
  - intros (lid & Hl & H). apply local_name_entry_in in H. destruct H as (lo & q & H). exists lid, lo, q. tauto.
  - intros (lid & lo & q & Hl & H). exists lid. split; [exact Hl|]. apply local_name_entry_in. eauto.
Qed.
Definition loc_entry (m : wir) (x : x2i) (efs : list emitted_fn) (p : N * mfunc) : list (N * namemap) :=
  match find (fun e => N.eqb (ef_id e) (fst p)) efs with
  | None => []
  | Some e => match fn_local_names m e with
              | [] => []
              | nm => match get_idx x S_func (fst p) with Ok fi => [(fi, sort_nm nm)] | _ => [] end
              end
  end.

(* the last step of emit_names: no section exactly when every field is empty *)
Lemma names_section_shape (nm : option nstr) (f : namemap) (l : list (N * namemap)) (t tb me g e d : namemap) secs :
  let R := {| wn_module := nm; wn_funcs := f; wn_locals := l; wn_types := t; wn_tables := tb;
              wn_mems := me; wn_globals := g; wn_elems := e; wn_data := d |} in
  match nm, f, l, t, tb, me, g, e, d with
  | None, [], [], [], [], [], [], [], [] => Ok []
  | _, _, _, _, _, _, _, _, _ => Ok [S_Custom (CS_Name (Some R))]
  end = Ok secs ->
  (secs = [] /\ R = empty_names) \/ (secs = [S_Custom (CS_Name (Some R))] /\ R <> empty_names).
Proof.
  cbv zeta. destruct nm; [|destruct f; [destruct l; [destruct t; [destruct tb; [destruct me; [destruct g; [destruct e; [destruct d|]|]|]|]|]|]|]];
    intros [= <-]; first [left; split; reflexivity | right; split; [reflexivity|discriminate]].
Qed.

(* the section emit_names writes, field by field; it is absent exactly when every field is empty *)
Lemma emit_names_inv m x efs secs : emit_names m x efs = Ok secs ->
  let n := names_of secs in
  wn_module n = m_name m /\
  named x S_func fn_name (aiter (m_funcs m)) = Ok (wn_funcs n) /\
  named x S_type ty_name (live_types m) = Ok (wn_types n) /\
  named x S_table tb_name (aiter (m_tables m)) = Ok (wn_tables n) /\
  named x S_memory me_name (aiter (m_memories m)) = Ok (wn_mems n) /\
  named x S_global gl_name (aiter (m_globals m)) = Ok (wn_globals n) /\
  named x S_elem el_name (aiter (m_elements m)) = Ok (wn_elems n) /\
  named x S_data da_name (aiter (m_data m)) = Ok (wn_data n) /\
  (secs = [] \/ secs = [S_Custom (CS_Name (Some n))]) /\
  wn_locals n = sort_nm (flat_map (loc_entry m x efs) (aiter (m_funcs m))) /\
  (n = empty_names -> secs = []).
Proof.
  unfold emit_names. intros H. cbv zeta.
  rinv H as funcs E1. rinv H as locals E2. rinv H as types E3. rinv H as tables E4. rinv H as mems E5.
  rinv H as globals E6. rinv H as elems E7. rinv H as data E8.
  assert (EL : sort_nm (concat locals) = sort_nm (flat_map (loc_entry m x efs) (aiter (m_funcs m)))).
  { f_equal. apply rmapM_ok_inv in E2. fold (fn_local_names m) in E2. clear - E2.
    induction E2 as [|p b l bs Hp HF IH]; [reflexivity|]. cbn [concat flat_map]. rewrite IH. f_equal.
    unfold loc_entry. destruct (find (fun e => N.eqb (ef_id e) (fst p)) efs) as [e|]; [|inversion Hp; reflexivity].
    fold (fn_local_names m e) in Hp. destruct (fn_local_names m e) as [|p0 rest]; [inversion Hp; reflexivity|].
    rinv Hp as fi Efi. inversion Hp; subst b. rewrite Efi. reflexivity. }
  clear E2. rewrite <- EL. clear EL.
  set (R := {| wn_module := m_name m; wn_funcs := funcs; wn_locals := sort_nm (concat locals); wn_types := types; wn_tables := tables;
               wn_mems := mems; wn_globals := globals; wn_elems := elems; wn_data := data |}).
  pose proof (names_section_shape _ _ _ _ _ _ _ _ _ _ H) as D. cbv zeta in D. fold R in D.
  assert (EN : names_of secs = R) by (destruct D as [[-> ->]|[-> _]]; reflexivity).
  rewrite EN. subst R. cbn [wn_module wn_funcs wn_locals wn_types wn_tables wn_mems wn_globals wn_elems wn_data].
  do 8 (split; [first [reflexivity | assumption]|]). split; [|split; [reflexivity|]].
  - destruct D as [[-> _]|[-> _]]; [left|right]; reflexivity.
  - intros C. destruct D as [[-> _]|[_ N]]; [reflexivity|contradiction].
Qed.

Theorem emit_names_fields m x efs secs : emit_names m x efs = Ok secs ->
  wn_module (names_of secs) = m_name m /\
  named x S_func fn_name (aiter (m_funcs m)) = Ok (wn_funcs (names_of secs)) /\
  named x S_type ty_name (live_types m) = Ok (wn_types (names_of secs)) /\
  named x S_table tb_name (aiter (m_tables m)) = Ok (wn_tables (names_of secs)) /\
  named x S_memory me_name (aiter (m_memories m)) = Ok (wn_mems (names_of secs)) /\
  named x S_global gl_name (aiter (m_globals m)) = Ok (wn_globals (names_of secs)) /\
  named x S_elem el_name (aiter (m_elements m)) = Ok (wn_elems (names_of secs)) /\
  named x S_data da_name (aiter (m_data m)) = Ok (wn_data (names_of secs)) /\
  (secs = [] \/ secs = [S_Custom (CS_Name (Some (names_of secs)))]).
Proof. intros H. pose proof (emit_names_inv _ _ _ _ H) as K. cbv zeta in K. tauto. Qed.

(* emit_wasm writes that section (unless names are switched off) with the final maps *)
Theorem emitM_names m ilen dw e : emitM m ilen dw = Ok e ->
  em_module e = m /\
  exists s_nm pre post, em_secs e = pre ++ s_nm ++ post /\
    (if cf_skip_name (m_config m) then s_nm = [] else emit_names m (em_x2i e) (em_fns e) = Ok s_nm).
Proof.
  rewrite WV.Proofs.CustomsCfg.emitM_factor. unfold set_customs_take. intros H. rinv H as f Ef. destruct f as [[front x] efs].
  unfold WV.Proofs.CustomsCfg.emit_tail in H. rinv H as s_nm En. injection H as <-. cbn [em_x2i em_module em_secs em_fns].
  split; [reflexivity|]. exists s_nm, front. eexists. split; [reflexivity|].
  unfold WV.Proofs.CustomsCfg.sec_names in En. destruct (cf_skip_name (m_config m)); [injection En as <-; reflexivity|exact En].
Qed.

(* keep only the last entry of each index (a later entry for the same index overwrites) *)
Fixpoint dedupe_last (l : namemap) : namemap :=
  match l with
  | [] => []
  | (i, n) :: r => if existsb (fun p => N.eqb (fst p) i) r then dedupe_last r else (i, n) :: dedupe_last r
  end.

Lemma existsb_fst (l : namemap) i : existsb (fun p => N.eqb (fst p) i) l = true <-> In i (map fst l).
Proof.
  rewrite existsb_exists, in_map_iff. split.
  - intros [p [Hin He]]. apply N.eqb_eq in He. eauto.
  - intros [p [He Hin]]. exists p. split; [exact Hin|]. apply N.eqb_eq. exact He.
Qed.
Lemma last_name_none l k : last_name l k = None <-> ~ In k (map fst l).
Proof.
  induction l as [|[i n] r IH]; cbn [last_name map fst In]; [tauto|].
  destruct (last_name r k).
  - split; [discriminate|]. intros H. exfalso. apply H. right. apply Decidable.not_not; [|intros Hn; apply IH in Hn; discriminate].
    destruct (in_dec N.eq_dec k (map fst r)); [left|right]; assumption.
  - destruct (N.eqb_spec i k) as [->|Hne].
    + split; [discriminate|]. intros H; exfalso; apply H; left; reflexivity.
    + split; [|reflexivity]. intros _ [Heq|Hin]; [congruence|]. apply (proj1 IH); [reflexivity|exact Hin].
Qed.
Lemma dedupe_last_in l i nm : In (i, nm) (dedupe_last l) <-> last_name l i = Some nm.
Proof.
  induction l as [|[i0 n0] r IH]; cbn [dedupe_last last_name]; [split; [intros []|discriminate]|].
  destruct (existsb (fun p => N.eqb (fst p) i0) r) eqn:Ee.
  - rewrite IH. apply existsb_fst in Ee. destruct (last_name r i) eqn:El; [reflexivity|].
    destruct (N.eqb_spec i0 i) as [->|Hne]; [|reflexivity]. apply last_name_none in El. contradiction.
  - assert (Hni : ~ In i0 (map fst r)) by (rewrite <- existsb_fst; congruence).
    cbn [In]. rewrite IH. destruct (last_name r i) eqn:El.
    + split; [|auto]. intros [Heq|H]; [|exact H]. inversion Heq; subst. apply last_name_none in Hni. congruence.
    + destruct (N.eqb_spec i0 i) as [->|Hne].
      * split; [intros [Heq|H]; [inversion Heq; reflexivity|discriminate]|]. intros H; inversion H; auto.
      * split; [intros [Heq|H]; [inversion Heq; congruence|discriminate]|discriminate].
Qed.
Lemma dedupe_last_NoDup l : NoDup (map fst (dedupe_last l)).
Proof.
  induction l as [|[i0 n0] r IH]; cbn [dedupe_last]; [constructor|].
  destruct (existsb (fun p => N.eqb (fst p) i0) r) eqn:Ee; [exact IH|].
  cbn [map fst]. constructor; [|exact IH]. intros Hin. apply in_map_iff in Hin. destruct Hin as [[i nm] [Hi Hin]].
  cbn [fst] in Hi. subst i. apply dedupe_last_in in Hin.
  assert (Hni : ~ In i0 (map fst r)) by (rewrite <- existsb_fst; congruence).
  apply last_name_none in Hni. congruence.
Qed.

Lemma aiter_nodead {A} (a : tarena A) id v :
  dead a = [] -> (In (id, v) (aiter a) <-> nth_error (items a) (N.to_nat id) = Some v).
Proof. intros D. rewrite WV.Proofs.ArenaN.aiter_In. unfold aget, index, get, is_dead. rewrite D. reflexivity. Qed.

Lemma NoDup_map_inj_on {A B} (f : A -> B) (l : list A) :
  (forall a b, In a l -> In b l -> f a = f b -> a = b) -> NoDup l -> NoDup (map f l).
Proof.
  induction l as [|a l IH]; intros Hinj ND; cbn [map]; [constructor|]. inversion ND; subst. constructor.
  - intros Hin. apply in_map_iff in Hin. destruct Hin as [b [Hb Hin]].
    assert (b = a) by (apply Hinj; [right; exact Hin|left; reflexivity|exact Hb]). subst b. contradiction.
  - apply IH; [|assumption]. intros x y Hx Hy. apply Hinj; right; assumption.
Qed.
(* the emitted index of the entity the input index [i] denotes (identity vector: id = i) *)
Definition rho (x : x2i) (S : space) (i : N) : N := match get_idx x S i with Ok j => j | _ => 0%N end.

(* what "the names of kind K survived" means: [l] the entries of the input, [n] the size of the
   input's index space, [out] the emitted name map *)
Definition kind_rt (x : x2i) (S : space) (n : nat) (l out : namemap) : Prop :=
  (forall j nm, In (j, nm) out <->
      exists i, N.to_nat i < n /\ last_name l i = Some nm /\ get_idx x S i = Ok j) /\
  (forall i nm, N.to_nat i < n -> last_name l i = Some nm -> exists j, get_idx x S i = Ok j /\ In (j, nm) out) /\
  StronglySorted (fun a b => fst a <= fst b)%N out /\
  (wf_map (space_map x S) ->
     StronglySorted N.lt (map fst out) /\
     out = sort_nm (map (fun p => (rho x S (fst p), snd p)) (filter (fun p => N.to_nat (fst p) <? n) (dedupe_last l)))).

Section Kind.
  Context {A : Type} (setn : A -> nstr -> A) (getn : A -> option nstr).
  Hypothesis Hset : forall x s t, setn (setn x s) t = setn x t.
  Hypothesis Hget : forall x s, getn (setn x s) = Some s.

  (* the named entities of an arena that had no names before [apply_names]; any index vector *)
  Lemma aiter_named_iff_gen (a0 : tarena A) idx (l : namemap) id nm :
    dead a0 = [] -> Forall (fun v => getn v = None) (items a0) ->
    ((exists v, In (id, v) (aiter (apply_names a0 idx setn l)) /\ getn v = Some nm) <->
     (N.to_nat id < length (items a0) /\ last_for idx l id = Some nm)).
  Proof.
    intros D F. destruct (apply_names_shape setn idx l a0) as [HL HD]. rewrite D in HD.
    pose proof (apply_names_nth setn idx Hset l a0 (N.to_nat id)) as Hn. rewrite N2Nat.id in Hn. split.
    - intros [v [Hin Hg]]. apply (aiter_nodead _ _ _ HD) in Hin.
      assert (Hlt : N.to_nat id < length (items a0)) by (rewrite <- HL; apply nth_error_Some; congruence).
      split; [exact Hlt|].
      destruct (nth_error (items a0) (N.to_nat id)) as [old|] eqn:Eo; [|apply nth_error_None in Eo; lia].
      rewrite Hin in Hn. cbn [option_map] in Hn. inversion Hn; subst v; clear Hn.
      destruct (last_for idx l id) as [s|]; cbn [renamed] in Hg.
      + rewrite Hget in Hg. exact Hg.
      + rewrite Forall_forall in F. rewrite (F old) in Hg by (eapply nth_error_In; exact Eo). discriminate.
    - intros [Hlt Hl].
      destruct (nth_error (items a0) (N.to_nat id)) as [old|] eqn:Eo; [|apply nth_error_None in Eo; lia].
      exists (setn old nm). split; [|apply Hget]. apply (aiter_nodead _ _ _ HD). rewrite Hn, Hl. reflexivity.
  Qed.
  Lemma aiter_named_iff (a0 : tarena A) (l : namemap) i nm :
    dead a0 = [] -> Forall (fun v => getn v = None) (items a0) ->
    ((exists v, In (i, v) (aiter (apply_names a0 (iota (length (items a0))) setn l)) /\ getn v = Some nm) <->
     (N.to_nat i < length (items a0) /\ last_name l i = Some nm)).
  Proof.
    intros D F. rewrite (aiter_named_iff_gen a0 _ l i nm D F), last_for_iota.
    destruct (Nat.ltb_spec (N.to_nat i) (length (items a0))) as [Hlt|Hge]; [reflexivity|]. split; intros [Hlt _]; lia.
  Qed.

  Theorem kind_names_roundtrip (a0 : tarena A) (l : namemap) x S r :
    dead a0 = [] -> Forall (fun v => getn v = None) (items a0) ->
    named x S getn (aiter (apply_names a0 (iota (length (items a0))) setn l)) = Ok r ->
    kind_rt x S (length (items a0)) l r.
  Proof.
    intros D F H. destruct (named_spec _ _ _ _ _ H) as (M & Srt & Tot & SS).
    assert (M' : forall j nm, In (j, nm) r <->
               exists i, N.to_nat i < length (items a0) /\ last_name l i = Some nm /\ get_idx x S i = Ok j).
    { intros j nm. rewrite M. split.
      - intros (id & v & Hin & Hg & Hi). exists id.
        destruct (proj1 (aiter_named_iff a0 l id nm D F)) as [H1 H2]; [eauto|]. auto.
      - intros (i & Hlt & Hl & Hi). destruct (proj2 (aiter_named_iff a0 l i nm D F)) as [v [Hin Hg]]; [auto|]. eauto. }
    assert (T' : forall i nm, N.to_nat i < length (items a0) -> last_name l i = Some nm ->
               exists j, get_idx x S i = Ok j /\ In (j, nm) r).
    { intros i nm Hlt Hl. destruct (proj2 (aiter_named_iff a0 l i nm D F)) as [v [Hin Hg]]; [auto|]. eauto. }
    split; [exact M'|]. split; [exact T'|]. split; [exact Srt|].
    intros W. pose proof (SS W (aiter_NoDup _)) as Sr. split; [exact Sr|].
    set (L := filter _ (dedupe_last l)).
    assert (InL : forall i nm, In (i, nm) L <-> N.to_nat i < length (items a0) /\ last_name l i = Some nm).
    { intros i nm. split.
      - intros Hin. apply filter_In in Hin. split; [apply Nat.ltb_lt, Hin|apply dedupe_last_in, Hin].
      - intros [Hlt Hl]. apply filter_In. split; [apply dedupe_last_in, Hl|apply Nat.ltb_lt, Hlt]. }
    (* both sides are strictly sorted, the right one because [rho] is injective on the indices in range *)
    apply sorted_extA; [exact Sr| |].
    - apply sort_nm_lt_sorted. rewrite map_map. cbn [fst]. apply NoDup_map_inj_on.
      + intros [i1 n1] [i2 n2] H1 H2 H0. cbn [fst] in H0. apply InL in H1. apply InL in H2.
        destruct (T' i1 n1 (proj1 H1) (proj2 H1)) as [j1 [E1 _]]. destruct (T' i2 n2 (proj1 H2) (proj2 H2)) as [j2 [E2 _]].
        unfold rho in H0. rewrite E1, E2 in H0. subst j2. unfold get_idx in E1, E2.
        pose proof (lookup_inj _ _ _ _ W E1 E2). subst i2. f_equal. destruct H1 as [_ H1]. destruct H2 as [_ H2]. congruence.
      + apply NoDup_filter. apply (NoDup_map_inv fst). apply dedupe_last_NoDup.
    - intros [j nm]. rewrite in_sort_nm, M'. split.
      + intros (i & Hlt & Hl & Hi). apply in_map_iff. exists (i, nm). cbn [fst snd]. unfold rho. rewrite Hi. split; [reflexivity|]. apply InL. auto.
      + intros Hin. apply in_map_iff in Hin. destruct Hin as [[i nm'] [Heq Hin]]. cbn [fst snd] in Heq. inversion Heq; subst nm'; clear Heq.
        apply InL in Hin. destruct Hin as [Hlt Hl]. destruct (T' i nm Hlt Hl) as [j' [Hj' _]]. exists i. unfold rho. rewrite Hj'. auto.
  Qed.
End Kind.

Lemma kind_compose {A} (setn : A -> nstr -> A) (getn : A -> option nstr)
  (Hset : forall x s t, setn (setn x s) t = setn x t) (Hget : forall x s, getn (setn x s) = Some s)
  (a0 : tarena A) idx l x S r :
  idx = iota (length (items a0)) -> dead a0 = [] -> Forall (fun v => getn v = None) (items a0) ->
  named x S getn (aiter (apply_names a0 idx setn l)) = Ok r -> kind_rt x S (length idx) l r.
Proof. intros ->. rewrite iota_length. apply kind_names_roundtrip; assumption. Qed.

(* [ns] = the name sections of the input (usually one), entries applied in order.
   The index vectors are the identity (parseM_ids), so the entity the input index i denotes has id i
   and its emitted index is [get_idx x S i].  Stated for the section [emit_names] writes for any maps [x]:
   what makes a name stay with its entity is that both sides go through the entity's id. *)
Theorem emit_names_roundtrip : forall cf ver w s x efs s_nm,
  parseM cf ver w = POk s -> emit_names (ps_m s) x efs = Ok s_nm ->
  let ids := ps_ids s in let ns := name_sections w in
    (s_nm = [] \/ s_nm = [S_Custom (CS_Name (Some (names_of s_nm)))]) /\
    let out := names_of s_nm in
    wn_module out = last_module_name ns /\
    (cf_synthetic_names cf = false ->
       kind_rt x S_func (length (ii_funcs ids)) (flat_map wn_funcs ns) (wn_funcs out)) /\
    kind_rt x S_table (length (ii_tables ids)) (flat_map wn_tables ns) (wn_tables out) /\
    kind_rt x S_memory (length (ii_memories ids)) (flat_map wn_mems ns) (wn_mems out) /\
    kind_rt x S_global (length (ii_globals ids)) (flat_map wn_globals ns) (wn_globals out) /\
    kind_rt x S_elem (length (ii_elements ids)) (flat_map wn_elems ns) (wn_elems out) /\
    kind_rt x S_data (length (ii_data ids)) (flat_map wn_data ns) (wn_data out).
Proof.
  intros cf ver w s x efs s_nm HP Hn. cbv zeta.
  destruct (parseM_names_structure _ _ _ _ HP) as (m0 & I0 & U0 & Em).
  assert (Ecf : m_config m0 = cf).
  { rewrite <- (parseM_config _ _ _ _ HP), Em. cbn [set_producers m_config]. symmetry. apply all_names_config. }
  apply emit_names_fields in Hn. destruct Hn as (Nm & Nf & _ & Ntb & Nme & Ngl & Nel & Nda & Hshape).
  split; [exact Hshape|].
  rewrite Em in Nm, Nf, Ntb, Nme, Ngl, Nel, Nda. cbn [set_producers m_name m_funcs m_tables m_memories m_globals m_elements m_data] in *.
  rewrite all_names_name in Nm. rewrite all_names_funcs in Nf. rewrite all_names_tables in Ntb. rewrite all_names_memories in Nme.
  rewrite all_names_globals in Ngl. rewrite all_names_elements in Nel. rewrite all_names_data in Nda.
  unfold ids_consistent in I0. decompose [and] I0. clear I0. destruct U0 as (Un & Uf & Utb & Ume & Ugl & Uel & Uda & _). rewrite Ecf in Uf.
  split; [|split; [|split; [|split; [|split; [|split]]]]].
  - rewrite Nm, Un. destruct (last_module_name (name_sections w)); reflexivity.
  - intros Hsyn. eapply (kind_compose set_fn_name fn_name set_fn_name_idem (fun _ _ => eq_refl)); eauto.
  - eapply (kind_compose set_tb_name tb_name set_tb_name_idem (fun _ _ => eq_refl)); eauto.
  - eapply (kind_compose set_me_name me_name set_me_name_idem (fun _ _ => eq_refl)); eauto.
  - eapply (kind_compose set_gl_name gl_name set_gl_name_idem (fun _ _ => eq_refl)); eauto.
  - eapply (kind_compose set_el_name el_name set_el_name_idem (fun _ _ => eq_refl)); eauto.
  - eapply (kind_compose set_da_name da_name set_da_name_idem (fun _ _ => eq_refl)); eauto.
Qed.

Theorem names_roundtrip : forall cf ver w s ilen dw e,
  parseM cf ver w = POk s -> emitM (ps_m s) ilen dw = Ok e -> cf_skip_name cf = false ->
  let ids := ps_ids s in let x := em_x2i e in let ns := name_sections w in
  exists s_nm pre post,
    em_secs e = pre ++ s_nm ++ post /\ (s_nm = [] \/ s_nm = [S_Custom (CS_Name (Some (names_of s_nm)))]) /\
    let out := names_of s_nm in
    wn_module out = last_module_name ns /\
    (cf_synthetic_names cf = false ->
       kind_rt x S_func (length (ii_funcs ids)) (flat_map wn_funcs ns) (wn_funcs out)) /\
    kind_rt x S_table (length (ii_tables ids)) (flat_map wn_tables ns) (wn_tables out) /\
    kind_rt x S_memory (length (ii_memories ids)) (flat_map wn_mems ns) (wn_mems out) /\
    kind_rt x S_global (length (ii_globals ids)) (flat_map wn_globals ns) (wn_globals out) /\
    kind_rt x S_elem (length (ii_elements ids)) (flat_map wn_elems ns) (wn_elems out) /\
    kind_rt x S_data (length (ii_data ids)) (flat_map wn_data ns) (wn_data out).
Proof.
  intros cf ver w s ilen dw e HP HE Hskip. cbv zeta.
  destruct (emitM_names _ _ _ _ HE) as (_ & s_nm & pre & post & Hsecs & Hn).
  rewrite (parseM_config _ _ _ _ HP), Hskip in Hn.
  exists s_nm, pre, post. split; [exact Hsecs|]. exact (emit_names_roundtrip _ _ _ _ _ _ _ HP Hn).
Qed.

Corollary names_roundtrip_one : forall cf ver w s ilen dw e n,
  parseM cf ver w = POk s -> emitM (ps_m s) ilen dw = Ok e -> cf_skip_name cf = false ->
  name_sections w = [n] ->
  let ids := ps_ids s in let x := em_x2i e in
  exists s_nm pre post,
    em_secs e = pre ++ s_nm ++ post /\ (s_nm = [] \/ s_nm = [S_Custom (CS_Name (Some (names_of s_nm)))]) /\
    let out := names_of s_nm in
    wn_module out = wn_module n /\
    (cf_synthetic_names cf = false -> kind_rt x S_func (length (ii_funcs ids)) (wn_funcs n) (wn_funcs out)) /\
    kind_rt x S_table (length (ii_tables ids)) (wn_tables n) (wn_tables out) /\
    kind_rt x S_memory (length (ii_memories ids)) (wn_mems n) (wn_mems out) /\
    kind_rt x S_global (length (ii_globals ids)) (wn_globals n) (wn_globals out) /\
    kind_rt x S_elem (length (ii_elements ids)) (wn_elems n) (wn_elems out) /\
    kind_rt x S_data (length (ii_data ids)) (wn_data n) (wn_data out).
Proof.
  intros cf ver w s ilen dw e n HP HE Hskip Hone. cbv zeta.
  destruct (names_roundtrip _ _ _ _ _ _ _ HP HE Hskip) as (s_nm & pre & post & H1 & H2 & H3).
  exists s_nm, pre, post. split; [exact H1|]. split; [exact H2|]. cbv zeta in H3. rewrite Hone in H3.
  cbn [flat_map last_module_name] in H3. rewrite !app_nil_r in H3. exact H3.
Qed.

(* "no name moves to another entity", spelled out for one kind *)
Corollary kind_rt_no_move x S n l out j nm : kind_rt x S n l out -> In (j, nm) out ->
  exists i, N.to_nat i < n /\ get_idx x S i = Ok j /\ last_name l i = Some nm.
Proof. intros (M & _) Hin. apply M in Hin. destruct Hin as (i & H1 & H2 & H3). eauto. Qed.
(* ... and no name is lost *)
Corollary kind_rt_no_loss x S n l out i nm : kind_rt x S n l out -> N.to_nat i < n -> last_name l i = Some nm ->
  exists j, get_idx x S i = Ok j /\ In (j, nm) out.
Proof. intros (_ & T & _) H1 H2. eauto. Qed.

Lemma iter_from_nodead {A} (l : list A) : forall n, map fst (iter_from n l []) = seq n (length l).
Proof. induction l as [|a l IH]; intros n; cbn [iter_from existsb map fst length seq]; [reflexivity|]. rewrite IH. reflexivity. Qed.
Lemma aiter_ids_nodead {A} (a : tarena A) : dead a = [] -> map fst (aiter a) = iota (length (items a)).
Proof. intros D. rewrite aiter_ids. unfold iter. rewrite D, iter_from_nodead. reflexivity. Qed.

Lemma lookup_number_iota n i : N.to_nat i < n -> lookup_i (number (iota n)) i = Ok i.
Proof.
  intros H. assert (W : wf_map (number (iota n))).
  { apply number_wf. unfold iota. apply NoDup_map_inj; [intros a b; apply Nat2N.inj|apply seq_NoDup]. }
  apply (wf_lookup_fst _ _ _ W). rewrite number_fst, iota_nth by exact H. rewrite N2Nat.id. reflexivity.
Qed.

Theorem rho_elements_data_id : forall cf ver w s ilen dw e,
  parseM cf ver w = POk s -> emitM (ps_m s) ilen dw = Ok e ->
  wf_map (space_map (em_x2i e) S_elem) /\ wf_map (space_map (em_x2i e) S_data) /\
  (forall i, N.to_nat i < length (ii_elements (ps_ids s)) -> get_idx (em_x2i e) S_elem i = Ok i) /\
  (forall i, N.to_nat i < length (ii_data (ps_ids s)) -> get_idx (em_x2i e) S_data i = Ok i).
Proof.
  intros cf ver w s ilen dw e HP HE. pose proof (parseM_ids _ _ _ _ HP) as I. unfold ids_consistent in I. decompose [and] I. clear I.
  destruct (emit_order_elements _ _ _ _ HE) as [_ We]. destruct (emit_order_data _ _ _ _ HE) as [_ Wd].
  destruct (emitM_x2i _ _ _ _ HE) as [fs [_ (_ & _ & _ & _ & _ & Xe & Xd)]].
  split; [exact We|]. split; [exact Wd|]. split.
  - intros i Hi. unfold get_idx. cbn [space_map]. rewrite Xe, aiter_ids_nodead by assumption.
    apply lookup_number_iota. match goal with Hx : ii_elements _ = _ |- _ => rewrite Hx, iota_length in Hi end. exact Hi.
  - intros i Hi. unfold get_idx. cbn [space_map]. rewrite Xd, aiter_ids_nodead by assumption.
    apply lookup_number_iota. match goal with Hx : ii_data _ = _ |- _ => rewrite Hx, iota_length in Hi end. exact Hi.
Qed.

(* with rho = id the emitted map is the deduplicated, in-range, sorted input map *)
Lemma kind_rt_id x S n l out : kind_rt x S n l out -> wf_map (space_map x S) ->
  (forall i, N.to_nat i < n -> get_idx x S i = Ok i) ->
  out = sort_nm (filter (fun p => N.to_nat (fst p) <? n) (dedupe_last l)) /\
  (forall i nm, In (i, nm) out <-> N.to_nat i < n /\ last_name l i = Some nm).
Proof.
  intros (M & T & _ & H) W Hid. destruct (H W) as [_ Eo]. split.
  - rewrite Eo. f_equal. rewrite <- (map_id (filter _ _)) at 2. apply map_ext_in. intros [i nm] Hin. cbn [fst snd].
    apply filter_In in Hin. destruct Hin as [_ Hlt]. cbn [fst] in Hlt. apply Nat.ltb_lt in Hlt.
    unfold rho. rewrite (Hid i Hlt). reflexivity.
  - intros i nm. rewrite M. split.
    + intros (i' & H1 & H2 & H3). rewrite (Hid i' H1) in H3. inversion H3; subst. auto.
    + intros [H1 H2]. exists i. auto.
Qed.

Theorem names_roundtrip_elements_data : forall cf ver w s ilen dw e,
  parseM cf ver w = POk s -> emitM (ps_m s) ilen dw = Ok e -> cf_skip_name cf = false ->
  let ids := ps_ids s in let ns := name_sections w in
  exists s_nm pre post,
    em_secs e = pre ++ s_nm ++ post /\ (s_nm = [] \/ s_nm = [S_Custom (CS_Name (Some (names_of s_nm)))]) /\
    wn_elems (names_of s_nm) =
      sort_nm (filter (fun p => N.to_nat (fst p) <? length (ii_elements ids)) (dedupe_last (flat_map wn_elems ns))) /\
    wn_data (names_of s_nm) =
      sort_nm (filter (fun p => N.to_nat (fst p) <? length (ii_data ids)) (dedupe_last (flat_map wn_data ns))).
Proof.
  intros cf ver w s ilen dw e HP HE Hskip. cbv zeta.
  destruct (names_roundtrip _ _ _ _ _ _ _ HP HE Hskip) as (s_nm & pre & post & H1 & H2 & H3).
  cbv zeta in H3. destruct H3 as (_ & _ & _ & _ & _ & Kel & Kda).
  destruct (rho_elements_data_id _ _ _ _ _ _ _ HP HE) as (We & Wd & Ie & Id).
  exists s_nm, pre, post. split; [exact H1|]. split; [exact H2|]. split.
  - apply (kind_rt_id _ _ _ _ _ Kel We Ie).
  - apply (kind_rt_id _ _ _ _ _ Kda Wd Id).
Qed.

Theorem module_name_parse : forall cf ver w s, parseM cf ver w = POk s ->
  m_name (ps_m s) = last_module_name (name_sections w).
Proof.
  intros cf ver w s HP. destruct (parseM_names_structure _ _ _ _ HP) as (m0 & _ & U0 & Em).
  rewrite Em. wcbn. rewrite all_names_name. destruct U0 as [U0 _]. rewrite U0.
  destruct (last_module_name (name_sections w)); reflexivity.
Qed.
Theorem module_name_emit : forall m ilen dw e, emitM m ilen dw = Ok e -> cf_skip_name (m_config m) = false ->
  exists s_nm pre post, em_secs e = pre ++ s_nm ++ post /\
    (s_nm = [] \/ s_nm = [S_Custom (CS_Name (Some (names_of s_nm)))]) /\ wn_module (names_of s_nm) = m_name m.
Proof.
  intros m ilen dw e HE Hskip. destruct (emitM_names _ _ _ _ HE) as (_ & s_nm & pre & post & Hsecs & Hn).
  rewrite Hskip in Hn. apply emit_names_fields in Hn. exists s_nm, pre, post. intuition.
Qed.

(* The emit-time maps put the imported entities first (in import order), then the local ones in
   arena order (the emit_order theorems).  When that list is the arena order itself, rho is the identity. *)
Lemma rho_id_number x S l n : space_map x S = number l -> l = iota n ->
  wf_map (space_map x S) /\ (forall i, N.to_nat i < n -> get_idx x S i = Ok i).
Proof.
  intros E ->. split.
  - rewrite E. apply number_wf. unfold iota. apply NoDup_map_inj; [intros a b; apply Nat2N.inj|apply seq_NoDup].
  - intros i Hi. unfold get_idx. rewrite E. apply lookup_number_iota. exact Hi.
Qed.
Theorem rho_id_tables m ilen dw e n : emitM m ilen dw = Ok e ->
  imported_tables m ++ map fst (local_tables m) = iota n ->
  wf_map (space_map (em_x2i e) S_table) /\ (forall i, N.to_nat i < n -> get_idx (em_x2i e) S_table i = Ok i).
Proof. intros HE H. destruct (emitM_x2i _ _ _ _ HE) as [fs [_ (_ & _ & X & _)]]. eapply rho_id_number; [exact X|exact H]. Qed.
Theorem rho_id_memories m ilen dw e n : emitM m ilen dw = Ok e ->
  imported_memories m ++ map fst (local_memories m) = iota n ->
  wf_map (space_map (em_x2i e) S_memory) /\ (forall i, N.to_nat i < n -> get_idx (em_x2i e) S_memory i = Ok i).
Proof. intros HE H. destruct (emitM_x2i _ _ _ _ HE) as [fs [_ (_ & _ & _ & X & _)]]. eapply rho_id_number; [exact X|exact H]. Qed.
Theorem rho_id_globals m ilen dw e n : emitM m ilen dw = Ok e ->
  imported_globals m ++ map gid (local_globals m) = iota n ->
  wf_map (space_map (em_x2i e) S_global) /\ (forall i, N.to_nat i < n -> get_idx (em_x2i e) S_global i = Ok i).
Proof. intros HE H. destruct (emitM_x2i _ _ _ _ HE) as [fs [_ (_ & _ & _ & _ & X & _)]]. eapply rho_id_number; [exact X|exact H]. Qed.
(* functions: imported first, then the local ones in the emitter's (Reverse(size), id) order *)
Theorem rho_funcs m ilen dw e : emitM m ilen dw = Ok e ->
  exists fs, used_local_functions m = Ok fs /\ NoDup (map fst fs) /\
    space_map (em_x2i e) S_func = number (imported_funcs m ++ map fst fs) /\
    (NoDup (imported_funcs m ++ map fst fs) -> wf_map (space_map (em_x2i e) S_func) /\
       forall id j, get_idx (em_x2i e) S_func id = Ok j <-> nth_error (imported_funcs m ++ map fst fs) (N.to_nat j) = Some id).
Proof.
  intros HE. destruct (emitM_x2i _ _ _ _ HE) as [fs [Hfs (_ & X & _)]]. exists fs. split; [exact Hfs|].
  split; [apply (used_local_functions_ids _ _ Hfs)|]. split; [exact X|]. intros ND.
  assert (W : wf_map (space_map (em_x2i e) S_func)) by (cbn [space_map]; rewrite X; apply number_wf, ND).
  split; [exact W|]. intros id j. rewrite (x2i_positions _ _ _ _ W). cbn [space_map]. rewrite X, number_fst. reflexivity.
Qed.

(* A type id can be denoted by several input indices (equal types are merged by the ArenaSet);
   the merged type carries the name of the LAST entry whose index resolves to it, and that name
   is emitted at the type's emitted index; nothing else is emitted. *)
Theorem emit_names_roundtrip_types : forall cf ver w s x efs s_nm,
  parseM cf ver w = POk s -> emit_names (ps_m s) x efs = Ok s_nm ->
  let ids := ps_ids s in let l := flat_map wn_types (name_sections w) in
    let out := wn_types (names_of s_nm) in
    (forall j nm, In (j, nm) out <->
       exists id, N.to_nat id < length (items (Arena.arena (m_types (ps_m s)))) /\
                  last_for (ii_types ids) l id = Some nm /\ get_idx x S_type id = Ok j) /\
    (forall id nm, N.to_nat id < length (items (Arena.arena (m_types (ps_m s)))) -> last_for (ii_types ids) l id = Some nm ->
       exists j, get_idx x S_type id = Ok j /\ In (j, nm) out) /\
    (wf_map (space_map x S_type) -> StronglySorted N.lt (map fst out)).
Proof.
  intros cf ver w s x efs s_nm HP Hn. cbv zeta.
  destruct (parseM_names_structure _ _ _ _ HP) as (m0 & I0 & U0 & Em).
  apply emit_names_fields in Hn. destruct Hn as (_ & _ & Nty & _).
  change (live_types (ps_m s)) with (aiter (Arena.arena (m_types (ps_m s)))) in Nty.
  assert (Ety : Arena.arena (m_types (ps_m s)) =
                apply_names (Arena.arena (m_types m0)) (ii_types (ps_ids s)) set_type_name
                            (flat_map wn_types (name_sections w))).
  { rewrite Em. apply all_names_types. }
  rewrite Ety in *. clear Ety Em.
  rewrite (proj1 (apply_names_shape set_type_name _ _ _)).
  assert (D : dead (Arena.arena (m_types m0)) = []) by (unfold ids_consistent in I0; tauto).
  assert (F : Forall (fun t => ty_name t = None) (items (Arena.arena (m_types m0)))) by (unfold unnamed in U0; tauto).
  destruct (named_spec _ _ _ _ _ Nty) as (M & _ & Tot & SS).
  pose proof (fun id nm => aiter_named_iff_gen set_type_name ty_name set_type_name_idem (fun _ _ => eq_refl)
                             (Arena.arena (m_types m0)) (ii_types (ps_ids s))
                             (flat_map wn_types (name_sections w)) id nm D F) as K.
  split; [|split].
  - intros j nm. rewrite M. split.
    + intros (id & v & Hin & Hg & Hi). exists id. destruct (proj1 (K id nm)) as [H1 H2]; [eauto|]. auto.
    + intros (id & Hlt & Hl & Hi). destruct (proj2 (K id nm)) as [v [Hin Hg]]; [auto|]. eauto.
  - intros id nm Hlt Hl. destruct (proj2 (K id nm)) as [v [Hin Hg]]; [auto|]. eauto.
  - intros W. apply SS; [exact W|apply aiter_NoDup].
Qed.

Theorem names_roundtrip_types : forall cf ver w s ilen dw e,
  parseM cf ver w = POk s -> emitM (ps_m s) ilen dw = Ok e -> cf_skip_name cf = false ->
  let ids := ps_ids s in let x := em_x2i e in let l := flat_map wn_types (name_sections w) in
  exists s_nm pre post,
    em_secs e = pre ++ s_nm ++ post /\ (s_nm = [] \/ s_nm = [S_Custom (CS_Name (Some (names_of s_nm)))]) /\
    let out := wn_types (names_of s_nm) in
    (forall j nm, In (j, nm) out <->
       exists id, N.to_nat id < length (items (Arena.arena (m_types (ps_m s)))) /\
                  last_for (ii_types ids) l id = Some nm /\ get_idx x S_type id = Ok j) /\
    (forall id nm, N.to_nat id < length (items (Arena.arena (m_types (ps_m s)))) -> last_for (ii_types ids) l id = Some nm ->
       exists j, get_idx x S_type id = Ok j /\ In (j, nm) out) /\
    StronglySorted N.lt (map fst out).
Proof.
  intros cf ver w s ilen dw e HP HE Hskip. cbv zeta.
  destruct (emitM_names _ _ _ _ HE) as (_ & s_nm & pre & post & Hsecs & Hn).
  rewrite (parseM_config _ _ _ _ HP), Hskip in Hn.
  destruct (emit_names_roundtrip_types _ _ _ _ _ _ _ HP Hn) as (M & T & SS).
  exists s_nm, pre, post. split; [exact Hsecs|]. split; [exact (proj1 (emit_names_roundtrip _ _ _ _ _ _ _ HP Hn))|].
  split; [exact M|]. split; [exact T|]. exact (SS (proj2 (emit_order_types _ _ _ _ HE))).
Qed.

Theorem local_names_parse_partial m ids fi names r fid :
  nth_N (ii_funcs ids) fi = Some fid ->
  let kept := filter (fun p => negb (cf_synthetic_names (m_config m) && str_empty (snd p))) names in
  let la := apply_names (m_locals m) (locals_vec ids fid) set_lo_name kept in
  apply_local_names m ids ((fi, names) :: r) = apply_local_names (set_locals m la) ids r /\
  (forall lid, aget la lid = option_map (renamed set_lo_name (last_for (locals_vec ids fid) kept lid)) (aget (m_locals m) lid)).
Proof.
  intros Hf. cbv zeta. split.
  - cbn [apply_local_names]. rewrite Hf. rewrite local_names_fold. reflexivity.
  - intros lid. apply aget_apply_names. apply set_lo_name_idem.
Qed.

Lemma Forall2_in_r {A B} (R : A -> B -> Prop) l bs b : Forall2 R l bs -> In b bs -> exists a, In a l /\ R a b.
Proof.
  induction 1 as [|a b' l bs HR HF IH]; intros Hin; [destruct Hin|]. destruct Hin as [<-|Hin].
  - exists a. split; [left; reflexivity|exact HR].
  - destruct (IH Hin) as [a' [H1 H2]]. exists a'. split; [right; exact H1|exact H2].
Qed.
Lemma Forall2_in_l {A B} (R : A -> B -> Prop) l bs a : Forall2 R l bs -> In a l -> exists b, In b bs /\ R a b.
Proof.
  induction 1 as [|a' b l bs HR HF IH]; intros Hin; [destruct Hin|]. destruct Hin as [<-|Hin].
  - exists b. split; [left; reflexivity|exact HR].
  - destruct (IH Hin) as [b' [H1 H2]]. exists b'. split; [right; exact H1|exact H2].
Qed.

Theorem local_names_emit_partial m x efs secs : emit_names m x efs = Ok secs ->
  (forall fi lnames, In (fi, lnames) (wn_locals (names_of secs)) <->
     exists fid f e, In (fid, f) (aiter (m_funcs m)) /\ find (fun e => N.eqb (ef_id e) fid) efs = Some e /\
                     fn_local_names m e <> [] /\ get_idx x S_func fid = Ok fi /\ lnames = sort_nm (fn_local_names m e)) /\
  (forall e slot n, In (slot, n) (sort_nm (fn_local_names m e)) <->
     exists lid lo q, In lid (ef_used e) /\ aget (m_locals m) lid = Some lo /\ lo_name lo = Some n /\
                      find (fun q => N.eqb (fst q) lid) (ef_lmap e) = Some q /\ snd q = slot).
Proof.
  intros H. split.
  - intros fi lnames. destruct (emit_names_inv _ _ _ _ H) as (_ & _ & _ & _ & _ & _ & _ & _ & _ & -> & _).
    rewrite in_sort_nm, in_flat_map. unfold loc_entry. split.
    + intros ([fid f] & Ha & Hin). cbn [fst] in Hin.
      destruct (find (fun e => N.eqb (ef_id e) fid) efs) as [e|] eqn:Ee; [|destruct Hin].
      destruct (fn_local_names m e) as [|p0 rest] eqn:En; [destruct Hin|]. rewrite <- En in *.
      destruct (get_idx x S_func fid) as [j| |] eqn:Ej; try (destruct Hin; fail). destruct Hin as [Hin|[]]. injection Hin as <- <-.
      exists fid, f, e. repeat split; auto. rewrite En. discriminate.
    + intros (fid & f & e & Ha & Ee & Hne & Hfi & ->). exists (fid, f). split; [exact Ha|]. cbn [fst]. rewrite Ee, Hfi.
      destruct (fn_local_names m e); [contradiction|left; reflexivity].
  - intros e slot n. rewrite in_sort_nm. apply fn_local_names_in.
Qed.

Lemma set_all_shape : forall l a, length (items (set_all a l)) = length (items a) /\ dead (set_all a l) = dead a.
Proof.
  induction l as [|[i n] r IH]; intros a; cbn [set_all]; [auto|]. destruct (IH (aset_at a i (fun x => set_lo_name x n))) as [H1 H2].
  rewrite H1, H2. cbn [aset_at items dead]. rewrite upd_length. auto.
Qed.
Lemma set_all_nth : forall l a k,
  nth_error (items (set_all a l)) k = option_map (renamed set_lo_name (last_name l (N.of_nat k))) (nth_error (items a) k).
Proof.
  induction l as [|[i n] r IH]; intros a k; cbn [set_all last_name].
  - destruct (nth_error (items a) k); reflexivity.
  - rewrite IH. cbn [aset_at items]. destruct (N.eqb_spec i (N.of_nat k)) as [Heq|Hne].
    + subst i. rewrite Nat2N.id. destruct (nth_error (items a) k) as [v|] eqn:Ev.
      * rewrite (upd_nth_eq _ _ _ _ _ Ev). cbn [option_map].
        destruct (last_name r (N.of_nat k)); cbn [renamed]; [rewrite set_lo_name_idem|]; reflexivity.
      * rewrite upd_nth_none by exact Ev. reflexivity.
    + rewrite upd_nth_ne by (intros Hc; apply Hne; rewrite <- Hc, N2Nat.id; reflexivity).
      destruct (last_name r (N.of_nat k)); reflexivity.
Qed.
Lemma aget_set_all l a lid : aget (set_all a l) lid = option_map (renamed set_lo_name (last_name l lid)) (aget a lid).
Proof.
  unfold aget, index, get, is_dead. rewrite (proj2 (set_all_shape l a)).
  destruct (existsb _ (dead a)); [reflexivity|]. rewrite set_all_nth, N2Nat.id. reflexivity.
Qed.

(* parse side: a local of the parsed module carries the name of the LAST input entry that resolves to
   it; without synthetic names it carries no other name *)
Theorem parseM_local_names : forall cf ver w s lid lo,
  parseM cf ver w = POk s -> aget (m_locals (ps_m s)) lid = Some lo ->
  let L := local_entries cf (ps_ids s) (name_sections w) in
  (forall n, last_name L lid = Some n -> lo_name lo = Some n) /\
  (cf_synthetic_names cf = false -> lo_name lo = last_name L lid).
Proof.
  intros cf ver w s lid lo HP Hg. cbv zeta.
  destruct (parseM_names_structure _ _ _ _ HP) as (m0 & _ & U0 & Em). pose proof (parseM_config _ _ _ _ HP) as Hcf.
  assert (Ec : m_config m0 = cf).
  { rewrite <- Hcf, Em. wcbn. rewrite all_names_config. reflexivity. }
  assert (El : m_locals (ps_m s) = set_all (m_locals m0) (local_entries cf (ps_ids s) (name_sections w))).
  { rewrite Em. wcbn. rewrite all_names_locals, Ec. reflexivity. }
  rewrite El, aget_set_all in Hg. destruct (aget (m_locals m0) lid) as [lo0|] eqn:E0; [|discriminate].
  cbn [option_map] in Hg. inversion Hg; subst lo; clear Hg.
  destruct (last_name (local_entries cf (ps_ids s) (name_sections w)) lid) as [n0|]; cbn [renamed].
  - split; [intros n Hn; inversion Hn; reflexivity|reflexivity].
  - split; [discriminate|]. intros Hsyn. unfold unnamed in U0. decompose [and] U0. clear U0.
    match goal with Hx : _ = false -> Forall _ (items (m_locals m0)) |- _ => rewrite Ec in Hx; specialize (Hx Hsyn); rewrite Forall_forall in Hx; apply Hx end.
    eapply nth_error_In. apply aget_nth. exact E0.
Qed.

(* Locals, composed.  [fi] is the emitted index of the function [fid]; its entry lists, for every local
   that is emitted for it ([ef_used]: the used locals and all arguments) and is named in the input,
   the slot [ef_lmap] assigns to that local, with the name of the last input entry resolving to it.
   Names of locals that are not emitted are dropped.
   _partial: the gap is on the emit side and is visible in the statement: nothing is said here
   about [ef] beyond "the emitted function with ef_id = fid" (that [ef_used] consists of locals of
   [fid], that [ef_lmap] is injective on them and puts the arguments first is function-emission theory);
   and synthetic names must be off (otherwise unnamed locals come out as "arg<i>"/"l<i>"). *)
Theorem local_names_roundtrip_partial : forall cf ver w s ilen dw e,
  parseM cf ver w = POk s -> emitM (ps_m s) ilen dw = Ok e -> cf_skip_name cf = false -> cf_synthetic_names cf = false ->
  let m := ps_m s in let x := em_x2i e in let L := local_entries cf (ps_ids s) (name_sections w) in
  exists s_nm pre post,
    em_secs e = pre ++ s_nm ++ post /\ (s_nm = [] \/ s_nm = [S_Custom (CS_Name (Some (names_of s_nm)))]) /\
    (forall fi lnames, In (fi, lnames) (wn_locals (names_of s_nm)) <->
       exists fid f ef, In (fid, f) (aiter (m_funcs m)) /\ find (fun ef => N.eqb (ef_id ef) fid) (em_fns e) = Some ef /\
                        fn_local_names m ef <> [] /\ get_idx x S_func fid = Ok fi /\ lnames = sort_nm (fn_local_names m ef)) /\
    (forall ef slot n, In (slot, n) (sort_nm (fn_local_names m ef)) <->
       exists lid lo q, In lid (ef_used ef) /\ aget (m_locals m) lid = Some lo /\ last_name L lid = Some n /\
                        find (fun q => N.eqb (fst q) lid) (ef_lmap ef) = Some q /\ snd q = slot).
Proof.
  intros cf ver w s ilen dw e HP HE Hskip Hsyn. cbv zeta.
  pose proof (parseM_config _ _ _ _ HP) as Hcf.
  destruct (emitM_names _ _ _ _ HE) as (_ & s_nm & pre & post & Hsecs & Hn). rewrite Hcf, Hskip in Hn.
  pose proof (emit_names_fields _ _ _ _ Hn) as (_ & _ & _ & _ & _ & _ & _ & _ & Hshape).
  destruct (local_names_emit_partial _ _ _ _ Hn) as [A B].
  exists s_nm, pre, post. split; [exact Hsecs|]. split; [exact Hshape|]. split; [exact A|].
  intros ef slot n. rewrite B. split.
  - intros (lid & lo & q & H1 & H2 & H3 & H4 & H5). exists lid, lo, q.
    destruct (parseM_local_names _ _ _ _ _ _ HP H2) as [_ K]. rewrite <- (K Hsyn). auto.
  - intros (lid & lo & q & H1 & H2 & H3 & H4 & H5). exists lid, lo, q.
    destruct (parseM_local_names _ _ _ _ _ _ HP H2) as [K _]. auto.
Qed.
(* without the premise on synthetic names one direction remains: an input name that resolves to an
   emitted local comes out at that local's slot *)
Theorem local_names_roundtrip_no_loss : forall cf ver w s ilen dw e,
  parseM cf ver w = POk s -> emitM (ps_m s) ilen dw = Ok e -> cf_skip_name cf = false ->
  let m := ps_m s in let L := local_entries cf (ps_ids s) (name_sections w) in
  forall ef lid lo q n, In lid (ef_used ef) -> aget (m_locals m) lid = Some lo -> last_name L lid = Some n ->
    find (fun q => N.eqb (fst q) lid) (ef_lmap ef) = Some q -> In (snd q, n) (sort_nm (fn_local_names m ef)).
Proof.
  intros cf ver w s ilen dw e HP HE Hskip. cbv zeta. intros ef lid lo q n H1 H2 H3 H4.
  pose proof (parseM_config _ _ _ _ HP) as Hcf.
  destruct (emitM_names _ _ _ _ HE) as (_ & s_nm & pre & post & Hsecs & Hn). rewrite Hcf, Hskip in Hn.
  destruct (local_names_emit_partial _ _ _ _ Hn) as [_ B]. apply B. exists lid, lo, q.
  destruct (parseM_local_names _ _ _ _ _ _ HP H2) as [K _]. auto.
Qed.

(* a concrete module is run through parse and emit in one evaluation *)
Lemma parse_emit_witness cf ver w ilen dw (Q : pst -> emitted -> Prop) :
  match parseM cf ver w with POk s => match emitM (ps_m s) ilen dw with Ok e => Q s e | _ => False end | _ => False end ->
  exists s e, parseM cf ver w = POk s /\ emitM (ps_m s) ilen dw = Ok e /\ Q s e.
Proof.
  destruct (parseM cf ver w) as [s| |]; [|intros []|intros []]. destruct (emitM (ps_m s) ilen dw) as [e| |] eqn:Ee; [|intros []|intros []].
  intros H. exists s, e. auto.
Qed.
Local Open Scope N_scope.
Definition ex_names : wnames :=
  {| wn_module := Some [109]; wn_funcs := [(1, [102]); (0, [97]); (1, [103]); (7, [104])]; wn_locals := [];
     wn_types := [(0, [116])]; wn_tables := [(0, [116]); (0, [117])]; wn_mems := [(0, [109])];
     wn_globals := [(0, [103]); (3, [120])]; wn_elems := [(0, [101])]; wn_data := [(5, [99]); (0, [100])] |}.
Definition ex_tb : wtable := {| wt_elem := RT_Funcref; wt_64 := false; wt_init := 1; wt_max := None |}.
Definition ex_mod : wmod :=
  [ S_Types [([], [])];
    S_Imports [{| wi_module := [101]; wi_name := [102]; wi_kind := WI_Func 0 |}];
    S_Funcs [0];
    S_Tables [ex_tb];
    S_Mems [{| wm_64 := false; wm_shared := false; wm_init := 1; wm_max := None; wm_page := None |}];
    S_Globals [({| wg_ty := VT_I32; wg_mut := false; wg_shared := false |}, WC_I32 0%Z)];
    S_Elems [{| wel_kind := WEK_Passive; wel_items := WEI_Funcs [1] |}];
    S_Code [{| wb_locals := []; wb_ops := [(WEnd, 1)] |}];
    S_Data [{| wd_kind := WDK_Passive; wd_bytes := [1] |}];
    S_Custom (CS_Name (Some ex_names)) ].
(* what comes out: duplicates resolved to the last entry, out-of-range entries dropped *)
Definition ex_out : wnames :=
  {| wn_module := Some [109]; wn_funcs := [(0, [97]); (1, [103])]; wn_locals := [];
     wn_types := [(0, [116])]; wn_tables := [(0, [117])]; wn_mems := [(0, [109])];
     wn_globals := [(0, [103])]; wn_elems := [(0, [101])]; wn_data := [(0, [100])] |}.

(* the premises of names_roundtrip_one are satisfiable *)
Example names_roundtrip_example :
  exists s e, parseM default_config [48] ex_mod = POk s /\ emitM (ps_m s) (fun _ => 1) [] = Ok e /\
    cf_skip_name default_config = false /\ cf_synthetic_names default_config = false /\
    name_sections ex_mod = [ex_names] /\
    In (S_Custom (CS_Name (Some ex_out))) (em_secs e).
Proof. apply parse_emit_witness. vm_compute. intuition. Qed.

(* A local-names entry for a function index out of range (Rust: `indices.get_func(f.index)`) is skipped with a
   warning and does not abort the rest of the name section: the table name of this input survives. *)
Definition bad_local_names : wnames :=
  {| wn_module := None; wn_funcs := []; wn_locals := [(9, [])]; wn_types := []; wn_tables := [(0, [116])];
     wn_mems := []; wn_globals := []; wn_elems := []; wn_data := [] |}.
Example bad_local_names_repaired :
  exists s e, parseM default_config [48] [S_Tables [ex_tb]; S_Custom (CS_Name (Some bad_local_names))] = POk s /\
    emitM (ps_m s) (fun _ => 1) [] = Ok e /\
    In (S_Custom (CS_Name (Some {| wn_module := None; wn_funcs := []; wn_locals := []; wn_types := [];
                                   wn_tables := [(0, [116])]; wn_mems := []; wn_globals := []; wn_elems := [];
                                   wn_data := [] |}))) (em_secs e).
Proof. apply parse_emit_witness. vm_compute. intuition. Qed.

(* locals: the entry for function index 9 (out of range) is skipped, the argument's name comes out at
   slot 0, the name of the unused local 1 and the entry for local index 5 (out of range) are dropped *)
Definition ex_local_names : wnames :=
  {| wn_module := None; wn_funcs := []; wn_locals := [(9, [(0, [120])]); (0, [(0, [97]); (1, [108]); (5, [122])])];
     wn_types := []; wn_tables := []; wn_mems := []; wn_globals := []; wn_elems := []; wn_data := [] |}.
Example local_names_example :
  exists s e, parseM default_config [48]
                [S_Types [([VT_I32], [])]; S_Funcs [0]; S_Code [{| wb_locals := [(1, VT_I32)]; wb_ops := [(WEnd, 1)] |}];
                 S_Custom (CS_Name (Some ex_local_names))] = POk s /\
    emitM (ps_m s) (fun _ => 1) [] = Ok e /\
    local_entries default_config (ps_ids s) [ex_local_names] = [(0, [97]); (1, [108])] /\
    map ef_used (em_fns e) = [[0]] /\ map ef_lmap (em_fns e) = [[(0, 0)]] /\
    In (S_Custom (CS_Name (Some {| wn_module := None; wn_funcs := []; wn_locals := [(0, [(0, [97])])]; wn_types := [];
                                   wn_tables := []; wn_mems := []; wn_globals := []; wn_elems := []; wn_data := [] |}))) (em_secs e).
Proof. apply parse_emit_witness. vm_compute. intuition. Qed.

(* With synthetic names switched on the exact statement is false for functions:
   unnamed functions come out named "f<index>". *)
Theorem names_roundtrip_funcs_synthetic_refuted :
  exists cf w s e, parseM cf [48] w = POk s /\ emitM (ps_m s) (fun _ => 1) [] = Ok e /\
    cf_skip_name cf = false /\ name_sections w = [] /\
    In (S_Custom (CS_Name (Some {| wn_module := None; wn_funcs := [(0, [102; 48])]; wn_locals := []; wn_types := [];
                                   wn_tables := []; wn_mems := []; wn_globals := []; wn_elems := []; wn_data := [] |}))) (em_secs e).
Proof.
  exists {| cf_generate_dwarf := false; cf_synthetic_names := true; cf_only_stable := false;
            cf_skip_producers := false; cf_skip_name := false; cf_preserve_code_transform := false |}.
  exists [S_Types [([], [])]; S_Funcs [0]; S_Code [{| wb_locals := []; wb_ops := [(WEnd, 1)] |}]].
  apply parse_emit_witness. vm_compute. intuition.
Qed.

(* "rho = id" for tables does not follow from emit_order + parseM_ids: the model (like
   walrus) accepts an import section after the table section; the emitter then renumbers. *)
Theorem rho_tables_id_refuted :
  exists w s e, parseM default_config [48] w = POk s /\ emitM (ps_m s) (fun _ => 1) [] = Ok e /\
    (N.to_nat 0 < length (ii_tables (ps_ids s)))%nat /\ get_idx (em_x2i e) S_table 0 = Ok 1.
Proof.
  exists [S_Tables [ex_tb]; S_Imports [{| wi_module := [101]; wi_name := [102]; wi_kind := WI_Table ex_tb |}]].
  apply parse_emit_witness. vm_compute. split; [lia|reflexivity].
Qed.

Print Assumptions apply_names_nth.
Print Assumptions apply_names_spec.
Print Assumptions named_spec.
Print Assumptions emit_names_fields.
Print Assumptions emitM_names.
Print Assumptions parseM_names_structure.
Print Assumptions names_roundtrip.
Print Assumptions names_roundtrip_one.
Print Assumptions rho_elements_data_id.
Print Assumptions names_roundtrip_elements_data.
Print Assumptions rho_id_tables.
Print Assumptions rho_id_memories.
Print Assumptions rho_id_globals.
Print Assumptions rho_funcs.
Print Assumptions names_roundtrip_types.
Print Assumptions local_names_parse_partial.
Print Assumptions local_names_emit_partial.
Print Assumptions parseM_config.
Print Assumptions parseM_local_names.
Print Assumptions local_names_roundtrip_partial.
Print Assumptions local_names_roundtrip_no_loss.
Print Assumptions module_name_parse.
Print Assumptions module_name_emit.
Print Assumptions names_roundtrip_example.
Print Assumptions local_names_example.
Print Assumptions apply_local_names_some.
Print Assumptions bad_local_names_repaired.
Print Assumptions names_roundtrip_funcs_synthetic_refuted.
Print Assumptions rho_tables_id_refuted.

Local Open Scope nat_scope.
(* every import entry refers to an entity that is marked as imported, and no two to the same one *)
Definition imp_ok {A} (P : A -> Prop) (its : list N) (l : list A) : Prop :=
  NoDup its /\ Forall (fun t => exists v, nth_error l (N.to_nat t) = Some v /\ P v) its.

Lemma imp_ok_item {A} (P : A -> Prop) its l v : imp_ok P its l -> imp_ok P its (l ++ [v]).
Proof.
  intros [H1 H2]. split; [exact H1|]. eapply Forall_impl; [|exact H2]. intros t [w [Hn Hp]]. exists w. split; [|exact Hp].
  rewrite nth_error_app1; [exact Hn|]. apply nth_error_Some. congruence.
Qed.
Lemma imp_ok_new {A} (P : A -> Prop) its l v : imp_ok P its l -> P v -> imp_ok P (its ++ [N.of_nat (length l)]) (l ++ [v]).
Proof.
  intros H Hv. pose proof (imp_ok_item P its l v H) as [H1 H2]. destruct H as [N1 F1]. split.
  - apply NoDup_app_intro; [exact N1|repeat constructor; intros []|]. intros x Hx [<-|[]].
    rewrite Forall_forall in F1. destruct (F1 _ Hx) as [w [Hn _]]. rewrite Nat2N.id in Hn.
    assert (length l < length l) by (apply nth_error_Some; congruence). lia.
  - apply Forall_app. split; [exact H2|]. constructor; [|constructor]. exists v. split; [|exact Hv].
    rewrite Nat2N.id, nth_error_app2, Nat.sub_diag by lia. reflexivity.
Qed.
Lemma imp_ok_upd {A} (P : A -> Prop) its l n f : (forall x, P x -> P (f x)) -> imp_ok P its l -> imp_ok P its (Arena.upd l n f).
Proof.
  intros Hf [H1 H2]. split; [exact H1|]. eapply Forall_impl; [|exact H2]. intros t [w [Hn Hp]].
  destruct (Nat.eq_dec n (N.to_nat t)) as [->|Hne].
  - exists (f w). split; [apply upd_nth_eq; exact Hn|auto].
  - exists w. split; [rewrite upd_nth_ne by exact Hne; exact Hn|exact Hp].
Qed.
Lemma imp_ok_apply_names {A} (P : A -> Prop) its idx (setn : A -> nstr -> A) :
  (forall x s, P x -> P (setn x s)) -> forall l a, imp_ok P its (items a) -> imp_ok P its (items (apply_names a idx setn l)).
Proof.
  intros Hs. induction l as [|[i n] r IH]; intros a H; cbn [apply_names]; [exact H|]. destruct (nth_N idx i); [|auto].
  apply IH. cbn [aset_at items]. apply imp_ok_upd; [intros x; apply Hs|exact H].
Qed.

Definition itabs (l : list mimport) : list N := flat_map (fun i => match im_kind i with MI_Table t => [t] | _ => [] end) l.
Definition imems (l : list mimport) : list N := flat_map (fun i => match im_kind i with MI_Mem t => [t] | _ => [] end) l.
Definition iglobs (l : list mimport) : list N := flat_map (fun i => match im_kind i with MI_Global t => [t] | _ => [] end) l.
Definition ifuncs (l : list mimport) : list N := flat_map (fun i => match im_kind i with MI_Func t => [t] | _ => [] end) l.
Definition is_imp_gl (g : mglobal) : Prop := match gl_kind g with GK_Import _ => True | GK_Local _ => False end.
Definition is_imp_fn (f : mfunc) : Prop := match fn_kind f with FK_Import _ _ => True | _ => False end.
Definition imp_inv (m : wir) : Prop :=
  imp_ok (fun t => tb_import t <> None) (itabs (items (m_imports m))) (items (m_tables m)) /\
  imp_ok (fun t => me_import t <> None) (imems (items (m_imports m))) (items (m_memories m)) /\
  imp_ok is_imp_gl (iglobs (items (m_imports m))) (items (m_globals m)) /\
  imp_ok is_imp_fn (ifuncs (items (m_imports m))) (items (m_funcs m)).

Lemma iv_empty cf : imp_inv (empty_wir cf).
Proof. unfold imp_inv, imp_ok. cbn. repeat split; constructor. Qed.

Lemma parse_names_iv m ids n : imp_inv m -> imp_inv (parse_names m ids n).
Proof.
  intros (H1 & H2 & H3 & H4). rewrite parse_names_eq. unfold imp_inv. wcbn.
  split; [|split; [|split]]; apply imp_ok_apply_names; auto; intros x s Hx; exact Hx.
Qed.

Lemma achange_imp_ok {A} (K : A -> A -> Prop) (N P : A -> Prop) its l l' : achange K N l l' ->
  (forall x y, K x y -> P x -> P y) -> imp_ok P its l -> imp_ok P its l'.
Proof.
  intros [|n g Hg|v Hv] HK H; [exact H|apply imp_ok_upd; [intros x; apply HK, Hg|exact H]|apply imp_ok_item, H].
Qed.

(* the steps of the sections and of the preparation keep [imp_inv]: an import appends an entity marked as imported
   together with the import entry that refers to it; the other steps leave the imports and the import marks alone *)
Lemma step_iv st m ids m' ids' : early st -> imp_inv m -> do_step st m ids = POk (m', ids') -> imp_inv m'.
Proof.
  intros Hq H E. unfold imp_inv, itabs, imems, iglobs, ifuncs in *. destruct H as (Ht & Hm & Hg & Hf).
  assert (Hi : (exists i, st = St_import i) \/ m_imports m' = m_imports m).
  { rewrite (step_writes _ _ _ _ _ E). destruct st; eauto. }
  destruct Hi as [[i ->]|Hi].
  - (* the new import entry adds the new entity to one of the four lists and nothing to the others *)
    cbn [do_step] in E. unfold parse_import in E.
    destruct (wi_kind i); [pinv E| | |]; wcbn; injection E as <- _; wcbn;
      rewrite !flat_map_app; cbn [flat_map im_kind app]; rewrite ?app_nil_r.
    + split; [exact Ht|]. split; [exact Hm|]. split; [exact Hg|]. apply imp_ok_new; [exact Hf|exact I].
    + split; [|split; [exact Hm|split; [exact Hg|exact Hf]]]. apply imp_ok_new; [exact Ht|cbn; discriminate].
    + split; [exact Ht|]. split; [|split; [exact Hg|exact Hf]]. apply imp_ok_new; [exact Hm|cbn; discriminate].
    + split; [exact Ht|]. split; [exact Hm|]. split; [|exact Hf]. apply imp_ok_new; [exact Hg|exact I].
  - destruct (step_arenas _ _ _ _ _ Hq E) as [_ Af At Am Ag _ _ _ _]. rewrite Hi. split; [|split; [|split]].
    + refine (achange_imp_ok _ _ _ _ _ _ At _ Ht). intros x y [_ ->] Hx. exact Hx.
    + refine (achange_imp_ok _ _ _ _ _ _ Am _ Hm). intros x y [_ ->] Hx. exact Hx.
    + refine (achange_imp_ok _ _ _ _ _ _ Ag _ Hg). intros x y <- Hx. exact Hx.
    + refine (achange_imp_ok _ _ _ _ _ _ Af _ Hf). intros x y <- Hx. exact Hx.
Qed.

(* install_bodies overwrites the kind of the functions it installs: those were FK_Uninit, so none of
   them is one of the imported functions *)
Lemma imp_ok_upd_other {A} (P : A -> Prop) its l id f : ~ In id its -> imp_ok P its l -> imp_ok P its (Arena.upd l (N.to_nat id) f).
Proof.
  intros Hni [H1 H2]. split; [exact H1|]. rewrite Forall_forall in *. intros t Ht. destruct (H2 t Ht) as [w [Hn Hp]].
  exists w. split; [|exact Hp]. rewrite upd_nth_ne; [exact Hn|]. intros Hc. apply N2Nat.inj in Hc. subst t. contradiction.
Qed.
Lemma uninit_not_imported fa its p : imp_ok is_imp_fn its (items fa) -> uninit_in fa p -> ~ In (pr_fid p) its.
Proof.
  intros [_ F] (f & ty & Hn & Hk) Hin. rewrite Forall_forall in F. destruct (F _ Hin) as [v [Hv Hp]].
  rewrite Hn in Hv. inversion Hv; subst v. unfold is_imp_fn in Hp. rewrite Hk in Hp. exact Hp.
Qed.
Lemma install_bodies_iv : forall ps m ids m', imp_inv m ->
  Forall (fun p => ~ In (pr_fid p) (ifuncs (items (m_imports m)))) ps -> install_bodies m ids ps = POk m' -> imp_inv m'.
Proof.
  induction ps as [|p r IH]; intros m ids m' H U E; cbn [install_bodies] in E.
  - inversion E; subst; exact H.
  - pinv E as lf Elf. inversion U as [|p' r' Up Ur]; subst. eapply IH; [| |exact E]; [|exact Ur].
    destruct H as (? & ? & ? & ?). unfold imp_inv. wcbn. split; [|split; [|split]]; try assumption. apply imp_ok_upd_other; assumption.
Qed.

Theorem parseM_iv : forall cf ver w s, parseM cf ver w = POk s -> imp_inv (ps_m s).
Proof.
  intros cf ver w s E. destruct (parseM_phases _ _ _ _ E) as (m1 & m2 & prepared & m3 & R1 & R2 & U & E3 & _ & ->).
  assert (H2 : imp_inv m2).
  { exact (reach_by_inv _ (fun m _ => imp_inv m) step_iv _ _
             (reach_by_trans _ _ _ _ (reach_by_mono _ _ _ _ (fun st => @or_introl _ _) R1) (reach_by_mono _ _ _ _ (fun st => @or_intror _ _) R2))
             (iv_empty cf)). }
  assert (H3 : imp_inv m3).
  { apply (install_bodies_iv prepared m2 (ps_ids s) m3 H2); [|exact E3]. eapply Forall_impl; [|exact U]. intros p.
    apply uninit_not_imported, H2. }
  change (imp_inv (parse_all_names (ps_ids s) (name_sections w) m3)).
  clear - H3. unfold parse_all_names. revert m3 H3. induction (name_sections w) as [|n r IH]; intros m H; [exact H|]. apply IH, parse_names_iv, H.
Qed.

Lemma iter_from_snd_nodead {A} (l : list A) : forall n, map snd (iter_from n l []) = l.
Proof. induction l as [|a l IH]; intros n; cbn [iter_from existsb map snd]; [reflexivity|]. rewrite IH. reflexivity. Qed.
Lemma aiter_snd_nodead {A} (a : tarena A) : dead a = [] -> map snd (aiter a) = items a.
Proof. intros D. unfold aiter. rewrite map_map. cbn [snd]. unfold iter. rewrite D. apply iter_from_snd_nodead. Qed.

(* the imported entities and the local ones are distinct: an import entry refers to an item marked as imported, a local one is not *)
Lemma imp_ok_disjoint {A} (P : A -> Prop) its (a : tarena A) (loc : list N) :
  imp_ok P its (items a) -> dead a = [] -> NoDup loc ->
  (forall x, In x loc -> exists v, In (x, v) (aiter a) /\ ~ P v) -> NoDup (its ++ loc).
Proof.
  intros [ND F] D NL H. apply NoDup_app_intro; [exact ND|exact NL|]. intros x Hx Hl.
  rewrite Forall_forall in F. destruct (F _ Hx) as [v [Hn Hp]]. destruct (H _ Hl) as (v' & Hin & Hnp).
  apply (aiter_nodead _ _ _ D) in Hin. rewrite Hn in Hin. injection Hin as <-. exact (Hnp Hp).
Qed.
Lemma in_map_filter {A} (f : N * A -> bool) l x : In x (map fst (filter f l)) -> exists v, In (x, v) l /\ f (x, v) = true.
Proof. intros H. apply in_map_iff in H. destruct H as [[x' v] [<- H]]. apply filter_In in H. exists v. exact H. Qed.

(* for a module that comes straight out of the parser the maps of tables, memories and globals
   are well formed (so the name maps of those kinds are strictly sorted, see kind_rt) *)
Theorem parsed_wf_maps : forall cf ver w s ilen dw e,
  parseM cf ver w = POk s -> emitM (ps_m s) ilen dw = Ok e ->
  wf_map (space_map (em_x2i e) S_table) /\ wf_map (space_map (em_x2i e) S_memory) /\ wf_map (space_map (em_x2i e) S_global).
Proof.
  intros cf ver w s ilen dw e HP HE. pose proof (parseM_ids _ _ _ _ HP) as I. pose proof (parseM_iv _ _ _ _ HP) as (Jt & Jm & Jg & _).
  unfold ids_consistent in I. decompose [and] I. clear I.
  assert (Li : live_imports (ps_m s) = items (m_imports (ps_m s))) by (apply aiter_snd_nodead; assumption).
  split; [|split].
  - apply (emit_order_tables _ _ _ _ HE). unfold imported_tables. rewrite Li.
    apply (imp_ok_disjoint _ _ _ _ Jt); [assumption|apply local_tables_NoDup|].
    intros x Hl. destruct (in_map_filter _ _ _ Hl) as (v & Hin & Hk). exists v. split; [exact Hin|].
    cbn [snd] in Hk. destruct (tb_import v); [discriminate|congruence].
  - apply (emit_order_memories _ _ _ _ HE). unfold imported_memories. rewrite Li.
    apply (imp_ok_disjoint _ _ _ _ Jm); [assumption|apply local_memories_NoDup|].
    intros x Hl. destruct (in_map_filter _ _ _ Hl) as (v & Hin & Hk). exists v. split; [exact Hin|].
    cbn [snd] in Hk. destruct (me_import v); [discriminate|congruence].
  - apply (emit_order_globals _ _ _ _ HE). unfold imported_globals. rewrite Li.
    apply (imp_ok_disjoint _ _ _ _ Jg); [assumption|apply local_globals_NoDup|].
    intros x Hl. rewrite local_globals_ids in Hl. destruct (in_map_filter _ _ _ Hl) as (v & Hin & Hk). exists v. split; [exact Hin|].
    cbn [snd] in Hk. unfold is_imp_gl. destruct (gl_kind v); [discriminate|exact (fun F => F)].
Qed.

(* functions: the imported function ids and the ids of the local functions are distinct, so the
   premise of [rho_funcs] holds for every parsed module *)
Theorem parsed_funcs_NoDup : forall cf ver w s fs,
  parseM cf ver w = POk s -> used_local_functions (ps_m s) = Ok fs -> NoDup (imported_funcs (ps_m s) ++ map fst fs).
Proof.
  intros cf ver w s fs HP Hfs. pose proof (parseM_ids _ _ _ _ HP) as I. pose proof (parseM_iv _ _ _ _ HP) as (_ & _ & _ & Jf).
  unfold ids_consistent in I. decompose [and] I. clear I.
  assert (Li : live_imports (ps_m s) = items (m_imports (ps_m s))) by (apply aiter_snd_nodead; assumption).
  destruct (used_local_functions_ids _ _ Hfs) as [NDl Hl].
  unfold imported_funcs. rewrite Li. apply (imp_ok_disjoint _ _ _ _ Jf); [assumption|exact NDl|].
  intros x Hin. apply Hl in Hin. destruct Hin as (f & lf & Hin & Hk). exists f. split; [exact Hin|].
  unfold is_imp_fn. rewrite Hk. exact (fun F => F).
Qed.

Theorem rho_funcs_parsed : forall cf ver w s ilen dw e,
  parseM cf ver w = POk s -> emitM (ps_m s) ilen dw = Ok e ->
  exists fs, used_local_functions (ps_m s) = Ok fs /\ NoDup (imported_funcs (ps_m s) ++ map fst fs) /\
    space_map (em_x2i e) S_func = number (imported_funcs (ps_m s) ++ map fst fs) /\
    wf_map (space_map (em_x2i e) S_func) /\
    forall id j, get_idx (em_x2i e) S_func id = Ok j <-> nth_error (imported_funcs (ps_m s) ++ map fst fs) (N.to_nat j) = Some id.
Proof.
  intros cf ver w s ilen dw e HP HE. destruct (rho_funcs _ _ _ _ HE) as (fs & Hfs & _ & X & H).
  pose proof (parsed_funcs_NoDup _ _ _ _ _ HP Hfs) as ND. destruct (H ND) as [W P].
  exists fs. auto.
Qed.
Corollary parsed_wf_funcs : forall cf ver w s ilen dw e,
  parseM cf ver w = POk s -> emitM (ps_m s) ilen dw = Ok e -> wf_map (space_map (em_x2i e) S_func).
Proof. intros cf ver w s ilen dw e HP HE. destruct (rho_funcs_parsed _ _ _ _ _ _ _ HP HE) as (fs & _ & _ & _ & W & _). exact W. Qed.

Print Assumptions parseM_iv.
Print Assumptions parsed_wf_maps.
Print Assumptions parsed_funcs_NoDup.
Print Assumptions rho_funcs_parsed.

(* the round trip in equational form for tables, memories, globals (parsed module, no premise on the maps) *)
Definition rt_eq (x : x2i) (S : space) (n : nat) (l out : namemap) : Prop :=
  StronglySorted N.lt (map fst out) /\
  out = sort_nm (map (fun p => (rho x S (fst p), snd p)) (filter (fun p => N.to_nat (fst p) <? n) (dedupe_last l))).
Theorem names_roundtrip_tmg_eq : forall cf ver w s ilen dw e,
  parseM cf ver w = POk s -> emitM (ps_m s) ilen dw = Ok e -> cf_skip_name cf = false ->
  let ids := ps_ids s in let x := em_x2i e in let ns := name_sections w in
  exists s_nm pre post,
    em_secs e = pre ++ s_nm ++ post /\ (s_nm = [] \/ s_nm = [S_Custom (CS_Name (Some (names_of s_nm)))]) /\
    let out := names_of s_nm in
    rt_eq x S_table (length (ii_tables ids)) (flat_map wn_tables ns) (wn_tables out) /\
    rt_eq x S_memory (length (ii_memories ids)) (flat_map wn_mems ns) (wn_mems out) /\
    rt_eq x S_global (length (ii_globals ids)) (flat_map wn_globals ns) (wn_globals out).
Proof.
  intros cf ver w s ilen dw e HP HE Hskip. cbv zeta.
  destruct (names_roundtrip _ _ _ _ _ _ _ HP HE Hskip) as (s_nm & pre & post & H1 & H2 & H3).
  cbv zeta in H3. destruct H3 as (_ & _ & Kt & Km & Kg & _ & _).
  destruct (parsed_wf_maps _ _ _ _ _ _ _ HP HE) as (Wt & Wm & Wg).
  exists s_nm, pre, post. split; [exact H1|]. split; [exact H2|].
  destruct Kt as (_ & _ & _ & Kt). destruct Km as (_ & _ & _ & Km). destruct Kg as (_ & _ & _ & Kg).
  split; [exact (Kt Wt)|]. split; [exact (Km Wm)|exact (Kg Wg)].
Qed.

(* the same for functions (synthetic names off): the map of functions of a parsed module is well formed *)
Theorem names_roundtrip_funcs_eq : forall cf ver w s ilen dw e,
  parseM cf ver w = POk s -> emitM (ps_m s) ilen dw = Ok e -> cf_skip_name cf = false -> cf_synthetic_names cf = false ->
  exists s_nm pre post,
    em_secs e = pre ++ s_nm ++ post /\ (s_nm = [] \/ s_nm = [S_Custom (CS_Name (Some (names_of s_nm)))]) /\
    rt_eq (em_x2i e) S_func (length (ii_funcs (ps_ids s))) (flat_map wn_funcs (name_sections w)) (wn_funcs (names_of s_nm)).
Proof.
  intros cf ver w s ilen dw e HP HE Hskip Hsyn.
  destruct (names_roundtrip _ _ _ _ _ _ _ HP HE Hskip) as (s_nm & pre & post & H1 & H2 & H3).
  cbv zeta in H3. destruct H3 as (_ & Kf & _). specialize (Kf Hsyn).
  exists s_nm, pre, post. split; [exact H1|]. split; [exact H2|].
  destruct Kf as (_ & _ & _ & Kf). exact (Kf (parsed_wf_funcs _ _ _ _ _ _ _ HP HE)).
Qed.
Print Assumptions names_roundtrip_tmg_eq.
Print Assumptions names_roundtrip_funcs_eq.

