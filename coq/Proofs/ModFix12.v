(* C08, module level fixpoint, part 12: MODULE-level inversion lemmas for the CODE section: which calls of
   parse_body / emit_body / emit_locals (through parse_one_body / emit_function) the module models make. *)
From Coq Require Import List NArith ZArith Bool Arith Lia.
Import ListNotations.
From WV Require Import Gen.Ops Model.Common Model.IR Model.Arena Model.Traversal Model.EmitFn Model.Locals
                       Model.ParseFn Model.ParseSpec Model.ModuleM Model.ParseM Model.EmitM Gen.Attrs.
From WV Require Import Proofs.Arena Proofs.IndexMaps Proofs.CustomsCfg Proofs.Structure Proofs.Structure2
                       Proofs.Totality Proofs.TotalityBodies Proofs.ModFix.
From WV Require Proofs.ParsedWf Proofs.Names Proofs.Locals2.
From WV Require Import Proofs.Renumbering Proofs.ParseTotal.
Local Open Scope nat_scope.

(* the emit side: the code payload of an emitted stream *)
Lemma m12_code_tag : forall s, has_tag 10 s = false -> code_of s = [].
Proof. intros [] H; try reflexivity. discriminate. Qed.

(* emit_function looks at the index maps only through [space_map] *)
Lemma emit_function_ext m x x' ilen id lf : (forall S, space_map x S = space_map x' S) ->
  emit_function m x ilen id lf = emit_function m x' ilen id lf.
Proof.
  intros H. destruct x as [a1 a2 a3 a4 a5 a6 a7 a8], x' as [b1 b2 b3 b4 b5 b6 b7 b8].
  pose proof (H S_func) as H1. pose proof (H S_type) as H2. pose proof (H S_table) as H3. pose proof (H S_memory) as H4.
  pose proof (H S_global) as H5. pose proof (H S_data) as H6. pose proof (H S_elem) as H7.
  cbn [space_map xi_tables xi_types xi_funcs xi_globals xi_memories xi_elements xi_data] in *. subst. reflexivity.
Qed.

Lemma id2i_fun_ext x x' lmap : (forall S, space_map x S = space_map x' S) -> id2i_fun x lmap = id2i_fun x' lmap.
Proof.
  intros H. destruct x as [a1 a2 a3 a4 a5 a6 a7 a8], x' as [b1 b2 b3 b4 b5 b6 b7 b8].
  pose proof (H S_func) as H1. pose proof (H S_type) as H2. pose proof (H S_table) as H3. pose proof (H S_memory) as H4.
  pose proof (H S_global) as H5. pose proof (H S_data) as H6. pose proof (H S_elem) as H7.
  cbn [space_map xi_tables xi_types xi_funcs xi_globals xi_memories xi_elements xi_data] in *. subst. reflexivity.
Qed.

(* what one emit_function call consists of: the calls of emit_locals and emit_body *)
Lemma emit_function_inv m x ilen id lf ef : emit_function m x ilen id lf = Ok ef ->
  exists evs decls lmap st,
    lf_log lf = Ok evs /\
    emit_locals (local_ty_fn m) (lf_args lf) (used_of_log evs) = (decls, lmap) /\
    refs_ok x lmap evs = true /\
    emit_body {| ex_id2i := id2i_fun x lmap; ex_ilen := ilen |} (lf_fuel lf) (lf_arena lf) (lf_entry lf) 0%N = Ok st /\
    ef_body ef = {| wb_locals := decls; wb_ops := combine (out st) (map snd (imap st)) |} /\
    ef_id ef = id /\ ef_lmap ef = lmap /\ ef_imap ef = imap st /\
    ef_used ef = sort_ids (used_of_log evs ++ lf_args lf).
Proof.
  unfold emit_function. intros H. rinv H as evs Eevs.
  destruct (emit_locals _ _ _) as [decls lmap] eqn:El.
  destruct (refs_ok x lmap evs) eqn:Er; cbn [negb] in H; [|discriminate].
  rinv H as st Est. injection H as <-. exists evs, decls, lmap, st. cbn. repeat split; auto.
Qed.

Theorem emit_code_payload m ilen e fs : emitM m ilen [] = Ok e -> used_local_functions m = Ok fs ->
  flat_map code_of (em_secs e) = map ef_body (em_fns e) /\
  Forall2 (fun p ef => emit_function m (em_x2i e) ilen (fst p) (snd p) = Ok ef) fs (em_fns e) /\
  map ef_id (em_fns e) = map fst fs /\
  length (flat_map code_of (em_secs e)) = length fs.
Proof.
  intros He Hfs. emitM_kinds He. rewrite (flat_map_tag code_of 10 m12_code_tag), Ekind. cbn [nth].
  rewrite <- Efns in Eco. clear - Eco Hfs. unfold emit_code in Eco. rewrite Hfs in Eco. cbn [rbind] in Eco.
  destruct fs as [|p r].
  - injection Eco as J1 J2 J3. subst s_co. rewrite <- J3. cbn. repeat split; constructor.
  - rinv Eco as efs Eefs. injection Eco as J1 J2 J3. subst s_co. rewrite <- J3. cbn [flat_map code_of app]. rewrite app_nil_r.
    apply rmapM_ok_inv in Eefs.
    assert (F : Forall2 (fun p ef => emit_function m (em_x2i e) ilen (fst p) (snd p) = Ok ef) (p :: r) efs).
    { eapply Forall2_impl; [|exact Eefs]. cbn beta. intros a b Hab. rewrite <- Hab. rewrite <- J2.
      apply emit_function_ext. intros S; destruct S; reflexivity. }
    split; [reflexivity|]. split; [exact F|]. split.
    + clear - Eefs. induction Eefs as [|a b l l' Hab _ IH]; [reflexivity|]. cbn [map]. rewrite IH. f_equal.
      unfold emit_function in Hab. rinv Hab as evs Eevs. destruct (emit_locals _ _ _) as [decls lmap].
      destruct (negb _); [discriminate|]. rinv Hab as st Est. inversion Hab; reflexivity.
    + rewrite map_length. symmetry. eapply Forall2_length; exact F.
Qed.

(* the parse side: which parse_body call produced a local function *)
Lemma parse_secs_bodies_eq : forall w s s', parse_secs s w = POk s' -> ps_bodies s' = ps_bodies s ++ flat_map code_of w.
Proof.
  induction w as [|sec r IH]; intros s s' E; cbn [parse_secs] in E.
  - injection E as <-. cbn. rewrite app_nil_r. reflexivity.
  - pinv E as s1 E1. apply IH in E. rewrite E, (parse_sec_bodies _ _ _ E1), <- app_assoc. cbn [flat_map].
    destruct sec; reflexivity.
Qed.

(* before the bodies are installed no function is local *)
Definition nolocal (m : wir) : Prop := Forall (fun f => forall lf, fn_kind f <> FK_Local lf) (items (m_funcs m)).
Lemma nl_secs w s s' : parse_secs s w = POk s' -> nolocal (ps_m s) -> nolocal (ps_m s').
Proof.
  intros E NL. refine (parse_secs_sec_inv (fun m _ => nolocal m) _ w s s' NL E). clear. intros st m ids m' ids' Hst NL E.
  unfold nolocal in *. rewrite (step_writes _ _ _ _ _ E). destruct st; try exact NL; try destruct Hst; cbn [do_step writes] in *; wcbn.
  - unfold parse_import in E. destruct (wi_kind i) as [tyi|wt|wm|wg]; [pinv E as ty Ety|..]; wcbn; injection E as <- _; wcbn; try exact NL.
    apply Forall_app. split; [exact NL|]. repeat constructor. discriminate.
  - pinv E as ty Ety. wcbn. injection E as <- _. wcbn.
    assert (F : Forall (fun f => forall lf, fn_kind f <> FK_Local lf) (items (m_funcs m) ++ [{| fn_kind := FK_Uninit ty; fn_name := None |}])).
    { apply Forall_app. split; [exact NL|]. repeat constructor. discriminate. }
    destruct (synth _ _ _); wcbn; [|exact F]. apply WV.Proofs.Names.Forall_upd; [|exact F]. intros x Hx lf. apply Hx.
Qed.

(* the (params, results, entry) key of the types survives the name section *)
Definition tkey (t : mtype) : list valty * list valty * bool := (ty_params t, ty_results t, ty_entry t).
Lemma types_list_key m : types_list m = map tkey (items (Arena.arena (m_types m))).
Proof. reflexivity. Qed.
Lemma parse_names_tkeys m ids n :
  map tkey (items (Arena.arena (m_types (parse_names m ids n)))) = map tkey (items (Arena.arena (m_types m))) /\
  dead (Arena.arena (m_types (parse_names m ids n))) = dead (Arena.arena (m_types m)).
Proof.
  unfold parse_names.
  set (m1 := match wn_module n with Some s => set_name m (Some s) | None => m end).
  assert (H1 : m_types m1 = m_types m) by (subst m1; destruct (wn_module n); reflexivity).
  clearbody m1. cbv zeta.
  match goal with |- context [apply_local_names ?mm _ _] => set (m2 := mm) end.
  assert (H2 : m_types m2 = m_types m) by (subst m2; wcbn; exact H1).
  clearbody m2. clear H1.
  destruct (apply_local_names m2 ids (wn_locals n)) as [m3|] eqn:E3; [|rewrite H2; split; reflexivity].
  apply apply_local_names_types in E3. wcbn. rewrite E3, H2. split.
  - apply apply_names_map. intros x nm. reflexivity.
  - apply (apply_names_types_eqv (ii_types ids) (wn_types n) (Arena.arena (m_types m))).
Qed.
Lemma fold_names_tkeys ids : forall l m,
  map tkey (items (Arena.arena (m_types (fold_left (fun m n => parse_names m ids n) l m)))) = map tkey (items (Arena.arena (m_types m))) /\
  dead (Arena.arena (m_types (fold_left (fun m n => parse_names m ids n) l m))) = dead (Arena.arena (m_types m)).
Proof.
  induction l as [|n r IH]; intros m; cbn [fold_left]; [split; reflexivity|].
  destruct (IH (parse_names m ids n)) as [H1 H2]. destruct (parse_names_tkeys m ids n) as [G1 G2]. split; congruence.
Qed.
Lemma find_entry_from_key rs d : forall l l' n, map tkey l = map tkey l' -> find_entry_from n l d rs = find_entry_from n l' d rs.
Proof.
  induction l as [|t l IH]; intros [|t' l'] n H; try discriminate; [reflexivity|]. cbn [map] in H. injection H as Hp Hr He Hl.
  cbn [find_entry_from]. rewrite Hp, Hr, He, (IH l' _ Hl). reflexivity.
Qed.
Lemma find_entry_key m m' rs :
  map tkey (items (Arena.arena (m_types m'))) = map tkey (items (Arena.arena (m_types m))) ->
  dead (Arena.arena (m_types m')) = dead (Arena.arena (m_types m)) -> find_entry m' rs = find_entry m rs.
Proof. intros H1 H2. unfold find_entry. rewrite H2. apply find_entry_from_key. exact H1. Qed.

Lemma prepare_bodies_len : forall bs m ids ni i m' ids' ps,
  prepare_bodies m ids ni i bs = POk (m', ids', ps) -> length ps = length bs.
Proof.
  induction bs as [|b r IH]; intros m ids ni i m' ids' ps E; cbn [prepare_bodies] in E; [inversion E; reflexivity|].
  pinv E as fid Efid. pinv E as f Ef. destruct (fn_kind f) eqn:Ek; try discriminate.
  pinv E as t Et.
  destruct (add_locals m ids fid (ty_params t) _) as [[m1 ids1] args] eqn:E1.
  destruct (types_insert m1 _) as [m2 tid] eqn:E2.
  destruct (add_locals m2 ids1 fid _ _) as [[m3 ids3] ls] eqn:E3.
  pinv E as x Ex. destruct x as [[m4 ids4] rest]. inversion E; subst; clear E.
  cbn [length]. f_equal. eapply IH; eauto.
Qed.

(* the ids of the parse-time local vector have the declared types *)
Lemma lo_secs : forall w s s', parse_secs s w = POk s' -> m_locals (ps_m s') = m_locals (ps_m s).
Proof.
  intros w s s' E. refine (parse_secs_sec_inv (fun m _ => m_locals m = m_locals (ps_m s)) _ w s s' eq_refl E).
  intros st m ids m' ids' Hst H Est. rewrite (step_writes _ _ _ _ _ Est). destruct st; try exact H; destruct Hst.
Qed.

(* a local function after install_bodies is the parse of the k-th code entry, prepared by prepare_bodies *)
Lemma local_function_prepared cf ver w s fid f lf :
  parseM cf ver w = POk s -> aget (m_funcs (ps_m s)) fid = Some f -> fn_kind f = FK_Local lf ->
  exists s1 m2 pf k p m0 t base,
    parse_secs (pst0 cf) w = POk s1 /\ ps_bodies s1 = flat_map code_of w /\
    ps_m s = set_producers (fold_left (fun m n => parse_names m (ps_ids s) n) (ps_names s1) m2) pf /\
    nth_error (flat_map code_of w) k = Some (pr_body p) /\ pr_fid p = fid /\
    m_types m0 = m_types m2 /\ parse_one_body m0 (ps_ids s) p = POk lf /\
    nth_N (ii_funcs (ps_ids s)) (len_N (iter (m_funcs (ps_m s1))) - len_N (ps_bodies s1) + N.of_nat k)%N = Some fid /\
    N.to_nat fid = length (ii_funcs (ps_ids s)) - length (flat_map code_of w) + k /\
    types_get m2 (pr_ty p) = Some t /\
    pr_args p = map N.of_nat (seq base (length (ty_params t))) /\
    WV.Proofs.Names.locals_vec (ps_ids s) fid =
      map N.of_nat (seq base (length (ty_params t) + length (expand_locals (wb_locals (pr_body p))))) /\
    dead (m_locals m2) = [] /\
    firstn (length (ty_params t) + length (expand_locals (wb_locals (pr_body p)))) (skipn base (map lo_ty (items (m_locals m2))))
      = ty_params t ++ expand_locals (wb_locals (pr_body p)).
Proof.
  intros E Hg Hk.
  apply parseM_shape in E. destruct E as (s1 & m1 & ids1 & prepared & m2 & E1 & E2 & E3 & ->).
  fold (pst0 cf) in E1. cbv zeta in *. cbn [ps_m ps_ids] in *.
  change (m_funcs (set_producers ?a ?b)) with (m_funcs a) in Hg.
  apply fold_names_kinds in Hg. destruct Hg as (fn2 & Hg2 & Hk2). rewrite Hk in Hk2.
  assert (IDC : ids_consistent (ps_m s1) (ps_ids s1)) by (eapply parse_secs_ids; [|exact E1]; apply idc_empty).
  pose proof (WV.Proofs.Locals2.parse_secs_il _ _ _ E1) as IL. cbn in IL.
  pose proof (parse_secs_bodies_eq _ _ _ E1) as EB. cbn [ps_bodies pst0 app] in EB.
  pose proof (lo_secs _ _ _ E1) as LO. cbn [pst0 ps_m] in LO.
  assert (NL : nolocal (ps_m s1)) by (eapply nl_secs; [exact E1|]; unfold nolocal; cbn; constructor).
  destruct (WV.Proofs.Locals2.prepare_bodies_locals _ _ _ _ _ _ _ _ E2) as (P1 & _ & P3 & _ & P5).
  { destruct IDC as (-> & _). apply WV.Proofs.Locals2.iota_NoDup. }
  { intros k fid0 _ _. rewrite IL. reflexivity. }
  destruct (WV.Proofs.Names.prepare_bodies_uninit _ _ _ _ _ _ _ _ E2) as (FU & _).
  unfold ids_consistent in IDC. destruct IDC as (IF & _ & _ & _ & _ & _ & D & _).
  destruct (install_kinds _ _ _ _ E3 fid fn2 Hg2) as [(lf' & p & m0 & Hk' & Hin & Hf & Ht & Hp)|(Hn & fn1 & Hg1 & Hk1)].
  2:{ exfalso. rewrite FU in Hg1. rewrite aget_nodead in Hg1 by exact D. apply nth_error_In in Hg1.
      unfold nolocal in NL. rewrite Forall_forall in NL. apply (NL _ Hg1 lf). congruence. }
  rewrite Hk' in Hk2. injection Hk2 as <-.
  destruct (In_nth_error _ _ Hin) as [k Hkp].
  pose proof (prepare_bodies_len _ _ _ _ _ _ _ _ E2) as Hlen.
  assert (Hkb : k < length (ps_bodies s1)) by (rewrite <- Hlen; apply nth_error_Some; congruence).
  destruct (nth_error (ps_bodies s1) k) as [b|] eqn:Hb; [|apply nth_error_None in Hb; lia].
  destruct (P5 _ _ Hb) as (p' & t & base & Q1 & Q2 & Q3 & Q4 & Q5 & Q6 & _ & _ & _ & Q10 & _).
  rewrite Hkp in Q1. injection Q1 as <-. subst b.
  unfold WV.Proofs.Locals2.fid_at in Q3. rewrite N.add_0_r in Q3.
  pose proof (install_bodies_types _ _ _ _ E3) as T2. pose proof (WV.Proofs.Locals2.install_bodies_locals _ _ _ _ E3) as L2.
  eexists s1, m2, _, k, p, m0, t, base. unfold types_get. rewrite T2, L2, <- EB, <- Hf.
  split; [exact E1|]. split; [reflexivity|]. split; [reflexivity|]. split; [exact Hb|]. split; [reflexivity|].
  split; [exact Ht|]. split; [exact Hp|].
  split; [rewrite P1; exact Q3|].
  split.
  { rewrite IF in Q3. apply nth_N_iota in Q3. rewrite Q3, P1, IF, iota_length.
    unfold len_N. rewrite (iter_length_nodead _ D). lia. }
  split; [exact Q4|]. split; [exact Q6|]. split; [|split; [rewrite P3, LO; reflexivity|exact Q10]].
  unfold WV.Proofs.Names.locals_vec. rewrite WV.Proofs.Locals2.locals_of_lfind.
  unfold WV.Proofs.Locals2.lvec in Q5. destruct (WV.Proofs.Locals2.lfind (ii_locals ids1) (pr_fid p)); exact Q5.
Qed.

(* every local function of a parsed module is the parse of exactly one code entry, found by position *)
Theorem local_function_body cf ver w s fid f lf :
  parseM cf ver w = POk s -> aget (m_funcs (ps_m s)) fid = Some f -> fn_kind f = FK_Local lf ->
  exists s1 k b t ety,
    parse_secs (pst0 cf) w = POk s1 /\ ps_bodies s1 = flat_map code_of w /\
    nth_error (flat_map code_of w) k = Some b /\
    nth_N (ii_funcs (ps_ids s)) (len_N (iter (m_funcs (ps_m s1))) - len_N (ps_bodies s1) + N.of_nat k)%N = Some fid /\
    N.to_nat fid = length (ii_funcs (ps_ids s)) - length (flat_map code_of w) + k /\
    types_get (ps_m s) (lf_ty lf) = Some t /\
    find_entry (ps_m s) (ty_results t) = Some ety /\
    lf_entry lf = 0%N /\
    parse_body {| px_i2id := i2id_fun (ps_ids s) fid; px_types := types_list (ps_m s) |} ety (ty_results t) (wb_ops b)
      = Ok (lf_arena lf) /\
    exists base, lf_args lf = map N.of_nat (seq base (length (ty_params t))) /\
                 WV.Proofs.Names.locals_vec (ps_ids s) fid =
                   map N.of_nat (seq base (length (ty_params t) + length (expand_locals (wb_locals b)))).
Proof.
  intros E Hg Hk.
  destruct (local_function_prepared _ _ _ _ _ _ _ E Hg Hk)
    as (s1 & m2 & pf & k & p & m0 & t0 & base & E1 & EB & Em & Hb & <- & Ht & Hp & Q3 & Qn & Q4 & Q6 & LV & _).
  rewrite Em.
  unfold parse_one_body in Hp. pinv Hp as t Et. pinv Hp as ety Eety. apply of_opt_panic_ok in Et, Eety.
  destruct (parse_body _ _ _ _) as [ar| |] eqn:Epb; try discriminate. injection Hp as <-.
  cbn [lf_ty lf_args lf_arena lf_entry].
  assert (Et0 : t0 = t) by (unfold types_get in *; rewrite Ht in Et; congruence). subst t0.
  destruct (WV.Proofs.Locals2.fold_parse_names_types_get (ps_ids s) (ps_names s1) m2 _ _ Q4) as (t' & G' & Et').
  apply mtype_eqb_spec in Et'. destruct Et' as (Ep & Er & _).
  destruct (fold_names_tkeys (ps_ids s) (ps_names s1) m2) as [K1 K2]. rewrite <- Ht in K1, K2.
  exists s1, k, (pr_body p), t', ety. rewrite <- Ep, <- Er.
  split; [exact E1|]. split; [exact EB|]. split; [exact Hb|]. split; [exact Q3|]. split; [exact Qn|].
  split; [exact G'|].
  split; [rewrite <- Eety; apply find_entry_key; assumption|].
  split; [reflexivity|].
  split.
  { rewrite types_list_key. change (m_types (set_producers ?a ?b)) with (m_types a). rewrite K1, <- types_list_key. exact Epb. }
  exists base. split; [exact Q6|exact LV].
Qed.

(* two trips: the function j of the second module is the parse of the body emitted for the function id of the first module, where j is the emitted index of id *)
Lemma combine_seq_in {A} : forall (L : list A) s a i, In (a, i) (combine L (map N.of_nat (seq s (length L)))) ->
  s <= N.to_nat i /\ nth_error L (N.to_nat i - s) = Some a.
Proof.
  induction L as [|x L IH]; intros s a i H; [destruct H|]. cbn [length seq map combine In] in H. destruct H as [H|H].
  - injection H as -> <-. rewrite Nat2N.id, Nat.sub_diag. split; [lia|reflexivity].
  - apply IH in H. destruct H as [H1 H2]. split; [lia|].
    replace (N.to_nat i - s) with (S (N.to_nat i - S s)) by lia. exact H2.
Qed.
Lemma lookup_number L id j : lookup_i (number L) id = Ok j -> nth_error L (N.to_nat j) = Some id.
Proof.
  unfold lookup_i. destruct (find _ _) as [p|] eqn:E; [|discriminate]. intros [= <-].
  apply find_some in E. destruct E as [Hin He]. apply N.eqb_eq in He. destruct p as [a i]. cbn [fst snd] in *. subst a.
  unfold number, iota in Hin. apply combine_seq_in in Hin. destruct Hin as [_ H]. rewrite Nat.sub_0_r in H. exact H.
Qed.

(* the function index space of the second module: imported functions, then the local ones in emission order *)
Lemma second_funcs_count cf ver ilen m1 e1 s2 fs1 :
  emitM m1 ilen [] = Ok e1 -> parseM cf ver (em_secs e1) = POk s2 -> used_local_functions m1 = Ok fs1 ->
  length (ii_funcs (ps_ids s2)) = length (imp_ids S_func (live_imports m1)) + length fs1.
Proof.
  intros E1 P2 Hfs.
  destruct (parseM_sigs _ _ _ _ P2) as [_ HF]. unfold FInv in HF. apply Forall2_length in HF.
  pose proof (parseM_ids _ _ _ _ P2) as IDC. unfold ids_consistent in IDC. destruct IDC as (IF & _).
  rewrite IF, iota_length. unfold K_fty in HF. rewrite map_length in HF. rewrite <- HF.
  destruct (out_decls _ _ _ _ E1) as (s_ty & x1 & s_im & x2 & s_fn & x3 & Ety & Eim & Efn & Hout & _).
  { intros s []. }
  unfold out_ftys in Hout. rewrite Hout, app_length.
  destruct (emit_imports_ftys _ _ _ _ Eim) as (ws & Hws & Fws). apply imports_align in Fws. apply Forall2_length in Fws.
  destruct (emit_func_section_ftys _ _ _ _ Efn) as (fs & tis & Hfs' & Htis & Ftis). apply Forall2_length in Ftis.
  rewrite Hfs in Hfs'. injection Hfs' as <-. rewrite Hws, Htis, <- Fws, <- Ftis. reflexivity.
Qed.

Theorem second_trip_functions cf ver w ilen s1 e1 s2 e2 fs1 :
  two_trips cf ver w ilen s1 e1 s2 e2 -> used_local_functions (ps_m s1) = Ok fs1 ->
  forall id j f1 lf1 f2 lf2,
    get_idx (em_x2i e1) S_func id = Ok j ->
    aget (m_funcs (ps_m s1)) id = Some f1 -> fn_kind f1 = FK_Local lf1 ->
    aget (m_funcs (ps_m s2)) j = Some f2 -> fn_kind f2 = FK_Local lf2 ->
  exists k ef1 t2 ety2,
    nth_error fs1 k = Some (id, lf1) /\ nth_error (em_fns e1) k = Some ef1 /\
    nth_error (flat_map code_of (em_secs e1)) k = Some (ef_body ef1) /\
    N.to_nat j = length (imp_ids S_func (live_imports (ps_m s1))) + k /\
    emit_function (ps_m s1) (em_x2i e1) ilen id lf1 = Ok ef1 /\
    types_get (ps_m s2) (lf_ty lf2) = Some t2 /\ find_entry (ps_m s2) (ty_results t2) = Some ety2 /\
    lf_entry lf2 = 0%N /\
    parse_body {| px_i2id := i2id_fun (ps_ids s2) j; px_types := types_list (ps_m s2) |} ety2 (ty_results t2)
               (wb_ops (ef_body ef1)) = Ok (lf_arena lf2) /\
    exists base, lf_args lf2 = map N.of_nat (seq base (length (ty_params t2))) /\
                 WV.Proofs.Names.locals_vec (ps_ids s2) j =
                   map N.of_nat (seq base (length (ty_params t2) + length (expand_locals (wb_locals (ef_body ef1))))).
Proof.
  intros (P1 & E1 & P2 & E2) Hfs id j f1 lf1 f2 lf2 Hj Hg1 Hk1 Hg2 Hk2.
  destruct (local_function_body _ _ _ _ _ _ _ P2 Hg2 Hk2)
    as (s1' & k & b & t & ety & _ & _ & Hb & _ & Hjk & Ht & Hety & Hentry & Hpb & Hloc).
  destruct (emit_code_payload _ _ _ _ E1 Hfs) as (Hco & F & Hids & Hlen).
  pose proof (second_funcs_count _ _ _ _ _ _ _ E1 P2 Hfs) as Hcnt.
  rewrite Hlen, Hcnt in Hjk. replace (length (imp_ids S_func (live_imports (ps_m s1))) + length fs1 - length fs1 + k)
    with (length (imp_ids S_func (live_imports (ps_m s1))) + k) in Hjk by lia.
  pose proof Hb as Hb'. rewrite Hco in Hb'. apply nth_error_map_inv in Hb'. destruct Hb' as (ef1 & Hef & Hbody). subst b.
  assert (Hk : k < length fs1).
  { rewrite <- Hlen. apply nth_error_Some. congruence. }
  destruct (nth_error fs1 k) as [p|] eqn:Hp; [|apply nth_error_None in Hp; lia].
  destruct (Forall2_nth_l _ _ _ _ _ F Hp) as (ef' & Hef' & Hemit). rewrite Hef in Hef'. injection Hef' as <-.
  (* the emitted index *)
  destruct (emitM_x2i _ _ _ _ E1) as (fs' & Hfs' & _ & Xf & _). rewrite Hfs in Hfs'. injection Hfs' as <-.
  unfold get_idx in Hj. cbn [space_map] in Hj. rewrite Xf in Hj. apply lookup_number in Hj.
  rewrite Hjk, nth_error_app2 in Hj by lia.
  replace (length (imp_ids S_func (live_imports (ps_m s1))) + k - length (imp_ids S_func (live_imports (ps_m s1)))) with k in Hj by lia.
  rewrite nth_error_map, Hp in Hj. cbn [option_map] in Hj. injection Hj as Hid.
  assert (Hlf : snd p = lf1).
  { destruct p as [pid plf]. cbn [fst snd] in *. subst pid. apply nth_error_In in Hp.
    destruct (ulf_in _ _ _ _ Hfs Hp) as (f & Hin & Hkf). apply aiter_aget in Hin. congruence. }
  exists k, ef1, t, ety. destruct p as [pid plf]. cbn [fst snd] in *. subst pid plf.
  repeat (split; [first [reflexivity|assumption]|]). exact Hloc.
Qed.

(* sizes_stable reduced to a statement about one function *)
Definition sizes_stable' (s1 : pst) (e1 : emitted) (s2 : pst) : Prop :=
  forall id j f1 lf1 f2 lf2, get_idx (em_x2i e1) S_func id = Ok j ->
    aget (m_funcs (ps_m s1)) id = Some f1 -> fn_kind f1 = FK_Local lf1 ->
    aget (m_funcs (ps_m s2)) j = Some f2 -> fn_kind f2 = FK_Local lf2 -> lf_size lf2 = lf_size lf1.

(* the body-level premise: the parse of the emitted body of a parsed function visits as many instructions *)
Definition body_size_stable (ilen : wins -> N) (s1 : pst) (e1 : emitted) (s2 : pst) : Prop :=
  forall id j f1 lf1 ef1 lf2 t2 ety2,
    aget (m_funcs (ps_m s1)) id = Some f1 -> fn_kind f1 = FK_Local lf1 ->
    get_idx (em_x2i e1) S_func id = Ok j ->
    emit_function (ps_m s1) (em_x2i e1) ilen id lf1 = Ok ef1 ->
    types_get (ps_m s2) (lf_ty lf2) = Some t2 -> find_entry (ps_m s2) (ty_results t2) = Some ety2 ->
    lf_entry lf2 = 0%N ->
    parse_body {| px_i2id := i2id_fun (ps_ids s2) j; px_types := types_list (ps_m s2) |} ety2 (ty_results t2)
               (wb_ops (ef_body ef1)) = Ok (lf_arena lf2) ->
    lf_size lf2 = lf_size lf1.

Theorem sizes_stable_reduce cf ver w ilen s1 e1 s2 e2 :
  two_trips cf ver w ilen s1 e1 s2 e2 -> body_size_stable ilen s1 e1 s2 -> sizes_stable' s1 e1 s2.
Proof.
  intros TT BS id j f1 lf1 f2 lf2 Hj Hg1 Hk1 Hg2 Hk2. pose proof TT as (P1 & E1 & P2 & E2).
  destruct (emitM_x2i _ _ _ _ E1) as (fs1 & Hfs1 & _).
  destruct (second_trip_functions _ _ _ _ _ _ _ _ _ TT Hfs1 _ _ _ _ _ _ Hj Hg1 Hk1 Hg2 Hk2)
    as (k & ef1 & t2 & ety2 & _ & _ & _ & _ & A5 & A6 & A7 & A8 & A9 & _).
  eapply BS; eauto.
Qed.

(* the code payload of the second trip, reduced to a statement about one function *)
Lemma iota_add a b : iota (a + b) = iota a ++ map N.of_nat (seq a b).
Proof. unfold iota. rewrite seq_app, map_app. reflexivity. Qed.
Lemma nth_error_seq : forall n a k, k < n -> nth_error (seq a n) k = Some (a + k).
Proof.
  induction n as [|n IH]; intros a [|k] H; cbn [seq nth_error]; try lia; [f_equal; lia|].
  rewrite IH by lia. f_equal. lia.
Qed.

(* function-level premise: re-emitting the parse of an emitted body reproduces that body (operators and local declarations) *)
Definition function_body_stable (ilen : wins -> N) (s1 : pst) (e1 : emitted) (s2 : pst) (e2 : emitted) : Prop :=
  forall id j f1 lf1 ef1 f2 lf2 ef2 t2 ety2 base,
    aget (m_funcs (ps_m s1)) id = Some f1 -> fn_kind f1 = FK_Local lf1 ->
    get_idx (em_x2i e1) S_func id = Ok j ->
    aget (m_funcs (ps_m s2)) j = Some f2 -> fn_kind f2 = FK_Local lf2 ->
    emit_function (ps_m s1) (em_x2i e1) ilen id lf1 = Ok ef1 ->
    types_get (ps_m s2) (lf_ty lf2) = Some t2 -> find_entry (ps_m s2) (ty_results t2) = Some ety2 ->
    lf_entry lf2 = 0%N ->
    parse_body {| px_i2id := i2id_fun (ps_ids s2) j; px_types := types_list (ps_m s2) |} ety2 (ty_results t2)
               (wb_ops (ef_body ef1)) = Ok (lf_arena lf2) ->
    lf_args lf2 = map N.of_nat (seq base (length (ty_params t2))) ->
    WV.Proofs.Names.locals_vec (ps_ids s2) j =
      map N.of_nat (seq base (length (ty_params t2) + length (expand_locals (wb_locals (ef_body ef1))))) ->
    emit_function (ps_m s2) (em_x2i e2) ilen j lf2 = Ok ef2 ->
    ef_body ef2 = ef_body ef1.

(* conversely, the k-th code entry becomes a local function *)
Lemma install_keeps_local : forall ps m ids m', install_bodies m ids ps = POk m' ->
  forall id f lf, aget (m_funcs m) id = Some f -> fn_kind f = FK_Local lf ->
  exists f' lf', aget (m_funcs m') id = Some f' /\ fn_kind f' = FK_Local lf'.
Proof.
  induction ps as [|p r IH]; intros m ids m' E id f lf Hg Hk; cbn [install_bodies] in E.
  - inversion E; subst. eauto.
  - pinv E as lf0 Elf. rewrite <- aget_eta in Hg.
    destruct (aget_upd_live' _ _ (pr_fid p) (fun f => {| fn_kind := FK_Local lf0; fn_name := fn_name f |}) _ _ Hg) as [x Hx].
    pose proof Hx as Hx'. apply aget_upd_at in Hx'.
    destruct Hx' as [(_ & x0 & _ & ->)|(_ & Hx')].
    + eapply (IH _ _ _ E id); [cbn [set_funcs m_funcs]; unfold aset_at; exact Hx|reflexivity].
    + rewrite Hg in Hx'. injection Hx' as <-.
      eapply (IH _ _ _ E id); [cbn [set_funcs m_funcs]; unfold aset_at; exact Hx|exact Hk].
Qed.
Lemma install_makes_local : forall ps m ids m', install_bodies m ids ps = POk m' ->
  forall p, In p ps -> (exists f, aget (m_funcs m) (pr_fid p) = Some f) ->
  exists f' lf', aget (m_funcs m') (pr_fid p) = Some f' /\ fn_kind f' = FK_Local lf'.
Proof.
  induction ps as [|p r IH]; intros m ids m' E p' Hin (f & Hf); [destruct Hin|]. cbn [install_bodies] in E.
  pinv E as lf0 Elf. rewrite <- aget_eta in Hf.
  destruct (aget_upd_live' _ _ (pr_fid p) (fun f => {| fn_kind := FK_Local lf0; fn_name := fn_name f |}) _ _ Hf) as [x Hx].
  destruct Hin as [<-|Hin].
  - pose proof Hx as Hx'. apply aget_upd_at in Hx'. destruct Hx' as [(_ & x0 & _ & ->)|(Hne & _)]; [|congruence].
    eapply (install_keeps_local _ _ _ _ E); [cbn [set_funcs m_funcs]; unfold aset_at; exact Hx|reflexivity].
  - apply (IH _ _ _ E p' Hin). exists x. cbn [set_funcs m_funcs]. unfold aset_at. exact Hx.
Qed.

Lemma fold_names_K_funcs ids : forall l m, K_funcs (fold_left (fun m n => parse_names m ids n) l m) = K_funcs m.
Proof.
  induction l as [|n r IH]; intros m; cbn [fold_left]; [reflexivity|]. rewrite IH. apply parse_names_KK.
Qed.

Theorem parsed_function_body cf ver w s k b :
  parseM cf ver w = POk s -> nth_error (flat_map code_of w) k = Some b ->
  exists fid f lf t ety,
    N.to_nat fid = length (ii_funcs (ps_ids s)) - length (flat_map code_of w) + k /\
    aget (m_funcs (ps_m s)) fid = Some f /\ fn_kind f = FK_Local lf /\
    types_get (ps_m s) (lf_ty lf) = Some t /\
    find_entry (ps_m s) (ty_results t) = Some ety /\
    lf_entry lf = 0%N /\
    parse_body {| px_i2id := i2id_fun (ps_ids s) fid; px_types := types_list (ps_m s) |} ety (ty_results t) (wb_ops b)
      = Ok (lf_arena lf) /\
    exists base, lf_args lf = map N.of_nat (seq base (length (ty_params t))) /\
                 WV.Proofs.Names.locals_vec (ps_ids s) fid =
                   map N.of_nat (seq base (length (ty_params t) + length (expand_locals (wb_locals b)))).
Proof.
  intros E0 Hb0. pose proof (parseM_ids _ _ _ _ E0) as IDCs. pose proof E0 as E.
  apply parseM_shape in E. destruct E as (s1 & m1 & ids1 & prepared & m2 & E1 & E2 & E3 & Es).
  fold (pst0 cf) in E1. cbv zeta in Es.
  assert (IDC : ids_consistent (ps_m s1) (ps_ids s1)) by (eapply parse_secs_ids; [|exact E1]; apply idc_empty).
  pose proof (WV.Proofs.Locals2.parse_secs_il _ _ _ E1) as IL. cbn in IL.
  pose proof (parse_secs_bodies_eq _ _ _ E1) as EB. cbn [ps_bodies pst0 app] in EB.
  destruct (WV.Proofs.Locals2.prepare_bodies_locals _ _ _ _ _ _ _ _ E2) as (P1 & _ & _ & _ & P5).
  { destruct IDC as (-> & _). apply WV.Proofs.Locals2.iota_NoDup. }
  { intros k0 fid0 _ _. rewrite IL. reflexivity. }
  destruct (WV.Proofs.Names.prepare_bodies_uninit _ _ _ _ _ _ _ _ E2) as (FU & _).
  pose proof Hb0 as Hb. rewrite <- EB in Hb.
  destruct (P5 _ _ Hb) as (p & t0 & base0 & Q1 & Q2 & Q3 & _ & _ & _ & _ & _ & _ & _ & (f0 & Q11 & _)).
  destruct (install_makes_local _ _ _ _ E3 p (nth_error_In _ _ Q1)) as (f2 & lf & Hg2 & Hk2).
  { exists f0. rewrite FU. exact Q11. }
  (* transport to the final module *)
  assert (Hfin : exists f, aget (m_funcs (ps_m s)) (pr_fid p) = Some f /\ fn_kind f = FK_Local lf).
  { unfold ids_consistent in IDCs. destruct IDCs as (_ & _ & _ & _ & _ & _ & D & _).
    rewrite aget_nodead by exact D. apply WV.Proofs.Names.aget_nth in Hg2.
    assert (HK : K_funcs (ps_m s) = K_funcs m2).
    { rewrite Es. cbn [ps_m]. unfold K_funcs at 1. change (m_funcs (set_producers ?a ?b)) with (m_funcs a).
      apply fold_names_K_funcs. }
    assert (H : nth_error (K_funcs (ps_m s)) (N.to_nat (pr_fid p)) = Some (FK_Local lf)).
    { rewrite HK. unfold K_funcs. rewrite nth_error_map, Hg2. cbn [option_map]. rewrite Hk2. reflexivity. }
    unfold K_funcs in H. apply nth_error_map_inv in H. exact H. }
  destruct Hfin as (f & Hg & Hk).
  destruct (local_function_body _ _ _ _ _ _ _ E0 Hg Hk)
    as (s1' & k' & b' & t & ety & _ & _ & Hb' & _ & Hjk & Ht & Hety & Hentry & Hpb & Hloc).
  assert (Hfid : N.to_nat (pr_fid p) = length (ii_funcs (ps_ids s)) - length (flat_map code_of w) + k).
  { pose proof IDC as IDC'. unfold ids_consistent in IDC'. destruct IDC' as (IF & _ & _ & _ & _ & _ & D & _).
    unfold WV.Proofs.Locals2.fid_at in Q3. rewrite N.add_0_r in Q3.
    rewrite IF in Q3. apply nth_N_iota in Q3. rewrite Es. cbn [ps_ids]. rewrite Q3, P1, IF, iota_length, <- EB.
    unfold len_N. rewrite (iter_length_nodead _ D). lia. }
  assert (k' = k) by lia. subst k'. rewrite Hb0 in Hb'. injection Hb' as <-.
  exists (pr_fid p), f, lf, t, ety. repeat (split; [assumption|]). exact Hloc.
Qed.

(* bodies of a valid stream are structured, well-formed in the context they are parsed in *)
Theorem valid_bodies_structured cf ver w s b fid :
  valid_stream w -> parseM cf ver w = POk s -> In b (flat_map code_of w) ->
  exists l eloc, wb_ops b = flat_list l ++ [(WEnd, eloc)] /\
                 swfl (length (ii_types (ps_ids s))) 1 l /\
                 wfl {| px_i2id := i2id_fun (ps_ids s) fid; px_types := types_list (ps_m s) |} 1 l.
Proof.
  intros V E Hb.
  apply parseM_shape in E. destruct E as (s1 & m1 & ids1 & prepared & m2 & E1 & E2 & E3 & ->). cbv zeta. cbn [ps_m ps_ids].
  destruct (parse_secs_total w ctx0 (pst_init cf) (Inv_init cf) V) as (s1' & c & E1' & I & Hcnt).
  unfold pst_init in E1'. rewrite E1 in E1'. injection E1' as <-.
  pose proof (parse_secs_bodies_eq _ _ _ E1) as EB. cbn [ps_bodies app] in EB.
  pose proof (iv_bv _ _ I) as Hbv. rewrite Forall_forall in Hbv. rewrite <- EB in Hb.
  destruct (Hbv _ Hb) as (l & eloc & Eops & Hsw).
  pose proof (iv_pi _ _ I) as P0. destruct (iv_abs _ _ I) as (Hnt & _).
  destruct (prepare_bodies_PI _ _ _ _ _ _ _ _ P0 E2) as (P1 & _ & _).
  pose proof (prepare_bodies_ty _ _ _ _ _ _ _ _ E2) as HT.
  assert (TI : TInv m1 ids1 (c_nt c)).
  { split; [|split; [rewrite HT; exact Hnt|apply (pi_ity _ _ P1)]].
    pose proof (pi_idc _ _ P1) as Hid. unfold ids_consistent in Hid. decompose [and] Hid. assumption. }
  pose proof (install_bodies_types _ _ _ _ E3) as T2.
  destruct (fold_names_tkeys ids1 (ps_names s1) m2) as [K1 _]. rewrite T2 in K1.
  exists l, eloc. split; [exact Eops|]. rewrite HT, Hnt. split; [exact Hsw|].
  rewrite types_list_key. change (m_types (set_producers ?a ?b)) with (m_types a). rewrite K1, <- types_list_key.
  eapply swfl_wfl; [|exact Hsw]. intros bt Hbt. eapply sbt_bt_ok; eauto.
Qed.


Lemma firstn_seq_add : forall n a m, firstn n (seq a (n + m)) = seq a n.
Proof. induction n as [|n IH]; intros a m; [reflexivity|]. cbn [plus seq firstn]. f_equal. apply IH. Qed.
Lemma tys_of_seq (L : list mlocal) : forall tys base, firstn (length tys) (skipn base (map lo_ty L)) = tys ->
  map (fun i => match nth_error L i with Some l => lo_ty l | None => VT_I32 end) (seq base (length tys)) = tys.
Proof.
  intros tys base H. apply nth_error_ext'. intros j. rewrite nth_error_map.
  destruct (Nat.lt_ge_cases j (length tys)) as [Hlt|Hge].
  - rewrite nth_error_seq by exact Hlt. cbn [option_map].
    destruct (nth_error tys j) as [ty|] eqn:Hj; [|apply nth_error_None in Hj; lia].
    pose proof Hj as Hj'. rewrite <- H in Hj'. apply WV.Proofs.Locals2.nth_error_firstn_some in Hj'.
    rewrite WV.Proofs.Locals2.nth_error_skipn', nth_error_map in Hj'.
    destruct (nth_error L (base + j)); [|discriminate]. cbn in Hj'. exact Hj'.
  - assert (Hn : nth_error (seq base (length tys)) j = None) by (apply nth_error_None; rewrite seq_length; lia).
    rewrite Hn. cbn [option_map]. symmetry. apply nth_error_None. lia.
Qed.

(* the local ids of a parsed local function: parameters then declared locals, with exactly the declared types *)
Theorem local_function_locals cf ver w s fid f lf :
  parseM cf ver w = POk s -> aget (m_funcs (ps_m s)) fid = Some f -> fn_kind f = FK_Local lf ->
  exists k b t,
    nth_error (flat_map code_of w) k = Some b /\
    N.to_nat fid = length (ii_funcs (ps_ids s)) - length (flat_map code_of w) + k /\
    types_get (ps_m s) (lf_ty lf) = Some t /\
    dead (m_locals (ps_m s)) = [] /\
    map (local_ty_fn (ps_m s)) (WV.Proofs.Names.locals_vec (ps_ids s) fid) = ty_params t ++ expand_locals (wb_locals b) /\
    lf_args lf = firstn (length (ty_params t)) (WV.Proofs.Names.locals_vec (ps_ids s) fid) /\
    NoDup (WV.Proofs.Names.locals_vec (ps_ids s) fid).
Proof.
  intros E Hg Hk.
  destruct (local_function_prepared _ _ _ _ _ _ _ E Hg Hk)
    as (s1 & m2 & pf & k & p & m0 & t0 & base & _ & _ & Em & Hb & <- & Ht & Hp & _ & Qn & Q4 & Q6 & LV & DL1 & Q10).
  rewrite Em.
  pose proof (WV.Proofs.Structure.parse_one_body_ty _ _ _ _ Hp) as Hty.
  assert (Hargs : lf_args lf = pr_args p).
  { clear - Hp. unfold parse_one_body in Hp. pinv Hp as t1 Et1. pinv Hp as ety Eety.
    destruct (parse_body _ _ _ _); try discriminate. injection Hp as <-. reflexivity. }
  destruct (WV.Proofs.Locals2.fold_parse_names_types_get (ps_ids s) (ps_names s1) m2 _ _ Q4) as (t' & G' & Et').
  apply mtype_eqb_spec in Et'. destruct Et' as (Ep & _ & _).
  destruct (WV.Proofs.Locals2.fold_parse_names_same_tys (ps_ids s) (ps_names s1) m2) as [S1 S2].
  assert (DL : dead (m_locals (fold_left (fun m n => parse_names m (ps_ids s) n) (ps_names s1) m2)) = []) by (rewrite S2; exact DL1).
  exists k, (pr_body p), t'. rewrite <- Ep.
  split; [exact Hb|]. split; [exact Qn|].
  split; [rewrite Hty; exact G'|].
  split; [exact DL|].
  rewrite LV. split; [|split].
  - rewrite map_map. rewrite <- app_length in *.
    pose proof (tys_of_seq (items (m_locals (fold_left (fun m n => parse_names m (ps_ids s) n) (ps_names s1) m2)))
                  (ty_params t0 ++ expand_locals (wb_locals (pr_body p))) base) as TS.
    rewrite S1 in TS. specialize (TS Q10). etransitivity; [|exact TS].
    apply map_ext. intros i. unfold local_ty_fn. change (m_locals (set_producers ?a ?b)) with (m_locals a).
    rewrite aget_nodead by exact DL. rewrite Nat2N.id. reflexivity.
  - rewrite Hargs, Q6. rewrite firstn_map, firstn_seq_add. reflexivity.
  - apply WV.Proofs.Order.NoDup_map_inj; [apply Nat2N.inj|apply seq_NoDup].
Qed.

(* the same with the facts about the local ids of the re-parsed function among the premises of the function-level statement *)
Definition function_body_stable_l (ilen : wins -> N) (s1 : pst) (e1 : emitted) (s2 : pst) (e2 : emitted) : Prop :=
  forall id j f1 lf1 ef1 f2 lf2 ef2 t2 ety2 base,
    aget (m_funcs (ps_m s1)) id = Some f1 -> fn_kind f1 = FK_Local lf1 ->
    get_idx (em_x2i e1) S_func id = Ok j ->
    aget (m_funcs (ps_m s2)) j = Some f2 -> fn_kind f2 = FK_Local lf2 ->
    emit_function (ps_m s1) (em_x2i e1) ilen id lf1 = Ok ef1 ->
    types_get (ps_m s2) (lf_ty lf2) = Some t2 -> find_entry (ps_m s2) (ty_results t2) = Some ety2 ->
    lf_entry lf2 = 0%N ->
    parse_body {| px_i2id := i2id_fun (ps_ids s2) j; px_types := types_list (ps_m s2) |} ety2 (ty_results t2)
               (wb_ops (ef_body ef1)) = Ok (lf_arena lf2) ->
    lf_args lf2 = map N.of_nat (seq base (length (ty_params t2))) ->
    WV.Proofs.Names.locals_vec (ps_ids s2) j =
      map N.of_nat (seq base (length (ty_params t2) + length (expand_locals (wb_locals (ef_body ef1))))) ->
    dead (m_locals (ps_m s2)) = [] ->
    map (local_ty_fn (ps_m s2)) (WV.Proofs.Names.locals_vec (ps_ids s2) j) =
      ty_params t2 ++ expand_locals (wb_locals (ef_body ef1)) ->
    NoDup (WV.Proofs.Names.locals_vec (ps_ids s2) j) ->
    emit_function (ps_m s2) (em_x2i e2) ilen j lf2 = Ok ef2 ->
    ef_body ef2 = ef_body ef1.

Theorem fix_code_reduce_l cf ver w ilen s1 e1 s2 e2 :
  two_trips cf ver w ilen s1 e1 s2 e2 -> rho_id s2 e2 S_func ->
  imported_funcs (ps_m s2) = iota (length (imported_funcs (ps_m s1))) ->
  function_body_stable_l ilen s1 e1 s2 e2 ->
  flat_map code_of (em_secs e2) = flat_map code_of (em_secs e1).
Proof.
  intros TT RID LAY BS. pose proof TT as (P1 & E1 & P2 & E2).
  destruct (emitM_x2i _ _ _ _ E1) as (fs1 & Hfs1 & _ & Xf1 & _).
  destruct (emitM_x2i _ _ _ _ E2) as (fs2 & Hfs2 & _).
  destruct (emit_code_payload _ _ _ _ E1 Hfs1) as (Hco1 & F1 & _ & Hlen1).
  destruct (emit_code_payload _ _ _ _ E2 Hfs2) as (Hco2 & F2 & _ & Hlen2).
  pose proof (second_funcs_count _ _ _ _ _ _ _ E1 P2 Hfs1) as Hcnt. rewrite imported_funcs_eq in Hcnt.
  rewrite imported_funcs_eq in Xf1.
  set (ni := length (imported_funcs (ps_m s1))) in *.
  assert (Hord : map fst fs2 = map N.of_nat (seq ni (length fs1))).
  { pose proof (rho_identity_iff _ _ _ _ _ _ _ P2 E2 S_func ltac:(discriminate) ltac:(discriminate)) as [HI _].
    specialize (HI RID).
    destruct (emitted_ids_shape _ _ _ _ E2) as (fs' & Hfs' & Hsh & _). rewrite Hfs2 in Hfs'. injection Hfs' as <-.
    rewrite Hsh, LAY in HI. unfold n_in in HI. cbn [ids_space] in HI. rewrite Hcnt, iota_add in HI. fold ni in HI.
    apply app_inv_head in HI. exact HI. }
  assert (L2 : length fs2 = length fs1).
  { rewrite <- (map_length fst fs2), Hord, map_length, seq_length. reflexivity. }
  pose proof F1 as LF1. apply Forall2_length in LF1. pose proof F2 as LF2. apply Forall2_length in LF2.
  rewrite Hco2, Hco1. apply nth_error_ext'. intros k. rewrite !nth_error_map.
  destruct (nth_error (em_fns e2) k) as [ef2|] eqn:H2.
  2:{ apply nth_error_None in H2. assert (H1 : nth_error (em_fns e1) k = None) by (apply nth_error_None; lia).
      rewrite H1. reflexivity. }
  assert (Hk : k < length fs1) by (rewrite <- L2, LF2; apply nth_error_Some; congruence).
  destruct (nth_error fs2 k) as [[id2 lf2]|] eqn:Hp2; [|apply nth_error_None in Hp2; lia].
  destruct (nth_error fs1 k) as [[id1 lf1]|] eqn:Hp1; [|apply nth_error_None in Hp1; lia].
  destruct (Forall2_nth_l _ _ _ _ _ F2 Hp2) as (ef2' & Hef2 & Hemit2). rewrite H2 in Hef2. injection Hef2 as <-.
  destruct (Forall2_nth_l _ _ _ _ _ F1 Hp1) as (ef1 & Hef1 & Hemit1). cbn [fst snd] in *.
  assert (Hid2 : id2 = N.of_nat (ni + k)).
  { assert (H : nth_error (map fst fs2) k = Some id2) by (rewrite nth_error_map, Hp2; reflexivity).
    rewrite Hord, nth_error_map, nth_error_seq in H by exact Hk. cbn [option_map] in H. congruence. }
  subst id2.
  destruct (ulf_in _ _ _ _ Hfs1 (nth_error_In _ _ Hp1)) as (f1 & Hin1 & Hk1). apply aiter_aget in Hin1.
  destruct (ulf_in _ _ _ _ Hfs2 (nth_error_In _ _ Hp2)) as (f2 & Hin2 & Hk2). apply aiter_aget in Hin2.
  assert (Hidx : get_idx (em_x2i e1) S_func id1 = Ok (N.of_nat (ni + k))).
  { apply x2i_positions; [apply (parsed_wf_space _ _ _ _ _ _ _ S_func P1 E1); discriminate|].
    cbn [space_map]. rewrite Xf1, number_fst, Nat2N.id, nth_error_app2 by (fold ni; lia). fold ni.
    replace (ni + k - ni) with k by lia. rewrite nth_error_map, Hp1. reflexivity. }
  destruct (second_trip_functions _ _ _ _ _ _ _ _ _ TT Hfs1 _ _ _ _ _ _ Hidx Hin1 Hk1 Hin2 Hk2)
    as (k' & ef1' & t2 & ety2 & A1 & A2 & A3 & A4 & A5 & A6 & A7 & A8 & A9 & (base & B1 & B2)).
  rewrite imported_funcs_eq in A4. fold ni in A4. rewrite Nat2N.id in A4. assert (k' = k) by lia. subst k'.
  rewrite Hef1 in A2. injection A2 as <-.
  rewrite Hef1. cbn [option_map]. f_equal.
  destruct (local_function_locals _ _ _ _ _ _ _ P2 Hin2 Hk2) as (k2 & b2 & t2' & C1 & C2 & C3 & C4 & C5 & C6 & C7).
  rewrite A6 in C3. injection C3 as <-.
  rewrite Hcnt, Hlen1, Nat2N.id in C2. assert (k2 = k) by lia. subst k2.
  rewrite A3 in C1. injection C1 as <-.
  eapply (BS id1 (N.of_nat (ni + k)) f1 lf1 ef1 f2 lf2 ef2 t2 ety2 base); eassumption.
Qed.

Theorem fix_code_reduce cf ver w ilen s1 e1 s2 e2 :
  two_trips cf ver w ilen s1 e1 s2 e2 -> rho_id s2 e2 S_func ->
  imported_funcs (ps_m s2) = iota (length (imported_funcs (ps_m s1))) ->
  function_body_stable ilen s1 e1 s2 e2 ->
  flat_map code_of (em_secs e2) = flat_map code_of (em_secs e1).
Proof.
  intros TT RID LAY BS. apply (fix_code_reduce_l _ _ _ _ _ _ _ _ TT RID LAY).
  intros id j f1 lf1 ef1 f2 lf2 ef2 t2 ety2 base H1 H2 H3 H4 H5 H6 H7 H8 H9 H10 H11 H12 _ _ _. exact (BS _ _ _ _ _ _ _ _ _ _ _ H1 H2 H3 H4 H5 H6 H7 H8 H9 H10 H11 H12).
Qed.

Print Assumptions emit_code_payload.
Print Assumptions local_function_locals.
Print Assumptions valid_bodies_structured.
Print Assumptions parsed_function_body.
Print Assumptions local_function_body.
Print Assumptions second_trip_functions.
Print Assumptions sizes_stable_reduce.
Print Assumptions fix_code_reduce.
Print Assumptions fix_code_reduce_l.
