(* Parsed modules satisfy the premises of the edit theorems (Proofs/Edit.v), and the ordering half of the
   round-trip fixpoint: the emit-time sorts are idempotent and stable. *)
From Coq Require Import List NArith ZArith Bool Arith Lia Permutation Sorted.
Import ListNotations.
From WV Require Import Gen.Ops Model.Common Model.IR Model.Arena Model.Builder Model.ModuleM Model.ParseM
                       Model.EmitM Model.Edit.
From WV Require Import Proofs.Arena Proofs.Order Proofs.IndexMaps.
From WV Require Proofs.Edit.
Local Open Scope nat_scope.

(* The parse-time invariant implies the edit-time one *)
Theorem im_types_wf_edit s : Proofs.IndexMaps.types_wf s -> Proofs.Edit.types_wf s.
Proof.
  intros [Hd Ha]. split.
  - rewrite Hd. constructor.
  - intros k id Hin. destruct (Ha k id Hin) as [k' [Hn He]]. exists k'. split; [|exact He].
    unfold index, get, is_dead. rewrite Hd. cbn [existsb]. exact Hn.
Qed.

Theorem parseM_types_wf : forall cf ver w s,
  parseM cf ver w = POk s -> Proofs.IndexMaps.types_wf (m_types (ps_m s)).
Proof. intros cf ver w s. exact (parseM_inv (fun m _ => types_wf (m_types m)) step_types_wf cf ver w s types_wf_empty). Qed.

Theorem parsed_ready_for_replace_imported : forall cf ver w s,
  parseM cf ver w = POk s -> Proofs.Edit.types_wf (m_types (ps_m s)).
Proof. intros cf ver w s E. apply im_types_wf_edit. eapply parseM_types_wf; eauto. Qed.

Theorem parsed_ready_for_replace_exported : forall cf ver w s,
  parseM cf ver w = POk s ->
  Forall (fun d => d < length (items (m_funcs (ps_m s)))) (dead (m_funcs (ps_m s))) /\
  Proofs.Edit.types_wf (m_types (ps_m s)).
Proof.
  intros cf ver w s E. split.
  - pose proof (parseM_ids _ _ _ _ E) as H. unfold ids_consistent in H. decompose [and] H.
    match goal with D : dead (m_funcs (ps_m s)) = [] |- _ => rewrite D end. constructor.
  - eapply parsed_ready_for_replace_imported; eauto.
Qed.

(* The conclusions are those of Proofs.Edit.replace_*_spec; the conjunct labels I1..I7, E1..E4 refer to
   Proofs.Edit.imported_I* and exported_E* *)
Theorem parse_then_replace_imported : forall cf ver w s fid body m',
  parseM cf ver w = POk s ->
  let m := ps_m s in
  replace_imported_func m fid body = POk m' ->
  exists iid f imp tid t lf,
    imported_func_import m fid = Some iid /\ aget (m_funcs m) fid = Some f /\
    fn_kind f = FK_Import imp tid /\ types_get m tid = Some t /\
    (* I1 *) aget (m_funcs m') fid = Some {| fn_kind := FK_Local lf; fn_name := fn_name f |} /\
    (* I2 *) (exists t', types_get m' (lf_ty lf) = Some t' /\
                ty_params t' = ty_params t /\ ty_results t' = ty_results t /\ ty_entry t' = false) /\
    (* I3 *) ((forall g, g <> fid -> aget (m_funcs m') g = aget (m_funcs m) g) /\
              length (items (m_funcs m')) = length (items (m_funcs m)) /\
              dead (m_funcs m') = dead (m_funcs m)) /\
    (* I4 *) ((forall i, i <> iid -> aget (m_imports m') i = aget (m_imports m) i) /\
              aget (m_imports m') iid = None /\
              (forall imp0, aget (m_imports m) iid = Some imp0 -> im_kind imp0 = MI_Func fid)) /\
    (* I5 *) (m_tables m' = m_tables m /\ m_memories m' = m_memories m /\ m_globals m' = m_globals m /\
              m_exports m' = m_exports m /\ m_elements m' = m_elements m /\ m_data m' = m_data m /\
              m_start m' = m_start m /\ m_customs m' = m_customs m /\ m_producers m' = m_producers m /\
              m_name m' = m_name m /\ m_config m' = m_config m) /\
    (* I6 *) ((forall l, l < length (items (m_locals m)) ->
                 nth_error (items (m_locals m')) l = nth_error (items (m_locals m)) l) /\
              lf_args lf = map N.of_nat (seq (length (items (m_locals m))) (length (ty_params t))) /\
              Forall2 (fun a ty => nth_error (items (m_locals m')) (N.to_nat a) = Some {| lo_ty := ty; lo_name := None |})
                      (lf_args lf) (ty_params t)) /\
    (* I7 *) (exists m1 args m2 ty ety ar,
                add_arg_locals m (ty_params t) = (m1, args) /\
                builder_new m1 (ty_params t) (ty_results t) = (m2, ty, ety) /\
                run_builder ety (body args) = Ok ar /\ lf_arena lf = ar /\ lf_args lf = args /\ lf_ty lf = ty) /\
    Proofs.Edit.types_wf (m_types m').
Proof.
  intros cf ver w s fid body m' E m H.
  apply (Proofs.Edit.replace_imported_spec m fid body m'); [|exact H].
  eapply parsed_ready_for_replace_imported; exact E.
Qed.

Theorem parse_then_replace_exported : forall cf ver w s fid body m' nid,
  parseM cf ver w = POk s ->
  let m := ps_m s in
  replace_exported_func_core m fid body = POk (m', nid) ->
  exists eid e f lf0 t lf,
    exported_func_export m fid = Some eid /\ aget (m_exports m) eid = Some e /\
    ex_kind e = EK_Func /\ ex_item e = fid /\
    aget (m_funcs m) fid = Some f /\ fn_kind f = FK_Local lf0 /\ types_get m (lf_ty lf0) = Some t /\
    (* E1 *) (nid = N.of_nat (length (items (m_funcs m))) /\
              aget (m_funcs m') nid = Some {| fn_kind := FK_Local lf; fn_name := None |} /\
              (exists t', types_get m' (lf_ty lf) = Some t' /\
                 ty_params t' = ty_params t /\ ty_results t' = ty_results t /\ ty_entry t' = false) /\
              lf_args lf = lf_args lf0) /\
    (* E2 *) (forall g, N.to_nat g < length (items (m_funcs m)) -> aget (m_funcs m') g = aget (m_funcs m) g) /\
    (* E3 *) (aget (m_exports m') eid = Some {| ex_name := ex_name e; ex_kind := ex_kind e; ex_item := nid |} /\
              (forall x, x <> eid -> aget (m_exports m') x = aget (m_exports m) x) /\
              length (items (m_exports m')) = length (items (m_exports m)) /\
              dead (m_exports m') = dead (m_exports m)) /\
    (* E4 *) (m_imports m' = m_imports m /\ m_tables m' = m_tables m /\ m_memories m' = m_memories m /\
              m_globals m' = m_globals m /\ m_elements m' = m_elements m /\ m_data m' = m_data m /\
              m_start m' = m_start m /\ m_customs m' = m_customs m /\ m_locals m' = m_locals m /\
              m_producers m' = m_producers m /\ m_name m' = m_name m /\ m_config m' = m_config m) /\
    (* body *) (exists m2 ty ety ar, builder_new m (ty_params t) (ty_results t) = (m2, ty, ety) /\
                  run_builder ety (body (lf_args lf0)) = Ok ar /\ lf_arena lf = ar /\ lf_ty lf = ty) /\
    Proofs.Edit.types_wf (m_types m') /\
    Forall (fun d => d < length (items (m_funcs m'))) (dead (m_funcs m')).
Proof.
  intros cf ver w s fid body m' nid E m H.
  destruct (parsed_ready_for_replace_exported _ _ _ _ E) as [Hb Hwf].
  apply (Proofs.Edit.replace_exported_spec m fid body m' nid Hb Hwf H).
Qed.

(* The emit-time sorts are idempotent and stable, for ALL inputs *)
Section IsortStable.
  Variable A : Type.
  Variable leb : A -> A -> bool.
  Hypothesis leb_total : forall a b, leb a b = true \/ leb b a = true.
  Hypothesis leb_trans : forall a b c, leb a b = true -> leb b c = true -> leb a c = true.

  Theorem isort_idem l : isort A leb (isort A leb l) = isort A leb l.
  Proof. apply isort_id. apply isort_sorted; assumption. Qed.

  (* [p] selects a set of mutually equivalent elements (one key class, or part of one) *)
  Variable p : A -> bool.
  Hypothesis p_class : forall a b, p a = true -> p b = true -> leb a b = true.

  Lemma ins_filter x l : StronglySorted (lebR A leb) l ->
    filter p (ins A leb x l) = filter p l ++ (if p x then [x] else []).
  Proof.
    induction 1 as [|y l Hs IH Hall]; cbn [ins filter app]; [reflexivity|].
    destruct (leb y x) eqn:E.
    - cbn [filter]. rewrite IH. destruct (p y); reflexivity.
    - cbn [filter]. destruct (p x) eqn:Px; [|rewrite app_nil_r; reflexivity].
      assert (Hy : p y = false).
      { destruct (p y) eqn:Py; [|reflexivity]. rewrite (p_class y x Py Px) in E. discriminate. }
      assert (Hl : filter p l = []).
      { clear IH. induction l as [|z l IHl]; [reflexivity|]. cbn [filter].
        inversion Hall as [|? ? Hyz Hall']; subst. inversion Hs as [|? ? Hs' Hz]; subst.
        destruct (p z) eqn:Pz; [|apply IHl; assumption].
        unfold lebR in Hyz. rewrite (leb_trans y z x Hyz (p_class z x Pz Px)) in E. discriminate. }
      rewrite Hy, Hl. reflexivity.
  Qed.

  Lemma fold_ins_filter l : forall acc, StronglySorted (lebR A leb) acc ->
    filter p (fold_left (fun acc x => ins A leb x acc) l acc) = filter p acc ++ filter p l.
  Proof.
    induction l as [|x l IH]; intros acc S; cbn [fold_left filter]; [now rewrite app_nil_r|].
    rewrite IH by (apply ins_sorted; assumption). rewrite ins_filter by exact S.
    rewrite <- app_assoc. destruct (p x); reflexivity.
  Qed.

  (* stability: the elements of one key class come out in their input order *)
  Theorem isort_stable l : filter p (isort A leb l) = filter p l.
  Proof. unfold isort. rewrite fold_ins_filter by constructor. reflexivity. Qed.
End IsortStable.

(* types.  Sort key: (ty_params, ty_results) compared by [ty_le] (lexicographic on valty codes,
   params first); [ty_entry], [ty_name] and the id are not part of the key. *)
Theorem sort_types_idem : forall l, sort_types (sort_types l) = sort_types l.
Proof. intros l. apply sort_types_stable_id, sort_types_sorted. Qed.

Lemma sort_types_stable_class : forall (p : N * mtype -> bool) l,
  (forall a b, p a = true -> p b = true -> t_leb a b = true) ->
  filter p (sort_types l) = filter p l.
Proof.
  intros p l Hp. rewrite sort_types_isort. apply isort_stable.
  - intros a b. apply ty_le_total.
  - intros a b c. unfold t_leb. apply ty_le_trans.
  - exact Hp.
Qed.

(* same key as [k]: [ty_le] both ways *)
Definition ty_key_eqb (k : mtype) (x : N * mtype) : bool := ty_le k (snd x) && ty_le (snd x) k.
Theorem sort_types_stable : forall k l,
  filter (ty_key_eqb k) (sort_types l) = filter (ty_key_eqb k) l.
Proof.
  intros k l. apply sort_types_stable_class.
  intros a b Ha Hb. unfold ty_key_eqb in *. apply andb_true_iff in Ha, Hb.
  unfold t_leb. eapply ty_le_trans; [apply Ha|apply Hb].
Qed.

(* in particular types with literally the same (params, results) keep their relative order *)
Lemma vl_cmp_refl a : vl_cmp a a = Eq.
Proof. pose proof (vl_cmp_antisym a a) as H. destruct (vl_cmp a a); cbn in H; congruence. Qed.
Definition same_sig (ps rs : list valty) (x : N * mtype) : bool :=
  vl_eqb (ty_params (snd x)) ps && vl_eqb (ty_results (snd x)) rs.
Theorem sort_types_stable_sig : forall ps rs l,
  filter (same_sig ps rs) (sort_types l) = filter (same_sig ps rs) l.
Proof.
  intros ps rs l. apply sort_types_stable_class.
  intros a b Ha Hb. unfold same_sig in *. apply andb_true_iff in Ha, Hb.
  destruct Ha as [Ha1 Ha2], Hb as [Hb1 Hb2]. apply vl_eqb_eq in Ha1, Ha2, Hb1, Hb2.
  unfold t_leb, ty_le. rewrite Ha1, Ha2, Hb1, Hb2, !vl_cmp_refl. reflexivity.
Qed.

(* functions.  Sort key: (size, id) = [fst] of the triple, ordered by [fkey_le]:
   bigger size first, then smaller id (Proofs.Order.func_before). *)
Theorem sort_funcs_idem : forall l, sort_funcs (sort_funcs l) = sort_funcs l.
Proof. intros l. rewrite !sort_funcs_isort. apply isort_idem; [apply f_leb_total|apply f_leb_trans]. Qed.

(* size alone is not the key, but elements of equal size are ordered by id, so a size class that is
   already id-ordered is also kept: the general form, for any class of mutually [f_leb]-related elements *)
Theorem sort_funcs_stable_class : forall (p : N * N * mlocalfunc -> bool) l,
  (forall a b, p a = true -> p b = true -> f_leb a b = true) ->
  filter p (sort_funcs l) = filter p l.
Proof.
  intros p l Hp. rewrite sort_funcs_isort. apply isort_stable; [apply f_leb_total|apply f_leb_trans|exact Hp].
Qed.

Definition fkey_eqb (k : N * N) (x : N * N * mlocalfunc) : bool :=
  (fst (fst x) =? fst k)%N && (snd (fst x) =? snd k)%N.
Theorem sort_funcs_stable : forall k l,
  filter (fkey_eqb k) (sort_funcs l) = filter (fkey_eqb k) l.
Proof.
  intros k l. apply sort_funcs_stable_class.
  intros a b Ha Hb. unfold fkey_eqb in *. apply andb_true_iff in Ha, Hb.
  destruct Ha as [Ha1 Ha2], Hb as [Hb1 Hb2]. apply N.eqb_eq in Ha1, Ha2, Hb1, Hb2.
  apply f_leb_spec. unfold func_before. lia.
Qed.

(* the name maps use the same stable insertion sort (key: the index, [fst]) *)
Theorem sort_nm_idem : forall A (l : list (N * A)), sort_nm (sort_nm l) = sort_nm l.
Proof. intros A l. apply sort_nm_id, sort_nm_sorted. Qed.

Print Assumptions im_types_wf_edit.
Print Assumptions parseM_types_wf.
Print Assumptions parsed_ready_for_replace_imported.
Print Assumptions parsed_ready_for_replace_exported.
Print Assumptions parse_then_replace_imported.
Print Assumptions parse_then_replace_exported.
Print Assumptions sort_types_idem.
Print Assumptions sort_types_stable.
Print Assumptions sort_types_stable_sig.
Print Assumptions sort_funcs_idem.
Print Assumptions sort_funcs_stable.
Print Assumptions sort_funcs_stable_class.
Print Assumptions sort_nm_idem.
Print Assumptions isort_stable.
