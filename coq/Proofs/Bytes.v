(* Theorems for Model/Bytes.v: the binary encoding of instructions and function bodies (C03 / C11).
   The operator table is used through five facts (opcodes are writable and none is a control opcode, tags are positions,
   opcodes differ, a row splits back, every operator has its row); on them rest the round trip of an instruction and of a
   body (prefix-freeness included), the legitimacy of [ilen_model] as instruction-length parameter, the composition with the framing of the code section (Model/Frame.v), and the reader: whatever
   it accepts the writer can write, in no more bytes than the reader consumed (padded LEB128 is the only slack).
   Every one of the 517 operators of Gen/Ops.v is in the table ([covered_all]); the only immediates outside the model are
   heap types other than func / extern ([wf_imm] excludes them). *)
From Coq Require Import List NArith ZArith Bool Lia. Import ListNotations.
From WV Require Proofs.ModFix10.
From WV Require Import Gen.Ops Model.IR Model.Leb Model.CodeMap Model.Frame Proofs.Leb Proofs.Frame Model.Bytes.
Local Open Scope N_scope.

(* [enc_u] / [enc_s] run on fuel 18 (Model/Leb.v): 18 groups of 7 bits are 126 bits, one of them the sign for [enc_s];
   hence the premises [n < 2 ^ 126] of [dec_enc_u] and [- 2 ^ 125 <= z < 2 ^ 125] of [dec_enc_s] (Proofs/Leb.v) *)
Lemma small_of_lt a k : a < 2 ^ k -> k <= 126 -> a < 2 ^ 126.
Proof. intros H K. eapply N.lt_le_trans; [exact H|]. apply N.pow_le_mono_r; [discriminate|exact K]. Qed.
Lemma u32_small a : u32_ok a = true -> a < 2 ^ 126.
Proof. unfold u32_ok. intros H. apply N.ltb_lt in H. apply (small_of_lt a 32 H). discriminate. Qed.
Lemma ssmall_of z k : ((- 2 ^ k <=? z) && (z <? 2 ^ k))%Z = true -> (0 <= k <= 125)%Z -> (- 2 ^ 125 <= z < 2 ^ 125)%Z.
Proof.
  intros H K. apply andb_true_iff in H. destruct H as [A B]. apply Z.leb_le in A. apply Z.ltb_lt in B.
  assert (2 ^ k <= 2 ^ 125)%Z by (apply Z.pow_le_mono_r; lia). lia.
Qed.
Lemma lenB_lenN {A} (l : list A) : lenB l = lenN l.
Proof. reflexivity. Qed.
Lemma lenB_app {A} (a b : list A) : lenB (a ++ b) = lenB a + lenB b.
Proof. apply lenN_app. Qed.
Lemma lenB_cons {A} (x : A) (l : list A) : lenB (x :: l) = 1 + lenB l.
Proof. apply lenN_cons. Qed.

Lemma valty_of_byte_byte t : valty_of_byte (valty_byte t) = Some t.
Proof. destruct t; reflexivity. Qed.
Lemma valty_of_byte_out b : b < 64 \/ 128 <= b -> valty_of_byte b = None.
Proof.
  intros H. unfold valty_of_byte.
  repeat match goal with |- context [b =? ?k] => destruct (N.eqb_spec b k) as [->|_]; [lia|] end. reflexivity.
Qed.

Lemma enc_s_fuel_S f z :
  enc_s_fuel (S f) z =
  let b := Z.to_N (Z.land z 127) in let z' := Z.shiftr z 7 in
  if ((z' =? 0)%Z && (b <? 64)) || ((z' =? -1)%Z && (64 <=? b)) then [b] else (N.lor b 128) :: enc_s_fuel f z'.
Proof. reflexivity. Qed.

(* a non-negative signed LEB starts with a byte that is neither 0x40 nor a value type *)
Lemma enc_s_nonneg_head z : (0 <= z)%Z -> exists b r, enc_s z = b :: r /\ (b < 64 \/ 128 <= b).
Proof.
  intros Hz. unfold enc_s. change 18%nat with (S 17). rewrite enc_s_fuel_S. cbv zeta.
  destruct (_ || _) eqn:E.
  - eexists _, _. split; [reflexivity|]. left.
    apply orb_true_iff in E. destruct E as [E|E]; apply andb_true_iff in E; destruct E as [E1 E2].
    + apply N.ltb_lt. exact E2.
    + apply Z.eqb_eq in E1. rewrite zshiftr7 in E1.
      assert (0 <= z / 128)%Z by (apply Z.div_pos; lia). lia.
  - eexists _, _. split; [reflexivity|]. right.
    rewrite (lor128_small _ (sbyte_lt z)). lia.
Qed.

Lemma dec_enc_blockty b rest : wf_blockty b = true -> dec_blockty (enc_blockty b ++ rest) = Some (b, rest).
Proof.
  destruct b as [|t|i]; intros H.
  - reflexivity.
  - destruct t; reflexivity.
  - cbn [enc_blockty wf_blockty] in *.
    assert (Hr : (- 2 ^ 125 <= Z.of_N i < 2 ^ 125)%Z).
    { assert (Hi : i < 4294967296) by (unfold u32_ok in H; apply N.ltb_lt in H; exact H).
      assert (4294967296 <= 2 ^ 125)%Z by (vm_compute; discriminate). lia. }
    pose proof (dec_enc_s _ rest Hr) as D.
    destruct (enc_s_nonneg_head (Z.of_N i) (N2Z.is_nonneg i)) as (b & r & E & Hb).
    rewrite E in *. cbn [app] in *. unfold dec_blockty.
    destruct (N.eqb_spec b 64) as [->|_]; [lia|].
    rewrite (valty_of_byte_out b Hb), D.
    destruct (Z.leb_spec 0 (Z.of_N i)) as [_|C]; [|lia]. rewrite N2Z.id. reflexivity.
Qed.

Lemma enc_blockty_nonempty b : exists x r, enc_blockty b = x :: r.
Proof.
  destruct b as [|t|i]; cbn [enc_blockty]; [eexists _, _; reflexivity ..|].
  destruct (enc_s_nonneg_head (Z.of_N i) (N2Z.is_nonneg i)) as (b & r & E & _). eexists _, _. exact E.
Qed.

Lemma le_val_le_bytes : forall k n rest, n < 256 ^ N.of_nat k -> le_val k (le_bytes k n ++ rest) = Some (n, rest).
Proof.
  induction k as [|k IH]; intros n rest H.
  - change (256 ^ N.of_nat 0) with 1 in H. assert (n = 0) by lia. subst. reflexivity.
  - cbn [le_bytes app le_val]. rewrite IH.
    + f_equal. f_equal. rewrite N.add_comm. symmetry. apply N.div_mod. discriminate.
    + rewrite Nat2N.inj_succ, N.pow_succ_r' in H. apply N.div_lt_upper_bound; [discriminate|exact H].
Qed.
Lemma le_bytes_length : forall k n, length (le_bytes k n) = k.
Proof. induction k as [|k IH]; intros n; [reflexivity|]. cbn [le_bytes length]. now rewrite IH. Qed.
Lemma take_bytes_app : forall k ls rest, length ls = k -> take_bytes k (ls ++ rest) = Some (ls, rest).
Proof.
  induction k as [|k IH]; intros ls rest H.
  - destruct ls; [reflexivity|discriminate].
  - destruct ls as [|b ls]; [discriminate|]. cbn [app take_bytes]. rewrite IH by (cbn [length] in H; lia). reflexivity.
Qed.

Lemma lor64 a : a < 64 -> N.lor a 64 = a + 64.
Proof.
  intros H.
  assert (E : N.land a 63 = a) by (change 63 with (N.ones 6); rewrite N.land_ones; apply N.mod_small; exact H).
  assert (Z0 : N.land a 64 = 0).
  { rewrite <- E, <- N.land_assoc. change (N.land 63 64) with 0. apply N.land_0_r. }
  rewrite (N.add_nocarry_lxor _ _ Z0). symmetry. apply N.lxor_lor. exact Z0.
Qed.

Lemma wf_memarg_inv m : wf_memarg m = true -> wa_align m < 64 /\ wa_offset m < 2 ^ 126 /\ wa_memory m < 2 ^ 126.
Proof.
  unfold wf_memarg. intros H. apply andb_true_iff in H. destruct H as [H Hm]. apply andb_true_iff in H. destruct H as [Ha Ho].
  apply N.ltb_lt in Ha, Ho. split; [exact Ha|]. split; [apply (small_of_lt _ 64 Ho); discriminate|apply u32_small; exact Hm].
Qed.

Lemma dec_enc_memarg m rest : wf_memarg m = true -> dec_memarg (enc_memarg m ++ rest) = Some (m, rest).
Proof.
  intros H. destruct (wf_memarg_inv m H) as (Ha & Ho & Hm). destruct m as [a o mem]. cbn [wa_align wa_offset wa_memory] in *.
  unfold enc_memarg, dec_memarg. cbn [wa_align wa_offset wa_memory].
  assert (Ha' : a < 2 ^ 126) by (apply (small_of_lt a 6); [exact Ha|discriminate]).
  destruct (N.eqb_spec mem 0) as [->|Hne].
  - rewrite <- app_assoc, (dec_enc_u _ _ Ha'). apply N.ltb_lt in Ha. rewrite Ha.
    rewrite (dec_enc_u _ _ Ho). reflexivity.
  - rewrite (lor64 a Ha), <- !app_assoc.
    assert (Hb : a + 64 < 2 ^ 126) by (apply (small_of_lt _ 7); [change (2 ^ 7) with 128; lia|discriminate]).
    rewrite (dec_enc_u _ _ Hb).
    destruct (N.ltb_spec (a + 64) 64) as [C|_]; [lia|]. destruct (N.ltb_spec (a + 64) 128) as [_|C]; [|lia].
    rewrite (dec_enc_u _ _ Hm), (dec_enc_u _ _ Ho). replace (a + 64 - 64) with a by lia. reflexivity.
Qed.

Lemma enc_u_nonempty n : exists b r, enc_u n = b :: r.
Proof. unfold enc_u. cbn [enc_u_fuel]. destruct (n <? 128); eexists _, _; reflexivity. Qed.

Lemma Some_inj {A} (a b : A) : Some a = Some b -> a = b.
Proof. intros H. injection H as H. exact H. Qed.
Lemma dec_enc_imm i bs rest : enc_imm i = Some bs -> wf_i i = true -> dec_imm (shape_of i) (bs ++ rest) = Some (i, rest).
Proof.
  destruct i as [| |a|a b|z|z|n|n|t|m|h|n|l|m l|ls]; cbn [enc_imm shape_of wf_i]; intros E W;
    try (apply Some_inj in E; subst bs; cbn [dec_imm]).
  - reflexivity.
  - reflexivity.
  - rewrite (dec_enc_u _ _ (u32_small _ W)). reflexivity.
  - apply andb_true_iff in W. destruct W as [Wa Wb].
    rewrite <- app_assoc, (dec_enc_u _ _ (u32_small _ Wa)), (dec_enc_u _ _ (u32_small _ Wb)). reflexivity.
  - rewrite (dec_enc_s z rest (ssmall_of z 31 W ltac:(lia))). reflexivity.
  - rewrite (dec_enc_s z rest (ssmall_of z 63 W ltac:(lia))). reflexivity.
  - apply N.ltb_lt in W. rewrite (le_val_le_bytes 4 n rest W). reflexivity.
  - apply N.ltb_lt in W. rewrite (le_val_le_bytes 8 n rest W). reflexivity.
  - rewrite <- app_assoc, (dec_enc_u 1 _ eq_refl). cbn [app]. rewrite valty_of_byte_byte. reflexivity.
  - rewrite (dec_enc_memarg m rest W). reflexivity.
  - destruct h; [| |discriminate]; apply Some_inj in E; subst bs; reflexivity.
  - apply N.ltb_lt in W. rewrite (le_val_le_bytes 16 n rest W). reflexivity.
  - reflexivity.
  - apply andb_true_iff in W. destruct W as [Wm Wl]. rewrite <- app_assoc, (dec_enc_memarg m _ Wm). reflexivity.
  - apply Nat.eqb_eq in W. rewrite (take_bytes_app 16 ls rest W). reflexivity.
Qed.

Definition key_ok (k : N * N) : bool := u32_ok (snd k) && (is_prefix (fst k) || (snd k =? 0)).
Lemma dec_enc_key k rest : key_ok k = true -> dec_key (enc_key k ++ rest) = Some (k, rest).
Proof.
  destruct k as [b s]. unfold key_ok, enc_key, dec_key. cbn [fst snd]. intros H.
  apply andb_true_iff in H. destruct H as [Hs Hp].
  destruct (is_prefix b) eqn:P.
  - cbn [app]. rewrite P, (dec_enc_u _ _ (u32_small _ Hs)). reflexivity.
  - cbn [app]. rewrite P. cbn [orb] in Hp. apply N.eqb_eq in Hp. subst. reflexivity.
Qed.
Lemma enc_key_head k : exists tl, enc_key k = fst k :: tl.
Proof. unfold enc_key. destruct (is_prefix (fst k)); eexists; reflexivity. Qed.

(* looking up the key of an element of a list finds that element, if the keys are the numbers from [k] on, in order ... *)
Fixpoint numbered {A} (key : A -> N) (k : N) (l : list A) : bool :=
  match l with [] => true | x :: r => (key x =? k) && numbered key (N.succ k) r end.
Lemma find_numbered {A} (key : A -> N) : forall l k, numbered key k l = true ->
  forall x, In x l -> k <= key x /\ find (fun y => key y =? key x) l = Some x.
Proof.
  induction l as [|a l IH]; intros k H x Hin; [destruct Hin|].
  cbn [numbered] in H. apply andb_true_iff in H. destruct H as [Ha Hl]. apply N.eqb_eq in Ha. cbn [find].
  destruct Hin as [->|Hin]; [rewrite N.eqb_refl; split; [lia|reflexivity]|].
  destruct (IH _ Hl x Hin) as [Hk Hf]. split; [lia|]. destruct (N.eqb_spec (key a) (key x)) as [E|_]; [lia|exact Hf].
Qed.
(* ... or pairwise different *)
Fixpoint distinct {K} (eqb : K -> K -> bool) (l : list K) : bool :=
  match l with [] => true | x :: r => negb (existsb (eqb x) r) && distinct eqb r end.
Lemma find_distinct {A K} (key : A -> K) (eqb : K -> K -> bool) (l : list A) :
  (forall a b, eqb a b = true <-> a = b) -> distinct eqb (map key l) = true ->
  forall r, In r l -> find (fun x => eqb (key x) (key r)) l = Some r.
Proof.
  intros Heq. induction l as [|x l IH]; intros D r Hin; [destruct Hin|].
  cbn [map distinct] in D. apply andb_true_iff in D. destruct D as [Dx Dl]. cbn [find].
  destruct Hin as [->|Hin]; [rewrite (proj2 (Heq _ _) eq_refl); reflexivity|].
  destruct (eqb (key x) (key r)) eqn:E; [|exact (IH Dl r Hin)].
  apply negb_true_iff in Dx. rewrite (proj2 (existsb_exists _ _)) in Dx; [discriminate|].
  exists (key r). split; [apply in_map; exact Hin|exact E].
Qed.
Lemma key_eqb_eq a b : key_eqb a b = true <-> a = b.
Proof.
  destruct a, b. unfold key_eqb. cbn [fst snd]. rewrite andb_true_iff, !N.eqb_eq. split; [intros [-> ->]; reflexivity|].
  intros H. injection H as -> ->. split; reflexivity.
Qed.

(* the facts about the table, each one evaluation:
   its opcodes can be written and are not those of the control instructions; the tags are the positions of the rows; no opcode
   occurs twice; *)
Lemma table_keys : forallb (fun r => key_ok (r_key r) && negb (is_ctl (fst (r_key r)))) optable = true.
Proof. vm_compute. reflexivity. Qed.
Lemma table_tags : numbered r_tag 0 optable = true.
Proof. vm_compute. reflexivity. Qed.
Lemma table_distinct : distinct key_eqb (map r_key optable) = true.
Proof. vm_compute. reflexivity. Qed.
(* what the constructor of a row builds splits into the row's tag and the immediates it was built from, which have the row's
   shape (the two lists are compared as wholes, once for each form of [i], so that the table is walked fifteen times and
   no proof is kept per row); *)
Lemma rows_split i :
  map (fun r => match r_mk r i with Some o => Some (op_split o, r_shape r) | None => None end) optable =
  map (fun r => match r_mk r i with Some _ => Some (r_tag r, i, shape_of i) | None => None end) optable.
Proof. destruct i; reflexivity. Qed.
(* and the one case analysis over [wop] that the theorems rest on: the row at the position of an operator's tag rebuilds it
   from its immediates. *)
Lemma op_row o :
  match nth_error optable (N.to_nat (fst (op_split o))) with
  | Some row => r_mk row (snd (op_split o)) = Some o
  | None => False
  end.
Proof. destruct o; vm_compute; reflexivity. Qed.

Lemma row_keys row : In row optable -> key_ok (r_key row) = true /\ is_ctl (fst (r_key row)) = false.
Proof.
  intros Hin. pose proof (proj1 (forallb_forall _ _) table_keys row Hin) as K. apply andb_true_iff in K. destruct K as [K1 K2].
  split; [exact K1|]. apply negb_true_iff in K2. exact K2.
Qed.
Lemma find_tag_row row : In row optable -> find_tag (r_tag row) = Some row.
Proof. intros Hin. exact (proj2 (find_numbered r_tag optable 0 table_tags row Hin)). Qed.
Lemma find_key_row row : In row optable -> find_key (r_key row) = Some row.
Proof. exact (find_distinct r_key key_eqb optable key_eqb_eq table_distinct row). Qed.
Lemma row_split row i o : In row optable -> r_mk row i = Some o -> op_split o = (r_tag row, i) /\ r_shape row = shape_of i.
Proof.
  intros Hin E. pose proof (proj1 map_ext_in_iff (rows_split i) row Hin) as H. cbv beta in H. rewrite E in H.
  injection H as H1 H2. split; [exact H1|exact H2].
Qed.
Lemma row_of_op o : exists row, In row optable /\ fst (op_split o) = r_tag row /\ r_shape row = shape_of (snd (op_split o)) /\
  r_mk row (snd (op_split o)) = Some o.
Proof.
  pose proof (op_row o) as Hm. destruct (nth_error optable _) as [row|] eqn:E; [|contradiction]. apply nth_error_In in E.
  destruct (row_split _ _ _ E Hm) as [Ho Hs]. exists row. rewrite Ho at 1. repeat split; assumption.
Qed.

(* so [enc_op] writes the opcode of the operator's row and then the immediates *)
Lemma enc_op_row row o : In row optable -> fst (op_split o) = r_tag row ->
  enc_op o = match enc_imm (snd (op_split o)) with Some bs => Some (enc_key (r_key row) ++ bs) | None => None end.
Proof. intros Hin Ht. unfold enc_op. rewrite Ht, (find_tag_row _ Hin). reflexivity. Qed.
(* and [dec_op] has read the opcode of a row and then the immediates of the operator it returns *)
Lemma dec_op_row bs o rest : dec_op bs = Some (o, rest) -> exists row r0, In row optable /\ fst (op_split o) = r_tag row /\
  dec_key bs = Some (r_key row, r0) /\ dec_imm (r_shape row) r0 = Some (snd (op_split o), rest).
Proof.
  unfold dec_op. intros H. destruct (dec_key bs) as [[k r0]|]; [|discriminate].
  destruct (find_key k) as [row|] eqn:Fk; [|discriminate]. apply find_some in Fk. destruct Fk as [Hin Hk]. apply key_eqb_eq in Hk.
  destruct (dec_imm (r_shape row) r0) as [[i r1]|] eqn:Ei; [|discriminate]. destruct (r_mk row i) as [o'|] eqn:Em; [|discriminate].
  injection H as <- <-. destruct (row_split _ _ _ Hin Em) as [Ho _]. exists row, r0. rewrite Ho. subst k. repeat split; assumption.
Qed.

Theorem covered_all : forall o, covered o = true.
Proof. intros o. destruct (row_of_op o) as (row & Hin & Ht & _). unfold covered. rewrite Ht, (find_tag_row _ Hin). reflexivity. Qed.
(* the tags of [op_split] are the constructor numbers of Gen/Ops.v *)
Lemma op_split_tag : forall o, fst (op_split o) = hd 0 (wop_code o).
Proof. destruct o; reflexivity. Qed.

Theorem dec_enc_op o bs rest : enc_op o = Some bs -> wf_op o = true -> dec_op (bs ++ rest) = Some (o, rest).
Proof.
  unfold wf_op. intros E W. destruct (row_of_op o) as (row & Hin & Ht & Hs & Hm). rewrite (enc_op_row _ _ Hin Ht) in E.
  destruct (enc_imm (snd (op_split o))) as [ib|] eqn:Ei; [|discriminate]. injection E as <-.
  unfold dec_op. rewrite <- app_assoc, (dec_enc_key _ _ (proj1 (row_keys _ Hin))), (find_key_row _ Hin), Hs,
    (dec_enc_imm _ _ rest Ei W), Hm. reflexivity.
Qed.
Lemma enc_op_head o bs : enc_op o = Some bs -> exists b tl, bs = b :: tl /\ is_ctl b = false.
Proof.
  destruct (row_of_op o) as (row & Hin & Ht & _). rewrite (enc_op_row _ _ Hin Ht). intros E.
  destruct (enc_imm (snd (op_split o))) as [ib|]; [|discriminate]. injection E as <-.
  destruct (enc_key_head (r_key row)) as [tl ->]. eexists _, _. split; [reflexivity|exact (proj2 (row_keys _ Hin))].
Qed.
(* the immediates outside the model are the heap types other than func / extern, and they are not in range *)
Lemma enc_imm_total i : wf_i i = true -> exists bs, enc_imm i = Some bs.
Proof. destruct i as [| | | | | | | | | |[| |]| | | |]; intros W; try discriminate W; eexists; reflexivity. Qed.
Lemma enc_op_some o : (exists ib, enc_imm (snd (op_split o)) = Some ib) -> exists bs, enc_op o = Some bs.
Proof. intros [ib Ei]. destruct (row_of_op o) as (row & Hin & Ht & _). rewrite (enc_op_row _ _ Hin Ht), Ei. eexists. reflexivity. Qed.
(* every operator whose immediates are in range has an encoding *)
Theorem enc_op_total o : wf_op o = true -> exists bs, enc_op o = Some bs.
Proof. intros W. exact (enc_op_some o (enc_imm_total _ W)). Qed.

Lemma dec_ins_nonctl b r : is_ctl b = false ->
  dec_ins (b :: r) = match dec_op (b :: r) with Some (o, r') => Some (WOp o, r') | None => None end.
Proof.
  unfold is_ctl. intros H. repeat (apply orb_false_iff in H; destruct H as [H ?]).
  cbn [dec_ins]. repeat match goal with E : (b =? _) = false |- _ => rewrite E; clear E end. reflexivity.
Qed.
Lemma dec_u_list_app : forall ds tl, forallb u32_ok ds = true ->
  dec_u_list (length ds) (flat_map enc_u ds ++ tl) = Some (ds, tl).
Proof.
  induction ds as [|d ds IH]; intros tl H; [reflexivity|].
  cbn [forallb] in H. apply andb_true_iff in H. destruct H as [Hd Hds].
  cbn [length flat_map dec_u_list]. rewrite <- app_assoc, (dec_enc_u _ _ (u32_small _ Hd)), (IH _ Hds). reflexivity.
Qed.

Theorem dec_enc_ins i bs rest : enc_ins i = Some bs -> wf_imm i = true -> dec_ins (bs ++ rest) = Some (i, rest).
Proof.
  destruct i as [o|bt|bt|bt| | |d|d|ds d| ]; cbn [enc_ins wf_imm]; intros E W;
    try (apply Some_inj in E; subst bs; cbn [app dec_ins N.eqb Pos.eqb]); try reflexivity.
  - destruct (enc_op_head _ _ E) as (b & tl & -> & C). pose proof (dec_enc_op o _ rest E W) as D.
    cbn [app] in *. rewrite (dec_ins_nonctl _ _ C), D. reflexivity.
  - rewrite (dec_enc_blockty _ _ W). reflexivity.
  - rewrite (dec_enc_blockty _ _ W). reflexivity.
  - rewrite (dec_enc_blockty _ _ W). reflexivity.
  - rewrite (dec_enc_u _ _ (u32_small _ W)). reflexivity.
  - rewrite (dec_enc_u _ _ (u32_small _ W)). reflexivity.
  - apply andb_true_iff in W. destruct W as [W Wl]. apply andb_true_iff in W. destruct W as [Wds Wd].
    rewrite <- !app_assoc, (dec_enc_u _ _ (u32_small _ Wl)). unfold lenB at 1. rewrite Nat2N.id.
    rewrite (dec_u_list_app ds _ Wds), (dec_enc_u _ _ (u32_small _ Wd)). reflexivity.
Qed.

(* prefix-freeness, as a corollary: two encoded instructions followed by anything agree only if they are the same *)
Corollary enc_ins_prefix_free i j a b r1 r2 :
  enc_ins i = Some a -> enc_ins j = Some b -> wf_imm i = true -> wf_imm j = true ->
  a ++ r1 = b ++ r2 -> i = j /\ r1 = r2.
Proof.
  intros Ei Ej Wi Wj E. pose proof (dec_enc_ins i a r1 Ei Wi) as A. pose proof (dec_enc_ins j b r2 Ej Wj) as B.
  rewrite E, B in A. injection A as <- <-. split; reflexivity.
Qed.

Lemma enc_ins_nonempty i bs : enc_ins i = Some bs -> exists b tl, bs = b :: tl.
Proof.
  destruct i as [o|bt|bt|bt| | |d|d|ds d| ]; cbn [enc_ins]; intros E;
    try (apply Some_inj in E; subst bs; eexists _, _; reflexivity).
  destruct (enc_op_head _ _ E) as (b & tl & -> & _). eexists _, _. reflexivity.
Qed.
Theorem enc_ins_length_positive i bs : enc_ins i = Some bs -> 0 < lenB bs.
Proof. intros E. destruct (enc_ins_nonempty _ _ E) as (b & tl & ->). rewrite lenB_cons. lia. Qed.
Corollary ilen_model_positive i n : ilen_model i = Some n -> 0 < n.
Proof.
  unfold ilen_model. destruct (enc_ins i) as [bs|] eqn:E; [|discriminate]. intros H. apply Some_inj in H. subst n.
  exact (enc_ins_length_positive _ _ E).
Qed.


Lemma dec_local_groups_app : forall l rest, forallb wf_local l = true ->
  dec_local_groups (length l) (flat_map enc_local l ++ rest) = Some (l, rest).
Proof.
  induction l as [|[n t] l IH]; intros rest H; [reflexivity|].
  cbn [forallb] in H. apply andb_true_iff in H. destruct H as [Hn Hl]. unfold wf_local in Hn. cbn [fst] in Hn.
  cbn [length flat_map dec_local_groups]. unfold enc_local at 1. cbn [fst snd].
  rewrite <- !app_assoc, (dec_enc_u _ _ (u32_small _ Hn)). cbn [app]. rewrite valty_of_byte_byte, (IH _ Hl). reflexivity.
Qed.
Lemma dec_enc_locals l rest : forallb wf_local l = true -> u32_ok (lenB l) = true ->
  dec_locals (enc_locals l ++ rest) = Some (l, rest).
Proof.
  intros H Hn. unfold dec_locals, enc_locals. rewrite <- app_assoc, (dec_enc_u _ _ (u32_small _ Hn)).
  unfold lenB. rewrite Nat2N.id. apply dec_local_groups_app. exact H.
Qed.

Lemma dec_enc_inss : forall ops bs, enc_inss ops = Some bs -> forallb wf_imm ops = true ->
  forall fuel, (length ops <= fuel)%nat -> dec_inss fuel bs = Some ops.
Proof.
  induction ops as [|i ops IH]; intros bs E W fuel F.
  - apply Some_inj in E. subst bs. destruct fuel; reflexivity.
  - cbn [enc_inss] in E. destruct (enc_ins i) as [a|] eqn:Ei; [|discriminate].
    destruct (enc_inss ops) as [b|] eqn:Eo; [|discriminate]. apply Some_inj in E. subst bs.
    cbn [forallb] in W. apply andb_true_iff in W. destruct W as [Wi Wo].
    destruct fuel as [|fuel]; [cbn [length] in F; lia|].
    pose proof (dec_enc_ins i a b Ei Wi) as D.
    destruct (enc_ins_nonempty _ _ Ei) as (x & tl & ->). cbn [app] in *. cbn [dec_inss]. rewrite D.
    rewrite (IH b eq_refl Wo fuel) by (cbn [length] in F; lia). reflexivity.
Qed.

Theorem dec_enc_body locals ops bs : enc_body locals ops = Some bs -> wf_body locals ops = true ->
  forall fuel, (length ops <= fuel)%nat -> dec_body fuel bs = Some (locals, ops).
Proof.
  unfold enc_body, wf_body. intros E W fuel F.
  destruct (enc_inss ops) as [ib|] eqn:Eo; [|discriminate]. apply Some_inj in E. subst bs.
  apply andb_true_iff in W. destruct W as [W Wo]. apply andb_true_iff in W. destruct W as [Wl Wn].
  unfold dec_body. rewrite (dec_enc_locals _ _ Wl Wn), (dec_enc_inss _ _ Eo Wo fuel F). reflexivity.
Qed.

Fixpoint sum_ilen (ops : list wins) : option N :=
  match ops with
  | [] => Some 0
  | i :: r => match ilen_model i, sum_ilen r with Some n, Some s => Some (n + s) | _, _ => None end
  end.
Lemma enc_inss_length : forall ops bs, enc_inss ops = Some bs -> sum_ilen ops = Some (lenB bs).
Proof.
  induction ops as [|i ops IH]; intros bs E.
  - apply Some_inj in E. subst bs. reflexivity.
  - cbn [enc_inss] in E. cbn [sum_ilen]. unfold ilen_model. destruct (enc_ins i) as [a|]; [|discriminate].
    destruct (enc_inss ops) as [b|]; [|discriminate]. apply Some_inj in E. subst bs.
    rewrite (IH b eq_refl), lenB_app. reflexivity.
Qed.
Theorem enc_body_length locals ops bs : enc_body locals ops = Some bs ->
  exists s, sum_ilen ops = Some s /\ lenB bs = lenB (enc_locals locals) + s.
Proof.
  unfold enc_body. intros E. destruct (enc_inss ops) as [ib|] eqn:Eo; [|discriminate]. apply Some_inj in E. subst bs.
  exists (lenB ib). split; [exact (enc_inss_length _ _ Eo)|apply lenB_app].
Qed.
Lemma sum_ilen_ge_length : forall ops s, sum_ilen ops = Some s -> N.of_nat (length ops) <= s.
Proof.
  induction ops as [|i ops IH]; intros s E.
  - apply Some_inj in E. subst s. cbn. lia.
  - cbn [sum_ilen] in E. destruct (ilen_model i) as [n|] eqn:En; [|discriminate].
    destruct (sum_ilen ops) as [s'|]; [|discriminate]. apply Some_inj in E. subst s.
    pose proof (ilen_model_positive _ _ En). pose proof (IH s' eq_refl). cbn [length]. lia.
Qed.
(* the fuel the harness uses: the number of bytes *)
Corollary dec_enc_body_bytes locals ops bs : enc_body locals ops = Some bs -> wf_body locals ops = true ->
  dec_body (length bs) bs = Some (locals, ops).
Proof.
  intros E W. apply (dec_enc_body _ _ _ E W).
  destruct (enc_body_length _ _ _ E) as (s & Hs & Hl). pose proof (sum_ilen_ge_length _ _ Hs). unfold lenB in Hl at 1. lia.
Qed.

(* [ilen_model], made total, is an instance of the length parameter of Model/EmitFn.v ([ex_ilen]); on covered
   instructions it is the real byte length, it is positive everywhere, and the offsets the harness reads off
   wasmparser are the running sums *)
Definition ilen_total (i : wins) : N := match ilen_model i with Some n => n | None => 1 end.
Theorem ilen_total_positive i : 0 < ilen_total i.
Proof. unfold ilen_total. destruct (ilen_model i) as [n|] eqn:E; [exact (ilen_model_positive _ _ E)|lia]. Qed.
Notation pos_of := ModFix10.pos_of.
Theorem ins_offsets_pos_of : forall ops cur l, ins_offsets cur ops = Some l -> l = pos_of ilen_total cur ops.
Proof.
  induction ops as [|i ops IH]; intros cur l E.
  - apply Some_inj in E. subst l. reflexivity.
  - cbn [ins_offsets] in E. cbn [ModFix10.pos_of]. destruct (ilen_model i) as [n|] eqn:En; [|discriminate].
    assert (T : ilen_total i = n) by (unfold ilen_total; rewrite En; reflexivity). rewrite T.
    destruct (ins_offsets (cur + n) ops) as [l'|] eqn:E'; [|discriminate]. apply Some_inj in E. subst l.
    rewrite (IH _ _ E'). reflexivity.
Qed.
Theorem ins_offsets_total : forall ops bs cur, enc_inss ops = Some bs -> exists l, ins_offsets cur ops = Some l.
Proof.
  induction ops as [|i ops IH]; intros bs cur E; [eexists; reflexivity|].
  cbn [enc_inss] in E. cbn [ins_offsets]. unfold ilen_model. destruct (enc_ins i) as [a|]; [|discriminate].
  destruct (enc_inss ops) as [b|] eqn:Eo; [|discriminate].
  destruct (IH b (cur + lenB a) eq_refl) as [l El]. rewrite El. eexists; reflexivity.
Qed.

(* the positions the Emit visitor model (Model/EmitFn.v) records, when its length parameter is [ilen_total] and it starts at
   the length of the locals vector, are the byte offsets of the instructions inside the encoded body *)
Theorem emitted_positions_are_byte_offsets cx ecx ety rs l eloc p0 ar1 st1 fuel1 ib :
  ParseSpec.wfl cx 1 l -> ModFix10.enc_ok cx ecx ->
  ParseFn.parse_body cx ety rs (ParseSpec.flat_list l ++ [(WEnd, eloc)]) = Common.Ok ar1 ->
  EmitFn.emit_body ecx fuel1 ar1 0 p0 = Common.Ok st1 ->
  EmitFn.ex_ilen ecx = ilen_total -> enc_inss (EmitFn.out st1) = Some ib ->
  ins_offsets p0 (EmitFn.out st1) = Some (map snd (EmitFn.imap st1)).
Proof.
  intros Hw He Hp Hb Hil Henc.
  destruct (ModFix10.emitted_positions _ _ _ _ _ _ _ _ _ _ Hw He Hp Hb) as [P _].
  destruct (ins_offsets_total _ _ p0 Henc) as [l0 El]. rewrite El, P, Hil. f_equal. exact (ins_offsets_pos_of _ _ _ El).
Qed.

Lemma enc_bodies_length : forall bodies bytess, enc_bodies bodies = Some bytess -> length bytess = length bodies.
Proof.
  induction bodies as [|b r IH]; intros bytess E.
  - apply Some_inj in E. subst. reflexivity.
  - cbn [enc_bodies] in E. destruct (enc_body (fst b) (snd b)) as [x|]; [|discriminate]. destruct (enc_bodies r) as [l'|]; [|discriminate].
    apply Some_inj in E. subst. cbn [length]. rewrite (IH l' eq_refl). reflexivity.
Qed.
Lemma dec_enc_bodies : forall bodies bytess, enc_bodies bodies = Some bytess ->
  forallb (fun b => wf_body (fst b) (snd b)) bodies = true -> dec_bodies bytess = Some bodies.
Proof.
  induction bodies as [|[ls ops] r IH]; intros bytess E W.
  - apply Some_inj in E. subst. reflexivity.
  - cbn [enc_bodies fst snd] in E. destruct (enc_body ls ops) as [x|] eqn:Ex; [|discriminate].
    destruct (enc_bodies r) as [l|] eqn:El; [|discriminate]. apply Some_inj in E. subst.
    cbn [forallb fst snd] in W. apply andb_true_iff in W. destruct W as [Wb Wr].
    cbn [dec_bodies]. rewrite (dec_enc_body_bytes _ _ _ Ex Wb), (IH l eq_refl Wr). reflexivity.
Qed.

(* bodies b1..bn with bytes_k: the code section payload splits back into the bytes_k, and each decodes to its body *)
Theorem code_section_bytes bodies bytess :
  enc_bodies bodies = Some bytess -> Forall small bytess -> lenN bytess < 2 ^ 126 ->
  forallb (fun b => wf_body (fst b) (snd b)) bodies = true ->
  split_code (code_payload bytess) = Some bytess /\ dec_bodies bytess = Some bodies.
Proof.
  intros E S L W. split; [exact (split_code_payload _ S L)|exact (dec_enc_bodies _ _ E W)].
Qed.
Corollary dec_code_section bodies bytess payload :
  enc_bodies bodies = Some bytess -> Forall small bytess -> lenN bytess < 2 ^ 126 ->
  forallb (fun b => wf_body (fst b) (snd b)) bodies = true ->
  enc_code bodies = Some payload -> dec_code payload = Some bodies.
Proof.
  intros E S L W P. unfold enc_code in P. rewrite E in P. apply Some_inj in P. subst payload.
  unfold dec_code. destruct (code_section_bytes _ _ E S L W) as [A B]. rewrite A. exact B.
Qed.

(* where an instruction is: the j-th instruction of the k-th body is decoded at  (start of body k) + (offset j)  of the payload *)
Lemma skipn_add {A} : forall a b (l : list A), skipn (a + b) l = skipn b (skipn a l).
Proof.
  induction a as [|a IH]; intros b l; [reflexivity|].
  destruct l as [|x l]; [cbn [Nat.add skipn]; now rewrite skipn_nil|]. cbn [Nat.add skipn]. apply IH.
Qed.
Lemma dropN_add {A} a b (l : list A) : dropN (a + b) l = dropN b (dropN a l).
Proof. unfold dropN. rewrite N2Nat.inj_add. apply skipn_add. Qed.
Lemma enc_inss_at : forall ops ib cur offs j i off,
  enc_inss ops = Some ib -> ins_offsets cur ops = Some offs ->
  nth_error ops j = Some i -> nth_error offs j = Some off ->
  exists pre a post, ib = pre ++ a ++ post /\ enc_ins i = Some a /\ off = cur + lenB pre.
Proof.
  induction ops as [|i0 ops IH]; intros ib cur offs j i off E O Hi Ho; [destruct j; discriminate|].
  cbn [enc_inss] in E. cbn [ins_offsets] in O. unfold ilen_model in O.
  destruct (enc_ins i0) as [a0|] eqn:E0; [|discriminate]. destruct (enc_inss ops) as [b|] eqn:Eo; [|discriminate].
  apply Some_inj in E. subst ib.
  destruct (ins_offsets (cur + lenB a0) ops) as [l'|] eqn:O'; [|discriminate]. apply Some_inj in O. subst offs.
  destruct j as [|j]; cbn [nth_error] in Hi, Ho.
  - apply Some_inj in Hi. apply Some_inj in Ho. subst. exists [], a0, b. split; [reflexivity|]. split; [exact E0|]. cbn. lia.
  - destruct (IH b _ _ j i off eq_refl O' Hi Ho) as (pre & a & post & -> & Ea & ->).
    exists (a0 ++ pre), a, post. split; [rewrite <- app_assoc; reflexivity|]. split; [exact Ea|]. rewrite lenB_app. lia.
Qed.
Theorem ins_at_offset bodies bytess k locals ops s t offs j i off :
  enc_bodies bodies = Some bytess ->
  nth_error bodies k = Some (locals, ops) -> nth_error (code_entry_offsets bytess) k = Some (s, t) ->
  ins_offsets (lenB (enc_locals locals)) ops = Some offs ->
  nth_error ops j = Some i -> nth_error offs j = Some off -> wf_imm i = true ->
  exists rest, dec_ins (dropN (t + off) (code_payload bytess)) = Some (i, rest).
Proof.
  intros E Hk Ht O Hi Ho W.
  assert (Hb : exists b ib, nth_error bytess k = Some b /\ enc_inss ops = Some ib /\ b = enc_locals locals ++ ib).
  { clear Ht. revert bytess k E Hk. induction bodies as [|b0 r IH]; intros bytess k E Hk; [destruct k; discriminate|].
    cbn [enc_bodies] in E. destruct (enc_body (fst b0) (snd b0)) as [x|] eqn:Ex; [|discriminate].
    destruct (enc_bodies r) as [l|] eqn:El; [|discriminate]. apply Some_inj in E. subst bytess.
    destruct k as [|k]; cbn [nth_error] in *.
    - apply Some_inj in Hk. subst b0. cbn [fst snd] in Ex. unfold enc_body in Ex.
      destruct (enc_inss ops) as [ib|]; [|discriminate]. apply Some_inj in Ex. subst x. eexists _, _. repeat split.
    - exact (IH l k eq_refl Hk). }
  destruct Hb as (b & ib & Hb & Eo & ->).
  destruct (enc_inss_at _ _ _ _ _ _ _ Eo O Hi Ho) as (pre & a & post & -> & Ea & ->).
  pose proof (code_entry_body _ _ _ _ _ Ht Hb) as B.
  pose proof (firstn_skipn (N.to_nat (lenN (enc_locals locals ++ pre ++ a ++ post))) (dropN t (code_payload bytess))) as FS.
  unfold takeN in B. rewrite B in FS.
  rewrite dropN_add.
  remember (skipn (N.to_nat (lenN (enc_locals locals ++ pre ++ a ++ post))) (dropN t (code_payload bytess))) as R eqn:ER in FS.
  rewrite <- FS, <- lenB_app. change (lenB (enc_locals locals ++ pre)) with (lenN (enc_locals locals ++ pre)).
  replace ((enc_locals locals ++ pre ++ a ++ post) ++ R) with ((enc_locals locals ++ pre) ++ a ++ post ++ R)
    by (rewrite <- !app_assoc; reflexivity).
  rewrite dropN_lenN_app. eexists. apply (dec_enc_ins _ _ _ Ea W).
Qed.

(* the table of operators without immediates, as data: 359 rows, each the model's encoding *)
Lemma simple_ops_count : length simple_ops = 359%nat.
Proof. vm_compute. reflexivity. Qed.
Lemma simple_ops_enc : forallb (fun p => match enc_op (fst p) with Some bs => IR.nlist_eqb bs (snd p) | None => false end) simple_ops = true.
Proof.
  apply forallb_forall. intros [o bs] Hin. apply in_flat_map in Hin. destruct Hin as (r & Hr & Hp).
  destruct (r_shape r), (r_mk r I_none) as [o'|] eqn:Em; try (destruct Hp; fail). destruct Hp as [Hp|[]]. injection Hp as <- <-.
  destruct (row_split _ _ _ Hr Em) as [Ho _]. cbn [fst snd]. rewrite (enc_op_row r o' Hr), Ho by (rewrite Ho; reflexivity).
  cbn [snd enc_imm]. rewrite app_nil_r. induction (enc_key (r_key r)) as [|x l IH]; [reflexivity|]. cbn [IR.nlist_eqb].
  rewrite N.eqb_refl. exact IH.
Qed.

(* Whatever one of the readers accepts, the writer can write the value it returns, and the writer's bytes are not longer than
   the bytes the reader consumed (padding of LEB128 is the only slack).  No range premise: a value too large for the
   writer's fuel is cut off, which makes its bytes shorter still.  That every instruction consumes a byte, that the number
   of bytes is enough fuel, and the normal form are corollaries. *)
Lemma dec_u_cons b t : dec_u (b :: t) =
  if b <? 128 then Some (b, t) else match dec_u t with Some (v, r') => Some (N.land b 127 + 128 * v, r') | None => None end.
Proof. reflexivity. Qed.
Lemma dec_s_cons b t : dec_s (b :: t) =
  if b <? 128 then Some (if b <? 64 then Z.of_N b else (Z.of_N b - 128)%Z, t)
  else match dec_s t with Some (v, r') => Some ((Z.of_N (N.land b 127) + 128 * v)%Z, r') | None => None end.
Proof. reflexivity. Qed.
Lemma Some_pair_inj {A B} (a a' : A) (b b' : B) : Some (a, b) = Some (a', b') -> a = a' /\ b = b'.
Proof. intros H. inversion H. split; reflexivity. Qed.
Local Open Scope nat_scope.
(* [got H]: the reader returned this, so its value and its rest are known ([injection] would evaluate the arithmetic of the value);
   [returned H]: and the writer's bytes for the value are named *)
Ltac got H := apply Some_pair_inj in H; destruct H as [<- <-].
Ltac returned H := got H; eexists; split; [reflexivity|].

Lemma enc_u_fuel_minimal : forall bs f v r, dec_u bs = Some (v, r) -> length (enc_u_fuel f v) + length r <= length bs.
Proof.
  induction bs as [|b t IH]; intros f v r H; [discriminate|].
  rewrite dec_u_cons in H. destruct (b <? 128)%N eqn:Eb.
  - got H. destruct f; cbn [enc_u_fuel]; [|rewrite Eb]; cbn [length]; lia.
  - destruct (dec_u t) as [[v' r']|] eqn:Et; [|discriminate]. got H.
    pose proof (IH 0 v' r' eq_refl) as L. cbn [enc_u_fuel length] in L.
    destruct f as [|f]; cbn [enc_u_fuel]; [cbn [length]; lia|]. destruct (N.land b 127 + 128 * v' <? 128)%N; cbn [length]; [lia|].
    rewrite shiftr7.
    assert (Q : ((N.land b 127 + 128 * v') / 128 = v')%N).
    { pose proof (mod128_lt b) as X. rewrite <- land127 in X.
      rewrite N.add_comm, N.mul_comm, N.div_add_l by discriminate. rewrite (N.div_small _ _ X). lia. }
    rewrite Q. specialize (IH f v' r' eq_refl). lia.
Qed.
Lemma enc_u_minimal bs v r : dec_u bs = Some (v, r) -> length (enc_u v) + length r <= length bs.
Proof. apply enc_u_fuel_minimal. Qed.
Lemma dec_u_len bs v r : dec_u bs = Some (v, r) -> length r < length bs.
Proof. intros H. pose proof (enc_u_fuel_minimal _ 0 _ _ H) as L. cbn [enc_u_fuel length] in L. lia. Qed.

Lemma enc_s_fuel_minimal : forall bs f z r, dec_s bs = Some (z, r) -> length (enc_s_fuel f z) + length r <= length bs.
Proof.
  induction bs as [|b t IH]; intros f z r H; [discriminate|].
  rewrite dec_s_cons in H. destruct (b <? 128)%N eqn:Eb.
  - got H. apply N.ltb_lt in Eb.
    destruct f as [|f]; [cbn [enc_s_fuel length]; lia|]. cbn [enc_s_fuel].
    set (z := if (b <? 64)%N then Z.of_N b else (Z.of_N b - 128)%Z).
    pose proof (sbyte_Z z) as HB. pose proof (zmod128_range z) as HR. pose proof (zdivmod128 z) as HD.
    rewrite zshiftr7. set (x := Z.to_N (Z.land z 127)) in *.
    assert (C : ((z / 128 =? 0)%Z && (x <? 64)%N) || ((z / 128 =? -1)%Z && (64 <=? x)%N) = true).
    { apply orb_true_iff. subst z. destruct (b <? 64)%N eqn:E6.
      - apply N.ltb_lt in E6. left. apply andb_true_iff. split.
        + apply Z.eqb_eq. apply Z.div_small. lia.
        + apply N.ltb_lt. assert (Z.of_N b / 128 = 0)%Z by (apply Z.div_small; lia). lia.
      - apply N.ltb_ge in E6. right.
        assert (Q : ((Z.of_N b - 128) / 128 = -1)%Z).
        { replace (Z.of_N b - 128)%Z with (Z.of_N b + (-1) * 128)%Z by lia. rewrite Z.div_add by lia.
          rewrite Z.div_small by lia. reflexivity. }
        apply andb_true_iff. split; [apply Z.eqb_eq; exact Q|]. apply N.leb_le. lia. }
    rewrite C. clear. cbn [length]. lia.
  - destruct (dec_s t) as [[v r']|] eqn:Et; [|discriminate]. got H.
    pose proof (IH 0 v r' eq_refl) as L. cbn [enc_s_fuel length] in L.
    destruct f as [|f]; [cbn [enc_s_fuel length]; lia|]. cbn [enc_s_fuel].
    destruct (_ || _); [cbn [length]; lia|]. cbn [length]. rewrite zshiftr7.
    assert (X : (0 <= Z.of_N (N.land b 127) < 128)%Z)
      by (clear; pose proof (mod128_lt b) as M; rewrite land127; generalize dependent (b mod 128)%N; intros; lia).
    assert (Q : ((Z.of_N (N.land b 127) + 128 * v) / 128 = v)%Z).
    { rewrite Z.add_comm, Z.mul_comm, Z.div_add_l by lia. rewrite (Z.div_small _ _ X). lia. }
    rewrite Q. specialize (IH f v r' eq_refl). lia.
Qed.
Lemma enc_s_minimal bs z r : dec_s bs = Some (z, r) -> length (enc_s z) + length r <= length bs.
Proof. apply enc_s_fuel_minimal. Qed.

Lemma le_val_len : forall k bs v r, le_val k bs = Some (v, r) -> length bs = k + length r.
Proof.
  induction k as [|k IH]; intros bs v r H.
  - got H. reflexivity.
  - cbn [le_val] in H. destruct bs as [|b bs]; [discriminate|]. destruct (le_val k bs) as [[v' r']|] eqn:E; [|discriminate].
    got H. cbn [length]. rewrite (IH _ _ _ E). lia.
Qed.
Lemma take_bytes_inv : forall k bs l r, take_bytes k bs = Some (l, r) -> bs = l ++ r.
Proof.
  induction k as [|k IH]; intros bs l r H.
  - got H. reflexivity.
  - cbn [take_bytes] in H. destruct bs as [|b bs]; [discriminate|]. destruct (take_bytes k bs) as [[l' r']|] eqn:E; [|discriminate].
    got H. cbn [app]. rewrite (IH _ _ _ E). reflexivity.
Qed.

Lemma dec_blockty_minimal bs b r : dec_blockty bs = Some (b, r) -> length (enc_blockty b) + length r <= length bs.
Proof.
  unfold dec_blockty. destruct bs as [|x bs]; [discriminate|]. intros H. destruct (x =? 64)%N.
  - got H. cbn [enc_blockty length]. lia.
  - destruct (valty_of_byte x).
    + got H. cbn [enc_blockty length]. lia.
    + destruct (dec_s (x :: bs)) as [[z r0]|] eqn:E; [|discriminate].
      destruct (Z.leb_spec 0 z) as [Hz|]; [|discriminate]. got H.
      cbn [enc_blockty]. rewrite Z2N.id by exact Hz. exact (enc_s_minimal _ _ _ E).
Qed.
Lemma dec_memarg_minimal bs m r : dec_memarg bs = Some (m, r) -> length (enc_memarg m) + length r <= length bs.
Proof.
  unfold dec_memarg. intros H. destruct (dec_u bs) as [[fl r0]|] eqn:E0; [|discriminate]. pose proof (enc_u_minimal _ _ _ E0) as M0.
  destruct (N.ltb_spec fl 64) as [F|F].
  - destruct (dec_u r0) as [[off r1]|] eqn:E1; [|discriminate]. got H.
    unfold enc_memarg. cbn [wa_align wa_offset wa_memory N.eqb]. rewrite app_length. pose proof (enc_u_minimal _ _ _ E1). lia.
  - destruct (N.ltb_spec fl 128) as [F2|F2]; [|discriminate].
    destruct (dec_u r0) as [[mem r1]|] eqn:E1; [|discriminate]. destruct (dec_u r1) as [[off r2]|] eqn:E2; [|discriminate].
    got H. pose proof (enc_u_minimal _ _ _ E1) as M1. pose proof (enc_u_minimal _ _ _ E2) as M2.
    unfold enc_memarg. cbn [wa_align wa_offset wa_memory]. destruct (mem =? 0)%N.
    + pose proof (dec_u_len _ _ _ E0). pose proof (dec_u_len _ _ _ E1).
      rewrite app_length, (enc_u_one_byte (fl - 64)) by lia. cbn [length]. lia.
    + rewrite (lor64 (fl - 64)) by lia. replace (fl - 64 + 64)%N with fl by lia. rewrite !app_length. lia.
Qed.

Lemma dec_imm_minimal s bs i r : dec_imm s bs = Some (i, r) -> exists c, enc_imm i = Some c /\ length c + length r <= length bs.
Proof.
  destruct s; cbn [dec_imm]; intros H.
  - returned H. cbn [length]. lia.
  - destruct bs as [|b bs]; [discriminate|]. destruct (b =? 0)%N; [|discriminate]. returned H. cbn [length]. lia.
  - destruct (dec_u bs) as [[a r0]|] eqn:E; [|discriminate]. returned H. exact (enc_u_minimal _ _ _ E).
  - destruct (dec_u bs) as [[a r0]|] eqn:E; [|discriminate]. destruct (dec_u r0) as [[b r1]|] eqn:E1; [|discriminate]. returned H.
    rewrite app_length. pose proof (enc_u_minimal _ _ _ E). pose proof (enc_u_minimal _ _ _ E1). lia.
  - destruct (dec_s bs) as [[a r0]|] eqn:E; [|discriminate]. returned H. exact (enc_s_minimal _ _ _ E).
  - destruct (dec_s bs) as [[a r0]|] eqn:E; [|discriminate]. returned H. exact (enc_s_minimal _ _ _ E).
  - destruct (le_val 4 bs) as [[a r0]|] eqn:E; [|discriminate]. returned H. rewrite le_bytes_length, (le_val_len _ _ _ _ E). lia.
  - destruct (le_val 8 bs) as [[a r0]|] eqn:E; [|discriminate]. returned H. rewrite le_bytes_length, (le_val_len _ _ _ _ E). lia.
  - destruct (dec_u bs) as [[k [|b r0]]|] eqn:E; try discriminate. destruct (k =? 1)%N; [|discriminate].
    destruct (valty_of_byte b); [|discriminate]. returned H. apply dec_u_len in E.
    rewrite app_length, (enc_u_one_byte 1) by lia. cbn [length] in *. lia.
  - destruct (dec_memarg bs) as [[m r0]|] eqn:E; [|discriminate]. returned H. exact (dec_memarg_minimal _ _ _ E).
  - destruct bs as [|b bs]; [discriminate|]. destruct (b =? 112)%N; [returned H; cbn [length]; lia|].
    destruct (b =? 111)%N; [returned H; cbn [length]; lia|discriminate].
  - destruct (le_val 16 bs) as [[a r0]|] eqn:E; [|discriminate]. returned H. rewrite le_bytes_length, (le_val_len _ _ _ _ E). lia.
  - destruct bs as [|b bs]; [discriminate|]. returned H. cbn [length]. lia.
  - destruct (dec_memarg bs) as [[m [|b r0]]|] eqn:E; try discriminate. returned H.
    apply dec_memarg_minimal in E. rewrite app_length. cbn [length] in *. lia.
  - destruct (take_bytes 16 bs) as [[a r0]|] eqn:E; [|discriminate]. returned H. rewrite (take_bytes_inv _ _ _ _ E), app_length. lia.
Qed.
Lemma dec_key_minimal bs k r : dec_key bs = Some (k, r) -> length (enc_key k) + length r <= length bs.
Proof.
  unfold dec_key, enc_key. destruct bs as [|b bs]; [discriminate|]. intros H. destruct (is_prefix b) eqn:P.
  - destruct (dec_u bs) as [[s r0]|] eqn:E; [|discriminate]. got H.
    cbn [fst snd]. rewrite P. pose proof (enc_u_minimal _ _ _ E). cbn [length]. lia.
  - got H. cbn [fst snd]. rewrite P. cbn [length]. lia.
Qed.
Theorem dec_op_minimal bs o r : dec_op bs = Some (o, r) -> exists c, enc_op o = Some c /\ length c + length r <= length bs.
Proof.
  intros H. destruct (dec_op_row _ _ _ H) as (row & r0 & Hin & Ht & Ek & Ei). destruct (dec_imm_minimal _ _ _ _ Ei) as (ci & Eci & Mi).
  rewrite (enc_op_row _ _ Hin Ht), Eci. eexists. split; [reflexivity|]. rewrite app_length. pose proof (dec_key_minimal _ _ _ Ek). lia.
Qed.

Lemma dec_u_list_minimal : forall k bs ds r, dec_u_list k bs = Some (ds, r) ->
  length ds = k /\ length (flat_map enc_u ds) + length r <= length bs.
Proof.
  induction k as [|k IH]; intros bs ds r H.
  - got H. split; [reflexivity|cbn; lia].
  - cbn [dec_u_list] in H. destruct (dec_u bs) as [[x r0]|] eqn:E; [|discriminate].
    destruct (dec_u_list k r0) as [[l r1]|] eqn:E1; [|discriminate]. got H. destruct (IH _ _ _ E1) as [L M].
    pose proof (enc_u_minimal _ _ _ E). cbn [length flat_map]. rewrite app_length. split; lia.
Qed.
Theorem dec_ins_minimal bs i r : dec_ins bs = Some (i, r) -> exists c, enc_ins i = Some c /\ length c + length r <= length bs.
Proof.
  unfold dec_ins. destruct bs as [|b bs]; [discriminate|]. intros H.
  destruct (b =? 1)%N; [returned H; cbn [length]; lia|].
  destruct (b =? 2)%N.
  { destruct (dec_blockty bs) as [[bt r0]|] eqn:E; [|discriminate]. returned H. apply dec_blockty_minimal in E. cbn [length]. lia. }
  destruct (b =? 3)%N.
  { destruct (dec_blockty bs) as [[bt r0]|] eqn:E; [|discriminate]. returned H. apply dec_blockty_minimal in E. cbn [length]. lia. }
  destruct (b =? 4)%N.
  { destruct (dec_blockty bs) as [[bt r0]|] eqn:E; [|discriminate]. returned H. apply dec_blockty_minimal in E. cbn [length]. lia. }
  destruct (b =? 5)%N; [returned H; cbn [length]; lia|].
  destruct (b =? 11)%N; [returned H; cbn [length]; lia|].
  destruct (b =? 12)%N.
  { destruct (dec_u bs) as [[d r0]|] eqn:E; [|discriminate]. returned H. apply enc_u_minimal in E. cbn [length]. lia. }
  destruct (b =? 13)%N.
  { destruct (dec_u bs) as [[d r0]|] eqn:E; [|discriminate]. returned H. apply enc_u_minimal in E. cbn [length]. lia. }
  destruct (b =? 14)%N.
  { destruct (dec_u bs) as [[k r1]|] eqn:E; [|discriminate]. destruct (dec_u_list (N.to_nat k) r1) as [[ds r2]|] eqn:E1; [|discriminate].
    destruct (dec_u r2) as [[d r3]|] eqn:E2; [|discriminate]. returned H. destruct (dec_u_list_minimal _ _ _ _ E1) as [L M].
    assert (Hk : lenB ds = k) by (unfold lenB; rewrite L; apply N2Nat.id). rewrite Hk.
    apply enc_u_minimal in E, E2. cbn [length]. rewrite !app_length. lia. }
  destruct (dec_op (b :: bs)) as [[o r0]|] eqn:E; [|discriminate]. got H. cbn [enc_ins]. exact (dec_op_minimal _ _ _ E).
Qed.
(* every instruction consumes at least one byte *)
Theorem dec_ins_len bs i r : dec_ins bs = Some (i, r) -> length r < length bs.
Proof.
  intros H. destruct (dec_ins_minimal _ _ _ H) as (c & Ec & M). destruct (enc_ins_nonempty _ _ Ec) as (x & tl & ->).
  cbn [length] in M. lia.
Qed.
(* whatever the reader returns the writer can write, and reading the writer's bytes gives the same instruction: the writer's
   output is the normal form of every accepted encoding (padded LEB128 included) *)
Theorem dec_ins_normal_form bs i rest : dec_ins bs = Some (i, rest) ->
  exists c, enc_ins i = Some c /\ (wf_imm i = true -> dec_ins (c ++ rest) = Some (i, rest)).
Proof. intros H. destruct (dec_ins_minimal _ _ _ H) as (c & Ec & _). exists c. split; [exact Ec|exact (dec_enc_ins _ _ _ Ec)]. Qed.

Lemma dec_inss_minimal : forall f bs ops, dec_inss f bs = Some ops -> exists c, enc_inss ops = Some c /\ length c <= length bs.
Proof.
  induction f as [|f IH]; intros bs ops H.
  - destruct bs; [|discriminate]. apply Some_inj in H. subst ops. exists []. split; [reflexivity|cbn; lia].
  - destruct bs as [|b bs]; [apply Some_inj in H; subst ops; exists []; split; [reflexivity|cbn; lia]|].
    cbn [dec_inss] in H. destruct (dec_ins (b :: bs)) as [[i r]|] eqn:E; [|discriminate].
    destruct (dec_inss f r) as [l|] eqn:El; [|discriminate]. apply Some_inj in H. subst ops.
    destruct (dec_ins_minimal _ _ _ E) as (c & Ec & M). destruct (IH _ _ El) as (c' & Ec' & M').
    cbn [enc_inss]. rewrite Ec, Ec'. eexists. split; [reflexivity|]. rewrite app_length. lia.
Qed.
Lemma dec_local_groups_minimal : forall k bs l r, dec_local_groups k bs = Some (l, r) ->
  length l = k /\ length (flat_map enc_local l) + length r <= length bs.
Proof.
  induction k as [|k IH]; intros bs l r H.
  - got H. split; [reflexivity|cbn; lia].
  - cbn [dec_local_groups] in H. destruct (dec_u bs) as [[n [|b r0]]|] eqn:E; try discriminate.
    destruct (valty_of_byte b) as [t|]; [|discriminate]. destruct (dec_local_groups k r0) as [[l' r1]|] eqn:E1; [|discriminate].
    got H. destruct (IH _ _ _ E1) as [L M]. apply enc_u_minimal in E.
    cbn [length flat_map]. unfold enc_local at 1. cbn [fst snd]. rewrite !app_length. cbn [length] in *. split; lia.
Qed.
Lemma dec_locals_minimal bs l r : dec_locals bs = Some (l, r) -> length (enc_locals l) + length r <= length bs.
Proof.
  unfold dec_locals. intros H. destruct (dec_u bs) as [[k r0]|] eqn:E; [|discriminate].
  destruct (dec_local_groups_minimal _ _ _ _ H) as [L M]. apply enc_u_minimal in E.
  assert (Hk : lenB l = k) by (unfold lenB; rewrite L; apply N2Nat.id). unfold enc_locals. rewrite Hk, app_length. lia.
Qed.
(* re-encoding what was read never makes a body longer: the writer's bytes are a shortest representative *)
Theorem dec_body_shortest f bs ls ops : dec_body f bs = Some (ls, ops) -> exists c, enc_body ls ops = Some c /\ length c <= length bs.
Proof.
  unfold dec_body. intros H. destruct (dec_locals bs) as [[ls' r]|] eqn:E; [|discriminate].
  destruct (dec_inss f r) as [ops'|] eqn:E2; [|discriminate]. got H.
  destruct (dec_inss_minimal _ _ _ E2) as (c & Ec & M). apply dec_locals_minimal in E.
  unfold enc_body. rewrite Ec. eexists. split; [reflexivity|]. rewrite app_length. lia.
Qed.
Theorem dec_body_normal_form f bs ls ops : dec_body f bs = Some (ls, ops) ->
  exists c, enc_body ls ops = Some c /\ (wf_body ls ops = true -> dec_body (length c) c = Some (ls, ops)).
Proof.
  intros H. destruct (dec_body_shortest _ _ _ _ H) as (c & Ec & _). exists c. split; [exact Ec|]. intros W.
  exact (dec_enc_body_bytes _ _ _ Ec W).
Qed.
Theorem dec_body_minimal f bs ls ops c : dec_body f bs = Some (ls, ops) -> wf_body ls ops = true -> enc_body ls ops = Some c ->
  (length c <= length bs)%nat.
Proof. intros H _ Ec. destruct (dec_body_shortest _ _ _ _ H) as (c' & Ec' & M). rewrite Ec in Ec'. injection Ec' as <-. exact M. Qed.

(* so the number of bytes is enough fuel: more fuel never changes the result *)
Lemma dec_inss_fuel : forall f bs f', length bs <= f -> length bs <= f' -> dec_inss f bs = dec_inss f' bs.
Proof.
  induction f as [|f IH]; intros bs f' H H'.
  - destruct bs; [destruct f'; reflexivity|cbn [length] in H; lia].
  - destruct bs as [|b bs]; [destruct f'; reflexivity|]. destruct f' as [|f']; [cbn [length] in H'; lia|].
    cbn [dec_inss]. destruct (dec_ins (b :: bs)) as [[i r]|] eqn:E; [|reflexivity]. apply dec_ins_len in E.
    rewrite (IH r f') by lia. reflexivity.
Qed.
Theorem dec_body_fuel bs f : length bs <= f -> dec_body f bs = dec_body (length bs) bs.
Proof.
  intros H. unfold dec_body. destruct (dec_locals bs) as [[ls r]|] eqn:E; [|reflexivity]. apply dec_locals_minimal in E.
  rewrite (dec_inss_fuel f r (length bs)) by lia. reflexivity.
Qed.
Local Close Scope nat_scope.

(* the reader with positions: on the writer's bytes, the positions it reports are the running sums of [ilen_model]
   (a second parse of an emitted body gives every instruction the position the Emit visitor recorded for it) *)
Lemma dec_inss_at_fst : forall f cur bs l, dec_inss_at f cur bs = Some l -> dec_inss f bs = Some (map fst l).
Proof.
  induction f as [|f IH]; intros cur bs l H.
  - destruct bs; [|discriminate]. apply Some_inj in H. subst l. reflexivity.
  - destruct bs as [|b bs]; [apply Some_inj in H; subst l; reflexivity|].
    cbn [dec_inss_at] in H. cbn [dec_inss]. destruct (dec_ins (b :: bs)) as [[i r]|]; [|discriminate].
    destruct (dec_inss_at f _ r) as [l'|] eqn:E; [|discriminate]. apply Some_inj in H. subst l.
    rewrite (IH _ _ _ E). reflexivity.
Qed.
Theorem dec_inss_at_canonical : forall ops bs cur offs, enc_inss ops = Some bs -> forallb wf_imm ops = true ->
  ins_offsets cur ops = Some offs ->
  forall fuel, (length ops <= fuel)%nat -> dec_inss_at fuel cur bs = Some (combine ops offs).
Proof.
  induction ops as [|i ops IH]; intros bs cur offs E W O fuel F.
  - apply Some_inj in E. subst bs. apply Some_inj in O. subst offs. destruct fuel; reflexivity.
  - cbn [enc_inss] in E. destruct (enc_ins i) as [a|] eqn:Ei; [|discriminate].
    destruct (enc_inss ops) as [b|] eqn:Eo; [|discriminate]. apply Some_inj in E. subst bs.
    cbn [forallb] in W. apply andb_true_iff in W. destruct W as [Wi Wo].
    cbn [ins_offsets] in O. unfold ilen_model in O. rewrite Ei in O.
    destruct (ins_offsets (cur + lenB a) ops) as [l'|] eqn:O'; [|discriminate]. apply Some_inj in O. subst offs.
    destruct fuel as [|fuel]; [cbn [length] in F; lia|].
    pose proof (dec_enc_ins i a b Ei Wi) as D.
    assert (L : lenB (a ++ b) - lenB b = lenB a) by (rewrite lenB_app; lia).
    destruct (enc_ins_nonempty _ _ Ei) as (x & tl & ->). cbn [app] in *. cbn [dec_inss_at]. rewrite D, L.
    rewrite (IH b _ _ eq_refl Wo O' fuel) by (cbn [length] in F; lia). reflexivity.
Qed.
Theorem dec_body_at_canonical locals ops bs offs : enc_body locals ops = Some bs -> wf_body locals ops = true ->
  ins_offsets (lenB (enc_locals locals)) ops = Some offs ->
  dec_body_at (length bs) bs = Some (locals, combine ops offs).
Proof.
  intros E W O. destruct (enc_body_length _ _ _ E) as (s & Hs & Hl). pose proof (sum_ilen_ge_length _ _ Hs) as G.
  unfold enc_body in E. destruct (enc_inss ops) as [ib|] eqn:Eo; [|discriminate]. apply Some_inj in E. subst bs.
  unfold wf_body in W. apply andb_true_iff in W. destruct W as [W Wo]. apply andb_true_iff in W. destruct W as [Wl Wn].
  unfold dec_body_at. rewrite (dec_enc_locals _ _ Wl Wn).
  assert (L : lenB (enc_locals locals ++ ib) - lenB ib = lenB (enc_locals locals)) by (rewrite lenB_app; lia). rewrite L.
  rewrite (dec_inss_at_canonical _ _ _ _ Eo Wo O); [reflexivity|]. unfold lenB in Hl at 1. lia.
Qed.

(* non-vacuity: a body and its bytes, written out *)
(* the bytes below are the ones wasm-encoder writes for this body (input `example` of `vh bytes`) *)
Definition ex_locals : list (N * valty) := [(2, VT_I32); (1, VT_I64)].
Definition ex_ops : list wins :=
  [WBlock BT_Empty; WLoop BT_Empty; WOp (W_I32Const 2147483647); WBrTable [0; 1; 0] 1; WEnd; WEnd;
   WOp (W_I64Const (-1)); WOp W_Drop; WOp (W_I32Const (-2147483648));
   WOp (W_I32Load {| wa_align := 2; wa_offset := 4294967295; wa_memory := 1 |}); WOp W_Drop;
   WOp (W_I32Const 0); WOp (W_CallIndirect 0 0); WOp (W_I32Const 5); WBlock (BT_Func 1); WEnd; WOp W_Drop; WEnd].
Definition ex_bytes : list N :=
  [2; 2; 127; 1; 126;                       (* two local groups: 2 x i32, 1 x i64 *)
   2; 64; 3; 64;                            (* block, loop (empty block types) *)
   65; 255; 255; 255; 255; 7;               (* i32.const 2^31 - 1 *)
   14; 3; 0; 1; 0; 1;                       (* br_table [0; 1; 0] 1 *)
   11; 11;                                  (* end end *)
   66; 127; 26;                             (* i64.const -1 ; drop *)
   65; 128; 128; 128; 128; 120;             (* i32.const -2^31 *)
   40; 66; 1; 255; 255; 255; 255; 15;       (* i32.load align=2 | 1<<6, memory 1, offset 2^32 - 1 *)
   26; 65; 0; 17; 0; 0;                     (* drop ; i32.const 0 ; call_indirect (type 0) (table 0) *)
   65; 5; 2; 1; 11; 26; 11].                (* i32.const 5 ; block (type 1) end ; drop ; end *)
Example ex_wf : wf_body ex_locals ex_ops = true.
Proof. vm_compute. reflexivity. Qed.
Example ex_enc : enc_body ex_locals ex_ops = Some ex_bytes.
Proof. vm_compute. reflexivity. Qed.
Example ex_dec : dec_body (length ex_bytes) ex_bytes = Some (ex_locals, ex_ops).
Proof. vm_compute. reflexivity. Qed.
Example ex_offsets : ins_offsets (lenB (enc_locals ex_locals)) ex_ops = Some [5; 7; 9; 15; 21; 22; 23; 25; 26; 32; 40; 41; 43; 46; 48; 50; 51; 52].
Proof. vm_compute. reflexivity. Qed.
(* the theorems apply to it: the premises hold *)
Example ex_roundtrip : dec_body (length ex_bytes) ex_bytes = Some (ex_locals, ex_ops).
Proof. exact (dec_enc_body_bytes _ _ _ ex_enc ex_wf). Qed.
(* a padded input: the decoder accepts non-minimal LEB128, the writer produces the minimal form *)
Example ex_padded :
  dec_body 9 [129; 0; 130; 128; 0; 127; 65; 255; 127; 26; 252; 138; 0; 128; 0; 0; 11]
    = Some ([(2, VT_I32)], [WOp (W_I32Const (-1)); WOp W_Drop; WOp (W_MemoryCopy 0 0); WEnd]) /\
  enc_body [(2, VT_I32)] [WOp (W_I32Const (-1)); WOp W_Drop; WOp (W_MemoryCopy 0 0); WEnd]
    = Some [1; 2; 127; 65; 127; 26; 252; 10; 0; 0; 11].
Proof. split; vm_compute; reflexivity. Qed.
(* the reader's positions on the padded input above are the real ones (5 bytes of locals, then 3 + 1 + 6 + 1 bytes) *)
Example ex_padded_positions :
  dec_body_at 17 [129; 0; 130; 128; 0; 127; 65; 255; 127; 26; 252; 138; 0; 128; 0; 0; 11]
    = Some ([(2, VT_I32)], [(WOp (W_I32Const (-1)), 6); (WOp W_Drop, 9); (WOp (W_MemoryCopy 0 0), 10); (WEnd, 16)]).
Proof. vm_compute. reflexivity. Qed.
(* operators of the other classes: float constants, typed select, ref.null, 0xFC / 0xFD / 0xFE prefixes *)
Example ex_classes :
  map enc_ins [WOp (W_F32Const 1065353216); WOp (W_F64Const 4607182418800017408); WOp (W_TypedSelect VT_Externref);
               WOp (W_RefNull HT_Func); WOp (W_RefNull (HT_Other 0)); WOp (W_I32TruncSatF64U); WOp (W_TableCopy 1 2);
               WOp (W_I8x16ExtractLaneU 15); WOp (W_F64x2PromoteLowF32x4); WOp W_AtomicFence;
               WOp (W_I64AtomicRmw32CmpxchgU {| wa_align := 2; wa_offset := 8; wa_memory := 0 |});
               WOp (W_V128Load64Lane {| wa_align := 3; wa_offset := 0; wa_memory := 2 |} 1); WIf (BT_Func 64); WIf (BT_Val VT_V128)]
  = [Some [67; 0; 0; 128; 63]; Some [68; 0; 0; 0; 0; 0; 0; 240; 63]; Some [28; 1; 111];
     Some [208; 112]; None; Some [252; 3]; Some [252; 14; 1; 2];
     Some [253; 22; 15]; Some [253; 95]; Some [254; 3; 0];
     Some [254; 78; 2; 8];
     Some [253; 87; 67; 2; 0; 1]; Some [4; 192; 0]; Some [4; 123]].
Proof. vm_compute. reflexivity. Qed.
(* two bodies inside the framing of the code section *)
Example ex_code :
  enc_code [(ex_locals, ex_ops); ([], [WNop; WEnd])] = Some (2 :: 53 :: ex_bytes ++ [3; 0; 1; 11]) /\
  dec_code (2 :: 53 :: ex_bytes ++ [3; 0; 1; 11]) = Some [(ex_locals, ex_ops); ([], [WNop; WEnd])].
Proof. split; vm_compute; reflexivity. Qed.
(* the range premise is necessary: an index that does not fit LEB128's fuel is not recovered *)
Example wf_imm_needed : exists i bs, enc_ins i = Some bs /\ wf_imm i = false /\ dec_ins bs <> Some (i, []).
Proof. exists (WBr (2 ^ 140)). eexists. split; [reflexivity|]. split; [reflexivity|]. vm_compute. discriminate. Qed.
(* and the alignment bound too: align 64 is read back as "memory index follows" *)
Example wf_align_needed : exists o bs, enc_op o = Some bs /\ wf_op o = false /\ dec_op bs <> Some (o, []).
Proof.
  exists (W_I32Load {| wa_align := 64; wa_offset := 0; wa_memory := 0 |}). eexists.
  split; [vm_compute; reflexivity|]. split; [reflexivity|]. vm_compute. discriminate.
Qed.

Print Assumptions dec_enc_ins.
Print Assumptions enc_ins_prefix_free.
Print Assumptions dec_enc_body.
Print Assumptions dec_enc_body_bytes.
Print Assumptions enc_ins_length_positive.
Print Assumptions ilen_total_positive.
Print Assumptions enc_body_length.
Print Assumptions ins_offsets_pos_of.
Print Assumptions emitted_positions_are_byte_offsets.
Print Assumptions code_section_bytes.
Print Assumptions dec_code_section.
Print Assumptions ins_at_offset.
Print Assumptions dec_ins_len.
Print Assumptions dec_body_fuel.
Print Assumptions dec_ins_normal_form.
Print Assumptions dec_body_normal_form.
Print Assumptions dec_body_at_canonical.
Print Assumptions dec_ins_minimal.
Print Assumptions dec_body_minimal.
Print Assumptions covered_all.
Print Assumptions enc_op_total.
Print Assumptions simple_ops_enc.
