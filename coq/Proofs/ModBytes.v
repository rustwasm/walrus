(* Theorems for Model/ModBytes.v: the binary format of every section (C04 / C08 / C12).
   Every item kind has a [codec]: on the writer's bytes followed by anything, the reader gives the item back and leaves the rest.
   Vectors, sections and whole modules ([dec_enc_wmod], for the zero-position and for the position reader) follow from the items;
   the writer is total on streams whose constants / operators are encodable ([encodable_total], [emitted_bytes]).
   [wf_wmod] = the ranges LEB128 can carry (u32 indices and counts, u64 limits), names that are UTF-8 and shorter than 2^32,
   operators [wf_imm] (Proofs/Bytes.v), element segments in the form [wire_elem] (Run/ModuleRun.v) produces, custom sections
   classified by their name, section / body / name-subsection sizes that fit a u32. *)
From Coq Require Import List NArith ZArith Bool Lia. Import ListNotations.
From WV Require Import Gen.Ops Model.Common Model.IR Model.Leb Model.Frame Model.Bytes Model.ModuleM Model.ModBytes.
From WV Require Import Proofs.Leb Proofs.Frame Proofs.Bytes.
Local Open Scope N_scope.

Definition codec {A} (enc : A -> option (list N)) (dec : list N -> option (A * list N)) (wf : A -> bool) : Prop :=
  forall a bs, enc a = Some bs -> wf a = true -> bs <> [] /\ forall rest, dec (bs ++ rest) = Some (a, rest).

Lemma enc_many_inv {A} (enc : A -> option (list N)) a r bs : enc_many enc (a :: r) = Some bs ->
  exists x y, enc a = Some x /\ enc_many enc r = Some y /\ bs = x ++ y.
Proof.
  cbn [enc_many]. destruct (enc a) as [x|]; [|discriminate]. destruct (enc_many enc r) as [y|]; [|discriminate].
  intros H. apply Some_inj in H. subst. eauto.
Qed.
Lemma app_ne {A} (a b : list A) : a <> [] -> a ++ b <> [].
Proof. destruct a; [congruence|discriminate]. Qed.
Lemma enc_u_ne n : enc_u n <> [].
Proof. destruct (enc_u_nonempty n) as (x & r & ->). discriminate. Qed.
Lemma dec_enc_many {A} enc dec wf : @codec A enc dec wf -> forall l bs rest, enc_many enc l = Some bs -> forallb wf l = true ->
  dec_many dec (length l) (bs ++ rest) = Some (l, rest) /\ (length l <= length bs)%nat.
Proof.
  intros C. induction l as [|a l IH]; intros bs rest E W.
  - apply Some_inj in E. subst. split; [reflexivity|cbn; lia].
  - destruct (enc_many_inv _ _ _ _ E) as (x & y & Ex & Ey & ->).
    cbn [forallb] in W. apply andb_true_iff in W. destruct W as [Wa Wl].
    destruct (C a x Ex Wa) as [Nx Dx]. destruct (IH y rest Ey Wl) as [Dy Ly].
    split.
    + cbn [length dec_many]. rewrite <- app_assoc, Dx, Dy. reflexivity.
    + rewrite app_length. cbn [length]. destruct x; [congruence|]. cbn [length]. lia.
Qed.
Definition wf_vec {A} (wf : A -> bool) (l : list A) : bool := forallb wf l && u32_ok (lenB l).
Lemma codec_vec {A} enc dec wf : @codec A enc dec wf -> codec (enc_vec enc) (dec_vec dec) (wf_vec wf).
Proof.
  intros C l bs E W. unfold enc_vec in E. destruct (enc_many enc l) as [b|] eqn:Eb; [|discriminate]. apply Some_inj in E. subst bs.
  unfold wf_vec in W. apply andb_true_iff in W. destruct W as [Wl Wn].
  split; [exact (app_ne _ _ (enc_u_ne _))|]. intros rest. unfold dec_vec. rewrite <- app_assoc, (dec_enc_u _ _ (u32_small _ Wn)).
  destruct (dec_enc_many _ _ _ C l b rest Eb Wl) as [D L].
  assert (G : (lenB (b ++ rest) <? lenB l) = false).
  { apply N.ltb_ge. unfold lenB. rewrite app_length. lia. }
  rewrite G. unfold lenB. rewrite Nat2N.id. exact D.
Qed.
Lemma vec_all {A} enc dec wf l bs : @codec A enc dec wf -> enc_vec enc l = Some bs -> wf_vec wf l = true ->
  all_used (dec_vec dec bs) = Some l.
Proof. intros C E W. destruct (codec_vec _ _ _ C l bs E W) as [_ D]. specialize (D []). rewrite app_nil_r in D. rewrite D. reflexivity. Qed.

Definition u64_ok (n : N) : bool := n <? 2 ^ 64.
Lemma u64_small a : u64_ok a = true -> a < 2 ^ 126.
Proof. intros H. apply N.ltb_lt in H. apply (small_of_lt _ 64); [exact H|discriminate]. Qed.
Definition wf_opt_u64 (o : option N) : bool := match o with Some m => u64_ok m | None => true end.
Definition wf_str (s : str) : bool := u32_ok (lenB s) && utf8_ok s.

Lemma enc_bytes_nonempty s : enc_bytes s <> [].
Proof. exact (app_ne _ _ (enc_u_ne _)). Qed.
Lemma dec_enc_bytes s rest : lenB s < 2 ^ 126 -> dec_bytes (enc_bytes s ++ rest) = Some (s, rest).
Proof.
  intros H. unfold dec_bytes, enc_bytes. rewrite <- app_assoc, (dec_enc_u _ _ H).
  change (lenB (s ++ rest)) with (lenN (s ++ rest)). change (lenB s) with (lenN s).
  rewrite lenN_ltb_app, takeN_lenN_app, dropN_lenN_app. reflexivity.
Qed.
Lemma dec_enc_name s rest : wf_str s = true -> dec_name (enc_name s ++ rest) = Some (s, rest).
Proof.
  unfold wf_str. intros W. apply andb_true_iff in W. destruct W as [Wn Wu].
  unfold dec_name, enc_name. rewrite (dec_enc_bytes _ _ (u32_small _ Wn)), Wu. reflexivity.
Qed.

Lemma codec_some {A} (f : A -> list N) dec (wf : A -> bool) :
  (forall a, wf a = true -> f a <> [] /\ forall rest, dec (f a ++ rest) = Some (a, rest)) -> codec (fun a => Some (f a)) dec wf.
Proof. intros H a bs E W. apply Some_inj in E. subst bs. exact (H a W). Qed.
Lemma codec_valty : codec enc_valty dec_valty (fun _ => true).
Proof.
  apply codec_some. intros t _. split; [discriminate|].
  intros rest. cbn [app dec_valty]. rewrite valty_of_byte_byte. reflexivity.
Qed.
Lemma codec_u : codec enc_u_o dec_u_o u32_ok.
Proof.
  apply codec_some. intros a W. split; [exact (enc_u_ne a)|]. intros rest. exact (dec_enc_u _ _ (u32_small _ W)).
Qed.
Lemma dec_refty_byte e r : dec_refty (refty_byte e :: r) = Some (e, r).
Proof. destruct e; reflexivity. Qed.

Definition wf_valtys (l : list valty) : bool := wf_vec (fun _ => true) l.
Definition wf_functy (t : functy) : bool := wf_valtys (fst t) && wf_valtys (snd t).
Lemma codec_functy : codec enc_functy dec_functy wf_functy.
Proof.
  intros [ps rs] bs E W. unfold enc_functy in E. cbn [fst snd] in E.
  destruct (enc_vec enc_valty ps) as [p|] eqn:Ep; [|discriminate]. destruct (enc_vec enc_valty rs) as [r|] eqn:Er; [|discriminate].
  apply Some_inj in E. subst bs. unfold wf_functy in W. cbn [fst snd] in W. apply andb_true_iff in W. destruct W as [Wp Wr].
  split; [discriminate|]. intros rest.
  destruct (codec_vec _ _ _ codec_valty ps p Ep Wp) as [_ Dp]. destruct (codec_vec _ _ _ codec_valty rs r Er Wr) as [_ Dr].
  cbn [app dec_functy]. change (96 =? 96) with true. cbv iota. rewrite <- app_assoc, Dp, Dr. reflexivity.
Qed.

Lemma dec_enc_opt_u o rest : wf_opt_u64 o = true ->
  dec_opt_u (match o with Some _ => true | None => false end) (enc_opt_u o ++ rest) = Some (o, rest).
Proof. destruct o as [m|]; intros W; cbn [dec_opt_u enc_opt_u app]; [rewrite (dec_enc_u _ _ (u64_small _ W))|]; reflexivity. Qed.

Definition wf_table (t : wtable) : bool := u64_ok (wt_init t) && wf_opt_u64 (wt_max t).
Lemma table_flags hm is64 : let fl := b2n hm + 4 * b2n is64 in
  (8 <=? fl) || N.testbit fl 1 = false /\ N.testbit fl 0 = hm /\ N.testbit fl 2 = is64.
Proof. destruct hm, is64; vm_compute; auto. Qed.
Lemma dec_enc_table t rest : wf_table t = true -> dec_table (enc_table t ++ rest) = Some (t, rest).
Proof.
  unfold wf_table. intros W. apply andb_true_iff in W. destruct W as [Wi Wm].
  unfold dec_table, enc_table. cbn [app]. rewrite dec_refty_byte.
  destruct (table_flags (match wt_max t with Some _ => true | None => false end) (wt_64 t)) as (F1 & F2 & F3).
  cbv zeta in F1, F2, F3. rewrite F1, F2, F3. rewrite <- app_assoc, (dec_enc_u _ _ (u64_small _ Wi)), (dec_enc_opt_u _ _ Wm).
  destruct t; reflexivity.
Qed.
Lemma codec_table : codec enc_table_o dec_table wf_table.
Proof.
  apply codec_some. intros t W. split; [discriminate|].
  intros rest. exact (dec_enc_table _ _ W).
Qed.

Definition wf_mem (m : wmem) : bool := u64_ok (wm_init m) && wf_opt_u64 (wm_max m) && wf_opt_u64 (wm_page m).
Lemma mem_flags hm sh is64 pg : let fl := b2n hm + 2 * b2n sh + 4 * b2n is64 + 8 * b2n pg in
  (16 <=? fl) = false /\ N.testbit fl 0 = hm /\ N.testbit fl 1 = sh /\ N.testbit fl 2 = is64 /\ N.testbit fl 3 = pg.
Proof. destruct hm, sh, is64, pg; vm_compute; auto. Qed.
Lemma dec_enc_mem m rest : wf_mem m = true -> dec_mem (enc_mem m ++ rest) = Some (m, rest).
Proof.
  unfold wf_mem. intros W. apply andb_true_iff in W. destruct W as [W Wp]. apply andb_true_iff in W. destruct W as [Wi Wm].
  unfold dec_mem, enc_mem. cbn [app].
  destruct (mem_flags (match wm_max m with Some _ => true | None => false end) (wm_shared m) (wm_64 m)
              (match wm_page m with Some _ => true | None => false end)) as (F1 & F2 & F3 & F4 & F5).
  cbv zeta in F1, F2, F3, F4, F5. rewrite F1, F2, F3, F4, F5.
  rewrite <- !app_assoc, (dec_enc_u _ _ (u64_small _ Wi)), (dec_enc_opt_u _ _ Wm), (dec_enc_opt_u _ _ Wp).
  destruct m; reflexivity.
Qed.
Lemma codec_mem : codec enc_mem_o dec_mem wf_mem.
Proof.
  apply codec_some. intros m W. split; [discriminate|].
  intros rest. exact (dec_enc_mem _ _ W).
Qed.

Lemma globalty_flags mu sh : let fl := b2n mu + 2 * b2n sh in (4 <=? fl) = false /\ N.testbit fl 0 = mu /\ N.testbit fl 1 = sh.
Proof. destruct mu, sh; vm_compute; auto. Qed.
Lemma dec_enc_globalty g rest : dec_globalty (enc_globalty g ++ rest) = Some (g, rest).
Proof.
  unfold dec_globalty, enc_globalty. cbn [app dec_valty]. rewrite valty_of_byte_byte.
  destruct (globalty_flags (wg_mut g) (wg_shared g)) as (F1 & F2 & F3). cbv zeta in F1, F2, F3. rewrite F1, F2, F3.
  destruct g; reflexivity.
Qed.

Definition wf_const (c : wconst) : bool := match const_op c with Some i => wf_imm i | None => false end.
Lemma const_op_inv c i : const_op c = Some i -> const_of_ins i = c /\ exists o, i = WOp o.
Proof.
  destruct c as [z|z|n|n|n|g|t|f|]; try destruct t; intros H; cbn [const_op] in H; try discriminate H;
    apply Some_inj in H; subst i; (split; [reflexivity|eexists; reflexivity]).
Qed.
Lemma dec_ins_end rest : dec_ins (11 :: rest) = Some (WEnd, rest).
Proof. reflexivity. Qed.
Lemma codec_const : codec enc_const dec_const wf_const.
Proof.
  intros c bs E W. unfold enc_const in E. unfold wf_const in W.
  destruct (const_op c) as [i|] eqn:Ec; [|discriminate]. destruct (enc_ins i) as [b|] eqn:Ei; [|discriminate].
  apply Some_inj in E. subst bs. destruct (const_op_inv _ _ Ec) as [Hc [o Ho]].
  destruct (enc_ins_nonempty _ _ Ei) as (x & tl & Hb).
  split. { rewrite Hb. discriminate. }
  intros rest. unfold dec_const. rewrite <- app_assoc. cbn [app].
  assert (L : exists f, length (b ++ 11 :: rest) = S (S f)).
  { rewrite Hb. cbn [app length]. rewrite app_length. cbn [length]. rewrite Nat.add_succ_r. eexists. reflexivity. }
  destruct L as [f ->]. cbn [dec_until_end]. rewrite (dec_enc_ins _ _ (11 :: rest) Ei W). subst i. cbv iota.
  rewrite dec_ins_end. cbv iota. rewrite <- Hc. reflexivity.
Qed.

Definition wf_importkind (k : wimportkind) : bool :=
  match k with WI_Func t => u32_ok t | WI_Table t => wf_table t | WI_Mem m => wf_mem m | WI_Global _ => true end.
Lemma dec_enc_importkind k rest : wf_importkind k = true -> dec_importkind (enc_importkind k ++ rest) = Some (k, rest).
Proof.
  destruct k as [t|t|m|g]; cbn [wf_importkind enc_importkind app dec_importkind]; intros W.
  - change (0 =? 0) with true. cbv iota. rewrite (dec_enc_u _ _ (u32_small _ W)). reflexivity.
  - change (1 =? 0) with false. change (1 =? 1) with true. cbv iota. rewrite (dec_enc_table _ _ W). reflexivity.
  - change (2 =? 0) with false. change (2 =? 1) with false. change (2 =? 2) with true. cbv iota. rewrite (dec_enc_mem _ _ W). reflexivity.
  - change (3 =? 0) with false. change (3 =? 1) with false. change (3 =? 2) with false. change (3 =? 3) with true. cbv iota.
    rewrite dec_enc_globalty. reflexivity.
Qed.
Definition wf_import (i : wimport) : bool := wf_str (wi_module i) && wf_str (wi_name i) && wf_importkind (wi_kind i).
Lemma codec_import : codec enc_import dec_import wf_import.
Proof.
  apply codec_some. intros i W. unfold wf_import in W. apply andb_true_iff in W. destruct W as [W Wk]. apply andb_true_iff in W. destruct W as [Wm Wn].
  split; [exact (app_ne _ _ (enc_bytes_nonempty _))|].
  intros rest. unfold dec_import. rewrite <- !app_assoc, (dec_enc_name _ _ Wm), (dec_enc_name _ _ Wn), (dec_enc_importkind _ _ Wk).
  destruct i; reflexivity.
Qed.
Lemma ekind_of_byte_byte k : ekind_of_byte (ekind_byte k) = Some k.
Proof. destruct k; reflexivity. Qed.
Definition wf_export (e : wexport) : bool := wf_str (we_name e) && u32_ok (we_index e).
Lemma codec_export : codec enc_export dec_export wf_export.
Proof.
  apply codec_some. intros e W. unfold wf_export in W. apply andb_true_iff in W. destruct W as [Wn Wi].
  split; [exact (app_ne _ _ (enc_bytes_nonempty _))|].
  intros rest. unfold dec_export. rewrite <- app_assoc, (dec_enc_name _ _ Wn). cbn [app]. rewrite ekind_of_byte_byte.
  rewrite (dec_enc_u _ _ (u32_small _ Wi)). destruct e; reflexivity.
Qed.
Definition wf_global (g : wglobalty * wconst) : bool := wf_const (snd g).
Lemma codec_global : codec enc_global dec_global wf_global.
Proof.
  intros [t c] bs E W. unfold enc_global in E. cbn [fst snd] in E. destruct (enc_const c) as [cb|] eqn:Ec; [|discriminate].
  apply Some_inj in E. subst bs. unfold wf_global in W. cbn [snd] in W. split; [discriminate|].
  intros rest. destruct (codec_const c cb Ec W) as [_ D]. unfold dec_global. rewrite <- app_assoc, dec_enc_globalty, D. reflexivity.
Qed.

Definition wf_opt_u32 (o : option N) : bool := match o with Some m => u32_ok m | None => true end.
Definition elem_canonical (e : welem) : bool :=
  match wel_kind e, wel_items e with WEK_Active None _, WEI_Exprs RT_Externref _ => false | _, _ => true end.
Definition wf_elem (e : welem) : bool :=
  elem_canonical e &&
  match wel_kind e with WEK_Active t o => wf_opt_u32 t && wf_const o | _ => true end &&
  match wel_items e with WEI_Funcs fs => wf_vec u32_ok fs | WEI_Exprs _ es => wf_vec wf_const es end.

Local Arguments dec_vec : simpl never.
Local Arguments dec_const : simpl never.
Local Arguments enc_u : simpl never.
Local Arguments dec_u_o : simpl never.
Local Arguments enc_vec : simpl never.
Local Arguments enc_const : simpl never.
Local Arguments dec_refty : simpl never.
Local Arguments refty_byte : simpl never.

Lemma codec_elem : codec enc_elem dec_elem wf_elem.
Proof.
  intros [k it] bs E W. unfold wf_elem in W. cbn [wel_kind wel_items] in W.
  apply andb_true_iff in W. destruct W as [W Wi]. apply andb_true_iff in W. destruct W as [Wc Wk].
  unfold enc_elem in E. cbn [wel_kind wel_items] in E.
  destruct k as [| |t o]; destruct it as [fs|rt es].
  - cbn in E. destruct (enc_vec enc_u_o fs) as [b|] eqn:Eb; [|discriminate]. apply Some_inj in E. subst bs.
    split; [discriminate|]. intros rest. destruct (codec_vec _ _ _ codec_u fs b Eb Wi) as [_ D].
    unfold dec_elem. cbn. rewrite D. reflexivity.
  - cbn in E. destruct (enc_vec enc_const es) as [b|] eqn:Eb; [|discriminate]. apply Some_inj in E. subst bs.
    split; [discriminate|]. intros rest. destruct (codec_vec _ _ _ codec_const es b Eb Wi) as [_ D].
    unfold dec_elem. cbn. rewrite dec_refty_byte, D. reflexivity.
  - cbn in E. destruct (enc_vec enc_u_o fs) as [b|] eqn:Eb; [|discriminate]. apply Some_inj in E. subst bs.
    split; [discriminate|]. intros rest. destruct (codec_vec _ _ _ codec_u fs b Eb Wi) as [_ D].
    unfold dec_elem. cbn. rewrite D. reflexivity.
  - cbn in E. destruct (enc_vec enc_const es) as [b|] eqn:Eb; [|discriminate]. apply Some_inj in E. subst bs.
    split; [discriminate|]. intros rest. destruct (codec_vec _ _ _ codec_const es b Eb Wi) as [_ D].
    unfold dec_elem. cbn. rewrite dec_refty_byte, D. reflexivity.
  - apply andb_true_iff in Wk. destruct Wk as [Wt Wo].
    destruct (enc_const o) as [ob|] eqn:Eo; [|discriminate]. destruct (codec_const o ob Eo Wo) as [_ Do].
    destruct (enc_vec enc_u_o fs) as [b|] eqn:Eb; [|destruct t; discriminate]. destruct (codec_vec _ _ _ codec_u fs b Eb Wi) as [_ D].
    destruct t as [t|]; cbn in E; apply Some_inj in E; subst bs; (split; [discriminate|]); intros rest; unfold dec_elem; cbn.
    + rewrite <- !app_assoc, (dec_enc_u _ _ (u32_small _ Wt)), Do. cbn. rewrite D. reflexivity.
    + rewrite <- !app_assoc, Do. cbn. rewrite D. reflexivity.
  - apply andb_true_iff in Wk. destruct Wk as [Wt Wo].
    destruct (enc_const o) as [ob|] eqn:Eo; [|discriminate]. destruct (codec_const o ob Eo Wo) as [_ Do].
    destruct (enc_vec enc_const es) as [b|] eqn:Eb; [|destruct t, rt; discriminate]. destruct (codec_vec _ _ _ codec_const es b Eb Wi) as [_ D].
    destruct t as [t|]; [|destruct rt; [|discriminate Wc]]; cbn in E; apply Some_inj in E; subst bs; (split; [discriminate|]); intros rest; unfold dec_elem; cbn.
    + rewrite <- !app_assoc, (dec_enc_u _ _ (u32_small _ Wt)), Do. cbn. rewrite dec_refty_byte, D. reflexivity.
    + rewrite <- !app_assoc, Do. cbn. rewrite D. reflexivity.
Qed.

Local Arguments dec_bytes : simpl never.
Local Arguments enc_bytes : simpl never.

Definition wf_data (d : wdata) : bool :=
  match wd_kind d with WDK_Passive => true | WDK_Active m o => u32_ok m && wf_const o end && u32_ok (lenB (wd_bytes d)).
Lemma codec_data : codec enc_data dec_data wf_data.
Proof.
  intros [k b] bs E W. unfold wf_data in W. cbn [wd_kind wd_bytes] in W. apply andb_true_iff in W. destruct W as [Wk Wb].
  unfold enc_data in E. cbn [wd_kind wd_bytes] in E. pose proof (dec_enc_bytes b) as Db. specialize (fun r => Db r (u32_small _ Wb)).
  destruct k as [|m o].
  - apply Some_inj in E. subst bs. split; [discriminate|]. intros rest. unfold dec_data. cbn. rewrite Db. reflexivity.
  - apply andb_true_iff in Wk. destruct Wk as [Wm Wo].
    destruct (enc_const o) as [ob|] eqn:Eo; [|discriminate]. destruct (codec_const o ob Eo Wo) as [_ Do].
    apply Some_inj in E. subst bs. destruct (m =? 0) eqn:Em.
    + apply N.eqb_eq in Em. subst m. split; [discriminate|]. intros rest. unfold dec_data. cbn.
      rewrite <- !app_assoc, Do, Db. reflexivity.
    + split; [discriminate|]. intros rest. unfold dec_data. cbn.
      rewrite <- !app_assoc, (dec_enc_u _ _ (u32_small _ Wm)), Do, Db. reflexivity.
Qed.

Definition wf_pvalue (v : str * str) : bool := wf_str (fst v) && wf_str (snd v).
Lemma codec_pvalue : codec enc_pvalue dec_pvalue wf_pvalue.
Proof.
  apply codec_some. intros [n v] W. cbn [fst snd]. unfold wf_pvalue in W. cbn [fst snd] in W. apply andb_true_iff in W. destruct W as [Wn Wv].
  split; [exact (app_ne _ _ (enc_bytes_nonempty _))|].
  intros rest. unfold dec_pvalue. rewrite <- app_assoc, (dec_enc_name _ _ Wn), (dec_enc_name _ _ Wv). reflexivity.
Qed.
Definition wf_pfield (f : str * list (str * str)) : bool := wf_str (fst f) && field_name_ok (fst f) && wf_vec wf_pvalue (snd f).
Lemma codec_pfield : codec enc_pfield dec_pfield wf_pfield.
Proof.
  intros [n vs] bs E W. unfold enc_pfield in E. cbn [fst snd] in E. destruct (enc_vec enc_pvalue vs) as [b|] eqn:Eb; [|discriminate].
  apply Some_inj in E. subst bs. unfold wf_pfield in W. cbn [fst snd] in W.
  apply andb_true_iff in W. destruct W as [W Wv]. apply andb_true_iff in W. destruct W as [Wn Wf].
  split; [exact (app_ne _ _ (enc_bytes_nonempty _))|].
  intros rest. destruct (codec_vec _ _ _ codec_pvalue vs b Eb Wv) as [_ D].
  unfold dec_pfield. rewrite <- app_assoc, (dec_enc_name _ _ Wn), Wf, D. reflexivity.
Qed.
Definition wf_producers (p : wproducers) : bool := wf_vec wf_pfield p.
Theorem dec_enc_producers p b : enc_producers p = Some b -> wf_producers p = true -> dec_producers b = Some p.
Proof. exact (vec_all _ _ _ _ _ codec_pfield). Qed.

Definition wf_naming (p : N * str) : bool := u32_ok (fst p) && wf_str (snd p).
Lemma codec_naming : codec enc_naming dec_naming wf_naming.
Proof.
  apply codec_some. intros [i s] W. cbn [fst snd]. unfold wf_naming in W. cbn [fst snd] in W. apply andb_true_iff in W. destruct W as [Wi Ws].
  split; [exact (app_ne _ _ (enc_u_ne i))|].
  intros rest. unfold dec_naming. rewrite <- app_assoc, (dec_enc_u _ _ (u32_small _ Wi)), (dec_enc_name _ _ Ws). reflexivity.
Qed.
Definition wf_namemap (m : namemap) : bool := wf_vec wf_naming m.
Definition wf_indirect (p : N * namemap) : bool := u32_ok (fst p) && wf_namemap (snd p).
Lemma codec_indirect : codec enc_indirect dec_indirect wf_indirect.
Proof.
  intros [i m] bs E W. unfold enc_indirect, enc_namemap in E. cbn [fst snd] in E. destruct (enc_vec enc_naming m) as [b|] eqn:Eb; [|discriminate].
  apply Some_inj in E. subst bs. unfold wf_indirect in W. cbn [fst snd] in W. apply andb_true_iff in W. destruct W as [Wi Wm].
  split; [exact (app_ne _ _ (enc_u_ne i))|].
  intros rest. destruct (codec_vec _ _ _ codec_naming m b Eb Wm) as [_ D].
  unfold dec_indirect. rewrite <- app_assoc, (dec_enc_u _ _ (u32_small _ Wi)), D. reflexivity.
Qed.

Lemma dec_subs_fuel : forall f bs f' a, (length bs <= f)%nat -> (length bs <= f')%nat -> dec_subs f a bs = dec_subs f' a bs.
Proof.
  induction f as [|f IH]; intros bs f' a H H'.
  - destruct bs; [|cbn [length] in H; lia]. destruct f'; reflexivity.
  - destruct bs as [|id r]; [destruct f'; reflexivity|]. destruct f' as [|f']; [cbn [length] in H'; lia|].
    cbn [dec_subs]. destruct (128 <=? id); [reflexivity|]. destruct (dec_u r) as [[n r1]|] eqn:Eu; [|reflexivity].
    destruct (lenB r1 <? n); [reflexivity|]. destruct (set_sub id (takeN n r1) a) as [a'|]; [|reflexivity].
    pose proof (dec_u_len _ _ _ Eu) as L. unfold dropN. pose proof (skipn_length (N.to_nat n) r1) as L2.
    cbn [length] in H, H'. apply IH; lia.
Qed.
Lemma dec_subs_step id c a a' rest : id < 128 -> u32_ok (lenB c) = true -> set_sub id c a = Some a' ->
  dec_subs (length (subsec id c ++ rest)) a (subsec id c ++ rest) = dec_subs (length rest) a' rest.
Proof.
  intros Hid Hc Hs. unfold subsec. cbn [app length dec_subs].
  assert (G : (128 <=? id) = false) by (apply N.leb_gt; exact Hid). rewrite G.
  rewrite <- app_assoc, (dec_enc_u _ _ (u32_small _ Hc)).
  change (lenB (c ++ rest)) with (lenN (c ++ rest)). change (lenB c) with (lenN c).
  rewrite lenN_ltb_app, takeN_lenN_app, dropN_lenN_app, Hs.
  apply dec_subs_fuel; [|lia]. rewrite !app_length. lia.
Qed.
(* an optional subsection, as [enc_map_sub] writes it: [f] puts its contents into the names read so far, [dec] reads the contents *)
Definition sub_size_ok {A} (enc : list A -> option (list N)) (m : list A) : bool :=
  match m with [] => true | _ => match enc m with Some c => u32_ok (lenB c) | None => false end end.
Lemma dec_subs_opt {A} (enc : list A -> option (list N)) (dec : list N -> option (list A)) id m s (f : list A -> wnames) a rest :
  enc_map_sub enc id m = Some s -> sub_size_ok enc m = true -> (forall c, enc m = Some c -> dec c = Some m) ->
  id < 128 -> f [] = a -> (forall c, set_sub id c a = option_map f (dec c)) ->
  dec_subs (length (s ++ rest)) a (s ++ rest) = dec_subs (length rest) (f m) rest.
Proof.
  intros E Hz D Hid H0 H1. destruct m as [|x m].
  - cbn [enc_map_sub] in E. apply Some_inj in E. subst s. rewrite H0. reflexivity.
  - cbn [enc_map_sub] in E. cbn [sub_size_ok] in Hz. destruct (enc (x :: m)) as [c|] eqn:Ec; [|discriminate].
    apply Some_inj in E. subst s. apply dec_subs_step; [exact Hid|exact Hz|]. rewrite H1, (D c eq_refl). reflexivity.
Qed.

Definition wf_modname (o : option str) : bool := match o with Some s => wf_str s && u32_ok (lenB (enc_name s)) | None => true end.
Definition wf_nsub (m : namemap) : bool := wf_namemap m && sub_size_ok enc_namemap m.
Definition wf_names (n : wnames) : bool :=
  wf_modname (wn_module n) && wf_nsub (wn_funcs n) &&
  (wf_vec wf_indirect (wn_locals n) && sub_size_ok (enc_vec enc_indirect) (wn_locals n)) &&
  wf_nsub (wn_types n) && wf_nsub (wn_tables n) && wf_nsub (wn_mems n) && wf_nsub (wn_globals n) && wf_nsub (wn_elems n) && wf_nsub (wn_data n).

Lemma dec_subs_namemap id m s (f : namemap -> wnames) a rest :
  enc_map_sub enc_namemap id m = Some s -> wf_nsub m = true ->
  id < 128 -> f [] = a -> (forall c, set_sub id c a = option_map f (all_used (dec_vec dec_naming c))) ->
  dec_subs (length (s ++ rest)) a (s ++ rest) = dec_subs (length rest) (f m) rest.
Proof.
  intros E W. unfold wf_nsub in W. apply andb_true_iff in W. destruct W as [Wm Wz].
  apply (dec_subs_opt enc_namemap _ id m s f a rest E Wz). intros c Ec. exact (vec_all _ _ _ _ _ codec_naming Ec Wm).
Qed.

(* the subsections are read one after the other; [nm] is the record of what has been read, the maps still to come empty *)
Theorem dec_enc_names n b : enc_names n = Some b -> wf_names n = true -> dec_names b = Some n.
Proof.
  destruct n as [mo fs ls ts tbs ms gs es ds]. unfold wf_names, enc_names. cbn [wn_module wn_funcs wn_locals wn_types wn_tables wn_mems wn_globals wn_elems wn_data].
  intros E W. rewrite !andb_true_iff in W. destruct W as [[[[[[[[W0 W1] [W2 Z2]] W4] W5] W6] W7] W8] W9].
  destruct (enc_map_sub enc_namemap 1 fs) as [s1|] eqn:E1; [|discriminate].
  destruct (enc_map_sub (enc_vec enc_indirect) 2 ls) as [s2|] eqn:E2; [|discriminate].
  destruct (enc_map_sub enc_namemap 4 ts) as [s4|] eqn:E4; [|discriminate].
  destruct (enc_map_sub enc_namemap 5 tbs) as [s5|] eqn:E5; [|discriminate].
  destruct (enc_map_sub enc_namemap 6 ms) as [s6|] eqn:E6; [|discriminate].
  destruct (enc_map_sub enc_namemap 7 gs) as [s7|] eqn:E7; [|discriminate].
  destruct (enc_map_sub enc_namemap 8 es) as [s8|] eqn:E8; [|discriminate].
  destruct (enc_map_sub enc_namemap 9 ds) as [s9|] eqn:E9; [|discriminate].
  apply Some_inj in E. subst b. unfold dec_names.
  pose (nm := fun f l t tb m g e d => {| wn_module := mo; wn_funcs := f; wn_locals := l; wn_types := t; wn_tables := tb; wn_mems := m;
                                        wn_globals := g; wn_elems := e; wn_data := d |}).
  assert (S0 : forall rest, dec_subs (length ((match mo with Some s => subsec 0 (enc_name s) | None => [] end) ++ rest)) empty_names
                 ((match mo with Some s => subsec 0 (enc_name s) | None => [] end) ++ rest) = dec_subs (length rest) (nm [] [] [] [] [] [] [] []) rest).
  { intros rest. destruct mo as [s|]; [|reflexivity]. cbn [wf_modname] in W0. apply andb_true_iff in W0. destruct W0 as [Ws Wz].
    apply dec_subs_step; [reflexivity|exact Wz|]. unfold set_sub. change (0 =? 0) with true. cbv iota.
    pose proof (dec_enc_name s [] Ws) as D. rewrite app_nil_r in D. rewrite D. reflexivity. }
  rewrite S0. clear S0.
  rewrite (dec_subs_namemap 1 fs s1 (fun m => nm m [] [] [] [] [] [] []) _ _ E1 W1) by reflexivity.
  rewrite (dec_subs_opt (enc_vec enc_indirect) (fun c => all_used (dec_vec dec_indirect c)) 2 ls s2 (fun l => nm fs l [] [] [] [] [] []) _ _ E2 Z2
             (fun c Ec => vec_all _ _ _ _ _ codec_indirect Ec W2)) by reflexivity.
  rewrite (dec_subs_namemap 4 ts s4 (fun m => nm fs ls m [] [] [] [] []) _ _ E4 W4) by reflexivity.
  rewrite (dec_subs_namemap 5 tbs s5 (fun m => nm fs ls ts m [] [] [] []) _ _ E5 W5) by reflexivity.
  rewrite (dec_subs_namemap 6 ms s6 (fun m => nm fs ls ts tbs m [] [] []) _ _ E6 W6) by reflexivity.
  rewrite (dec_subs_namemap 7 gs s7 (fun m => nm fs ls ts tbs ms m [] []) _ _ E7 W7) by reflexivity.
  rewrite (dec_subs_namemap 8 es s8 (fun m => nm fs ls ts tbs ms gs m []) _ _ E8 W8) by reflexivity.
  rewrite <- (app_nil_r s9), (dec_subs_namemap 9 ds s9 (nm fs ls ts tbs ms gs es) _ _ E9 W9) by reflexivity.
  reflexivity.
Qed.

Lemma lenN_sub_app {A} (a b : list A) : lenN (a ++ b) - lenN b = lenN a.
Proof. rewrite lenN_app. lia. Qed.
Lemma unframe_entries_at_frame : forall bodies cur tl, Forall small bodies ->
  unframe_entries_at (length bodies) cur (flat_map frame_entry bodies ++ tl) = Some (combine (map snd (entry_starts cur bodies)) bodies, tl).
Proof.
  induction bodies as [|b r IH]; intros cur tl S; [reflexivity|].
  inversion S as [|? ? Sb Sr]; subst. cbn [length flat_map unframe_entries_at entry_starts map snd combine].
  change (frame_entry b) with (enc_u (lenN b) ++ b). rewrite <- !app_assoc. rewrite (dec_enc_u _ _ Sb).
  rewrite lenN_ltb_app, takeN_lenN_app, dropN_lenN_app.
  rewrite (lenN_sub_app (enc_u (lenN b)) (b ++ flat_map frame_entry r ++ tl)).
  rewrite (IH _ tl Sr). reflexivity.
Qed.
Lemma map_combine_snd {A B C} (f : B -> C) : forall (a : list A) (b : list B),
  map (fun q => (fst q, f (snd q))) (combine a b) = combine a (map f b).
Proof. induction a as [|x a IH]; intros [|y b]; cbn [combine map fst snd]; [reflexivity..|]. rewrite IH. reflexivity. Qed.

Definition wf_wbody (b : wbody) : bool :=
  wf_body (wb_locals b) (map fst (wb_ops b)) &&
  match enc_body (wb_locals b) (map fst (wb_ops b)) with Some x => u32_ok (lenB x) | None => false end.
Definition wf_bodies (l : list wbody) : bool := forallb wf_wbody l && u32_ok (lenB l).

Lemma enc_bodies_cons b r bytess : enc_bodies (b :: r) = Some bytess ->
  exists x l, enc_body (fst b) (snd b) = Some x /\ enc_bodies r = Some l /\ bytess = x :: l.
Proof.
  cbn [enc_bodies]. destruct (enc_body (fst b) (snd b)) as [x|]; [|discriminate]. destruct (enc_bodies r) as [l|]; [|discriminate].
  intros H. apply Some_inj in H. subst. eauto.
Qed.
Lemma bodies_small : forall l bytess, enc_bodies (map body_of l) = Some bytess -> forallb wf_wbody l = true -> Forall small bytess.
Proof.
  induction l as [|b l IH]; intros bytess E W.
  - apply Some_inj in E. subst. constructor.
  - cbn [map] in E. destruct (enc_bodies_cons _ _ _ E) as (x & r & Ex & Er & ->). cbn [body_of fst snd] in Ex.
    cbn [forallb] in W. apply andb_true_iff in W. destruct W as [Wb Wl]. unfold wf_wbody in Wb. apply andb_true_iff in Wb. destruct Wb as [_ Wz].
    rewrite Ex in Wz. constructor; [exact (u32_small _ Wz)|exact (IH _ Er Wl)].
Qed.
Lemma bodies_pos wp : forall l bytess cur, enc_bodies (map body_of l) = Some bytess -> forallb wf_wbody l = true ->
  exists l', place_bodies wp l (entry_starts cur bytess) = Some l' /\
             dec_bodies_pos wp (combine (map snd (entry_starts cur bytess)) bytess) = Some l'.
Proof.
  induction l as [|b l IH]; intros bytess cur E W.
  - apply Some_inj in E. subst. exists []. split; reflexivity.
  - cbn [map] in E. destruct (enc_bodies_cons _ _ _ E) as (x & r & Ex & Er & ->). cbn [body_of fst snd] in Ex.
    cbn [forallb] in W. apply andb_true_iff in W. destruct W as [Wb Wl]. unfold wf_wbody in Wb. apply andb_true_iff in Wb. destruct Wb as [Wb _].
    cbn [entry_starts map snd combine place_bodies dec_bodies_pos].
    set (s := cur + lenN (enc_u (lenN x))).
    destruct (IH r (s + lenN x) Er Wl) as (l' & Pl & Dl). rewrite Pl, Dl.
    assert (O : exists offs, ins_offsets (lenB (enc_locals (wb_locals b))) (map fst (wb_ops b)) = Some offs).
    { unfold enc_body in Ex. destruct (enc_inss (map fst (wb_ops b))) as [ib|] eqn:Ei; [|discriminate]. exact (ins_offsets_total _ _ _ Ei). }
    destruct O as [offs O]. unfold place_body. rewrite O.
    unfold dec_body_pos. cbn [fst snd]. rewrite (dec_body_at_canonical _ _ _ _ Ex Wb O).
    rewrite (map_combine_snd (fun o => if wp then s + o else 0)).
    eexists. split; reflexivity.
Qed.
Lemma frame_entries_len : forall bodies : list (list N), (length bodies <= length (flat_map frame_entry bodies))%nat.
Proof.
  induction bodies as [|b r IH]; [cbn; lia|]. cbn [flat_map length]. rewrite app_length. unfold frame_entry at 1.
  destruct (enc_u_nonempty (lenN b)) as (x & t & ->). cbn [app length]. lia.
Qed.
Theorem dec_enc_code wp pos l payload : enc_code_sec l = Some payload -> wf_bodies l = true ->
  exists l', place_sec wp pos (S_Code l) = Some (S_Code l') /\ dec_code_sec wp pos payload = Some l'.
Proof.
  unfold enc_code_sec, enc_code, wf_bodies. intros E W. apply andb_true_iff in W. destruct W as [Wl Wn].
  destruct (enc_bodies (map body_of l)) as [bytess|] eqn:Eb; [|discriminate]. apply Some_inj in E. subst payload.
  pose proof (bodies_small _ _ Eb Wl) as S.
  assert (Ln : lenN bytess = lenB l).
  { unfold lenN, lenB. rewrite (enc_bodies_length _ _ Eb), map_length. reflexivity. }
  destruct (bodies_pos wp l bytess (pos + lenN (enc_u (lenN bytess))) Eb Wl) as (l' & Pl & Dl).
  exists l'. split.
  - cbn [place_sec]. rewrite Eb, Pl. reflexivity.
  - unfold dec_code_sec, code_payload. rewrite (dec_enc_u _ (flat_map frame_entry bytess)) by (rewrite Ln; exact (u32_small _ Wn)).
    assert (G : (lenN (flat_map frame_entry bytess) <? lenN bytess) = false).
    { apply N.ltb_ge. unfold lenN. pose proof (frame_entries_len bytess). lia. }
    rewrite G. rewrite lenN_sub_app. unfold lenN at 1. rewrite Nat2N.id.
    rewrite <- (app_nil_r (flat_map frame_entry bytess)), (unframe_entries_at_frame _ _ [] S). exact Dl.
Qed.

Definition wf_custom (c : wcsec) : bool :=
  match c with
  | CS_Raw n _ => wf_str n && negb (str_eqb n name_str) && negb (str_eqb n producers_str) && negb (starts_with debug_prefix n)
  | CS_Debug n _ => wf_str n && starts_with debug_prefix n
  | CS_Name (Some nm) => wf_names nm
  | CS_Producers (Some p) => wf_producers p
  | CS_Name None | CS_Producers None => false
  end.
Lemma debug_not_name n : starts_with debug_prefix n = true -> str_eqb n name_str = false /\ str_eqb n producers_str = false.
Proof.
  destruct n as [|x n]; [discriminate|]. cbn [starts_with debug_prefix]. intros H. apply andb_true_iff in H. destruct H as [H _].
  apply N.eqb_eq in H. subst x. split; reflexivity.
Qed.
Lemma dec_name_custom n d : wf_str n = true -> dec_name (custom_payload n d) = Some (n, d).
Proof.
  intros W. unfold custom_payload. change (enc_u (lenN n) ++ n ++ d) with (enc_u (lenB n) ++ n ++ d).
  rewrite app_assoc. exact (dec_enc_name n d W).
Qed.
Theorem dec_enc_custom c b : enc_custom c = Some b -> wf_custom c = true -> dec_custom b = Some c.
Proof.
  destruct c as [n d|n d|[nm|]|[p|]]; cbn [enc_custom wf_custom]; intros E W; try discriminate.
  - apply Some_inj in E. subst b. apply andb_true_iff in W. destruct W as [W W0]. apply andb_true_iff in W. destruct W as [W W1].
    apply andb_true_iff in W. destruct W as [W W2]. apply negb_true_iff in W0, W1, W2. unfold dec_custom. rewrite (dec_name_custom _ _ W), W2, W1, W0. reflexivity.
  - apply Some_inj in E. subst b. apply andb_true_iff in W. destruct W as [W Wd]. destruct (debug_not_name _ Wd) as [N1 N2].
    unfold dec_custom. rewrite (dec_name_custom _ _ W), N1, N2, Wd. reflexivity.
  - destruct (enc_names nm) as [x|] eqn:En; [|discriminate]. apply Some_inj in E. subst b.
    unfold dec_custom. rewrite (dec_name_custom name_str x eq_refl). change (str_eqb name_str name_str) with true. cbv iota.
    rewrite (dec_enc_names _ _ En W). reflexivity.
  - destruct (enc_producers p) as [x|] eqn:En; [|discriminate]. apply Some_inj in E. subst b.
    unfold dec_custom. rewrite (dec_name_custom producers_str x eq_refl).
    change (str_eqb producers_str name_str) with false. change (str_eqb producers_str producers_str) with true. cbv iota.
    rewrite (dec_enc_producers _ _ En W). reflexivity.
Qed.

Definition wf_sec (s : wsec) : bool :=
  match s with
  | S_Custom c => wf_custom c
  | S_Types ts => wf_vec wf_functy ts
  | S_Imports l => wf_vec wf_import l
  | S_Funcs l => wf_vec u32_ok l
  | S_Tables l => wf_vec wf_table l
  | S_Mems l => wf_vec wf_mem l
  | S_Globals l => wf_vec wf_global l
  | S_Exports l => wf_vec wf_export l
  | S_Start f => u32_ok f
  | S_Elems l => wf_vec wf_elem l
  | S_DataCount n => u32_ok n
  | S_Code l => wf_bodies l
  | S_Data l => wf_vec wf_data l
  end.
Lemma all_used_u n : u32_ok n = true -> all_used (dec_u (enc_u n)) = Some n.
Proof. intros W. pose proof (dec_enc_u n [] (u32_small _ W)) as D. rewrite app_nil_r in D. rewrite D. reflexivity. Qed.
Ltac vec_sec C :=
  match goal with
  | E : match enc_vec ?enc ?l with Some _ => _ | None => None end = Some _, W : wf_vec _ ?l = true |- _ =>
      let b := fresh "b" in let Eb := fresh "Eb" in
      destruct (enc_vec enc l) as [b|] eqn:Eb; [|discriminate E]; inversion E; subst;
      eexists; split; [reflexivity|]; unfold dec_sec; cbn [N.eqb Pos.eqb];
      rewrite (vec_all _ _ _ _ _ C Eb W); reflexivity
  end.
Theorem dec_enc_sec wp pos s id p : enc_sec s = Some (id, p) -> wf_sec s = true ->
  exists s', place_sec wp pos s = Some s' /\ dec_sec wp pos id p = Some s'.
Proof.
  destruct s as [ts|l|l|l|l|l|l|f|l|n|l|l|c]; cbn [enc_sec wf_sec]; intros E W.
  - vec_sec codec_functy.
  - vec_sec codec_import.
  - vec_sec codec_u.
  - vec_sec codec_table.
  - vec_sec codec_mem.
  - vec_sec codec_global.
  - vec_sec codec_export.
  - inversion E; subst. eexists; split; [reflexivity|]. unfold dec_sec; cbn [N.eqb Pos.eqb]. rewrite (all_used_u _ W). reflexivity.
  - vec_sec codec_elem.
  - inversion E; subst. eexists; split; [reflexivity|]. unfold dec_sec; cbn [N.eqb Pos.eqb]. rewrite (all_used_u _ W). reflexivity.
  - destruct (enc_code_sec l) as [b|] eqn:Eb; [|discriminate]. inversion E; subst.
    destruct (dec_enc_code wp pos l p Eb W) as (l' & Pl & Dl). exists (S_Code l'). split; [exact Pl|].
    unfold dec_sec; cbn [N.eqb Pos.eqb]. rewrite Dl. reflexivity.
  - vec_sec codec_data.
  - destruct (enc_custom c) as [b|] eqn:Eb; [|discriminate]. inversion E; subst. eexists; split; [reflexivity|].
    unfold dec_sec; cbn [N.eqb Pos.eqb]. rewrite (dec_enc_custom _ _ Eb W). reflexivity.
Qed.
(* the sections other than the code section carry no positions: the reader gives the section itself *)
Corollary dec_enc_sec_plain wp pos s id p : enc_sec s = Some (id, p) -> wf_sec s = true ->
  (forall l, s <> S_Code l) -> dec_sec wp pos id p = Some s.
Proof.
  intros E W N. destruct (dec_enc_sec wp pos s id p E W) as (s' & P & D). rewrite D. f_equal.
  destruct s; cbn [place_sec] in P; try (apply Some_inj in P; symmetry; exact P). exfalso. exact (N _ eq_refl).
Qed.

Fixpoint sec_starts (cur : N) (secs : list (N * list N)) : list (N * (N * list N)) :=
  match secs with
  | [] => []
  | s :: r => let start := cur + 1 + lenN (enc_u (lenN (snd s))) in (start, (fst s, snd s)) :: sec_starts (start + lenN (snd s)) r
  end.
Lemma unframe_at_frame : forall secs cur fuel, Forall small_sec secs -> (length secs <= fuel)%nat ->
  unframe_at fuel cur (flat_map frame_section secs) = Some (sec_starts cur secs).
Proof.
  induction secs as [|[id p] r IH]; intros cur fuel S F.
  - destruct fuel; reflexivity.
  - destruct fuel as [|fuel]; [cbn [length] in F; lia|]. inversion S as [|? ? Sp Sr]; subst. unfold small_sec, small in Sp. cbn [snd] in Sp.
    cbn [flat_map sec_starts fst snd]. change (frame_section (id, p)) with (id :: enc_u (lenN p) ++ p).
    cbn [app unframe_at]. rewrite <- app_assoc, (dec_enc_u _ _ Sp).
    rewrite lenN_ltb_app, takeN_lenN_app, dropN_lenN_app, (lenN_sub_app (enc_u (lenN p)) (p ++ flat_map frame_section r)).
    rewrite (IH _ fuel Sr) by (cbn [length] in F; lia). reflexivity.
Qed.
Lemma frame_sections_len : forall secs : list (N * list N), (length secs <= length (flat_map frame_section secs))%nat.
Proof. induction secs as [|s r IH]; [cbn; lia|]. cbn [flat_map length]. rewrite app_length. unfold frame_section at 1. cbn [length]. lia. Qed.

Definition sec_size_ok (s : wsec) : bool := match enc_sec s with Some (_, p) => u32_ok (lenB p) | None => false end.
Definition wf_wmod (w : wmod) : bool := forallb wf_sec w && forallb sec_size_ok w.

Lemma enc_secs_cons s r encs : enc_secs (s :: r) = Some encs ->
  exists id p l, enc_sec s = Some (id, p) /\ enc_secs r = Some l /\ encs = (id, p) :: l.
Proof.
  cbn [enc_secs]. destruct (enc_sec s) as [[id p]|]; [|discriminate]. destruct (enc_secs r) as [l|]; [|discriminate].
  intros H. apply Some_inj in H. subst. eauto 6.
Qed.
Lemma secs_small : forall w encs, enc_secs w = Some encs -> forallb sec_size_ok w = true -> Forall small_sec encs.
Proof.
  induction w as [|s w IH]; intros encs E W.
  - apply Some_inj in E. subst. constructor.
  - destruct (enc_secs_cons _ _ _ E) as (id & p & l & Es & El & ->). cbn [forallb] in W. apply andb_true_iff in W. destruct W as [Ws Wl].
    unfold sec_size_ok in Ws. rewrite Es in Ws. constructor; [exact (u32_small _ Ws)|exact (IH _ El Wl)].
Qed.
Lemma dec_secs_place wp : forall w encs cur, enc_secs w = Some encs -> forallb wf_sec w = true ->
  exists w', place_secs wp cur w = Some w' /\ dec_secs wp (sec_starts cur encs) = Some w'.
Proof.
  induction w as [|s w IH]; intros encs cur E W.
  - apply Some_inj in E. subst. exists []. split; reflexivity.
  - destruct (enc_secs_cons _ _ _ E) as (id & p & l & Es & El & ->). cbn [forallb] in W. apply andb_true_iff in W. destruct W as [Ws Wl].
    cbn [place_secs sec_starts dec_secs fst snd]. rewrite Es. cbv zeta.
    destruct (dec_enc_sec wp (cur + 1 + lenN (enc_u (lenN p))) s id p Es Ws) as (s' & Ps & Ds). rewrite Ps, Ds.
    destruct (IH l (cur + 1 + lenN (enc_u (lenN p)) + lenN p) El Wl) as (w' & Pw & Dw). rewrite Pw, Dw. eexists. split; reflexivity.
Qed.

(* reading back what the writer wrote, with the positions the writer implies ([place_wmod]) or with all positions 0 *)
Theorem dec_enc_wmod w bs : enc_wmod w = Some bs -> wf_wmod w = true ->
  forall wp, exists w', place_wmod wp w = Some w' /\ dec_wmod wp bs = Some w'.
Proof.
  unfold enc_wmod, wf_wmod. intros E W wp. apply andb_true_iff in W. destruct W as [Ww Wz].
  destruct (enc_secs w) as [encs|] eqn:Ee; [|discriminate]. apply Some_inj in E. subst bs.
  destruct (dec_secs_place wp w encs 8 Ee Ww) as (w' & P & D). exists w'. split; [exact P|].
  unfold dec_wmod, unframe_module_at, frame_module. rewrite firstn8_magic, skipn8_magic, magic_eqb.
  rewrite (unframe_at_frame _ 8 _ (secs_small _ _ Ee Wz)); [exact D|].
  rewrite app_length. pose proof (frame_sections_len encs). lia.
Qed.

(* what [place_wmod] does: nothing but the positions; with [wp = false] they are all 0 *)
Definition zero_body (b : wbody) : wbody := {| wb_locals := wb_locals b; wb_ops := map (fun p => (fst p, 0)) (wb_ops b) |}.
Definition zero_sec (s : wsec) : wsec := match s with S_Code l => S_Code (map zero_body l) | _ => s end.
Definition zero_wmod (w : wmod) : wmod := map zero_sec w.
Lemma ins_offsets_length : forall ops cur l, ins_offsets cur ops = Some l -> length l = length ops.
Proof.
  induction ops as [|i ops IH]; intros cur l H.
  - apply Some_inj in H. subst. reflexivity.
  - cbn [ins_offsets] in H. destruct (ilen_model i) as [n|]; [|discriminate]. destruct (ins_offsets (cur + n) ops) as [l'|] eqn:E; [|discriminate].
    apply Some_inj in H. subst. cbn [length]. rewrite (IH _ _ E). reflexivity.
Qed.
Lemma const_ops_combine {A B} : forall (ops : list (A * N)) (offs : list B), length offs = length ops ->
  combine (map fst ops) (map (fun _ => 0) offs) = map (fun p => (fst p, 0)) ops.
Proof.
  induction ops as [|[i q] ops IH]; intros [|o offs] L; try discriminate L; [reflexivity|].
  cbn [map combine fst]. rewrite IH by (cbn [length] in L; lia). reflexivity.
Qed.
Lemma place_body_zero wp s b b' : place_body wp s b = Some b' -> zero_body b' = zero_body b /\ (wp = false -> b' = zero_body b).
Proof.
  unfold place_body. destruct (ins_offsets _ _) as [offs|] eqn:O; [|discriminate]. intros H. apply Some_inj in H. subst b'.
  pose proof (ins_offsets_length _ _ _ O) as L. rewrite map_length in L. split.
  - unfold zero_body. cbn [wb_locals wb_ops]. rewrite (map_combine_snd (fun _ => 0)), map_map, (const_ops_combine _ _ L). reflexivity.
  - intros ->. unfold zero_body. rewrite (const_ops_combine _ _ L). reflexivity.
Qed.
Lemma place_bodies_zero wp : forall l starts l', place_bodies wp l starts = Some l' ->
  map zero_body l' = map zero_body l /\ (wp = false -> l' = map zero_body l).
Proof.
  induction l as [|b l IH]; intros starts l' H.
  - apply Some_inj in H. subst. split; reflexivity.
  - destruct starts as [|[c s] st]; [discriminate|]. cbn [place_bodies] in H.
    destruct (place_body wp s b) as [b'|] eqn:Eb; [|discriminate]. destruct (place_bodies wp l st) as [r'|] eqn:Er; [|discriminate].
    apply Some_inj in H. subst l'. destruct (place_body_zero _ _ _ _ Eb) as [Z1 Z2]. destruct (IH _ _ Er) as [Y1 Y2].
    split; [cbn [map]; rewrite Z1, Y1; reflexivity|]. intros F. cbn [map]. rewrite (Z2 F), (Y2 F). reflexivity.
Qed.
Lemma place_sec_zero wp pos s s' : place_sec wp pos s = Some s' -> zero_sec s' = zero_sec s /\ (wp = false -> s' = zero_sec s).
Proof.
  destruct s; cbn [place_sec]; intros H; try (apply Some_inj in H; subst s'; split; reflexivity).
  destruct (enc_bodies _) as [bytess|]; [|discriminate]. destruct (place_bodies wp bs _) as [l'|] eqn:E; [|discriminate].
  apply Some_inj in H. subst s'. destruct (place_bodies_zero _ _ _ _ E) as [Z1 Z2]. split; [cbn [zero_sec]; rewrite Z1; reflexivity|].
  intros F. cbn [zero_sec]. rewrite (Z2 F). reflexivity.
Qed.
Lemma place_secs_zero wp : forall w cur w', place_secs wp cur w = Some w' -> zero_wmod w' = zero_wmod w /\ (wp = false -> w' = zero_wmod w).
Proof.
  induction w as [|s w IH]; intros cur w' H.
  - apply Some_inj in H. subst. split; reflexivity.
  - cbn [place_secs] in H. destruct (enc_sec s) as [[id p]|]; [|discriminate]. cbv zeta in H.
    destruct (place_sec wp _ s) as [s'|] eqn:Es; [|discriminate]. destruct (place_secs wp _ w) as [r'|] eqn:Er; [|discriminate].
    apply Some_inj in H. subst w'. destruct (place_sec_zero _ _ _ _ Es) as [Z1 Z2]. destruct (IH _ _ Er) as [Y1 Y2].
    unfold zero_wmod in *. split; [cbn [map]; rewrite Z1, Y1; reflexivity|]. intros F. cbn [map]. rewrite (Z2 F), (Y2 F). reflexivity.
Qed.
Theorem dec_enc_wmod_zero w bs : enc_wmod w = Some bs -> wf_wmod w = true -> dec_wmod false bs = Some (zero_wmod w).
Proof.
  intros E W. destruct (dec_enc_wmod w bs E W false) as (w' & P & D). rewrite D. f_equal.
  destruct (place_secs_zero false w 8 w' P) as [_ Z]. exact (Z eq_refl).
Qed.
Corollary dec_enc_wmod_zero_id w bs : enc_wmod w = Some bs -> wf_wmod w = true -> zero_wmod w = w -> dec_wmod false bs = Some w.
Proof. intros E W Z. rewrite (dec_enc_wmod_zero w bs E W), Z. reflexivity. Qed.
(* the position reader: the same stream, every operator at the file offset the writer put it *)
Theorem dec_enc_wmod_pos w bs : enc_wmod w = Some bs -> wf_wmod w = true ->
  exists w', place_wmod true w = Some w' /\ dec_wmod true bs = Some w' /\ zero_wmod w' = zero_wmod w.
Proof.
  intros E W. destruct (dec_enc_wmod w bs E W true) as (w' & P & D). exists w'. split; [exact P|]. split; [exact D|].
  exact (proj1 (place_secs_zero true w 8 w' P)).
Qed.

From WV Require Import Model.EmitM Proofs.CustomsCfg.
From WV Require Proofs.ModFix8.
Definition encodable_ins (i : wins) : bool :=
  match i with WOp o => match snd (op_split o) with I_heap (HT_Other _) => false | _ => true end | _ => true end.
Lemma enc_ins_total i : encodable_ins i = true -> exists bs, enc_ins i = Some bs.
Proof.
  destruct i as [o| | | | | | | | |]; cbn [encodable_ins enc_ins]; intros H; try (eexists; reflexivity).
  apply enc_op_some. destruct (snd (op_split o)) as [| | | | | | | | | |[| |]| | | |]; try discriminate H; eexists; reflexivity.
Qed.
Definition encodable_const (c : wconst) : bool := match c with WC_Other => false | _ => true end.
Lemma enc_const_total c : encodable_const c = true -> exists bs, enc_const c = Some bs.
Proof.
  intros H. unfold enc_const. destruct c as [z|z|n|n|n|g|t|f|]; try discriminate H; try destruct t; cbn [const_op];
    match goal with |- context [enc_ins ?i] => destruct (enc_ins_total i eq_refl) as [b ->] end; eexists; reflexivity.
Qed.
Lemma enc_many_total {A} (enc : A -> option (list N)) (ok : A -> bool) : (forall a, ok a = true -> exists bs, enc a = Some bs) ->
  forall l, forallb ok l = true -> exists bs, enc_many enc l = Some bs.
Proof.
  intros T. induction l as [|a l IH]; intros H; [eexists; reflexivity|].
  cbn [forallb] in H. apply andb_true_iff in H. destruct H as [Ha Hl]. destruct (T a Ha) as [x Ex]. destruct (IH Hl) as [y Ey].
  cbn [enc_many]. rewrite Ex, Ey. eexists. reflexivity.
Qed.
Lemma enc_vec_total {A} (enc : A -> option (list N)) (ok : A -> bool) : (forall a, ok a = true -> exists bs, enc a = Some bs) ->
  forall l, forallb ok l = true -> exists bs, enc_vec enc l = Some bs.
Proof. intros T l H. destruct (enc_many_total enc ok T l H) as [b Eb]. unfold enc_vec. rewrite Eb. eexists. reflexivity. Qed.
Lemma forallb_true {A} (l : list A) : forallb (fun _ => true) l = true.
Proof. induction l; [reflexivity|exact IHl]. Qed.
Lemma enc_vec_total_all {A} (enc : A -> option (list N)) : (forall a, exists bs, enc a = Some bs) -> forall l, exists bs, enc_vec enc l = Some bs.
Proof. intros T l. apply (enc_vec_total enc (fun _ => true)); [intros a _; apply T|apply forallb_true]. Qed.

Definition encodable_elem (e : welem) : bool :=
  match wel_kind e with WEK_Active _ o => encodable_const o | _ => true end &&
  match wel_items e with WEI_Exprs _ es => forallb encodable_const es | _ => true end.
Definition encodable_data (d : wdata) : bool := match wd_kind d with WDK_Active _ o => encodable_const o | _ => true end.
Definition encodable_body (b : wbody) : bool := forallb (fun p => encodable_ins (fst p)) (wb_ops b).
Definition consts_ops_ok (s : wsec) : bool :=
  match s with
  | S_Globals l => forallb (fun g => encodable_const (snd g)) l
  | S_Elems l => forallb encodable_elem l
  | S_Data l => forallb encodable_data l
  | S_Code l => forallb encodable_body l
  | _ => true
  end.
(* an unparsable name / producers section has no canonical bytes *)
Definition parsed_custom (s : wsec) : bool :=
  match s with S_Custom (CS_Name None) | S_Custom (CS_Producers None) => false | _ => true end.
Definition encodable_sec (s : wsec) : bool := consts_ops_ok s && parsed_custom s.
Definition encodable_wmod (w : wmod) : bool := forallb encodable_sec w.

Lemma enc_u_o_total a : exists bs, enc_u_o a = Some bs. Proof. eexists; reflexivity. Qed.
Lemma enc_elem_total e : encodable_elem e = true -> exists bs, enc_elem e = Some bs.
Proof.
  destruct e as [k it]. unfold encodable_elem, enc_elem. cbn [wel_kind wel_items]. intros H. apply andb_true_iff in H. destruct H as [Hk Hi].
  assert (I : forall ty : bool, exists items, match it with
            | WEI_Funcs fs => match enc_vec enc_u_o fs with Some b => Some ((if ty then [0] else []) ++ b) | None => None end
            | WEI_Exprs rt es => match enc_vec enc_const es with Some b => Some ((if ty then [refty_byte rt] else []) ++ b) | None => None end
            end = Some items).
  { intros ty. destruct it as [fs|rt es].
    - destruct (enc_vec_total_all enc_u_o enc_u_o_total fs) as [b ->]. eexists. reflexivity.
    - destruct (enc_vec_total enc_const encodable_const enc_const_total es Hi) as [b ->]. eexists. reflexivity. }
  destruct k as [| |t o].
  - destruct (I true) as [items ->]. eexists. reflexivity.
  - destruct (I true) as [items ->]. eexists. reflexivity.
  - destruct (enc_const_total o Hk) as [ob ->]. destruct t as [t|]; [|destruct it as [fs|[|] es]];
      (destruct (I true) as [items ->] || destruct (I false) as [items ->]); eexists; reflexivity.
Qed.
Lemma enc_data_total d : encodable_data d = true -> exists bs, enc_data d = Some bs.
Proof.
  destruct d as [[|m o] b]; unfold encodable_data, enc_data; cbn [wd_kind wd_bytes]; intros H; [eexists; reflexivity|].
  destruct (enc_const_total o H) as [ob ->]. eexists. reflexivity.
Qed.
Lemma enc_inss_total : forall ops, forallb encodable_ins ops = true -> exists bs, enc_inss ops = Some bs.
Proof.
  induction ops as [|i ops IH]; intros H; [eexists; reflexivity|]. cbn [forallb] in H. apply andb_true_iff in H. destruct H as [Hi Ho].
  destruct (enc_ins_total i Hi) as [a Ea]. destruct (IH Ho) as [b Eb]. cbn [enc_inss]. rewrite Ea, Eb. eexists. reflexivity.
Qed.
Lemma forallb_map_fst {A B} (f : A -> bool) : forall l : list (A * B), forallb f (map fst l) = forallb (fun p => f (fst p)) l.
Proof. induction l as [|x l IH]; [reflexivity|]. cbn [map forallb]. rewrite IH. reflexivity. Qed.
Lemma enc_bodies_total : forall l, forallb encodable_body l = true -> exists bs, enc_bodies (map body_of l) = Some bs.
Proof.
  induction l as [|b l IH]; intros H; [eexists; reflexivity|]. cbn [forallb] in H. apply andb_true_iff in H. destruct H as [Hb Hl].
  destruct (IH Hl) as [r Er]. cbn [map enc_bodies body_of fst snd]. unfold enc_body.
  unfold encodable_body in Hb. rewrite <- (forallb_map_fst encodable_ins) in Hb. destruct (enc_inss_total _ Hb) as [ib ->]. rewrite Er. eexists. reflexivity.
Qed.
Lemma enc_names_total n : exists bs, enc_names n = Some bs.
Proof.
  assert (T1 : forall m, exists c, enc_namemap m = Some c) by (intros m; apply enc_vec_total_all; intros a; eexists; reflexivity).
  assert (T2 : forall m, exists c, enc_vec enc_indirect m = Some c).
  { intros m. apply enc_vec_total_all. intros [i nm]. unfold enc_indirect. cbn [fst snd]. destruct (T1 nm) as [c ->]. eexists. reflexivity. }
  assert (S1 : forall id m, exists s, enc_map_sub enc_namemap id m = Some s).
  { intros id [|x m]; [eexists; reflexivity|]. cbn [enc_map_sub]. destruct (T1 (x :: m)) as [c ->]. eexists. reflexivity. }
  assert (S2 : forall id m, exists s, enc_map_sub (enc_vec enc_indirect) id m = Some s).
  { intros id [|x m]; [eexists; reflexivity|]. cbn [enc_map_sub]. destruct (T2 (x :: m)) as [c ->]. eexists. reflexivity. }
  unfold enc_names.
  destruct (S1 1 (wn_funcs n)) as [s1 ->]. destruct (S2 2 (wn_locals n)) as [s2 ->]. destruct (S1 4 (wn_types n)) as [s4 ->].
  destruct (S1 5 (wn_tables n)) as [s5 ->]. destruct (S1 6 (wn_mems n)) as [s6 ->]. destruct (S1 7 (wn_globals n)) as [s7 ->].
  destruct (S1 8 (wn_elems n)) as [s8 ->]. destruct (S1 9 (wn_data n)) as [s9 ->]. eexists. reflexivity.
Qed.
Lemma enc_producers_total p : exists bs, enc_producers p = Some bs.
Proof.
  apply enc_vec_total_all. intros [n vs]. unfold enc_pfield. cbn [fst snd].
  destruct (enc_vec_total_all enc_pvalue (fun v => ex_intro _ _ eq_refl) vs) as [b ->]. eexists. reflexivity.
Qed.
Lemma enc_sec_total s : encodable_sec s = true -> exists x, enc_sec s = Some x.
Proof.
  unfold encodable_sec. intros H. apply andb_true_iff in H. destruct H as [Hc Hp].
  destruct s as [ts|l|l|l|l|l|l|f|l|n|l|l|c]; cbn [enc_sec consts_ops_ok] in *; try (eexists; reflexivity).
  - destruct (enc_vec_total_all enc_functy) with (l := ts) as [b ->]; [|eexists; reflexivity].
    intros [ps rs]. unfold enc_functy. cbn [fst snd].
    destruct (enc_vec_total_all enc_valty (fun t => ex_intro _ _ eq_refl) ps) as [p ->].
    destruct (enc_vec_total_all enc_valty (fun t => ex_intro _ _ eq_refl) rs) as [r ->]. eexists. reflexivity.
  - destruct (enc_vec_total_all enc_import (fun t => ex_intro _ _ eq_refl) l) as [b ->]. eexists. reflexivity.
  - destruct (enc_vec_total_all enc_u_o enc_u_o_total l) as [b ->]. eexists. reflexivity.
  - destruct (enc_vec_total_all enc_table_o (fun t => ex_intro _ _ eq_refl) l) as [b ->]. eexists. reflexivity.
  - destruct (enc_vec_total_all enc_mem_o (fun t => ex_intro _ _ eq_refl) l) as [b ->]. eexists. reflexivity.
  - destruct (enc_vec_total enc_global (fun g => encodable_const (snd g))) with (l := l) as [b ->]; [|exact Hc|eexists; reflexivity].
    intros [t c] Hg. unfold enc_global. cbn [fst snd] in *. destruct (enc_const_total c Hg) as [cb ->]. eexists. reflexivity.
  - destruct (enc_vec_total_all enc_export (fun t => ex_intro _ _ eq_refl) l) as [b ->]. eexists. reflexivity.
  - destruct (enc_vec_total enc_elem encodable_elem enc_elem_total l Hc) as [b ->]. eexists. reflexivity.
  - unfold enc_code_sec, enc_code. destruct (enc_bodies_total l Hc) as [b ->]. eexists. reflexivity.
  - destruct (enc_vec_total enc_data encodable_data enc_data_total l Hc) as [b ->]. eexists. reflexivity.
  - destruct c as [n d|n d|[nm|]|[p|]]; cbn [enc_custom parsed_custom] in *; try discriminate Hp; try (eexists; reflexivity).
    + destruct (enc_names_total nm) as [b ->]. eexists. reflexivity.
    + destruct (enc_producers_total p) as [b ->]. eexists. reflexivity.
Qed.
Lemma enc_wmod_total (ok : wsec -> bool) : (forall s, ok s = true -> exists x, enc_sec s = Some x) ->
  forall w, forallb ok w = true -> exists bs, enc_wmod w = Some bs.
Proof.
  intros T w H. unfold enc_wmod.
  assert (E : exists l, enc_secs w = Some l).
  { induction w as [|s w IH]; [eexists; reflexivity|]. cbn [forallb] in H. apply andb_true_iff in H. destruct H as [Hs Hw].
    destruct (T s Hs) as [x Ex]. destruct (IH Hw) as [l El]. cbn [enc_secs]. rewrite Ex, El. eexists. reflexivity. }
  destruct E as [l ->]. eexists. reflexivity.
Qed.
Theorem encodable_total w : encodable_wmod w = true -> exists bs, enc_wmod w = Some bs.
Proof. exact (enc_wmod_total encodable_sec enc_sec_total w). Qed.

(* what [emitM] emits: its name / producers sections are always parsed ones, so only constants and operators matter *)
Lemma forallb_app' {A} (f : A -> bool) a b : forallb f a = true -> forallb f b = true -> forallb f (a ++ b) = true.
Proof. intros Ha Hb. rewrite forallb_app, Ha, Hb. reflexivity. Qed.
Lemma emitM_customs_parsed m ilen e : emitM m ilen [] = Ok e -> forallb parsed_custom (em_secs e) = true.
Proof.
  intros H. destruct (ModFix8.emitM_shape _ _ _ H) as (front & x & efs & nm & Pf & En & ->).
  apply forallb_app'; [|apply forallb_app'; [|apply forallb_app']].
  - apply forallb_forall. intros s Hs. unfold plain_secs in Pf. rewrite Forall_forall in Pf. specialize (Pf s Hs). destruct s; try reflexivity; discriminate Pf.
  - unfold sec_names in En. destruct (cf_skip_name _); [injection En as <-; reflexivity|].
    destruct (emit_names_shape _ _ _ _ En) as [->|[n ->]]; reflexivity.
  - unfold sec_producers. destruct (cf_skip_producers _); [reflexivity|]. destruct (m_producers m); reflexivity.
  - unfold sec_customs. induction (m_customs m) as [|[c|] cs IH]; [reflexivity| |exact IH].
    cbn [flat_map]. destruct (starts_with_debug (cu_name c)); [exact IH|]. cbn [app forallb parsed_custom]. exact IH.
Qed.
Theorem emitted_bytes m ilen e : emitM m ilen [] = Ok e -> forallb consts_ops_ok (em_secs e) = true ->
  exists bs, enc_wmod (em_secs e) = Some bs.
Proof.
  intros H C. apply encodable_total. unfold encodable_wmod, encodable_sec. pose proof (emitM_customs_parsed _ _ _ H) as P.
  induction (em_secs e) as [|s w IH]; [reflexivity|]. cbn [forallb] in *.
  apply andb_true_iff in C. destruct C as [Cs Cw]. apply andb_true_iff in P. destruct P as [Ps Pw]. rewrite Cs, Ps, (IH Cw Pw). reflexivity.
Qed.

(* the reader's framing is [unframe_module] of Model/Frame.v with the payload offsets added *)
Lemma unframe_at_sections : forall fuel cur bs l, unframe_at fuel cur bs = Some l -> unframe_sections fuel bs = Some (map snd l).
Proof.
  induction fuel as [|f IH]; intros cur bs l H.
  - destruct bs; [|discriminate]. apply Some_inj in H. subst. reflexivity.
  - destruct bs as [|id r]; [apply Some_inj in H; subst; reflexivity|]. cbn [unframe_at] in H. cbn [unframe_sections].
    destruct (dec_u r) as [[n r']|]; [|discriminate]. destruct (lenN r' <? n); [discriminate|].
    destruct (unframe_at f _ (dropN n r')) as [rest|] eqn:E; [|discriminate]. apply Some_inj in H. subst l.
    rewrite (IH _ _ _ E). reflexivity.
Qed.
Theorem unframe_module_at_module bs l : unframe_module_at bs = Some l -> unframe_module bs = Some (map snd l).
Proof. unfold unframe_module_at, unframe_module. destruct (Frame.nlist_eqb _ _); [|discriminate]. apply unframe_at_sections. Qed.

(* non-vacuity: a module with one of everything:
   imports of all four kinds, a table, a 64-bit memory with a maximum, a mutable global initialised by global.get, exports of all
   four kinds, start, four element segments (flag forms 0, 5, 6, 3), data count, two bodies, a passive and an active (memory 1)
   data segment, a raw custom section, a name section (module, function, local and global names), a producers section.
   The bytes are what wasm-encoder 0.214 writes for it (`vh modbytes-example`; the module validates and is one of the inputs of `vh modbytes`); the terms are what src/wmodcoq.rs prints for them. *)
Definition everything_bytes : list N :=
  [0;97;115;109;1;0;0;0;1;10;2;96;0;0;96;2;127;126;1;124;2;39;4;3;101;110;118;1;102;0;1;3;101;110;118;1;116;1;112;1;1;172;2;3;101;110;118;1;109;2;0;1;3;101;110;118;1;103;3;127;0;3;3;2;0;1;4;4;1;111;0;4;5;6;1;5;2;240;162;4;6;14;2;127;1;35;0;11;125;0;67;0;0;192;63;11;7;26;4;3;114;117;110;0;1;3;109;101;109;2;1;3;116;97;98;1;1;4;103;108;111;98;3;1;8;1;1;9;31;4;0;65;0;11;2;0;1;5;112;2;210;2;11;208;112;11;6;1;65;0;11;111;1;208;111;11;3;0;1;2;12;1;2;10;32;2;3;0;1;11;26;2;2;127;1;124;2;64;65;184;126;33;2;65;0;65;3;65;0;252;8;0;0;11;32;4;11;11;14;2;1;3;1;2;3;2;1;66;8;11;2;255;0;0;10;5;104;101;108;108;111;1;2;3;200;0;47;4;110;97;109;101;0;4;3;109;111;100;1;11;2;1;3;111;110;101;2;3;116;119;111;2;9;1;2;2;0;1;97;2;1;120;7;10;1;1;7;99;111;117;110;116;101;114;0;60;9;112;114;111;100;117;99;101;114;115;2;12;112;114;111;99;101;115;115;101;100;45;98;121;2;6;119;97;108;114;117;115;4;48;46;50;49;1;120;0;8;108;97;110;103;117;97;103;101;1;4;82;117;115;116;4;49;46;56;48].
Definition everything : wmod :=
  [S_Types [([], []); ([VT_I32; VT_I64], [VT_F64])];
    S_Imports [{| wi_module := [101;110;118]; wi_name := [102]; wi_kind := WI_Func 1 |}; {| wi_module := [101;110;118]; wi_name := [116]; wi_kind := WI_Table {| wt_elem := RT_Funcref; wt_64 := false; wt_init := 1; wt_max := (Some 300) |} |}; {| wi_module := [101;110;118]; wi_name := [109]; wi_kind := WI_Mem {| wm_64 := false; wm_shared := false; wm_init := 1; wm_max := None; wm_page := None |} |}; {| wi_module := [101;110;118]; wi_name := [103]; wi_kind := WI_Global {| wg_ty := VT_I32; wg_mut := false; wg_shared := false |} |}];
    S_Funcs [0; 1];
    S_Tables [{| wt_elem := RT_Externref; wt_64 := false; wt_init := 4; wt_max := None |}];
    S_Mems [{| wm_64 := true; wm_shared := false; wm_init := 2; wm_max := (Some 70000); wm_page := None |}];
    S_Globals [({| wg_ty := VT_I32; wg_mut := true; wg_shared := false |}, WC_GlobalGet 0); ({| wg_ty := VT_F32; wg_mut := false; wg_shared := false |}, WC_F32 1069547520)];
    S_Exports [{| we_name := [114;117;110]; we_kind := EK_Func; we_index := 1 |}; {| we_name := [109;101;109]; we_kind := EK_Mem; we_index := 1 |}; {| we_name := [116;97;98]; we_kind := EK_Table; we_index := 1 |}; {| we_name := [103;108;111;98]; we_kind := EK_Global; we_index := 1 |}];
    S_Start 1;
    S_Elems [{| wel_kind := WEK_Active None (WC_I32 (0)%Z); wel_items := WEI_Funcs [0; 1] |}; {| wel_kind := WEK_Passive; wel_items := WEI_Exprs RT_Funcref [WC_RefFunc 2; WC_RefNull RT_Funcref] |}; {| wel_kind := WEK_Active (Some 1) (WC_I32 (0)%Z); wel_items := WEI_Exprs RT_Externref [WC_RefNull RT_Externref] |}; {| wel_kind := WEK_Declared; wel_items := WEI_Funcs [2] |}];
    S_DataCount 2;
    S_Code [{| wb_locals := []; wb_ops := [(WNop, 0); (WEnd, 0)] |}; {| wb_locals := [(2, VT_I32); (1, VT_F64)]; wb_ops := [(WBlock BT_Empty, 0); (WOp (W_I32Const (-200)%Z), 0); (WOp (W_LocalSet 2), 0); (WOp (W_I32Const (0)%Z), 0); (WOp (W_I32Const (3)%Z), 0); (WOp (W_I32Const (0)%Z), 0); (WOp (W_MemoryInit 0 0), 0); (WEnd, 0); (WOp (W_LocalGet 4), 0); (WEnd, 0)] |}];
    S_Data [{| wd_kind := WDK_Passive; wd_bytes := [1;2;3] |}; {| wd_kind := WDK_Active 1 (WC_I64 (8)%Z); wd_bytes := [255;0] |}];
    S_Custom (CS_Raw [104;101;108;108;111] [1;2;3;200]);
    S_Custom (CS_Name (Some {| wn_module := (Some [109;111;100]); wn_funcs := [(1, [111;110;101]); (2, [116;119;111])]; wn_locals := [(2, [(0, [97]); (2, [120])])]; wn_types := []; wn_tables := []; wn_mems := []; wn_globals := [(1, [99;111;117;110;116;101;114])]; wn_elems := []; wn_data := [] |}));
    S_Custom (CS_Producers (Some [([112;114;111;99;101;115;115;101;100;45;98;121], [([119;97;108;114;117;115], [48;46;50;49]); ([120], [])]); ([108;97;110;103;117;97;103;101], [([82;117;115;116], [49;46;56;48])])]))].
Definition everything_pos : wmod :=
  [S_Types [([], []); ([VT_I32; VT_I64], [VT_F64])];
    S_Imports [{| wi_module := [101;110;118]; wi_name := [102]; wi_kind := WI_Func 1 |}; {| wi_module := [101;110;118]; wi_name := [116]; wi_kind := WI_Table {| wt_elem := RT_Funcref; wt_64 := false; wt_init := 1; wt_max := (Some 300) |} |}; {| wi_module := [101;110;118]; wi_name := [109]; wi_kind := WI_Mem {| wm_64 := false; wm_shared := false; wm_init := 1; wm_max := None; wm_page := None |} |}; {| wi_module := [101;110;118]; wi_name := [103]; wi_kind := WI_Global {| wg_ty := VT_I32; wg_mut := false; wg_shared := false |} |}];
    S_Funcs [0; 1];
    S_Tables [{| wt_elem := RT_Externref; wt_64 := false; wt_init := 4; wt_max := None |}];
    S_Mems [{| wm_64 := true; wm_shared := false; wm_init := 2; wm_max := (Some 70000); wm_page := None |}];
    S_Globals [({| wg_ty := VT_I32; wg_mut := true; wg_shared := false |}, WC_GlobalGet 0); ({| wg_ty := VT_F32; wg_mut := false; wg_shared := false |}, WC_F32 1069547520)];
    S_Exports [{| we_name := [114;117;110]; we_kind := EK_Func; we_index := 1 |}; {| we_name := [109;101;109]; we_kind := EK_Mem; we_index := 1 |}; {| we_name := [116;97;98]; we_kind := EK_Table; we_index := 1 |}; {| we_name := [103;108;111;98]; we_kind := EK_Global; we_index := 1 |}];
    S_Start 1;
    S_Elems [{| wel_kind := WEK_Active None (WC_I32 (0)%Z); wel_items := WEI_Funcs [0; 1] |}; {| wel_kind := WEK_Passive; wel_items := WEI_Exprs RT_Funcref [WC_RefFunc 2; WC_RefNull RT_Funcref] |}; {| wel_kind := WEK_Active (Some 1) (WC_I32 (0)%Z); wel_items := WEI_Exprs RT_Externref [WC_RefNull RT_Externref] |}; {| wel_kind := WEK_Declared; wel_items := WEI_Funcs [2] |}];
    S_DataCount 2;
    S_Code [{| wb_locals := []; wb_ops := [(WNop, 168); (WEnd, 169)] |}; {| wb_locals := [(2, VT_I32); (1, VT_F64)]; wb_ops := [(WBlock BT_Empty, 176); (WOp (W_I32Const (-200)%Z), 178); (WOp (W_LocalSet 2), 181); (WOp (W_I32Const (0)%Z), 183); (WOp (W_I32Const (3)%Z), 185); (WOp (W_I32Const (0)%Z), 187); (WOp (W_MemoryInit 0 0), 189); (WEnd, 193); (WOp (W_LocalGet 4), 194); (WEnd, 196)] |}];
    S_Data [{| wd_kind := WDK_Passive; wd_bytes := [1;2;3] |}; {| wd_kind := WDK_Active 1 (WC_I64 (8)%Z); wd_bytes := [255;0] |}];
    S_Custom (CS_Raw [104;101;108;108;111] [1;2;3;200]);
    S_Custom (CS_Name (Some {| wn_module := (Some [109;111;100]); wn_funcs := [(1, [111;110;101]); (2, [116;119;111])]; wn_locals := [(2, [(0, [97]); (2, [120])])]; wn_types := []; wn_tables := []; wn_mems := []; wn_globals := [(1, [99;111;117;110;116;101;114])]; wn_elems := []; wn_data := [] |}));
    S_Custom (CS_Producers (Some [([112;114;111;99;101;115;115;101;100;45;98;121], [([119;97;108;114;117;115], [48;46;50;49]); ([120], [])]); ([108;97;110;103;117;97;103;101], [([82;117;115;116], [49;46;56;48])])]))].
Example everything_enc : enc_wmod everything = Some everything_bytes.
Proof. vm_compute. reflexivity. Qed.
Example everything_enc_pos : enc_wmod everything_pos = Some everything_bytes.      (* the writer ignores positions *)
Proof. vm_compute. reflexivity. Qed.
Example everything_wf : wf_wmod everything = true.
Proof. vm_compute. reflexivity. Qed.
Example everything_encodable : encodable_wmod everything = true.
Proof. vm_compute. reflexivity. Qed.
Example everything_dec0 : dec_wmod false everything_bytes = Some everything.
Proof. vm_compute. reflexivity. Qed.
Example everything_dec_pos : dec_wmod true everything_bytes = Some everything_pos.
Proof. vm_compute. reflexivity. Qed.
Example everything_place : place_wmod true everything = Some everything_pos.
Proof. vm_compute. reflexivity. Qed.
(* the same two facts as instances of the theorems (the premises are satisfiable) *)
Example everything_by_theorem : dec_wmod false everything_bytes = Some everything.
Proof. apply (dec_enc_wmod_zero_id everything everything_bytes everything_enc everything_wf). vm_compute. reflexivity. Qed.
Example everything_pos_by_theorem : dec_wmod true everything_bytes = Some everything_pos.
Proof.
  destruct (dec_enc_wmod everything everything_bytes everything_enc everything_wf true) as (w' & P & D).
  rewrite everything_place in P. apply Some_inj in P. subst w'. exact D.
Qed.
(* a non-canonical encoding of a segment the writer normalises: [wf_wmod] refuses it, and the round trip really fails *)
Definition noncanonical : wmod :=
  [S_Elems [{| wel_kind := WEK_Active None (WC_I32 0%Z); wel_items := WEI_Exprs RT_Externref [WC_RefNull RT_Externref] |}]].
Example noncanonical_refuted : wf_wmod noncanonical = false /\
  exists bs w', enc_wmod noncanonical = Some bs /\ dec_wmod false bs = Some w' /\ w' <> noncanonical.
Proof. split; [vm_compute; reflexivity|]. eexists _, _. split; [vm_compute; reflexivity|]. split; [vm_compute; reflexivity|]. discriminate. Qed.

Print Assumptions unframe_module_at_module.
Print Assumptions dec_enc_sec.
Print Assumptions dec_enc_wmod.
Print Assumptions dec_enc_wmod_zero.
Print Assumptions dec_enc_wmod_pos.
Print Assumptions dec_enc_names.
Print Assumptions dec_enc_producers.
Print Assumptions encodable_total.
Print Assumptions emitted_bytes.
Print Assumptions everything_by_theorem.
Print Assumptions noncanonical_refuted.

(* [wf_wmod] alone is enough: its size conditions already say that every section has bytes *)
Theorem wf_wmod_encodes w : wf_wmod w = true -> exists bs, enc_wmod w = Some bs.
Proof.
  unfold wf_wmod. intros W. apply andb_true_iff in W. destruct W as [_ Wz]. apply (enc_wmod_total sec_size_ok); [|exact Wz].
  intros s Hs. unfold sec_size_ok in Hs. destruct (enc_sec s) as [x|]; [eexists; reflexivity|discriminate Hs].
Qed.
Theorem wf_wmod_round_trip w : wf_wmod w = true ->
  exists bs, enc_wmod w = Some bs /\ dec_wmod false bs = Some (zero_wmod w) /\
             exists w', place_wmod true w = Some w' /\ dec_wmod true bs = Some w' /\ zero_wmod w' = zero_wmod w.
Proof.
  intros W. destruct (wf_wmod_encodes w W) as [bs E]. exists bs. split; [exact E|]. split; [exact (dec_enc_wmod_zero w bs E W)|].
  exact (dec_enc_wmod_pos w bs E W).
Qed.
(* the writer is injective on well-formed streams, up to operator positions (which it does not write) *)
Theorem enc_wmod_inj w1 w2 bs : enc_wmod w1 = Some bs -> enc_wmod w2 = Some bs -> wf_wmod w1 = true -> wf_wmod w2 = true ->
  zero_wmod w1 = zero_wmod w2.
Proof.
  intros E1 E2 W1 W2. pose proof (dec_enc_wmod_zero _ _ E1 W1) as D1. pose proof (dec_enc_wmod_zero _ _ E2 W2) as D2.
  rewrite D1 in D2. apply Some_inj in D2. exact D2.
Qed.
(* emitM, written out and read back *)
Theorem emitted_bytes_read_back m ilen e : emitM m ilen [] = Ok e -> wf_wmod (em_secs e) = true ->
  exists bs, enc_wmod (em_secs e) = Some bs /\ dec_wmod false bs = Some (zero_wmod (em_secs e)) /\
             exists w', place_wmod true (em_secs e) = Some w' /\ dec_wmod true bs = Some w' /\ zero_wmod w' = zero_wmod (em_secs e).
Proof. intros _ W. exact (wf_wmod_round_trip _ W). Qed.
Print Assumptions wf_wmod_round_trip.
Print Assumptions enc_wmod_inj.
Print Assumptions emitted_bytes_read_back.
