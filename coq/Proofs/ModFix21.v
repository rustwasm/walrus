(* C08, name section with synthetic names: the function-names half, and the module fixpoint reduced to
   two visible facts (named functions kept; local-name maps equal). *)
From Coq Require Import List NArith ZArith Bool Arith Lia Permutation Sorted.
Import ListNotations.
From WV Require Import Gen.Ops Model.Common Model.IR Model.Arena Model.ModuleM Model.ParseM Model.EmitM.
From WV Require Import Proofs.Arena Proofs.Order Proofs.IndexMaps Proofs.Structure Proofs.Structure2 Proofs.ParseTotal.
From WV Require Import Proofs.Names Proofs.ModFix Proofs.ModFix7.
From WV Require Proofs.ModFix8 Proofs.ModFix13 Proofs.ModFix20.
Local Open Scope nat_scope.

(* every function of the second parse that carries a name (explicit or synthetic "f<idx>") is named in the
   name section the first emit wrote *)
Definition funcs_named_kept (s2 : pst) (n1 : wnames) : Prop :=
  forall i f, In (i, f) (aiter (m_funcs (ps_m s2))) -> fn_name f <> None -> In i (map fst (wn_funcs n1)).

(* function names, for ANY setting of cf_synthetic_names *)
Theorem fix_names_funcs_syn : forall cf ver w ilen s1 e1 s2 e2,
  two_trips cf ver w ilen s1 e1 s2 e2 -> cf_skip_name cf = false -> counts_kept e1 s2 -> rho_id s2 e2 S_func ->
  funcs_named_kept s2 (stream_names (em_secs e1)) ->
  wn_funcs (stream_names (em_secs e2)) = wn_funcs (stream_names (em_secs e1)).
Proof.
  intros cf ver w ilen s1 e1 s2 e2 (HP1 & HE1 & HP2 & HE2) Hskip HC Hf PF.
  destruct (emitted_names_canonical_s _ _ _ _ _ _ HP1 HE1 Hskip) as (s_nm1 & En1 & Hpay1 & Hsec1 & Hs1 & C1).
  rewrite (stream_names_of _ _ Hpay1 Hs1) in *.
  pose proof (parseM_config _ _ _ _ HP2) as Hcf.
  destruct (emitM_name_payload _ _ _ HE2) as (s_nm2 & Hn2 & Hpay2 & _). rewrite Hcf, Hskip in Hn2.
  apply emit_names_fields in Hn2. destruct Hn2 as (_ & Nf & _ & _ & _ & _ & _ & _ & Hs2).
  rewrite (stream_names_of _ _ Hpay2 Hs2).
  destruct (parseM_names_structure _ _ _ _ HP2) as (m0 & I0 & _ & Em).
  set (l := wn_funcs (names_of s_nm1)) in *.
  assert (Ef : m_funcs (ps_m s2) = apply_names (m_funcs m0) (iota (length (items (m_funcs m0)))) set_fn_name l).
  { rewrite Em. wcbn. rewrite all_names_funcs, Hsec1. rewrite (sections_of _ Hs1 wn_funcs eq_refl).
    unfold ids_consistent in I0. destruct I0 as (I0 & _). rewrite I0. reflexivity. }
  assert (Il : ii_funcs (ps_ids s2) = iota (length (items (m_funcs m0)))) by (unfold ids_consistent in I0; tauto).
  assert (D0 : dead (m_funcs m0) = []) by (unfold ids_consistent in I0; tauto).
  unfold funcs_named_kept in PF. rewrite Ef in Nf, PF.
  destruct (apply_names_spec set_fn_name (m_funcs m0) l set_fn_name_idem) as (HL & HD & Hn & _). cbv zeta in HL, HD, Hn.
  set (a' := apply_names (m_funcs m0) (iota (length (items (m_funcs m0)))) set_fn_name l) in *.
  rewrite D0 in HD.
  destruct (named_spec _ _ _ _ _ Nf) as (M & _ & _ & SS).
  destruct C1 as ((Sl & Rl) & _).
  assert (Hid : forall i, N.to_nat i < length (items (m_funcs m0)) -> get_idx (em_x2i e2) S_func i = Ok i).
  { intros i Hi. apply (rho_id_get _ _ _ _ _ S_func HP2); [discriminate|discriminate|exact Hf|].
    cbn [ids_space]. rewrite Il, iota_length. exact Hi. }
  apply sorted_extA; [apply SS; [apply (parsed_wf_funcs _ _ _ _ _ _ _ HP2 HE2)|apply aiter_NoDup]|exact Sl|].
  intros [j nm]. rewrite M. split.
  - intros (id & a & Hin & Hg & Hi).
    assert (Hne : fn_name a <> None) by congruence. pose proof (PF id a Hin Hne) as Hk.
    apply (aiter_nodead _ _ _ HD) in Hin.
    assert (Hlt : N.to_nat id < length (items (m_funcs m0))) by (rewrite <- HL; apply nth_error_Some; congruence).
    rewrite (Hid id Hlt) in Hi. inversion Hi; subst j.
    destruct (nth_error (items (m_funcs m0)) (N.to_nat id)) as [old|] eqn:Eo; [|apply nth_error_None in Eo; lia].
    rewrite (Hn _ _ Eo), N2Nat.id in Hin.
    destruct (last_name l id) as [nm'|] eqn:El; [|apply last_name_none in El; contradiction].
    cbn [renamed] in Hin. inversion Hin; subst a. cbn in Hg. inversion Hg; subst nm'. apply last_name_in. exact El.
  - intros Hin.
    assert (Hlt : N.to_nat j < length (items (m_funcs m0))).
    { pose proof (Rl j (in_map fst _ _ Hin)) as R. pose proof (HC S_func) as C. cbn [ids_space] in C.
      rewrite Il, iota_length in C. cbn [fst] in R. lia. }
    destruct (nth_error (items (m_funcs m0)) (N.to_nat j)) as [old|] eqn:Eo; [|apply nth_error_None in Eo; lia].
    assert (El : last_name l j = Some nm).
    { apply last_name_unique; [exact Hin|]. intros n' H'. apply (sorted_keys_fun l j); assumption. }
    exists j, (set_fn_name old nm). split; [|split; [reflexivity|apply Hid; exact Hlt]].
    apply (aiter_nodead _ _ _ HD). rewrite (Hn _ _ Eo), N2Nat.id, El. reflexivity.
Qed.

Theorem fix_names_syn_partial : forall cf ver w ilen s1 e1 s2 e2,
  two_trips cf ver w ilen s1 e1 s2 e2 -> valid_stream w -> cf_skip_name cf = false ->
  funcs_named_kept s2 (stream_names (em_secs e1)) ->
  wn_locals (stream_names (em_secs e2)) = wn_locals (stream_names (em_secs e1)) ->
  name_payload (em_secs e2) = name_payload (em_secs e1).
Proof.
  intros cf ver w ilen s1 e1 s2 e2 TT V Hskip PF HL.
  pose proof (ModFix13.counts_kept_holds _ _ _ _ _ _ _ _ TT) as HC.
  pose proof (ModFix20.canonical_identity_maps_valid _ _ _ _ _ _ _ _ TT V) as R.
  apply (fix_names_partial_gen cf ver w ilen s1 e1 s2 e2); try assumption; try apply R.
  apply (fix_names_funcs_syn cf ver w ilen s1 e1 s2 e2); try assumption. apply R.
Qed.

Theorem module_fixpoint_syn_partial : forall cf ver w ilen s1 e1 s2 e2,
  two_trips cf ver w ilen s1 e1 s2 e2 -> valid_stream w -> cf_skip_name cf = false ->
  funcs_named_kept s2 (stream_names (em_secs e1)) ->
  wn_locals (stream_names (em_secs e2)) = wn_locals (stream_names (em_secs e1)) ->
  em_secs e2 = em_secs e1.
Proof.
  intros cf ver w ilen s1 e1 s2 e2 TT V Hskip PF HL.
  apply (ModFix20.module_fixpoint_but_names cf ver w ilen s1 e1 s2 e2 TT V).
  exact (fix_names_syn_partial _ _ _ _ _ _ _ _ TT V Hskip PF HL).
Qed.

Print Assumptions fix_names_funcs_syn.
Print Assumptions fix_names_syn_partial.
Print Assumptions module_fixpoint_syn_partial.
