(* LEB128 theorems for Model/Leb.v.  A byte carries a digit b < 128: b itself if it is the last one, b + 128 if more follow;
   the reader has one equation for each, and a round trip is an induction on the writer's fuel through them.
   The length functions leb_len (Model/CodeMap.v) and leb5 (Model/Dwarf.v) are the least j >= 1 with n < 128 ^ j. *)
From Coq Require Import List NArith ZArith Bool Lia. Import ListNotations.
From WV Require Import Model.Leb Model.CodeMap Model.Dwarf.
Local Open Scope N_scope.

Lemma land127 n : N.land n 127 = n mod 128.
Proof. change 127 with (N.ones 7). rewrite N.land_ones. reflexivity. Qed.

Lemma shiftr7 n : N.shiftr n 7 = n / 128.
Proof. rewrite N.shiftr_div_pow2. reflexivity. Qed.

Lemma mod128_lt n : n mod 128 < 128.
Proof. apply N.mod_lt. discriminate. Qed.

Lemma divmod128 n : n = 128 * (n / 128) + n mod 128.
Proof. apply N.div_mod. discriminate. Qed.

Lemma low7_lt n : N.land n 127 < 128.
Proof. rewrite land127. apply mod128_lt. Qed.

Lemma land127_small b : b < 128 -> N.land b 127 = b.
Proof. intros H. rewrite land127. apply N.mod_small. exact H. Qed.

Lemma lor128_small b : b < 128 -> N.lor b 128 = b + 128.
Proof.
  intros H. rewrite <- (land127_small b H).
  assert (Z : N.land (N.land b 127) 128 = 0).
  { rewrite <- N.land_assoc. apply N.land_0_r. }
  rewrite (N.add_nocarry_lxor _ _ Z). symmetry. apply N.lxor_lor. exact Z.
Qed.

(* a continuation byte fails the reader's test for a last byte and gives its digit back *)
Lemma cont_byte b : b < 128 -> (N.lor b 128 <? 128) = false /\ N.land (N.lor b 128) 127 = b.
Proof.
  intros H. rewrite (lor128_small b H). split; [apply N.ltb_ge; lia|].
  rewrite land127. replace (b + 128) with (b + 1 * 128) by lia.
  rewrite N.mod_add by discriminate. apply N.mod_small. exact H.
Qed.

Lemma div128_lt n x : n / 128 < x <-> n < 128 * x.
Proof.
  rewrite (divmod128 n) at 2. pose proof (mod128_lt n).
  generalize dependent (n mod 128). generalize (n / 128). lia.
Qed.

Lemma div128_fuel f n : n < 128 ^ N.of_nat (S (S f)) -> n / 128 < 128 ^ N.of_nat (S f).
Proof. intros H. apply div128_lt. rewrite <- N.pow_succ_r', <- Nat2N.inj_succ. exact H. Qed.

Lemma lt_pow2 n a b : n < 2 ^ a -> a <= b -> n < 2 ^ b.
Proof. intros H L. apply (N.lt_le_trans _ _ _ H). apply N.pow_le_mono_r; [discriminate|exact L]. Qed.

Lemma read_back_prefix_free {A} (enc : A -> list N) (dec : list N -> option (A * list N)) a b r1 r2 :
  dec (enc a ++ r1) = Some (a, r1) -> dec (enc b ++ r2) = Some (b, r2) ->
  enc a ++ r1 = enc b ++ r2 -> a = b /\ r1 = r2.
Proof. intros Ha Hb E. rewrite E, Hb in Ha. injection Ha as -> ->. split; reflexivity. Qed.

Lemma dec_u_last b r : b < 128 -> dec_u (b :: r) = Some (b, r).
Proof. intros H. cbn [dec_u]. apply N.ltb_lt in H. rewrite H. reflexivity. Qed.

Lemma dec_u_cont b r : b < 128 ->
  dec_u (N.lor b 128 :: r) = match dec_u r with Some (v, r') => Some (b + 128 * v, r') | None => None end.
Proof. intros H. cbn [dec_u]. destruct (cont_byte b H) as [-> ->]. reflexivity. Qed.

Lemma dec_enc_u_fuel : forall f n rest, n < 128 ^ N.of_nat (S f) ->
  dec_u (enc_u_fuel f n ++ rest) = Some (n, rest).
Proof.
  induction f as [|f IH]; intros n rest Hn; cbn [enc_u_fuel].
  - change (n < 128) in Hn. rewrite (land127_small n Hn). apply dec_u_last. exact Hn.
  - destruct (n <? 128) eqn:E.
    + apply dec_u_last. apply N.ltb_lt. exact E.
    + cbn [app]. rewrite dec_u_cont by apply low7_lt.
      rewrite shiftr7, IH by (apply div128_fuel; exact Hn).
      rewrite land127, N.add_comm, <- divmod128. reflexivity.
Qed.

(* the fuel of 18 covers 19 digits: 128 ^ 19 = 2 ^ 133 *)
Theorem dec_enc_u_133 : forall n rest, n < 2 ^ 133 -> dec_u (enc_u n ++ rest) = Some (n, rest).
Proof. intros n rest H. apply dec_enc_u_fuel. exact H. Qed.

Theorem dec_enc_u : forall n rest, n < 2 ^ 126 -> dec_u (enc_u n ++ rest) = Some (n, rest).
Proof. intros n rest H. apply dec_enc_u_133. apply (lt_pow2 n 126); [exact H|lia]. Qed.

Lemma enc_u_fuel_bytes : forall f n, Forall (fun b => b < 256) (enc_u_fuel f n).
Proof.
  induction f as [|f IH]; intros n; cbn [enc_u_fuel]; pose proof (low7_lt n) as HL.
  - constructor; [lia|constructor].
  - destruct (n <? 128) eqn:E.
    + apply N.ltb_lt in E. constructor; [lia|constructor].
    + constructor; [rewrite lor128_small by exact HL; lia|apply IH].
Qed.

Theorem enc_u_bytes_all : forall n, Forall (fun b => b < 256) (enc_u n).
Proof. intros n. apply enc_u_fuel_bytes. Qed.

Theorem enc_u_bytes : forall n, n < 2 ^ 126 -> Forall (fun b => b < 256) (enc_u n).
Proof. intros n _. apply enc_u_bytes_all. Qed.

Lemma enc_u_fuel_last : forall f n, exists pre l,
  enc_u_fuel f n = pre ++ [l] /\ l < 128 /\ Forall (fun b => 128 <= b) pre.
Proof.
  induction f as [|f IH]; intros n; cbn [enc_u_fuel].
  - exists [], (N.land n 127). split; [reflexivity|]. split; [apply low7_lt|constructor].
  - destruct (n <? 128) eqn:E.
    + apply N.ltb_lt in E. exists [], n. split; [reflexivity|]. split; [exact E|constructor].
    + destruct (IH (N.shiftr n 7)) as (pre & l & Heq & Hl & Hpre).
      exists (N.lor (N.land n 127) 128 :: pre), l. split.
      * rewrite Heq. reflexivity.
      * split; [exact Hl|]. constructor; [rewrite lor128_small by apply low7_lt; lia|exact Hpre].
Qed.

Theorem enc_u_last : forall n, exists pre l,
  enc_u n = pre ++ [l] /\ l < 128 /\ Forall (fun b => 128 <= b) pre.
Proof. intros n. apply enc_u_fuel_last. Qed.

Theorem enc_u_prefix_free : forall n m r1 r2, n < 2 ^ 126 -> m < 2 ^ 126 ->
  enc_u n ++ r1 = enc_u m ++ r2 -> n = m /\ r1 = r2.
Proof. intros n m r1 r2 Hn Hm. apply (read_back_prefix_free enc_u dec_u); apply dec_enc_u; assumption. Qed.

Theorem enc_u_inj : forall n m, n < 2 ^ 126 -> m < 2 ^ 126 -> enc_u n = enc_u m -> n = m.
Proof. intros n m Hn Hm E. apply (enc_u_prefix_free n m [] [] Hn Hm). rewrite E. reflexivity. Qed.

Lemma enc_u_fuel_len : forall f n, N.of_nat (length (enc_u_fuel f n)) = leb_len_fuel f n.
Proof.
  induction f as [|f IH]; intros n; cbn [enc_u_fuel leb_len_fuel]; [reflexivity|].
  destruct (n <? 128); [reflexivity|]. cbn [length]. rewrite Nat2N.inj_succ, IH. lia.
Qed.

Lemma leb_len_fuel_pos f n : 0 < leb_len_fuel f n.
Proof. destruct f; cbn [leb_len_fuel]; [|destruct (n <? 128)]; lia. Qed.

Lemma pow128_ge j : 0 < j -> 128 <= 128 ^ j.
Proof. intros H. change 128 with (128 ^ 1) at 1. apply N.pow_le_mono_r; [discriminate|lia]. Qed.

(* as long as the fuel does not cut the count off, leb_len_fuel f n is the least positive j with n < 128 ^ j *)
Lemma leb_len_fuel_le : forall f n j, j <= N.of_nat f \/ n < 128 ^ N.of_nat (S f) -> 0 < j ->
  (leb_len_fuel f n <= j <-> n < 128 ^ j).
Proof.
  induction f as [|f IH]; intros n j Hn Hj; cbn [leb_len_fuel]; pose proof (pow128_ge j Hj) as Hp.
  - destruct Hn as [Hn|Hn]; [lia|]. change (n < 128) in Hn. lia.
  - destruct (n <? 128) eqn:E.
    + apply N.ltb_lt in E. lia.
    + apply N.ltb_ge in E. rewrite shiftr7. destruct (N.eq_dec j 1) as [->|J].
      * pose proof (leb_len_fuel_pos f (n / 128)). change (128 ^ 1) with 128. lia.
      * replace (128 ^ j) with (128 * 128 ^ (j - 1)) by (rewrite <- N.pow_succ_r'; f_equal; lia).
        rewrite <- div128_lt, <- (IH (n / 128) (j - 1)); [lia| |lia].
        destruct Hn as [Hn|Hn]; [left; lia|right; apply div128_fuel; exact Hn].
Qed.

Lemma leb_len_fuel_indep f1 f2 n : n < 128 ^ N.of_nat (S f1) -> n < 128 ^ N.of_nat (S f2) ->
  leb_len_fuel f1 n = leb_len_fuel f2 n.
Proof.
  intros H1 H2. pose proof (leb_len_fuel_pos f1 n) as P1. pose proof (leb_len_fuel_pos f2 n) as P2.
  apply N.le_antisymm.
  - apply (leb_len_fuel_le f1 n _ (or_intror H1) P2), (leb_len_fuel_le f2 n _ (or_intror H2) P2), N.le_refl.
  - apply (leb_len_fuel_le f2 n _ (or_intror H2) P1), (leb_len_fuel_le f1 n _ (or_intror H1) P1), N.le_refl.
Qed.

(* leb_len has fuel for 11 digits: 128 ^ 11 = 2 ^ 77 *)
Theorem enc_u_len_77 : forall n, n < 2 ^ 77 -> N.of_nat (length (enc_u n)) = leb_len n.
Proof.
  intros n H. unfold enc_u, leb_len. rewrite enc_u_fuel_len. apply leb_len_fuel_indep; [|exact H].
  apply (lt_pow2 n 77 133); [exact H|lia].
Qed.

Theorem enc_u_len : forall n, n < 2 ^ 64 -> N.of_nat (length (enc_u n)) = leb_len n.
Proof. intros n H. apply enc_u_len_77. apply (lt_pow2 n 64); [exact H|lia]. Qed.

Lemma leb_len_pos n : 0 < leb_len n.
Proof. apply leb_len_fuel_pos. Qed.

Lemma leb_len_le n j : n < 2 ^ 77 -> 0 < j -> (leb_len n <= j <-> n < 128 ^ j).
Proof. intros H. apply leb_len_fuel_le. right. exact H. Qed.
Lemma leb_len_le_small n j : 0 < j <= 10 -> (leb_len n <= j <-> n < 128 ^ j).
Proof. intros [H L]. apply leb_len_fuel_le; [left; exact L|exact H]. Qed.

Lemma leb_len_up n : n < 2 ^ 77 -> n < 128 ^ leb_len n.
Proof. intros H. apply (leb_len_le n _ H (leb_len_pos n)), N.le_refl. Qed.

(* the length is the unique k with 128^(k-1) <= n < 128^k (k = 1 also takes 0) *)
Theorem leb_len_char : forall n k, 0 < k -> n < 2 ^ 77 ->
  (leb_len n = k <-> (k = 1 /\ n < 128) \/ (1 < k /\ 128 ^ (k - 1) <= n < 128 ^ k)).
Proof.
  intros n k Hk Hn. pose proof (leb_len_le n k Hn Hk) as U. pose proof (leb_len_pos n) as P.
  destruct (N.eq_dec k 1) as [->|K].
  - change (128 ^ 1) with 128 in U. lia.
  - pose proof (leb_len_le n (k - 1) Hn) as L. lia.
Qed.

Lemma pow2_7 k : 2 ^ (7 * k) = 128 ^ k.
Proof. rewrite N.pow_mul_r. reflexivity. Qed.

Theorem leb_len_bounds : forall n k, (0 < k)%N -> n < 2 ^ 64 ->
  (leb_len n = k <-> (k = 1 /\ n < 128) \/ (1 < k /\ 2 ^ (7 * (k - 1)) <= n < 2 ^ (7 * k))).
Proof.
  intros n k Hk Hn. rewrite !pow2_7. apply leb_len_char; [exact Hk|].
  apply (lt_pow2 n 64); [exact Hn|lia].
Qed.

Theorem leb_len_least : forall n, n < 2 ^ 64 ->
  n < 2 ^ (7 * leb_len n) /\ forall k, 0 < k -> n < 2 ^ (7 * k) -> leb_len n <= k.
Proof.
  intros n Hn. apply (lt_pow2 n 64 77) in Hn; [|lia]. split.
  - rewrite pow2_7. apply leb_len_up. exact Hn.
  - intros k Hk Hlt. rewrite pow2_7 in Hlt. apply leb_len_le; assumption.
Qed.

Theorem leb_len_mono_77 : forall n m, n <= m -> m < 2 ^ 77 -> leb_len n <= leb_len m.
Proof.
  intros n m Hnm Hm. pose proof (leb_len_up m Hm) as U.
  apply leb_len_le; [|apply leb_len_pos|]; lia.
Qed.

Theorem leb_len_mono : forall n m, n <= m -> m < 2 ^ 64 -> leb_len n <= leb_len m.
Proof. intros n m Hnm Hm. apply leb_len_mono_77; [exact Hnm|]. apply (lt_pow2 m 64); [exact Hm|lia]. Qed.

Theorem leb5_leb_len : forall n, n < 2 ^ 35 -> leb5 n = leb_len n.
Proof.
  intros n Hn. symmetry.
  assert (Hn' : n < 2 ^ 77) by (apply (lt_pow2 n 35); [exact Hn|lia]).
  unfold leb5.
  destruct (N.ltb_spec n 128); [|destruct (N.ltb_spec n 16384); [|destruct (N.ltb_spec n 2097152);
    [|destruct (N.ltb_spec n 268435456)]]].
  all: apply leb_len_char; [lia|exact Hn'|]; cbn in *; lia.
Qed.

Theorem enc_u_len5_35 : forall n, n < 2 ^ 35 -> N.of_nat (length (enc_u n)) = leb5 n.
Proof.
  intros n Hn. rewrite leb5_leb_len by exact Hn. apply enc_u_len_77.
  apply (lt_pow2 n 35); [exact Hn|lia].
Qed.

Theorem enc_u_len5 : forall n, n < 2 ^ 32 -> N.of_nat (length (enc_u n)) = leb5 n.
Proof. intros n Hn. apply enc_u_len5_35. apply (lt_pow2 n 32); [exact Hn|lia]. Qed.

(* leb5 saturates at 5: it is wrong from 2^35 on *)
Theorem enc_u_len5_range_sharp : N.of_nat (length (enc_u (2 ^ 35))) = 6 /\ leb5 (2 ^ 35) = 5.
Proof. split; vm_compute; reflexivity. Qed.

Lemma zland127 z : Z.land z 127 = (z mod 128)%Z.
Proof. change 127%Z with (Z.ones 7). rewrite Z.land_ones by lia. reflexivity. Qed.

Lemma zshiftr7 z : Z.shiftr z 7 = (z / 128)%Z.
Proof. rewrite Z.shiftr_div_pow2 by lia. reflexivity. Qed.

Lemma zmod128_range z : (0 <= z mod 128 < 128)%Z.
Proof. apply Z.mod_pos_bound. lia. Qed.

Lemma zdivmod128 z : z = (128 * (z / 128) + z mod 128)%Z.
Proof. apply Z.div_mod. lia. Qed.

Lemma sbyte_lt z : Z.to_N (Z.land z 127) < 128.
Proof. rewrite zland127. pose proof (zmod128_range z). lia. Qed.

Lemma sbyte_Z z : Z.of_N (Z.to_N (Z.land z 127)) = (z mod 128)%Z.
Proof. rewrite zland127. pose proof (zmod128_range z). lia. Qed.

Lemma dec_s_last b r : b < 128 ->
  dec_s (b :: r) = Some (if b <? 64 then Z.of_N b else (Z.of_N b - 128)%Z, r).
Proof. intros H. cbn [dec_s]. apply N.ltb_lt in H. rewrite H. reflexivity. Qed.

Lemma dec_s_cont b r : b < 128 ->
  dec_s (N.lor b 128 :: r) =
  match dec_s r with Some (v, r') => Some ((Z.of_N b + 128 * v)%Z, r') | None => None end.
Proof. intros H. cbn [dec_s]. destruct (cont_byte b H) as [-> ->]. reflexivity. Qed.

(* the writer stops only at -64 <= z < 64, and there the reader's sign extension of the byte is z *)
Lemma s_last_range z : let b := Z.to_N (Z.land z 127) in
  ((z / 128 =? 0)%Z && (b <? 64)) || ((z / 128 =? -1)%Z && (64 <=? b)) = true -> (-64 <= z < 64)%Z.
Proof.
  intros b. pose proof (sbyte_Z z) as HB. pose proof (zmod128_range z) as HR. pose proof (zdivmod128 z) as HD.
  rewrite orb_true_iff, !andb_true_iff, !Z.eqb_eq, N.ltb_lt, N.leb_le. fold b in HB. lia.
Qed.

Lemma s_last_value z : (-64 <= z < 64)%Z -> let b := Z.to_N (Z.land z 127) in
  (if b <? 64 then Z.of_N b else (Z.of_N b - 128)%Z) = z.
Proof.
  intros Hz b. pose proof (sbyte_Z z) as HB. pose proof (zmod128_range z) as HR. pose proof (zdivmod128 z) as HD.
  fold b in HB. destruct (N.ltb_spec b 64); lia.
Qed.

Lemma dec_enc_s_fuel : forall f z rest,
  (- (64 * 128 ^ Z.of_nat f) <= z < 64 * 128 ^ Z.of_nat f)%Z ->
  dec_s (enc_s_fuel f z ++ rest) = Some (z, rest).
Proof.
  induction f as [|f IH]; intros z rest Hz; cbn [enc_s_fuel]; rewrite ?zshiftr7.
  - cbn [app]. rewrite dec_s_last by apply sbyte_lt. rewrite s_last_value by exact Hz. reflexivity.
  - destruct (_ || _) eqn:C; cbn [app].
    + rewrite dec_s_last by apply sbyte_lt. rewrite s_last_value by exact (s_last_range z C). reflexivity.
    + rewrite dec_s_cont by apply sbyte_lt. rewrite IH.
      * rewrite sbyte_Z, Z.add_comm, <- zdivmod128. reflexivity.
      * rewrite Nat2Z.inj_succ, Z.pow_succ_r in Hz by lia.
        split; [apply Z.div_le_lower_bound|apply Z.div_lt_upper_bound]; lia.
Qed.

(* 64 * 128 ^ 18 = 2 ^ 132 *)
Theorem dec_enc_s_132 : forall z rest, (- 2 ^ 132 <= z < 2 ^ 132)%Z ->
  dec_s (enc_s z ++ rest) = Some (z, rest).
Proof. intros z rest H. apply dec_enc_s_fuel. exact H. Qed.

Theorem dec_enc_s : forall z rest, (- 2 ^ 125 <= z < 2 ^ 125)%Z ->
  dec_s (enc_s z ++ rest) = Some (z, rest).
Proof.
  intros z rest H. apply dec_enc_s_132.
  assert (2 ^ 125 <= 2 ^ 132)%Z by (apply Z.pow_le_mono_r; lia). lia.
Qed.

Theorem enc_s_prefix_free : forall a b r1 r2,
  (- 2 ^ 125 <= a < 2 ^ 125)%Z -> (- 2 ^ 125 <= b < 2 ^ 125)%Z ->
  enc_s a ++ r1 = enc_s b ++ r2 -> a = b /\ r1 = r2.
Proof. intros a b r1 r2 Ha Hb. apply (read_back_prefix_free enc_s dec_s); apply dec_enc_s; assumption. Qed.

Theorem enc_s_inj : forall a b,
  (- 2 ^ 125 <= a < 2 ^ 125)%Z -> (- 2 ^ 125 <= b < 2 ^ 125)%Z -> enc_s a = enc_s b -> a = b.
Proof. intros a b Ha Hb E. apply (enc_s_prefix_free a b [] [] Ha Hb). rewrite E. reflexivity. Qed.

Lemma enc_s_fuel_bytes : forall f z, Forall (fun b => b < 256) (enc_s_fuel f z).
Proof.
  induction f as [|f IH]; intros z; cbn [enc_s_fuel]; pose proof (sbyte_lt z) as HL.
  - constructor; [lia|constructor].
  - destruct (_ || _).
    + constructor; [lia|constructor].
    + constructor; [rewrite lor128_small by exact HL; lia|apply IH].
Qed.

Theorem enc_s_bytes : forall z, Forall (fun b => b < 256) (enc_s z).
Proof. intros z. apply enc_s_fuel_bytes. Qed.

Example ex_u_0 : enc_u 0 = [0] /\ dec_u [0] = Some (0, []). Proof. split; vm_compute; reflexivity. Qed.
Example ex_u_127 : enc_u 127 = [127]. Proof. vm_compute; reflexivity. Qed.
Example ex_u_128 : enc_u 128 = [128; 1]. Proof. vm_compute; reflexivity. Qed.
Example ex_u_16383 : enc_u 16383 = [255; 127]. Proof. vm_compute; reflexivity. Qed.
Example ex_u_16384 : enc_u 16384 = [128; 128; 1]. Proof. vm_compute; reflexivity. Qed.
Example ex_u_u32max : enc_u (2 ^ 32 - 1) = [255; 255; 255; 255; 15]. Proof. vm_compute; reflexivity. Qed.
Example ex_u_u64max : enc_u (2 ^ 64 - 1) = [255; 255; 255; 255; 255; 255; 255; 255; 255; 1].
Proof. vm_compute; reflexivity. Qed.
Example ex_u_624485 : enc_u 624485 = [229; 142; 38]. Proof. vm_compute; reflexivity. Qed.
Example ex_u_roundtrips :
  forallb (fun n => match dec_u (enc_u n ++ [7]) with Some (v, [7]) => v =? n | _ => false end)
    [0; 127; 128; 16383; 16384; 2 ^ 32 - 1; 2 ^ 64 - 1] = true.
Proof. vm_compute; reflexivity. Qed.
Example ex_len : map leb_len [0; 127; 128; 16383; 16384; 2 ^ 32 - 1; 2 ^ 64 - 1] = [1; 1; 2; 2; 3; 5; 10].
Proof. vm_compute; reflexivity. Qed.
Example ex_len5 : map leb5 [0; 127; 128; 16383; 16384; 2 ^ 32 - 1] = [1; 1; 2; 2; 3; 5].
Proof. vm_compute; reflexivity. Qed.

Example ex_s_63 : enc_s 63 = [63]. Proof. vm_compute; reflexivity. Qed.
Example ex_s_64 : enc_s 64 = [192; 0]. Proof. vm_compute; reflexivity. Qed.
Example ex_s_m64 : enc_s (-64) = [64]. Proof. vm_compute; reflexivity. Qed.
Example ex_s_m65 : enc_s (-65) = [191; 127]. Proof. vm_compute; reflexivity. Qed.
Example ex_s_m123456 : enc_s (-123456) = [192; 187; 120]. Proof. vm_compute; reflexivity. Qed.
Example ex_s_i32max : enc_s (2 ^ 31 - 1) = [255; 255; 255; 255; 7]. Proof. vm_compute; reflexivity. Qed.
Example ex_s_i32min : enc_s (- 2 ^ 31) = [128; 128; 128; 128; 120]. Proof. vm_compute; reflexivity. Qed.
Example ex_s_i64max : enc_s (2 ^ 63 - 1) = [255; 255; 255; 255; 255; 255; 255; 255; 255; 0].
Proof. vm_compute; reflexivity. Qed.
Example ex_s_i64min : enc_s (- 2 ^ 63) = [128; 128; 128; 128; 128; 128; 128; 128; 128; 127].
Proof. vm_compute; reflexivity. Qed.
Example ex_s_roundtrips :
  forallb (fun z => match dec_s (enc_s z ++ [7]) with Some (v, [7]) => (v =? z)%Z | _ => false end)
    [0; 63; 64; -64; -65; 2 ^ 31 - 1; - 2 ^ 31; 2 ^ 63 - 1; - 2 ^ 63]%Z = true.
Proof. vm_compute; reflexivity. Qed.

Print Assumptions dec_enc_u.
Print Assumptions dec_enc_u_133.
Print Assumptions enc_u_bytes.
Print Assumptions enc_u_bytes_all.
Print Assumptions enc_u_last.
Print Assumptions enc_u_inj.
Print Assumptions enc_u_prefix_free.
Print Assumptions enc_u_len.
Print Assumptions enc_u_len_77.
Print Assumptions enc_u_len5.
Print Assumptions enc_u_len5_35.
Print Assumptions leb5_leb_len.
Print Assumptions enc_u_len5_range_sharp.
Print Assumptions leb_len_bounds.
Print Assumptions leb_len_char.
Print Assumptions leb_len_least.
Print Assumptions leb_len_mono.
Print Assumptions leb_len_mono_77.
Print Assumptions dec_enc_s.
Print Assumptions dec_enc_s_132.
Print Assumptions enc_s_inj.
Print Assumptions enc_s_prefix_free.
Print Assumptions enc_s_bytes.
