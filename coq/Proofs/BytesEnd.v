(* The module-level theorems carried down to bytes (C08 / C12 / C04).
   [roundtrip_bytes] = the model's reader (Model/ModBytes.v: dec_wmod, no operator positions), Module::parse (parseM), Module::emit_wasm (emitM),
   the model's writer (enc_wmod). *)
From Coq Require Import List NArith ZArith Bool Lia. Import ListNotations.
From WV Require Import Gen.Ops Model.Common Model.IR Model.ParseSpec Model.Traversal Model.EmitFn Model.Leb Model.Frame Model.Bytes Model.ModuleM Model.ParseM Model.EmitM Model.Locals
                       Model.ModBytes.
From WV Require Import Proofs.CustomsCfg Proofs.IndexMaps Proofs.ParseTotal Proofs.ModFix Proofs.ModFix32 Proofs.ModFix40 Proofs.ModFix41
                       Proofs.Bytes Proofs.ModBytes.
From WV Require Proofs.ModFix8 Proofs.Structure2.
Local Open Scope nat_scope.

Definition roundtrip_bytes (cf : config) (ver : str) (ilen : wins -> N) (bs : list N) : option (list N) :=
  match dec_wmod false bs with
  | Some w => match parseM cf ver w with
              | POk s => match emitM (ps_m s) ilen [] with
                         | Ok e => enc_wmod (em_secs e)
                         | _ => None end
              | _ => None end
  | None => None
  end.

Lemma roundtrip_bytes_inv cf ver ilen bs b1 : roundtrip_bytes cf ver ilen bs = Some b1 ->
  exists w s e, dec_wmod false bs = Some w /\ parseM cf ver w = POk s /\ emitM (ps_m s) ilen [] = Ok e /\ enc_wmod (em_secs e) = Some b1.
Proof.
  unfold roundtrip_bytes. destruct (dec_wmod false bs) as [w|]; [|discriminate].
  destruct (parseM cf ver w) as [s| |] eqn:P; try discriminate.
  destruct (emitM (ps_m s) ilen []) as [e| |] eqn:E; try discriminate.
  intros H. exists w, s, e. repeat split; assumption.
Qed.
Lemma roundtrip_bytes_intro cf ver ilen bs b1 w s e : dec_wmod false bs = Some w -> parseM cf ver w = POk s -> emitM (ps_m s) ilen [] = Ok e ->
  enc_wmod (em_secs e) = Some b1 -> roundtrip_bytes cf ver ilen bs = Some b1.
Proof. intros D P E B. unfold roundtrip_bytes. rewrite D, P, E. exact B. Qed.

(* (C04) only the decoded stream matters: padded LEB128 numbers, non-minimal
   section sizes, the flag form of a segment ... of the INPUT cannot reach the output *)
Theorem bytes_determine_behaviour_inputs cf ver ilen b b' :
  dec_wmod false b = dec_wmod false b' -> roundtrip_bytes cf ver ilen b = roundtrip_bytes cf ver ilen b'.
Proof. intros H. unfold roundtrip_bytes. rewrite H. reflexivity. Qed.

Lemma body_of_zero b : body_of (zero_body b) = body_of b.
Proof. unfold body_of, zero_body. cbn [wb_locals wb_ops]. rewrite map_map. reflexivity. Qed.
Lemma enc_sec_zero s : enc_sec (zero_sec s) = enc_sec s.
Proof.
  destruct s; try reflexivity. cbn [zero_sec enc_sec]. unfold enc_code_sec. rewrite map_map.
  rewrite (map_ext _ _ body_of_zero). reflexivity.
Qed.
Lemma enc_secs_zero w : enc_secs (zero_wmod w) = enc_secs w.
Proof. induction w as [|s w IH]; [reflexivity|]. cbn [zero_wmod map enc_secs]. rewrite enc_sec_zero. fold (zero_wmod w). rewrite IH. reflexivity. Qed.
Lemma enc_wmod_zero w : enc_wmod (zero_wmod w) = enc_wmod w.
Proof. unfold enc_wmod. rewrite enc_secs_zero. reflexivity. Qed.
Lemma zero_wmod_idem w : zero_wmod (zero_wmod w) = zero_wmod w.
Proof.
  unfold zero_wmod. rewrite map_map. apply map_ext. intros s. destruct s; try reflexivity. cbn [zero_sec]. rewrite map_map. f_equal.
  apply map_ext. intros b. unfold zero_body. cbn [wb_locals wb_ops]. rewrite map_map. reflexivity.
Qed.
Lemma zero_wmod_app a b : zero_wmod (a ++ b) = zero_wmod a ++ zero_wmod b.
Proof. apply map_app. Qed.

(* the encoder's instruction lengths [ilen] reach the emitted stream only through
   the operator positions; with [il0] (every length 0) all positions are 0 *)
Definition res_rel {A B} (R : A -> B -> Prop) (x : res A) (y : res B) : Prop :=
  match x, y with Ok a, Ok b => R a b | Panic, Panic => True | OutOfFuel, OutOfFuel => True | _, _ => False end.
Lemma res_rel_bind {A B A' B'} (R : A -> B -> Prop) (S : A' -> B' -> Prop) x y f g :
  res_rel R x y -> (forall a b, R a b -> res_rel S (f a) (g b)) -> res_rel S (rbind x f) (rbind y g).
Proof. destruct x, y; cbn [res_rel rbind]; try contradiction; auto. Qed.
Lemma res_rel_eq {A} (x : res A) : res_rel eq x x.
Proof. destruct x; cbn; auto. Qed.
Lemma res_rel_rmapM {A B C} (R : B -> C -> Prop) (f : A -> res B) (g : A -> res C) :
  (forall a, res_rel R (f a) (g a)) -> forall l, res_rel (Forall2 R) (rmapM f l) (rmapM g l).
Proof.
  intros H. induction l as [|a l IH]; cbn [rmapM]; [constructor|].
  apply (res_rel_bind R); [apply H|]. intros y y' Hy. apply (res_rel_bind (Forall2 R)); [exact IH|]. intros ys ys' Hys. cbn. constructor; assumption.
Qed.
Lemma rmapM_ext {A B} (f g : A -> res B) l : (forall a, f a = g a) -> rmapM f l = rmapM g l.
Proof. intros H. induction l as [|a l IH]; [reflexivity|]. cbn [rmapM]. rewrite H, IH. reflexivity. Qed.

Definition il0 : wins -> N := fun _ => 0%N.
Definition est_rel (a b : estate) : Prop :=
  blocks a = blocks b /\ kinds a = kinds b /\ out a = out b /\ map fst (imap a) = map fst (imap b) /\
  epos b = 0%N /\ Forall (fun p => snd p = 0%N) (imap b).
Lemma rel_emit_ins f il a b w : est_rel a b ->
  est_rel (emit_ins {| ex_id2i := f; ex_ilen := il |} a w) (emit_ins {| ex_id2i := f; ex_ilen := il0 |} b w).
Proof.
  intros (H1 & H2 & H3 & H4 & H5 & H6). unfold est_rel, emit_ins. cbn [blocks kinds out imap epos ex_ilen].
  rewrite H3, H5. repeat split; assumption.
Qed.
Lemma rel_record a b loc : est_rel a b -> est_rel (record a loc) (record b loc).
Proof.
  intros (H1 & H2 & H3 & H4 & H5 & H6). unfold est_rel, record. cbn [blocks kinds out imap epos].
  rewrite !map_app, H4. repeat split; try assumption. apply Forall_app. split; [exact H6|]. constructor; [exact H5|constructor].
Qed.
Lemma rel_with_stacks a b bl k : est_rel a b -> est_rel (with_stacks a bl k) (with_stacks b bl k).
Proof. intros (H1 & H2 & H3 & H4 & H5 & H6). unfold est_rel, with_stacks. cbn [blocks kinds out imap epos]. repeat split; assumption. Qed.
Lemma rel_branch_target a b s : est_rel a b -> branch_target a s = branch_target b s.
Proof. intros (H1 & _). unfold branch_target. rewrite H1. reflexivity. Qed.
Lemma rel_branch_targets a b ss : est_rel a b -> branch_targets a ss = branch_targets b ss.
Proof. intros H. induction ss as [|s ss IH]; [reflexivity|]. cbn [branch_targets]. rewrite (rel_branch_target a b s H), IH. reflexivity. Qed.

Lemma emit_step_rel f il ar a b e : est_rel a b ->
  res_rel est_rel (emit_step {| ex_id2i := f; ex_ilen := il |} ar a e) (emit_step {| ex_id2i := f; ex_ilen := il0 |} ar b e).
Proof.
  intros H. pose proof H as (Hb & Hk & _).
  destruct e as [s|ty|i loc|i|sp id|s|s]; cbn [emit_step]; try exact H.
  - rewrite Hb, Hk. destruct (nth_error ar (N.to_nat s)) as [q|]; [|exact I]. destruct (kinds b) as [|k kr] eqn:Ek; [exact I|].
    pose proof (rel_with_stacks a b (s :: blocks b) (k :: kr) H) as H1.
    unfold block_type. cbn [ex_id2i].
    destruct k; cbn [res_rel]; try exact H1; apply rel_emit_ins; exact H1.
  - pose proof (rel_record a b loc H) as H1. pose proof H1 as (Hb1 & Hk1 & _).
    destruct i as [p|s|s|c t|s|s|ss d].
    + cbn [ex_id2i]. destruct (encode_plain f p) as [w|]; [|exact I]. cbn [res_rel]. apply rel_emit_ins. exact H1.
    + rewrite Hb1, Hk1. cbn [res_rel]. apply rel_with_stacks. exact H1.
    + rewrite Hb1, Hk1. cbn [res_rel]. apply rel_with_stacks. exact H1.
    + rewrite Hb1, Hk1. cbn [res_rel]. apply rel_with_stacks. exact H1.
    + rewrite (rel_branch_target _ _ s H1). destruct (branch_target (record b loc) s); cbn [rmap res_rel]; try exact I. apply rel_emit_ins. exact H1.
    + rewrite (rel_branch_target _ _ s H1). destruct (branch_target (record b loc) s); cbn [rmap res_rel]; try exact I. apply rel_emit_ins. exact H1.
    + rewrite (rel_branch_target _ _ d H1), (rel_branch_targets _ _ ss H1).
      destruct (branch_target (record b loc) d); cbn [rbind res_rel]; try exact I.
      destruct (branch_targets (record b loc) ss); cbn [rmap res_rel]; try exact I. apply rel_emit_ins. exact H1.
  - rewrite Hb, Hk. destruct (nth_error ar (N.to_nat s)) as [q|]; [|exact I]. destruct (blocks b) as [|b0 brest]; [exact I|].
    destruct (kinds b) as [|k krest]; [exact I|].
    pose proof (rel_record _ _ (sq_end q) (rel_with_stacks a b brest krest H)) as H1.
    destruct k; cbn [res_rel]; apply rel_emit_ins; try exact H1. apply rel_with_stacks. exact H1.
Qed.
Lemma emit_events_rel f il ar evs : forall a b, est_rel a b ->
  res_rel est_rel (emit_events {| ex_id2i := f; ex_ilen := il |} ar a evs) (emit_events {| ex_id2i := f; ex_ilen := il0 |} ar b evs).
Proof.
  induction evs as [|e evs IH]; intros a b H; cbn [emit_events]; [exact H|].
  apply (res_rel_bind est_rel); [apply emit_step_rel; exact H|]. exact IH.
Qed.
Lemma init_rel : est_rel (init_estate 0) (init_estate 0).
Proof. unfold est_rel, init_estate. cbn. repeat split. constructor. Qed.
Lemma emit_body_rel f il fuel ar entry :
  res_rel est_rel (emit_body {| ex_id2i := f; ex_ilen := il |} fuel ar entry 0) (emit_body {| ex_id2i := f; ex_ilen := il0 |} fuel ar entry 0).
Proof.
  unfold emit_body. apply (res_rel_bind eq); [apply res_rel_eq|]. intros evs ? <-. apply emit_events_rel. exact init_rel.
Qed.

Lemma combine_zero {A} : forall (o : list A) (pa pb : list N), length pa = length pb -> Forall (fun p => p = 0%N) pb ->
  combine o pb = map (fun p => (fst p, 0%N)) (combine o pa).
Proof.
  induction o as [|x o IH]; intros pa pb L Z; [reflexivity|]. destruct pa as [|p pa], pb as [|q pb]; try discriminate L; [reflexivity|].
  cbn [combine map fst]. inversion Z; subst. f_equal. apply IH; [injection L; auto|assumption].
Qed.

Definition ef_rel (a b : emitted_fn) : Prop :=
  ef_id b = ef_id a /\ ef_used b = ef_used a /\ ef_lmap b = ef_lmap a /\ ef_body b = zero_body (ef_body a).
Lemma emit_function_rel m x il id lf : res_rel ef_rel (emit_function m x il id lf) (emit_function m x il0 id lf).
Proof.
  unfold emit_function. apply (res_rel_bind eq); [apply res_rel_eq|]. intros evs ? <-.
  destruct (emit_locals (local_ty_fn m) (lf_args lf) (used_of_log evs)) as [decls lmap].
  destruct (negb (refs_ok x lmap evs)); [exact I|].
  apply (res_rel_bind est_rel); [apply emit_body_rel|]. intros a b (H1 & H2 & H3 & H4 & H5 & H6).
  cbn [res_rel]. unfold ef_rel. cbn [ef_id ef_used ef_lmap ef_body]. repeat split.
  unfold zero_body. cbn [wb_locals wb_ops]. f_equal. rewrite H3. apply combine_zero.
  - rewrite !map_length. rewrite <- (map_length fst (imap a)), H4, map_length. reflexivity.
  - apply Forall_map. exact H6.
Qed.

Definition code_rel (a b : list wsec * x2i * list emitted_fn) : Prop :=
  fst (fst b) = zero_wmod (fst (fst a)) /\ snd (fst b) = snd (fst a) /\ Forall2 ef_rel (snd a) (snd b).
Lemma emit_code_rel m x il : res_rel code_rel (emit_code m x il) (emit_code m x il0).
Proof.
  unfold emit_code. apply (res_rel_bind eq); [apply res_rel_eq|]. intros fs ? <-.
  destruct fs as [|p fs]; [cbn; repeat split; constructor|].
  apply (res_rel_bind (Forall2 ef_rel)); [apply res_rel_rmapM; intros a; apply emit_function_rel|].
  intros efs efs0 H. cbn [res_rel]. unfold code_rel. cbn [fst snd]. split; [|split; [|exact H]].
  - cbn [zero_wmod map zero_sec]. do 2 f_equal. induction H as [|a b l l' (_ & _ & _ & Hb) _ IH]; [reflexivity|]. cbn [map]. rewrite Hb, IH. reflexivity.
  - f_equal. induction H as [|a b l l' (Hi & _ & Hl & _) _ IH]; [reflexivity|]. cbn [map]. rewrite Hi, Hl, IH. reflexivity.
Qed.

(* the name section looks at the emitted functions only through their id, used locals and local map *)
Lemma find_ef_rel efs efs0 k : Forall2 ef_rel efs efs0 ->
  match find (fun e => N.eqb (ef_id e) k) efs, find (fun e => N.eqb (ef_id e) k) efs0 with
  | Some a, Some b => ef_rel a b | None, None => True | _, _ => False end.
Proof.
  induction 1 as [|a b l l' Hab _ IH]; [exact I|]. cbn [find]. pose proof Hab as (Hi & _). rewrite Hi.
  destruct (N.eqb (ef_id a) k); [exact Hab|exact IH].
Qed.
Lemma emit_names_rel m x efs efs0 : Forall2 ef_rel efs efs0 -> emit_names m x efs = emit_names m x efs0.
Proof.
  intros H. unfold emit_names. destruct (named x S_func fn_name (aiter (m_funcs m))) as [funcs| |]; cbn [rbind]; try reflexivity.
  match goal with |- rbind (rmapM ?F ?l) _ = rbind (rmapM ?G _) _ => rewrite (rmapM_ext F G l); [reflexivity|] end.
  intros p. pose proof (find_ef_rel efs efs0 (fst p) H) as R.
  destruct (find (fun e => N.eqb (ef_id e) (fst p)) efs) as [a|], (find (fun e => N.eqb (ef_id e) (fst p)) efs0) as [b|]; try contradiction; [|reflexivity].
  destruct R as (_ & Hu & Hl & _). rewrite Hu, Hl. reflexivity.
Qed.

Definition front_rel (a b : list wsec * x2i * list emitted_fn) : Prop :=
  zero_wmod (fst (fst b)) = zero_wmod (fst (fst a)) /\ snd (fst b) = snd (fst a) /\ Forall2 ef_rel (snd a) (snd b).
Lemma emit_front_rel m il : res_rel front_rel (emit_front m il) (emit_front m il0).
Proof.
  unfold emit_front.
  destruct (emit_types m empty_x2i) as [s_ty x0].
  destruct (emit_imports m x0) as [[s_im x1]| |]; cbn [rbind]; try exact I.
  destruct (emit_func_section m x1) as [[s_fn x2]| |]; cbn [rbind]; try exact I.
  destruct (emit_tables m x2) as [s_tb x3]. destruct (emit_memories m x3) as [s_me x4].
  destruct (emit_globals m x4) as [[s_gl x5]| |]; cbn [rbind]; try exact I.
  destruct (emit_exports m x5) as [s_ex| |]; cbn [rbind]; try exact I.
  match goal with |- res_rel _ (rbind ?A _) _ => destruct A as [s_st| |]; cbn [rbind]; try exact I end.
  destruct (emit_elements m x5) as [[s_el x6]| |]; cbn [rbind]; try exact I.
  destruct (emit_data_count m x6) as [[s_dc x7]| |]; cbn [rbind]; try exact I.
  apply (res_rel_bind code_rel); [apply emit_code_rel|].
  intros [[s_co x8] efs] [[s_co0 x80] efs0] (Hs & Hx & Hf). cbn [fst snd] in Hs, Hx, Hf. subst x80 s_co0.
  destruct (emit_data m x8) as [s_da| |]; cbn [rbind res_rel]; try exact I.
  unfold front_rel. cbn [fst snd]. split; [|split; [reflexivity|exact Hf]].
  rewrite !zero_wmod_app, zero_wmod_idem. reflexivity.
Qed.
Definition em_rel (e e0 : emitted) : Prop := zero_wmod (em_secs e0) = zero_wmod (em_secs e).
Lemma emitM_rel m il : res_rel em_rel (emitM m il []) (emitM m il0 []).
Proof.
  rewrite !emitM_factor. apply (res_rel_bind front_rel); [apply emit_front_rel|].
  intros [[front x] efs] [[front0 x0] efs0] (Hs & Hx & Hf). cbn [fst snd] in Hs, Hx, Hf. subst x0.
  unfold emit_tail, sec_names. rewrite (emit_names_rel _ x efs efs0 Hf).
  destruct (if cf_skip_name (m_config m) then Ok [] else emit_names (set_customs_take m) x efs0) as [s_nm| |]; cbn [rbind res_rel]; try exact I.
  unfold em_rel. cbn [em_secs]. rewrite !zero_wmod_app, Hs. reflexivity.
Qed.

(* with [il0] nothing but zero positions is emitted *)
Lemma emit_code_il0_zero m x s x' efs : emit_code m x il0 = Ok (s, x', efs) -> zero_wmod s = s.
Proof.
  intros H. pose proof (emit_code_rel m x il0) as R. rewrite H in R. cbn [res_rel] in R. destruct R as (R & _). cbn [fst] in R. symmetry. exact R.
Qed.
Lemma emitM_il0_zero m e0 : emitM m il0 [] = Ok e0 -> zero_wmod (em_secs e0) = em_secs e0.
Proof.
  intros H. Structure2.emitM_kinds H.
  pose proof (emit_code_il0_zero _ _ _ _ _ Eco) as Zc.
  unfold zero_wmod. rewrite <- (map_id (em_secs e0)) at 2. apply map_ext_in. intros s Hs.
  destruct s; try reflexivity.
  (* a code section of the stream is in the piece of tag 10 *)
  pose proof (proj2 (filter_In (Structure.has_tag 10) _ _) (conj Hs eq_refl)) as Hc. rewrite (Ekind 10) in Hc. cbn [nth] in Hc.
  unfold zero_wmod in Zc. rewrite <- Zc in Hc. apply in_map_iff in Hc. destruct Hc as (s' & <- & _).
  destruct s'; try reflexivity. cbn [zero_sec]. f_equal. rewrite map_map. apply map_ext. intros b.
  unfold zero_body. cbn [wb_locals wb_ops]. rewrite map_map. reflexivity.
Qed.

(* both directions of [emitM_rel] *)
Lemma emitM_to_il0 m il e : emitM m il [] = Ok e -> exists e0, emitM m il0 [] = Ok e0 /\ em_secs e0 = zero_wmod (em_secs e).
Proof.
  intros H. pose proof (emitM_rel m il) as R. rewrite H in R. destruct (emitM m il0 []) as [e0| |] eqn:E0; try contradiction.
  exists e0. split; [reflexivity|]. rewrite <- (emitM_il0_zero _ _ E0). exact R.
Qed.
Lemma emitM_from_il0 m il e0 : emitM m il0 [] = Ok e0 -> exists e, emitM m il [] = Ok e /\ em_secs e0 = zero_wmod (em_secs e).
Proof.
  intros H. pose proof (emitM_rel m il) as R. rewrite H in R. destruct (emitM m il []) as [e| |] eqn:E; try contradiction.
  exists e. split; [reflexivity|]. rewrite <- (emitM_il0_zero _ _ H). exact R.
Qed.
(* the emitted stream up to positions does not depend on the instruction lengths *)
Theorem emitM_ilen_only_positions m il il' e : emitM m il [] = Ok e ->
  exists e', emitM m il' [] = Ok e' /\ zero_wmod (em_secs e') = zero_wmod (em_secs e).
Proof.
  intros H. destruct (emitM_to_il0 _ _ _ H) as (e0 & E0 & Z0). destruct (emitM_from_il0 _ il' _ E0) as (e' & E' & Z').
  exists e'. split; [exact E'|]. rewrite <- Z', Z0. reflexivity.
Qed.

(* where the section stream is a fixpoint of the round trip for the position-free run [il0], the bytes are one for every [ilen] *)
Lemma bytes_of_stream_fixpoint cf ver ilen b1 s1 e1 :
  emitM (ps_m s1) ilen [] = Ok e1 -> wf_wmod (em_secs e1) = true -> enc_wmod (em_secs e1) = Some b1 ->
  (forall e10, emitM (ps_m s1) il0 [] = Ok e10 ->
     exists s2 e20, parseM cf ver (em_secs e10) = POk s2 /\ emitM (ps_m s2) il0 [] = Ok e20 /\ em_secs e20 = em_secs e10) ->
  exists s2 e2, dec_wmod false b1 = Some (zero_wmod (em_secs e1)) /\ parseM cf ver (zero_wmod (em_secs e1)) = POk s2 /\
                emitM (ps_m s2) ilen [] = Ok e2 /\ zero_wmod (em_secs e2) = zero_wmod (em_secs e1) /\ enc_wmod (em_secs e2) = Some b1.
Proof.
  intros E1 WF B Fix.
  destruct (emitM_to_il0 _ _ _ E1) as (e10 & E10 & Z10). destruct (Fix _ E10) as (s2 & e20 & P2 & E20 & F).
  destruct (emitM_from_il0 _ ilen _ E20) as (e2 & E2 & Z2).
  exists s2, e2. rewrite Z10 in P2. repeat split; try assumption.
  - exact (dec_enc_wmod_zero _ _ B WF).
  - rewrite <- Z2, F, Z10. reflexivity.
  - rewrite <- enc_wmod_zero, <- Z2, F, Z10, enc_wmod_zero. exact B.
Qed.
(* (C08) walrus's output is a fixpoint of the round trip AT BYTE LEVEL, for every
   configuration and every instruction-length function.  Premises: the validator's guarantees on the decoded input stream ([valid_stream],
   [locals_in_range] - exactly those of c08_module_fixpoint_total_all_configs) and [wf_wmod] of the ONE emitted stream (LEB ranges, UTF-8 names,
   canonical element segments: what makes the writer's bytes readable).  Operator positions: the reader gives none (all 0), the emitter computes
   them from [ilen]; they are bridged by [emitM_rel] through the position-free run [il0]. *)
Theorem bytes_fixpoint_streams cf ver ilen bs b1 w s1 e1 :
  dec_wmod false bs = Some w -> valid_stream w -> locals_in_range w ->
  parseM cf ver w = POk s1 -> emitM (ps_m s1) ilen [] = Ok e1 -> wf_wmod (em_secs e1) = true -> enc_wmod (em_secs e1) = Some b1 ->
  exists s2 e2, dec_wmod false b1 = Some (zero_wmod (em_secs e1)) /\ parseM cf ver (zero_wmod (em_secs e1)) = POk s2 /\
                emitM (ps_m s2) ilen [] = Ok e2 /\ zero_wmod (em_secs e2) = zero_wmod (em_secs e1) /\ enc_wmod (em_secs e2) = Some b1.
Proof.
  intros D V L P1 E1 WF B. apply (bytes_of_stream_fixpoint cf ver ilen b1 s1 e1 E1 WF B). intros e10 E10.
  destruct (module_fixpoint_total_all_configs cf ver w s1 il0 e10 V L P1 E10) as (_ & s2 & e20 & X). exists s2, e20. exact X.
Qed.
(* the same as one statement about bytes *)
Theorem bytes_fixpoint cf ver ilen bs b1 w :
  dec_wmod false bs = Some w -> valid_stream w -> locals_in_range w ->
  (forall s e, parseM cf ver w = POk s -> emitM (ps_m s) ilen [] = Ok e -> wf_wmod (em_secs e) = true) ->
  roundtrip_bytes cf ver ilen bs = Some b1 ->
  roundtrip_bytes cf ver ilen b1 = Some b1.
Proof.
  intros D V L WF H. destruct (roundtrip_bytes_inv _ _ _ _ _ H) as (w' & s1 & e1 & D' & P1 & E1 & B).
  rewrite D in D'. apply Some_inj in D'. subst w'.
  destruct (bytes_fixpoint_streams cf ver ilen bs b1 w s1 e1 D V L P1 E1 (WF _ _ P1 E1) B) as (s2 & e2 & D2 & P2 & E2 & _ & B2).
  exact (roundtrip_bytes_intro _ _ _ _ _ _ _ _ D2 P2 E2 B2).
Qed.

(* without [locals_in_range], for the configurations of c08_module_fixpoint (names skipped, or not synthesised) *)
Theorem bytes_fixpoint_plain_names cf ver ilen bs b1 w :
  dec_wmod false bs = Some w -> valid_stream w -> cf_skip_name cf = true \/ cf_synthetic_names cf = false ->
  (forall s e, parseM cf ver w = POk s -> emitM (ps_m s) ilen [] = Ok e -> wf_wmod (em_secs e) = true) ->
  roundtrip_bytes cf ver ilen bs = Some b1 ->
  roundtrip_bytes cf ver ilen b1 = Some b1.
Proof.
  intros D V C WF H. destruct (roundtrip_bytes_inv _ _ _ _ _ H) as (w' & s1 & e1 & D' & P1 & E1 & B).
  rewrite D in D'. apply Some_inj in D'. subst w'.
  destruct (bytes_of_stream_fixpoint cf ver ilen b1 s1 e1 E1 (WF _ _ P1 E1) B) as (s2 & e2 & D2 & P2 & E2 & _ & B2).
  { intros e10 E10. destruct (module_fixpoint_total cf ver w s1 il0 e10 V P1 E10) as (_ & s2 & e20 & P2 & E20 & F). exists s2, e20. auto. }
  exact (roundtrip_bytes_intro _ _ _ _ _ _ _ _ D2 P2 E2 B2).
Qed.
(* hence any number of byte-level round trips gives the bytes of the first *)
Fixpoint roundtrips_bytes (cf : config) (ver : str) (ilen : wins -> N) (n : nat) (bs : list N) : option (list N) :=
  match n with
  | O => Some bs
  | S k => match roundtrip_bytes cf ver ilen bs with Some b => roundtrips_bytes cf ver ilen k b | None => None end
  end.
Lemma roundtrips_of_fixpoint cf ver ilen b1 : roundtrip_bytes cf ver ilen b1 = Some b1 -> forall n, roundtrips_bytes cf ver ilen n b1 = Some b1.
Proof. intros F. induction n as [|n IH]; [reflexivity|]. cbn [roundtrips_bytes]. rewrite F. exact IH. Qed.
Theorem bytes_round_trip_idempotent cf ver ilen bs b1 w :
  dec_wmod false bs = Some w -> valid_stream w -> locals_in_range w ->
  (forall s e, parseM cf ver w = POk s -> emitM (ps_m s) ilen [] = Ok e -> wf_wmod (em_secs e) = true) ->
  roundtrip_bytes cf ver ilen bs = Some b1 ->
  forall n, n >= 1 -> roundtrips_bytes cf ver ilen n bs = Some b1.
Proof.
  intros D V L WF H n Hn. destruct n as [|n]; [lia|]. cbn [roundtrips_bytes]. rewrite H.
  apply roundtrips_of_fixpoint. exact (bytes_fixpoint _ _ _ _ _ _ D V L WF H).
Qed.

(* (C12) raw custom sections at byte level.
   The reader never classifies a ".debug*" section as raw: on decoded streams the filter of c12_roundtrip is the identity *)
(* [starts_with_debug] matches on literal bytes, that is on their bits: six times, the next byte is split down to its bits *)
Lemma starts_with_debug_eq n : starts_with debug_prefix n = starts_with_debug n.
Proof.
  unfold debug_prefix.
  do 6 (destruct n as [|a n]; [reflexivity|]; destruct a as [|a]; [reflexivity|]; repeat (destruct a as [a|a|]; try reflexivity)).
Qed.
Definition raw_not_debug (s : wsec) : Prop := match s with S_Custom (CS_Raw n _) => starts_with_debug n = false | _ => True end.
Lemma dec_custom_not_debug p c : dec_custom p = Some c -> raw_not_debug (S_Custom c).
Proof.
  unfold dec_custom. destruct (dec_name p) as [[n d]|]; [|discriminate]. intros H. apply Some_inj in H. subst c.
  destruct (str_eqb n name_str); [exact I|]. destruct (str_eqb n producers_str); [exact I|].
  destruct (starts_with debug_prefix n) eqn:E; [exact I|]. cbn [raw_not_debug]. rewrite <- starts_with_debug_eq. exact E.
Qed.
Lemma dec_sec_not_debug wp pos id p s : dec_sec wp pos id p = Some s -> raw_not_debug s.
Proof.
  unfold dec_sec. destruct (N.eqb id 0).
  - destruct (dec_custom p) as [c|] eqn:E; [|discriminate]. intros H. apply Some_inj in H. subst s. exact (dec_custom_not_debug _ _ E).
  - repeat match goal with
           | |- (if ?b then _ else _) = _ -> _ => destruct b
           | |- match ?x with Some _ => _ | None => None end = _ -> _ => destruct x; [|discriminate]
           end; intros H; try discriminate; apply Some_inj in H; subst s; exact I.
Qed.
Lemma dec_secs_not_debug wp : forall l w, dec_secs wp l = Some w -> Forall raw_not_debug w.
Proof.
  induction l as [|[pos [id p]] l IH]; intros w H; cbn [dec_secs] in H.
  - apply Some_inj in H. subst. constructor.
  - destruct (dec_sec wp pos id p) as [s|] eqn:E; [|discriminate]. destruct (dec_secs wp l) as [w'|]; [|discriminate].
    apply Some_inj in H. subst w. constructor; [exact (dec_sec_not_debug _ _ _ _ _ E)|apply IH; reflexivity].
Qed.
Lemma dec_wmod_not_debug wp bs w : dec_wmod wp bs = Some w -> Forall raw_not_debug w.
Proof. unfold dec_wmod. destruct (unframe_module_at bs); [|discriminate]. apply dec_secs_not_debug. Qed.
Lemma filter_not_debug w : Forall raw_not_debug w -> filter (fun c => negb (starts_with_debug (fst c))) (raw_customs w) = raw_customs w.
Proof.
  induction 1 as [|s w Hs _ IH]; [reflexivity|]. rewrite raw_customs_cons, filter_app, IH. f_equal.
  destruct s as [| | | | | | | | | | | |c]; try reflexivity. destruct c; try reflexivity. cbn [raw_customs flat_map app filter fst].
  cbn [raw_not_debug] in Hs. rewrite Hs. reflexivity.
Qed.

(* where emitM puts them: after everything else, in the order of the arena *)
Definition raw_sec (c : str * list N) : wsec := S_Custom (CS_Raw (fst c) (snd c)).
Lemma sec_customs_are_raw cs : sec_customs cs = map raw_sec (raw_customs (sec_customs cs)).
Proof.
  induction cs as [|[c|] cs IH]; [reflexivity| |exact IH]. unfold sec_customs in *. cbn [flat_map].
  destruct (starts_with_debug (cu_name c)); [exact IH|]. cbn [app]. rewrite raw_customs_cons. cbn [raw_customs flat_map app map]. f_equal. exact IH.
Qed.
Theorem emitted_stream_ends_with_raw_customs cf ver w s ilen e : parseM cf ver w = POk s -> emitM (ps_m s) ilen [] = Ok e ->
  Forall raw_not_debug w ->
  exists own, em_secs e = own ++ map raw_sec (raw_customs w) /\
              Forall (fun s => match s with S_Custom (CS_Raw _ _) | S_Custom (CS_Debug _ _) => False | _ => True end) own.
Proof.
  intros P E ND. pose proof (CustomsCfg.c12_roundtrip _ _ _ _ _ _ _ P E eq_refl) as C. rewrite (filter_not_debug _ ND) in C.
  destruct (ModFix8.emitM_shape _ _ _ E) as (front & x & efs & nm & Pf & En & Es).
  exists (front ++ nm ++ sec_producers (m_config (ps_m s)) (m_producers (ps_m s))). split.
  - rewrite Es in C. rewrite !raw_customs_app, (plain_raw _ Pf), (sec_names_raw _ _ _ _ _ En), sec_producers_raw in C. cbn [app] in C.
    rewrite Es, sec_customs_are_raw, C, <- !app_assoc. reflexivity.
  - apply Forall_app. split; [|apply Forall_app; split].
    + unfold plain_secs in Pf. eapply Forall_impl; [|exact Pf]. intros a Ha. destruct a; try exact I. discriminate Ha.
    + unfold sec_names in En. destruct (cf_skip_name _); [injection En as <-; constructor|].
      destruct (emit_names_shape _ _ _ _ En) as [->|[n ->]]; repeat constructor.
    + unfold sec_producers. destruct (cf_skip_producers _); [constructor|]. destruct (m_producers (ps_m s)); repeat constructor.
Qed.

(* the writer on a concatenation, and on raw custom sections *)
Lemma enc_secs_app : forall a b l, enc_secs (a ++ b) = Some l -> exists la lb, enc_secs a = Some la /\ enc_secs b = Some lb /\ l = la ++ lb.
Proof.
  induction a as [|s a IH]; intros b l H; cbn [app enc_secs] in *.
  - exists [], l. repeat split. exact H.
  - destruct (enc_sec s) as [x|]; [|discriminate]. destruct (enc_secs (a ++ b)) as [l'|] eqn:E; [|discriminate]. apply Some_inj in H. subst l.
    destruct (IH _ _ E) as (la & lb & -> & -> & ->). exists (x :: la), lb. repeat split.
Qed.
Definition raw_frame (c : str * list N) : N * list N := (0%N, custom_payload (fst c) (snd c)).
Lemma enc_secs_raw l : enc_secs (map raw_sec l) = Some (map raw_frame l).
Proof. induction l as [|c l IH]; [reflexivity|]. cbn [map enc_secs]. rewrite IH. reflexivity. Qed.
(* one of walrus's own sections as bytes: a non-custom id, or the name / producers section *)
Definition own_frame (p : N * list N) : Prop :=
  fst p <> 0%N \/ exists b, snd p = custom_payload name_str b \/ snd p = custom_payload producers_str b.
Lemma enc_secs_own : forall own l, enc_secs own = Some l ->
  Forall (fun s => match s with S_Custom (CS_Raw _ _) | S_Custom (CS_Debug _ _) => False | _ => True end) own -> Forall own_frame l.
Proof.
  induction own as [|s own IH]; intros l H F; cbn [enc_secs] in H.
  - apply Some_inj in H. subst. constructor.
  - destruct (enc_sec s) as [x|] eqn:Ex; [|discriminate]. destruct (enc_secs own) as [l'|]; [|discriminate]. apply Some_inj in H. subst l.
    inversion F as [|? ? Fs Fo]; subst. constructor; [|apply IH; [reflexivity|exact Fo]].
    unfold own_frame. destruct s as [| | | | | | | | | | | |c]; cbn [enc_sec] in Ex.
    1-12: try (match type of Ex with match ?e with Some _ => _ | None => None end = _ => destruct e; cbv beta iota in Ex; [|discriminate Ex] end);
          apply Some_inj in Ex; subst x; left; cbn [fst]; intros Q; discriminate Q.
    right. destruct c as [n d|n d|[nm|]|[pr|]]; try contradiction; cbn [enc_custom] in Ex; try discriminate.
    + destruct (enc_names nm) as [b|]; cbv beta iota in Ex; [|discriminate]. apply Some_inj in Ex. subst x. exists b. left. reflexivity.
    + destruct (enc_producers pr) as [b|]; cbv beta iota in Ex; [|discriminate]. apply Some_inj in Ex. subst x. exists b. right. reflexivity.
Qed.

(* the output bytes = magic, version, walrus's own sections, then EVERY raw custom section of the input - name length, name and data byte for byte,
   framed with its minimal LEB128 size - each exactly once, in the input order, wherever they stood in the input *)
Theorem raw_customs_bytes_preserved cf ver ilen bs b1 w :
  dec_wmod false bs = Some w -> roundtrip_bytes cf ver ilen bs = Some b1 ->
  exists own : list (N * list N),
    b1 = magic_version ++ flat_map frame_section (own ++ map raw_frame (raw_customs w)) /\ Forall own_frame own.
Proof.
  intros D H. destruct (roundtrip_bytes_inv _ _ _ _ _ H) as (w' & s1 & e1 & D' & P1 & E1 & B).
  rewrite D in D'. apply Some_inj in D'. subst w'.
  destruct (emitted_stream_ends_with_raw_customs _ _ _ _ _ _ P1 E1 (dec_wmod_not_debug _ _ _ D)) as (own & Es & Fo).
  unfold enc_wmod in B. destruct (enc_secs (em_secs e1)) as [l|] eqn:El; [|discriminate]. apply Some_inj in B. subst b1.
  rewrite Es in El. destruct (enc_secs_app _ _ _ El) as (la & lb & Ea & Eb & ->). rewrite enc_secs_raw in Eb. apply Some_inj in Eb. subst lb.
  exists la. split; [reflexivity|]. exact (enc_secs_own _ _ Ea Fo).
Qed.
(* per section: its canonical frame is a contiguous block of the output; two of them stand in the input order *)
Lemma raw_customs_in w n d : In (S_Custom (CS_Raw n d)) w -> In (n, d) (raw_customs w).
Proof. intros H. unfold raw_customs. apply in_flat_map. exists (S_Custom (CS_Raw n d)). split; [exact H|left; reflexivity]. Qed.
Theorem raw_custom_block_in_output cf ver ilen bs b1 w name data payload :
  dec_wmod false bs = Some w -> roundtrip_bytes cf ver ilen bs = Some b1 ->
  In (S_Custom (CS_Raw name data)) w -> enc_custom (CS_Raw name data) = Some payload ->
  exists pre post, b1 = pre ++ frame_section (0%N, payload) ++ post.
Proof.
  intros D H Hin Ep. destruct (raw_customs_bytes_preserved _ _ _ _ _ _ D H) as (own & -> & _).
  cbn [enc_custom] in Ep. apply Some_inj in Ep. subst payload.
  destruct (in_split _ _ (raw_customs_in _ _ _ Hin)) as (l1 & l2 & ->).
  rewrite map_app. cbn [map]. rewrite !flat_map_app. cbn [flat_map].
  exists (magic_version ++ flat_map frame_section own ++ flat_map frame_section (map raw_frame l1)), (flat_map frame_section (map raw_frame l2)).
  unfold raw_frame at 2. cbn [fst snd]. rewrite <- !app_assoc. reflexivity.
Qed.

(* read back, the raw custom sections are those of the input (content, multiplicity, order) *)
Lemma raw_customs_zero w : raw_customs (zero_wmod w) = raw_customs w.
Proof. induction w as [|s w IH]; [reflexivity|]. cbn [zero_wmod map]. fold (zero_wmod w). rewrite (raw_customs_cons (zero_sec s)), (raw_customs_cons s), IH. destruct s; reflexivity. Qed.
Theorem raw_customs_read_back cf ver ilen bs b1 w :
  dec_wmod false bs = Some w -> roundtrip_bytes cf ver ilen bs = Some b1 ->
  (forall s e, parseM cf ver w = POk s -> emitM (ps_m s) ilen [] = Ok e -> wf_wmod (em_secs e) = true) ->
  exists w1, dec_wmod false b1 = Some w1 /\ raw_customs w1 = raw_customs w.
Proof.
  intros D H WF. destruct (roundtrip_bytes_inv _ _ _ _ _ H) as (w' & s1 & e1 & D' & P1 & E1 & B).
  rewrite D in D'. apply Some_inj in D'. subst w'. specialize (WF _ _ P1 E1).
  exists (zero_wmod (em_secs e1)). split; [exact (dec_enc_wmod_zero _ _ B WF)|].
  rewrite raw_customs_zero, (CustomsCfg.c12_roundtrip _ _ _ _ _ _ _ P1 E1 eq_refl). exact (filter_not_debug _ (dec_wmod_not_debug _ _ _ D)).
Qed.

(* non-vacuity: the module with one of everything (Proofs/ModBytes.v), on
   wasm-encoder's bytes, default configuration, the encoder's real instruction lengths ([ilen_total], Proofs/Bytes.v) *)
Definition ev_ver : str := [49%N].
Definition everything_out : list N :=
  Eval vm_compute in match roundtrip_bytes default_config ev_ver ilen_total everything_bytes with Some b => b | None => [] end.
Example everything_roundtrip : roundtrip_bytes default_config ev_ver ilen_total everything_bytes = Some everything_out.
Proof. vm_compute. reflexivity. Qed.
(* walrus does change these bytes: functions reordered, an unused local and a nop dropped, its own producers entry rewritten, the raw section moved last *)
Example everything_out_differs : everything_out <> everything_bytes.
Proof. intros H. vm_compute in H. discriminate H. Qed.
Definition ev_body1 : list rt := [RNop 0].
Definition ev_body2 : list rt :=
  [RBlock BT_Empty [RPlain (W_I32Const (-200)) 0; RPlain (W_LocalSet 2) 0; RPlain (W_I32Const 0) 0; RPlain (W_I32Const 3) 0;
                    RPlain (W_I32Const 0) 0; RPlain (W_MemoryInit 0 0) 0] 0 0; RPlain (W_LocalGet 4) 0].
Example everything_valid : valid_stream everything.
Proof.
  apply valid_from_split; [vm_compute; reflexivity|]. cbn [code_valid everything].
  repeat match goal with |- _ /\ _ => split end; try exact I.
  repeat constructor.
  - exists ev_body1, 0%N. split; [reflexivity|]. cbn [swfl swf ev_body1]. repeat split.
  - exists ev_body2, 0%N. split; [reflexivity|].
    cbn [swfl swf ev_body2 sbt_ok]; repeat split; try (intros f H; vm_compute in H; discriminate H).
Qed.
Example everything_in_range : locals_in_range everything.
Proof. vm_compute. reflexivity. Qed.
Example everything_emitted_wf : forall s e, parseM default_config ev_ver everything = POk s -> emitM (ps_m s) ilen_total [] = Ok e -> wf_wmod (em_secs e) = true.
Proof.
  assert (C : match parseM default_config ev_ver everything with
              | POk s => match emitM (ps_m s) ilen_total [] with Ok e => wf_wmod (em_secs e) | _ => true end
              | _ => true end = true) by (vm_compute; reflexivity).
  intros s e P E. rewrite P, E in C. exact C.
Qed.
(* by the theorem (all premises discharged) ... *)
Example everything_out_is_fixpoint : roundtrip_bytes default_config ev_ver ilen_total everything_out = Some everything_out.
Proof.
  exact (bytes_fixpoint default_config ev_ver ilen_total everything_bytes everything_out everything
           everything_dec0 everything_valid everything_in_range everything_emitted_wf everything_roundtrip).
Qed.
(* ... and by running the model *)
Example everything_out_is_fixpoint_computed : roundtrip_bytes default_config ev_ver ilen_total everything_out = Some everything_out.
Proof. vm_compute. reflexivity. Qed.
(* the raw custom section "hello" of the input: by the theorem a block of the output; by computation its last 12 bytes *)
Example everything_raw_custom_block : exists pre post,
  everything_out = pre ++ frame_section (0%N, custom_payload [104;101;108;108;111]%N [1;2;3;200]%N) ++ post.
Proof.
  apply (raw_custom_block_in_output default_config ev_ver ilen_total everything_bytes everything_out everything
           [104;101;108;108;111]%N [1;2;3;200]%N _ everything_dec0 everything_roundtrip); [|reflexivity].
  unfold everything. repeat (try (left; reflexivity); right).
Qed.
Example everything_raw_custom_last :
  skipn (length everything_out - 12) everything_out = frame_section (0%N, custom_payload [104;101;108;108;111]%N [1;2;3;200]%N).
Proof. vm_compute. reflexivity. Qed.

(* the C04 statement is not vacuous: the size of the type section written with a padded LEB128 (138 0 instead of 10) - other bytes, the same stream, the same output *)
Definition everything_bytes_padded : list N := firstn 9 everything_bytes ++ [138; 0]%N ++ skipn 10 everything_bytes.
Example everything_padded : everything_bytes_padded <> everything_bytes /\
  roundtrip_bytes default_config ev_ver ilen_total everything_bytes_padded = Some everything_out.
Proof.
  split; [intros H; vm_compute in H; discriminate H|].
  rewrite <- everything_roundtrip. apply bytes_determine_behaviour_inputs. vm_compute. reflexivity.
Qed.

Print Assumptions bytes_determine_behaviour_inputs.
Print Assumptions emitM_ilen_only_positions.
Print Assumptions bytes_fixpoint.
Print Assumptions bytes_fixpoint_streams.
Print Assumptions raw_customs_bytes_preserved.
Print Assumptions raw_custom_block_in_output.
Print Assumptions raw_customs_read_back.
Print Assumptions everything_out_is_fixpoint.
Print Assumptions everything_raw_custom_block.
Print Assumptions bytes_fixpoint_plain_names.
Print Assumptions bytes_round_trip_idempotent.
Print Assumptions everything_padded.
