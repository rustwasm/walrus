(* C02 - emitted binaries always validate and emission never panics.  Statements only; proofs in Proofs/Totality.v
   (module level), Proofs/EmitFn.v (function bodies), Proofs/IndexMaps.v (per-emitter totality).
   What is proved: the "never panics / no referenced entity without an emitted index" half, on the models:
   - [closed m]: every id a live entity mentions (import -> entity, export item, start, segment items / targets /
     offsets, global initialisers, function types) denotes a live entity of the right arena;
   - a successfully parsed module is closed; the GC pass keeps it closed (a kept entity only refers to kept entities);
   - a closed module is emitted without any "index not set" / dead-arena panic in the section emitters, immediately
     and after GC, provided every local function body is emitted without panic on the final maps ([body_ok]: its
     references are in the final maps and the Emit visitor does not panic - for bodies denoting a tree whose branch
     targets are enclosing sequences that is c02_body_emission_total below);
   - the one corner in which GC breaks closedness (a ref.func OFFSET of an active segment, which the parser rejects
     and no valid binary contains; reachable only by building such a segment through the API) is exhibited.
   What is observed rather than proved: that an independent validator accepts the output (wasmparser is run on
   every output of every module-level case, also after GC and after edits); see the recorded findings. *)
From Coq Require Import List NArith ZArith Bool Arith. Import ListNotations.
From WV Require Import Gen.Ops Model.Common Model.IR Model.Arena Model.Traversal Model.EmitFn Model.EmitSpec Model.Locals
                       Model.ParseFn Model.ModuleM Model.ParseM Model.EmitM Model.GC.
From WV Require Import Proofs.GcDeclare.
From WV Require Import Proofs.IndexMaps Proofs.Totality.
From WV Require Proofs.EmitFn.
Local Open Scope nat_scope.

Theorem c02_parsed_module_closed cf ver w s : parseM cf ver w = POk s -> closed (ps_m s).
Proof. exact (parseM_closed cf ver w s). Qed.

Theorem c02_gc_keeps_closed cf ver w s m : parseM cf ver w = POk s -> gc (ps_m s) = Ok m -> closed m /\ no_func_offsets m.
Proof. exact (gc_closed_after_parse_full cf ver w s m). Qed.

Theorem c02_closed_means_every_reference_indexed m fs : closed m -> used_local_functions m = Ok fs -> emit_closed m fs.
Proof. exact (closed_emit_closed m fs). Qed.

Theorem c02_emit_total_after_parse cf ver w s ilen dw fs :
  parseM cf ver w = POk s -> used_local_functions (ps_m s) = Ok fs ->
  (forall x, final_maps (ps_m s) fs x -> forall id lf, In (id, lf) fs -> body_ok (ps_m s) x ilen lf) ->
  exists e, emitM (ps_m s) ilen dw = Ok e.
Proof. exact (emit_total_after_parse_bodies cf ver w s ilen dw fs). Qed.

Theorem c02_emit_total_after_gc cf ver w s m ilen dw fs :
  parseM cf ver w = POk s -> gc (ps_m s) = Ok m -> used_local_functions m = Ok fs ->
  (forall x, final_maps m fs x -> forall id lf, In (id, lf) fs -> body_ok m x ilen lf) ->
  exists e, emitM m ilen dw = Ok e.
Proof. exact (emit_total_after_gc_bodies_full cf ver w s m ilen dw fs). Qed.

Theorem c02_names_never_panic m fs x x' efs :
  closed m -> used_local_functions m = Ok fs -> final_maps m fs x ->
  (forall S, space_map x' S = space_map x S) -> types_named_ok m ->
  exists r, emit_names m x' efs = Ok r.
Proof. exact (emit_names_closed m fs x x' efs). Qed.

Theorem c02_gc_corner_refuted :
  exists m m', closed m /\ gc m = Ok m' /\ ~ closed m' /\
               (exists e, emitM m (fun _ => 0%N) [] = Ok e) /\ emitM m' (fun _ => 0%N) [] = Panic.
Proof. exact gc_closed_refuted_full. Qed.

Theorem c02_body_emission_total : forall cx ar t p0, Den ar t -> scoped (ex_id2i cx) [] t ->
  exists st', emit_events cx ar (init_estate p0) (events false t) = Ok st' /\ blocks st' = [] /\ kinds st' = [].
Proof. exact Proofs.EmitFn.emit_no_panic. Qed.

(* End to end on the models, with NO premise about function bodies: on a stream with the validator's guarantees
   ([valid_stream]: section order, module-level indices, counts, well-formed bodies; [refs_in_range]: the entity indices
   carried by operators are in range) parsing succeeds and emitting the parsed module - immediately or after GC - never
   hits a panic path.  Without the index bounds the statement is false (witness: `call 7` in a one-function module:
   the parse model maps the index to an invalid id and the emit model panics) - the real parser would already
   have unwrapped an error there, and the validator rejects the input first. *)
From WV Require Import Model.ParseSpec Proofs.ParseTotal Proofs.TotalityBodies Proofs.Names.
Theorem c02_emit_total_after_parse_no_body_premise :
  forall (cf : config) (ver : nstr) (w : wmod) (s : pst) (ilen : wins -> N) (dw : list wsec),
         valid_stream w ->
         parseM cf ver w = POk s ->
         refs_in_range w (ps_ids s) -> exists e : emitted, emitM (ps_m s) ilen dw = Ok e.
Proof. exact emit_total_after_parse_final_partial. Qed.

Theorem c02_emit_total_after_gc_no_body_premise :
  forall (cf : config) (ver : nstr) (w : wmod) (s : pst) (m' : wir) (ilen : wins -> N) (dw : list wsec),
         valid_stream w ->
         parseM cf ver w = POk s ->
         refs_in_range w (ps_ids s) -> gc (ps_m s) = Ok m' -> exists e : emitted, emitM m' ilen dw = Ok e.
Proof. exact emit_total_after_gc_final_partial_full. Qed.

Theorem c02_index_bounds_needed :
  exists w : wmod,
           valid_stream w /\
           (exists s : pst,
              parseM default_config [49] w = POk s /\ emitM (ps_m s) (fun _ : wins => 1) [] = Panic).
Proof. exact emit_total_after_parse_final_refuted. Qed.

Theorem c02_parsed_bodies_never_panic_the_emitter :
  forall (cf : config) (ver : nstr) (w : wmod) (s : pst) (id : N) (fn : mfunc) 
           (lf : mlocalfunc) (ecx : ectx),
         valid_stream w ->
         parseM cf ver w = POk s ->
         aget (m_funcs (ps_m s)) id = Some fn ->
         fn_kind fn = FK_Local lf ->
         exists st : estate, emit_body ecx (lf_fuel lf) (lf_arena lf) (lf_entry lf) 0 = Ok st.
Proof. exact parsed_emit_no_panic. Qed.


(* the STRUCTURAL half of "the output validates": the emitted stream of a parsed module has again every guarantee the model asks of a
   validator-accepted stream (section order, index bounds in every section, constant-expression forms, counts, structured bodies with indices in
   range) - so it can be parsed and emitted again (C08) *)
From WV Require Import Proofs.ParseTotal.
From WV Require Proofs.ModFix32.
Theorem c02_emitted_stream_has_the_validator_guarantees : forall cf ver w s1 ilen e1,
  valid_stream w -> parseM cf ver w = POk s1 -> emitM (ps_m s1) ilen [] = Ok e1 -> valid_stream (em_secs e1).
Proof. exact ModFix32.emitted_stream_valid. Qed.

(* the control skeleton of the GC pass in the SOURCE (regenerated), including its declaration step: what counts as a declaration of a `ref.func`
   target (exports, element segments, global initialisers - not the start section) *)
From WV Require Import Gen.GcSkeleton Proofs.GcPinned.
Theorem c02_gc_source_skeleton : used_new_skeleton = expected_used_new /\ used_visitor_skeleton = expected_used_visitor /\ gc_run_skeleton = expected_gc_run /\ gc_declare_skeleton = expected_gc_declare.
Proof. exact used_skeleton_pinned. Qed.

(* the same after the GC pass: the emitted stream of the collected module has every guarantee of a validator-accepted stream (no clause excluded),
   and can be parsed again *)
From WV Require Import Proofs.EmitValidGc.
Theorem c02_emitted_stream_after_gc_has_the_validator_guarantees :
  forall (cf : config) (ver : str) (w : wmod) (s : pst) (m' : wir) (ilen : IR.wins -> N) (e : emitted),
         valid_stream w ->
         parseM cf ver w = POk s -> gc (ps_m s) = Ok m' -> emitM m' ilen [] = Ok e -> valid_stream (em_secs e).
Proof. exact emitted_stream_valid_after_gc. Qed.

Theorem c02_gc_output_reparses :
  forall (cf : config) (ver : str) (w : wmod) (s : pst) (m' : wir) (ilen : IR.wins -> N) 
           (e : emitted) (cf2 : config) (ver2 : str),
         valid_stream w ->
         parseM cf ver w = POk s ->
         gc (ps_m s) = Ok m' ->
         emitM m' ilen [] = Ok e -> exists s2 : pst, parseM cf2 ver2 (em_secs e) = POk s2.
Proof. exact gc_output_reparses. Qed.


(* ---- TYPE checking of the emitted bodies (Model/Typing.v, Proofs/TypingNf.v): the declarative stack typing of the WebAssembly
   specification over structured bodies, PARAMETRIC in the value types, the typing of the individual operators (any relation; return /
   unreachable stack-polymorphic) and the meaning of block types.  [ht] types a whole body; [hl] looks only at the code the round trip
   keeps (a sequence up to and including its first br / br_table / return / unreachable).
   - what the round trip emits for a body (nops and dead code dropped, `else` synthesised, block types canonical, operators re-encoded
     with renamed indices) is typeable whenever the input body is - for EVERY operator typing that is invariant under the renaming;
   - exactly: the emitted body is typeable IF AND ONLY IF the kept part of the input body is (so the round trip neither loses typeability
     nor depends on the dropped code). *)
From WV Require Import Model.ParseFn Model.ParseSpec Model.BodySpec Model.Sem Model.Typing Proofs.TypingNf.
Theorem c02_normal_form_preserves_typing :
  forall (T : Type) (t_i32 : T) (optype : IR.wins -> list T -> list T -> Prop) (opdead : IR.wins -> list T -> Prop)
         (params results : blockty -> list T) L l a b,
    ht T t_i32 optype opdead params results L l a b ->
    ht T t_i32 optype opdead params results L (fst (nf_rt_list false l)) a b.
Proof. exact nf_preserves_typing. Qed.

Theorem c02_emitted_body_typeable_iff_kept_input_typeable :
  forall (T : Type) (t_i32 : T) (optype : IR.wins -> list T -> list T -> Prop) (opdead : IR.wins -> list T -> Prop)
         (params results : blockty -> list T) L l a b,
    hl T t_i32 optype opdead params results L l a b <->
    ht T t_i32 optype opdead params results L (fst (nf_rt_list false l)) a b.
Proof. exact nf_typing_iff. Qed.

Theorem c02_declarative_typing_implies_kept_typing :
  forall (T : Type) (t_i32 : T) (optype : IR.wins -> list T -> list T -> Prop) (opdead : IR.wins -> list T -> Prop)
         (params results : blockty -> list T) L l a b,
    ht T t_i32 optype opdead params results L l a b -> hl T t_i32 optype opdead params results L l a b.
Proof. exact ht_hl. Qed.

(* on the RE-ENCODED operators and canonical block types of the output module (cf. c01_equivalence_on_the_renamed_operators) *)
Theorem c02_emitted_body_typing_on_the_renamed_operators :
  forall (T : Type) (t_i32 : T) (cx : pctx) (ecx : ectx)
         (optype optype' : IR.wins -> list T -> list T -> Prop) (opdead opdead' : IR.wins -> list T -> Prop)
         (params params' results results' : blockty -> list T),
    (forall o i r, optype' (nf_op cx ecx o) i r <-> optype (WOp o) i r) ->
    (forall o i, opdead' (nf_op cx ecx o) i <-> opdead (WOp o) i) ->
    (forall bt, params' (nf_bt cx ecx bt) = params bt) ->
    (forall bt, results' (nf_bt cx ecx bt) = results bt) ->
    forall L l a b,
    hl T t_i32 optype opdead params results L l a b <->
    ht T t_i32 (fun w => optype' (ren cx ecx w)) (fun w => opdead' (ren cx ecx w))
       (fun bt => params' (nf_bt cx ecx bt)) (fun bt => results' (nf_bt cx ecx bt)) L (fst (nf_rt_list false l)) a b.
Proof. intros T t_i32 cx ecx optype optype' opdead opdead' params params' results results'.
  exact (nf_typing_iff_renamed T t_i32 optype opdead params results cx ecx optype' opdead' params' results'). Qed.

(* non-vacuity: a body with a nop, an else-less if, dead code that is NOT typeable: kept part typeable, output typeable, input not *)
Theorem c02_typing_example :
  Example.ehl [] Example.ex_body [] [] /\ Example.eht [] (fst (nf_rt_list false Example.ex_body)) [] [] /\ ~ Example.eht [] Example.ex_body [] [].
Proof. exact (conj Example.ex_hl (conj Example.ex_nf_ht Example.ex_not_ht)). Qed.

(* ---- a VALIDATOR for the integer / memory core (Model/TypeCore.v: the standard algorithm on structured bodies - operand stack with unknowns,
   unreachable flag - over the 98 operators of Model/SemCore.v with their concrete signatures; Proofs/TypeCore.v):
   it decides exactly the declarative typing (given that the block types exist), and it ACCEPTS THE EMITTED BODY of every body it accepts.
   Compared with wasmparser's verdict on generated valid and deliberately type-broken bodies (Run/TypeCoreRun.v). *)
From WV Require Import Model.TypeCore Proofs.TypeCore.
Theorem c02_core_validator_decides_the_declarative_typing : forall e body,
  check_body e body = true <-> bts e body /\ cht e [te_results e] body [] (te_results e).
Proof. exact check_body_iff. Qed.

Theorem c02_core_validator_accepts_the_emitted_body : forall e body,
  check_body e body = true -> check_body e (fst (nf_rt_list false body)) = true.
Proof. exact check_body_nf. Qed.

Theorem c02_core_validator_sound_for_the_emitted_body : forall e body,
  check_body e body = true -> cht e [te_results e] (fst (nf_rt_list false body)) [] (te_results e).
Proof. exact check_body_nf_typed. Qed.

Print Assumptions c02_parsed_module_closed.
Print Assumptions c02_gc_keeps_closed.
Print Assumptions c02_closed_means_every_reference_indexed.
Print Assumptions c02_emit_total_after_parse.
Print Assumptions c02_emit_total_after_gc.
Print Assumptions c02_names_never_panic.
Print Assumptions c02_gc_corner_refuted.
Print Assumptions c02_body_emission_total.
Print Assumptions c02_emit_total_after_parse_no_body_premise.
Print Assumptions c02_emit_total_after_gc_no_body_premise.
Print Assumptions c02_index_bounds_needed.
Print Assumptions c02_parsed_bodies_never_panic_the_emitter.
Print Assumptions c02_emitted_stream_has_the_validator_guarantees.
Print Assumptions c02_gc_source_skeleton.
Print Assumptions c02_emitted_stream_after_gc_has_the_validator_guarantees.
Print Assumptions c02_gc_output_reparses.
Print Assumptions c02_normal_form_preserves_typing.
Print Assumptions c02_emitted_body_typeable_iff_kept_input_typeable.
Print Assumptions c02_declarative_typing_implies_kept_typing.
Print Assumptions c02_emitted_body_typing_on_the_renamed_operators.
Print Assumptions c02_typing_example.
Print Assumptions c02_core_validator_decides_the_declarative_typing.
Print Assumptions c02_core_validator_accepts_the_emitted_body.
Print Assumptions c02_core_validator_sound_for_the_emitted_body.

(* ---- TYPE SAFETY of the concrete machine (Model/SemCore.v) with respect to that validator (Proofs/TypeSafety.v): typing (C02) and
   semantics (C01) of a body tied together.  A body the validator accepts, run from the empty stack in a state whose locals / globals are
   bound to values of their declared types ([st_ok], identity slot maps, the type table of the environment), NEVER GOES WRONG (stack
   underflow, operand of the wrong type, unbound or ill-typed slot, wrong memory slot, operator outside the core: [Stop Wrong]) and is never
   [Stuck]; it falls through with exactly the results, branches to the function label / returns with the results on top, traps (a genuine
   WebAssembly trap) or runs out of fuel.  EVERY accepted body: blocks, loops, ifs, br / br_if / br_table with exact unwinding, dead code.
   The same for the emitted body (the normal form of the round trip). *)
From WV Require Import Model.Sem Model.SemCore Proofs.TypeSafety.
Theorem c02_accepted_bodies_never_go_wrong : forall (e : tenv) (body : list rt) (s0 : SemCore.st),
  check_body e body = true -> st_ok e s0 -> stk s0 = [] -> labs s0 = [] ->
  forall fuel : nat,
    match run_core id id id (tys_of e) fuel body s0 with
    | Fall s => st_ok e s /\ labs s = [] /\ has_types (stk s) (te_results e)
    | Br d s => st_ok e s /\ d = 0%nat /\ labs s = [] /\ exists vs rest, stk s = vs ++ rest /\ has_types vs (te_results e)
    | Stop Return s => st_ok e s /\ exists vs rest, stk s = vs ++ rest /\ has_types vs (te_results e)
    | Stop Trap s => st_ok e s
    | Stop Wrong _ => False
    | Stuck => False
    | Fuel => True
    end.
Proof. exact type_safety. Qed.

Theorem c02_emitted_bodies_never_go_wrong : forall (e : tenv) (body : list rt) (s0 : SemCore.st),
  check_body e body = true -> st_ok e s0 -> stk s0 = [] -> labs s0 = [] ->
  forall fuel : nat,
    match run_core id id id (tys_of e) fuel (fst (nf_rt_list false body)) s0 with
    | Fall s => st_ok e s /\ labs s = [] /\ has_types (stk s) (te_results e)
    | Br d s => st_ok e s /\ d = 0%nat /\ labs s = [] /\ exists vs rest, stk s = vs ++ rest /\ has_types vs (te_results e)
    | Stop Return s => st_ok e s /\ exists vs rest, stk s = vs ++ rest /\ has_types vs (te_results e)
    | Stop Trap s => st_ok e s
    | Stop Wrong _ => False
    | Stuck => False
    | Fuel => True
    end.
Proof. exact emitted_body_is_safe. Qed.

(* the per-operator fact behind it, for all 98 operators of the core *)
Theorem c02_core_operators_never_go_wrong : forall (e : tenv) (o : wop) (ins outs : list valty) (s : SemCore.st) (top rest : list val),
  core_optype e (WOp o) ins outs -> st_ok e s -> stk s = top ++ rest -> has_types top ins ->
  match core_sem (fun i => i) (fun i => i) (fun i => i) (WOp o) s with
  | Next s' => st_ok e s' /\ labs s' = labs s /\ exists vr, stk s' = vr ++ rest /\ has_types vr outs
  | Halt Trap s' => st_ok e s'
  | Halt _ _ => False
  end.
Proof. exact op_safe. Qed.

(* the premise [st_ok] is satisfiable by ANY assignment of values of the declared types *)
Theorem c02_well_typed_initial_states_exist : forall (e : tenv) (lv gv k : list val) (lb : list N) (m : list (N * N)) (p mx : N),
  Forall2 val_ty lv (te_locals e) -> Forall2 val_ty gv (map fst (te_globals e)) ->
  st_ok e {| stk := k; locs := bind_from 0 lv; globs := bind_from 0 gv; labs := lb; mem := m; pages := p; max_pages := mx |}.
Proof. exact st_ok_bind. Qed.

(* C01 + C02: the body AS EMITTED - normal form, every operator and block type re-encoded, i.e. the tree whose flattening is the emitted
   operator stream - run on the RENUMBERED slots and the OUTPUT type table never goes wrong either: it behaves exactly as the input body
   (c01_integer_core_instance).  Beyond acceptance only 32-bit offsets are asked (the model's validator does not bound the offset and
   walrus truncates it: c01_truncated_offset_changes_behaviour); alignment and decodability follow from acceptance. *)
From WV Require Import Proofs.Sem Proofs.ModFix10 Proofs.SemCore.
Theorem c02_emitted_renumbered_bodies_never_go_wrong :
  forall (cx : pctx) (ecx : ectx) (lslot' gslot' mslot' : N -> N) (tys' : N -> option (list valty * list valty))
         (e : tenv) (body : list rt) (s0 : SemCore.st),
  (forall i, lslot' (rl cx ecx i) = i) ->
  (forall i, gslot' (rg cx ecx i) = i) ->
  (forall i, mslot' (rm cx ecx i) = i) ->
  (forall i, tys_of e i = bt_tys cx (BT_Func i)) ->
  (forall i ps rs, tys_of e i = Some (ps, rs) -> existing cx ps rs <> None) ->
  (forall ps rs ty, find_type cx ps rs = Some ty -> tys' (ex_id2i ecx S_type ty) = Some (ps, rs)) ->
  check_body e body = true -> (forall o, In o (ops_of body) -> offset_ok o = true) ->
  st_ok e s0 -> stk s0 = [] -> labs s0 = [] ->
  forall fuel : nat,
    match run_core lslot' gslot' mslot' tys' fuel (map (ren_t cx ecx) (fst (nf_rt_list false body))) s0 with
    | Fall s => st_ok e s /\ labs s = [] /\ has_types (stk s) (te_results e)
    | Br d s => st_ok e s /\ d = 0%nat /\ labs s = [] /\ exists vs rest, stk s = vs ++ rest /\ has_types vs (te_results e)
    | Stop Return s => st_ok e s /\ exists vs rest, stk s = vs ++ rest /\ has_types vs (te_results e)
    | Stop Trap s => st_ok e s
    | Stop Wrong _ => False
    | Stuck => False
    | Fuel => True
    end.
Proof. exact emitted_renamed_body_is_safe. Qed.

Print Assumptions c02_accepted_bodies_never_go_wrong.
Print Assumptions c02_emitted_bodies_never_go_wrong.
Print Assumptions c02_core_operators_never_go_wrong.
Print Assumptions c02_well_typed_initial_states_exist.
Print Assumptions c02_emitted_renumbered_bodies_never_go_wrong.
