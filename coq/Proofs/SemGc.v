(* C06, behavioural half: removing the unreachable functions (and renumbering the kept ones) does not change behaviour, in the
   call semantics of Proofs/SemCalls.v.  [restrict keep M] preserves behaviour when the kept bodies and the state mention kept
   functions only ([closed_under], [state_closed]); [keep] := reachable from the exports and the initial state (an executable least
   fixpoint over a finite universe) meets these premises.  The operators must map keep-closed states to keep-closed states
   ([step_op_closed]): proved for the concrete operator set [cop], for EVERY keep. *)
From Coq Require Import List NArith Bool String Lia PeanoNat.
From WV Require Import Proofs.SemCalls.
Import ListNotations.
Local Open Scope N_scope.
Local Notation length := List.length.

Definition memN (x : N) (l : list N) : bool := existsb (N.eqb x) l.

Lemma memN_In x l : memN x l = true <-> In x l.
Proof.
  unfold memN. rewrite existsb_exists. split.
  - intros (y & Hy & E). apply N.eqb_eq in E. now subst.
  - intros H. exists x. split; [exact H|apply N.eqb_refl].
Qed.

Lemma filter_mono_length (p q : N -> bool) (l : list N) :
  (forall x, In x l -> p x = true -> q x = true) ->
  (length (filter p l) <= length (filter q l))%nat /\
  (length (filter p l) = length (filter q l) -> filter q l = filter p l).
Proof.
  induction l as [|a l IH]; intros H; [split; reflexivity|].
  destruct IH as [IH1 IH2]; [intros x Hx; apply H; now right|].
  cbn [filter]. pose proof (H a (or_introl eq_refl)) as Ha.
  destruct (p a) eqn:Pa.
  - rewrite (Ha eq_refl). cbn [length]. split; [lia|]. intros E. f_equal. apply IH2. lia.
  - destruct (q a); cbn [length]; split; try lia; auto.
Qed.

Lemma filter_length_le' (p : N -> bool) (l : list N) : (length (filter p l) <= length l)%nat.
Proof. induction l as [|a l IH]; cbn [filter length]; [lia|]. destruct (p a); cbn [length]; lia. Qed.

Definition value_refs (v : value) : list N := match v with VNum _ => [] | VFuncRef f => [f] end.
Definition slot_refs (o : option N) : list N := match o with Some f => [f] | None => [] end.
Definition state_refs (st : state) : list N :=
  flat_map value_refs (stack st) ++ flat_map slot_refs (table st) ++ flat_map value_refs (globals st).

Section Closed.
  Variable keep : N -> bool.

  Definition value_closed (v : value) : bool := match v with VNum _ => true | VFuncRef f => keep f end.
  Definition slot_closed (o : option N) : bool := match o with Some f => keep f | None => true end.
  Definition state_closedb (st : state) : bool :=
    forallb value_closed (stack st) && forallb slot_closed (table st) && forallb value_closed (globals st).
  Definition state_closed (st : state) : Prop := state_closedb st = true.

  Lemma state_closed_inv st :
    state_closed st ->
    forallb value_closed (stack st) = true /\ forallb slot_closed (table st) = true /\
    forallb value_closed (globals st) = true.
  Proof.
    unfold state_closed, state_closedb. intros H.
    apply andb_true_iff in H. destruct H as [H H3]. apply andb_true_iff in H. tauto.
  Qed.

  Lemma state_closed_intro s t g :
    forallb value_closed s = true -> forallb slot_closed t = true -> forallb value_closed g = true ->
    state_closed (mkState s t g).
  Proof. unfold state_closed, state_closedb. cbn [stack table globals]. now intros -> -> ->. Qed.

  Lemma state_closed_set_stack s st :
    forallb value_closed s = true -> state_closed st -> state_closed (set_stack s st).
  Proof.
    intros Hs H. destruct (state_closed_inv st H) as (_ & Ht & Hg).
    unfold set_stack. now apply state_closed_intro.
  Qed.

  Lemma state_closed_of_refs st :
    (forall f, In f (state_refs st) -> keep f = true) -> state_closed st.
  Proof.
    intros H. destruct st as [s t g]. unfold state_refs in H. cbn [stack table globals] in H.
    apply state_closed_intro; apply forallb_forall.
    - intros [n|f] Hv; [reflexivity|]. apply H. apply in_or_app. left.
      apply in_flat_map. exists (VFuncRef f). split; [exact Hv|now left].
    - intros [f|] Hv; [|reflexivity]. apply H. apply in_or_app. right. apply in_or_app. left.
      apply in_flat_map. exists (Some f). split; [exact Hv|now left].
    - intros [n|f] Hv; [reflexivity|]. apply H. apply in_or_app. right. apply in_or_app. right.
      apply in_flat_map. exists (VFuncRef f). split; [exact Hv|now left].
  Qed.

  Lemma state_refs_of_closed st f :
    state_closed st -> In f (state_refs st) -> keep f = true.
  Proof.
    intros H Hf. destruct (state_closed_inv st H) as (Hs & Ht & Hg).
    unfold state_refs in Hf. rewrite !in_app_iff, !in_flat_map in Hf.
    destruct Hf as [(v & Hv & Hin)|[(v & Hv & Hin)|(v & Hv & Hin)]].
    - rewrite forallb_forall in Hs. specialize (Hs v Hv). destruct v; cbn in Hin; [tauto|].
      destruct Hin as [<-|[]]. exact Hs.
    - rewrite forallb_forall in Ht. specialize (Ht v Hv). destruct v; cbn in Hin; [|tauto].
      destruct Hin as [<-|[]]. exact Ht.
    - rewrite forallb_forall in Hg. specialize (Hg v Hv). destruct v; cbn in Hin; [tauto|].
      destruct Hin as [<-|[]]. exact Hg.
  Qed.

  Definition res_closed (r : res) : Prop :=
    match r with RNormal s | RBr _ s | RReturn s => state_closed s | RTrap | ROOF => True end.
  Definition outcome_closed (o : outcome) : Prop :=
    match o with Done s => state_closed s | Trap | OutOfFuel => True end.

  Lemma fn_exit_closed r : res_closed r -> outcome_closed (fn_exit r).
  Proof. destruct r as [s|[|l] s|s| |]; cbn; auto. Qed.
End Closed.

Section SemGc.
  Variable op : Type.
  Variable step_op : op -> state -> option state.

  Fixpoint instr_refs (i : instr op) : list N :=
    match i with
    | ICall f => [f]
    | IRefFunc f => [f]
    | IBlock b => flat_map instr_refs b
    | ILoop b => flat_map instr_refs b
    | IIf t e => flat_map instr_refs t ++ flat_map instr_refs e
    | _ => []
    end.
  Definition body_refs (b : body op) : list N := flat_map instr_refs b.

  Section Keep.
    Variable keep : N -> bool.

    Definition body_closed (b : body op) : bool := forallb keep (body_refs b).
    Definition closed_under (M : module op) : Prop :=
      forall f b, keep f = true -> funcs op M f = Some b -> body_closed b = true.

    Definition restrict (M : module op) : module op :=
      mkModule op
        (fun f => if keep f then funcs op M f else None)
        (fun n => match exports op M n with
                  | Some f => if keep f then Some f else None
                  | None => None
                  end).

    Lemma restrict_dropped M f : keep f = false -> funcs op (restrict M) f = None.
    Proof. intros H. cbn [funcs restrict]. now rewrite H. Qed.
    Lemma restrict_kept M f : keep f = true -> funcs op (restrict M) f = funcs op M f.
    Proof. intros H. cbn [funcs restrict]. now rewrite H. Qed.
    Lemma restrict_exports_kept M n f : exports op (restrict M) n = Some f -> keep f = true /\ exports op M n = Some f.
    Proof.
      cbn [exports restrict]. destruct (exports op M n) as [g|]; [|discriminate].
      destruct (keep g) eqn:E; [|discriminate]. intros H. injection H as <-. auto.
    Qed.

    Lemma body_closed_cons i rest :
      body_closed (i :: rest) = forallb keep (instr_refs i) && body_closed rest.
    Proof. unfold body_closed, body_refs. cbn [flat_map]. apply forallb_app. Qed.

    (* the per-operator interface: a non-call operator cannot invent a function reference *)
    Hypothesis step_op_closed :
      forall o st st', state_closed keep st -> step_op o st = Some st' -> state_closed keep st'.

    Notation sc := (state_closed keep).
    Notation rc := (res_closed keep).

    Lemma do_call_restrict M (HM : closed_under M) (ex ex' : body op -> state -> res)
          (Hex : forall b st, body_closed b = true -> sc st -> ex' b st = ex b st /\ rc (ex b st))
          f rest st :
      keep f = true -> body_closed rest = true -> sc st ->
      do_call op ex' (restrict M) f rest st = do_call op ex M f rest st /\ rc (do_call op ex M f rest st).
    Proof.
      intros Hf Hr Hs. unfold do_call. rewrite (restrict_kept M f Hf).
      destruct (funcs op M f) as [fb|] eqn:E; [|split; [reflexivity|exact I]].
      destruct (Hex fb st (HM f fb Hf E) Hs) as [E1 C1]. rewrite E1.
      destruct (ex fb st) as [s|[|l] s|s| |]; cbn [fn_exit res_closed] in *;
        try (split; [reflexivity|exact I]); apply Hex; assumption.
    Qed.

    Lemma exec_restrict M (HM : closed_under M) : forall fuel b st,
      body_closed b = true -> sc st ->
      exec op step_op fuel (restrict M) b st = exec op step_op fuel M b st
      /\ rc (exec op step_op fuel M b st).
    Proof.
      induction fuel as [|k IH]; intros b st Hb Hs; [split; [reflexivity|exact I]|].
      destruct b as [|i rest]; [split; [reflexivity|exact Hs]|].
      pose proof Hb as Hb0.
      rewrite body_closed_cons in Hb. apply andb_true_iff in Hb. destruct Hb as [Hi Hr].
      destruct (state_closed_inv keep st Hs) as (Hst & Htb & Hgl).
      pose proof (do_call_restrict M HM (exec op step_op k M) (exec op step_op k (restrict M)) IH) as DC.
      destruct i as [f|f| | |o|b1|b1|t e|l|l| ]; cbn [exec].
      - (* call *) cbn [instr_refs forallb] in Hi. rewrite andb_true_r in Hi. now apply DC.
      - (* ref.func *) cbn [instr_refs forallb] in Hi. rewrite andb_true_r in Hi.
        apply IH; [exact Hr|]. apply state_closed_set_stack; [|exact Hs].
        cbn [forallb value_closed]. now rewrite Hi, Hst.
      - (* call_ref *)
        destruct (stack st) as [|[n|g] s]; try (split; [reflexivity|exact I]).
        cbn [forallb value_closed] in Hst. apply andb_true_iff in Hst. destruct Hst as [Hg Hs'].
        apply DC; [exact Hg|exact Hr|]. now apply state_closed_set_stack.
      - (* call_indirect *)
        destruct (stack st) as [|[n|g] s]; try (split; [reflexivity|exact I]).
        cbn [forallb value_closed] in Hst.
        destruct (nth_error (table st) (N.to_nat n)) as [[g|]|] eqn:En; try (split; [reflexivity|exact I]).
        apply nth_error_In in En. rewrite forallb_forall in Htb. specialize (Htb _ En).
        apply DC; [exact Htb|exact Hr|]. now apply state_closed_set_stack.
      - (* other *)
        destruct (step_op o st) as [st1|] eqn:Eo; [|split; [reflexivity|exact I]].
        apply IH; [exact Hr|]. exact (step_op_closed o st st1 Hs Eo).
      - (* block *)
        change (body_closed b1 = true) in Hi.
        destruct (IH b1 st Hi Hs) as [E1 C1]. rewrite E1.
        destruct (exec op step_op k M b1 st) as [s1|[|l] s1|s1| |]; cbn [res_closed] in *;
          try (split; [reflexivity|assumption]); now apply IH.
      - (* loop *)
        change (body_closed b1 = true) in Hi.
        destruct (IH b1 st Hi Hs) as [E1 C1]. rewrite E1.
        destruct (exec op step_op k M b1 st) as [s1|[|l] s1|s1| |]; cbn [res_closed] in *;
          try (split; [reflexivity|assumption]); now apply IH.
      - (* if *)
        destruct (stack st) as [|[c|g] s]; try (split; [reflexivity|exact I]).
        cbn [forallb value_closed] in Hst.
        cbn [instr_refs] in Hi. rewrite forallb_app in Hi. apply andb_true_iff in Hi. destruct Hi as [Ht He].
        apply IH; [|now apply state_closed_set_stack].
        rewrite body_closed_cons, Hr, andb_true_r.
        destruct (c =? 0); assumption.
      - (* br *) split; [reflexivity|exact Hs].
      - (* br_if *)
        destruct (stack st) as [|[c|g] s]; try (split; [reflexivity|exact I]).
        cbn [forallb value_closed] in Hst.
        destruct (c =? 0); [apply IH; [exact Hr|now apply state_closed_set_stack]|].
        split; [reflexivity|]. cbn [res_closed]. now apply state_closed_set_stack.
      - (* return *) split; [reflexivity|exact Hs].
    Qed.

    Theorem restrict_preserves_behaviour : forall fuel M f st,
      closed_under M -> sc st -> keep f = true ->
      run op step_op fuel (restrict M) f st = run op step_op fuel M f st.
    Proof.
      intros fuel M f st HM Hs Hf. unfold run. rewrite (restrict_kept M f Hf).
      destruct (funcs op M f) as [b|] eqn:E; [|reflexivity].
      now destruct (exec_restrict M HM fuel b st (HM f b Hf E) Hs) as [-> _].
    Qed.

    Theorem run_closed : forall fuel M f st,
      closed_under M -> sc st -> keep f = true ->
      outcome_closed keep (run op step_op fuel M f st).
    Proof.
      intros fuel M f st HM Hs Hf. unfold run.
      destruct (funcs op M f) as [b|] eqn:E; [|exact I].
      apply fn_exit_closed. now destruct (exec_restrict M HM fuel b st (HM f b Hf E) Hs).
    Qed.

    (* exported entry points: the export table of [restrict M] still has every kept export *)
    Theorem run_export_restrict : forall fuel M n st,
      closed_under M -> sc st -> (forall f, exports op M n = Some f -> keep f = true) ->
      run_export op step_op fuel (restrict M) n st = run_export op step_op fuel M n st.
    Proof.
      intros fuel M n st HM Hs Hn. unfold run_export. cbn [exports restrict].
      destruct (exports op M n) as [f|]; [|reflexivity].
      rewrite (Hn f eq_refl). apply restrict_preserves_behaviour; auto.
    Qed.

    Theorem run_export_closed : forall fuel M n st,
      closed_under M -> sc st -> (forall f, exports op M n = Some f -> keep f = true) ->
      outcome_closed keep (run_export op step_op fuel M n st).
    Proof.
      intros fuel M n st HM Hs Hn. unfold run_export.
      destruct (exports op M n) as [f|]; [|exact I]. now apply run_closed; auto.
    Qed.

    Fixpoint run_exports (fuel : nat) (M : module op) (ns : list string) (st : state) : outcome :=
      match ns with
      | [] => Done st
      | n :: ns' =>
          match run_export op step_op fuel M n st with
          | Done s => run_exports fuel M ns' s
          | o => o
          end
      end.

    Theorem run_exports_sequence : forall fuel M ns st,
      closed_under M -> sc st ->
      (forall n f, In n ns -> exports op M n = Some f -> keep f = true) ->
      run_exports fuel (restrict M) ns st = run_exports fuel M ns st
      /\ outcome_closed keep (run_exports fuel M ns st).
    Proof.
      intros fuel M ns. induction ns as [|n ns IH]; intros st HM Hs Hk; [split; [reflexivity|exact Hs]|].
      cbn [run_exports].
      assert (Hn : forall f, exports op M n = Some f -> keep f = true) by (intros f; apply Hk; now left).
      rewrite (run_export_restrict fuel M n st HM Hs Hn).
      pose proof (run_export_closed fuel M n st HM Hs Hn) as C.
      destruct (run_export op step_op fuel M n st) as [s| |]; try (split; [reflexivity|exact I]).
      apply IH; auto. intros n' f Hin. apply Hk. now right.
    Qed.

    Fixpoint run_funcs (fuel : nat) (M : module op) (fs : list N) (st : state) : outcome :=
      match fs with
      | [] => Done st
      | f :: fs' =>
          match run op step_op fuel M f st with
          | Done s => run_funcs fuel M fs' s
          | o => o
          end
      end.

    Theorem run_funcs_sequence : forall fuel M fs st,
      closed_under M -> sc st -> forallb keep fs = true ->
      run_funcs fuel (restrict M) fs st = run_funcs fuel M fs st
      /\ outcome_closed keep (run_funcs fuel M fs st).
    Proof.
      intros fuel M fs. induction fs as [|f fs IH]; intros st HM Hs Hk; [split; [reflexivity|exact Hs]|].
      cbn [run_funcs forallb] in *. apply andb_true_iff in Hk. destruct Hk as [Hf Hk].
      rewrite (restrict_preserves_behaviour fuel M f st HM Hs Hf).
      pose proof (run_closed fuel M f st HM Hs Hf) as C.
      destruct (run op step_op fuel M f st) as [s| |]; try (split; [reflexivity|exact I]).
      now apply IH.
    Qed.

    Section Rename.
      Variables rho rho_inv : N -> N.
      Hypothesis rho_left_inv : forall f, rho_inv (rho f) = f.
      Hypothesis step_op_rename :
        forall o st, step_op o (rename_state rho st) = option_map (rename_state rho) (step_op o st).

      Theorem gc_preserves_behaviour : forall fuel M f st,
        closed_under M -> sc st -> keep f = true ->
        run op step_op fuel (rename_module op rho rho_inv (restrict M)) (rho f) (rename_state rho st)
        = rename_outcome rho (run op step_op fuel M f st).
      Proof.
        intros fuel M f st HM Hs Hf.
        rewrite (rename_preserves_behaviour op step_op rho rho_inv rho_left_inv step_op_rename).
        now rewrite restrict_preserves_behaviour.
      Qed.

      Theorem gc_preserves_export_behaviour : forall fuel M n st,
        closed_under M -> sc st -> (forall f, exports op M n = Some f -> keep f = true) ->
        run_export op step_op fuel (rename_module op rho rho_inv (restrict M)) n (rename_state rho st)
        = rename_outcome rho (run_export op step_op fuel M n st).
      Proof.
        intros fuel M n st HM Hs Hn.
        rewrite (export_call_same_behaviour op step_op rho rho_inv rho_left_inv step_op_rename).
        now rewrite run_export_restrict.
      Qed.

      Lemma run_exports_rename : forall fuel M ns st,
        run_exports fuel (rename_module op rho rho_inv M) ns (rename_state rho st)
        = rename_outcome rho (run_exports fuel M ns st).
      Proof.
        intros fuel M ns. induction ns as [|n ns IH]; intros st; [reflexivity|]. cbn [run_exports].
        rewrite (export_call_same_behaviour op step_op rho rho_inv rho_left_inv step_op_rename).
        destruct (run_export op step_op fuel M n st); cbn [rename_outcome]; [apply IH|reflexivity|reflexivity].
      Qed.

      Theorem gc_preserves_exports_sequence : forall fuel M ns st,
        closed_under M -> sc st -> (forall n f, In n ns -> exports op M n = Some f -> keep f = true) ->
        run_exports fuel (rename_module op rho rho_inv (restrict M)) ns (rename_state rho st)
        = rename_outcome rho (run_exports fuel M ns st).
      Proof. intros fuel M ns st HM Hs Hk. rewrite run_exports_rename. now rewrite (proj1 (run_exports_sequence fuel M ns st HM Hs Hk)). Qed.
    End Rename.
  End Keep.
End SemGc.

Section Reach.
  Variable op : Type.
  Variable univ : list N.            (* the finite function index range, e.g. [0, n) *)
  Variable M : module op.

  Definition succs (f : N) : list N :=
    match funcs op M f with Some b => body_refs op b | None => [] end.

  Definition step_pred (S : list N) (g : N) : bool :=
    memN g S || existsb (fun f => memN g (succs f)) S.
  Definition rstep (S : list N) : list N := filter (step_pred S) univ.

  Fixpoint iter (k : nat) (S : list N) : list N :=
    match k with O => S | Datatypes.S k' => iter k' (rstep S) end.

  (* [length univ] rounds suffice: a round that is not yet stable adds an element of [univ] ([rstep_grows], [iter_stable]) *)
  Definition reach (roots : list N) : list N :=
    iter (length univ) (filter (fun g => memN g roots) univ).

  Definition is_sub (S : list N) : Prop := S = filter (fun g => memN g S) univ.

  Lemma filter_is_sub p : is_sub (filter p univ).
  Proof.
    unfold is_sub. apply filter_ext_in. intros a Ha.
    destruct (p a) eqn:Pa.
    - symmetry. apply memN_In. apply filter_In. now split.
    - destruct (memN a (filter p univ)) eqn:E; [|reflexivity].
      apply memN_In in E. apply filter_In in E. destruct E as [_ E]. congruence.
  Qed.

  Lemma rstep_grows S :
    is_sub S ->
    (length S <= length (rstep S))%nat /\ (length S = length (rstep S) -> rstep S = S).
  Proof.
    intros H.
    destruct (filter_mono_length (fun g => memN g S) (step_pred S) univ) as [A B].
    { intros x _ Hx. unfold step_pred. now rewrite Hx. }
    rewrite <- H in A, B. exact (conj A B).
  Qed.

  Lemma iter_fix k S : rstep S = S -> iter k S = S.
  Proof. intros H. induction k as [|k IH]; cbn [iter]; [reflexivity|]. now rewrite H. Qed.

  Lemma iter_stable : forall k S,
    is_sub S -> (length univ <= length S + k)%nat -> rstep (iter k S) = iter k S.
  Proof.
    induction k as [|k IH]; intros S HS Hl; cbn [iter]; destruct (rstep_grows S HS) as [A B].
    - apply B. pose proof (filter_length_le' (step_pred S) univ) as L. fold (rstep S) in L. lia.
    - destruct (Nat.eq_dec (length S) (length (rstep S))) as [E|NE].
      + specialize (B E). rewrite B. now rewrite (iter_fix k S B).
      + apply IH; [apply filter_is_sub|lia].
  Qed.

  Lemma reach_stable roots : rstep (reach roots) = reach roots.
  Proof. unfold reach. apply iter_stable; [apply filter_is_sub|lia]. Qed.

  Lemma rstep_incl S g : In g univ -> In g S -> In g (rstep S).
  Proof.
    intros Hu Hg. apply filter_In. split; [exact Hu|].
    unfold step_pred. apply memN_In in Hg. now rewrite Hg.
  Qed.

  Lemma iter_incl : forall k S g, In g univ -> In g S -> In g (iter k S).
  Proof.
    induction k as [|k IH]; intros S g Hu Hg; cbn [iter]; [exact Hg|].
    apply IH; [exact Hu|]. now apply rstep_incl.
  Qed.

  Lemma reach_roots roots g : In g univ -> In g roots -> In g (reach roots).
  Proof.
    intros Hu Hg. unfold reach. apply iter_incl; [exact Hu|].
    apply filter_In. split; [exact Hu|]. now apply memN_In.
  Qed.

  Lemma reach_succ roots f g :
    In f (reach roots) -> In g (succs f) -> In g univ -> In g (reach roots).
  Proof.
    intros Hf Hg Hu. rewrite <- reach_stable. apply filter_In. split; [exact Hu|].
    unfold step_pred. apply orb_true_iff. right. apply existsb_exists.
    exists f. split; [exact Hf|now apply memN_In].
  Qed.

  (* it is the LEAST such set: anything containing the roots and closed under [succs] contains it *)
  Lemma iter_least (P : N -> Prop) :
    (forall f g, P f -> In g (succs f) -> P g) ->
    forall k S, (forall g, In g S -> P g) -> forall g, In g (iter k S) -> P g.
  Proof.
    intros HP. induction k as [|k IH]; intros S HS g Hg; cbn [iter] in Hg; [now apply HS|].
    apply (IH (rstep S)); [|exact Hg].
    intros g' Hg'. apply filter_In in Hg'. destruct Hg' as [_ Hg'].
    unfold step_pred in Hg'. apply orb_true_iff in Hg'. destruct Hg' as [Hg'|Hg'].
    - apply HS. now apply memN_In.
    - apply existsb_exists in Hg'. destruct Hg' as (f & Hf & Hfg). apply memN_In in Hfg.
      exact (HP f g' (HS f Hf) Hfg).
  Qed.

  Theorem reach_least roots (P : N -> Prop) :
    (forall g, In g roots -> P g) -> (forall f g, P f -> In g (succs f) -> P g) ->
    forall g, In g (reach roots) -> P g.
  Proof.
    intros HR HP g Hg. unfold reach in Hg. apply (iter_least P HP _ _) in Hg; [exact Hg|].
    intros g' Hg'. apply filter_In in Hg'. destruct Hg' as [_ Hg']. apply HR. now apply memN_In.
  Qed.

  Definition export_roots (names : list string) : list N :=
    flat_map (fun n => slot_refs (exports op M n)) names.
  Definition roots_of (names : list string) (st0 : state) : list N :=
    export_roots names ++ state_refs st0.

  Definition reachable (names : list string) (st0 : state) (g : N) : bool :=
    memN g (reach (roots_of names st0)).

  (* well-formedness: the module and the initial state only mention indices of the universe
     (what validation guarantees with univ = [0, number of functions)) *)
  Definition refs_in_univ : Prop :=
    forall f b g, funcs op M f = Some b -> In g (body_refs op b) -> In g univ.

  (* only the reachable functions need to be well-formed *)
  Theorem reachable_is_closed_weak names st0 :
    let keep := reachable names st0 in
    (forall f b g, keep f = true -> funcs op M f = Some b -> In g (body_refs op b) -> In g univ) ->
    (forall g, In g (roots_of names st0) -> In g univ) ->
    closed_under op keep M /\ state_closed keep st0 /\
    (forall n f, In n names -> exports op M n = Some f -> keep f = true).
  Proof.
    intros keep Hwf Hroots. subst keep. unfold reachable in *. split; [|split].
    - intros f b Hf E. apply forallb_forall. intros g Hg. apply memN_In.
      pose proof (Hwf f b g Hf E Hg) as Hu. apply memN_In in Hf.
      apply (reach_succ _ f g Hf); [unfold succs; now rewrite E|exact Hu].
    - apply state_closed_of_refs. intros f Hf. apply memN_In.
      assert (Hr : In f (roots_of names st0)) by (apply in_or_app; now right).
      apply reach_roots; [now apply Hroots|exact Hr].
    - intros n f Hn E. apply memN_In.
      assert (Hr : In f (roots_of names st0)).
      { apply in_or_app. left. apply in_flat_map. exists n. split; [exact Hn|]. rewrite E. now left. }
      apply reach_roots; [now apply Hroots|exact Hr].
  Qed.

  Theorem reachable_is_closed names st0 :
    refs_in_univ ->
    (forall g, In g (roots_of names st0) -> In g univ) ->
    let keep := reachable names st0 in
    closed_under op keep M /\ state_closed keep st0 /\
    (forall n f, In n names -> exports op M n = Some f -> keep f = true).
  Proof. intros Hwf Hroots. apply reachable_is_closed_weak; [|exact Hroots]. intros f b g _. apply Hwf. Qed.

  (* a reachable function really is reachable: root, or mentioned by a reachable one *)
  Theorem reachable_sound names st0 (P : N -> Prop) :
    (forall g, In g (roots_of names st0) -> P g) ->
    (forall f g, P f -> In g (succs f) -> P g) ->
    forall g, reachable names st0 g = true -> P g.
  Proof. intros HR HP g Hg. apply memN_In in Hg. exact (reach_least _ P HR HP g Hg). Qed.
End Reach.

Definition range (n : nat) : list N := map N.of_nat (seq 0 n).
Lemma range_In n g : In g (range n) <-> g < N.of_nat n.
Proof.
  unfold range. rewrite in_map_iff. split.
  - intros (k & <- & Hk). apply in_seq in Hk. lia.
  - intros H. exists (N.to_nat g). split; [apply N2Nat.id|]. apply in_seq. lia.
Qed.

Section GcReachable.
  Variable op : Type.
  Variable step_op : op -> state -> option state.
  Variable n : nat.
  Variable M : module op.
  Variable names : list string.
  Variable st0 : state.
  Let keep := reachable op (range n) M names st0.

  Hypothesis step_op_closed :
    forall o st st', state_closed keep st -> step_op o st = Some st' -> state_closed keep st'.
  Hypothesis wf_bodies : forall f b g, funcs op M f = Some b -> In g (body_refs op b) -> g < N.of_nat n.
  Hypothesis wf_roots : forall g, In g (roots_of op M names st0) -> g < N.of_nat n.

  Variables rho rho_inv : N -> N.
  Hypothesis rho_left_inv : forall f, rho_inv (rho f) = f.
  Hypothesis step_op_rename :
    forall o st, step_op o (rename_state rho st) = option_map (rename_state rho) (step_op o st).

  Let gcM := rename_module op rho rho_inv (restrict op keep M).

  Lemma gc_reachable_premises :
    closed_under op keep M /\ state_closed keep st0 /\
    (forall nm f, In nm names -> exports op M nm = Some f -> keep f = true).
  Proof.
    apply reachable_is_closed.
    - intros f b g E Hg. apply range_In. exact (wf_bodies f b g E Hg).
    - intros g Hg. apply range_In. exact (wf_roots g Hg).
  Qed.

  Theorem gc_reachable_export : forall fuel nm,
    In nm names ->
    run_export op step_op fuel gcM nm (rename_state rho st0)
    = rename_outcome rho (run_export op step_op fuel M nm st0).
  Proof.
    intros fuel nm Hn. destruct gc_reachable_premises as (HM & Hs & Hx).
    apply (gc_preserves_export_behaviour op step_op keep step_op_closed rho rho_inv rho_left_inv step_op_rename);
      auto. intros f. now apply Hx.
  Qed.

  Theorem gc_reachable_exports_sequence : forall fuel ns,
    (forall nm, In nm ns -> In nm names) ->
    run_exports op step_op fuel gcM ns (rename_state rho st0)
    = rename_outcome rho (run_exports op step_op fuel M ns st0).
  Proof.
    intros fuel ns Hns. destruct gc_reachable_premises as (HM & Hs & Hx).
    apply (gc_preserves_exports_sequence op step_op keep step_op_closed rho rho_inv rho_left_inv step_op_rename); auto.
    intros nm f Hin. apply Hx, Hns, Hin.
  Qed.
End GcReachable.

Lemma upd_forallb {A} (p : A -> bool) : forall (l : list A) (k : nat) (x : A) l',
  forallb p l = true -> p x = true -> upd l k x = Some l' -> forallb p l' = true.
Proof.
  induction l as [|a l IH]; intros [|k] x l' Hl Hx H; cbn [upd] in H; try discriminate.
  - injection H as <-. cbn [forallb] in *. apply andb_true_iff in Hl. now rewrite Hx.
  - destruct (upd l k x) as [l1|] eqn:E; [|discriminate]. injection H as <-.
    cbn [forallb] in *. apply andb_true_iff in Hl. destruct Hl as [Ha Hl].
    rewrite Ha. exact (IH k x l1 Hl Hx E).
Qed.

(* holds for EVERY keep: these operators only move references around *)
Lemma cstep_closed (keep : N -> bool) : forall o st st',
  state_closed keep st -> cstep o st = Some st' -> state_closed keep st'.
Proof.
  intros o [s t g] st' Hc H. destruct (state_closed_inv keep _ Hc) as (Hs & Ht & Hg).
  cbn [stack table globals] in Hs, Ht, Hg.
  destruct o; cbn [cstep stack table globals set_stack] in H.
  - injection H as <-. now apply state_closed_intro.
  - destruct s as [|[a|a] [|[b|b] s]]; try discriminate. injection H as <-.
    cbn [forallb value_closed] in Hs. now apply state_closed_intro.
  - destruct s as [|v s]; try discriminate. injection H as <-.
    cbn [forallb] in Hs. apply andb_true_iff in Hs. now apply state_closed_intro.
  - destruct s as [|v s]; try discriminate. injection H as <-.
    cbn [forallb] in Hs. apply andb_true_iff in Hs. destruct Hs as [Hv Hs].
    apply state_closed_intro; auto. cbn [forallb]. now rewrite Hv, Hs.
  - destruct s as [|[a|f] [|[ix|b] s]]; try discriminate.
    destruct (upd t (N.to_nat ix) (Some f)) as [t'|] eqn:E; [|discriminate]. injection H as <-.
    cbn [forallb value_closed] in Hs. apply andb_true_iff in Hs. destruct Hs as [Hf Hs].
    apply state_closed_intro; auto. exact (upd_forallb _ t _ (Some f) t' Ht Hf E).
  - destruct s as [|[ix|f] s]; try discriminate.
    destruct (nth_error t (N.to_nat ix)) as [[f|]|] eqn:E; try discriminate. injection H as <-.
    cbn [forallb value_closed] in Hs. apply nth_error_In in E.
    pose proof (proj1 (forallb_forall _ _) Ht _ E) as Hk. cbn [slot_closed] in Hk.
    apply state_closed_intro; auto. cbn [forallb value_closed]. now rewrite Hk, Hs.
  - destruct s as [|v s]; try discriminate. destruct g as [|g0 gs]; try discriminate. injection H as <-.
    cbn [forallb] in Hs, Hg. apply andb_true_iff in Hs. destruct Hs as [Hv Hs].
    apply andb_true_iff in Hg. destruct Hg as [_ Hg].
    apply state_closed_intro; auto. cbn [forallb]. now rewrite Hv, Hg.
  - destruct s as [|v s]; try discriminate. injection H as <-.
    cbn [forallb] in Hs. apply andb_true_iff in Hs. destruct Hs as [_ Hs].
    apply state_closed_intro; auto.
Qed.

(* an operator that invents a reference breaks the interface: `i32 -> funcref` cast *)
Definition forge_step (_ : unit) (st : state) : option state :=
  match stack st with
  | VNum f :: s => Some (set_stack (VFuncRef f :: s) st)
  | _ => None
  end.
Theorem forging_op_violates_interface :
  exists (keep : N -> bool) st st',
    state_closed keep st /\ forge_step tt st = Some st' /\ ~ state_closed keep st'.
Proof.
  exists (fun f => f =? 0), (mkState [VNum 1] [] []), (mkState [VFuncRef 1] [] []).
  repeat split. vm_compute. discriminate.
Qed.

(* the theorems, instantiated: no interface hypothesis left *)
Theorem restrict_preserves_behaviour_cop (keep : N -> bool) : forall fuel (M : module cop) f st,
  closed_under cop keep M -> state_closed keep st -> keep f = true ->
  run cop cstep fuel (restrict cop keep M) f st = run cop cstep fuel M f st.
Proof. apply restrict_preserves_behaviour. apply cstep_closed. Qed.

Theorem gc_preserves_behaviour_cop (keep : N -> bool) (rho rho_inv : N -> N) :
  (forall f, rho_inv (rho f) = f) ->
  forall fuel (M : module cop) f st,
    closed_under cop keep M -> state_closed keep st -> keep f = true ->
    run cop cstep fuel (rename_module cop rho rho_inv (restrict cop keep M)) (rho f) (rename_state rho st)
    = rename_outcome rho (run cop cstep fuel M f st).
Proof.
  intros H. apply gc_preserves_behaviour; [apply cstep_closed|exact H|apply cstep_rename].
Qed.

Theorem gc_reachable_exports_sequence_cop (n : nat) (M : module cop) names st0 (rho rho_inv : N -> N) :
  (forall f b g, funcs cop M f = Some b -> In g (body_refs cop b) -> g < N.of_nat n) ->
  (forall g, In g (roots_of cop M names st0) -> g < N.of_nat n) ->
  (forall f, rho_inv (rho f) = f) ->
  forall fuel ns, (forall nm, In nm ns -> In nm names) ->
    run_exports cop cstep fuel
      (rename_module cop rho rho_inv (restrict cop (reachable cop (range n) M names st0) M))
      ns (rename_state rho st0)
    = rename_outcome rho (run_exports cop cstep fuel M ns st0).
Proof.
  intros Hb Hr Hinv. apply gc_reachable_exports_sequence; auto.
  - apply cstep_closed.
  - apply cstep_rename.
Qed.

(* the example module of SemCalls, plus
     f3: unreachable, calls the undefined function 9;
     f4: unreachable, referenced only by itself (ref.func 4; drop; call 4) *)
Definition dead_f3 : body cop := [ICall 9].
Definition dead_f4 : body cop := [IRefFunc 4; IOther ODrop; ICall 4].
Definition gc_M : module cop :=
  mkModule cop
    (fun f => match f with 3 => Some dead_f3 | 4 => Some dead_f4 | f => funcs cop ex_M f end)
    (exports cop ex_M).
Definition gc_names : list string := ["main"%string; "helper"%string].
Definition gc_keep : N -> bool := reachable cop (range 10) gc_M gc_names ex_st.

Example gc_reach_computed :
  reach cop (range 10) gc_M (roots_of cop gc_M gc_names ex_st) = [0; 1; 2].
Proof. vm_compute. reflexivity. Qed.
Example gc_keep_computed :
  map gc_keep (range 6) = [true; true; true; false; false; false].
Proof. vm_compute. reflexivity. Qed.

(* the dead functions are really gone, the dead ones really misbehave in the original *)
Example gc_dropped :
  funcs cop (restrict cop gc_keep gc_M) 3 = None /\ funcs cop (restrict cop gc_keep gc_M) 4 = None /\
  funcs cop gc_M 3 = Some dead_f3 /\ funcs cop gc_M 4 = Some dead_f4 /\
  run cop cstep 50 gc_M 3 ex_st = Trap /\ run cop cstep 50 gc_M 4 ex_st = OutOfFuel.
Proof. vm_compute. repeat split; reflexivity. Qed.

Definition gc_M' : module cop := rename_module cop sigma sigma_inv (restrict cop gc_keep gc_M).

Example gc_both_sides :
  run cop cstep 50 gc_M' (sigma 0) (rename_state sigma ex_st)
  = rename_outcome sigma (run cop cstep 50 gc_M 0 ex_st).
Proof. vm_compute. reflexivity. Qed.
Example gc_value :
  run cop cstep 50 gc_M' (sigma 0) (rename_state sigma ex_st)
  = Done (mkState [VFuncRef 1; VNum 0; VNum 15] [Some 0; Some 0] [VFuncRef 0]).
Proof. vm_compute. reflexivity. Qed.
Example gc_both_sides_sequence :
  run_exports cop cstep 50 gc_M' ["helper"%string; "helper"%string; "main"%string]
              (rename_state sigma (mkState [VNum 1] [Some 1; None] [VNum 0]))
  = rename_outcome sigma
      (run_exports cop cstep 50 gc_M ["helper"%string; "helper"%string; "main"%string]
                   (mkState [VNum 1] [Some 1; None] [VNum 0])).
Proof. vm_compute. reflexivity. Qed.
Example gc_sequence_value :
  results (run_exports cop cstep 50 gc_M ["helper"%string; "helper"%string; "main"%string]
                       (mkState [VNum 1] [Some 1; None] [VNum 0]))
  = Some [VFuncRef 2; VNum 0; VNum 15; VNum 21].
Proof. vm_compute. reflexivity. Qed.

(* the premises of the general theorem hold for the example, so it applies for every fuel *)
Lemma gc_M_wf_bodies : forall f b g, funcs cop gc_M f = Some b -> In g (body_refs cop b) -> g < N.of_nat 10.
Proof.
  intros f b g E Hg. cbn [funcs gc_M ex_M] in E.
  destruct f as [|[[[p|p|]|[p|p|]|]|[[p|p|]|[p|p|]|]|]]; try discriminate;
    injection E as <-; vm_compute in Hg; repeat (destruct Hg as [<-|Hg]; [reflexivity|]); destruct Hg.
Qed.
Lemma gc_M_wf_roots : forall g, In g (roots_of cop gc_M gc_names ex_st) -> g < N.of_nat 10.
Proof. intros g Hg. vm_compute in Hg. repeat (destruct Hg as [<-|Hg]; [reflexivity|]). destruct Hg. Qed.

Example gc_by_theorem fuel ns :
  (forall nm, In nm ns -> In nm gc_names) ->
  run_exports cop cstep fuel gc_M' ns (rename_state sigma ex_st)
  = rename_outcome sigma (run_exports cop cstep fuel gc_M ns ex_st).
Proof.
  apply (gc_reachable_exports_sequence_cop 10 gc_M gc_names ex_st sigma sigma_inv
           gc_M_wf_bodies gc_M_wf_roots sigma_left_inv).
Qed.

(* a compacting renumbering: dead functions in the MIDDLE of the index space.
   live: 0 (main), 3 (helper), 5; dead: 1 (calls the undefined 9), 2 (self-referential), 4 (calls 1) *)
Definition sp_M : module cop :=
  mkModule cop
    (fun f => match f with
              | 0 => Some [IOther (OConst 1); IRefFunc 3; IOther OTableSet; IOther (OConst 5); ICall 5; IRefFunc 5]
              | 1 => Some [ICall 9]
              | 2 => Some [IRefFunc 2; IOther ODrop; ICall 2]
              | 3 => Some [IOther (OConst 10); IOther OAdd; IRefFunc 3; IOther OGlobalSet0]
              | 4 => Some [ICall 1]
              | 5 => Some [IOther (OConst 0); ICallIndirect; IOther (OConst 3);
                           ILoop [IOther (OConst 0); IOther OAdd; IOther ODup; IIf [] [IBr 2];
                                  IOther ODrop; IOther (OConst 0); IBr 0];
                           IOther (OConst 99)]
              | _ => None
              end)
    (fun n => if String.eqb n "main" then Some 0 else if String.eqb n "helper" then Some 3 else None).
Definition sp_st : state := mkState [] [Some 3; None] [VNum 0].
Definition sp_keep : N -> bool := reachable cop (range 10) sp_M gc_names sp_st.
(* kept 0,3,5 -> 0,1,2; everything else out of the way (injective on all of N) *)
Definition compact (f : N) : N := match f with 0 => 0 | 3 => 1 | 5 => 2 | f => f + 10 end.
Definition compact_inv (g : N) : N :=
  match g with 0 => 0 | 1 => 3 | 2 => 5 | g => if g <? 10 then 100 else g - 10 end.
Lemma compact_left_inv f : compact_inv (compact f) = f.
Proof.
  assert (H : (f = 0 \/ f = 3 \/ f = 5) \/ compact f = f + 10) by (destruct f as [|[[p|[q|q|]|]|p|]]; auto).
  destruct H as [[->|[->| ->]]| ->]; try reflexivity.
  assert (Hinv : forall g, 10 <= g -> compact_inv g = g - 10).
  { intros g Hg. destruct g as [|[p|[p|p|]|]]; try lia; cbv beta iota delta [compact_inv];
      match goal with |- (if ?c then _ else _) = _ => destruct c eqn:E end; try reflexivity; apply N.ltb_lt in E; lia. }
  rewrite Hinv; lia.
Qed.
Definition sp_M' : module cop := rename_module cop compact compact_inv (restrict cop sp_keep sp_M).

Example sp_keep_computed : filter sp_keep (range 10) = [0; 3; 5].
Proof. vm_compute. reflexivity. Qed.
Example sp_compacted :
  map (fun g => match funcs cop sp_M' g with Some _ => true | None => false end) (range 8)
  = [true; true; true; false; false; false; false; false] /\
  exports cop sp_M' "main" = Some 0 /\ exports cop sp_M' "helper" = Some 1.
Proof. vm_compute. repeat split; reflexivity. Qed.
Example sp_both_sides :
  run_export cop cstep 50 sp_M' "main" (rename_state compact sp_st)
  = rename_outcome compact (run_export cop cstep 50 sp_M "main" sp_st).
Proof. vm_compute. reflexivity. Qed.
(* ... and the compacted module is literally the example module of SemCalls, behaviour included *)
Example sp_is_ex :
  run_export cop cstep 50 sp_M' "main" (rename_state compact sp_st) = run_export cop cstep 50 ex_M "main" ex_st
  /\ rename_state compact sp_st = ex_st
  /\ funcs cop sp_M' 0 = funcs cop ex_M 0 /\ funcs cop sp_M' 1 = funcs cop ex_M 1
  /\ funcs cop sp_M' 2 = funcs cop ex_M 2.
Proof. vm_compute. repeat split; reflexivity. Qed.

(* dropping a reachable function changes behaviour ([closed_under] fails: f0 calls f2) *)
Theorem dropping_a_reachable_function_differs :
  exists (keep : N -> bool) (M : module cop) (f : N) (st : state),
    keep f = true /\ state_closed keep st /\
    run cop cstep 50 (restrict cop keep M) f st <> run cop cstep 50 M f st.
Proof.
  exists (fun f => negb (f =? 2)), ex_M, 0, ex_st.
  split; [reflexivity|]. split; [reflexivity|]. vm_compute. discriminate.
Qed.

(* [closed_under] alone is not enough: a function reachable only through the TABLE (state not closed) *)
Theorem dropping_a_table_referenced_function_differs :
  exists (keep : N -> bool) (M : module cop) (f : N) (st : state),
    keep f = true /\ closed_under cop keep M /\
    run cop cstep 50 (restrict cop keep M) f st <> run cop cstep 50 M f st.
Proof.
  exists (fun f => f =? 2), ex_M, 2, (mkState [VNum 1] [Some 1] [VNum 0]).
  split; [reflexivity|]. split.
  - intros f b Hf E. apply N.eqb_eq in Hf. subst f. cbn in E. injection E as <-. reflexivity.
  - vm_compute. discriminate.
Qed.

(* an export pointing at a dropped function disappears: the premise on the export names *)
Theorem dropping_an_exported_function_differs :
  exists (keep : N -> bool) (M : module cop) (n : string) (st : state),
    closed_under cop keep M /\ state_closed keep st /\
    run_export cop cstep 50 (restrict cop keep M) n st <> run_export cop cstep 50 M n st.
Proof.
  exists (fun f => false), ex_M, "helper"%string, (mkState [VNum 1] [] [VNum 0]).
  split; [intros f b Hf; discriminate|]. split; [reflexivity|]. vm_compute. discriminate.
Qed.

(* without the range premise [refs_in_univ] the closedness statement is false: a reachable function
   that mentions an index outside the universe (here: the undefined function 9, universe [0,1)) *)
Theorem reachable_is_closed_unconditional_refuted :
  exists (M : module cop) (n : nat) names st0,
    (forall g, In g (roots_of cop M names st0) -> In g (range n)) /\ ~ closed_under cop (reachable cop (range n) M names st0) M.
Proof.
  exists (mkModule cop (fun f => if f =? 0 then Some [ICall 9] else None)
                   (fun s => if String.eqb s "main" then Some 0 else None)),
         1%nat, ["main"%string], (mkState [] [] []).
  split.
  - intros g Hg. vm_compute in Hg. destruct Hg as [<-|[]]. vm_compute. now left.
  - intros H. specialize (H 0 [ICall 9] eq_refl eq_refl). vm_compute in H. discriminate.
Qed.

Print Assumptions restrict_preserves_behaviour.
Print Assumptions reachable_is_closed_unconditional_refuted.
Print Assumptions run_closed.
Print Assumptions run_exports_sequence.
Print Assumptions run_funcs_sequence.
Print Assumptions gc_preserves_behaviour.
Print Assumptions gc_preserves_export_behaviour.
Print Assumptions reachable_is_closed.
Print Assumptions reachable_is_closed_weak.
Print Assumptions reachable_sound.
Print Assumptions gc_reachable_export.
Print Assumptions gc_reachable_exports_sequence.
Print Assumptions cstep_closed.
Print Assumptions forging_op_violates_interface.
Print Assumptions restrict_preserves_behaviour_cop.
Print Assumptions gc_preserves_behaviour_cop.
Print Assumptions gc_reachable_exports_sequence_cop.
Print Assumptions gc_both_sides.
Print Assumptions gc_by_theorem.
Print Assumptions sp_both_sides.
Print Assumptions sp_is_ex.
Print Assumptions dropping_a_reachable_function_differs.
Print Assumptions dropping_a_table_referenced_function_differs.
Print Assumptions dropping_an_exported_function_differs.
