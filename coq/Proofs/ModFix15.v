(* C08, module level fixpoint, part 15: the function-level obligations of ModFix12 from the body-level
   theorems (ModFix10 / ModFix14).  (W), (F), (D), (Lidx) name what is asked of every pair of corresponding
   functions of the two trips; (W) and (F) are proved here, (D) and (Lidx) in ModFix17. *)
From Coq Require Import List NArith ZArith Bool Arith Lia Permutation.
Import ListNotations.
From WV Require Import Gen.Ops Model.Common Model.IR Model.Arena Model.Traversal Model.EmitFn Model.Locals
                       Model.ParseFn Model.ParseSpec Model.BodySpec Model.ModuleM Model.ParseM Model.EmitM Gen.Attrs.
From WV Require Import Proofs.Arena Proofs.IndexMaps Proofs.Structure Proofs.Structure2 Proofs.Renumbering
                       Proofs.ParseTotal Proofs.TotalityBodies Proofs.ModFix Proofs.ModFix12.
From WV Require Proofs.Order Proofs.SortKeys Proofs.Fixpoint Proofs.Names Proofs.Totality Proofs.ModFix3 Proofs.ModFix4 Proofs.ModFix5 Proofs.ModFix6 Proofs.ModFix9 Proofs.ModFix10 Proofs.ModFix13 Proofs.ModFix14.
Local Open Scope nat_scope.

Definition cx_of (s : pst) (fid : N) : pctx := {| px_i2id := i2id_fun (ps_ids s) fid; px_types := types_list (ps_m s) |}.
Definition ecx_of (e : emitted) (lmap : list (N * N)) (ilen : wins -> N) : ectx :=
  {| ex_id2i := id2i_fun (em_x2i e) lmap; ex_ilen := ilen |}.

(* a non-entry multi-value type of the first module, found by find_type, sits in the second module at the
   position the first emit wrote for it, is found there by find_type, and is re-emitted at the same index *)
Definition TY_holds (s1 : pst) (e1 : emitted) (s2 : pst) (e2 : emitted) : Prop :=
  forall id j lmap1 lmap2 ty ps' rs',
    nth_N (types_list (ps_m s1)) ty = Some (ps', rs', false) ->
    existing (cx_of s1 id) ps' rs' = Some (ST_Multi ty) ->
    exists ty2 en,
      nth_N (types_list (ps_m s2)) (i2id_fun (ps_ids s2) j S_type (id2i_fun (em_x2i e1) lmap1 S_type ty)) = Some (ps', rs', en) /\
      existing (cx_of s2 j) ps' rs' = Some (ST_Multi ty2) /\
      id2i_fun (em_x2i e2) lmap2 S_type ty2 = id2i_fun (em_x2i e1) lmap1 S_type ty.

(* (W) for every function of the second trip: every emitted instruction decodes / its block type resolves in the
   second parse context *)
Definition W_holds (ilen : wins -> N) (s1 : pst) (e1 : emitted) (s2 : pst) : Prop :=
  forall id j f1 lf1 ef1,
    aget (m_funcs (ps_m s1)) id = Some f1 -> fn_kind f1 = FK_Local lf1 ->
    get_idx (em_x2i e1) S_func id = Ok j ->
    emit_function (ps_m s1) (em_x2i e1) ilen id lf1 = Ok ef1 ->
    Forall (WV.Proofs.ModFix10.op_ok2 (cx_of s2 j)) (map fst (wb_ops (ef_body ef1))).

(* (F) every instruction the first emit wrote is a fixed point of parse-then-emit in the second contexts *)
Definition F_holds (ilen : wins -> N) (s1 : pst) (e1 : emitted) (s2 : pst) (e2 : emitted) : Prop :=
  forall id j f1 lf1 ef1 f2 lf2 ef2,
    aget (m_funcs (ps_m s1)) id = Some f1 -> fn_kind f1 = FK_Local lf1 ->
    get_idx (em_x2i e1) S_func id = Ok j ->
    aget (m_funcs (ps_m s2)) j = Some f2 -> fn_kind f2 = FK_Local lf2 ->
    emit_function (ps_m s1) (em_x2i e1) ilen id lf1 = Ok ef1 ->
    emit_function (ps_m s2) (em_x2i e2) ilen j lf2 = Ok ef2 ->
    Forall (WV.Proofs.Fixpoint.ins_fixed (cx_of s2 j) (ecx_of e2 (ef_lmap ef2) ilen)) (map fst (wb_ops (ef_body ef1))).
(* (D) the local declarations are reproduced *)
Definition D_holds (ilen : wins -> N) (s1 : pst) (e1 : emitted) (s2 : pst) (e2 : emitted) : Prop :=
  forall id j f1 lf1 ef1 f2 lf2 ef2,
    aget (m_funcs (ps_m s1)) id = Some f1 -> fn_kind f1 = FK_Local lf1 ->
    get_idx (em_x2i e1) S_func id = Ok j ->
    aget (m_funcs (ps_m s2)) j = Some f2 -> fn_kind f2 = FK_Local lf2 ->
    emit_function (ps_m s1) (em_x2i e1) ilen id lf1 = Ok ef1 ->
    emit_function (ps_m s2) (em_x2i e2) ilen j lf2 = Ok ef2 ->
    wb_locals (ef_body ef2) = wb_locals (ef_body ef1).

(* (Lidx) a local index written by the first emit is mapped to itself by second parse ; second emit *)
Definition Lidx_holds (ilen : wins -> N) (s1 : pst) (e1 : emitted) (s2 : pst) (e2 : emitted) : Prop :=
  forall id j f1 lf1 ef1 f2 lf2 ef2 evs1 lid,
    aget (m_funcs (ps_m s1)) id = Some f1 -> fn_kind f1 = FK_Local lf1 ->
    get_idx (em_x2i e1) S_func id = Ok j ->
    aget (m_funcs (ps_m s2)) j = Some f2 -> fn_kind f2 = FK_Local lf2 ->
    emit_function (ps_m s1) (em_x2i e1) ilen id lf1 = Ok ef1 ->
    emit_function (ps_m s2) (em_x2i e2) ilen j lf2 = Ok ef2 ->
    lf_log lf1 = Ok evs1 -> In (ERef S_local lid) evs1 ->
    id2i_fun (em_x2i e2) (ef_lmap ef2) S_local
      (i2id_fun (ps_ids s2) j S_local (id2i_fun (em_x2i e1) (ef_lmap ef1) S_local lid))
    = id2i_fun (em_x2i e1) (ef_lmap ef1) S_local lid.

(* ModFix14.second_size_W: the size of the second parse under (W) only *)
Definition second_size_W_stmt : Prop :=
  forall cx ecx ety rs l eloc p0 ar1 st1 fuel1 cx2 ety2 rs2,
    wfl cx 1 l -> parse_body cx ety rs (flat_list l ++ [(WEnd, eloc)]) = Ok ar1 ->
    emit_body ecx fuel1 ar1 0%N p0 = Ok st1 ->
    let ops1 := combine (out st1) (map snd (imap st1)) in
    Forall (WV.Proofs.ModFix10.op_ok2 cx2) (map fst ops1) ->
    forall ar2, parse_body cx2 ety2 rs2 ops1 = Ok ar2 ->
    forall f1 f2 evs1 evs2, dfs_in_order false f1 ar1 0%N = Ok evs1 -> dfs_in_order false f2 ar2 0%N = Ok evs2 ->
      WV.Proofs.ModFix10.n_instr evs2 = WV.Proofs.ModFix10.n_instr evs1.

(* one function of the first trip of a valid stream: structured body, its parse, its emission *)
Lemma first_trip_function cf ver w s1 ilen e1 id f1 lf1 ef1 :
  valid_stream w -> parseM cf ver w = POk s1 ->
  aget (m_funcs (ps_m s1)) id = Some f1 -> fn_kind f1 = FK_Local lf1 ->
  emit_function (ps_m s1) (em_x2i e1) ilen id lf1 = Ok ef1 ->
  exists t ety l eloc evs decls lmap st,
    types_get (ps_m s1) (lf_ty lf1) = Some t /\
    wfl (cx_of s1 id) 1 l /\
    parse_body (cx_of s1 id) ety (ty_results t) (flat_list l ++ [(WEnd, eloc)]) = Ok (lf_arena lf1) /\
    lf_entry lf1 = 0%N /\ lf_log lf1 = Ok evs /\
    emit_locals (local_ty_fn (ps_m s1)) (lf_args lf1) (used_of_log evs) = (decls, lmap) /\
    refs_ok (em_x2i e1) lmap evs = true /\
    emit_body (ecx_of e1 lmap ilen) (lf_fuel lf1) (lf_arena lf1) 0%N 0%N = Ok st /\
    ef_body ef1 = {| wb_locals := decls; wb_ops := combine (out st) (map snd (imap st)) |} /\
    ef_lmap ef1 = lmap.
Proof.
  intros V P1 Hg Hk He.
  destruct (local_function_body _ _ _ _ _ _ _ P1 Hg Hk) as (s0 & k & b & t & ety & _ & _ & Hb & _ & _ & Ht & _ & Hen & Hpb & _).
  destruct (valid_bodies_structured _ _ _ _ b id V P1 (nth_error_In _ _ Hb)) as (l & eloc & Eops & _ & Hw).
  destruct (emit_function_inv _ _ _ _ _ _ He) as (evs & decls & lmap & st & A1 & A2 & A3 & A4 & A5 & _ & A7 & _).
  rewrite Hen in A4. rewrite Eops in Hpb.
  exists t, ety, l, eloc, evs, decls, lmap, st. unfold cx_of, ecx_of. repeat (split; [assumption|]). exact A7.
Qed.

Lemma vlist_eqb_eq : forall a b, vlist_eqb a b = true -> a = b.
Proof.
  induction a as [|x a IH]; intros [|y b] H; cbn [vlist_eqb] in H; try discriminate H; [reflexivity|].
  apply andb_true_iff in H. destruct H as [H1 H2]. unfold valty_eqb in H1. apply N.eqb_eq in H1.
  apply WV.Proofs.SortKeys.valty_code_inj in H1. subst y. f_equal. apply IH. exact H2.
Qed.
Lemma id2i_fun_nonlocal x lmap s id : s <> S_local ->
  id2i_fun x lmap s id = match find (fun p => N.eqb (fst p) id) (space_map x s) with Some p => snd p | None => 4294967295%N end.
Proof. destruct s; try reflexivity; congruence. Qed.
Lemma id2i_of_get x lmap s id i : s <> S_local -> get_idx x s id = Ok i -> id2i_fun x lmap s id = i.
Proof.
  intros Hs H. rewrite (id2i_fun_nonlocal _ _ _ _ Hs). unfold get_idx, lookup_i in H. destruct (find _ _); [congruence|discriminate].
Qed.

Theorem second_size_W_stmt_holds : second_size_W_stmt.
Proof.
  intros cx ecx ety rs l eloc p0 ar1 st1 fuel1 cx2 ety2 rs2 Hw Hp He ops1 HW ar2 Hp2 f1 f2 evs1 evs2 Hd1 Hd2.
  exact (proj1 (WV.Proofs.ModFix14.second_size_W cx ecx ety rs l eloc p0 ar1 st1 fuel1 cx2 ety2 rs2 ar2 f1 f2 evs1 evs2
                  Hw Hp He HW Hp2 Hd1 Hd2)).
Qed.

Lemma lf_size_n_instr lf evs : lf_log lf = Ok evs -> lf_size lf = Ok (N.of_nat (WV.Proofs.ModFix10.n_instr evs)).
Proof. intros H. unfold lf_size. rewrite H. reflexivity. Qed.

(* the k-th function of the first emission order and the function it becomes *)
Lemma fs1_nth cf ver w ilen s1 e1 s2 e2 fs1 k id lf1 :
  two_trips cf ver w ilen s1 e1 s2 e2 -> used_local_functions (ps_m s1) = Ok fs1 ->
  nth_error fs1 k = Some (id, lf1) ->
  let j := N.of_nat (length (imported_funcs (ps_m s1)) + k) in
  (exists f1, aget (m_funcs (ps_m s1)) id = Some f1 /\ fn_kind f1 = FK_Local lf1) /\
  get_idx (em_x2i e1) S_func id = Ok j /\
  (exists f2 lf2, aget (m_funcs (ps_m s2)) j = Some f2 /\ fn_kind f2 = FK_Local lf2).
Proof.
  intros TT Hfs Hp j. pose proof TT as (P1 & E1 & P2 & E2).
  destruct (ulf_in _ _ _ _ Hfs (nth_error_In _ _ Hp)) as (f1 & Hin1 & Hk1). apply WV.Proofs.Totality.aiter_aget in Hin1.
  destruct (emitM_x2i _ _ _ _ E1) as (fs' & Hfs' & _ & Xf1 & _). rewrite Hfs in Hfs'. injection Hfs' as <-.
  rewrite imported_funcs_eq in Xf1.
  destruct (emit_code_payload _ _ _ _ E1 Hfs) as (Hco & F & _ & Hlen).
  pose proof (second_funcs_count _ _ _ _ _ _ _ E1 P2 Hfs) as Hcnt. rewrite imported_funcs_eq in Hcnt.
  split; [eauto|]. split.
  - apply x2i_positions; [apply (parsed_wf_space _ _ _ _ _ _ _ S_func P1 E1); discriminate|].
    cbn [space_map]. subst j. rewrite Xf1, number_fst, Nat2N.id, nth_error_app2 by lia.
    replace (length (imported_funcs (ps_m s1)) + k - length (imported_funcs (ps_m s1))) with k by lia.
    rewrite nth_error_map, Hp. reflexivity.
  - assert (Hk : k < length fs1) by (apply nth_error_Some; congruence).
    destruct (nth_error (flat_map code_of (em_secs e1)) k) as [b|] eqn:Hb; [|apply nth_error_None in Hb; lia].
    destruct (parsed_function_body _ _ _ _ _ _ P2 Hb) as (fid & f2 & lf2 & t & ety & Hfid & Hg2 & Hk2 & _).
    rewrite Hcnt, Hlen in Hfid. assert (fid = j) by (subst j; lia). subst fid. eauto.
Qed.

(* a non-local index written by the first emit is a fixed point of (second parse: index -> id) ; (second emit: id -> index) *)
Lemma refs_ok_get x lmap evs s id : refs_ok x lmap evs = true -> In (ERef s id) evs -> s <> S_local ->
  get_idx x s id = Ok (id2i_fun x lmap s id).
Proof.
  unfold refs_ok. rewrite forallb_forall. intros H Hin Hs. specialize (H _ Hin).
  assert (E : existsb (fun p => N.eqb (fst p) id) (space_map x s) = true) by (destruct s; try exact H; congruence).
  apply existsb_exists in E. destruct E as (p0 & Hp0 & He0).
  rewrite (id2i_fun_nonlocal _ _ _ _ Hs). unfold get_idx, lookup_i.
  destruct (find _ _) eqn:Ef; [reflexivity|]. exfalso. apply (find_none _ _ Ef) in Hp0. congruence.
Qed.

Section TwoTrips.
  Variables (cf : config) (ver : str) (w : wmod) (ilen : wins -> N) (s1 : pst) (e1 : emitted) (s2 : pst) (e2 : emitted).
  Hypothesis TT : two_trips cf ver w ilen s1 e1 s2 e2.
  Hypothesis V : valid_stream w.

  Theorem TY_holds_holds : TY_holds s1 e1 s2 e2.
  Proof.
    intros id j lmap1 lmap2 ty ps' rs' Hn Hex. pose proof TT as (P1 & E1 & P2 & E2).
    apply WV.Proofs.Fixpoint.existing_multi in Hex. destruct Hex as [_ Hshape].
    (* the type in the first module *)
    pose proof (parseM_ids _ _ _ _ P1) as I1. unfold ids_consistent in I1.
    assert (D1 : dead (Arena.arena (m_types (ps_m s1))) = []) by (decompose [and] I1; assumption). clear I1.
    pose proof (parseM_ids _ _ _ _ P2) as I2. unfold ids_consistent in I2.
    assert (D2 : dead (Arena.arena (m_types (ps_m s2))) = []) by (decompose [and] I2; assumption). clear I2.
    unfold nth_N in Hn. rewrite types_list_key, nth_error_map in Hn.
    destruct (nth_error (items (Arena.arena (m_types (ps_m s1)))) (N.to_nat ty)) as [t1|] eqn:Ht1; [|discriminate].
    cbn [option_map] in Hn. unfold tkey in Hn. injection Hn as Hp1 Hr1 Hen1.
    assert (G1 : types_get (ps_m s1) ty = Some t1) by (unfold types_get; rewrite aset_index_nodead by exact D1; exact Ht1).
    apply WV.Proofs.Totality.types_get_live in G1.
    assert (In1 : In (ty, t1) (emitted_types (ps_m s1))).
    { unfold emitted_types. eapply Permutation_in; [apply Permutation_sym, WV.Proofs.Order.sort_types_perm|].
      apply filter_In. split; [exact G1|]. cbn [snd]. rewrite Hen1. reflexivity. }
    destruct (In_nth_error _ _ In1) as [i0 Hi0].
    destruct (emit_order_types _ _ _ _ E1) as [Eo Wt].
    assert (Gi : get_idx (em_x2i e1) S_type ty = Ok (N.of_nat i0)).
    { apply (x2i_positions _ S_type _ _ Wt). cbn [space_map]. rewrite Eo, Nat2N.id, nth_error_map, Hi0. reflexivity. }
    assert (NL : S_type <> S_local) by discriminate.
    rewrite (id2i_of_get _ lmap1 _ _ _ NL Gi).
    pose proof (WV.Proofs.ModFix3.out_types_keys _ _ _ E1) as OK1.
    assert (Hlt : i0 < length (flat_map types_of (em_secs e1))).
    { rewrite OK1, map_length. apply nth_error_Some. congruence. }
    assert (HT1 : nth_error (flat_map types_of (em_secs e1)) i0 = Some (ps', rs')).
    { rewrite OK1, nth_error_map, Hi0. cbn [option_map]. unfold WV.Proofs.SortKeys.ty_key. cbn [snd]. congruence. }
    (* the second module *)
    destruct (WV.Proofs.ModFix3.reparse_types_arena _ _ _ _ _ _ _ P1 E1 P2) as (R1 & R2 & R3).
    set (L2 := filter (fun p => negb (ty_entry (snd p))) (live_types (ps_m s2))) in *.
    assert (HL2 : exists t2, nth_error L2 i0 = Some (N.of_nat i0, t2) /\ WV.Proofs.SortKeys.ty_key (N.of_nat i0, t2) = (ps', rs')).
    { destruct (nth_error L2 i0) as [[a t2]|] eqn:E.
      - exists t2. assert (Ha : nth_error (map fst L2) i0 = Some a) by (rewrite nth_error_map, E; reflexivity).
        rewrite R2, (iota_nth _ _ Hlt) in Ha. injection Ha as <-. split; [reflexivity|].
        assert (Hk : nth_error (map WV.Proofs.SortKeys.ty_key L2) i0 = Some (WV.Proofs.SortKeys.ty_key (N.of_nat i0, t2)))
          by (rewrite nth_error_map, E; reflexivity).
        rewrite R1, HT1 in Hk. congruence.
      - apply nth_error_None in E. rewrite <- (map_length fst L2), R2, iota_length in E. lia. }
    destruct HL2 as (t2 & HL2 & Hkey2). apply nth_error_In in HL2. apply filter_In in HL2. destruct HL2 as [Hlive2 Hne2].
    cbn [snd] in Hne2. apply negb_true_iff in Hne2.
    apply WV.Proofs.Totality.live_types_get in Hlive2. unfold types_get in Hlive2.
    rewrite aset_index_nodead, Nat2N.id in Hlive2 by exact D2.
    unfold WV.Proofs.SortKeys.ty_key in Hkey2. cbn [snd] in Hkey2. injection Hkey2 as Hp2 Hr2.
    assert (Hpos : nth_error (types_list (ps_m s2)) i0 = Some (ps', rs', false)).
    { rewrite types_list_key, nth_error_map, Hlive2. cbn [option_map]. unfold tkey. congruence. }
    assert (Hi2 : i2id_fun (ps_ids s2) j S_type (N.of_nat i0) = N.of_nat i0).
    { unfold i2id_fun. rewrite R3, Nat2N.id. erewrite nth_error_nth; [reflexivity|apply iota_nth; exact Hlt]. }
    rewrite Hi2.
    destruct (find_type (cx_of s2 j) ps' rs') as [ty2|] eqn:Ef.
    2:{ exfalso. unfold find_type in Ef. cbn [cx_of px_types] in Ef. eapply find_type_from_some; eauto. }
    assert (Ety2 : ty2 = N.of_nat i0).
    { unfold find_type in Ef. cbn [cx_of px_types] in Ef. apply WV.Proofs.Fixpoint.find_type_from_hit in Ef.
      destruct Ef as (p & r & Hnth & _ & Ep & Er). rewrite N.sub_0_r in Hnth.
      apply vlist_eqb_eq in Ep. apply vlist_eqb_eq in Er. subst p r.
      rewrite types_list_key, nth_error_map in Hnth.
      destruct (nth_error (items (Arena.arena (m_types (ps_m s2)))) (N.to_nat ty2)) as [t2'|] eqn:Ht2'; [|discriminate].
      cbn [option_map] in Hnth. unfold tkey in Hnth. injection Hnth as Hp' Hr' He'.
      destruct (parseM_TU _ _ _ _ P2) as [_ TU2].
      assert (N.to_nat ty2 = i0); [|lia].
      apply (TU2 _ _ _ _ Ht2' Hlive2). apply mtype_eqb_spec. repeat split; congruence. }
    subst ty2. exists (N.of_nat i0), false. split; [unfold nth_N; rewrite Nat2N.id; exact Hpos|]. split.
    - apply WV.Proofs.Fixpoint.existing_multi. split; [exact Ef|exact Hshape].
    - apply id2i_of_get; [exact NL|].
      apply (WV.Proofs.ModFix3.types_get_idx _ _ _ _ _ _ _ _ TT). rewrite Nat2N.id. exact Hlt.
  Qed.

  Lemma bt_both id j f1 lf1 ef1 lmap2 :
    aget (m_funcs (ps_m s1)) id = Some f1 -> fn_kind f1 = FK_Local lf1 ->
    emit_function (ps_m s1) (em_x2i e1) ilen id lf1 = Ok ef1 ->
    Forall (fun w => match w with
                     | WBlock bt | WLoop bt | WIf bt =>
                         nf_bt (cx_of s2 j) (ecx_of e2 lmap2 ilen) bt = bt /\ bt_ok (cx_of s2 j) bt
                     | _ => True end) (map fst (wb_ops (ef_body ef1))).
  Proof.
    intros Hg1 Hk1 He1. pose proof TY_holds_holds as HT. pose proof TT as (P1 & E1 & P2 & E2).
    destruct (first_trip_function _ _ _ _ _ _ _ _ _ _ V P1 Hg1 Hk1 He1)
      as (t & ety & l & eloc & evs & decls & lmap & st & A1 & A2 & A3 & A4 & A5 & A6 & A7 & A8 & A9 & A10).
    rewrite A9. cbn [wb_ops].
    rewrite (WV.Proofs.ModFix10.emitted_ops_fst _ _ _ _ _ _ _ _ _ _ A2 A3 A8).
    pose proof (WV.Proofs.ModFix14.emitted_bts _ _ _ _ _ _ _ _ _ _ A2 A3 A8) as HB.
    rewrite Forall_forall in *. intros x Hx. specialize (HB x Hx).
    assert (K : forall b, WV.Proofs.ModFix14.bt_shape (cx_of s1 id) (ecx_of e1 lmap ilen) b ->
                          nf_bt (cx_of s2 j) (ecx_of e2 lmap2 ilen) b = b /\ bt_ok (cx_of s2 j) b).
    { intros b Hb. apply (WV.Proofs.ModFix14.bt_shape_fixed _ _ _ _ _ Hb). intros ty ps' rs' _ Hn Hex.
      cbn [cx_of ecx_of px_types px_i2id ex_id2i] in *. apply (HT id j lmap lmap2 ty ps' rs' Hn Hex). }
    destruct x; try exact I; apply K; exact HB.
  Qed.

  Theorem W_holds_V : W_holds ilen s1 e1 s2.
  Proof.
    intros id j f1 lf1 ef1 Hg Hk Hj He.
    pose proof (bt_both id j f1 lf1 ef1 [] Hg Hk He) as HB. pose proof TT as (P1 & E1 & P2 & E2).
    destruct (first_trip_function _ _ _ _ _ _ _ _ _ _ V P1 Hg Hk He)
      as (t & ety & l & eloc & evs & decls & lmap & st & A1 & A2 & A3 & A4 & A5 & A6 & A7 & A8 & A9 & A10).
    rewrite A9 in *. cbn [wb_ops] in *.
    (* operators decode in any context; block types by [bt_both] *)
    pose proof (WV.Proofs.ModFix14.emitted_ops_plain _ _ _ _ _ _ _ _ _ _ A2 A3 A8) as HP.
    rewrite (WV.Proofs.ModFix10.emitted_ops_fst _ _ _ _ _ _ _ _ _ _ A2 A3 A8) in *.
    rewrite Forall_forall in *. intros x Hx. specialize (HB x Hx). specialize (HP x Hx).
    destruct x; cbn [WV.Proofs.ModFix10.op_ok2]; try exact I; try exact (proj2 HB). apply HP.
  Qed.

  Theorem body_size_stable_V : body_size_stable ilen s1 e1 s2.
  Proof.
    intros id j f1 lf1 ef1 lf2 t2 ety2 Hg Hk Hj He Ht2 Hety2 Hen2 Hpb2.
    pose proof (W_holds_V _ _ _ _ _ Hg Hk Hj He) as HW. pose proof TT as (P1 & E1 & P2 & E2).
    destruct (first_trip_function _ _ _ _ _ _ _ _ _ _ V P1 Hg Hk He)
      as (t & ety & l & eloc & evs & decls & lmap & st & A1 & A2 & A3 & A4 & A5 & A6 & A7 & A8 & A9 & A10).
    rewrite A9 in HW, Hpb2. cbn [wb_ops] in HW, Hpb2.
    destruct (WV.Proofs.ModFix10.emitted_ops_shape _ _ _ _ _ _ _ _ _ _ (cx_of s2 j) A2 A3 A8 HW)
      as (L1 & eloc1 & Hops & HW1 & _ & Hp2).
    fold (cx_of s2 j) in Hpb2. rewrite Hp2 in Hpb2. injection Hpb2 as Har2.
    pose proof (parsed_log _ _ _ _ _ HW1 (eq_sym Har2) Hen2) as Hlog2.
    rewrite (lf_size_n_instr _ _ Hlog2), (lf_size_n_instr _ _ A5). f_equal. f_equal.
    unfold lf_log in Hlog2, A5. rewrite Hen2 in Hlog2. rewrite A4 in A5.
    eapply (second_size_W_stmt_holds _ _ _ _ _ _ _ _ _ _ (cx_of s2 j) ety2 (ty_results t2) A2 A3 A8 HW (lf_arena lf2)); [|exact A5|exact Hlog2].
    rewrite <- Har2. apply Hp2.
  Qed.

  Theorem sizes_stable_V : WV.Proofs.ModFix6.sizes_stable s1 e1 s2.
  Proof. exact (sizes_stable_reduce _ _ _ _ _ _ _ _ TT body_size_stable_V). Qed.

  Theorem identity_maps_V : forall S, rho_id s2 e2 S.
  Proof.
    intros S. destruct (WV.Proofs.ModFix9.canonical_identity_maps _ _ _ _ _ _ _ _ TT sizes_stable_V) as (Hty & Hf & Ht & Hm & Hg & He & Hd).
    destruct S; try assumption. intros i Hi. cbn in Hi. lia.
  Qed.

  (* the code payload, with the function-level statement as the only remaining premise *)
  Theorem fix_code_from : WV.Proofs.ModFix6.sizes_stable s1 e1 s2 ->
    function_body_stable_l ilen s1 e1 s2 e2 ->
    flat_map code_of (em_secs e2) = flat_map code_of (em_secs e1).
  Proof.
    intros SS BS. eapply fix_code_reduce_l; [exact TT| | |exact BS].
    - exact (WV.Proofs.ModFix6.funcs_identity _ _ _ _ _ _ _ _ TT SS).
    - apply (proj1 (WV.Proofs.ModFix6.fn_layout _ _ _ _ _ _ _ _ TT)).
  Qed.

  Theorem function_body_stable_from :
    W_holds ilen s1 e1 s2 -> F_holds ilen s1 e1 s2 e2 -> D_holds ilen s1 e1 s2 e2 ->
    function_body_stable_l ilen s1 e1 s2 e2.
  Proof.
    pose proof TT as (P1 & E1 & P2 & E2). intros HW HF HD id j f1 lf1 ef1 f2 lf2 ef2 t2 ety2 base
      Hg1 Hk1 Hj Hg2 Hk2 He1 Ht2 Hety2 Hen2 Hpb2 Hargs Hlv Hdead Htys Hnd He2.
    destruct (first_trip_function _ _ _ _ _ _ _ _ _ _ V P1 Hg1 Hk1 He1)
      as (t & ety & l & eloc & evs & decls & lmap & st & A1 & A2 & A3 & A4 & A5 & A6 & A7 & A8 & A9 & A10).
    destruct (emit_function_inv _ _ _ _ _ _ He2) as (evs2 & decls2 & lmap2 & st2 & B1 & B2 & B3 & B4 & B5 & _ & B7 & _).
    specialize (HW _ _ _ _ _ Hg1 Hk1 Hj He1). specialize (HF _ _ _ _ _ _ _ _ Hg1 Hk1 Hj Hg2 Hk2 He1 He2).
    specialize (HD _ _ _ _ _ _ _ _ Hg1 Hk1 Hj Hg2 Hk2 He1 He2).
    rewrite A9 in HW, HF, Hpb2, HD. rewrite B5 in HD. cbn [wb_ops wb_locals] in HW, HF, Hpb2, HD. rewrite B7 in HF.
    destruct (WV.Proofs.ModFix10.body_second_trip_all (cx_of s1 id) (ecx_of e1 lmap ilen) ety (ty_results t) l eloc 0%N
                (lf_arena lf1) st (lf_fuel lf1) (cx_of s2 j) (ecx_of e2 lmap2 ilen) ety2 (ty_results t2)
                A2 A3 A8 eq_refl HW HF) as (ar2 & Hp2 & _ & Hall & _).
    fold (cx_of s2 j) in Hpb2. rewrite Hpb2 in Hp2. injection Hp2 as <-.
    rewrite Hen2 in B4. fold (ecx_of e2 lmap2 ilen) in B4. specialize (Hall _ _ B4).
    rewrite B5, A9, HD, Hall. reflexivity.
  Qed.

  Lemma data_pair id j f1 lf1 f2 lf2 :
    get_idx (em_x2i e1) S_func id = Ok j ->
    aget (m_funcs (ps_m s1)) id = Some f1 -> fn_kind f1 = FK_Local lf1 ->
    aget (m_funcs (ps_m s2)) j = Some f2 -> fn_kind f2 = FK_Local lf2 ->
    uses_data lf2 = uses_data lf1.
  Proof.
    intros Hj Hg1 Hk1 Hg2 Hk2. pose proof TT as (P1 & E1 & P2 & E2). pose proof W_holds_V as HW.
    destruct (emitM_x2i _ _ _ _ E1) as (fs1 & Hfs1 & _).
    destruct (second_trip_functions _ _ _ _ _ _ _ _ _ TT Hfs1 _ _ _ _ _ _ Hj Hg1 Hk1 Hg2 Hk2)
      as (k & ef1 & t2 & ety2 & _ & _ & _ & _ & He1 & Ht2 & Hety2 & Hen2 & Hpb2 & _).
    destruct (first_trip_function _ _ _ _ _ _ _ _ _ _ V P1 Hg1 Hk1 He1)
      as (t & ety & l & eloc & evs & decls & lmap & st & A1 & A2 & A3 & A4 & A5 & A6 & A7 & A8 & A9 & A10).
    specialize (HW _ _ _ _ _ Hg1 Hk1 Hj He1). rewrite A9 in HW, Hpb2. cbn [wb_ops] in HW, Hpb2.
    destruct (WV.Proofs.ModFix10.emitted_ops_shape _ _ _ _ _ _ _ _ _ _ (cx_of s2 j) A2 A3 A8 HW)
      as (L1 & eloc1 & Hops & HW1 & _ & Hp2).
    fold (cx_of s2 j) in Hpb2. pose proof Hpb2 as Hpb2'. rewrite Hp2 in Hpb2'. injection Hpb2' as Har2.
    pose proof (parsed_log _ _ _ _ _ HW1 (eq_sym Har2) Hen2) as Hlog2.
    unfold uses_data. rewrite Hlog2, A5. cbn [rmap]. f_equal.
    unfold lf_log in Hlog2, A5. rewrite Hen2 in Hlog2. rewrite A4 in A5.
    exact (WV.Proofs.ModFix14.second_data_W _ _ _ _ _ _ _ _ _ _ (cx_of s2 j) ety2 (ty_results t2) (lf_arena lf2) _ _ _ _
             A2 A3 A8 HW Hpb2 A5 Hlog2).
  Qed.

  Theorem sg_uses_stable_V :
    (WV.Proofs.ModFix5.sg_uses (ps_m s2) <-> WV.Proofs.ModFix5.sg_uses (ps_m s1)).
  Proof.
    pose proof TT as (P1 & E1 & P2 & E2).
    destruct (emitM_x2i _ _ _ _ E1) as (fs1 & Hfs1 & _).
    destruct (emit_code_payload _ _ _ _ E1 Hfs1) as (_ & _ & _ & Hlen).
    pose proof (second_funcs_count _ _ _ _ _ _ _ E1 P2 Hfs1) as Hcnt. rewrite imported_funcs_eq in Hcnt.
    unfold WV.Proofs.ModFix5.sg_uses. split.
    - intros ([j f2] & lf2 & Hin & Hk2 & Hu). cbn [snd] in Hk2. apply WV.Proofs.Totality.aiter_aget in Hin.
      destruct (local_function_body _ _ _ _ _ _ _ P2 Hin Hk2) as (s0 & k & b & t & ety & _ & _ & Hb & _ & Hjk & _).
      rewrite Hcnt, Hlen in Hjk.
      assert (Hk : k < length fs1) by (rewrite <- Hlen; apply nth_error_Some; congruence).
      destruct (nth_error fs1 k) as [[id lf1]|] eqn:Hp; [|apply nth_error_None in Hp; lia].
      destruct (fs1_nth _ _ _ _ _ _ _ _ _ _ _ _ TT Hfs1 Hp) as ((f1 & Hg1 & Hk1) & Hj & _).
      assert (Ej : N.of_nat (length (imported_funcs (ps_m s1)) + k) = j) by lia. rewrite Ej in Hj.
      exists (id, f1), lf1. cbn [snd]. split; [apply WV.Proofs.Totality.aiter_aget; exact Hg1|]. split; [exact Hk1|].
      rewrite <- (data_pair _ _ _ _ _ _ Hj Hg1 Hk1 Hin Hk2). exact Hu.
    - intros ([id f1] & lf1 & Hin & Hk1 & Hu). cbn [snd] in Hk1.
      destruct (used_local_functions_ids _ _ Hfs1) as (_ & Hids).
      assert (Hi : In id (map fst fs1)) by (apply Hids; eauto).
      apply WV.Proofs.Totality.aiter_aget in Hin.
      destruct (In_nth_error _ _ Hi) as [k Hk]. apply nth_error_map_inv in Hk. destruct Hk as ([id' lf1'] & Hp & Hid). cbn [fst] in Hid. subst id'.
      destruct (fs1_nth _ _ _ _ _ _ _ _ _ _ _ _ TT Hfs1 Hp) as ((f1' & Hg1 & Hk1') & Hj & (f2 & lf2 & Hg2 & Hk2)).
      rewrite Hin in Hg1. injection Hg1 as <-. rewrite Hk1 in Hk1'. injection Hk1' as <-.
      eexists (_, f2), lf2. cbn [snd]. split; [apply WV.Proofs.Totality.aiter_aget; exact Hg2|]. split; [exact Hk2|].
      rewrite (data_pair _ _ _ _ _ _ Hj Hin Hk1 Hg2 Hk2). exact Hu.
  Qed.

  Lemma second_space_shape S : S <> S_local ->
    ids_space (ps_ids s2) S = iota (n_in s2 S) /\ length (emitted_ids e1 S) = n_in s2 S.
  Proof.
    intros HL. pose proof TT as (P1 & E1 & P2 & E2).
    destruct (N.eq_dec (match S with S_type => 0 | _ => 1 end) 0)%N as [Ety|Ety].
    - assert (S = S_type) by (destruct S; try reflexivity; discriminate). subst S.
      destruct (WV.Proofs.ModFix3.reparse_types_arena _ _ _ _ _ _ _ P1 E1 P2) as (_ & _ & Hii).
      unfold n_in. cbn [ids_space]. rewrite Hii, iota_length. split; [reflexivity|].
      rewrite (WV.Proofs.ModFix3.out_types_keys _ _ _ E1), map_length.
      destruct (emitM_x2i _ _ _ _ E1) as (fs & _ & Xt & _).
      unfold emitted_ids. cbn [space_map]. rewrite Xt, number_fst, map_length. reflexivity.
    - assert (HS : S <> S_type) by (intros ->; apply Ety; reflexivity). split.
      + apply (ids_space_n _ _ _ _ P2 S HS HL).
      + rewrite (emitted_count _ _ _ _ _ _ _ P1 E1 S HS HL). symmetry. apply (WV.Proofs.ModFix13.n_in_kept _ _ _ _ _ _ _ _ TT S HS HL).
  Qed.

  Theorem idx_fixed_nonlocal : (forall S, rho_id s2 e2 S) ->
    forall S id i fid lmap2, S <> S_local -> get_idx (em_x2i e1) S id = Ok i ->
      id2i_fun (em_x2i e2) lmap2 S (i2id_fun (ps_ids s2) fid S i) = i.
  Proof.
    intros RID S id i fid lmap2 HL Hg. pose proof TT as (P1 & E1 & P2 & E2).
    destruct (second_space_shape S HL) as (Hids & Hlen).
    assert (Hlt : N.to_nat i < n_in s2 S).
    { apply (x2i_positions _ _ _ _ (parsed_wf_space _ _ _ _ _ _ _ S P1 E1 HL)) in Hg.
      rewrite <- Hlen. unfold emitted_ids. apply nth_error_Some. congruence. }
    pose proof (RID S i) as Hr. unfold n_in in Hlt. specialize (Hr Hlt). unfold rho in Hr.
    rewrite Hids in Hr. fold (n_in s2 S) in Hlt. rewrite (iota_nth _ _ Hlt), N2Nat.id in Hr.
    assert (Hi : i2id_fun (ps_ids s2) fid S i = i).
    { assert (G : i2id_fun (ps_ids s2) fid S i = nth (N.to_nat i) (ids_space (ps_ids s2) S) 4294967295%N)
        by (destruct S; try reflexivity; congruence).
      rewrite G, Hids. erewrite nth_error_nth; [|apply iota_nth; exact Hlt]. apply N2Nat.id. }
    rewrite Hi. exact (id2i_of_get _ _ _ _ _ HL Hr).
  Qed.

  Theorem F_from : Lidx_holds ilen s1 e1 s2 e2 -> F_holds ilen s1 e1 s2 e2.
  Proof.
    intros HL id j f1 lf1 ef1 f2 lf2 ef2 Hg1 Hk1 Hj Hg2 Hk2 He1 He2. pose proof TT as (P1 & E1 & P2 & E2).
    pose proof (bt_both id j f1 lf1 ef1 (ef_lmap ef2) Hg1 Hk1 He1) as HB.
    destruct (first_trip_function _ _ _ _ _ _ _ _ _ _ V P1 Hg1 Hk1 He1)
      as (t & ety & l & eloc & evs & decls & lmap & st & A1 & A2 & A3 & A4 & A5 & A6 & A7 & A8 & A9 & A10).
    pose proof (fun lid => HL id j f1 lf1 ef1 f2 lf2 ef2 evs lid Hg1 Hk1 Hj Hg2 Hk2 He1 He2 A5) as HL'. rewrite A10 in HL'. clear HL.
    rewrite A9 in *. cbn [wb_ops] in *.
    rewrite (WV.Proofs.ModFix10.emitted_ops_fst _ _ _ _ _ _ _ _ _ _ A2 A3 A8) in *.
    rewrite Forall_forall in *. intros x Hx. specialize (HB x Hx).
    destruct x as [o|bt|bt|bt| | | | | |]; cbn [WV.Proofs.Fixpoint.ins_fixed]; try exact I; try exact (proj1 HB).
    apply (WV.Proofs.ModFix14.emitted_op_fixed _ _ _ _ _ _ _ _ _ _ (cx_of s2 j) (ecx_of e2 (ef_lmap ef2) ilen) o A2 A3 A8 Hx).
    apply WV.Proofs.ModFix14.map_idx_fixed. intros s i Hsi.
    pose proof A5 as Hd. unfold lf_log in Hd. rewrite A4 in Hd.
    destruct (WV.Proofs.ModFix14.emitted_refs _ _ _ _ _ _ _ _ _ _ _ _ o A2 A3 A8 Hd Hx s i Hsi) as (rid & Hin & ->).
    cbn [cx_of ecx_of ex_id2i px_i2id].
    destruct (N.eq_dec (match s with S_local => 0 | _ => 1 end) 0)%N as [Es|Es].
    - assert (s = S_local) by (destruct s; try reflexivity; discriminate). subst s.
      exact (HL' rid Hin).
    - assert (Hs : s <> S_local) by (intros ->; apply Es; reflexivity).
      eapply (idx_fixed_nonlocal identity_maps_V s rid); [exact Hs|].
      apply (refs_ok_get _ _ _ _ _ A7 Hin Hs).
  Qed.

End TwoTrips.

Theorem identity_maps_holds cf ver w ilen s1 e1 s2 e2 :
  two_trips cf ver w ilen s1 e1 s2 e2 -> valid_stream w -> W_holds ilen s1 e1 s2 -> second_size_W_stmt ->
  forall S, rho_id s2 e2 S.
Proof. intros TT V _ _. exact (identity_maps_V _ _ _ _ _ _ _ _ TT V). Qed.

Theorem fix_code_from_WFD cf ver w ilen s1 e1 s2 e2 :
  two_trips cf ver w ilen s1 e1 s2 e2 -> valid_stream w ->
  W_holds ilen s1 e1 s2 -> F_holds ilen s1 e1 s2 e2 -> D_holds ilen s1 e1 s2 e2 ->
  flat_map code_of (em_secs e2) = flat_map code_of (em_secs e1).
Proof.
  intros TT V HW HF HD. eapply fix_code_from; [exact TT|eapply sizes_stable_V; eauto|eapply function_body_stable_from; eauto].
Qed.

Theorem function_body_stable_V cf ver w ilen s1 e1 s2 e2 :
  two_trips cf ver w ilen s1 e1 s2 e2 -> valid_stream w ->
  Lidx_holds ilen s1 e1 s2 e2 -> D_holds ilen s1 e1 s2 e2 -> function_body_stable_l ilen s1 e1 s2 e2.
Proof.
  intros TT V HL HD. eapply function_body_stable_from; [exact TT|exact V|eapply W_holds_V; eauto|eapply F_from; eauto|exact HD].
Qed.

Theorem code_fix_15 cf ver w ilen s1 e1 s2 e2 :
  two_trips cf ver w ilen s1 e1 s2 e2 -> valid_stream w ->
  Lidx_holds ilen s1 e1 s2 e2 -> D_holds ilen s1 e1 s2 e2 ->
  WV.Proofs.ModFix6.sizes_stable s1 e1 s2 /\
  flat_map code_of (em_secs e2) = flat_map code_of (em_secs e1) /\
  (WV.Proofs.ModFix5.sg_uses (ps_m s2) <-> WV.Proofs.ModFix5.sg_uses (ps_m s1)) /\
  W_holds ilen s1 e1 s2 /\
  (forall S, rho_id s2 e2 S).
Proof.
  intros TT V HL HD. pose proof (sizes_stable_V _ _ _ _ _ _ _ _ TT V) as SS.
  split; [exact SS|]. split; [exact (fix_code_from _ _ _ _ _ _ _ _ TT SS (function_body_stable_V _ _ _ _ _ _ _ _ TT V HL HD))|].
  split; [eapply sg_uses_stable_V; eauto|]. split; [eapply W_holds_V; eauto|eapply identity_maps_V; eauto].
Qed.

(* the used locals of the re-parsed function *)
Theorem used_pair cf ver w ilen s1 e1 s2 e2 id j f1 lf1 f2 lf2 ef1 evs1 :
  two_trips cf ver w ilen s1 e1 s2 e2 -> valid_stream w ->
  get_idx (em_x2i e1) S_func id = Ok j ->
  aget (m_funcs (ps_m s1)) id = Some f1 -> fn_kind f1 = FK_Local lf1 ->
  aget (m_funcs (ps_m s2)) j = Some f2 -> fn_kind f2 = FK_Local lf2 ->
  emit_function (ps_m s1) (em_x2i e1) ilen id lf1 = Ok ef1 -> lf_log lf1 = Ok evs1 ->
  exists evs2, lf_log lf2 = Ok evs2 /\
    used_of_log evs2 = map (i2id_fun (ps_ids s2) j S_local)
                           (map (id2i_fun (em_x2i e1) (ef_lmap ef1) S_local) (used_of_log evs1)).
Proof.
  intros TT V Hj Hg1 Hk1 Hg2 Hk2 He1 Hl1. pose proof TT as (P1 & E1 & P2 & E2).
  pose proof (W_holds_V _ _ _ _ _ _ _ _ TT V) as HW.
  destruct (emitM_x2i _ _ _ _ E1) as (fs1 & Hfs1 & _).
  destruct (second_trip_functions _ _ _ _ _ _ _ _ _ TT Hfs1 _ _ _ _ _ _ Hj Hg1 Hk1 Hg2 Hk2)
    as (k & ef1' & t2 & ety2 & _ & _ & _ & _ & He1' & Ht2 & Hety2 & Hen2 & Hpb2 & _).
  rewrite He1 in He1'. injection He1' as <-.
  destruct (first_trip_function _ _ _ _ _ _ _ _ _ _ V P1 Hg1 Hk1 He1)
    as (t & ety & l & eloc & evs & decls & lmap & st & A1 & A2 & A3 & A4 & A5 & A6 & A7 & A8 & A9 & A10).
  rewrite Hl1 in A5. injection A5 as <-.
  specialize (HW _ _ _ _ _ Hg1 Hk1 Hj He1). rewrite A9 in HW, Hpb2. cbn [wb_ops] in HW, Hpb2. rewrite A10.
  destruct (WV.Proofs.ModFix10.emitted_ops_shape _ _ _ _ _ _ _ _ _ _ (cx_of s2 j) A2 A3 A8 HW)
    as (L1 & eloc1 & Hops & HW1 & _ & Hp2).
  fold (cx_of s2 j) in Hpb2. pose proof Hpb2 as Hpb2'. rewrite Hp2 in Hpb2'. injection Hpb2' as Har2.
  pose proof (parsed_log _ _ _ _ _ HW1 (eq_sym Har2) Hen2) as Hlog2.
  eexists. split; [exact Hlog2|].
  pose proof Hlog2 as Hd2. unfold lf_log in Hd2. rewrite Hen2 in Hd2.
  pose proof Hl1 as Hd1. unfold lf_log in Hd1. rewrite A4 in Hd1.
  rewrite (WV.Proofs.ModFix14.second_used_W _ _ _ _ _ _ _ _ _ _ (cx_of s2 j) ety2 (ty_results t2) (lf_arena lf2) _ _
             A2 A3 A8 HW Hpb2 Hd2).
  rewrite (WV.Proofs.ModFix10.emitted_ops_fst _ _ _ _ _ _ _ _ _ _ A2 A3 A8).
  destruct (WV.Proofs.ModFix10.trip_locals _ _ _ _ _ _ _ _ _ _ _ _ A2 (WV.Proofs.ModFix10.enc_ok_all _ _) A3 A8 Hd1) as [TL _].
  rewrite TL. reflexivity.
Qed.

Print Assumptions TY_holds_holds.
Print Assumptions W_holds_V.
Print Assumptions second_size_W_stmt_holds.
Print Assumptions sizes_stable_V.
Print Assumptions identity_maps_V.
Print Assumptions identity_maps_holds.
Print Assumptions fix_code_from.
Print Assumptions function_body_stable_from.
Print Assumptions fix_code_from_WFD.
Print Assumptions sg_uses_stable_V.
Print Assumptions idx_fixed_nonlocal.
Print Assumptions F_from.
Print Assumptions function_body_stable_V.
Print Assumptions code_fix_15.
Print Assumptions used_pair.
