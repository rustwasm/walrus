(* C04 / C19: (A) every input function of a parsed module has an emitted index, so the signature theorem
   of Proofs/Structure2.v holds without that premise, and input index -> emitted index is a bijection of
   [0, number of functions); (B) the emit-time LOCAL maps recorded in the emitted record are the
   numbering computed by [emit_locals]. *)
From Coq Require Import List NArith ZArith Bool Arith Lia Permutation.
Import ListNotations.
From WV Require Import Gen.Ops Model.Common Model.IR Model.Arena Model.Traversal Model.EmitFn Model.Locals
                       Model.ParseFn Model.ModuleM Model.ParseM Model.EmitM Gen.Attrs.
From WV Require Import Proofs.Arena Proofs.Order Proofs.IndexMaps Proofs.Names Proofs.Totality Proofs.TotalityBodies
                       Proofs.CustomsCfg Proofs.Locals2 Proofs.Structure Proofs.ParsedWf Proofs.Structure2
                       Proofs.Renumbering Proofs.Locals3.
Local Open Scope nat_scope.

(* A. functions *)

(* the number of input functions (imported + defined) = the number of type indices the import and
   function payloads of the stream declare *)
Lemma n_in_func_stream cf ver w s : parseM cf ver w = POk s -> n_in s S_func = length (flat_map sec_ftys w).
Proof.
  intros HP. rewrite (n_in_arena _ _ _ _ HP) by discriminate. cbn [arena_len].
  destruct (parseM_sigs _ _ _ _ HP) as [_ HF]. unfold FInv in HF. apply Forall2_length in HF.
  rewrite HF. unfold K_fty. symmetry. apply map_length.
Qed.

Lemma func_idx_rho cf ver w s e i : parseM cf ver w = POk s -> i < length (flat_map sec_ftys w) ->
  rho s e S_func (N.of_nat i) = get_idx (em_x2i e) S_func (N.of_nat i).
Proof.
  intros HP Hi. apply rho_entity_conv; [exact (parseM_ids _ _ _ _ HP)|discriminate|discriminate|].
  rewrite Nat2N.id. fold (n_in s S_func). rewrite (n_in_func_stream _ _ _ _ HP). exact Hi.
Qed.

Theorem parsed_funcs_all_emitted : forall cf ver w s ilen dw e,
  parseM cf ver w = POk s -> emitM (ps_m s) ilen dw = Ok e ->
  forall i, i < length (flat_map sec_ftys w) ->
    exists j, get_idx (em_x2i e) S_func (N.of_nat i) = Ok j /\ N.to_nat j < length (flat_map sec_ftys w).
Proof.
  intros cf ver w s ilen dw e HP HE i Hi.
  destruct (rho_total _ _ _ _ _ _ _ HP HE S_func (N.of_nat i)) as [j [Hj Hlt]]; try discriminate.
  { rewrite Nat2N.id, (n_in_func_stream _ _ _ _ HP). exact Hi. }
  exists j. rewrite <- (func_idx_rho _ _ _ _ e i HP Hi). split; [exact Hj|].
  rewrite <- (n_in_func_stream _ _ _ _ HP). exact Hlt.
Qed.

(* a declared type index of the stream is always in range of the stream's types *)
Lemma parsed_fty_in_range cf ver w s i ti : parseM cf ver w = POk s -> nth_error (flat_map sec_ftys w) i = Some ti ->
  exists t, nth_error (flat_map types_of w) (N.to_nat ti) = Some t.
Proof.
  intros HP Hi. destruct (parseM_sigs _ _ _ _ HP) as [[HL _] HF].
  destruct (Forall2_nth_l _ _ _ _ _ HF Hi) as (c & _ & Hty). unfold nth_N in Hty.
  assert (L : N.to_nat ti < length (flat_map types_of w)) by (rewrite <- HL; apply nth_error_Some; congruence).
  apply nth_error_Some in L. destruct (nth_error (flat_map types_of w) (N.to_nat ti)) as [t|]; [eauto|congruence].
Qed.

(* every input function keeps its signature; no premise about the emit-time map *)
Theorem structure_func_sigs_unconditional : forall cf ver w s ilen dw e,
  parseM cf ver w = POk s -> emitM (ps_m s) ilen dw = Ok e -> dw_custom dw ->
  forall i ti, nth_error (flat_map sec_ftys w) i = Some ti ->
    exists t j tj, nth_error (flat_map types_of w) (N.to_nat ti) = Some t /\
                   get_idx (em_x2i e) S_func (N.of_nat i) = Ok j /\
                   nth_error (out_ftys e) (N.to_nat j) = Some tj /\ nth_error (out_types e) (N.to_nat tj) = Some t.
Proof.
  intros cf ver w s ilen dw e HP HE Hdw i ti Hi.
  destruct (parsed_fty_in_range _ _ _ _ _ _ HP Hi) as [t Ht].
  assert (L : i < length (flat_map sec_ftys w)) by (apply nth_error_Some; congruence).
  destruct (parsed_funcs_all_emitted _ _ _ _ _ _ _ HP HE i L) as (j & Hj & _).
  destruct (structure_func_sigs _ _ _ _ _ _ _ HP HE Hdw i ti t j Hi Ht Hj) as (tj & H1 & H2).
  exists t, j, tj. auto.
Qed.

(* the output declares exactly as many functions as the emit-time function map has entries *)
Lemma out_ftys_length m ilen dw e : emitM m ilen dw = Ok e -> dw_custom dw ->
  length (out_ftys e) = length (emitted_ids e S_func).
Proof.
  intros He Hdw.
  destruct (emitM_x2i _ _ _ _ He) as (fs & Hfs & _ & HXF & _).
  destruct (out_decls _ _ _ _ He Hdw) as (s_ty & x1 & s_im & x2 & s_fn & x3 & Ety & Eim & Efn & HO & _).
  destruct (emit_imports_ftys _ _ _ _ Eim) as (ws & Ews & Fws). apply imports_align in Fws.
  destruct (emit_func_section_ftys _ _ _ _ Efn) as (fs' & tis & Hfs' & Etis & Ftis).
  rewrite Hfs in Hfs'. inversion Hfs'; subst fs'; clear Hfs'.
  unfold emitted_ids. cbn [space_map]. rewrite HXF, number_fst, HO, Ews, Etis, !app_length, map_length.
  apply Forall2_length in Fws. apply Forall2_length in Ftis. lia.
Qed.

(* input function index -> emitted function index is a bijection of [0, n), n = the number of functions of
   the input = the number of functions the output declares *)
Theorem func_renumbering_bijective : forall cf ver w s ilen dw e,
  parseM cf ver w = POk s -> emitM (ps_m s) ilen dw = Ok e -> dw_custom dw ->
  let n := length (flat_map sec_ftys w) in
  let f := fun i : nat => get_idx (em_x2i e) S_func (N.of_nat i) in
  length (out_ftys e) = n /\
  (forall i, i < n -> exists j, f i = Ok j /\ N.to_nat j < n) /\
  (forall i i' j, f i = Ok j -> f i' = Ok j -> i = i') /\
  (forall j, N.to_nat j < n -> exists i, i < n /\ f i = Ok j) /\
  (forall i j, f i = Ok j -> i < n).
Proof.
  intros cf ver w s ilen dw e HP HE Hdw n f. subst n f. cbv beta.
  pose proof (n_in_func_stream _ _ _ _ HP) as Hn.
  assert (W : wf_map (space_map (em_x2i e) S_func)) by (apply (parsed_wf_space _ _ _ _ _ _ _ S_func HP HE); discriminate).
  split; [|split; [|split; [|split]]].
  - rewrite (out_ftys_length _ _ _ _ HE Hdw), <- Hn. apply (emitted_count _ _ _ _ _ _ _ HP HE); discriminate.
  - apply (parsed_funcs_all_emitted _ _ _ _ _ _ _ HP HE).
  - intros i i' j H1 H2. apply (x2i_positions _ _ _ _ W) in H1. apply (x2i_positions _ _ _ _ W) in H2. apply Nat2N.inj. congruence.
  - intros j Hj. rewrite <- Hn in Hj.
    destruct (rho_onto _ _ _ _ _ _ _ HP HE S_func j) as (i & Hi & Hr); try discriminate.
    { rewrite (emitted_count _ _ _ _ _ _ _ HP HE) by discriminate. exact Hj. }
    rewrite Hn in Hi. exists (N.to_nat i). split; [exact Hi|].
    rewrite <- (func_idx_rho _ _ _ _ e (N.to_nat i) HP Hi), N2Nat.id. exact Hr.
  - intros i j H. apply (x2i_positions _ _ _ _ W) in H. apply nth_error_In in H.
    fold (emitted_ids e S_func) in H. apply (emitted_full _ _ _ _ _ _ _ HP HE) in H; try discriminate.
    rewrite Nat2N.id, Hn in H. exact H.
Qed.

(* B. the emit-time LOCAL maps *)
(*    The emitted record exposes them twice: [em_fns e] (one [emitted_fn] per emitted local *)
(*    function: [ef_id], [ef_lmap], [ef_used], the body with its [wb_locals]) and *)
(*    [xi_locals (em_x2i e)] = the (function id, local map) pairs handed to the custom *)
(*    sections; [emit_names] reads [ef_lmap] through [find (fun q => fst q =? lid)]. *)
Lemma xi_locals_push_all S : forall ids x, xi_locals (push_all S ids x) = xi_locals x.
Proof.
  induction ids as [|i r IH]; intros x; cbn [push_all fold_left]; [reflexivity|].
  fold (push_all S r (push_idx x S i)). rewrite IH. unfold push_idx. apply xi_locals_set.
Qed.
Lemma xi_locals_push_imports : forall l x, xi_locals (fold_left push_import l x) = xi_locals x.
Proof.
  induction l as [|i r IH]; intros x; cbn [fold_left]; [reflexivity|]. rewrite IH.
  unfold push_import, push_idx. destruct (im_kind i); apply xi_locals_set.
Qed.

(* what [emit_function] records for function [p] *)
Definition fn_lmap_spec (m : wir) (p : N * mlocalfunc) (ef : emitted_fn) : Prop :=
  ef_id ef = fst p /\
  exists evs, lf_log (snd p) = Ok evs /\
    ef_lmap ef = snd (emit_locals (local_ty_fn m) (lf_args (snd p)) (used_of_log evs)) /\
    wb_locals (ef_body ef) = fst (emit_locals (local_ty_fn m) (lf_args (snd p)) (used_of_log evs)) /\
    ef_used ef = sort_ids (used_of_log evs ++ lf_args (snd p)).

Lemma emit_function_lmap m x ilen id lf ef : emit_function m x ilen id lf = Ok ef -> fn_lmap_spec m (id, lf) ef.
Proof.
  unfold emit_function, fn_lmap_spec. intros H. rinv H as evs Ev. cbn [fst snd].
  destruct (emit_locals (local_ty_fn m) (lf_args lf) (used_of_log evs)) as [decls lmap] eqn:EL.
  destruct (negb (refs_ok x lmap evs)); [discriminate|]. rinv H as st Est. inversion H; subst ef; clear H.
  cbn [ef_id ef_lmap ef_body ef_used wb_locals]. split; [reflexivity|]. exists evs. rewrite EL. cbn [fst snd]. auto.
Qed.

Lemma emit_code_fns m x ilen s x' efs : emit_code m x ilen = Ok (s, x', efs) -> xi_locals x = [] ->
  exists fs, used_local_functions m = Ok fs /\ Forall2 (fn_lmap_spec m) fs efs /\
             xi_locals x' = map (fun ef => (ef_id ef, ef_lmap ef)) efs.
Proof.
  unfold emit_code. intros H X0. rinv H as fs Efs. exists fs. split; [exact Efs|]. clear Efs.
  destruct fs as [|p r].
  - inversion H; subst. split; [constructor|exact X0].
  - rinv H as efs' Eefs. inversion H; subst; clear H. cbn [xi_locals]. split; [|reflexivity].
    apply rmapM_ok_inv in Eefs. eapply Forall2_impl; [|exact Eefs]. intros [id lf] ef Hef. cbn [fst snd] in Hef.
    eapply emit_function_lmap; eauto.
Qed.

Lemma emitM_fns m ilen dw e : emitM m ilen dw = Ok e ->
  exists x s_co, emit_code m x ilen = Ok (s_co, em_x2i e, em_fns e) /\ xi_locals x = [].
Proof.
  intros H. destruct (emitM_split _ _ _ _ H) as (front & x & efs & nm & Ef & _ & ->). unfold set_customs_take in Ef.
  destruct (emit_front_inv _ _ _ _ _ Ef) as
    [s_ty x1 s_im x2 s_fn x3 x4 x5 s_gl x6 s_ex s_st s_el x9 s_dc x10 s_co s_da E1 E2 E3 F4 F5 E6 _ _ E9 E10 E11 _ _].
  exists x10, s_co. split; [exact E11|].
  pose proof (emit_types_x m empty_x2i) as F1. rewrite E1 in F1. cbn [snd] in F1.
  apply emit_imports_x in E2. apply emit_func_section_x in E3. destruct E3 as (fs & _ & E3).
  rewrite emit_tables_x in F4. rewrite emit_memories_x in F5.
  apply emit_globals_x in E6. apply emit_elements_x in E9. apply emit_data_count_x in E10.
  assert (X9 : xi_locals x9 = []).
  { rewrite E9, xi_locals_push_all, E6, xi_locals_push_all, F5, xi_locals_push_all, F4, xi_locals_push_all,
            E3, xi_locals_push_all, E2, xi_locals_push_imports, F1, xi_locals_push_all. reflexivity. }
  rewrite E10. destruct (aiter (m_data m)); [exact X9|]. rewrite xi_locals_set. exact X9.
Qed.

(* B1. for every emitted local function the recorded local map IS the numbering [emit_locals] computes from
   the function's parameters and the locals its body uses; the declared runs are the other component *)
Theorem emit_local_map_is_numbering : forall m ilen dw e, emitM m ilen dw = Ok e ->
  exists fs, used_local_functions m = Ok fs /\
    Forall2 (fn_lmap_spec m) fs (em_fns e) /\
    xi_locals (em_x2i e) = map (fun ef => (ef_id ef, ef_lmap ef)) (em_fns e) /\
    map fst (xi_locals (em_x2i e)) = map fst fs /\
    (forall id lf, In (id, lf) fs -> exists f, In (id, f) (aiter (m_funcs m)) /\ fn_kind f = FK_Local lf).
Proof.
  intros m ilen dw e HE. destruct (emitM_fns _ _ _ _ HE) as (x & s_co & Ec & X0).
  destruct (emit_code_fns _ _ _ _ _ _ Ec X0) as (fs & Hfs & F & XL). exists fs.
  split; [exact Hfs|]. split; [exact F|]. split; [exact XL|]. split.
  - rewrite XL, map_map. cbn [fst]. clear -F. induction F as [|p ef fs efs Hp F IH]; [reflexivity|].
    cbn [map]. rewrite IH. destruct Hp as [-> _]. reflexivity.
  - intros id lf Hin. eapply ulf_in; eauto.
Qed.

(*     hence (Proofs/Locals3.v) it is a type-preserving bijection  params ∪ used locals <-> [0, n),
       n = the number of locals of the emitted function, that fixes the parameters.  The premise is that the
       function's parameter ids are pairwise distinct (needed: locals_params_fixed_refuted). *)
Theorem emit_local_map_bijective : forall m p ef, fn_lmap_spec m p ef -> NoDup (lf_args (snd p)) ->
  exists evs, lf_log (snd p) = Ok evs /\
    let ty := local_ty_fn m in let args := lf_args (snd p) in let used := used_of_log evs in
    let lmap := ef_lmap ef in
    let n := length (map ty args ++ expand (wb_locals (ef_body ef))) in
    (forall l, In l args \/ In l used -> exists j, lookup l lmap = Some j /\ (j < N.of_nat n)%N) /\
    (forall l j, lookup l lmap = Some j -> In l args \/ In l used) /\
    (forall l1 l2 j, lookup l1 lmap = Some j -> lookup l2 lmap = Some j -> l1 = l2) /\
    (forall j, (j < N.of_nat n)%N -> exists l, (In l args \/ In l used) /\ lookup l lmap = Some j) /\
    (forall k a, nth_error args k = Some a -> lookup a lmap = Some (N.of_nat k)) /\
    (forall l j, lookup l lmap = Some j ->
       nth_error (map ty args ++ expand (wb_locals (ef_body ef))) (N.to_nat j) = Some (ty l)).
Proof.
  intros m p ef (_ & evs & Hl & H1 & H2 & _) ND. exists evs. split; [exact Hl|]. cbv zeta.
  rewrite H1, H2. apply locals_renaming_consistent; [exact ND|]. apply surjective_pairing.
Qed.

Lemma typed_map_eq (ty : N -> valty) : forall L E, Forall2 (fun id t => valty_code t = valty_code (ty id)) L E -> map ty L = E.
Proof.
  intros L E F. induction F as [|id t L E Ht F IH]; [reflexivity|]. cbn [map]. rewrite IH.
  f_equal. symmetry. apply valty_code_inj. exact Ht.
Qed.

(* B2. looking a local up in the recorded map gives its POSITION in the emitted function's locals:
   [order] lists the parameters first and then the declared locals run by run; the types along [order]
   are exactly the parameter types followed by the expanded declaration *)
Theorem emit_local_map_lookup_is_position : forall m p ef, fn_lmap_spec m p ef ->
  exists evs, lf_log (snd p) = Ok evs /\
    let ty := local_ty_fn m in let args := lf_args (snd p) in
    let order := locals_order ty args (used_of_log evs) in
    firstn (length args) order = args /\
    map ty order = map ty args ++ expand (wb_locals (ef_body ef)) /\
    length (ef_lmap ef) = length order /\
    (forall l j, lookup l (ef_lmap ef) = Some j -> nth_error order (N.to_nat j) = Some l) /\
    (NoDup args -> forall l k, nth_error order k = Some l -> lookup l (ef_lmap ef) = Some (N.of_nat k)).
Proof.
  intros m p ef (_ & evs & Hl & H1 & H2 & _). exists evs. split; [exact Hl|]. cbv zeta.
  set (ty := local_ty_fn m) in *. set (args := lf_args (snd p)) in *. set (used := used_of_log evs) in *.
  assert (E : emit_locals ty args used = (wb_locals (ef_body ef), ef_lmap ef)).
  { rewrite H1, H2. apply surjective_pairing. }
  split; [|split; [|split; [|split]]].
  - unfold locals_order. rewrite firstn_app, firstn_all, Nat.sub_diag. cbn [firstn]. apply app_nil_r.
  - pose proof E as E'. rewrite emit_locals_eq in E'. inversion E' as [[Hd Hm]]. clear E'.
    unfold locals_order. rewrite map_app. f_equal. apply typed_map_eq. apply order_typed.
  - pose proof E as E'. rewrite emit_locals_eq in E'. inversion E' as [[Hd Hm]]. clear E'.
    rewrite combine_length, map_length, seq_length. apply Nat.min_id.
  - intros l j H. eapply lookup_order; eauto.
  - intros ND l k H. eapply order_lookup; eauto.
Qed.

(* the two, for every function of an emitted module *)
Corollary emit_local_maps_all : forall m ilen dw e, emitM m ilen dw = Ok e ->
  forall ef, In ef (em_fns e) ->
    exists id f lf, In (id, f) (aiter (m_funcs m)) /\ fn_kind f = FK_Local lf /\ ef_id ef = id /\
                    In (id, ef_lmap ef) (xi_locals (em_x2i e)) /\ fn_lmap_spec m (id, lf) ef.
Proof.
  intros m ilen dw e HE ef Hin. destruct (emit_local_map_is_numbering _ _ _ _ HE) as (fs & Hfs & F & XL & _ & Hf).
  assert (X : exists p, In p fs /\ fn_lmap_spec m p ef).
  { clear -F Hin. induction F as [|p ef' fs efs Hp F IH]; [destruct Hin|]. destruct Hin as [->|Hin].
    - exists p. split; [left; reflexivity|exact Hp].
    - destruct (IH Hin) as (q & Hq & Hs). exists q. split; [right; exact Hq|exact Hs]. }
  destruct X as ([id lf] & Hp & Hs). destruct (Hf _ _ Hp) as (f & Hf1 & Hf2).
  exists id, f, lf. split; [exact Hf1|]. split; [exact Hf2|]. pose proof Hs as [Hid _]. cbn [fst] in Hid.
  split; [exact Hid|]. split; [|exact Hs]. rewrite XL, <- Hid. apply (in_map (fun ef => (ef_id ef, ef_lmap ef))). exact Hin.
Qed.

(* C. the premise of B holds after a parse: the parameter ids of every local function of a *)
(*    parsed module are pairwise distinct (they are fresh consecutive arena ids) *)
Definition nlk (k : mfunckind) : Prop := match k with FK_Local _ => False | _ => True end.
Definition NL (m : wir) : Prop := Forall nlk (K_funcs m).

(* the sections add imported and uninitialised functions only *)
Lemma step_NL st m ids m' ids' : sec_step st -> NL m -> do_step st m ids = POk (m', ids') -> NL m'.
Proof.
  intros S H E. unfold NL, K_funcs in *.
  destruct st; try destruct S; try (rewrite (step_keeps m_funcs _ _ _ _ _ E (fun _ _ => eq_refl)); exact H); cbn [do_step] in E.
  - unfold parse_import in E. destruct (wi_kind i); [pinv E as t Et| | |]; wcbn; injection E as <- _; wcbn; try exact H.
    rewrite map_app. apply Forall_app. split; [exact H|]. repeat constructor.
  - pinv E as t Et. wcbn. injection E as <- _. destruct (synth _ _ _); wcbn.
    + rewrite upd_map by (intros x; reflexivity). rewrite map_app. apply Forall_app. split; [exact H|]. repeat constructor.
    + rewrite map_app. apply Forall_app. split; [exact H|]. repeat constructor.
Qed.

Lemma prepare_bodies_args : forall bs m ids ni i m' ids' ps, prepare_bodies m ids ni i bs = POk (m', ids', ps) ->
  Forall (fun p => NoDup (pr_args p)) ps.
Proof.
  induction bs as [|b r IH]; intros m ids ni i m' ids' ps E; cbn [prepare_bodies] in E.
  - injection E as _ _ <-. constructor.
  - pinv E as fid Efid. pinv E as f Ef. destruct (fn_kind f); try discriminate. pinv E as t Et.
    destruct (add_locals m ids fid (ty_params t) _) as [[m1 ids1] args] eqn:E1.
    destruct (types_insert m1 _) as [m2 tid]. destruct (add_locals m2 ids1 fid _ _) as [[m3 ids3] ls].
    pinv E as x Ex. destruct x as [[m4 ids4] rest]. injection E as _ _ <-.
    constructor; [|exact (IH _ _ _ _ _ _ _ Ex)]. cbn [pr_args]. apply add_locals_spec in E1. destruct E1 as [-> _].
    apply Proofs.Order.NoDup_map_inj; [apply Nat2N.inj|apply seq_NoDup].
Qed.

Lemma parse_one_body_args m ids p lf : parse_one_body m ids p = POk lf -> lf_args lf = pr_args p.
Proof.
  unfold parse_one_body. intros E. pinv E as t Et. pinv E as ety Eety.
  destruct (parse_body _ _ _ _); try discriminate. inversion E; reflexivity.
Qed.

Theorem parsed_args_NoDup : forall cf ver w s, parseM cf ver w = POk s ->
  forall id f lf, aget (m_funcs (ps_m s)) id = Some f -> fn_kind f = FK_Local lf -> NoDup (lf_args lf).
Proof.
  intros cf ver w s E id f lf Hg Hk. apply parseM_shape in E.
  destruct E as (s1 & m1 & ids1 & ps & m2 & E1 & E2 & E3 & ->). cbv zeta in Hg.
  change (m_funcs (ps_m _)) with (m_funcs (fold_left (fun m n => parse_names m ids1 n) (ps_names s1) m2)) in Hg.
  apply fold_names_kinds in Hg. destruct Hg as (fn2 & Hg2 & Hk2). rewrite Hk in Hk2.
  pose proof (prepare_bodies_args _ _ _ _ _ _ _ _ E2) as Fa.
  assert (Fu : m_funcs m1 = m_funcs (ps_m s1)).
  { apply (prepare_bodies_keeps m_funcs _ _ _ _ _ _ _ _) with (2 := E2). intros [] K; try destruct K; intros ? ?; reflexivity. }
  destruct (install_kinds _ _ _ _ E3 id fn2 Hg2) as [(lf' & p & m0 & Hk' & Hin & _ & _ & Hp)|(_ & fn1 & Hg1 & Hk1)].
  - rewrite Hk' in Hk2. inversion Hk2; subst lf'. rewrite (parse_one_body_args _ _ _ _ Hp).
    rewrite Forall_forall in Fa. apply Fa. exact Hin.
  - exfalso. rewrite Fu in Hg1. apply Structure.aget_nth in Hg1.
    assert (N0 : NL (ps_m s1)).
    { refine (parse_secs_sec_inv (fun m _ => NL m) step_NL _ _ _ _ E1). constructor. }
    unfold NL, K_funcs in N0. rewrite Forall_forall in N0.
    specialize (N0 (fn_kind fn1) (in_map fn_kind _ _ (nth_error_In _ _ Hg1))).
    rewrite <- Hk1, <- Hk2 in N0. exact N0.
Qed.

(* B + C: for a parsed module every recorded local map is a bijection onto [0, n) that fixes the parameters,
   preserves types and is the position in the emitted locals; no side condition left *)
Theorem parsed_local_maps_bijective : forall cf ver w s ilen dw e,
  parseM cf ver w = POk s -> emitM (ps_m s) ilen dw = Ok e ->
  forall ef, In ef (em_fns e) ->
  exists f lf evs, In (ef_id ef, f) (aiter (m_funcs (ps_m s))) /\ fn_kind f = FK_Local lf /\ lf_log lf = Ok evs /\
    NoDup (lf_args lf) /\
    let ty := local_ty_fn (ps_m s) in let args := lf_args lf in let used := used_of_log evs in
    let lmap := ef_lmap ef in
    let order := locals_order ty args used in
    let tys := map ty args ++ expand (wb_locals (ef_body ef)) in
    lmap = snd (emit_locals ty args used) /\ wb_locals (ef_body ef) = fst (emit_locals ty args used) /\
    map ty order = tys /\ length lmap = length tys /\
    (forall l k, lookup l lmap = Some (N.of_nat k) <-> nth_error order k = Some l) /\
    (forall l, In l args \/ In l used -> exists j, lookup l lmap = Some j /\ (j < N.of_nat (length tys))%N) /\
    (forall l j, lookup l lmap = Some j -> In l args \/ In l used) /\
    (forall l1 l2 j, lookup l1 lmap = Some j -> lookup l2 lmap = Some j -> l1 = l2) /\
    (forall j, (j < N.of_nat (length tys))%N -> exists l, (In l args \/ In l used) /\ lookup l lmap = Some j) /\
    (forall k a, nth_error args k = Some a -> lookup a lmap = Some (N.of_nat k)) /\
    (forall l j, lookup l lmap = Some j -> nth_error tys (N.to_nat j) = Some (ty l)).
Proof.
  intros cf ver w s ilen dw e HP HE ef Hin.
  destruct (emit_local_maps_all _ _ _ _ HE ef Hin) as (id & f & lf & Hf & Hk & Hid & _ & Hs). subst id.
  assert (ND : NoDup (lf_args lf)).
  { apply (parsed_args_NoDup _ _ _ _ HP (ef_id ef) f lf); [apply aiter_aget; exact Hf|exact Hk]. }
  destruct (emit_local_map_bijective _ _ _ Hs ND) as (evs & Hl & B1 & B2 & B3 & B4 & B5 & B6).
  destruct (emit_local_map_lookup_is_position _ _ _ Hs) as (evs' & Hl' & P1 & P2 & P3 & P4 & P5).
  cbn [snd] in *. rewrite Hl in Hl'. inversion Hl'; subst evs'; clear Hl'.
  destruct Hs as (_ & evs' & Hl' & S1 & S2 & _). cbn [snd] in *. rewrite Hl in Hl'. inversion Hl'; subst evs'; clear Hl'.
  exists f, lf, evs. split; [exact Hf|]. split; [exact Hk|]. split; [exact Hl|]. split; [exact ND|]. cbv zeta.
  split; [exact S1|]. split; [exact S2|]. split; [exact P2|].
  split; [rewrite P3, <- P2, map_length; reflexivity|].
  split; [|repeat split; assumption].
  intros l k. split.
  - intros H. apply P4 in H. rewrite Nat2N.id in H. exact H.
  - apply P5. exact ND.
Qed.

Print Assumptions parsed_funcs_all_emitted.
Print Assumptions structure_func_sigs_unconditional.
Print Assumptions func_renumbering_bijective.
Print Assumptions emit_local_map_is_numbering.
Print Assumptions emit_local_map_bijective.
Print Assumptions emit_local_map_lookup_is_position.
Print Assumptions emit_local_maps_all.
Print Assumptions parsed_args_NoDup.
Print Assumptions parsed_local_maps_bijective.
