(* Body-level second round trip (C08): re-tagging of structured bodies, the emitted operator stream
   as a structured normal form, and its exact reproduction (instructions AND positions) by a second
   parse + emit. *)
From Coq Require Import List NArith Bool Lia Setoid. Import ListNotations.
From WV Require Import Gen.Ops Model.Common Model.IR Model.ParseFn Model.ParseSpec Model.EmitFn
  Model.BodySpec Model.Sem Model.EmitSpec Model.Traversal.
From WV Require Import Proofs.ParseFn Proofs.Codec Proofs.Body Proofs.Sem Proofs.Escalation Proofs.Fixpoint
  Proofs.EmitFn Proofs.Traversal.
Local Open Scope nat_scope.

Lemma combine_app_skipn {A B} (a b : list A) : forall (ls : list B),
  combine (a ++ b) ls = combine a ls ++ combine b (skipn (length a) ls).
Proof.
  induction a as [|x a IH]; intros ls; [reflexivity|].
  destruct ls as [|y ls]; cbn [app combine length skipn].
  - destruct b; reflexivity.
  - now rewrite IH.
Qed.
Lemma comb_cons {A} (w : A) a (ls : list N) : 1 <= length ls ->
  combine (w :: a) ls = (w, hd 0%N ls) :: combine a (tl ls).
Proof. destruct ls; cbn [length]; [lia|reflexivity]. Qed.
Lemma comb_one {A} (w : A) (ls : list N) : 1 <= length ls -> combine [w] ls = [(w, hd 0%N ls)].
Proof. intros H. rewrite comb_cons by exact H. reflexivity. Qed.
Lemma mfc_le {A B} (a : list A) : forall (b : list B), length a <= length b -> map fst (combine a b) = a.
Proof. induction a as [|x a IH]; intros [|y b] H; cbn in *; try reflexivity; try lia. f_equal. apply IH. lia. Qed.
Lemma mfc {A B} (a : list A) (b : list B) : length a = length b -> map fst (combine a b) = a.
Proof. intros H. apply mfc_le. now rewrite H. Qed.
Lemma msc {A B} (a : list A) : forall (b : list B), length a = length b -> map snd (combine a b) = b.
Proof. induction a as [|x a IH]; intros [|y b] H; cbn in *; try lia; [reflexivity|]. f_equal. apply IH. lia. Qed.
Lemma skipn_skipn {A} (a : nat) : forall b (l : list A), skipn b (skipn a l) = skipn (a + b) l.
Proof. induction a as [|a IH]; intros b l; [reflexivity|]. destruct l; cbn [skipn plus]; [now destruct b|apply IH]. Qed.
Lemma tl_skipn {A} (l : list A) : tl l = skipn 1 l.
Proof. destruct l; reflexivity. Qed.
Lemma length_tl {A} (l : list A) : length (tl l) = length l - 1.
Proof. destruct l; cbn [tl length]; lia. Qed.

Fixpoint reloc_t (t : rt) (ls : list N) {struct t} : rt * list N :=
  let rl := fix rl (l : list rt) (ls : list N) {struct l} : list rt * list N :=
      match l with
      | [] => ([], ls)
      | x :: l' => (fst (reloc_t x ls) :: fst (rl l' (snd (reloc_t x ls))), snd (rl l' (snd (reloc_t x ls))))
      end in
  match t with
  | RPlain o _ => (RPlain o (hd 0%N ls), tl ls)
  | RNop _ => (RNop (hd 0%N ls), tl ls)
  | RBr d _ => (RBr d (hd 0%N ls), tl ls)
  | RBrIf d _ => (RBrIf d (hd 0%N ls), tl ls)
  | RBrTable ds d _ => (RBrTable ds d (hd 0%N ls), tl ls)
  | RBlock bt b _ _ => (RBlock bt (fst (rl b (tl ls))) (hd 0%N ls) (hd 0%N (snd (rl b (tl ls)))), tl (snd (rl b (tl ls))))
  | RLoop bt b _ _ => (RLoop bt (fst (rl b (tl ls))) (hd 0%N ls) (hd 0%N (snd (rl b (tl ls)))), tl (snd (rl b (tl ls))))
  | RIf bt th None _ _ => (RIf bt (fst (rl th (tl ls))) None (hd 0%N ls) (hd 0%N (snd (rl th (tl ls)))), tl (snd (rl th (tl ls))))
  | RIf bt th (Some (_, el)) _ _ =>
      let r1 := rl th (tl ls) in
      let r2 := rl el (tl (snd r1)) in
      (RIf bt (fst r1) (Some (hd 0%N (snd r1), fst r2)) (hd 0%N ls) (hd 0%N (snd r2)), tl (snd r2))
  end.
Fixpoint reloc_l (l : list rt) (ls : list N) : list rt * list N :=
  match l with
  | [] => ([], ls)
  | x :: l' => (fst (reloc_t x ls) :: fst (reloc_l l' (snd (reloc_t x ls))), snd (reloc_l l' (snd (reloc_t x ls))))
  end.
Definition reloc (L : list rt) (ls : list N) : list rt := fst (reloc_l L ls).

Definition rl_inner :=
  fix rl (l : list rt) (ls : list N) {struct l} : list rt * list N :=
    match l with
    | [] => ([], ls)
    | x :: l' => (fst (reloc_t x ls) :: fst (rl l' (snd (reloc_t x ls))), snd (rl l' (snd (reloc_t x ls))))
    end.
Lemma rl_inner_eq l : forall ls, rl_inner l ls = reloc_l l ls.
Proof.
  induction l as [|t l IH]; intros ls; [reflexivity|].
  cbn [rl_inner reloc_l]. fold rl_inner. now rewrite IH.
Qed.
Lemma reloc_block bt b l e ls : reloc_t (RBlock bt b l e) ls =
  (RBlock bt (fst (reloc_l b (tl ls))) (hd 0%N ls) (hd 0%N (snd (reloc_l b (tl ls)))), tl (snd (reloc_l b (tl ls)))).
Proof. rewrite <- rl_inner_eq. reflexivity. Qed.
Lemma reloc_loop bt b l e ls : reloc_t (RLoop bt b l e) ls =
  (RLoop bt (fst (reloc_l b (tl ls))) (hd 0%N ls) (hd 0%N (snd (reloc_l b (tl ls)))), tl (snd (reloc_l b (tl ls)))).
Proof. rewrite <- rl_inner_eq. reflexivity. Qed.
Lemma reloc_if_none bt th l e ls : reloc_t (RIf bt th None l e) ls =
  (RIf bt (fst (reloc_l th (tl ls))) None (hd 0%N ls) (hd 0%N (snd (reloc_l th (tl ls)))), tl (snd (reloc_l th (tl ls)))).
Proof. rewrite <- rl_inner_eq. reflexivity. Qed.
Lemma reloc_if_some bt th le el l e ls : reloc_t (RIf bt th (Some (le, el)) l e) ls =
  (RIf bt (fst (reloc_l th (tl ls)))
       (Some (hd 0%N (snd (reloc_l th (tl ls))), fst (reloc_l el (tl (snd (reloc_l th (tl ls)))))))
       (hd 0%N ls) (hd 0%N (snd (reloc_l el (tl (snd (reloc_l th (tl ls))))))),
   tl (snd (reloc_l el (tl (snd (reloc_l th (tl ls))))))).
Proof. rewrite <- !rl_inner_eq. reflexivity. Qed.

Lemma flat_list_cons t l : flat_list (t :: l) = flat t ++ flat_list l.
Proof. reflexivity. Qed.

(* the remaining locations, and the flattening of the re-tagged tree *)
Definition Rt (t : rt) : Prop := forall ls,
  snd (reloc_t t ls) = skipn (length (flat t)) ls /\
  (length (flat t) <= length ls -> flat (fst (reloc_t t ls)) = combine (map fst (flat t)) ls).
Definition Rl (l : list rt) : Prop := forall ls,
  snd (reloc_l l ls) = skipn (length (flat_list l)) ls /\
  (length (flat_list l) <= length ls -> flat_list (fst (reloc_l l ls)) = combine (map fst (flat_list l)) ls).

(* a construct that flattens to  opening :: body ++ [end]  (block, loop, if without else) *)
Lemma reloc_wrap w l e body ls : Rl body ->
  tl (snd (reloc_l body (tl ls))) = skipn (length ((w, l) :: flat_list body ++ [(WEnd, e)])) ls /\
  (length ((w, l) :: flat_list body ++ [(WEnd, e)]) <= length ls ->
   (w, hd 0%N ls) :: flat_list (fst (reloc_l body (tl ls))) ++ [(WEnd, hd 0%N (snd (reloc_l body (tl ls))))]
   = combine (map fst ((w, l) :: flat_list body ++ [(WEnd, e)])) ls).
Proof.
  intros HF. destruct (HF (tl ls)) as [H1 H2]. cbn [length]. rewrite app_length. cbn [length].
  split.
  - rewrite H1, !tl_skipn, !skipn_skipn; try (f_equal; lia).
  - intros Hlen. cbn [map]. rewrite map_app. cbn [map fst].
    rewrite comb_cons by lia. rewrite combine_app_skipn, map_length.
    rewrite H2 by (rewrite length_tl; lia). rewrite H1.
    rewrite comb_one by (rewrite skipn_length, length_tl; lia). reflexivity.
Qed.

Ltac leaf_R := intros ls; cbn [reloc_t flat fst snd length map]; split;
  [apply tl_skipn|intros H; now rewrite comb_one by exact H].

Lemma reloc_flat_both : (forall t, Rt t) /\ (forall l, Rl l).
Proof.
  apply rt_list_ind.
  - intros ls. split; reflexivity.
  - intros t l Ht IH ls. cbn [reloc_l fst snd]. rewrite flat_list_cons, app_length.
    destruct (Ht ls) as [H1 H2]. destruct (IH (snd (reloc_t t ls))) as [H3 H4].
    split.
    + rewrite H3, H1, skipn_skipn; try (f_equal; lia).
    + intros Hlen. rewrite flat_list_cons, map_app, combine_app_skipn, map_length.
      rewrite H2 by lia. rewrite H4; [now rewrite H1|]. rewrite H1, skipn_length. lia.
  - intros o l. leaf_R.
  - intros l. leaf_R.
  - intros d l. leaf_R.
  - intros d l. leaf_R.
  - intros ds d l. leaf_R.
  - intros bt body l e HF ls. rewrite reloc_block. exact (reloc_wrap (WBlock bt) l e body ls HF).
  - intros bt body l e HF ls. rewrite reloc_loop. exact (reloc_wrap (WLoop bt) l e body ls HF).
  - intros bt th l e HF ls. rewrite reloc_if_none. exact (reloc_wrap (WIf bt) l e th ls HF).
  - intros bt th le eb l e HFt HFe ls. rewrite reloc_if_some. cbn [fst snd flat]. fold (flat_list th). fold (flat_list eb).
    destruct (HFt (tl ls)) as [H1 H2].
    destruct (HFe (tl (snd (reloc_l th (tl ls))))) as [H3 H4].
    cbn [length]. rewrite app_length. cbn [length]. rewrite app_length. cbn [length].
    split.
    + rewrite H3, H1, !tl_skipn, !skipn_skipn; try (f_equal; lia).
    + intros Hlen.
      fold (flat_list (fst (reloc_l th (tl ls)))).
      fold (flat_list (fst (reloc_l eb (tl (snd (reloc_l th (tl ls))))))).
      cbn [map]. rewrite map_app. cbn [map fst]. rewrite map_app. cbn [map fst].
      rewrite comb_cons by lia. rewrite combine_app_skipn, map_length.
      rewrite H2 by (rewrite length_tl; lia).
      assert (L1 : length (snd (reloc_l th (tl ls))) = length ls - 1 - length (flat_list th)).
      { rewrite H1, skipn_length, length_tl. reflexivity. }
      rewrite <- H1.
      rewrite comb_cons by lia. rewrite combine_app_skipn, map_length.
      rewrite H4 by (rewrite length_tl; lia). rewrite <- H3.
      rewrite comb_one; [reflexivity|].
      rewrite H3, skipn_length, length_tl. lia.
Qed.

Lemma Rl_all l : Rl l.
Proof. apply reloc_flat_both. Qed.

Theorem flat_list_reloc : forall L locs, length locs = length (flat_list L) ->
  flat_list (reloc L locs) = combine (map fst (flat_list L)) locs.
Proof. intros L locs H. apply (proj2 (Rl_all L locs)). lia. Qed.

Corollary flat_list_reloc_fst : forall L locs, length locs = length (flat_list L) ->
  map fst (flat_list (reloc L locs)) = map fst (flat_list L).
Proof.
  intros L locs H. rewrite flat_list_reloc by exact H. apply mfc. rewrite map_length. lia.
Qed.

Theorem flat_list_reloc_le : forall L locs, length (flat_list L) <= length locs ->
  flat_list (reloc L locs) = combine (map fst (flat_list L)) locs.
Proof. intros L locs H. apply (proj2 (Rl_all L locs)). exact H. Qed.
Theorem reloc_rest : forall L locs, snd (reloc_l L locs) = skipn (length (flat_list L)) locs.
Proof. intros L locs. apply (proj1 (Rl_all L locs)). Qed.

Lemma reloc_l_nil l ls : fst (reloc_l l ls) = [] <-> l = [].
Proof. destruct l; cbn [reloc_l fst]; split; intros H; try reflexivity; discriminate H. Qed.

Definition It (t : rt) : Prop := forall ls,
  (is_nf_t (fst (reloc_t t ls)) <-> is_nf_t t) /\ terminal (fst (reloc_t t ls)) = terminal t.
Definition Il (l : list rt) : Prop := forall ls, is_nf (fst (reloc_l l ls)) <-> is_nf l.
Lemma is_nf_reloc_both : (forall t, It t) /\ (forall l, Il l).
Proof.
  apply rt_list_ind.
  - intros ls. reflexivity.
  - intros t l Ht IH ls. cbn [reloc_l fst is_nf]. destruct (Ht ls) as [A B].
    rewrite A, B, (IH (snd (reloc_t t ls))), reloc_l_nil. reflexivity.
  - intros o l ls. split; reflexivity.
  - intros l ls. split; reflexivity.
  - intros d l ls. split; reflexivity.
  - intros d l ls. split; reflexivity.
  - intros ds d l ls. split; reflexivity.
  - intros bt body l e HF ls. rewrite reloc_block. cbn [fst]. rewrite !is_nf_block. split; [apply HF|reflexivity].
  - intros bt body l e HF ls. rewrite reloc_loop. cbn [fst]. rewrite !is_nf_loop. split; [apply HF|reflexivity].
  - intros bt th l e _ ls. rewrite reloc_if_none. cbn [fst]. split; reflexivity.
  - intros bt th le eb l e HFt HFe ls. rewrite reloc_if_some. cbn [fst]. rewrite !is_nf_if_some.
    split; [|reflexivity]. rewrite (HFt (tl ls)), (HFe (tl (snd (reloc_l th (tl ls))))). reflexivity.
Qed.
Theorem is_nf_reloc : forall L locs, is_nf (reloc L locs) <-> is_nf L.
Proof. intros L locs. apply is_nf_reloc_both. Qed.

Definition Wt (cx : pctx) (t : rt) : Prop := forall k ls, wf cx k (fst (reloc_t t ls)) <-> wf cx k t.
Definition Wl (cx : pctx) (l : list rt) : Prop := forall k ls, wfl cx k (fst (reloc_l l ls)) <-> wfl cx k l.
Lemma wf_reloc_both cx : (forall t, Wt cx t) /\ (forall l, Wl cx l).
Proof.
  apply rt_list_ind.
  - intros k ls. reflexivity.
  - intros t l Ht IH k ls. cbn [reloc_l fst wfl]. rewrite (Ht k ls), (IH k (snd (reloc_t t ls))). reflexivity.
  - intros o l k ls. reflexivity.
  - intros l k ls. reflexivity.
  - intros d l k ls. reflexivity.
  - intros d l k ls. reflexivity.
  - intros ds d l k ls. reflexivity.
  - intros bt body l e HF k ls. rewrite reloc_block. cbn [fst]. rewrite !wf_block, (HF (S k) (tl ls)). reflexivity.
  - intros bt body l e HF k ls. rewrite reloc_loop. cbn [fst]. rewrite !wf_loop, (HF (S k) (tl ls)). reflexivity.
  - intros bt th l e HFt k ls. rewrite reloc_if_none. cbn [fst]. rewrite !wf_if, (HFt (S k) (tl ls)). reflexivity.
  - intros bt th le eb l e HFt HFe k ls. rewrite reloc_if_some. cbn [fst]. rewrite !wf_if.
    rewrite (HFt (S k) (tl ls)), (HFe (S k) (tl (snd (reloc_l th (tl ls))))). reflexivity.
Qed.
Theorem wfl_reloc : forall cx k L locs, wfl cx k (reloc L locs) <-> wfl cx k L.
Proof. intros cx k L locs. apply wf_reloc_both. Qed.
Theorem wf_reloc : forall cx k t locs, wf cx k (fst (reloc_t t locs)) <-> wf cx k t.
Proof. intros cx k t locs. apply wf_reloc_both. Qed.

(* [ins_fixed] looks only at the instruction *)
Theorem insf_reloc : forall cx ecx L locs, length locs = length (flat_list L) ->
  (Forall (insf cx ecx) (flat_list (reloc L locs)) <-> Forall (insf cx ecx) (flat_list L)).
Proof.
  intros cx ecx L locs H. unfold insf.
  rewrite <- (Forall_map fst (ins_fixed cx ecx)), <- (Forall_map fst (ins_fixed cx ecx) (flat_list L)).
  rewrite flat_list_reloc_fst by exact H. reflexivity.
Qed.

Lemma flat_list_app a b : flat_list (a ++ b) = flat_list a ++ flat_list b.
Proof. unfold flat_list. apply flat_map_app. Qed.

Lemma wfl_app cx k a b : wfl cx k (a ++ b) <-> (wfl cx k a /\ wfl cx k b).
Proof. induction a as [|x a IH]; cbn [app wfl]; [tauto|]. rewrite IH. tauto. Qed.

(* what a parse needs of one instruction: it decodes / its block type resolves *)
Definition op_ok2 (cx2 : pctx) (w : wins) : Prop :=
  match w with
  | WOp o => decode_plain (px_i2id cx2) o <> None
  | WBlock bt | WLoop bt | WIf bt => bt_ok cx2 bt
  | _ => True
  end.
Definition okw (cx2 : pctx) (p : wins * N) : Prop := op_ok2 cx2 (fst p).

Section WfNf.
  Variable cx : pctx.

  (* the normal form keeps well-formedness *)
  Definition Bt (t : rt) : Prop := forall k u, wf cx k t -> wfl cx k (fst (nf_rt u t)).
  Definition Bl (l : list rt) : Prop := forall k u, wfl cx k l -> wfl cx k (fst (nf_rt_list u l)).
  Lemma wf_nf_rt_both : (forall t, Bt t) /\ (forall l, Bl l).
  Proof.
    apply rt_list_ind.
    - intros k u _. exact I.
    - intros t l Ht IH k u [Hw1 Hw2]. rewrite nf_rt_list_cons. cbn [fst]. apply wfl_app.
      split; [apply (Ht k u Hw1)|apply (IH k _ Hw2)].
    - intros o l k [|] Hw; [exact I|]. split; [exact Hw|exact I].
    - intros l k [|] _; exact I.
    - intros d l k [|] Hw; [exact I|]. split; [exact Hw|exact I].
    - intros d l k [|] Hw; [exact I|]. split; [exact Hw|exact I].
    - intros ds d l k [|] Hw; [exact I|]. split; [exact Hw|exact I].
    - intros bt body l e HF k [|] Hw; [rewrite nf_rt_dead; exact I|].
      rewrite nf_rt_block. split; [|exact I]. rewrite wf_block in *.
      split; [apply Hw|apply (HF (S k) false (proj2 Hw))].
    - intros bt body l e HF k [|] Hw; [rewrite nf_rt_dead; exact I|].
      rewrite nf_rt_loop. split; [|exact I]. rewrite wf_loop in *.
      split; [apply Hw|apply (HF (S k) false (proj2 Hw))].
    - intros bt th l e HFt k [|] Hw; [rewrite nf_rt_dead; exact I|].
      rewrite wf_if in Hw. destruct Hw as (Hb & Hw1 & _).
      rewrite nf_rt_if_none. split; [|exact I]. rewrite wf_if.
      split; [exact Hb|]. split; [apply (HFt (S k) false Hw1)|exact I].
    - intros bt th le eb l e HFt HFe k [|] Hw; [rewrite nf_rt_dead; exact I|].
      rewrite wf_if in Hw. destruct Hw as (Hb & Hw1 & Hw2).
      rewrite nf_rt_if_some. split; [|exact I]. rewrite wf_if.
      split; [exact Hb|]. split; [apply (HFt (S k) false Hw1)|apply (HFe (S k) false Hw2)].
  Qed.
  Theorem wfl_nf_rt : forall k u l, wfl cx k l -> wfl cx k (fst (nf_rt_list u l)).
  Proof. intros k u l. apply wf_nf_rt_both. Qed.

  (* every instruction of a well-formed body passes [op_ok2] *)
  Definition Kt (t : rt) : Prop := forall k, wf cx k t -> Forall (okw cx) (flat t).
  Definition Kl (l : list rt) : Prop := forall k, wfl cx k l -> Forall (okw cx) (flat_list l).
  Lemma wf_ops_ok_both : (forall t, Kt t) /\ (forall l, Kl l).
  Proof.
    apply rt_list_ind.
    - intros k _. constructor.
    - intros t l Ht IH k [Hw1 Hw2]. rewrite flat_list_cons. apply Forall_app. split; [apply (Ht k Hw1)|apply (IH k Hw2)].
    - intros o l k Hw. constructor; [exact Hw|constructor].
    - intros l k _. constructor; [exact I|constructor].
    - intros d l k _. constructor; [exact I|constructor].
    - intros d l k _. constructor; [exact I|constructor].
    - intros ds d l k _. constructor; [exact I|constructor].
    - intros bt body l e HF k Hw. rewrite wf_block in Hw. destruct Hw as [Hb Hw].
      constructor; [exact Hb|]. apply Forall_app. split; [apply (HF _ Hw)|constructor; [exact I|constructor]].
    - intros bt body l e HF k Hw. rewrite wf_loop in Hw. destruct Hw as [Hb Hw].
      constructor; [exact Hb|]. apply Forall_app. split; [apply (HF _ Hw)|constructor; [exact I|constructor]].
    - intros bt th l e HFt k Hw. rewrite wf_if in Hw. destruct Hw as (Hb & Hw1 & _).
      constructor; [exact Hb|]. apply Forall_app. split; [apply (HFt _ Hw1)|constructor; [exact I|constructor]].
    - intros bt th le eb l e HFt HFe k Hw. rewrite wf_if in Hw. destruct Hw as (Hb & Hw1 & Hw2).
      constructor; [exact Hb|]. apply Forall_app. split; [apply (HFt _ Hw1)|].
      constructor; [exact I|]. apply Forall_app. split; [apply (HFe _ Hw2)|constructor; [exact I|constructor]].
  Qed.
  Theorem wfl_ops_ok : forall k l, wfl cx k l -> Forall (okw cx) (flat_list l).
  Proof. intros k l. apply wf_ops_ok_both. Qed.
End WfNf.

(* the renaming, on trees: [nf_op] in place of the operator, [nf_bt] in place of the block type,
   an explicit empty `else` where there was none *)
Section Ren.
  Variable cx : pctx.
  Variable ecx : ectx.

  Definition ren_leaf (o : wop) (l : N) : rt :=
    match nf_op cx ecx o with WOp w => RPlain w l | _ => RNop l end.
  Fixpoint ren_t (t : rt) : rt :=
    match t with
    | RPlain o l => ren_leaf o l
    | RBlock bt b l e => RBlock (nf_bt cx ecx bt) (map ren_t b) l e
    | RLoop bt b l e => RLoop (nf_bt cx ecx bt) (map ren_t b) l e
    | RIf bt th None l e => RIf (nf_bt cx ecx bt) (map ren_t th) (Some (default_loc, [])) l e
    | RIf bt th (Some (le, el)) l e => RIf (nf_bt cx ecx bt) (map ren_t th) (Some (le, map ren_t el)) l e
    | t => t
    end.

  Lemma flat_ren_leaf o l : flat (ren_leaf o l) = [(nf_op cx ecx o, l)].
  Proof. unfold ren_leaf, nf_op. destruct (encode_plain (ex_id2i ecx) (dec cx o)); reflexivity. Qed.

  Lemma flat_ren_both : (forall t, flat (ren_t t) = flat' cx ecx t) /\
                        (forall l, flat_list (map ren_t l) = flat_list' cx ecx l).
  Proof.
    apply rt_list_ind; try reflexivity.
    - intros t l Ht IH. cbn [map]. rewrite flat_list_cons, Ht, IH. reflexivity.
    - apply flat_ren_leaf.
    - intros bt body l e HF. cbn [ren_t flat flat']. fold (flat_list (map ren_t body)). now rewrite HF.
    - intros bt body l e HF. cbn [ren_t flat flat']. fold (flat_list (map ren_t body)). now rewrite HF.
    - intros bt th l e HFt. cbn [ren_t flat flat']. fold (flat_list (map ren_t th)). now rewrite HFt.
    - intros bt th le eb l e HFt HFe. cbn [ren_t flat flat'].
      fold (flat_list (map ren_t th)). fold (flat_list (map ren_t eb)). now rewrite HFt, HFe.
  Qed.
  Theorem flat_ren : forall l, flat_list (map ren_t l) = flat_list' cx ecx l.
  Proof. exact (proj2 flat_ren_both). Qed.
End Ren.

Definition enc_ok (cx : pctx) (ecx : ectx) : Prop :=
  forall o, decode_plain (px_i2id cx) o <> None -> encode_plain (ex_id2i ecx) (dec cx o) <> None.

(* renaming keeps normal forms: an operator that decodes is re-encoded to one of the same
   "ends the sequence" class *)
Section RenNf.
  Variable cx : pctx.
  Variable ecx : ectx.
  Hypothesis Henc : enc_ok cx ecx.

  Lemma nf_op_enc o : decode_plain (px_i2id cx) o <> None ->
    exists w, nf_op cx ecx o = WOp w /\ marks_unreachable w = marks_unreachable o.
  Proof.
    intros Hd. pose proof (Henc o Hd) as He. pose proof (nf_op_image cx ecx o) as Hi. unfold nf_op in *.
    destruct (encode_plain (ex_id2i ecx) (dec cx o)) as [w|]; [|now elim He].
    exists w. split; [reflexivity|]. apply (Hi w Hd eq_refl).
  Qed.

  Definition Nr (t : rt) : Prop := Forall (okw cx) (flat t) -> is_nf_t t ->
    is_nf_t (ren_t cx ecx t) /\ terminal (ren_t cx ecx t) = terminal t.
  Definition Nrl (l : list rt) : Prop := Forall (okw cx) (flat_list l) -> is_nf l -> is_nf (map (ren_t cx ecx) l).
  Lemma is_nf_ren_both : (forall t, Nr t) /\ (forall l, Nrl l).
  Proof.
    apply rt_list_ind.
    - intros _ _. exact I.
    - intros t l Ht IH Hf (Hn1 & Hn2 & Hn3).
      rewrite flat_list_cons in Hf. apply Forall_app in Hf. destruct Hf as [Hf1 Hf2].
      destruct (Ht Hf1 Hn1) as [A B].
      cbn [map is_nf]. split; [exact A|]. split; [|apply (IH Hf2 Hn3)].
      rewrite B. intros HT. rewrite (Hn2 HT). reflexivity.
    - intros o l Hf _. apply Forall_inv in Hf. destruct (nf_op_enc o Hf) as (w & Hw & Hm).
      cbn [ren_t]. unfold ren_leaf. rewrite Hw. split; [exact I|exact Hm].
    - intros l _ [].
    - intros d l _ _. split; [exact I|reflexivity].
    - intros d l _ _. split; [exact I|reflexivity].
    - intros ds d l _ _. split; [exact I|reflexivity].
    - intros bt body l e HF Hf Hn. cbn [ren_t]. rewrite is_nf_block in *. split; [|reflexivity].
      apply Forall_cons_iff in Hf. destruct Hf as [_ Hf]. apply Forall_app in Hf. apply (HF (proj1 Hf) Hn).
    - intros bt body l e HF Hf Hn. cbn [ren_t]. rewrite is_nf_loop in *. split; [|reflexivity].
      apply Forall_cons_iff in Hf. destruct Hf as [_ Hf]. apply Forall_app in Hf. apply (HF (proj1 Hf) Hn).
    - intros bt th l e _ _ [].
    - intros bt th le eb l e HFt HFe Hf Hn. cbn [ren_t]. rewrite is_nf_if_some in *. destruct Hn as [Hn1 Hn2].
      apply Forall_cons_iff in Hf. destruct Hf as [_ Hf]. apply Forall_app in Hf. destruct Hf as [Hf1 Hf].
      apply Forall_cons_iff in Hf. destruct Hf as [_ Hf]. apply Forall_app in Hf.
      split; [|reflexivity]. split; [apply (HFt Hf1 Hn1)|apply (HFe (proj1 Hf) Hn2)].
  Qed.
  Theorem is_nf_ren : forall l, Forall (okw cx) (flat_list l) -> is_nf l -> is_nf (map (ren_t cx ecx) l).
  Proof. exact (proj2 is_nf_ren_both). Qed.
End RenNf.

(* the structured body whose flattening is the emitted stream (minus the final `end`) *)
Definition emitted_tree (cx : pctx) (ecx : ectx) (l : list rt) (pos : list N) : list rt :=
  reloc (map (ren_t cx ecx) (fst (nf_rt_list false l))) pos.

Lemma dfs_det ov f1 f2 ar en r1 r2 :
  dfs_in_order ov f1 ar en = Ok r1 -> dfs_in_order ov f2 ar en = Ok r2 -> r1 = r2.
Proof.
  unfold dfs_in_order. intros E1 E2.
  pose proof (run_dfs_mono ov ar f1 _ _ E1 (Nat.max f1 f2) ltac:(lia)) as M1.
  pose proof (run_dfs_mono ov ar f2 _ _ E2 (Nat.max f1 f2) ltac:(lia)) as M2.
  rewrite M1 in M2. now injection M2.
Qed.
Lemma emit_body_det cx f1 f2 ar en p s1 s2 :
  emit_body cx f1 ar en p = Ok s1 -> emit_body cx f2 ar en p = Ok s2 -> s1 = s2.
Proof.
  unfold emit_body. intros H1 H2.
  destruct (dfs_in_order false f1 ar en) as [r1| |] eqn:E1; cbn [rbind] in H1; try discriminate H1.
  destruct (dfs_in_order false f2 ar en) as [r2| |] eqn:E2; cbn [rbind] in H2; try discriminate H2.
  rewrite (dfs_det _ _ _ _ _ _ _ E1 E2), H2 in H1. now injection H1.
Qed.

(* positions are a function of the instruction lengths, the start and the instructions *)
Fixpoint pos_of (ilen : wins -> N) (p : N) (ws : list wins) : list N :=
  match ws with [] => [] | w :: ws' => p :: pos_of ilen (p + ilen w)%N ws' end.
Theorem positions_determined : forall cx p tg,
  map snd (tag_positions cx p tg) = pos_of (ex_ilen cx) p (map snd tg).
Proof.
  intros cx p tg. revert p. induction tg as [|[loc w] tg IH]; intros p; [reflexivity|].
  cbn [tag_positions map snd pos_of]. now rewrite IH.
Qed.
Lemma tag_positions_length cx tg : forall p, length (tag_positions cx p tg) = length tg.
Proof. induction tg as [|[loc w] tg IH]; intros p; [reflexivity|]. cbn [tag_positions length]. now rewrite IH. Qed.
Lemma pos_of_length ilen ws : forall p, length (pos_of ilen p ws) = length ws.
Proof. induction ws as [|w ws IH]; intros p; [reflexivity|]. cbn [pos_of length]. now rewrite IH. Qed.

(* what [roundtrip_body] says, for the GIVEN parse result, emit result and fuel *)
Lemma first_trip_facts cx ecx ety rs l eloc p0 ar1 st1 fuel1 :
  wfl cx 1 l -> enc_ok cx ecx ->
  parse_body cx ety rs (flat_list l ++ [(WEnd, eloc)]) = Ok ar1 ->
  emit_body ecx fuel1 ar1 0 p0 = Ok st1 ->
  out st1 = map snd (nf_body cx ecx l eloc) /\ imap st1 = tag_positions ecx p0 (nf_body cx ecx l eloc).
Proof.
  intros Hw Henc Hp He.
  destruct (roundtrip_body cx ecx ety rs l eloc p0 Hw Henc) as (ar & st & fuel & Hp' & He' & Ho & Hi).
  rewrite Hp in Hp'. injection Hp' as <-. rewrite (emit_body_det _ _ _ _ _ _ _ _ He He'). split; assumption.
Qed.

(* the emitted positions are determined by the emitted instructions *)
Theorem emitted_positions cx ecx ety rs l eloc p0 ar1 st1 fuel1 :
  wfl cx 1 l -> enc_ok cx ecx ->
  parse_body cx ety rs (flat_list l ++ [(WEnd, eloc)]) = Ok ar1 ->
  emit_body ecx fuel1 ar1 0 p0 = Ok st1 ->
  map snd (imap st1) = pos_of (ex_ilen ecx) p0 (out st1) /\ length (out st1) = length (imap st1).
Proof.
  intros Hw Henc Hp He. destruct (first_trip_facts _ _ _ _ _ _ _ _ _ _ Hw Henc Hp He) as [Ho Hi].
  rewrite Hi, Ho, positions_determined, tag_positions_length, map_length. split; reflexivity.
Qed.

(* the emitted operator stream is the flattening of a structured body in normal form *)
Theorem emitted_ops_structured : forall cx ecx ety rs l eloc p0 ar1 st1 fuel1,
  wfl cx 1 l -> enc_ok cx ecx ->
  parse_body cx ety rs (flat_list l ++ [(WEnd, eloc)]) = Ok ar1 ->
  emit_body ecx fuel1 ar1 0 p0 = Ok st1 ->
  let ops1 := combine (out st1) (map snd (imap st1)) in
  let L1 := emitted_tree cx ecx l (map snd (imap st1)) in
  exists eloc1,
    ops1 = flat_list L1 ++ [(WEnd, eloc1)] /\ is_nf L1 /\
    map fst (flat_list L1) = map fst (flat_list' cx ecx (fst (nf_rt_list false l))) /\
    length (out st1) = length (imap st1) /\
    map fst ops1 = out st1 /\ map snd ops1 = map snd (imap st1) /\
    out st1 = map fst (flat_list L1) ++ [WEnd].
Proof.
  intros cx ecx ety rs l eloc p0 ar1 st1 fuel1 Hw Henc Hp He ops1 L1.
  destruct (first_trip_facts _ _ _ _ _ _ _ _ _ _ Hw Henc Hp He) as [Ho Hi].
  destruct (emitted_positions _ _ _ _ _ _ _ _ _ _ Hw Henc Hp He) as [Hpos Hlen].
  rewrite nf_body_ops in Ho. rewrite <- flat_ren in Ho.
  set (RN := map (ren_t cx ecx) (fst (nf_rt_list false l))) in *.
  set (pos := map snd (imap st1)) in *.
  assert (Lpos : length pos = S (length (flat_list RN))).
  { unfold pos. rewrite map_length, <- Hlen, Ho, app_length, map_length. cbn [length]. lia. }
  assert (HL1 : flat_list L1 = combine (map fst (flat_list RN)) pos).
  { unfold L1, emitted_tree. fold RN. apply flat_list_reloc_le. lia. }
  assert (HL1f : map fst (flat_list L1) = map fst (flat_list RN)).
  { rewrite HL1. apply mfc_le. rewrite map_length. lia. }
  exists (hd 0%N (skipn (length (flat_list RN)) pos)).
  split; [|split; [|split; [|split; [|split; [|split]]]]].
  - unfold ops1. rewrite Ho, combine_app_skipn, map_length, <- HL1.
    rewrite comb_one by (rewrite skipn_length; lia). reflexivity.
  - unfold L1, emitted_tree. apply is_nf_reloc. apply (is_nf_ren cx ecx Henc); [|apply nf_rt_is_nf].
    apply (wfl_ops_ok cx 1), wfl_nf_rt, Hw.
  - rewrite HL1f. unfold RN. now rewrite flat_ren.
  - exact Hlen.
  - unfold ops1. apply mfc. unfold pos. rewrite map_length. exact Hlen.
  - unfold ops1. apply msc. unfold pos. rewrite map_length. exact Hlen.
  - rewrite HL1f. exact Ho.
Qed.

(* the encodability premise (E) always holds: the generated encoder is total *)
Lemma enc_ok_all : forall cx ecx, enc_ok cx ecx.
Proof. intros cx ecx o _. apply encode_total. Qed.

Lemma emitted_ops_fst cx ecx ety rs l eloc p0 ar1 st1 fuel1 : wfl cx 1 l ->
  parse_body cx ety rs (flat_list l ++ [(WEnd, eloc)]) = Ok ar1 -> emit_body ecx fuel1 ar1 0 p0 = Ok st1 ->
  map fst (combine (out st1) (map snd (imap st1))) = out st1.
Proof.
  intros Hw Hp He. destruct (emitted_ops_structured _ _ _ _ _ _ _ _ _ _ Hw (enc_ok_all cx ecx) Hp He) as (_ & _ & _ & _ & _ & Hfst & _).
  exact Hfst.
Qed.

(* the second parse and emit reproduce instructions and positions, given well-formedness (W), encodability (E)
   and instruction-wise fixedness (F) in the second contexts *)
Theorem body_second_trip : forall cx ecx ety rs l eloc p0 ar1 st1 fuel1 cx2 ecx2 ety2 rs2,
  wfl cx 1 l -> enc_ok cx ecx ->
  parse_body cx ety rs (flat_list l ++ [(WEnd, eloc)]) = Ok ar1 ->
  emit_body ecx fuel1 ar1 0 p0 = Ok st1 ->
  let ops1 := combine (out st1) (map snd (imap st1)) in
  ex_ilen ecx2 = ex_ilen ecx ->
  wfl cx2 1 (emitted_tree cx ecx l (map snd (imap st1))) ->            (* W *)
  enc_ok cx2 ecx2 ->                                                   (* E *)
  Forall (ins_fixed cx2 ecx2) (map fst ops1) ->                        (* F *)
  exists ar2,
    parse_body cx2 ety2 rs2 ops1 = Ok ar2 /\
    (exists fuel2 st2, emit_body ecx2 fuel2 ar2 0 p0 = Ok st2) /\
    forall fuel2 st2, emit_body ecx2 fuel2 ar2 0 p0 = Ok st2 ->
      combine (out st2) (map snd (imap st2)) = ops1 /\ out st2 = out st1 /\
      map snd (imap st2) = map snd (imap st1).
Proof.
  intros cx ecx ety rs l eloc p0 ar1 st1 fuel1 cx2 ecx2 ety2 rs2 Hw Henc Hp He ops1 Hil HW HE HF.
  destruct (emitted_ops_structured _ _ _ _ _ _ _ _ _ _ Hw Henc Hp He)
    as (eloc1 & Hops & Hnf & _ & Hlen & Hfst & _ & Hout).
  destruct (emitted_positions _ _ _ _ _ _ _ _ _ _ Hw Henc Hp He) as [Hpos _].
  fold ops1 in Hops, Hfst.
  set (L1 := emitted_tree cx ecx l (map snd (imap st1))) in *.
  assert (Hins : Forall (insf cx2 ecx2) (flat_list L1)).
  { rewrite Hfst, Hout in HF. apply Forall_app in HF. destruct HF as [HF _].
    unfold insf. apply (proj1 (Forall_map fst (ins_fixed cx2 ecx2) (flat_list L1))). exact HF. }
  destruct (roundtrip_body cx2 ecx2 ety2 rs2 L1 eloc1 p0 HW HE) as (ar2 & st2 & fuel2 & Hp2 & He2 & Ho2 & Hi2).
  rewrite <- Hops in Hp2.
  assert (Hout2 : out st2 = out st1).
  { rewrite Ho2, Hout. unfold nf_body. rewrite map_app. cbn [map snd]. f_equal.
    rewrite <- (body_fixpoint cx2 ecx2 L1 Hnf Hins), map_map. apply map_ext. intros [a b]. reflexivity. }
  assert (Hpos2 : map snd (imap st2) = map snd (imap st1)).
  { rewrite Hi2, positions_determined, <- Ho2, Hout2, Hil, Hpos. reflexivity. }
  exists ar2. split; [exact Hp2|]. split; [exists fuel2, st2; exact He2|].
  intros fuel3 st3 He3. rewrite (emit_body_det _ _ _ _ _ _ _ _ He3 He2).
  split; [|split; assumption]. rewrite Hout2, Hpos2. reflexivity.
Qed.

(* the renamed tree is well-formed for the second context: nesting and branch depths come from the
   source tree, the rest from the instructions *)
Section WfRen.
  Variable cx : pctx.
  Variable ecx : ectx.
  Variable cx2 : pctx.
  Definition Ct (t : rt) : Prop := forall k, wf cx k t -> Forall (okw cx2) (flat (ren_t cx ecx t)) ->
    wf cx2 k (ren_t cx ecx t).
  Definition Cl (l : list rt) : Prop := forall k, wfl cx k l -> Forall (okw cx2) (flat_list (map (ren_t cx ecx) l)) ->
    wfl cx2 k (map (ren_t cx ecx) l).
  Lemma wf_ren_both : (forall t, Ct t) /\ (forall l, Cl l).
  Proof.
    apply rt_list_ind.
    - intros k _ _. exact I.
    - intros t l Ht IH k [Hw1 Hw2] Hf. cbn [map] in *. rewrite flat_list_cons in Hf. apply Forall_app in Hf.
      split; [apply (Ht k Hw1 (proj1 Hf))|apply (IH k Hw2 (proj2 Hf))].
    - intros o l k _ Hf. cbn [ren_t] in *. unfold ren_leaf in *.
      destruct (nf_op cx ecx o) as [w| | | | | | | | |]; try exact I. apply Forall_inv in Hf. exact Hf.
    - intros l k _ _. exact I.
    - intros d l k Hw _. exact Hw.
    - intros d l k Hw _. exact Hw.
    - intros ds d l k Hw _. exact Hw.
    - intros bt body l e HF k Hw Hf. cbn [ren_t] in *. rewrite wf_block in *.
      apply Forall_cons_iff in Hf. destruct Hf as [Hb Hf]. apply Forall_app in Hf.
      split; [exact Hb|apply (HF (S k) (proj2 Hw) (proj1 Hf))].
    - intros bt body l e HF k Hw Hf. cbn [ren_t] in *. rewrite wf_loop in *.
      apply Forall_cons_iff in Hf. destruct Hf as [Hb Hf]. apply Forall_app in Hf.
      split; [exact Hb|apply (HF (S k) (proj2 Hw) (proj1 Hf))].
    - intros bt th l e HFt k Hw Hf. cbn [ren_t] in *. rewrite wf_if in *. destruct Hw as (_ & Hw1 & _).
      apply Forall_cons_iff in Hf. destruct Hf as [Hb Hf]. apply Forall_app in Hf.
      split; [exact Hb|]. split; [apply (HFt (S k) Hw1 (proj1 Hf))|exact I].
    - intros bt th le eb l e HFt HFe k Hw Hf. cbn [ren_t] in *. rewrite wf_if in *. destruct Hw as (_ & Hw1 & Hw2).
      apply Forall_cons_iff in Hf. destruct Hf as [Hb Hf]. apply Forall_app in Hf. destruct Hf as [Hf1 Hf].
      apply Forall_cons_iff in Hf. destruct Hf as [_ Hf]. apply Forall_app in Hf.
      split; [exact Hb|]. split; [apply (HFt (S k) Hw1 Hf1)|apply (HFe (S k) Hw2 (proj1 Hf))].
  Qed.
  Theorem wfl_ren_change : forall k l, wfl cx k l -> Forall (okw cx2) (flat_list (map (ren_t cx ecx) l)) ->
    wfl cx2 k (map (ren_t cx ecx) l).
  Proof. intros k l. apply wf_ren_both. Qed.
End WfRen.

(* (W) discharged from the instructions of the emitted stream *)
Theorem emitted_tree_wfl : forall cx ecx ety rs l eloc p0 ar1 st1 fuel1 cx2,
  wfl cx 1 l -> enc_ok cx ecx ->
  parse_body cx ety rs (flat_list l ++ [(WEnd, eloc)]) = Ok ar1 ->
  emit_body ecx fuel1 ar1 0 p0 = Ok st1 ->
  Forall (op_ok2 cx2) (out st1) ->
  wfl cx2 1 (emitted_tree cx ecx l (map snd (imap st1))).
Proof.
  intros cx ecx ety rs l eloc p0 ar1 st1 fuel1 cx2 Hw Henc Hp He HF.
  destruct (first_trip_facts _ _ _ _ _ _ _ _ _ _ Hw Henc Hp He) as [Ho _].
  rewrite nf_body_ops, <- flat_ren in Ho. rewrite Ho in HF. apply Forall_app in HF. destruct HF as [HF _].
  unfold emitted_tree. apply wfl_reloc. apply wfl_ren_change.
  - apply wfl_nf_rt. exact Hw.
  - unfold okw. apply (proj1 (Forall_map fst (op_ok2 cx2) _)). exact HF.
Qed.

(* the same with every premise about the second contexts phrased on the emitted instructions *)
Theorem body_second_trip_ops : forall cx ecx ety rs l eloc p0 ar1 st1 fuel1 cx2 ecx2 ety2 rs2,
  wfl cx 1 l -> enc_ok cx ecx ->
  parse_body cx ety rs (flat_list l ++ [(WEnd, eloc)]) = Ok ar1 ->
  emit_body ecx fuel1 ar1 0 p0 = Ok st1 ->
  let ops1 := combine (out st1) (map snd (imap st1)) in
  ex_ilen ecx2 = ex_ilen ecx ->
  Forall (op_ok2 cx2) (map fst ops1) ->                                (* W *)
  enc_ok cx2 ecx2 ->                                                   (* E *)
  Forall (ins_fixed cx2 ecx2) (map fst ops1) ->                        (* F *)
  exists ar2,
    parse_body cx2 ety2 rs2 ops1 = Ok ar2 /\
    (exists fuel2 st2, emit_body ecx2 fuel2 ar2 0 p0 = Ok st2) /\
    forall fuel2 st2, emit_body ecx2 fuel2 ar2 0 p0 = Ok st2 ->
      combine (out st2) (map snd (imap st2)) = ops1 /\ out st2 = out st1 /\
      map snd (imap st2) = map snd (imap st1).
Proof.
  intros cx ecx ety rs l eloc p0 ar1 st1 fuel1 cx2 ecx2 ety2 rs2 Hw Henc Hp He ops1 Hil HW HE HF.
  apply (body_second_trip cx ecx ety rs l eloc p0 ar1 st1 fuel1 cx2 ecx2 ety2 rs2 Hw Henc Hp He Hil); try assumption.
  eapply emitted_tree_wfl; try eassumption. rewrite <- (emitted_ops_fst _ _ _ _ _ _ _ _ _ _ Hw Hp He). exact HW.
Qed.

Definition is_instr (w : wins) : bool := match w with WEnd | WElse => false | _ => true end.
Definition count_instr (ws : list wins) : nat := length (filter is_instr ws).
Definition is_einstr (e : ev) : bool := match e with EInstr _ _ => true | _ => false end.
Definition n_instr (evs : list ev) : nat := length (filter is_einstr evs).

Lemma count_instr_app a b : count_instr (a ++ b) = count_instr a + count_instr b.
Proof. unfold count_instr. now rewrite filter_app, app_length. Qed.
Lemma n_instr_pI evs : n_instr evs = length (flat_map pI evs).
Proof.
  unfold n_instr. induction evs as [|e evs IH]; [reflexivity|].
  cbn [filter flat_map]. rewrite app_length, <- IH. destruct e; reflexivity.
Qed.

Lemma flt_count cx :
  (forall t env k tg, flt_tree cx env t k = Ok tg -> count_instr (map snd tg) = length (instrs_in_order t)) /\
  (forall it env loc tg, flt_item cx env it loc = Ok tg -> count_instr (map snd tg) = S (length (item_nested it))).
Proof.
  apply flt_ind with (PL := fun _ items tg =>
    count_instr (map snd tg) = length (flat_map (fun x => item_instr x :: item_nested (fst x)) items)).
  - reflexivity.
  - intros env x l a b Ha Hb. rewrite map_app, count_instr_app, Ha, Hb. cbn [flat_map]. now rewrite app_length.
  - intros env [s ty items e] k body Hb. rewrite map_app, count_instr_app, Hb, instrs_T. destruct k; cbn; lia.
  - reflexivity.
  - reflexivity.
  - reflexivity.
  - reflexivity.
  - intros env t loc tg H. cbn [map snd item_nested]. now rewrite <- H.
  - intros env t loc tg H. cbn [map snd item_nested]. now rewrite <- H.
  - intros env c a loc x y Hx Hy. cbn [map snd item_nested].
    rewrite map_app, app_length, <- Hx, <- Hy, <- count_instr_app. reflexivity.
Qed.

(* for ANY emitted arena: the number of instruction callbacks of the in-order walk (LocalFunction::size)
   is the number of emitted operators other than `end` / `else` *)
Theorem emitted_count : forall cx ar t tg p0 f1 f2 evs st,
  Den ar t -> flt_tree cx [] t KEntry = Ok tg ->
  dfs_in_order false f1 ar (tsid t) = Ok evs -> emit_body cx f2 ar (tsid t) p0 = Ok st ->
  n_instr evs = count_instr (out st).
Proof.
  intros cx ar t tg p0 f1 f2 evs st HD Hf Hd He.
  pose proof (Proofs.Traversal.dfs_in_order_spec false ar t HD) as Hs.
  rewrite (dfs_det _ _ _ _ _ _ _ Hd Hs).
  destruct (emit_body_spec cx ar t tg p0 _ HD Hs Hf) as (st' & He' & Ho & _).
  rewrite (emit_body_det _ _ _ _ _ _ _ _ He He'), Ho.
  rewrite n_instr_pI. change (flat_map pI (events false t)) with
    (flat_map (fun e => match e with EInstr i l => [(i, l)] | _ => [] end) (events false t)).
  rewrite in_order_instrs. symmetry. apply (proj1 (flt_count cx) t [] KEntry tg Hf).
Qed.

(* one round trip *)
Theorem trip_count : forall cx ecx ety rs l eloc p0 ar st fuel f evs,
  wfl cx 1 l -> enc_ok cx ecx ->
  parse_body cx ety rs (flat_list l ++ [(WEnd, eloc)]) = Ok ar ->
  emit_body ecx fuel ar 0 p0 = Ok st ->
  dfs_in_order false f ar 0 = Ok evs ->
  n_instr evs = count_instr (out st).
Proof.
  intros cx ecx ety rs l eloc p0 ar st fuel f evs Hw Henc Hp He Hd.
  rewrite (parse_body_arena cx ety rs l eloc Hw) in Hp. injection Hp as <-.
  pose proof (parsed_arena_den cx ety l eloc Hw) as HD.
  pose proof (flt_parsed_tree cx ecx ety l eloc Hw Henc) as Hf.
  rewrite <- (parsed_tree_tsid cx ety l eloc) in He, Hd.
  exact (emitted_count _ _ _ _ _ _ _ _ _ HD Hf Hd He).
Qed.

(* under those premises the second parse is the parse of a well-formed body, and emitting it
   repeats the first output *)
Lemma second_trip_setup cx ecx ety rs l eloc p0 ar1 st1 fuel1 cx2 ecx2 ety2 rs2 ar2 :
  wfl cx 1 l -> enc_ok cx ecx ->
  parse_body cx ety rs (flat_list l ++ [(WEnd, eloc)]) = Ok ar1 ->
  emit_body ecx fuel1 ar1 0 p0 = Ok st1 ->
  ex_ilen ecx2 = ex_ilen ecx ->
  Forall (op_ok2 cx2) (map fst (combine (out st1) (map snd (imap st1)))) -> enc_ok cx2 ecx2 ->
  Forall (ins_fixed cx2 ecx2) (map fst (combine (out st1) (map snd (imap st1)))) ->
  parse_body cx2 ety2 rs2 (combine (out st1) (map snd (imap st1))) = Ok ar2 ->
  map fst (combine (out st1) (map snd (imap st1))) = out st1 /\
  exists L1 eloc1 fuel2 st2, wfl cx2 1 L1 /\
    parse_body cx2 ety2 rs2 (flat_list L1 ++ [(WEnd, eloc1)]) = Ok ar2 /\
    emit_body ecx2 fuel2 ar2 0 p0 = Ok st2 /\ out st2 = out st1.
Proof.
  intros Hw Henc Hp He Hil HW HE HF Hp2.
  destruct (emitted_ops_structured _ _ _ _ _ _ _ _ _ _ Hw Henc Hp He) as (eloc1 & Hops & _ & _ & _ & Hfst & _ & _).
  assert (HW1 : wfl cx2 1 (emitted_tree cx ecx l (map snd (imap st1)))).
  { eapply emitted_tree_wfl; try eassumption. rewrite <- Hfst. exact HW. }
  destruct (body_second_trip cx ecx ety rs l eloc p0 ar1 st1 fuel1 cx2 ecx2 ety2 rs2 Hw Henc Hp He Hil HW1 HE HF)
    as (ar2' & Hp2' & (fuel2 & st2 & He2) & Hall).
  rewrite Hp2 in Hp2'. injection Hp2' as <-.
  destruct (Hall _ _ He2) as (_ & Ho2 & _).
  split; [exact Hfst|]. exists (emitted_tree cx ecx l (map snd (imap st1))), eloc1, fuel2, st2.
  rewrite <- Hops. auto.
Qed.

(* the in-order walk of the second parse meets as many instructions as that of the first *)
Theorem body_second_trip_size : forall cx ecx ety rs l eloc p0 ar1 st1 fuel1 cx2 ecx2 ety2 rs2,
  wfl cx 1 l -> enc_ok cx ecx ->
  parse_body cx ety rs (flat_list l ++ [(WEnd, eloc)]) = Ok ar1 ->
  emit_body ecx fuel1 ar1 0 p0 = Ok st1 ->
  let ops1 := combine (out st1) (map snd (imap st1)) in
  ex_ilen ecx2 = ex_ilen ecx ->
  Forall (op_ok2 cx2) (map fst ops1) ->
  enc_ok cx2 ecx2 ->
  Forall (ins_fixed cx2 ecx2) (map fst ops1) ->
  forall ar2, parse_body cx2 ety2 rs2 ops1 = Ok ar2 ->
  forall f1 f2 evs1 evs2,
    dfs_in_order false f1 ar1 0 = Ok evs1 -> dfs_in_order false f2 ar2 0 = Ok evs2 ->
    n_instr evs2 = n_instr evs1 /\ n_instr evs1 = count_instr (map fst ops1).
Proof.
  intros cx ecx ety rs l eloc p0 ar1 st1 fuel1 cx2 ecx2 ety2 rs2 Hw Henc Hp He ops1 Hil HW HE HF ar2 Hp2
    f1 f2 evs1 evs2 Hd1 Hd2.
  destruct (second_trip_setup cx ecx ety rs l eloc p0 ar1 st1 fuel1 cx2 ecx2 ety2 rs2 ar2 Hw Henc Hp He Hil HW HE HF Hp2)
    as (Hfst & L1 & eloc1 & fuel2 & st2 & HW1 & Hp2' & He2 & Ho2).
  pose proof (trip_count _ _ _ _ _ _ _ _ _ _ _ _ Hw Henc Hp He Hd1) as C1.
  pose proof (trip_count _ _ _ _ _ _ _ _ _ _ _ _ HW1 HE Hp2' He2 Hd2) as C2.
  unfold ops1. rewrite Hfst. split; [rewrite C1, C2, Ho2; reflexivity|exact C1].
Qed.

Print Assumptions flat_list_reloc.
Print Assumptions is_nf_reloc.
Print Assumptions wfl_reloc.
Print Assumptions insf_reloc.
Print Assumptions emitted_ops_structured.
Print Assumptions positions_determined.
Print Assumptions body_second_trip.
Print Assumptions emitted_tree_wfl.
Print Assumptions body_second_trip_ops.
Print Assumptions emitted_count.
Print Assumptions body_second_trip_size.

(* the indices of one space occurring in an operator stream, in order *)
Definition ops_sel (f : space -> bool) (ws : list wins) : list N :=
  flat_map (fun w => match w with WOp o => sel f (wop_refs o) | _ => [] end) ws.

Lemma sel_app f a b : sel f (a ++ b) = sel f a ++ sel f b.
Proof. unfold sel. now rewrite filter_app, map_app. Qed.
Lemma ops_sel_cons f w ws :
  ops_sel f (w :: ws) = (match w with WOp o => sel f (wop_refs o) | _ => [] end) ++ ops_sel f ws.
Proof. reflexivity. Qed.
Lemma ops_sel_app f a b : ops_sel f (a ++ b) = ops_sel f a ++ ops_sel f b.
Proof. apply flat_map_app. Qed.

Lemma encode_sel_local : forall id2i p w, encode_plain id2i p = Some w ->
  sel is_local (wop_refs w) = map (id2i S_local) (sel is_local (visited_refs p)).
Proof. intros id2i p w E. pose proof (encode_plain_refs id2i p) as H. rewrite E in H. apply H. Qed.
Lemma encode_sel_data : forall id2i p w, encode_plain id2i p = Some w ->
  sel is_data (wop_refs w) = map (id2i S_data) (sel is_data (visited_refs p)).
Proof. intros id2i p w E. pose proof (encode_plain_refs id2i p) as H. rewrite E in H. apply H. Qed.

Definition irefs (x : instr * N) : list (space * N) := instr_refs (fst x).

Section Refs.
  Variable cx : ectx.
  Variable f : space -> bool.
  Variable S0 : space.
  Hypothesis Hcodec : forall p w, encode_plain (ex_id2i cx) p = Some w ->
    sel f (wop_refs w) = map (ex_id2i cx S0) (sel f (visited_refs p)).

  Lemma flt_refs :
    (forall t env k tg, flt_tree cx env t k = Ok tg ->
       ops_sel f (map snd tg) = map (ex_id2i cx S0) (sel f (flat_map irefs (instrs_in_order t)))) /\
    (forall it env loc tg, flt_item cx env it loc = Ok tg ->
       ops_sel f (map snd tg) =
       map (ex_id2i cx S0) (sel f (instr_refs (shallow it) ++ flat_map irefs (item_nested it)))).
  Proof.
    apply flt_ind with (PL := fun _ items tg => ops_sel f (map snd tg) =
      map (ex_id2i cx S0) (sel f (flat_map irefs (flat_map (fun x => item_instr x :: item_nested (fst x)) items)))).
    - reflexivity.
    - intros env x l a b Ha Hb. rewrite map_app, ops_sel_app, Ha, Hb.
      cbn [flat_map]. rewrite flat_map_app. cbn [flat_map]. rewrite !sel_app, !map_app.
      unfold irefs at 3. unfold item_instr. cbn [fst]. rewrite <- app_assoc. reflexivity.
    - intros env [s ty items e] k body Hb. rewrite map_app, ops_sel_app, Hb, instrs_T. cbn [titems].
      destruct k; cbn [map snd terminator ops_sel flat_map]; now rewrite app_nil_r.
    - intros env p loc w E. cbn [map snd ops_sel flat_map shallow instr_refs item_nested].
      rewrite !app_nil_r. apply Hcodec, E.
    - reflexivity.
    - reflexivity.
    - reflexivity.
    - intros env t loc tg H. cbn [map snd shallow instr_refs item_nested app]. rewrite ops_sel_cons. cbn [app]. now rewrite H.
    - intros env t loc tg H. cbn [map snd shallow instr_refs item_nested app]. rewrite ops_sel_cons. cbn [app]. now rewrite H.
    - intros env c a loc x y Hx Hy. cbn [map snd shallow instr_refs item_nested app]. rewrite map_app, ops_sel_cons.
      cbn [app]. now rewrite ops_sel_app, Hx, Hy, flat_map_app, sel_app, map_app.
  Qed.

  (* for ANY emitted arena *)
  Theorem emitted_refs_sel : forall ar t tg p0 f1 f2 evs st,
    Den ar t -> flt_tree cx [] t KEntry = Ok tg ->
    dfs_in_order false f1 ar (tsid t) = Ok evs -> emit_body cx f2 ar (tsid t) p0 = Ok st ->
    ops_sel f (out st) = map (ex_id2i cx S0) (sel f (flat_map pR evs)).
  Proof.
    intros ar t tg p0 f1 f2 evs st HD Hf Hd He.
    pose proof (Proofs.Traversal.dfs_in_order_spec false ar t HD) as Hs.
    rewrite (dfs_det _ _ _ _ _ _ _ Hd Hs).
    destruct (emit_body_spec cx ar t tg p0 _ HD Hs Hf) as (st' & He' & Ho & _).
    rewrite (emit_body_det _ _ _ _ _ _ _ _ He He'), Ho.
    change (flat_map pR (events false t)) with
      (flat_map (fun e => match e with ERef sp id => [(sp, id)] | _ => [] end) (events false t)).
    rewrite in_order_refs. rewrite (proj1 flt_refs t [] KEntry tg Hf). reflexivity.
  Qed.
End Refs.

Lemma used_of_log_sel evs : WV.Model.Locals.used_of_log evs = sel is_local (flat_map pR evs).
Proof.
  unfold WV.Model.Locals.used_of_log. induction evs as [|e evs IH]; [reflexivity|].
  cbn [flat_map]. rewrite sel_app, <- IH. f_equal. destruct e as [| | | |sp id| |]; try reflexivity.
  destruct sp; reflexivity.
Qed.
Definition data_flag (evs : list ev) : bool :=
  existsb (fun e => match e with ERef S_data _ => true | _ => false end) evs.
Lemma data_flag_sel evs : data_flag evs = match sel is_data (flat_map pR evs) with [] => false | _ => true end.
Proof.
  unfold data_flag. induction evs as [|e evs IH]; [reflexivity|].
  cbn [existsb flat_map]. rewrite sel_app, IH.
  destruct e as [| | | |sp id| |]; try reflexivity. destruct sp; reflexivity.
Qed.

(* one round trip: the emitted local indices are, in order, the images of the logged local ids;
   the data flag of the log says whether the emitted stream mentions a data index *)
Theorem trip_locals : forall cx ecx ety rs l eloc p0 ar st fuel f evs,
  wfl cx 1 l -> enc_ok cx ecx ->
  parse_body cx ety rs (flat_list l ++ [(WEnd, eloc)]) = Ok ar ->
  emit_body ecx fuel ar 0 p0 = Ok st ->
  dfs_in_order false f ar 0 = Ok evs ->
  ops_sel is_local (out st) = map (ex_id2i ecx S_local) (WV.Model.Locals.used_of_log evs) /\
  data_flag evs = match ops_sel is_data (out st) with [] => false | _ => true end.
Proof.
  intros cx ecx ety rs l eloc p0 ar st fuel f evs Hw Henc Hp He Hd.
  rewrite (parse_body_arena cx ety rs l eloc Hw) in Hp. injection Hp as <-.
  pose proof (parsed_arena_den cx ety l eloc Hw) as HD.
  pose proof (flt_parsed_tree cx ecx ety l eloc Hw Henc) as Hf.
  rewrite <- (parsed_tree_tsid cx ety l eloc) in He, Hd.
  split.
  - rewrite used_of_log_sel.
    exact (emitted_refs_sel ecx is_local S_local (encode_sel_local _) _ _ _ _ _ _ _ _ HD Hf Hd He).
  - rewrite data_flag_sel.
    rewrite (emitted_refs_sel ecx is_data S_data (encode_sel_data _) _ _ _ _ _ _ _ _ HD Hf Hd He).
    destruct (sel is_data (flat_map pR evs)); reflexivity.
Qed.

(* the second parse logs the same local indices and the same data flag *)
Theorem body_second_trip_refs : forall cx ecx ety rs l eloc p0 ar1 st1 fuel1 cx2 ecx2 ety2 rs2,
  wfl cx 1 l -> enc_ok cx ecx ->
  parse_body cx ety rs (flat_list l ++ [(WEnd, eloc)]) = Ok ar1 ->
  emit_body ecx fuel1 ar1 0 p0 = Ok st1 ->
  let ops1 := combine (out st1) (map snd (imap st1)) in
  ex_ilen ecx2 = ex_ilen ecx ->
  Forall (op_ok2 cx2) (map fst ops1) ->
  enc_ok cx2 ecx2 ->
  Forall (ins_fixed cx2 ecx2) (map fst ops1) ->
  forall ar2, parse_body cx2 ety2 rs2 ops1 = Ok ar2 ->
  forall f1 f2 evs1 evs2,
    dfs_in_order false f1 ar1 0 = Ok evs1 -> dfs_in_order false f2 ar2 0 = Ok evs2 ->
    map (ex_id2i ecx2 S_local) (WV.Model.Locals.used_of_log evs2)
      = map (ex_id2i ecx S_local) (WV.Model.Locals.used_of_log evs1) /\
    map (ex_id2i ecx2 S_local) (WV.Model.Locals.used_of_log evs2) = ops_sel is_local (map fst ops1) /\
    data_flag evs2 = data_flag evs1.
Proof.
  intros cx ecx ety rs l eloc p0 ar1 st1 fuel1 cx2 ecx2 ety2 rs2 Hw Henc Hp He ops1 Hil HW HE HF ar2 Hp2
    f1 f2 evs1 evs2 Hd1 Hd2.
  destruct (second_trip_setup cx ecx ety rs l eloc p0 ar1 st1 fuel1 cx2 ecx2 ety2 rs2 ar2 Hw Henc Hp He Hil HW HE HF Hp2)
    as (Hfst & L1 & eloc1 & fuel2 & st2 & HW1 & Hp2' & He2 & Ho2).
  destruct (trip_locals _ _ _ _ _ _ _ _ _ _ _ _ Hw Henc Hp He Hd1) as [U1 D1].
  destruct (trip_locals _ _ _ _ _ _ _ _ _ _ _ _ HW1 HE Hp2' He2 Hd2) as [U2 D2].
  rewrite Ho2 in U2, D2. unfold ops1. rewrite Hfst.
  split; [now rewrite <- U2, <- U1|]. split; [now rewrite <- U2|]. now rewrite D1, D2.
Qed.

Print Assumptions emitted_refs_sel.
Print Assumptions trip_locals.
Print Assumptions body_second_trip_refs.

(* the emitted stream is the flattening of a structured body that is well-formed for the second
   context and in normal form: what is needed to treat the second parse as "the parse of a body"
   (e.g. TotalityBodies.parsed_lf, parse_body_arena) *)
Theorem emitted_ops_shape : forall cx ecx ety rs l eloc p0 ar1 st1 fuel1 cx2,
  wfl cx 1 l ->
  parse_body cx ety rs (flat_list l ++ [(WEnd, eloc)]) = Ok ar1 ->
  emit_body ecx fuel1 ar1 0 p0 = Ok st1 ->
  let ops1 := combine (out st1) (map snd (imap st1)) in
  Forall (op_ok2 cx2) (map fst ops1) ->
  exists L1 eloc1, ops1 = flat_list L1 ++ [(WEnd, eloc1)] /\ wfl cx2 1 L1 /\ is_nf L1 /\
    forall ety2 rs2, parse_body cx2 ety2 rs2 ops1 = Ok (parsed_arena cx2 ety2 L1 eloc1).
Proof.
  intros cx ecx ety rs l eloc p0 ar1 st1 fuel1 cx2 Hw Hp He ops1 HW.
  pose proof (enc_ok_all cx ecx) as Henc.
  destruct (emitted_ops_structured _ _ _ _ _ _ _ _ _ _ Hw Henc Hp He) as (eloc1 & Hops & Hnf & _ & _ & Hfst & _ & _).
  fold ops1 in Hops, Hfst.
  assert (HW1 : wfl cx2 1 (emitted_tree cx ecx l (map snd (imap st1)))).
  { eapply emitted_tree_wfl; try eassumption. rewrite <- Hfst. exact HW. }
  exists (emitted_tree cx ecx l (map snd (imap st1))), eloc1.
  split; [exact Hops|]. split; [exact HW1|]. split; [exact Hnf|].
  intros ety2 rs2. rewrite Hops. apply parse_body_arena, HW1.
Qed.

(* the three second-trip theorems with the minimal visible premises: (W) and (F) on the emitted instructions *)
Theorem body_second_trip_all : forall cx ecx ety rs l eloc p0 ar1 st1 fuel1 cx2 ecx2 ety2 rs2,
  wfl cx 1 l ->
  parse_body cx ety rs (flat_list l ++ [(WEnd, eloc)]) = Ok ar1 ->
  emit_body ecx fuel1 ar1 0 p0 = Ok st1 ->
  let ops1 := combine (out st1) (map snd (imap st1)) in
  ex_ilen ecx2 = ex_ilen ecx ->
  Forall (op_ok2 cx2) (map fst ops1) ->
  Forall (ins_fixed cx2 ecx2) (map fst ops1) ->
  exists ar2,
    parse_body cx2 ety2 rs2 ops1 = Ok ar2 /\
    (exists fuel2 st2, emit_body ecx2 fuel2 ar2 0 p0 = Ok st2) /\
    (forall fuel2 st2, emit_body ecx2 fuel2 ar2 0 p0 = Ok st2 ->
       combine (out st2) (map snd (imap st2)) = ops1) /\
    (forall f1 f2 evs1 evs2,
       dfs_in_order false f1 ar1 0 = Ok evs1 -> dfs_in_order false f2 ar2 0 = Ok evs2 ->
       n_instr evs2 = n_instr evs1 /\
       map (ex_id2i ecx2 S_local) (WV.Model.Locals.used_of_log evs2)
         = map (ex_id2i ecx S_local) (WV.Model.Locals.used_of_log evs1) /\
       data_flag evs2 = data_flag evs1).
Proof.
  intros cx ecx ety rs l eloc p0 ar1 st1 fuel1 cx2 ecx2 ety2 rs2 Hw Hp He ops1 Hil HW HF.
  pose proof (enc_ok_all cx ecx) as Henc. pose proof (enc_ok_all cx2 ecx2) as HE.
  destruct (body_second_trip_ops cx ecx ety rs l eloc p0 ar1 st1 fuel1 cx2 ecx2 ety2 rs2 Hw Henc Hp He Hil HW HE HF)
    as (ar2 & Hp2 & Hex & Hall).
  exists ar2. split; [exact Hp2|]. split; [exact Hex|]. split.
  - intros fuel2 st2 He2. apply (Hall _ _ He2).
  - intros f1 f2 evs1 evs2 Hd1 Hd2.
    destruct (body_second_trip_size cx ecx ety rs l eloc p0 ar1 st1 fuel1 cx2 ecx2 ety2 rs2 Hw Henc Hp He Hil HW HE HF
                ar2 Hp2 f1 f2 evs1 evs2 Hd1 Hd2) as [A _].
    destruct (body_second_trip_refs cx ecx ety rs l eloc p0 ar1 st1 fuel1 cx2 ecx2 ety2 rs2 Hw Henc Hp He Hil HW HE HF
                ar2 Hp2 f1 f2 evs1 evs2 Hd1 Hd2) as (B & _ & C).
    split; [exact A|]. split; [exact B|exact C].
Qed.

Print Assumptions enc_ok_all.
Print Assumptions emitted_ops_shape.
Print Assumptions body_second_trip_all.
