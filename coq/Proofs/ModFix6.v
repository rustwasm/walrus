(* C08, module level fixpoint, part 6: the FUNCTION index space (order of the functions), the IMPORT section
   and the FUNCTION (declaration) section of the second round trip. *)
From Coq Require Import List NArith ZArith Bool Arith Lia Sorting.Sorted Sorting.Permutation.
Import ListNotations.
From WV Require Import Gen.Ops Model.Common Model.IR Model.Arena Model.Traversal Model.EmitFn Model.Locals
                       Model.ParseFn Model.ModuleM Model.ParseM Model.EmitM Gen.Attrs.
From WV Require Import Proofs.Arena Proofs.Order Proofs.SortKeys Proofs.IndexMaps Proofs.CustomsCfg Proofs.Structure Proofs.Structure2
                       Proofs.Renumbering Proofs.Names Proofs.Totality Proofs.Escalation Proofs.ModFix Proofs.ModFix4.
From WV Require Proofs.ModFix3.
Local Open Scope nat_scope.

Lemma fn_imports_tag : forall s, has_tag 1 s = false -> imports_of s = [].
Proof. intros [] H; try reflexivity. discriminate. Qed.
Lemma fn_funcs_tag : forall s, has_tag 2 s = false -> funcs_of s = [].
Proof. intros [] H; try reflexivity. discriminate. Qed.

Lemma fn_emit_imports_shape m x s x' : emit_imports m x = Ok (s, x') -> s = [] \/ exists ws, s = [S_Imports ws].
Proof.
  unfold emit_imports. destruct (map snd (aiter (m_imports m))) as [|i r].
  - intros H; inversion H; auto.
  - intros H. rinv H as a Ea. inversion H; subst. right. eauto.
Qed.
Lemma fn_emit_funcs_shape m x s x' : emit_func_section m x = Ok (s, x') -> s = [] \/ exists l, s = [S_Funcs l].
Proof.
  rewrite emit_func_section_unfold. intros H. rinv H as fs Efs. destruct fs as [|p r].
  - inversion H; auto.
  - rinv H as b Eb. inversion H; subst. right. eauto.
Qed.

(* the pieces of an emitted stream that matter here *)
Lemma fn_sections m ilen e : emitM m ilen [] = Ok e ->
  exists s_ty x1 s_im x2 s_fn x3,
    emit_types m empty_x2i = (s_ty, x1) /\ emit_imports m x1 = Ok (s_im, x2) /\ emit_func_section m x2 = Ok (s_fn, x3) /\
    flat_map imports_of (em_secs e) = flat_map imports_of s_im /\
    flat_map funcs_of (em_secs e) = flat_map funcs_of s_fn /\
    (forall s, In s (em_secs e) -> sec_tag s = Some 1 -> In s s_im) /\
    (forall s, In s (em_secs e) -> sec_tag s = Some 2 -> In s s_fn) /\
    exists tl, em_secs e = s_ty ++ s_im ++ s_fn ++ tl /\ Forall (fun s => has_tag 1 s = false /\ has_tag 2 s = false) tl.
Proof.
  intros He. emitM_kinds He. exists s_ty, x1, s_im, x2, s_fn, x3.
  split; [exact Ety|]. split; [exact Eim|]. split; [exact Efn|].
  pose proof (Ekind 1) as K1. pose proof (Ekind 2) as K2. cbn [nth] in K1, K2.
  split; [rewrite (flat_map_tag imports_of 1 fn_imports_tag), K1; reflexivity|].
  split; [rewrite (flat_map_tag funcs_of 2 fn_funcs_tag), K2; reflexivity|].
  split; [intros s Hs Ht; rewrite <- K1; apply filter_In; unfold has_tag; rewrite Ht; auto|].
  split; [intros s Hs Ht; rewrite <- K2; apply filter_In; unfold has_tag; rewrite Ht; auto|].
  eexists. split; [exact Esecs|].
  apply Forall_and; repeat (apply Forall_app; split); try (eapply tagged_other; [eassumption|lia]); apply untagged_other, Erest.
Qed.

Lemma fn_rho_bound s e S i j : Structure.rho s e S i = Ok j -> N.to_nat i < length (ids_space (ps_ids s) S).
Proof.
  unfold Structure.rho. destruct (nth_error (ids_space (ps_ids s) S) (N.to_nat i)) eqn:E; [|discriminate].
  intros _. apply nth_error_Some. congruence.
Qed.
Lemma fn_import_rt_id s e wi wo : rho_id s e S_type -> import_rt s e wi wo -> wo = wi.
Proof.
  intros RT. destruct wi as [mo na k], wo as [mo' na' k']. unfold import_rt. cbn [wi_module wi_name wi_kind].
  intros (A & B & C). subst. f_equal. destruct k; try exact C.
  destruct C as (ti & R & K). pose proof (fn_rho_bound _ _ _ _ _ R) as L. rewrite (RT _ L) in R. inversion R; subst. reflexivity.
Qed.
(* single round trip, modulo the renumbering of the types *)
Lemma imports_roundtrip_payload cf ver w s ilen e : parseM cf ver w = POk s -> emitM (ps_m s) ilen [] = Ok e ->
  Forall2 (import_rt s e) (flat_map imports_of w) (flat_map imports_of (em_secs e)).
Proof.
  intros Hp He. apply (payload_related imports_of 1 S_Imports); try reflexivity.
  - exact fn_imports_tag.
  - apply stream_wf_once; [exact (emit_stream_wf _ _ _ He)|lia].
  - intros EI. destruct (fn_sections _ _ _ He) as (s_ty & x1 & s_im & x2 & s_fn & x3 & _ & Eim & _ & -> & _).
    pose proof (parseM_imports _ _ _ _ Hp) as FI. rewrite EI in FI. apply Forall2_length in FI. cbn [length] in FI.
    pose proof (parseM_ids _ _ _ _ Hp) as Hid.
    assert (D : dead (m_imports (ps_m s)) = []) by (unfold ids_consistent in Hid; tauto).
    unfold emit_imports in Eim. rewrite (aiter_nodead_snd _ D) in Eim.
    destruct (items (m_imports (ps_m s))); [|discriminate]. inversion Eim; reflexivity.
  - exact (structure_imports_gen _ _ _ _ _ _ _ Hp He).
Qed.

Theorem fix_imports : forall cf ver w ilen s1 e1 s2 e2, two_trips cf ver w ilen s1 e1 s2 e2 -> rho_id s2 e2 S_type ->
  flat_map imports_of (em_secs e2) = flat_map imports_of (em_secs e1).
Proof.
  intros cf ver w ilen s1 e1 s2 e2 (P1 & E1 & P2 & E2) RT.
  refine (Forall2_eq _ _ _ _ (imports_roundtrip_payload _ _ _ _ _ _ P2 E2)).
  intros a b _ R. exact (fn_import_rt_id _ _ _ _ RT R).
Qed.

(* the declared type indices of an emitted stream: those of the function imports, then the function section *)
Lemma fn_out_ftys_split m ilen e : emitM m ilen [] = Ok e ->
  out_ftys e = imp_ftys (flat_map imports_of (em_secs e)) ++ flat_map funcs_of (em_secs e).
Proof.
  intros He. destruct (fn_sections _ _ _ He) as (s_ty & x1 & s_im & x2 & s_fn & x3 & Ety & Eim & Efn & HI & HF & _).
  destruct (out_decls _ _ _ _ He WV.Proofs.ModFix3.dw_custom_nil) as (s_ty' & x1' & s_im' & x2' & s_fn' & x3' & Ety' & Eim' & Efn' & HO & _).
  rewrite Ety in Ety'. inversion Ety'; subst s_ty' x1'. rewrite Eim in Eim'. inversion Eim'; subst s_im' x2'.
  rewrite Efn in Efn'. inversion Efn'; subst s_fn' x3'. rewrite HO, HI, HF. f_equal.
  - destruct (fn_emit_imports_shape _ _ _ _ Eim) as [->|[ws ->]]; [reflexivity|]. cbn [flat_map sec_ftys imports_of].
    rewrite !app_nil_r. reflexivity.
  - destruct (fn_emit_funcs_shape _ _ _ _ Efn) as [->|[l ->]]; reflexivity.
Qed.

Lemma fn_out_ftys_length m ilen e : emitM m ilen [] = Ok e -> length (out_ftys e) = length (emitted_ids e S_func).
Proof.
  intros He. destruct (out_decls _ _ _ _ He WV.Proofs.ModFix3.dw_custom_nil) as (s_ty & x1 & s_im & x2 & s_fn & x3 & Ety & Eim & Efn & HO & _).
  destruct (emitted_ids_shape _ _ _ _ He) as (fs & Hfs & Hf & _).
  destruct (emit_imports_ftys _ _ _ _ Eim) as (ws & Ews & Fws). apply imports_align in Fws.
  destruct (emit_func_section_ftys _ _ _ _ Efn) as (fs' & tis & Hfs' & Etis & Ftis).
  rewrite Hfs in Hfs'. inversion Hfs'; subst fs'.
  rewrite HO, Hf, Ews, Etis, !app_length, map_length. rewrite <- imported_funcs_eq.
  apply Forall2_length in Fws. apply Forall2_length in Ftis. lia.
Qed.

(* with both renumberings the identity, the second stream declares the same type index at every function position *)
Lemma fn_out_ftys_fixed cf ver w ilen s1 e1 s2 e2 : two_trips cf ver w ilen s1 e1 s2 e2 ->
  rho_id s2 e2 S_type -> rho_id s2 e2 S_func -> out_ftys e2 = out_ftys e1.
Proof.
  intros (P1 & E1 & P2 & E2) RT RF.
  pose proof (parseM_ids _ _ _ _ P2) as Hid.
  destruct (parseM_sigs _ _ _ _ P2) as [_ HF]. unfold FInv in HF. fold (out_ftys e1) in HF.
  assert (NF : n_in s2 S_func = length (items (m_funcs (ps_m s2)))).
  { unfold n_in. cbn [ids_space]. unfold ids_consistent in Hid. destruct Hid as [-> _]. apply iota_length. }
  assert (L1 : length (out_ftys e1) = length (items (m_funcs (ps_m s2)))).
  { rewrite (Forall2_length _ _ _ HF). unfold K_fty. apply map_length. }
  assert (L2 : length (out_ftys e2) = length (items (m_funcs (ps_m s2)))).
  { rewrite (fn_out_ftys_length _ _ _ E2), (emitted_count _ _ _ _ _ _ _ P2 E2 S_func) by discriminate. exact NF. }
  apply nth_error_ext'. intros k.
  destruct (nth_error (out_ftys e1) k) as [ti|] eqn:Ek.
  - destruct (Forall2_nth_l _ _ _ _ _ HF Ek) as (c & Hc & Hty).
    unfold K_fty in Hc. rewrite nth_error_map in Hc.
    destruct (nth_error (items (m_funcs (ps_m s2))) k) as [f|] eqn:Ef; [|discriminate]. cbn [option_map] in Hc.
    inversion Hc; subst c; clear Hc. rewrite fcore_ty in Hty.
    assert (Lk : k < length (items (m_funcs (ps_m s2)))) by (apply nth_error_Some; congruence).
    assert (Hk : N.to_nat (N.of_nat k) < length (ids_space (ps_ids s2) S_func)).
    { rewrite Nat2N.id. fold (n_in s2 S_func). rewrite NF. exact Lk. }
    pose proof (RF _ Hk) as Hr. apply (rho_entity _ _ _ _ Hid) in Hr; try discriminate.
    assert (Ef' : nth_error (items (m_funcs (ps_m s2))) (N.to_nat (N.of_nat k)) = Some f) by (rewrite Nat2N.id; exact Ef).
    destruct (emit_func_decl _ _ _ _ E2 WV.Proofs.ModFix3.dw_custom_nil _ _ _ Hr Ef') as (tj & Htj & Hg). rewrite Nat2N.id in Htj.
    rewrite Htj. f_equal.
    assert (Hrt : Structure.rho s2 e2 S_type ti = Ok tj).
    { unfold Structure.rho. cbn [ids_space]. unfold nth_N in Hty. rewrite Hty. exact Hg. }
    pose proof (fn_rho_bound _ _ _ _ _ Hrt) as Lt. rewrite (RT _ Lt) in Hrt. inversion Hrt. reflexivity.
  - apply nth_error_None in Ek. apply nth_error_None. lia.
Qed.

Theorem fix_funcs_decl : forall cf ver w ilen s1 e1 s2 e2, two_trips cf ver w ilen s1 e1 s2 e2 ->
  rho_id s2 e2 S_type -> rho_id s2 e2 S_func ->
  flat_map funcs_of (em_secs e2) = flat_map funcs_of (em_secs e1).
Proof.
  intros cf ver w ilen s1 e1 s2 e2 TT RT RF.
  pose proof (fn_out_ftys_fixed _ _ _ _ _ _ _ _ TT RT RF) as HO.
  pose proof (fix_imports _ _ _ _ _ _ _ _ TT RT) as HI.
  destruct TT as (P1 & E1 & P2 & E2).
  rewrite (fn_out_ftys_split _ _ _ E1), (fn_out_ftys_split _ _ _ E2), HI in HO.
  apply app_inv_head in HO. exact HO.
Qed.

(* body-level premise (delivered elsewhere): a re-parsed local function has the size of the function it came from *)
Definition sizes_stable (s1 : pst) (e1 : emitted) (s2 : pst) : Prop :=
  forall id j f1 lf1 f2 lf2, get_idx (em_x2i e1) S_func id = Ok j ->
    aget (m_funcs (ps_m s1)) id = Some f1 -> fn_kind f1 = FK_Local lf1 ->
    aget (m_funcs (ps_m s2)) j = Some f2 -> fn_kind f2 = FK_Local lf2 -> lf_size lf2 = lf_size lf1.

(* layout of the function arena of the re-parsed module: the imported functions are the ids 0..ni-1 in import
   order (ni = number of function imports of the first module), the local functions have ids >= ni *)
Definition funcs_layout (s1 s2 : pst) : Prop :=
  imported_funcs (ps_m s2) = iota (length (imported_funcs (ps_m s1))) /\
  forall j f lf, aget (m_funcs (ps_m s2)) j = Some f -> fn_kind f = FK_Local lf ->
                 length (imported_funcs (ps_m s1)) <= N.to_nat j.

Lemma fn_ss_nth {A} (R : A -> A -> Prop) L : StronglySorted R L ->
  forall i j x y, i < j -> nth_error L i = Some x -> nth_error L j = Some y -> R x y.
Proof.
  induction 1 as [|a L SS IH Hall]; intros i j x y Hij Hi Hj; [destruct i; discriminate|].
  destruct j; [lia|]. destruct i; cbn [nth_error] in *.
  - inversion Hi; subst. rewrite Forall_forall in Hall. apply Hall. eapply nth_error_In; eauto.
  - eapply IH; [|eauto|eauto]. lia.
Qed.

Definition fn_id (t : N * N * mlocalfunc) : N := snd (fst t).
Definition fn_sz (t : N * N * mlocalfunc) : N := fst (fst t).

(* a list sorted by (size desc, id asc) whose sizes do not increase with the id is sorted by id *)
Lemma fn_ss_map (L : list (N * N * mlocalfunc)) : StronglySorted func_before L -> NoDup (map fn_id L) ->
  (forall a b, In a L -> In b L -> (fn_id a < fn_id b)%N -> (fn_sz b <= fn_sz a)%N) ->
  StronglySorted N.lt (map fn_id L).
Proof.
  induction 1 as [|a L SS IH Hall]; intros ND M; cbn [map]; constructor.
  - apply IH; [inversion ND; assumption|]. intros x y Hx Hy. apply M; right; assumption.
  - rewrite Forall_forall in *. intros y Hy. apply in_map_iff in Hy. destruct Hy as (b & <- & Hb).
    specialize (Hall b Hb). unfold func_before in Hall. fold (fn_sz a) (fn_sz b) (fn_id a) (fn_id b) in Hall.
    inversion ND as [|? ? Hnotin _]; subst.
    assert (Hne : fn_id a <> fn_id b).
    { intros E. apply Hnotin. rewrite E. apply in_map. exact Hb. }
    destruct (N.lt_trichotomy (fn_id a) (fn_id b)) as [H|[H|H]]; [exact H|contradiction|].
    pose proof (M b a (or_intror Hb) (or_introl eq_refl) H) as Hs. lia.
Qed.

Lemma fn_entry_in ps l : rmapM func_entry ps = Ok l -> forall t, In t (concat l) ->
  exists f, In (fn_id t, f) ps /\ fn_kind f = FK_Local (snd t) /\ lf_size (snd t) = Ok (fn_sz t).
Proof.
  intros E t Ht. apply in_concat in Ht. destruct Ht as (piece & Hp & Ht).
  apply (rmapM_In _ _ _ E) in Hp. destruct Hp as ([pid pf] & Hpa & Hpe). unfold func_entry in Hpe. cbn [fst snd] in Hpe.
  destruct (fn_kind pf) as [? ?|lf0|?] eqn:Ek.
  - inversion Hpe; subst. destruct Ht.
  - rinv Hpe as sz Esz. inversion Hpe; subst piece; clear Hpe. destruct Ht as [<-|[]]. unfold fn_id, fn_sz. cbn [fst snd].
    exists pf. auto.
  - discriminate.
Qed.

(* the ids of the local functions in emission order are increasing when the sizes do not increase with the id *)
Lemma fn_sorted_ids m fs : used_local_functions m = Ok fs ->
  (forall a b fa fb la lb sa sb, aget (m_funcs m) a = Some fa -> fn_kind fa = FK_Local la -> lf_size la = Ok sa ->
     aget (m_funcs m) b = Some fb -> fn_kind fb = FK_Local lb -> lf_size lb = Ok sb -> (a < b)%N -> (sb <= sa)%N) ->
  StronglySorted N.lt (map fst fs).
Proof.
  rewrite used_local_functions_eq. intros H M. rinv H as l El. inversion H; subst fs; clear H.
  rewrite map_map. cbn [fst]. fold fn_id.
  destruct (func_entries_ids _ _ El (aiter_NoDup (m_funcs m))) as [ND _]. fold fn_id in ND.
  apply fn_ss_map.
  - apply sort_funcs_sorted.
  - eapply Permutation_NoDup; [|exact ND]. apply Permutation_map, Permutation_sym, sort_funcs_perm.
  - intros a b Ha Hb Hab.
    eapply Permutation_in in Ha; [|apply sort_funcs_perm]. eapply Permutation_in in Hb; [|apply sort_funcs_perm].
    destruct (fn_entry_in _ _ El _ Ha) as (fa & Ia & Ka & Sa). destruct (fn_entry_in _ _ El _ Hb) as (fb & Ib & Kb & Sb).
    apply aiter_aget in Ia. apply aiter_aget in Ib. exact (M _ _ _ _ _ _ _ _ Ia Ka Sa Ib Kb Sb Hab).
Qed.

(* the sizes of the local functions of the re-parsed module do not increase with the id *)
Lemma fn_sizes_mono cf ver w ilen s1 e1 s2 e2 : two_trips cf ver w ilen s1 e1 s2 e2 ->
  sizes_stable s1 e1 s2 -> funcs_layout s1 s2 ->
  forall a b fa fb la lb sa sb, aget (m_funcs (ps_m s2)) a = Some fa -> fn_kind fa = FK_Local la -> lf_size la = Ok sa ->
     aget (m_funcs (ps_m s2)) b = Some fb -> fn_kind fb = FK_Local lb -> lf_size lb = Ok sb -> (a < b)%N -> (sb <= sa)%N.
Proof.
  intros (P1 & E1 & P2 & E2) SS (_ & LAY) a b fa fb la lb sa sb Ga Ka Sa Gb Kb Sb Hab.
  set (ni := length (imported_funcs (ps_m s1))) in *.
  pose proof (LAY _ _ _ Ga Ka) as La. pose proof (LAY _ _ _ Gb Kb) as Lb.
  destruct (emitted_ids_shape _ _ _ _ E1) as (fs1 & Hfs1 & Hf1 & _).
  pose proof (parsed_wf_space _ _ _ _ _ _ _ S_func P1 E1 ltac:(discriminate)) as W1.
  assert (POS : forall id j, get_idx (em_x2i e1) S_func id = Ok j <->
                             nth_error (imported_funcs (ps_m s1) ++ map fst fs1) (N.to_nat j) = Some id).
  { intros id j. rewrite (x2i_positions _ _ _ _ W1). fold (emitted_ids e1 S_func). rewrite Hf1. reflexivity. }
  (* the function arena of s2 is as long as the emitted id list of e1 *)
  destruct (parseM_sigs _ _ _ _ P2) as [_ HF]. unfold FInv in HF. fold (out_ftys e1) in HF.
  assert (LEN : length (items (m_funcs (ps_m s2))) = length (imported_funcs (ps_m s1) ++ map fst fs1)).
  { rewrite <- Hf1, <- (fn_out_ftys_length _ _ _ E1), (Forall2_length _ _ _ HF). unfold K_fty. symmetry. apply map_length. }
  pose proof (aget_lt _ _ _ Ga) as Aa. pose proof (aget_lt _ _ _ Gb) as Ab. rewrite LEN in Aa, Ab.
  set (L := imported_funcs (ps_m s1) ++ map fst fs1) in *.
  rewrite used_local_functions_eq in Hfs1. rinv Hfs1 as l1 El1. injection Hfs1 as Efs.
  set (S1 := sort_funcs (concat l1)) in *.
  assert (ENT : forall j f2 lf2 sz, aget (m_funcs (ps_m s2)) j = Some f2 -> fn_kind f2 = FK_Local lf2 -> lf_size lf2 = Ok sz ->
            ni <= N.to_nat j -> N.to_nat j < length L -> exists t, nth_error S1 (N.to_nat j - ni) = Some t /\ fn_sz t = sz).
  { intros j f2 lf2 sz Gj Kj Sj Lj Aj.
    destruct (nth_error L (N.to_nat j)) as [id|] eqn:En; [|apply nth_error_None in En; lia].
    pose proof (proj2 (POS id j) En) as Hg.
    unfold L in En. rewrite nth_error_app2 in En by exact Lj. fold ni in En. rewrite <- Efs, map_map, nth_error_map in En. cbn [fst] in En.
    destruct (nth_error S1 (N.to_nat j - ni)) as [t|] eqn:Et; [|discriminate]. cbn [option_map] in En. inversion En as [Eid]; clear En.
    exists t. split; [reflexivity|].
    assert (Ht : In t (concat l1)).
    { eapply Permutation_in; [apply sort_funcs_perm|]. eapply nth_error_In; exact Et. }
    destruct (fn_entry_in _ _ El1 _ Ht) as (f1 & I1 & K1 & Z1). apply aiter_aget in I1. unfold fn_id in I1. rewrite Eid in I1.
    pose proof (SS _ _ _ _ _ _ Hg I1 K1 Gj Kj) as Hsz. rewrite Hsz, Z1 in Sj. inversion Sj. reflexivity. }
  destruct (ENT _ _ _ _ Ga Ka Sa La Aa) as (ta & Na & Za). destruct (ENT _ _ _ _ Gb Kb Sb Lb Ab) as (tb & Nb & Zb).
  assert (Hlt : N.to_nat a - ni < N.to_nat b - ni) by lia.
  pose proof (fn_ss_nth _ _ (sort_funcs_sorted (concat l1)) _ _ _ _ Hlt Na Nb) as FB.
  unfold func_before in FB. fold (fn_sz ta) (fn_sz tb) in FB. rewrite Za, Zb in FB. lia.
Qed.

Theorem funcs_identity_gen : forall cf ver w ilen s1 e1 s2 e2, two_trips cf ver w ilen s1 e1 s2 e2 ->
  sizes_stable s1 e1 s2 -> funcs_layout s1 s2 -> rho_id s2 e2 S_func.
Proof.
  intros cf ver w ilen s1 e1 s2 e2 TT SS LAY.
  pose proof (fn_sizes_mono _ _ _ _ _ _ _ _ TT SS LAY) as M.
  destruct TT as (P1 & E1 & P2 & E2). destruct LAY as (LI & LL).
  unfold rho_id. fold (n_in s2 S_func).
  apply (rho_identity_iff _ _ _ _ _ _ _ P2 E2 S_func); try discriminate.
  apply sorted_full_iota; [|intros x; apply (emitted_full _ _ _ _ _ _ _ P2 E2 S_func x); discriminate].
  destruct (emitted_ids_shape _ _ _ _ E2) as (fs2 & Hfs2 & Hf2 & _). rewrite Hf2, LI.
  apply sorted_app; [apply iota_sorted|exact (fn_sorted_ids _ _ Hfs2 M)|].
  intros x y Hx Hy. apply iota_In in Hx.
  apply (proj2 (used_local_functions_ids _ _ Hfs2)) in Hy. destruct Hy as (f & lf & Hin & Hk).
  apply aiter_aget in Hin. pose proof (LL _ _ _ Hin Hk). lia.
Qed.

(* the layout premise holds *)
Lemma fn_parse_secs_app : forall a b s s', parse_secs s (a ++ b) = POk s' ->
  exists s1, parse_secs s a = POk s1 /\ parse_secs s1 b = POk s'.
Proof.
  induction a as [|x a IH]; intros b s s' E; cbn [app parse_secs] in *.
  - exists s. split; [reflexivity|exact E].
  - pinv E as s1 E1. apply IH in E. destruct E as (s2 & A & B). exists s2. split; [|exact B].
    rewrite E1. cbn [pbind]. exact A.
Qed.
Lemma fn_parse_secs_noimp : forall w s s', Forall (fun sec => has_tag 1 sec = false) w -> parse_secs s w = POk s' ->
  m_imports (ps_m s') = m_imports (ps_m s).
Proof.
  induction w as [|x r IH]; intros s s' F E; cbn [parse_secs] in E.
  - inversion E; reflexivity.
  - pinv E as s1 E1. inversion F as [|? ? Fx Fr]; subst. rewrite (IH _ _ Fr E).
    destruct (parse_sec_FT _ _ _ E1) as (_ & _ & M). destruct x; try exact M. cbn in Fx. discriminate Fx.
Qed.
Lemma fn_parse_secs_types : forall w s s', tagged 0 w -> parse_secs s w = POk s' ->
  m_imports (ps_m s') = m_imports (ps_m s) /\ m_funcs (ps_m s') = m_funcs (ps_m s).
Proof.
  induction w as [|x r IH]; intros s s' T E; cbn [parse_secs] in E.
  - inversion E; auto.
  - pinv E as s1 E1. inversion T as [|? ? Tx Tr]; subst. destruct (IH _ _ Tr E) as [A B]. rewrite A, B.
    destruct (parse_sec_FT _ _ _ E1) as (_ & _ & M). destruct (parse_sec_frameB _ _ _ E1) as (_ & Fm).
    destruct x; cbn [sec_tag] in Tx; try discriminate Tx. auto.
Qed.
Lemma fn_imp_ids_entries : forall l nf nt nm ng,
  imp_ids S_func (imp_entries nf nt nm ng l) = map N.of_nat (seq nf (length (imp_ftys l))).
Proof.
  unfold imp_ids. induction l as [|i r IH]; intros nf nt nm ng; [reflexivity|].
  cbn [imp_entries imp_ftys flat_map]. fold (imp_ftys r).
  destruct (wi_kind i); cbn [flat_map imp_id im_kind app length seq map]; rewrite IH; reflexivity.
Qed.

Lemma fn_imp_ftys_length m ilen e : emitM m ilen [] = Ok e ->
  length (imp_ftys (flat_map imports_of (em_secs e))) = length (imported_funcs m).
Proof.
  intros He. destruct (fn_sections _ _ _ He) as (s_ty & x1 & s_im & x2 & s_fn & x3 & Ety & Eim & Efn & HI & _).
  destruct (emit_imports_ftys _ _ _ _ Eim) as (ws & Ews & Fws). apply imports_align in Fws.
  assert (Q : flat_map sec_ftys s_im = imp_ftys (flat_map imports_of s_im)).
  { destruct (fn_emit_imports_shape _ _ _ _ Eim) as [->|[l ->]]; [reflexivity|]. cbn [flat_map sec_ftys imports_of].
    rewrite !app_nil_r. reflexivity. }
  rewrite HI, <- Q, Ews, <- imported_funcs_eq. symmetry. eapply Forall2_length; eauto.
Qed.

Lemma fn_second_imports cf ver w ilen s1 e1 s2 e2 : two_trips cf ver w ilen s1 e1 s2 e2 ->
  imported_funcs (ps_m s2) = iota (length (imp_ftys (flat_map imports_of (em_secs e1)))).
Proof.
  intros (P1 & E1 & P2 & E2).
  destruct (fn_sections _ _ _ E1) as (s_ty & x1 & s_im & x2 & s_fn & x3 & Ety & Eim & Efn & HI & _ & _ & _ & tl & Esecs & Ftl).
  destruct (parseM_KK _ _ _ _ P2) as (sA & PA & EK).
  assert (MI : m_imports (ps_m s2) = m_imports (ps_m sA)) by (unfold KK in EK; injection EK; intros; congruence).
  rewrite <- imported_funcs_eq, (live_imports_items _ _ _ _ P2), MI. clear MI EK.
  rewrite Esecs in PA. apply fn_parse_secs_app in PA. destruct PA as (sB & PB & PA).
  apply fn_parse_secs_app in PA. destruct PA as (sC & PC & PA).
  destruct (fn_parse_secs_types _ _ _ (one_sec_tagged _ _ _ (emit_types_one _ _ _ _ Ety) (fun _ => eq_refl)) PB) as [B1 B2].
  assert (NI : Forall (fun sec => has_tag 1 sec = false) (s_fn ++ tl)).
  { apply Forall_app. split.
    - pose proof (one_sec_tagged _ 2 _ (emit_func_section_one _ _ _ _ Efn) (fun _ => eq_refl)) as T2. unfold tagged in T2. eapply Forall_impl; [|exact T2].
      intros s Hs. unfold has_tag. rewrite Hs. reflexivity.
    - eapply Forall_impl; [|exact Ftl]. intros s [Hs _]. exact Hs. }
  rewrite (fn_parse_secs_noimp _ _ _ NI PA), HI.
  destruct (fn_emit_imports_shape _ _ _ _ Eim) as [->|[ws ->]].
  - cbn [parse_secs] in PC. inversion PC; subst sC. rewrite B1. reflexivity.
  - cbn [parse_secs] in PC. pinv PC as sD PD. inversion PC; subst sD; clear PC.
    unfold parse_sec in PD. pinv PD as x Ex. destruct x as [m1 i1]. inversion PD; subst; clear PD. wcbn.
    apply parse_imports_spec in Ex. cbv zeta in Ex. destruct Ex as (_ & _ & _ & _ & E5 & _).
    rewrite B1, B2 in E5.
    change (items (m_imports (ps_m (pst0 cf)))) with (@nil mimport) in E5.
    change (items (m_funcs (ps_m (pst0 cf)))) with (@nil mfunc) in E5.
    cbn [app length] in E5. rewrite E5, fn_imp_ids_entries. cbn [flat_map imports_of]. rewrite app_nil_r. reflexivity.
Qed.

Theorem fn_layout : forall cf ver w ilen s1 e1 s2 e2, two_trips cf ver w ilen s1 e1 s2 e2 -> funcs_layout s1 s2.
Proof.
  intros cf ver w ilen s1 e1 s2 e2 TT.
  pose proof (fn_second_imports _ _ _ _ _ _ _ _ TT) as SI. destruct TT as (P1 & E1 & P2 & E2).
  rewrite (fn_imp_ftys_length _ _ _ E1) in SI. split; [exact SI|].
  intros j f lf Gj Kj. destruct (le_lt_dec (length (imported_funcs (ps_m s1))) (N.to_nat j)) as [Hle|Hlt]; [exact Hle|exfalso].
  assert (Hin : In j (imported_funcs (ps_m s2))) by (rewrite SI; apply iota_In; exact Hlt).
  unfold imported_funcs in Hin. rewrite (live_imports_items _ _ _ _ P2) in Hin. apply in_flat_map in Hin.
  destruct Hin as (mi & Hmi & Hk).
  pose proof (parseM_imports _ _ _ _ P2) as FI. apply In_nth_error in Hmi. destruct Hmi as (n & Hn).
  destruct (Forall2_nth_l _ _ _ _ _ FI Hn) as (wi & _ & (_ & _ & Hok)).
  destruct (im_kind mi) as [f0|?|?|?]; try (destruct Hk; fail). destruct Hk as [->|[]].
  destruct (wi_kind wi) as [wt|?|?|?]; try contradiction. destruct Hok as (tyid & _ & HK).
  apply aget_nth in Gj. unfold K_fty in HK. rewrite (map_nth_error fcore _ _ Gj) in HK.
  unfold fcore in HK. rewrite Kj in HK. cbn [fkcore] in HK. inversion HK.
Qed.

Theorem funcs_identity : forall cf ver w ilen s1 e1 s2 e2, two_trips cf ver w ilen s1 e1 s2 e2 ->
  sizes_stable s1 e1 s2 -> rho_id s2 e2 S_func.
Proof.
  intros cf ver w ilen s1 e1 s2 e2 TT SS. eapply funcs_identity_gen; [exact TT|exact SS|eapply fn_layout; exact TT].
Qed.

(* convenience for the assembly: the function section under the body-level premise only *)
Corollary fix_funcs_decl_sizes : forall cf ver w ilen s1 e1 s2 e2, two_trips cf ver w ilen s1 e1 s2 e2 ->
  rho_id s2 e2 S_type -> sizes_stable s1 e1 s2 ->
  flat_map funcs_of (em_secs e2) = flat_map funcs_of (em_secs e1).
Proof.
  intros cf ver w ilen s1 e1 s2 e2 TT RT SS. eapply fix_funcs_decl; [exact TT|exact RT|].
  eapply funcs_identity; [exact TT|exact SS].
Qed.

Print Assumptions funcs_identity.
Print Assumptions fix_imports.
Print Assumptions fix_funcs_decl.
Print Assumptions fn_layout.
Print Assumptions fix_funcs_decl_sizes.
