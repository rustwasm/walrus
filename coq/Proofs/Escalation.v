(* The round trip never ESCALATES the features a module needs:
   1. block types: inline forms stay inline, small function types are de-escalated;
   2. function bodies: no operator is invented, no control operator is added (except the
      MVP `else` / `end`), branch immediates are unchanged;
   3. element segments keep their kind and their item encoding; table 0 is emitted in the
      MVP (implicit table) form;
   4. the data-count section appears only if a passive segment exists or some local
      function executes memory.init / data.drop. *)
From Coq Require Import List NArith ZArith Arith Lia Bool. Import ListNotations.
From WV Require Import Gen.Ops Model.Common Model.IR Model.Arena Model.ParseFn Model.ParseSpec
  Model.Traversal Model.EmitFn Model.BodySpec Model.ModuleM Model.EmitM.
From WV Require Import Proofs.ParseFn Proofs.Body.
Local Open Scope nat_scope.

Lemma nf_bt_empty : forall cx ecx, nf_bt cx ecx BT_Empty = BT_Empty.
Proof. reflexivity. Qed.

Lemma nf_bt_val : forall cx ecx t, nf_bt cx ecx (BT_Val t) = BT_Val t.
Proof. reflexivity. Qed.

Lemma nf_bt_func_void : forall cx ecx i b,
  nth_N (px_types cx) (px_i2id cx S_type i) = Some ([], [], b) -> nf_bt cx ecx (BT_Func i) = BT_Empty.
Proof.
  intros cx ecx i b H. unfold nf_bt, bt_seqty. cbn [bt_tys]. rewrite H. reflexivity.
Qed.

Lemma nf_bt_func_single : forall cx ecx i r b,
  nth_N (px_types cx) (px_i2id cx S_type i) = Some ([], [r], b) -> nf_bt cx ecx (BT_Func i) = BT_Val r.
Proof.
  intros cx ecx i r b H. unfold nf_bt, bt_seqty. cbn [bt_tys]. rewrite H. reflexivity.
Qed.

Corollary nf_bt_func_only_from_func : forall cx ecx bt j,
  nf_bt cx ecx bt = BT_Func j -> exists i, bt = BT_Func i.
Proof.
  intros cx ecx bt j H. destruct bt as [|t|i].
  - rewrite nf_bt_empty in H. discriminate.
  - rewrite nf_bt_val in H. discriminate.
  - exists i. reflexivity.
Qed.

(* the converse reading: an inline block type in the input is the SAME inline block type in
   the output, so a module without function-typed blocks has none afterwards *)
Corollary nf_bt_inline_fixed : forall cx ecx bt,
  (forall i, bt <> BT_Func i) -> nf_bt cx ecx bt = bt.
Proof.
  intros cx ecx bt H. destruct bt as [|t|i]; [reflexivity|reflexivity|]. now elim (H i).
Qed.

(* all RPlain operators of a source tree, nested ones included *)
Fixpoint plain_ops (t : rt) {struct t} : list wop :=
  let pl := fix pl (l : list rt) {struct l} : list wop :=
      match l with [] => [] | x :: l' => plain_ops x ++ pl l' end in
  match t with
  | RPlain o _ => [o]
  | RNop _ | RBr _ _ | RBrIf _ _ | RBrTable _ _ _ => []
  | RBlock _ b _ _ | RLoop _ b _ _ => pl b
  | RIf _ th el _ _ => pl th ++ match el with Some (_, eb) => pl eb | None => [] end
  end.
Fixpoint plain_ops_list (l : list rt) : list wop :=
  match l with [] => [] | x :: l' => plain_ops x ++ plain_ops_list l' end.

Definition pl_inner :=
  fix pl (l : list rt) {struct l} : list wop :=
    match l with [] => [] | x :: l' => plain_ops x ++ pl l' end.
Lemma pl_inner_eq l : pl_inner l = plain_ops_list l.
Proof. induction l as [|t l IH]; [reflexivity|]. cbn [pl_inner plain_ops_list]. fold pl_inner. now rewrite IH. Qed.

Lemma plain_ops_block bt b l e : plain_ops (RBlock bt b l e) = plain_ops_list b.
Proof. rewrite <- pl_inner_eq. reflexivity. Qed.
Lemma plain_ops_loop bt b l e : plain_ops (RLoop bt b l e) = plain_ops_list b.
Proof. rewrite <- pl_inner_eq. reflexivity. Qed.
Lemma plain_ops_if_none bt th l e : plain_ops (RIf bt th None l e) = plain_ops_list th ++ [].
Proof. rewrite <- pl_inner_eq. reflexivity. Qed.
Lemma plain_ops_if_some bt th le eb l e :
  plain_ops (RIf bt th (Some (le, eb)) l e) = plain_ops_list th ++ plain_ops_list eb.
Proof. rewrite <- !pl_inner_eq. reflexivity. Qed.

Definition ctl_count (P : wins -> bool) (ws : list wins) : nat := length (filter P ws).

Definition is_block (w : wins) : bool := match w with WBlock _ => true | _ => false end.
Definition is_loop (w : wins) : bool := match w with WLoop _ => true | _ => false end.
Definition is_if (w : wins) : bool := match w with WIf _ => true | _ => false end.
Definition is_br (w : wins) : bool := match w with WBr _ => true | _ => false end.
Definition is_br_if (w : wins) : bool := match w with WBrIf _ => true | _ => false end.
Definition is_br_table (w : wins) : bool := match w with WBrTable _ _ => true | _ => false end.

(* the plain operators are those of the flattened stream *)
Lemma flat_plain_ops o loc :
  (forall t, In (WOp o, loc) (flat t) -> In o (plain_ops t)) /\
  (forall l, In (WOp o, loc) (flat_list l) -> In o (plain_ops_list l)).
Proof.
  apply rt_list_ind.
  - intros [].
  - intros t l Ht Hl H. change (flat_list (t :: l)) with (flat t ++ flat_list l) in H.
    cbn [plain_ops_list]. apply in_app_or in H. apply in_or_app. tauto.
  - intros o' l [E|[]]. left. congruence.
  - intros l [E|[]]. discriminate.
  - intros d l [E|[]]. discriminate.
  - intros d l [E|[]]. discriminate.
  - intros ds d l [E|[]]. discriminate.
  - intros bt b l e Hb [E|H]; [discriminate|]. rewrite plain_ops_block.
    apply in_app_or in H as [H|[E|[]]]; [auto|discriminate].
  - intros bt b l e Hb [E|H]; [discriminate|]. rewrite plain_ops_loop.
    apply in_app_or in H as [H|[E|[]]]; [auto|discriminate].
  - intros bt th l e Ht [E|H]; [discriminate|]. rewrite plain_ops_if_none, app_nil_r.
    apply in_app_or in H as [H|[E|[]]]; [auto|discriminate].
  - intros bt th le eb l e Ht He [E|H]; [discriminate|]. rewrite plain_ops_if_some. apply in_or_app.
    apply in_app_or in H as [H|[E|H]]; [auto|discriminate|].
    apply in_app_or in H as [H|[E|[]]]; [auto|discriminate].
Qed.

(* the origin of every operator of the normal form:
   [ops] = the plain operators of the source, [src] = its flattened operator stream *)
Section Origin.
  Variable cx : pctx.
  Variable ecx : ectx.

  Definition origin (ops : list wop) (src : list wins) (w : wins) : Prop :=
    match w with
    | WOp _ | WNop => exists o, In o ops /\ w = nf_op cx ecx o
    | WBr _ | WBrIf _ | WBrTable _ _ => In w src
    | WBlock b => exists bt, b = nf_bt cx ecx bt /\ In (WBlock bt) src
    | WLoop b => exists bt, b = nf_bt cx ecx bt /\ In (WLoop bt) src
    | WIf b => exists bt, b = nf_bt cx ecx bt /\ In (WIf bt) src
    | WElse | WEnd => True
    end.

  Lemma nf_op_shape o : (exists w, nf_op cx ecx o = WOp w) \/ nf_op cx ecx o = WNop.
  Proof. unfold nf_op. destruct (encode_plain (ex_id2i ecx) (dec cx o)) as [w|]; [left; now exists w|now right]. Qed.

  Lemma origin_op ops src o : In o ops -> origin ops src (nf_op cx ecx o).
  Proof.
    intros Hi. assert (H : exists o', In o' ops /\ nf_op cx ecx o = nf_op cx ecx o') by (exists o; auto).
    destruct (nf_op_shape o) as [[w E]|E]; rewrite E in *; exact H.
  Qed.

  (* for an output operator [w] this reads, by computation: a plain operator is the re-encoding
     of a source operator; a branch occurs unchanged in the source; a block / loop / if carries the
     normal form of the block type of a source block / loop / if *)
  Theorem nf_origin : forall u l x w, In x (fst (nf_list cx ecx u l)) -> snd x = w ->
    origin (plain_ops_list l) (map fst (flat_list l)) w.
  Proof.
    intros u l x w Hx <-. pose proof (nf_list_from cx ecx u l) as H. rewrite Forall_forall in H.
    destruct (H x Hx) as [->|(wi & Hi & Hn & ->)]; [exact I|].
    pose proof (in_map fst _ _ Hi) as Hs. cbn [fst] in Hs.
    destruct wi; cbn [renw origin]; eauto.
    - apply origin_op. exact (proj2 (flat_plain_ops _ _) l Hi).
    - now elim Hn.
  Qed.
End Origin.

(* no operator is invented *)
Theorem nf_ops_from_input : forall cx ecx u l x w,
  In x (fst (nf_list cx ecx u l)) -> snd x = WOp w ->
  exists o, In o (plain_ops_list l) /\ nf_op cx ecx o = WOp w.
Proof.
  intros cx ecx u l x w Hx E. destruct (nf_origin cx ecx u l x _ Hx E) as (o & Hi & Eo). eauto.
Qed.

(* branch immediates are never changed *)
Theorem nf_br_table_from_input : forall cx ecx u l x ds d,
  In x (fst (nf_list cx ecx u l)) -> snd x = WBrTable ds d -> In (WBrTable ds d) (map fst (flat_list l)).
Proof. intros cx ecx u l x ds d. apply nf_origin. Qed.

Theorem nf_br_depths_from_input : forall cx ecx u l x d,
  In x (fst (nf_list cx ecx u l)) -> snd x = WBr d \/ snd x = WBrIf d ->
  In (WBr d) (map fst (flat_list l)) \/ In (WBrIf d) (map fst (flat_list l)).
Proof.
  intros cx ecx u l x d Hx [E|E]; [left|right]; exact (nf_origin cx ecx u l x _ Hx E).
Qed.

(* block-typed control operators: the output block type is the normal form of an input block
   type of the SAME construct (so, by part 1, a function-typed one only from a function-typed one) *)
Theorem nf_block_from_input : forall cx ecx u l x b,
  In x (fst (nf_list cx ecx u l)) -> snd x = WBlock b ->
  exists bt, b = nf_bt cx ecx bt /\ In (WBlock bt) (map fst (flat_list l)).
Proof. intros cx ecx u l x b. apply nf_origin. Qed.
Theorem nf_loop_from_input : forall cx ecx u l x b,
  In x (fst (nf_list cx ecx u l)) -> snd x = WLoop b ->
  exists bt, b = nf_bt cx ecx bt /\ In (WLoop bt) (map fst (flat_list l)).
Proof. intros cx ecx u l x b. apply nf_origin. Qed.
Theorem nf_if_from_input : forall cx ecx u l x b,
  In x (fst (nf_list cx ecx u l)) -> snd x = WIf b ->
  exists bt, b = nf_bt cx ecx bt /\ In (WIf bt) (map fst (flat_list l)).
Proof. intros cx ecx u l x b. apply nf_origin. Qed.

(* a body without function-typed blocks has none afterwards *)
Definition func_typed (w : wins) : Prop :=
  exists j, w = WBlock (BT_Func j) \/ w = WLoop (BT_Func j) \/ w = WIf (BT_Func j).
Corollary nf_no_new_func_blocktype : forall cx ecx u l,
  (forall w, In w (map fst (flat_list l)) -> ~ func_typed w) ->
  forall x, In x (fst (nf_list cx ecx u l)) -> ~ func_typed (snd x).
Proof.
  intros cx ecx u l Hsrc x Hx [j [E|[E|E]]].
  - destruct (nf_block_from_input cx ecx u l x _ Hx E) as (bt & Eb & Hi). symmetry in Eb.
    destruct (nf_bt_func_only_from_func cx ecx bt j Eb) as [i ->]. apply (Hsrc _ Hi). exists i. auto.
  - destruct (nf_loop_from_input cx ecx u l x _ Hx E) as (bt & Eb & Hi). symmetry in Eb.
    destruct (nf_bt_func_only_from_func cx ecx bt j Eb) as [i ->]. apply (Hsrc _ Hi). exists i. auto.
  - destruct (nf_if_from_input cx ecx u l x _ Hx E) as (bt & Eb & Hi). symmetry in Eb.
    destruct (nf_bt_func_only_from_func cx ecx bt j Eb) as [i ->]. apply (Hsrc _ Hi). exists i. auto.
Qed.

(* no control operator is added (else / end excepted) *)
Lemma ctl_count_app P a b : ctl_count P (a ++ b) = ctl_count P a + ctl_count P b.
Proof. unfold ctl_count. now rewrite filter_app, app_length. Qed.
Lemma ctl_count_cons P w a : ctl_count P (w :: a) = (if P w then 1 else 0) + ctl_count P a.
Proof. unfold ctl_count. cbn [filter]. destruct (P w); reflexivity. Qed.
Lemma ctl_count_nil P : ctl_count P [] = 0.
Proof. reflexivity. Qed.

(* the predicates the count theorem applies to: blind to block types, false on else / end / nop
   and on every plain operator *)
Record ctl_pred (P : wins -> bool) : Prop := {
  cp_else : P WElse = false; cp_end : P WEnd = false; cp_nop : P WNop = false;
  cp_op : forall o, P (WOp o) = false;
  cp_block : forall a b, P (WBlock a) = P (WBlock b);
  cp_loop : forall a b, P (WLoop a) = P (WLoop b);
  cp_if : forall a b, P (WIf a) = P (WIf b) }.

Section Count.
  Variable cx : pctx.
  Variable ecx : ectx.
  Variable P : wins -> bool.
  Hypothesis HP : ctl_pred P.

  Definition Ct (t : rt) := forall u, ctl_count P (map snd (fst (nf cx ecx u t))) <= ctl_count P (map fst (flat t)).
  Definition Cl (l : list rt) := forall u, ctl_count P (map snd (fst (nf_list cx ecx u l))) <= ctl_count P (map fst (flat_list l)).

  Lemma P_nf_op o : P (nf_op cx ecx o) = false.
  Proof. destruct (nf_op_shape cx ecx o) as [[w E]|E]; rewrite E; [apply (cp_op P HP)|apply (cp_nop P HP)]. Qed.

  Ltac norm := repeat (rewrite ?map_app, ?ctl_count_app, ?ctl_count_cons, ?ctl_count_nil; cbn [map fst snd]).

  Lemma nf_count_both : (forall t, Ct t) /\ (forall l, Cl l).
  Proof.
    apply rt_list_ind.
    - intros u. cbn. lia.
    - intros t l Ht IH u. rewrite nf_list_cons. cbn [fst]. change (flat_list (t :: l)) with (flat t ++ flat_list l).
      rewrite !map_app, !ctl_count_app. specialize (Ht u). specialize (IH (snd (nf cx ecx u t))). lia.
    - intros o l u. cbn [nf fst flat]. destruct u; norm; [lia|]. rewrite P_nf_op. lia.
    - intros l u. cbn [nf fst flat]. norm. lia.
    - intros d l u. cbn [nf fst flat]. destruct u; norm; lia.
    - intros d l u. cbn [nf fst flat]. destruct u; norm; lia.
    - intros ds d l u. cbn [nf fst flat]. destruct u; norm; lia.
    - intros bt body l e HF u. rewrite nf_block. cbn [fst flat]. fold (flat_list body).
      destruct u; norm; [lia|]. specialize (HF false).
      rewrite (cp_block P HP (nf_bt cx ecx bt) bt), (cp_end P HP). lia.
    - intros bt body l e HF u. rewrite nf_loop. cbn [fst flat]. fold (flat_list body).
      destruct u; norm; [lia|]. specialize (HF false).
      rewrite (cp_loop P HP (nf_bt cx ecx bt) bt), (cp_end P HP). lia.
    - intros bt th l e HFt u. rewrite nf_if_none. cbn [fst flat]. fold (flat_list th). destruct u; norm; [lia|].
      specialize (HFt false).
      rewrite (cp_if P HP (nf_bt cx ecx bt) bt), (cp_end P HP), (cp_else P HP). lia.
    - intros bt th le eb l e HFt HFe u. rewrite nf_if_some. cbn [fst flat].
      fold (flat_list th). fold (flat_list eb). destruct u; norm; [lia|].
      specialize (HFt false). specialize (HFe false).
      rewrite (cp_if P HP (nf_bt cx ecx bt) bt), (cp_end P HP), (cp_else P HP). lia.
  Qed.

  Theorem nf_count_list : forall u l,
    ctl_count P (map snd (fst (nf_list cx ecx u l))) <= ctl_count P (map fst (flat_list l)).
  Proof. intros u l. apply (proj2 nf_count_both). Qed.
End Count.

Lemma ctl_pred_block : ctl_pred is_block. Proof. constructor; reflexivity. Qed.
Lemma ctl_pred_loop : ctl_pred is_loop. Proof. constructor; reflexivity. Qed.
Lemma ctl_pred_if : ctl_pred is_if. Proof. constructor; reflexivity. Qed.
Lemma ctl_pred_br : ctl_pred is_br. Proof. constructor; reflexivity. Qed.
Lemma ctl_pred_br_if : ctl_pred is_br_if. Proof. constructor; reflexivity. Qed.
Lemma ctl_pred_br_table : ctl_pred is_br_table. Proof. constructor; reflexivity. Qed.

Theorem nf_ctl_not_increased : forall cx ecx u l P,
  In P [is_block; is_loop; is_if; is_br; is_br_if; is_br_table] ->
  ctl_count P (map snd (fst (nf_list cx ecx u l))) <= ctl_count P (map fst (flat_list l)).
Proof.
  intros cx ecx u l P HP. apply nf_count_list. cbn [In] in HP.
  destruct HP as [<-|[<-|[<-|[<-|[<-|[<-|[]]]]]]].
  - exact ctl_pred_block. - exact ctl_pred_loop. - exact ctl_pred_if.
  - exact ctl_pred_br. - exact ctl_pred_br_if. - exact ctl_pred_br_table.
Qed.

Lemma rmapM_length {A B} (f : A -> res B) : forall l ys, rmapM f l = Ok ys -> length ys = length l.
Proof.
  induction l as [|a l IH]; intros ys H; cbn [rmapM] in H.
  - injection H as <-. reflexivity.
  - destruct (f a) as [y| |]; cbn [rbind] in H; try discriminate H.
    destruct (rmapM f l) as [ys'| |]; cbn [rbind] in H; try discriminate H.
    injection H as <-. cbn [length]. f_equal. now apply IH.
Qed.

Lemma rmapM_In {A B} (f : A -> res B) : forall l ys, rmapM f l = Ok ys ->
  forall b, In b ys <-> exists a, In a l /\ f a = Ok b.
Proof.
  induction l as [|a l IH]; intros ys H b; cbn [rmapM] in H.
  - injection H as <-. cbn [In]. split; [tauto|intros (a & [] & _)].
  - destruct (f a) as [y| |] eqn:Ea; cbn [rbind] in H; try discriminate H.
    destruct (rmapM f l) as [ys'| |]; cbn [rbind] in H; try discriminate H.
    injection H as <-. cbn [In]. rewrite (IH ys' eq_refl b). split.
    + intros [->|(a' & Hi & E)]; [exists a; auto|exists a'; auto].
    + intros (a' & [<-|Hi] & E); [left; congruence|right; exists a'; auto].
Qed.

(* the two halves of emit_elem *)
Definition emit_elem_items (x : x2i) (e : melem) : res welemitems :=
  match el_items e with
  | ELI_Funcs fs => rmap WEI_Funcs (rmapM (get_idx x S_func) fs)
  | ELI_Exprs t es => rmap (WEI_Exprs t) (rmapM (emit_const x) es)
  end.
Definition emit_elem_kind (x : x2i) (e : melem) : res welemkind :=
  match el_kind e with
  | ELK_Passive => Ok WEK_Passive
  | ELK_Declared => Ok WEK_Declared
  | ELK_Active t off =>
      rbind (get_idx x S_table t) (fun ti =>
      rbind (emit_const x off) (fun o =>
      Ok (WEK_Active (if N.eqb ti 0 then None else Some ti) o)))
  end.
Lemma emit_elem_split x e we : emit_elem x e = Ok we ->
  emit_elem_items x e = Ok (wel_items we) /\ emit_elem_kind x e = Ok (wel_kind we).
Proof.
  unfold emit_elem. fold (emit_elem_items x e). fold (emit_elem_kind x e). intros H.
  destruct (emit_elem_items x e) as [it| |]; cbn [rbind] in H; try discriminate H.
  destruct (emit_elem_kind x e) as [k| |]; cbn [rbind] in H; try discriminate H.
  injection H as <-. cbn [wel_items wel_kind]. auto.
Qed.

(* an active segment of table 0 is emitted in the MVP form (no explicit table index) *)
Theorem emit_elem_table0 : forall x e we t off,
  emit_elem x e = Ok we -> el_kind e = ELK_Active t off -> get_idx x S_table t = Ok 0%N ->
  exists o, wel_kind we = WEK_Active None o.
Proof.
  intros x e we t off H Ek Et. apply emit_elem_split in H. destruct H as [_ H].
  unfold emit_elem_kind in H. rewrite Ek, Et in H. cbn [rbind] in H.
  destruct (emit_const x off) as [o| |]; cbn [rbind] in H; try discriminate H.
  injection H as H. exists o. rewrite <- H. reflexivity.
Qed.

(* conversely the explicit-table form is used only for a table whose index is not 0 *)
Theorem emit_elem_explicit_table : forall x e we ti o,
  emit_elem x e = Ok we -> wel_kind we = WEK_Active (Some ti) o ->
  exists t off, el_kind e = ELK_Active t off /\ get_idx x S_table t = Ok ti /\ ti <> 0%N /\ emit_const x off = Ok o.
Proof.
  intros x e we ti o H Ek. apply emit_elem_split in H. destruct H as [_ H]. rewrite Ek in H.
  unfold emit_elem_kind in H. destruct (el_kind e) as [| |t off]; try discriminate H.
  destruct (get_idx x S_table t) as [ti'| |] eqn:Et; cbn [rbind] in H; try discriminate H.
  destruct (emit_const x off) as [o'| |] eqn:Eo; cbn [rbind] in H; try discriminate H.
  destruct (N.eqb ti' 0) eqn:E0; [discriminate H|]. injection H as -> ->.
  exists t, off. apply N.eqb_neq in E0. auto.
Qed.

(* kinds and item encodings are preserved, in both directions *)
Theorem emit_elem_kind_shape : forall x e we, emit_elem x e = Ok we ->
  (el_kind e = ELK_Passive <-> wel_kind we = WEK_Passive) /\
  (el_kind e = ELK_Declared <-> wel_kind we = WEK_Declared) /\
  ((exists t off, el_kind e = ELK_Active t off) <-> (exists ti o, wel_kind we = WEK_Active ti o)) /\
  (forall fs, el_items e = ELI_Funcs fs ->
     exists fs', wel_items we = WEI_Funcs fs' /\ length fs' = length fs) /\
  (forall t es, el_items e = ELI_Exprs t es ->
     exists es', wel_items we = WEI_Exprs t es' /\ length es' = length es) /\
  (forall fs', wel_items we = WEI_Funcs fs' -> exists fs, el_items e = ELI_Funcs fs) /\
  (forall t es', wel_items we = WEI_Exprs t es' -> exists es, el_items e = ELI_Exprs t es).
Proof.
  intros x e we H. apply emit_elem_split in H. destruct H as [Hi Hk].
  unfold emit_elem_kind in Hk. unfold emit_elem_items in Hi.
  assert (K : match el_kind e with
              | ELK_Passive => wel_kind we = WEK_Passive
              | ELK_Declared => wel_kind we = WEK_Declared
              | ELK_Active _ _ => exists ti o, wel_kind we = WEK_Active ti o end).
  { destruct (el_kind e) as [| |t off].
    - now injection Hk.
    - now injection Hk.
    - destruct (get_idx x S_table t) as [ti| |]; cbn [rbind] in Hk; try discriminate Hk.
      destruct (emit_const x off) as [o| |]; cbn [rbind] in Hk; try discriminate Hk.
      injection Hk as <-. eauto. }
  assert (I : match el_items e with
              | ELI_Funcs fs => exists fs', wel_items we = WEI_Funcs fs' /\ length fs' = length fs
              | ELI_Exprs t es => exists es', wel_items we = WEI_Exprs t es' /\ length es' = length es end).
  { destruct (el_items e) as [fs|t es].
    - destruct (rmapM (get_idx x S_func) fs) as [fs'| |] eqn:E; cbn [rmap] in Hi; try discriminate Hi.
      injection Hi as <-. exists fs'. split; [reflexivity|]. exact (rmapM_length _ _ _ E).
    - destruct (rmapM (emit_const x) es) as [es'| |] eqn:E; cbn [rmap] in Hi; try discriminate Hi.
      injection Hi as <-. exists es'. split; [reflexivity|]. exact (rmapM_length _ _ _ E). }
  clear Hi Hk.
  repeat split.
  - intros E. now rewrite E in K.
  - intros E. destruct (el_kind e); [reflexivity|congruence|destruct K as (? & ? & K); congruence].
  - intros E. now rewrite E in K.
  - intros E. destruct (el_kind e); [congruence|reflexivity|destruct K as (? & ? & K); congruence].
  - intros (t & off & E). now rewrite E in K.
  - intros (ti & o & E). destruct (el_kind e) as [| |t off]; [congruence|congruence|eauto].
  - intros fs E. now rewrite E in I.
  - intros t es E. now rewrite E in I.
  - intros fs' E. destruct (el_items e) as [fs|t es]; [eauto|]. destruct I as (? & I & _). congruence.
  - intros t es' E. destruct (el_items e) as [fs|t0 es].
    + destruct I as (? & I & _). congruence.
    + destruct I as (? & I & _). rewrite I in E. injection E as -> _. eauto.
Qed.

Lemma existsb_id_In (us : list bool) : existsb (fun b => b) us = true <-> In true us.
Proof.
  rewrite existsb_exists. split; [intros (b & Hi & ->); exact Hi|intros Hi; exists true; auto].
Qed.

Theorem emit_data_count_iff : forall m x secs x', emit_data_count m x = Ok (secs, x') ->
  (secs <> [] <->
   (aiter (m_data m) <> [] /\
    (existsb (fun p => match da_kind (snd p) with DK_Passive => true | _ => false end) (aiter (m_data m)) = true \/
     exists p lf, In p (aiter (m_funcs m)) /\ fn_kind (snd p) = FK_Local lf /\ uses_data lf = Ok true))).
Proof.
  intros m x secs x' H. unfold emit_data_count in H.
  destruct (aiter (m_data m)) as [|d0 dl] eqn:Ed.
  - injection H as <- _. split; [intros C; now elim C|intros [C _]; now elim C].
  - set (l := d0 :: dl) in *.
    set (f := fun p : N * mfunc => match fn_kind (snd p) with FK_Local lf => uses_data lf | _ => Ok false end) in *.
    destruct (rmapM f (aiter (m_funcs m))) as [us| |] eqn:Eu; cbn [rbind] in H; try discriminate H.
    pose proof (rmapM_In f _ _ Eu true) as Hin.
    assert (Hus : existsb (fun b => b) us = true <->
                  exists p lf, In p (aiter (m_funcs m)) /\ fn_kind (snd p) = FK_Local lf /\ uses_data lf = Ok true).
    { rewrite existsb_id_In, Hin. split.
      - intros (p & Hp & E). unfold f in E. destruct (fn_kind (snd p)) as [? ?|lf|?] eqn:Ek; try discriminate E.
        exists p, lf. auto.
      - intros (p & lf & Hp & Ek & E). exists p. split; [exact Hp|]. unfold f. now rewrite Ek. }
    set (ap := existsb (fun p : N * mdata => match da_kind (snd p) with DK_Passive => true | _ => false end) l) in *.
    destruct (ap || existsb (fun b => b) us) eqn:Eor.
    + injection H as <- _. split; [|intros _; discriminate].
      intros _. split; [discriminate|]. apply orb_true_iff in Eor. destruct Eor as [E|E]; [left; exact E|right; now apply Hus].
    + injection H as <- _. apply orb_false_iff in Eor. destruct Eor as [E1 E2]. split; [intros C; now elim C|].
      intros [_ [E|E]]; [congruence|]. apply Hus in E. congruence.
Qed.

Print Assumptions nf_bt_func_only_from_func.
Print Assumptions nf_ops_from_input.
Print Assumptions nf_ctl_not_increased.
Print Assumptions nf_br_depths_from_input.
Print Assumptions nf_br_table_from_input.
Print Assumptions emit_elem_table0.
Print Assumptions emit_elem_kind_shape.
Print Assumptions emit_data_count_iff.
