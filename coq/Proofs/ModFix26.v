(* C08, module level fixpoint, part 26: the parse-side invariant [offsets_ok] (the offset constant of an active
   segment has the index type of its table / memory): the definition, the transport lemmas, and the establishing
   lemma for parse_elem.  ModFix32 proves it of every parsed module. *)
From Coq Require Import List NArith ZArith Bool Arith Lia.
Import ListNotations.
From WV Require Import Gen.Ops Model.Common Model.IR Model.Arena Model.ModuleM Model.ParseM Model.EmitM Gen.Attrs.
From WV Require Import Proofs.Arena Proofs.IndexMaps Proofs.Structure Proofs.Structure2.
Local Open Scope nat_scope.

Definition offsets_ok (m : wir) : Prop :=
  (forall id e t off, In (id, e) (aiter (m_elements m)) -> el_kind e = ELK_Active t off ->
     exists tb, aget (m_tables m) t = Some tb /\ offset_ok m (tb_64 tb) off = POk true) /\
  (forall id d mem off, In (id, d) (aiter (m_data m)) -> da_kind d = DK_Active mem off ->
     exists me, aget (m_memories m) mem = Some me /\ offset_ok m (me_64 me) off = POk true).

(* offset_ok reads the module only through the value types of its globals *)
Lemma offset_ok_globals m m' b off : m_globals m' = m_globals m -> offset_ok m' b off = offset_ok m b off.
Proof. intros H. unfold offset_ok. destruct off as [v|g|t|f]; try reflexivity. unfold global_ty. rewrite H. reflexivity. Qed.

(* parse_elem establishes the clause for the segment it appends *)
Lemma parse_elem_offset m ids e m1 ids1 : parse_elem m ids e = POk (m1, ids1) ->
  m_globals m1 = m_globals m /\
  exists kind its, items (m_elements m1) = items (m_elements m) ++ [{| el_kind := kind; el_items := its; el_name := None |}] /\
    match kind with
    | ELK_Active t off => exists tb, aget (m_tables m) t = Some tb /\ offset_ok m1 (tb_64 tb) off = POk true
    | _ => True end.
Proof.
  intros Ex. unfold parse_elem in Ex. pinv Ex as its Eits. pinv Ex as mk Emk. destruct mk as [m2 kind].
  wcbn. inversion Ex; subst m1 ids1; clear Ex. wcbn.
  assert (H : m_globals m2 = m_globals m /\ m_elements m2 = m_elements m /\
              match kind with
              | ELK_Active t off => exists tb, aget (m_tables m) t = Some tb /\ offset_ok m2 (tb_64 tb) off = POk true
              | _ => True end).
  { destruct (wel_kind e) as [| |tbl off].
    - inversion Emk; subst; repeat split.
    - inversion Emk; subst; repeat split.
    - pinv Emk as tid Etid. pinv Emk as tb Etb. pinv Emk as o Eo. pinv Emk as ok Eok. destruct ok; [|discriminate].
      inversion Emk; subst m2 kind; clear Emk. wcbn. split; [reflexivity|]. split; [reflexivity|].
      exists tb. split; [|exact Eok]. destruct (aget (m_tables m) tid); [inversion Etb; reflexivity|discriminate]. }
  destruct H as (Hg & He & Hk). split; [exact Hg|]. exists kind, its. split; [rewrite He; reflexivity|].
  destruct kind as [| |t off]; try exact I. destruct Hk as (tb & Ht & Ho). exists tb. split; [exact Ht|].
  rewrite <- Ho. apply offset_ok_globals. wcbn. reflexivity.
Qed.

(* the check as a function of the list of the globals' value types; it survives appending globals *)
Definition offL (G : list valty) (is64 : bool) (c : mconst) : bool :=
  match c with
  | MC_Value (V_I64 _) => is64
  | MC_Value (V_I32 _) => negb is64
  | MC_Global g => match nth_error G (N.to_nat g) with Some VT_I64 => is64 | Some VT_I32 => negb is64 | _ => false end
  | _ => false
  end.
Lemma offL_mono G ext b c : offL G b c = true -> offL (G ++ ext) b c = true.
Proof.
  unfold offL. destruct c as [v|g|t|f]; try (intros H; exact H).
  destruct (nth_error G (N.to_nat g)) as [ty|] eqn:En; [|discriminate].
  assert (L : N.to_nat g < length G) by (apply nth_error_Some; rewrite En; discriminate).
  rewrite (nth_error_app1 _ _ L), En. intros H; exact H.
Qed.

Definition G_tys (m : wir) : list valty := map gl_ty (items (m_globals m)).
Lemma global_ty_nth m g : dead (m_globals m) = [] -> global_ty m g = nth_error (G_tys m) (N.to_nat g).
Proof. intros D. unfold global_ty, G_tys. rewrite (aget_nodead _ _ D), nth_error_map. reflexivity. Qed.
Lemma POk_true_iff (b : bool) : @POk bool b = POk true <-> b = true.
Proof. split; [intros H; injection H as H; exact H|intros ->; reflexivity]. Qed.
Lemma offset_ok_offL m b c : dead (m_globals m) = [] -> (offset_ok m b c = POk true <-> offL (G_tys m) b c = true).
Proof.
  intros D. unfold offset_ok, offL. destruct c as [v|g|t|f]; try apply POk_true_iff.
  - destruct v; apply POk_true_iff.
  - rewrite (global_ty_nth _ _ D). destruct (nth_error (G_tys m) (N.to_nat g)) as [ty|]; cbn [of_opt_panic pbind].
    + destruct ty; apply POk_true_iff.
    + split; discriminate.
Qed.
Lemma offset_ok_mono m m' b off ext : dead (m_globals m) = [] -> dead (m_globals m') = [] -> G_tys m' = G_tys m ++ ext ->
  offset_ok m b off = POk true -> offset_ok m' b off = POk true.
Proof. intros D D' HG H. apply (offset_ok_offL _ _ _ D'). rewrite HG. apply offL_mono, (offset_ok_offL _ _ _ D), H. Qed.

Print Assumptions parse_elem_offset.
Print Assumptions offset_ok_mono.
